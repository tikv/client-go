(* Pipelined/ProofsBuf.v — the order on keys; buffers as association lists (lookup after insert / overlay / filter,
   sortedness = one entry per key, first and last key); a few list facts *)
From Verif Require Import Base.Lex Pipelined.Model.
From Coq Require Import Sorting.Sorted.

Definition kle (a b : key) : Prop := lex_leb a b = true.
Definition klt (a b : key) : Prop := lex_cmp a b = Lt.

Lemma kle_cases a b : lex_leb a b = true <-> (lex_cmp a b = Lt \/ a = b).
Proof.
  unfold lex_leb. rewrite <- (lex_cmp_eq a b). destruct (lex_cmp a b); split; intros H; try tauto; try discriminate.
  - destruct H; discriminate.
Qed.

Lemma kle_refl a : kle a a.
Proof. apply kle_cases; right; reflexivity. Qed.

Lemma klt_kle a b : klt a b -> kle a b.
Proof. intros H; apply kle_cases; left; exact H. Qed.

Lemma kle_trans a b c : kle a b -> kle b c -> kle a c.
Proof.
  unfold kle; rewrite !kle_cases. intros [H1| ->] [H2| ->]; auto.
  left; eapply lex_cmp_lt_trans; eassumption.
Qed.

Lemma klt_kle_trans a b c : klt a b -> kle b c -> klt a c.
Proof. unfold kle, klt; rewrite kle_cases. intros H1 [H2| ->]; auto. eapply lex_cmp_lt_trans; eassumption. Qed.

Lemma kle_klt_trans a b c : kle a b -> klt b c -> klt a c.
Proof. unfold kle, klt; rewrite kle_cases. intros [H1| ->] H2; auto. eapply lex_cmp_lt_trans; eassumption. Qed.

Lemma not_kle_klt a b : lex_leb a b = false -> klt b a.
Proof.
  unfold lex_leb, klt. rewrite (lex_cmp_antisym a b). destruct (lex_cmp a b); cbn; congruence.
Qed.

Lemma klt_not_kle a b : klt a b -> lex_leb b a = false.
Proof. unfold lex_leb, klt. rewrite (lex_cmp_antisym a b). intros ->; reflexivity. Qed.

Lemma kle_nil a : kle a [] -> a = [].
Proof. destruct a; [reflexivity|discriminate]. Qed.

Lemma klt_irrefl a : ~ klt a a.
Proof. unfold klt; rewrite lex_cmp_refl; discriminate. Qed.

Lemma klt_next_key a : klt a (next_key a).
Proof. unfold klt, next_key. induction a as [|x a IH]; cbn [app lex_cmp]; [reflexivity|]. rewrite N.compare_refl; exact IH. Qed.

Lemma bytes_eqb_refl a : bytes_eqb a a = true.
Proof. apply bytes_eqb_eq; reflexivity. Qed.

Lemma bytes_eqb_neq a b : a <> b -> bytes_eqb a b = false.
Proof. intros H. destruct (bytes_eqb a b) eqn:E; [|reflexivity]. apply bytes_eqb_eq in E; contradiction. Qed.

Lemma lookup_insert k v b k' :
  lookup k' (insert k v b) = if bytes_eqb k' k then Some v else lookup k' b.
Proof.
  induction b as [|[k0 v0] r IH]; cbn [insert lookup]; [reflexivity|].
  destruct (lex_cmp k k0) eqn:E; cbn [lookup].
  - apply lex_cmp_eq in E; subst k0. destruct (bytes_eqb k' k); reflexivity.
  - reflexivity.
  - rewrite IH. destruct (bytes_eqb k' k0) eqn:E0; [|reflexivity].
    apply bytes_eqb_eq in E0; subst k0.
    rewrite bytes_eqb_neq; [reflexivity|]. intros ->. rewrite lex_cmp_refl in E; discriminate.
Qed.

Lemma lookup_insert_same k v b : lookup k (insert k v b) = Some v.
Proof. rewrite lookup_insert, bytes_eqb_refl; reflexivity. Qed.

Lemma lookup_overlay top bot k :
  lookup k (overlay top bot) = match lookup k top with Some v => Some v | None => lookup k bot end.
Proof.
  unfold overlay. induction top as [|[k0 v0] r IH]; cbn [fold_right lookup fst snd]; [reflexivity|].
  rewrite lookup_insert. destruct (bytes_eqb k k0); [reflexivity|exact IH].
Qed.

Lemma lookup_In k b v : lookup k b = Some v -> In k (map fst b).
Proof.
  induction b as [|[k0 v0] r IH]; cbn [lookup map fst]; [discriminate|].
  destruct (bytes_eqb k k0) eqn:E; intros H.
  - apply bytes_eqb_eq in E; left; congruence.
  - right; auto.
Qed.

Lemma In_lookup k b : In k (map fst b) -> exists v, lookup k b = Some v.
Proof.
  induction b as [|[k0 v0] r IH]; cbn [lookup map fst In]; [tauto|].
  intros [-> |H].
  - rewrite bytes_eqb_refl; eauto.
  - destruct (bytes_eqb k k0); eauto.
Qed.

Lemma insert_keys k v b x : In x (map fst (insert k v b)) -> x = k \/ In x (map fst b).
Proof.
  induction b as [|[k0 v0] r IH]; cbn [insert map fst In].
  - intros [<- |[]]; auto.
  - destruct (lex_cmp k k0) eqn:E; cbn [map fst In].
    + apply lex_cmp_eq in E; subst. intros [<- |H]; auto.
    + intros [<- |[<- |H]]; auto.
    + intros [<- |H]; auto. destruct (IH H); auto.
Qed.

Lemma insert_has_key k v b : In k (map fst (insert k v b)).
Proof. eapply lookup_In; apply lookup_insert_same. Qed.

Lemma insert_keeps_keys k v b x : In x (map fst b) -> In x (map fst (insert k v b)).
Proof.
  intros H. apply In_lookup in H as [w Hw].
  destruct (bytes_eqb x k) eqn:E.
  - apply bytes_eqb_eq in E; subst; apply insert_has_key.
  - eapply lookup_In. rewrite lookup_insert, E. exact Hw.
Qed.

Lemma lookup_In_pair k v b : lookup k b = Some v -> In (k, v) b.
Proof.
  induction b as [|[k0 v0] t IH]; cbn [lookup]; [discriminate|]. destruct (bytes_eqb k k0) eqn:E.
  - apply bytes_eqb_eq in E; subst. intros [= ->]; left; reflexivity.
  - intros H; right; auto.
Qed.

Lemma clookup_In k c o : clookup k c = Some o -> In (k, o) c.
Proof.
  induction c as [|[k' o'] t IH]; cbn [clookup]; [discriminate|].
  destruct (bytes_eqb k k') eqn:E; [|intros H; right; auto].
  apply bytes_eqb_eq in E; subst. intros [= ->]; left; reflexivity.
Qed.

Lemma In_filter_keys (f : key * value -> bool) k b : In k (map fst (filter f b)) -> exists v, In (k, v) b /\ f (k, v) = true.
Proof.
  intros H. apply in_map_iff in H as ([k' v] & E & Hin). cbn in E; subst k'. apply filter_In in Hin as [A B]. eauto.
Qed.

Definition bsorted (b : buf) : Prop := StronglySorted klt (map fst b).

Lemma bsorted_nil : bsorted [].
Proof. constructor. Qed.

Lemma insert_sorted k v b : bsorted b -> bsorted (insert k v b).
Proof.
  unfold bsorted. induction b as [|[k0 v0] r IH]; cbn [insert map fst]; intros Hs.
  - repeat constructor.
  - apply StronglySorted_inv in Hs as [Hr Hall].
    destruct (lex_cmp k k0) eqn:E; cbn [map fst].
    + apply lex_cmp_eq in E; subst. constructor; assumption.
    + constructor; [constructor; assumption|].
      constructor; [exact E|]. rewrite Forall_forall in *. intros x Hx. eapply lex_cmp_lt_trans; [exact E|apply Hall; exact Hx].
    + constructor; [apply IH; exact Hr|].
      rewrite Forall_forall in *. intros x Hx. apply insert_keys in Hx as [-> |Hx]; [|apply Hall; exact Hx].
      unfold klt. rewrite (lex_cmp_antisym k k0), E; reflexivity.
Qed.

(* a sorted buffer holds one entry per key *)
Lemma sorted_In_lookup k v b : bsorted b -> In (k, v) b -> lookup k b = Some v.
Proof.
  unfold bsorted. induction b as [|[k0 v0] t IH]; intros Hs Hin; [destruct Hin|].
  cbn [map fst] in Hs. apply StronglySorted_inv in Hs as [Ht Hall]. cbn [lookup].
  destruct Hin as [[= -> ->]|Hin]; [rewrite bytes_eqb_refl; reflexivity|].
  destruct (bytes_eqb k k0) eqn:E; [|apply IH; assumption]. apply bytes_eqb_eq in E; subst k0.
  rewrite Forall_forall in Hall. destruct (klt_irrefl k). apply Hall, in_map_iff. exists (k, v); auto.
Qed.

Lemma lookup_filter (f : key * value -> bool) k b : bsorted b ->
  lookup k (filter f b) = match lookup k b with Some v => if f (k, v) then Some v else None | None => None end.
Proof.
  unfold bsorted. induction b as [|[k0 v0] t IH]; intros Hs; [reflexivity|].
  cbn [map fst] in Hs. apply StronglySorted_inv in Hs as [Ht Hall]. cbn [filter lookup].
  destruct (bytes_eqb k k0) eqn:E.
  - apply bytes_eqb_eq in E; subst k0. destruct (f (k, v0)); cbn [lookup]; [rewrite bytes_eqb_refl; reflexivity|].
    rewrite (IH Ht). destruct (lookup k t) eqn:El; [|reflexivity].
    rewrite Forall_forall in Hall. destruct (klt_irrefl k (Hall k (lookup_In k t v El))).
  - destruct (f (k0, v0)); cbn [lookup]; [rewrite E|]; apply IH, Ht.
Qed.

Lemma first_key_le b k : bsorted b -> In k (map fst b) -> kle (first_key b) k.
Proof.
  unfold bsorted. destruct b as [|[k0 v0] r]; cbn [map fst In first_key]; [tauto|].
  intros Hs [<- |H]; [apply kle_refl|].
  apply StronglySorted_inv in Hs as [_ Hall]. rewrite Forall_forall in Hall. apply klt_kle, Hall, H.
Qed.

Lemma last_key_in b : b <> [] -> In (last_key b) (map fst b).
Proof.
  induction b as [|[k0 v0] r IH]; [congruence|]. intros _. cbn [last_key].
  destruct r as [|p r']; [left; reflexivity|]. right. apply IH; discriminate.
Qed.

Lemma le_last_key b k : bsorted b -> In k (map fst b) -> kle k (last_key b).
Proof.
  unfold bsorted. induction b as [|[k0 v0] r IH]; cbn [map fst In]; [tauto|].
  intros Hs Hin. apply StronglySorted_inv in Hs as [Hr Hall]. cbn [last_key].
  destruct r as [|p r'].
  - destruct Hin as [<- |[]]. apply kle_refl.
  - destruct Hin as [<- |Hin].
    + rewrite Forall_forall in Hall. apply klt_kle, Hall. apply last_key_in; discriminate.
    + apply IH; assumption.
Qed.

Lemma first_key_in b : b <> [] -> In (first_key b) (map fst b).
Proof. destruct b as [|[k v] r]; [congruence|]. intros _; left; reflexivity. Qed.

Lemma is_nil_false {A} (l : list A) : is_nil l = false -> l <> [].
Proof. destruct l; discriminate. Qed.

Lemma nil_no_member {A} (l : list A) : (forall x, ~ In x l) -> l = [].
Proof. destruct l as [|a l]; [reflexivity|]. intros H. destruct (H a). left; reflexivity. Qed.

Lemma key_in_In k l : key_in k l = true <-> In k l.
Proof.
  unfold key_in. rewrite existsb_exists. split.
  - intros (x & Hx & E). apply bytes_eqb_eq in E; subst; exact Hx.
  - intros H. exists k; split; [exact H|apply bytes_eqb_refl].
Qed.

Lemma combine_app {A B} (l1 l2 : list A) (m1 m2 : list B) :
  length l1 = length m1 -> combine (l1 ++ l2) (m1 ++ m2) = combine l1 m1 ++ combine l2 m2.
Proof.
  revert m1; induction l1 as [|a t IH]; intros [|b m1] H; cbn in H; try discriminate; cbn [app combine]; [reflexivity|].
  f_equal. apply IH. lia.
Qed.

Lemma Forall2_impl' {A B} (P Q : A -> B -> Prop) l l' :
  (forall a b, P a b -> Q a b) -> Forall2 P l l' -> Forall2 Q l l'.
Proof. intros H F; induction F; constructor; auto. Qed.

Lemma fold_left_inv {A B} (f : A -> B -> A) (Q : A -> Prop) l a :
  Q a -> (forall a b, In b l -> Q a -> Q (f a b)) -> Q (fold_left f l a).
Proof.
  revert a; induction l as [|b l IH]; intros a Ha Hf; cbn [fold_left]; [exact Ha|].
  apply IH; [apply Hf; [left; reflexivity|exact Ha]|]. intros a' b' Hin. apply Hf; right; exact Hin.
Qed.
