(* Pipelined/Props.v — C16: a pipelined transaction reads its flushed writes; each mutation is flushed once;
   a failed flush fails the transaction; commit/rollback resolves the whole flushed range.
   All statements quantify over every threshold setting P, every op sequence (set / delete / get / batch-get /
   flush (forced or threshold driven, with any observed memory size) / staging ops) and every completion timing and
   outcome of the flush function (OComplete ops and the wait-outcomes carried by OFlush / OFlushWait). *)
From Verif Require Import Base.Lex Pipelined.Model Pipelined.ProofsBuf Pipelined.ProofsShape Pipelined.ProofsRead
  Pipelined.ProofsBatch Pipelined.ProofsOnce Pipelined.ProofsRange Pipelined.ProofsPrimary Pipelined.ProofsKeepAlive
  Pipelined.ProofsExec Pipelined.ProofsTop.
From Coq Require Import Permutation.

(* Get and BatchGet return the latest value the transaction wrote (rmap (rrun ops): one plain map with staging
   snapshots), wherever it lives — mutable buffer, flushing buffer, batch-get cache, store tier; a delete is returned
   as the tombstone [] and never as an older value; absent = never written. Holds as long as no flush has failed and
   presumeKeyNotExists is only put on keys the transaction has not written (presume_ok). For a key whose delete was flushed as
   Op_CheckNotExists (cneset: no lock, the store holds nothing) "absent" and "tombstone" are the same answer (eqv); for
   every other key the equality is exact.
   The window in which a flush is in flight is explicit: OStoreStep i lets the i-th mutation of the buffer in flight reach
   the store (any order, any repetition, interleaved with every other op) between "flush started" (OFlush) and "flush
   acknowledged" (OComplete / the wait outcome), so the statement covers every interleaving of writer and flusher. *)
Theorem C16_read_latest : forall P ops,
  presume_ok ops = true -> closed (run P ops) = false ->
  let s := run P ops in
  let truth := rmap (rrun ops) in
  (forall k, eqv (cneset s) k (fst (get s k)) (lookup k truth)) /\
  (forall ks k, In k ks -> eqv (cneset s) k (lookup k (fst (fst (bget s ks)))) (lookup k truth)) /\
  (forall k, ~ In k (cneset s) ->
     fst (get s k) = lookup k truth /\ forall ks, In k ks -> lookup k (fst (fst (bget s ks))) = lookup k truth) /\
  (forall k, lookup k (rmap (rrun (ops ++ [ODel k]))) = Some []) /\
  truth = writes_of (wl (wrun ops)).
Proof.
  exact (fun P ops Hp Hc => let H := rinv_run P ops Hp Hc in
           conj (fun k => get_view _ _ k H) (conj (fun ks k => bget_view _ _ ks k H)
             (conj (fun k => reads_exact _ _ k H) (conj (rrun_del ops) (f_equal rmap (rrun_log ops)))))).
Qed.
Print Assumptions C16_read_latest.

(* The i-th call of the flush function carries generation i+1; at most one call runs at any time; the write log of the
   transaction (every Set/Delete, net of staging cleanups) is cut into consecutive segments, the i-th flush call is
   handed exactly the net effect of the i-th segment and the mutable buffer holds exactly the last, open segment. *)
Theorem C16_flush_once : forall P ops,
  let s := run P ops in
  (forall i e, nth_error (flog s) i = Some e -> gen_of e = N.of_nat (S i)) /\
  gen s = N.of_nat (length (flog s)) /\
  running s <= 1 /\ maxrun s <= 1 /\
  concat (segs s) ++ seg s = wl (wrun ops) /\
  map buf_of (flog s) = map writes_of (segs s) /\
  mem s = writes_of (seg s).
Proof.
  exact (fun P ops => let Hs := shape_run P ops in let H := oinv_run P ops in
           conj (oi_gens _ _ H) (conj (oi_gen _ _ H) (conj (running_le_one _ Hs) (conj (sh_maxrun _ Hs)
             (conj (oi_part _ _ H) (conj (oi_bufs _ _ H) (oi_mem _ _ H))))))).
Qed.
Print Assumptions C16_flush_once.

(* A flush function returning an error closes the transaction; from then on every flush still running or started later
   ends in an error and every commit attempt (Flush(true); FlushWait) reports an error, whatever happens in between.
   Conversely a commit attempt that succeeds has every write of the transaction in the store: nothing is lost silently. *)
Theorem C16_flush_error_fails_txn : forall P ops,
  let s := run P ops in
  (forall s0, inflight s0 = true -> closed (complete s0 false) = true /\ pending (complete s0 false) = Some false) /\
  (closed s = true -> forall ops' wo1 wo2,
     let s' := run_from P s ops' in
     closed s' = true /\ snd (commit_attempt P s' wo1 wo2) = false /\
     (inflight s' = true -> forall o, pending (complete s' o) = Some false)) /\
  (presume_ok ops = true -> forall wo1 wo2, snd (commit_attempt P s wo1 wo2) = true ->
     let s2 := fst (commit_attempt P s wo1 wo2) in
     closed s2 = false /\ mem s2 = [] /\ flushing s2 = None /\
     forall k, eqv (cneset s2) k (lookup k (store s2)) (lookup k (rmap (rrun ops)))).
Proof.
  exact (fun P ops => conj complete_error_closes
          (conj (fun Hc ops' wo1 wo2 => let Hc' := closed_run_from P _ ops' Hc in
                   conj Hc' (conj (commit_fails_closed P _ wo1 wo2 (shape_run_from P _ ops' (shape_run P ops)) Hc')
                                  (fun Hi o => complete_closed _ o Hc' Hi)))
                (fun Hp wo1 wo2 => commit_ok_stored P (run P ops) (rrun ops) wo1 wo2 (shape_run P ops) (rinv_run P ops Hp)))).
Qed.
Print Assumptions C16_flush_error_fails_txn.

(* Whatever was flushed (keys non-empty), for every static region layout (strictly increasing split keys) the range
   handed to the range task, [pipelinedStart, NextKey(pipelinedEnd)), makes the resolve handler visit the region of every
   flushed key — including the largest flushed key when it is the first key of a region and the single-key case —
   and the commit / rollback path does not skip the resolve (both bounds are set). *)
Theorem C16_resolve_covers : forall P ops sp,
  forallb op_keys_ok ops = true -> ssorted sp ->
  let s := run P ops in
  (forall k, In k (flushed_keys s) ->
     need_resolve s = true /\ In (locate sp k) (resolved_regions sp (pstart s) (pend s))) /\
  covers sp (resolved_regions sp (pstart s) (pend s)) (flushed_keys s) = true.
Proof.
  exact (fun P ops sp Hok Hsp => let G := fun k => flushed_resolved _ sp k (binv_run P ops Hok) Hsp in
           conj G (proj2 (covers_spec _ _ _) (fun k Hk => proj2 (G k Hk)))).
Qed.
Print Assumptions C16_resolve_covers.

(* The same when the region layout changes while the range task runs (splits and merges between any two steps of the
   partition loop and of the handlers, concurrent workers each with its own view): whatever regions the environment
   serves — each one contains the key probed at that moment — once the task succeeds (resolved_seq = Some served)
   every flushed key lies in a region that served a ResolveLock after all flushes were done. *)
Theorem C16_resolve_covers_dynamic : forall P ops envs served,
  forallb op_keys_ok ops = true ->
  let s := run P ops in
  resolved_seq envs (pstart s) (pend s) = Some served ->
  (forall k, In k (flushed_keys s) -> exists r, In r served /\ rcontains r k = true) /\
  served_covers served (flushed_keys s) = true.
Proof.
  exact (fun P ops envs served Hok Hres => let G := fun k => flushed_served _ envs served k (binv_run P ops Hok) Hres in
           conj G (proj2 (served_covers_spec _ _) G)).
Qed.
Print Assumptions C16_resolve_covers_dynamic.

(* One primary for all generations: it is chosen by the first flush that writes a lock, is one of the locked keys (so the resolve
   range covers it) and never changes afterwards. Crash of the client at ANY point: the status on the primary is undecided
   (any point before the primary commit) or committed at ts (after it). Whatever subset of the flushed locks exists and in whatever
   order resolvers meet them, every lock is driven to the outcome fixed by that status: all met locks are removed; a key is committed
   (at ts) only if the primary was committed at ts, rolled back only if it was not; once every lock was met no lock is left and
   EVERY flushed lock is committed at ts iff the primary was (else every one is rolled back and nothing is committed). The last
   clause ties "met" to the range resolve under a changing layout: a successful resolved_seq reaches the region of every lock.
   (That the primary can only be committed after every generation is stored is C16_flush_error_fails_txn.) *)
Theorem C16_crash_recoverable : forall P ops,
  forallb op_keys_ok ops = true ->
  let s := run P ops in
  (locked_keys s <> [] -> primary s <> [] /\ In (primary s) (locked_keys s) /\ In (primary s) (flushed_keys s)) /\
  (forall ops', primary s <> [] -> primary (run_from P s ops') = primary s) /\
  (forall locks st0 ks, (forall k, In k locks -> In k (flushed_keys s)) ->
     let c := crun (crash_state locks st0) ks in
     (forall k ts, In (k, ts) (ccommitted c) -> decide st0 = PCommitted ts) /\
     (forall k, In k (crolled c) -> forall ts, decide st0 <> PCommitted ts) /\
     (forall k, In k locks -> In k ks -> ~ In k (clocks c) /\
        match decide st0 with PCommitted ts => In (k, ts) (ccommitted c) | _ => In k (crolled c) end) /\
     (forall k, In k (clocks c) -> In k (flushed_keys s)) /\
     ((forall k, In k locks -> In k ks) ->
        clocks c = [] /\
        (forall ts, decide st0 = PCommitted ts -> crolled c = [] /\ forall k, In k locks -> In (k, ts) (ccommitted c)) /\
        ((forall ts, decide st0 <> PCommitted ts) -> ccommitted c = [] /\ forall k, In k locks -> In k (crolled c))) /\
     (forall envs served, resolved_seq envs (pstart s) (pend s) = Some served ->
        forall k, In k locks -> exists r, In r served /\ rcontains r k = true)).
Proof. exact (fun P ops Hok => crash_recoverable P (run P ops) (binv_run P ops Hok)). Qed.
Print Assumptions C16_crash_recoverable.

(* Keep-alive of the primary lock and the failure latch (faithful to a2d1351): the ttl manager runs only once a flush that is
   really sent has been acknowledged (or its primary batch was, OTmStart) — then a primary exists and is a flushed key;
   Commit / Rollback (OEnd) stop it (that every failed flush stops it — committer.close() — is the definition of [complete], shown on
   keepalive_nonvacuous, not a conjunct); and a flush function that returns an error — plain or ErrKeyExist — latches the
   transaction as failed WHATEVER the state of the keep-alive (the seeded "latch" class is this conjunct). *)
Theorem C16_keepalive_and_latch : forall P ops,
  forallb op_keys_ok ops = true ->
  let s := run P ops in
  (tmrun s = true -> primary s <> [] /\ In (primary s) (flushed_keys s)) /\
  (forall s0 b, inflight s0 = true -> tmrun s0 = b ->
     closed (complete s0 false) = true /\ pending (complete s0 false) = Some false) /\
  (forall s0 k, inflight s0 = true -> closed (complete_exist s0 k) = true) /\
  tmrun (fst (step P s OEnd)) = false.
Proof.
  exact (fun P ops Hok => conj (tm_primary _ (binv_run P ops Hok) (kinv_run P ops))
           (conj (fun s0 b Hi _ => complete_error_closes s0 Hi) (conj complete_exist_closes eq_refl))).
Qed.
Print Assumptions C16_keepalive_and_latch.

(* handleAlreadyExistErr: whenever Flush or FlushWait reports ErrKeyExist{k} with value v, v is what the buffer handed to the
   most recent flush call — the generation that failed — holds for k (None if that generation did not write k). *)
Theorem C16_already_exist_value : forall P ops o k v,
  snd (step P (run P ops) o) = RErrExist k v ->
  v = lookup k (buf_of (last_flog (run P ops))).
Proof. exact (fun P ops o k v => exist_value_step P (run P ops) o k v (kinv_run P ops)). Qed.
Print Assumptions C16_already_exist_value.

(* Key flags in flushes: SetWithFlags(presumeKeyNotExists) (OInsert) marks the key in the mutable buffer; the flush callback turns
   a flagged put into Op_Insert and a flagged delete into Op_CheckNotExists (mut_op), every call gets the flag set of exactly the
   buffer it is handed, the fresh buffer starts without flags, a CheckNotExists mutation writes no lock, and the primary — chosen
   among the mutations that DO write a lock — is one of the locked keys whenever any lock was written. *)
Theorem C16_flush_ops : forall P ops,
  forallb op_keys_ok ops = true ->
  let s := run P ops in
  length (flogp s) = length (flog s) /\
  (forall fb fp k v, In (k, v) fb -> In (k, mut_op (key_in k fp) v) (muts_of fb fp)) /\
  (forall f m wo st' t, flush P s f m wo = (st', RFlush true 0 t) -> pne st' = [] /\ fpne st' = pne s) /\
  (locked_keys s <> [] -> primary s <> [] /\ In (primary s) (locked_keys s)) /\
  (forall k, In k (locked_keys s) -> In k (flushed_keys s)).
Proof.
  exact (fun P ops Hok => let H := binv_run P ops Hok in
           conj (eq_sym (bi_logs _ H)) (conj muts_of_In (conj (flush_triggered_pne P _)
             (conj (primary_locked _ H) (locked_sub_flushed _))))).
Qed.
Print Assumptions C16_flush_ops.

(* Observation O1 (the code as it is; a clean failure, no clause of C16 is broken): handleSingleBatch refuses every Flush batch while
   no primary is chosen, so a non-empty generation flushed before any lock-writing mutation exists (only CheckNotExists
   mutations) fails whatever the store would answer; nothing reaches the store, and the failure latch of
   C16_keepalive_and_latch / C16_flush_error_fails_txn then fails every later flush and the commit. *)
Theorem C16_generation_without_primary_fails : forall s0 o g fb,
  inflight s0 = true -> primary s0 = [] -> flushing s0 = Some (g, fb) -> fb <> [] ->
  closed (complete s0 o) = true /\ pending (complete s0 o) = Some false /\ store (complete s0 o) = store s0.
Proof. exact complete_without_primary. Qed.
Print Assumptions C16_generation_without_primary_fails.

(* One flush = several batches (batchExecutor.process): each batch is applied or refused by the store with a key error of some
   class (0 = AssertionFailed, held back behind every other error). For ANY batch outcomes and ANY arrival order: process()
   returns nil iff every batch was applied; the error it returns is the error of one of the refused batches, an assertion failure
   only if nothing else was refused; whether the flush fails is invariant under permutations of the arrivals; and a flush with a
   refused batch — its siblings applied or not — fails: the failure is latched and no later commit attempt succeeds. *)
Theorem C16_batch_refusal_fails_flush : forall P ops arrivals,
  let s := run P ops in
  (process_err arrivals = None <-> forall r, In r arrivals -> r = None) /\
  (forall c, process_err arrivals = Some c ->
     In (Some c) arrivals /\ (c = 0 -> forall c', In (Some c') arrivals -> c' = 0)) /\
  (forall b, Permutation arrivals b -> (process_err arrivals = None <-> process_err b = None)) /\
  (forall r, inflight s = true -> In r arrivals -> refused r = true ->
     let s' := complete_batches s arrivals in
     closed s' = true /\ pending s' = Some false /\
     forall ops' wo1 wo2, snd (commit_attempt P (run_from P s' ops') wo1 wo2) = false).
Proof.
  exact (fun P ops arrivals => conj (process_err_none arrivals) (conj (process_err_some arrivals)
           (conj (process_err_perm arrivals) (fun r => refused_batch_fails_flush P _ arrivals r (shape_run P ops))))).
Qed.
Print Assumptions C16_batch_refusal_fails_flush.

(* Regression witnesses for the formula before a4a602e ([pipelinedStart, pipelinedEnd) with the largest key exclusive). *)

Theorem C16_resolve_covers_prefix_refuted :
  exists P ops sp, forallb op_keys_ok ops = true /\ ssorted sp /\
    let s := run P ops in
    flushed_keys s = [k1] /\ resolved_regions_prefix sp (pstart s) (pend s) = [] /\
    covers sp (resolved_regions_prefix sp (pstart s) (pend s)) (flushed_keys s) = false.
Proof.
  exact (ex_intro _ P0 (ex_intro _ [OSet k1 v1; OFlush true 0 true] (ex_intro _ []
           (conj eq_refl (conj (Sorted.SSorted_nil klt) (conj eq_refl (conj eq_refl eq_refl))))))).
Qed.
Print Assumptions C16_resolve_covers_prefix_refuted.

Theorem C16_resolve_covers_prefix_border_refuted :
  exists P ops sp, forallb op_keys_ok ops = true /\ ssorted sp /\
    let s := run P ops in
    flushed_keys s = [k1; k5] /\ locate sp k5 = 1%nat /\ resolved_regions_prefix sp (pstart s) (pend s) = [0%nat] /\
    covers sp (resolved_regions_prefix sp (pstart s) (pend s)) (flushed_keys s) = false.
Proof.
  exact (ex_intro _ P0 (ex_intro _ [OSet k5 v1; OSet k1 v1; OFlush true 0 true] (ex_intro _ [k5]
           (conj eq_refl (conj (Sorted.SSorted_cons k5 (Sorted.SSorted_nil klt) (Forall_nil (klt k5)))
              (conj eq_refl (conj eq_refl (conj eq_refl eq_refl)))))))).
Qed.
Print Assumptions C16_resolve_covers_prefix_border_refuted.

(* ---- non-vacuity *)
Example read_latest_nonvacuous :
  let ops := [OSet k1 v1; OFlush true 0 true; OComplete true; OSet k5 v1; OFlush true 0 true; ODel k1; OBatchGet [k1; k5]] in
  closed (run P0 ops) = false /\ fst (get (run P0 ops) k1) = Some [] /\ fst (get (run P0 ops) k5) = Some v1 /\
  length (flog (run P0 ops)) = 2%nat.
Proof. vm_compute. repeat split. Qed.

Example failed_flush_reachable :
  closed (run P0 [OSet k1 v1; OFlush true 0 true; OComplete false]) = true /\
  snd (commit_attempt P0 (run P0 [OSet k1 v1; OFlush true 0 true; OComplete false; OSet k5 v1]) true true) = false.
Proof. vm_compute. split; reflexivity. Qed.

Example commit_ok_reachable :
  snd (commit_attempt P0 (run P0 [OSet k1 v1; OFlush true 0 true; OSet k5 v1]) true true) = true.
Proof. vm_compute. reflexivity. Qed.

Example resolve_covers_nonvacuous :
  let s := run P0 [OSet k5 v1; OSet k1 v1; OFlush true 0 true] in
  flushed_keys s = [k1; k5] /\ resolved_regions [k5] (pstart s) (pend s) = [0%nat; 1%nat] /\
  resolved_regions [] k1 k1 = [0%nat].
Proof. vm_compute. repeat split. Qed.

(* a split of the region under the handler (k1..k5 in one region when the task is cut, split at k3 before it is served) and
   a later merge: the task still succeeds and covers both keys *)
Example resolve_dynamic_nonvacuous :
  let s := run P0 [OSet k5 v1; OSet k1 v1; OFlush true 0 true] in
  let k3 : key := [107; 51] in
  resolved_seq [(([], None), [(([], Some k3)); ((k3, None))])] (pstart s) (pend s) = Some [([], Some k3); (k3, None)] /\
  served_covers [([], Some k3); (k3, None)] (flushed_keys s) = true /\
  resolved_seq [(([], Some k3), [(([], Some k3))]); ((k3, None), [((k1, None))])] (pstart s) (pend s) = Some [([], Some k3); (k1, None)].
Proof. vm_compute. repeat split. Qed.

Example store_step_nonvacuous :
  let ops := [OSet k1 v1; OFlush true 0 true; OSet k1 [119]; OFlush true 0 true; OStoreStep 0; OGet k1; OBatchGet [k1]] in
  closed (run P0 ops) = false /\ lookup k1 (store (run P0 ops)) = Some [119] /\ inflight (run P0 ops) = true /\
  fst (get (run P0 ops) k1) = Some [119].
Proof. vm_compute. repeat split. Qed.

Example crash_nonvacuous :
  let s := run P0 [OSet k5 v1; OSet k1 v1; OFlush true 0 true; OComplete true; OSet k5 [119]; OFlush true 0 true] in
  primary s = k1 /\ flushed_keys s = [k1; k5; k5] /\
  clocks (crun (crash_state [k1; k5] PUndecided) [k5; k1]) = [] /\ crolled (crun (crash_state [k1; k5] PUndecided) [k5; k1]) = [k1; k5] /\
  ccommitted (crun (crash_state [k1; k5] (PCommitted 7)) [k5; k1]) = [(k1, 7); (k5, 7)] /\ crolled (crun (crash_state [k1; k5] (PCommitted 7)) [k5]) = [] /\
  clocks (crun (crash_state [k1; k5] (PCommitted 7)) [k5]) = [k1].
Proof. vm_compute. repeat split. Qed.

(* the F33 scenario on the model: the FIRST flush fails (keep-alive never started), the latch still holds *)
Example latch_without_keepalive :
  let s := run P0 [OSet k1 v1; OSet k5 v1; OFlush true 0 true; OCompleteExist k5; OFlushWait true; OSet k1 [119]; OFlush true 0 true] in
  tmrun s = false /\ closed s = true /\
  snd (step P0 (run P0 [OSet k1 v1; OSet k5 v1; OFlush true 0 true; OCompleteExist k5]) (OFlushWait true)) = RErrExist k5 (Some v1) /\
  snd (flush_wait s true) = RWait false /\ snd (commit_attempt P0 s true true) = false.
Proof. vm_compute. repeat split. Qed.

Example keepalive_nonvacuous :
  tmrun (run P0 [OSet k1 v1; OFlush true 0 true; OComplete true]) = true /\
  tmrun (run P0 [OSet k1 v1; OFlush true 0 true; OTmStart]) = true /\
  tmrun (run P0 [OSet k1 v1; OFlush true 0 true; OTmStart; OComplete false]) = false /\
  closed (run P0 [OSet k1 v1; OFlush true 0 true; OTmStart; OComplete false]) = true /\
  tmrun (run P0 [OSet k1 v1; OFlush true 0 true; OComplete true; OEnd]) = false.
Proof. vm_compute. repeat split. Qed.

(* key flags: k1 is inserted with presumeKeyNotExists and deleted again (CheckNotExists, no lock), k5 is a plain put: k5 becomes
   the primary; once the flush is acknowledged and waited for, k1 is absent from every tier while the transaction's map holds
   its tombstone — the one place where "absent" stands for "tombstone" *)
Example flush_ops_nonvacuous :
  let ops := [OInsert k1 v1; ODel k1; OInsert [107; 50] v1; OSet k5 v1; OFlush true 0 true] in
  presume_ok ops = true /\
  snd (step P0 (run P0 ops) OFlushOps) = ROps [(k1, 3); ([107; 50], 2); (k5, 0)] /\
  primary (run P0 ops) = [107; 50] /\ locked_keys (run P0 ops) = [[107; 50]; k5] /\ cneset (run P0 ops) = [k1] /\
  let s := run P0 (ops ++ [OComplete true; OFlushWait true]) in
  fst (get s k1) = None /\ lookup k1 (rmap (rrun ops)) = Some [] /\ lookup k1 (store s) = None /\
  fst (get s [107; 50]) = Some v1.
Proof. vm_compute. repeat split. Qed.

Example generation_without_primary_nonvacuous :
  let s := run P0 [OInsert k1 v1; ODel k1; OFlush true 0 true; OComplete true] in
  closed s = true /\ primary s = [] /\ store s = [] /\ snd (commit_attempt P0 (run_from P0 s [OSet k5 v1]) true true) = false.
Proof. vm_compute. repeat split. Qed.

Example batch_refusal_nonvacuous :
  process_err [None; Some 0; None] = Some 0 /\ process_err [Some 0; None; Some 3] = Some 3 /\ process_err [Some 3; Some 0] = Some 3 /\
  process_err [None; None] = None /\
  let s := run P0 [OSet k1 v1; OSet k5 v1; OFlush true 0 true] in
  closed (complete_batches s [None; Some 0]) = true /\ store (complete_batches s [None; Some 0]) = [] /\
  snd (commit_attempt P0 (complete_batches s [None; Some 0]) true true) = false.
Proof. vm_compute. repeat split. Qed.
