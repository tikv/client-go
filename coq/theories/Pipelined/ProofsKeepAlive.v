(* Pipelined/ProofsKeepAlive.v — keep-alive of the primary lock, and the value reported by handleAlreadyExistErr *)
From Verif Require Import Base.Lex Pipelined.Model Pipelined.ProofsBuf Pipelined.ProofsShape.

Record kinv (s : st) : Prop := {
  ki_last : forall g fb, flushing s = Some (g, fb) -> fst (last_flog s) = (g, fb);
  ki_tm : tmrun s = true -> primary s <> []
}.

Lemma kinv_init : kinv init.
Proof. constructor; cbn; discriminate. Qed.

Lemma kinv_frame s s' : kinv s ->
  (flushing s' = flushing s \/ flushing s' = None) -> flog s' = flog s ->
  (tmrun s' = true -> tmrun s = true) -> primary s' = primary s -> kinv s'.
Proof.
  intros [H1 H2] Ef El Et Ep. constructor.
  - intros g fb Hf. destruct Ef as [Ef|Ef]; [|congruence]. unfold last_flog. rewrite El. apply H1. rewrite <- Ef. exact Hf.
  - intros Ht. rewrite Ep. apply H2, Et, Ht.
Qed.

Lemma sent_last_flushed s g fb : last_flog s = (g, fb, true) -> fb <> [] -> flushed_keys s <> [].
Proof.
  unfold last_flog, flushed_keys. intros Hl Hne.
  assert (Hf : flog s <> []) by (intros E; rewrite E in Hl; discriminate).
  destruct (exists_last Hf) as (l' & a & E). rewrite E in *. rewrite last_last in Hl. subst a.
  rewrite flat_map_app. cbn [flat_map snd fst]. destruct fb as [|[k v] r]; [congruence|].
  intros H. apply app_eq_nil in H as [_ H]. discriminate.
Qed.

(* the keep-alive only runs once a primary exists: it is started by an acknowledged flush holding the primary, a failed
   flush stops it *)
Lemma kinv_complete s o : kinv s -> kinv (complete s o).
Proof.
  intros H. unfold complete. destruct (inflight s) eqn:Ei; [|exact H]. constructor.
  - apply (ki_last _ H).
  - cbn [tmrun primary]. intros Ht. apply Bool.andb_true_iff in Ht as [_ Ht].
    apply Bool.orb_true_iff in Ht as [Ht|Hn]; [apply (ki_tm _ H Ht)|].
    destruct (flushing s) as [[g fb]|]; [|discriminate]. apply Bool.andb_true_iff in Hn as [Hn _].
    apply is_nil_false, Bool.negb_true_iff, Hn.
Qed.

Lemma kinv_start s : kinv s -> kinv (start_flush s).
Proof.
  intros H. constructor.
  - cbn [start_flush flushing]. intros g fb [= <- <-]. unfold last_flog. cbn [start_flush flog]. rewrite last_last. reflexivity.
  - cbn [start_flush tmrun primary]. intros Ht. pose proof (ki_tm _ H Ht) as Hp.
    destruct (primary s) eqn:Epr; [congruence|]. cbn [is_nil]. rewrite Bool.andb_false_r. discriminate.
Qed.

Lemma kinv_step P s o : kinv s -> kinv (fst (step P s o)).
Proof.
  intros H. destruct (internal o) eqn:Eo.
  - revert s o Eo H. apply internal_ind.
    + intros s c _ H. eapply kinv_frame; [exact H|..]; auto.
    + apply kinv_complete.
    + intros s _ H. eapply kinv_frame; [exact H|..]; auto.
    + intros s _ _ _. apply kinv_start.
    + intros s g fb k v _ _ _ _ H. eapply kinv_frame; [exact H|..]; auto.
    + intros s b pe Hb H. constructor; [apply (ki_last _ H)|]. cbn [set_tm tmrun primary]. intros Ht.
      destruct (Hb Ht) as [Hr|Hp]; [apply (ki_tm _ H Hr)|apply is_nil_false, Hp].
  - destruct (writing_frame P s o Eo) as (m & sts & sg & sgs & p & c & -> & _). eapply kinv_frame; [exact H|..]; auto.
Qed.

Lemma kinv_run P ops : kinv (run P ops).
Proof. unfold run. apply run_from_ind; [apply kinv_step|apply kinv_init]. Qed.

(* the ErrKeyExist reported by Flush / FlushWait carries the value the FAILED generation held for the key: the error is
   received while the failed buffer is still the flushing one, and that is the last one handed to the flush function *)
Lemma err_resp_value s wo dflt k v : kinv s -> (forall k' v', dflt <> RErrExist k' v') ->
  err_resp (complete s wo) dflt = RErrExist k v -> v = lookup k (snd (fst (last_flog s))).
Proof.
  intros H Hd He. destruct (err_resp_cases (complete s wo) dflt) as [E|(k' & g & fb & Ef & E)]; rewrite E in He.
  - destruct (Hd _ _ He).
  - injection He as -> <-. destruct (complete_frame s wo) as (_ & _ & _ & F). rewrite F in Ef.
    rewrite (ki_last _ H g fb Ef). reflexivity.
Qed.

Lemma exist_value_step P s o k v : kinv s -> snd (step P s o) = RErrExist k v ->
  v = lookup k (snd (fst (last_flog s))).
Proof.
  intros H. destruct o; cbn [step]; try discriminate.
  - destruct (is_nil v0); discriminate.
  - destruct (get s k0); discriminate.
  - destruct (bget s ks) as [[m c] shr]; discriminate.
  - destruct (flush_holds P s force memsz wo); cbn [snd]; try discriminate.
    apply (err_resp_value (set_cache s None)); [|discriminate].
    eapply kinv_frame; [exact H|..]; auto.
  - destruct (flushing s) eqn:Ef; [|unfold flush_wait; rewrite Ef; discriminate].
    rewrite flush_wait_spec by congruence. cbn [snd]. destruct (snd (wait s wo)); [discriminate|].
    apply err_resp_value; [exact H|discriminate].
  - destruct (stages s), (segstages s); discriminate.
  - destruct (stages s), (segstages s); discriminate.
  - destruct (is_nil v0); discriminate.
Qed.
