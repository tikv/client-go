(* Pipelined/PropsCompose.v — C16 composed with C09: the environment hypothesis of C16_resolve_covers_dynamic is discharged,
   for the resolve handler's loop, by Region.Props.C09_contains (LocateKey returns a region containing the key, from any
   cache state, for any sound PD — whose answers may change with time, i.e. under splits and merges). *)
From Verif Require Import Base.Lex Pipelined.Model Pipelined.ProofsBuf Pipelined.Compose.
From Verif Require Region.ProofsContains.

Theorem C16_resolve_handler_on_C09 : forall pd budget batch fuel,
  Region.ProofsContains.pd_get_sound pd -> Region.ProofsContains.pd_prev_sound pd ->
  forall n t c start rend served,
  handler_loc pd budget batch fuel n t c start rend = Some served ->
  forall x, kle start x -> klt x rend -> exists r, In r served /\ rcontains r x = true.
Proof.
  exact (fun pd budget batch fuel Hg Hp n t c start rend served H =>
           match handler_loc_seq pd budget batch fuel Hg Hp n t c start rend served H with
           | ex_intro _ env He => ProofsRange.handler_seq_covers env start rend served He
           end).
Qed.
Print Assumptions C16_resolve_handler_on_C09.
