(* Pipelined/ProofsRange.v — the range handed to the range task covers the region of every key in [start, end]: for a
   static region layout, and when the layout changes while the task runs *)
From Verif Require Import Base.Lex Pipelined.Model Pipelined.ProofsBuf.
From Coq Require Import Sorting.Sorted.

Definition ssorted (sp : list key) : Prop := StronglySorted klt sp.

Lemma locate_cons a sp k : locate (a :: sp) k = if lex_leb a k then S (locate sp k) else locate sp k.
Proof. unfold locate; cbn [filter]. destruct (lex_leb a k); reflexivity. Qed.

Lemma locate_le_length sp k : (locate sp k <= length sp)%nat.
Proof.
  unfold locate. induction sp as [|a t IH]; cbn [filter length]; [apply le_n|].
  destruct (lex_leb a k); cbn [length]; lia.
Qed.

Lemma locate_all_greater sp k : Forall (klt k) sp -> locate sp k = 0%nat.
Proof.
  induction sp as [|a t IH]; intros H; [reflexivity|]. inversion H; subst.
  rewrite locate_cons, (klt_not_kle k a) by assumption. auto.
Qed.

Lemma sorted_tail_greater a t k : ssorted (a :: t) -> klt k a -> Forall (klt k) t.
Proof.
  intros Hs Hk. apply StronglySorted_inv in Hs as [_ Hall]. rewrite Forall_forall in *.
  intros x Hx. eapply lex_cmp_lt_trans; [exact Hk|apply Hall; exact Hx].
Qed.

Lemma locate_mono sp a b : kle a b -> (locate sp a <= locate sp b)%nat.
Proof.
  intros Hab. induction sp as [|s t IH]; [apply le_n|]. rewrite !locate_cons.
  destruct (lex_leb s a) eqn:E.
  - assert (kle s b) as -> by (eapply kle_trans; [exact E|exact Hab]). lia.
  - destruct (lex_leb s b); lia.
Qed.

(* in a sorted layout the count stops at the first split greater than k *)
Lemma locate_cons_sorted a t k : ssorted (a :: t) ->
  locate (a :: t) k = if lex_leb a k then S (locate t k) else 0%nat.
Proof.
  intros Hs. rewrite locate_cons. destruct (lex_leb a k) eqn:E; [reflexivity|].
  apply locate_all_greater. eapply sorted_tail_greater; [exact Hs|apply not_kle_klt, E].
Qed.

(* the key at index (locate k) is the first split greater than k *)
Lemma locate_end_greater sp k e : ssorted sp -> nth_error sp (locate sp k) = Some e -> klt k e.
Proof.
  induction sp as [|a t IH]; intros Hs; [cbn; discriminate|]. rewrite (locate_cons_sorted a t k Hs).
  destruct (lex_leb a k) eqn:E; cbn [nth_error].
  - apply IH. apply StronglySorted_inv in Hs; tauto.
  - intros [= <-]. apply not_kle_klt, E.
Qed.

Lemma locate_split sp i e : ssorted sp -> nth_error sp i = Some e -> locate sp e = S i.
Proof.
  revert i; induction sp as [|a t IH]; intros i Hs; [destruct i; discriminate|].
  pose proof (StronglySorted_inv Hs) as [Ht Hall]. rewrite (locate_cons_sorted a t e Hs). destruct i as [|j]; cbn [nth_error].
  - intros [= <-]. rewrite (kle_refl a), locate_all_greater; [reflexivity|exact Hall].
  - intros Hn. assert (klt a e) as Hlt by (rewrite Forall_forall in Hall; apply Hall; eapply nth_error_In; exact Hn).
    rewrite (klt_kle _ _ Hlt). f_equal. apply IH; assumption.
Qed.

Lemma locate_below_split sp i e k : ssorted sp -> nth_error sp i = Some e -> klt k e -> (locate sp k <= i)%nat.
Proof.
  revert i; induction sp as [|a t IH]; intros i Hs; [destruct i; discriminate|].
  pose proof (StronglySorted_inv Hs) as [Ht Hall]. rewrite (locate_cons_sorted a t k Hs). destruct i as [|j]; cbn [nth_error].
  - intros [= <-] Hk. rewrite (klt_not_kle _ _ Hk). apply le_n.
  - intros Hn Hk. destruct (lex_leb a k); [|lia]. apply le_n_S. eapply IH; eassumption.
Qed.

Lemma handler_has_first sp f start rend : In (locate sp start) (handler sp (S f) start rend).
Proof.
  cbn [handler]. destruct (region_end sp (locate sp start)); [|left; reflexivity].
  destruct (lex_leb rend k); left; reflexivity.
Qed.

(* a key between k and the end of k's region lies in that region *)
Lemma locate_same_region sp k x : ssorted sp -> kle k x ->
  match region_end sp (locate sp k) with Some e => klt x e | None => True end -> locate sp x = locate sp k.
Proof.
  intros Hs Hkx He. pose proof (locate_mono sp k x Hkx). unfold region_end in He.
  destruct (nth_error sp (locate sp k)) as [e|] eqn:En.
  - pose proof (locate_below_split sp _ e x Hs En He). lia.
  - apply nth_error_None in En. pose proof (locate_le_length sp x). lia.
Qed.

(* every task lies within one region, which its handler resolves first; the next task starts at that region's end *)
Lemma loop_covers sp : ssorted sp -> forall fuel k endk x,
  (length sp - locate sp k < fuel)%nat -> endk <> [] -> kle k x -> klt x endk ->
  In (locate sp x) (run_on_range_loop sp fuel k endk).
Proof.
  intros Hs. induction fuel as [|f IH]; intros k endk x Hfuel Hne Hkx Hxe; [lia|].
  cbn [run_on_range_loop]. pose proof (locate_same_region sp k x Hs Hkx) as Hsame.
  destruct (region_end sp (locate sp k)) as [e|] eqn:En; [|rewrite Hsame by exact I; apply handler_has_first].
  destruct endk as [|c endk']; [congruence|]. cbn [is_nil negb andb].
  destruct (lex_leb (c :: endk') e) eqn:Ele.
  - rewrite Hsame by (eapply klt_kle_trans; [exact Hxe|exact Ele]). apply handler_has_first.
  - apply in_or_app. destruct (lex_leb e x) eqn:Eex.
    + right. apply IH; [|discriminate|exact Eex|exact Hxe].
      rewrite (locate_split sp _ e Hs En).
      assert (locate sp k < length sp)%nat by (apply nth_error_Some; unfold region_end in En; congruence). lia.
    + left. rewrite Hsame by (apply not_kle_klt; exact Eex). apply handler_has_first.
Qed.

Lemma run_on_range_covers sp startk endk x :
  ssorted sp -> endk <> [] -> kle startk x -> klt x endk -> In (locate sp x) (run_on_range sp startk endk).
Proof.
  intros Hs Hne H1 H2. unfold run_on_range.
  rewrite (klt_not_kle startk endk), Bool.andb_false_r by (eapply kle_klt_trans; eassumption).
  apply loop_covers; try assumption. lia.
Qed.

Lemma next_key_not_nil k : next_key k <> [].
Proof. unfold next_key. destruct k; discriminate. Qed.

(* [ps, pe] is the task [ps, NextKey(pe)) *)
Lemma resolved_regions_covers sp ps pe k :
  ssorted sp -> kle ps k -> kle k pe -> In (locate sp k) (resolved_regions sp ps pe).
Proof.
  intros Hs H1 H2. apply run_on_range_covers; [exact Hs|apply next_key_not_nil|exact H1|].
  eapply kle_klt_trans; [exact H2|apply klt_next_key].
Qed.

Lemma mem_nat_In n l : mem_nat n l = true <-> In n l.
Proof.
  induction l as [|x r IH]; cbn [mem_nat In]; [split; [discriminate|tauto]|].
  rewrite Bool.orb_true_iff, IH, Nat.eqb_eq. split; intros [H|H]; auto.
Qed.

Lemma covers_spec sp res ks : covers sp res ks = true <-> forall k, In k ks -> In (locate sp k) res.
Proof. unfold covers. rewrite forallb_forall. split; intros H k Hk; apply mem_nat_In, H, Hk. Qed.

Lemma served_covers_spec served ks :
  served_covers served ks = true <-> forall k, In k ks -> exists r, In r served /\ rcontains r k = true.
Proof. unfold served_covers. rewrite forallb_forall. split; intros H k Hk; apply existsb_exists, H, Hk. Qed.

(* when the layout changes under the loops, all that is known of a served region is that it contains the probed key *)
Lemma rcontains_mono r a x :
  rcontains r a = true -> kle a x -> match snd r with Some e => klt x e | None => True end -> rcontains r x = true.
Proof.
  unfold rcontains. intros H Hax Hs. apply Bool.andb_true_iff in H as [H1 _]. apply Bool.andb_true_iff. split.
  - eapply kle_trans; [exact H1|exact Hax].
  - destruct (snd r); [apply lex_ltb_lt; exact Hs|reflexivity].
Qed.

Lemma handler_seq_covers env : forall start rend served,
  handler_seq env start rend = Some served ->
  forall x, kle start x -> klt x rend -> exists r, In r served /\ rcontains r x = true.
Proof.
  induction env as [|r env IH]; intros start rend served; cbn [handler_seq]; [discriminate|].
  destruct (rcontains r start) eqn:Ec; [|discriminate].
  destruct (snd r) as [e|] eqn:Es.
  - destruct (lex_leb rend e) eqn:Ele.
    + intros [= <-] x Hsx Hxr. exists r; split; [left; reflexivity|].
      eapply rcontains_mono; [exact Ec|exact Hsx|]. rewrite Es. eapply klt_kle_trans; [exact Hxr|exact Ele].
    + destruct (handler_seq env e rend) as [l|] eqn:Eh; [|discriminate].
      intros [= <-] x Hsx Hxr. destruct (lex_leb e x) eqn:Eex.
      * destruct (IH e rend l Eh x Eex Hxr) as (r' & Hin & Hc). exists r'; split; [right; exact Hin|exact Hc].
      * exists r; split; [left; reflexivity|]. eapply rcontains_mono; [exact Ec|exact Hsx|].
        rewrite Es. apply not_kle_klt; exact Eex.
  - intros [= <-] x Hsx Hxr. exists r; split; [left; reflexivity|].
    eapply rcontains_mono; [exact Ec|exact Hsx|]. rewrite Es. exact I.
Qed.

Lemma run_seq_loop_covers envs : forall k endk served,
  endk <> [] -> run_seq_loop envs k endk = Some served ->
  forall x, kle k x -> klt x endk -> exists r, In r served /\ rcontains r x = true.
Proof.
  induction envs as [|[p henv] rest IH]; intros k endk served Hne; cbn [run_seq_loop]; [discriminate|].
  destruct (rcontains p k) eqn:Ec; [|discriminate].
  destruct (snd p) as [e|] eqn:Es.
  - destruct endk as [|c endk']; [congruence|]. cbn [is_nil negb andb].
    destruct (lex_leb (c :: endk') e) eqn:Ele.
    + intros Hh x Hkx Hxe. eapply handler_seq_covers; eassumption.
    + destruct (handler_seq henv k e) as [a|] eqn:Ea; [|discriminate].
      destruct (run_seq_loop rest e (c :: endk')) as [b|] eqn:Eb; [|discriminate].
      intros [= <-] x Hkx Hxe. destruct (lex_leb e x) eqn:Eex.
      * destruct (IH e (c :: endk') b Hne Eb x Eex Hxe) as (r & Hin & Hc).
        exists r; split; [apply in_or_app; right; exact Hin|exact Hc].
      * destruct (handler_seq_covers henv k e a Ea x Hkx (not_kle_klt _ _ Eex)) as (r & Hin & Hc).
        exists r; split; [apply in_or_app; left; exact Hin|exact Hc].
  - intros Hh x Hkx Hxe. eapply handler_seq_covers; eassumption.
Qed.

Lemma run_seq_covers envs startk endk served x :
  endk <> [] -> run_seq envs startk endk = Some served -> kle startk x -> klt x endk ->
  exists r, In r served /\ rcontains r x = true.
Proof.
  unfold run_seq. intros Hne H H1 H2.
  rewrite (klt_not_kle startk endk), Bool.andb_false_r in H by (eapply kle_klt_trans; eassumption).
  eapply run_seq_loop_covers; eassumption.
Qed.

Lemma resolved_seq_covers envs ps pe served k :
  resolved_seq envs ps pe = Some served -> kle ps k -> kle k pe ->
  exists r, In r served /\ rcontains r k = true.
Proof.
  intros H H1 H2. apply (run_seq_covers envs ps (next_key pe) served k (next_key_not_nil pe) H H1).
  eapply kle_klt_trans; [exact H2|apply klt_next_key].
Qed.
