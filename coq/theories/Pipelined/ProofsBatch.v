(* Pipelined/ProofsBatch.v — BatchGet returns, for every requested key, the latest write (absent = never written) *)
From Verif Require Import Base.Lex Pipelined.Model Pipelined.ProofsBuf Pipelined.ProofsShape Pipelined.ProofsRead.

Definition f1 (s : st) (acc : buf * cache_t * list key) (k : key) : buf * cache_t * list key :=
  let '(m, c, shr) := acc in
  match get_local s k with
  | Some v => (insert k v m, (k, Some v) :: c, shr)
  | None => (m, c, shr ++ [k])
  end.
Definition f2 (s : st) (acc : buf * cache_t) (k : key) : buf * cache_t :=
  let '(m, c) := acc in
  match lookup k (store s) with
  | Some v => (insert k v m, (k, Some v) :: c)
  | None => (m, (k, None) :: c)
  end.

Lemma bget_unfold s ks :
  bget s ks = let '(m, c, shr) := fold_left (f1 s) ks ([], match cache s with Some c => c | None => [] end, []) in
              let '(m2, c2) := fold_left (f2 s) shr (m, c) in (m2, c2, shr).
Proof. reflexivity. Qed.

(* both phases put, for each key of a list, what a source [g] holds for it into the result *)
Definition ins (g : key -> option value) (m : buf) (k : key) : buf :=
  match g k with Some v => insert k v m | None => m end.

Lemma lookup_fold_ins g ks : forall m k,
  lookup k (fold_left (ins g) ks m) =
  match (if key_in k ks then g k else None) with Some v => Some v | None => lookup k m end.
Proof.
  induction ks as [|k0 t IH]; intros m k; cbn [fold_left key_in existsb]; [reflexivity|].
  rewrite IH. fold (key_in k t). unfold ins. destruct (bytes_eqb k k0) eqn:E; cbn [orb].
  - apply bytes_eqb_eq in E; subst k0. destruct (key_in k t), (g k); try reflexivity. apply lookup_insert_same.
  - destruct (if key_in k t then g k else None); [reflexivity|]. destruct (g k0); [|reflexivity].
    rewrite lookup_insert, E. reflexivity.
Qed.

(* phase 1 serves the keys found locally and passes the others on; phase 2 serves those from the store tier *)
(* [m] is given the type bget's own accumulator has, so that instances match it syntactically *)
Lemma f1_buf s ks : forall (m : list (key * value)) c shr,
  fst (fst (fold_left (f1 s) ks (m, c, shr))) = fold_left (ins (get_local s)) ks m.
Proof.
  induction ks as [|k t IH]; intros m c shr; cbn [fold_left]; [reflexivity|].
  unfold f1 at 2, ins at 2. destruct (get_local s k); apply IH.
Qed.

Lemma f1_shared s ks : forall (m : list (key * value)) c shr,
  snd (fold_left (f1 s) ks (m, c, shr)) = shr ++ filter (fun k => match get_local s k with None => true | _ => false end) ks.
Proof.
  induction ks as [|k t IH]; intros m c shr; cbn [fold_left filter]; [rewrite app_nil_r; reflexivity|].
  unfold f1 at 2. destruct (get_local s k); rewrite IH; [reflexivity|]. rewrite <- app_assoc. reflexivity.
Qed.

Lemma f2_buf s ks : forall m c,
  fst (fold_left (f2 s) ks (m, c)) = fold_left (ins (fun k => lookup k (store s))) ks m.
Proof.
  induction ks as [|k t IH]; intros m c; cbn [fold_left]; [reflexivity|].
  unfold f2 at 2, ins at 2. destruct (lookup k (store s)); apply IH.
Qed.

Lemma bget_is_view s ks k : In k ks -> lookup k (fst (fst (bget s ks))) = view (mem s) s k.
Proof.
  intros Hin. rewrite bget_unfold. set (c0 := match cache s with Some c => c | None => [] end).
  generalize (f1_buf s ks [] c0 []), (f1_shared s ks [] c0 []).
  destruct (fold_left (f1 s) ks ([], c0, [])) as [[m c] shr]. cbn [fst snd app]. intros E1 E2.
  generalize (f2_buf s shr m c). destruct (fold_left (f2 s) shr (m, c)) as [m2 c2]. cbn [fst]. intros E3.
  rewrite E3, lookup_fold_ins, E1, lookup_fold_ins, E2, (proj2 (key_in_In k ks) Hin). cbn [lookup].
  destruct (key_in k (filter _ ks)) eqn:Ek.
  - apply key_in_In, filter_In in Ek as [_ Eg]. destruct (get_local s k) eqn:Eg'; [discriminate|].
    apply get_local_none in Eg' as [Em Eb]. unfold view. rewrite Em, Eb. destruct (lookup k (store s)); reflexivity.
  - destruct (get_local s k) as [v|] eqn:Eg; [symmetry; apply get_local_view, Eg|].
    assert (key_in k (filter (fun k => match get_local s k with None => true | _ => false end) ks) = true) as Ek'.
    { apply key_in_In, filter_In. split; [exact Hin|]. rewrite Eg. reflexivity. }
    congruence.
Qed.

Lemma bget_view s r ks k : rinv s r -> In k ks -> eqv (cneset s) k (lookup k (fst (fst (bget s ks)))) (lookup k (rmap r)).
Proof. intros H Hin. rewrite (bget_is_view s ks k Hin). apply (ri_mem _ _ H). Qed.

Lemma reads_exact s r k : rinv s r -> ~ In k (cneset s) ->
  fst (get s k) = lookup k (rmap r) /\ forall ks, In k ks -> lookup k (fst (fst (bget s ks))) = lookup k (rmap r).
Proof.
  intros H Hn. split; [|intros ks Hin]; apply (eqv_exact _ _ _ _ Hn); [apply get_view|apply bget_view]; assumption.
Qed.
