(* Pipelined/ProofsTop.v — what Props.v needs on top of the invariants, for any state that satisfies them: coverage of the
   flushed keys from the recorded bounds, the crash clause, the keep-alive's primary; the constants of the witnesses *)
From Verif Require Import Base.Lex Pipelined.Model Pipelined.ProofsBuf Pipelined.ProofsShape Pipelined.ProofsRange
  Pipelined.ProofsPrimary Pipelined.ProofsKeepAlive.

Definition P0 := {| minkeys := 0; minsize := 0; forcesize := 0 |}.
Definition v1 : value := [118].
Definition k1 : key := [107; 49].   (* "k1" *)
Definition k5 : key := [107; 53].   (* "k5" *)

(* every flushed key lies between the recorded bounds, so a range task that covers [pipelinedStart, pipelinedEnd] reaches it:
   under a static layout and under one that changes while the task runs *)
Lemma flushed_resolved s sp k : binv s -> ssorted sp -> In k (flushed_keys s) ->
  need_resolve s = true /\ In (locate sp k) (resolved_regions sp (pstart s) (pend s)).
Proof.
  intros H Hsp Hk. destruct (bi_bounds _ H k Hk) as (A & B & C & D). split.
  - unfold need_resolve. destruct (pstart s); [congruence|]. destruct (pend s); [congruence|]. reflexivity.
  - apply resolved_regions_covers; assumption.
Qed.

Lemma flushed_served s envs served k : binv s -> resolved_seq envs (pstart s) (pend s) = Some served ->
  In k (flushed_keys s) -> exists r, In r served /\ rcontains r k = true.
Proof. intros H Hres Hk. destruct (bi_bounds _ H k Hk) as (_ & _ & C & D). eapply resolved_seq_covers; eassumption. Qed.

Lemma crash_recoverable P s : binv s ->
  (locked_keys s <> [] -> primary s <> [] /\ In (primary s) (locked_keys s) /\ In (primary s) (flushed_keys s)) /\
  (forall ops', primary s <> [] -> primary (run_from P s ops') = primary s) /\
  (forall locks st0 ks, (forall k, In k locks -> In k (flushed_keys s)) ->
     let c := crun (crash_state locks st0) ks in
     (forall k ts, In (k, ts) (ccommitted c) -> decide st0 = PCommitted ts) /\
     (forall k, In k (crolled c) -> forall ts, decide st0 <> PCommitted ts) /\
     (forall k, In k locks -> In k ks -> ~ In k (clocks c) /\
        match decide st0 with PCommitted ts => In (k, ts) (ccommitted c) | _ => In k (crolled c) end) /\
     (forall k, In k (clocks c) -> In k (flushed_keys s)) /\
     ((forall k, In k locks -> In k ks) ->
        clocks c = [] /\
        (forall ts, decide st0 = PCommitted ts -> crolled c = [] /\ forall k, In k locks -> In (k, ts) (ccommitted c)) /\
        ((forall ts, decide st0 <> PCommitted ts) -> ccommitted c = [] /\ forall k, In k locks -> In k (crolled c))) /\
     (forall envs served, resolved_seq envs (pstart s) (pend s) = Some served ->
        forall k, In k locks -> exists r, In r served /\ rcontains r k = true)).
Proof.
  intros Hb. split; [|split].
  - intros Hne. destruct (primary_locked s Hb Hne) as [A B]. split; [exact A|]. split; [exact B|apply locked_sub_flushed, B].
  - intros ops' Hp. apply primary_stable; exact Hp.
  - intros locks st0 ks Hsub. pose proof (crash_resolvers locks st0 ks) as R. cbv zeta in *.
    split; [|split; [|split; [|split; [|split]]]].
    + intros k ts Hin. apply (R k) in Hin. tauto.
    + intros k Hin ts. apply (R k) in Hin. destruct Hin as (_ & _ & ->). discriminate.
    + intros k Hk Hks. split; [rewrite (proj1 (R k)); tauto|].
      destruct (decide_cases st0) as [E|[ts E]]; rewrite E; apply (R k); auto.
    + intros k Hk. apply Hsub. apply (R k) in Hk. tauto.
    + intros Hall. split; [|split].
      * apply nil_no_member. intros k Hk. apply (R k) in Hk. destruct Hk as [Hl Hn]. apply Hn, Hall, Hl.
      * intros ts Hd. split; [|intros k Hk; apply (R k); auto].
        apply nil_no_member. intros k Hk. apply (R k) in Hk. destruct Hk as (_ & _ & E). congruence.
      * intros Hnd. assert (Hr : decide st0 = PRolledBack) by (destruct (decide_cases st0) as [E|[ts E]]; [exact E|destruct (Hnd ts E)]).
        split; [|intros k Hk; apply (R k); auto].
        apply nil_no_member. intros [k ts] Hk. apply (R k) in Hk. destruct Hk as (_ & _ & E). apply (Hnd ts E).
    + intros envs served Hres k Hk. apply (flushed_served s envs served k Hb Hres), Hsub, Hk.
Qed.

Lemma tm_primary s : binv s -> kinv s -> tmrun s = true -> primary s <> [] /\ In (primary s) (flushed_keys s).
Proof.
  intros Hb Hk Ht. pose proof (ki_tm _ Hk Ht) as Hp. split; [exact Hp|apply locked_sub_flushed, (primary_in_locked _ Hb), Hp].
Qed.

Lemma flush_triggered_pne P s f m wo st' t : flush P s f m wo = (st', RFlush true 0 t) -> pne st' = [] /\ fpne st' = pne s.
Proof.
  destruct (flush_holds P s f m wo) as [_|_|s1 _ Hs1|_ _]; try discriminate.
  - intros [= <- _]. split; [reflexivity|]. destruct Hs1 as [[_ ->]|[_ ->]]; [reflexivity|].
    cbn [start_flush fpne clear_flushing pne]. unfold complete. destruct (inflight (set_cache s None)); reflexivity.
  - destruct (err_resp_cases (complete (set_cache s None) wo) (RFlush false 1 None)) as [->|(k & g & fb & _ & ->)]; discriminate.
Qed.

(* handleSingleBatch refuses every batch while no primary is chosen: such a generation fails whatever the store answers *)
Lemma complete_without_primary : forall s0 o g fb,
  inflight s0 = true -> primary s0 = [] -> flushing s0 = Some (g, fb) -> fb <> [] ->
  closed (complete s0 o) = true /\ pending (complete s0 o) = Some false /\ store (complete s0 o) = store s0.
Proof.
  intros s0 o g fb Hi Hp Hf Hne. unfold complete. rewrite Hi, Hp, Hf. cbn [is_nil andb].
  destruct fb as [|e t]; [congruence|]. cbn [is_nil negb andb closed pending store].
  rewrite !Bool.andb_false_r. cbn. rewrite Bool.orb_true_r. repeat split; reflexivity.
Qed.
