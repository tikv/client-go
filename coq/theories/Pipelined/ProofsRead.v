(* Pipelined/ProofsRead.v — reads return the latest write wherever it lives (refinement to one plain map).
   For a key whose delete was flushed as Op_CheckNotExists (no lock is written: the store holds nothing for it) "absent" and
   "tombstone" are the same answer — the store asserted that the key does not exist; [eqv] says exactly that. *)
From Verif Require Import Base.Lex Pipelined.Model Pipelined.ProofsBuf Pipelined.ProofsShape.

Definition below (s : st) (k : key) : option value :=
  match flushing s with
  | Some (_, fb) => match lookup k fb with Some v => Some v | None => lookup k (store s) end
  | None => lookup k (store s)
  end.
Definition view (m : buf) (s : st) (k : key) : option value :=
  match lookup k m with Some v => Some v | None => below s k end.

Definition tomb (a : option value) : Prop := a = None \/ a = Some [].
Definition eqv (cs : list key) (k : key) (a b : option value) : Prop := a = b \/ (In k cs /\ tomb a /\ tomb b).

Lemma eqv_refl cs k a : eqv cs k a a.
Proof. left; reflexivity. Qed.
Lemma eqv_sym cs k a b : eqv cs k a b -> eqv cs k b a.
Proof. intros [->|(H1 & H2 & H3)]; [left; reflexivity|right; auto]. Qed.
Lemma eqv_trans cs k a b c : eqv cs k a b -> eqv cs k b c -> eqv cs k a c.
Proof. intros [->|(H1 & H2 & H3)] [<-|(H4 & H5 & H6)]; try (left; reflexivity); right; auto. Qed.
Lemma eqv_exact cs k a b : ~ In k cs -> eqv cs k a b -> a = b.
Proof. intros Hn [E|(Hin & _)]; [exact E|contradiction]. Qed.
Lemma eqv_mono cs cs' k a b : (forall x, In x cs -> In x cs') -> eqv cs k a b -> eqv cs' k a b.
Proof. intros Hs [->|(H1 & H2 & H3)]; [left; reflexivity|right; auto]. Qed.

(* a cache entry answers like the tiers below the mutable buffer, which is asked first *)
Definition good (s : st) (e : key * option value) : Prop :=
  lookup (fst e) (mem s) = None -> eqv (cneset s) (fst e) (snd e) (below s (fst e)).

(* a buffer level (the mutable buffer or a staging snapshot) and the map it stands for: over what lies below it, the level
   shows the content of the map; a key flushed as CheckNotExists was written, so the map has it *)
Record level (cs : list key) (bl : key -> option value) (m rm : buf) : Prop := {
  lv_view : forall k, eqv cs k (match lookup k m with Some v => Some v | None => bl k end) (lookup k rm);
  lv_cne : forall k, In k cs -> lookup k rm <> None;
  lv_srt : bsorted m
}.

Lemma level_below cs bl bl' m rm : (forall k, eqv cs k (bl' k) (bl k)) -> level cs bl m rm -> level cs bl' m rm.
Proof.
  intros Eb [H1 H2 H3]. constructor; [|exact H2|exact H3].
  intros k. specialize (H1 k). destruct (lookup k m); [exact H1|]. eapply eqv_trans; [apply Eb|exact H1].
Qed.

(* an acknowledged flush has its lock-writing mutations in the store (ri_done), its CheckNotExists mutations are in cneset
   and absent from the store (ri_fcne); every level shows its map; the cache agrees with what lies below; a flagged key
   has nothing below *)
Record rinv (s : st) (r : rst) : Prop := {
  ri_done : forall g fb, flushing s = Some (g, fb) -> inflight s = false ->
            forall k v, lookup k fb = Some v -> is_cne (fpne s) (k, v) = false -> lookup k (store s) = Some v;
  ri_fcne : forall g fb, flushing s = Some (g, fb) -> forall k v, lookup k fb = Some v -> is_cne (fpne s) (k, v) = true ->
            In k (cneset s) /\ lookup k (store s) = None;
  ri_levels : Forall2 (level (cneset s) (below s)) (mem s :: stages s) (rmap r :: rstages r);
  ri_cache : forall c, cache s = Some c -> Forall (good s) c;
  ri_pne : forall k, key_in k (pne s) = true -> below s k = None;
  ri_srt : forall g fb, flushing s = Some (g, fb) -> bsorted fb
}.

Lemma ri_top s r : rinv s r -> level (cneset s) (below s) (mem s) (rmap r).
Proof. intros H. pose proof (ri_levels _ _ H) as L. inversion L; assumption. Qed.

Lemma ri_mem s r : rinv s r -> forall k, eqv (cneset s) k (view (mem s) s k) (lookup k (rmap r)).
Proof. intros H. apply (lv_view _ _ _ _ (ri_top s r H)). Qed.

(* reduce the projections of an updated state, nothing else *)
Ltac proj := cbn [upd_field_mem set_cache set_stages clear_flushing start_flush set_pne set_tm set_store mem stages flushing inflight
  pending store cache gen closed rmap rstages seg segs segstages flog pstart pend running maxrun flen fsize pne fpne cneset flogp].

Lemma rinv_init : rinv init {| rmap := []; rstages := [] |}.
Proof.
  constructor; cbn; try discriminate; try tauto. constructor; [constructor|constructor].
  - intros k; left; reflexivity.
  - intros k [].
  - constructor.
Qed.

Lemma get_local_view s k v : get_local s k = Some v -> view (mem s) s k = Some v.
Proof.
  unfold get_local, view, below, flushing_lookup. destruct (lookup k (mem s)); [auto|].
  destruct (flushing s) as [[g fb]|]; [|discriminate]. intros ->; reflexivity.
Qed.

Lemma get_local_none s k : get_local s k = None -> lookup k (mem s) = None /\ below s k = lookup k (store s).
Proof.
  unfold get_local, below, flushing_lookup. destruct (lookup k (mem s)); [discriminate|].
  destruct (flushing s) as [[g fb]|]; [|auto]. intros ->; auto.
Qed.

(* a state change that leaves mem / stages / flags / the CheckNotExists set alone and every [below] unchanged *)
Lemma rinv_transfer s s' r :
  rinv s r -> mem s' = mem s -> stages s' = stages s -> (forall k, below s' k = below s k) ->
  (cache s' = cache s \/ cache s' = None) -> cneset s' = cneset s -> pne s' = pne s ->
  (forall g fb, flushing s' = Some (g, fb) -> inflight s' = false ->
     forall k v, lookup k fb = Some v -> is_cne (fpne s') (k, v) = false -> lookup k (store s') = Some v) ->
  (forall g fb, flushing s' = Some (g, fb) -> forall k v, lookup k fb = Some v -> is_cne (fpne s') (k, v) = true ->
     In k (cneset s') /\ lookup k (store s') = None) ->
  (forall g fb, flushing s' = Some (g, fb) -> bsorted fb) ->
  rinv s' r.
Proof.
  intros [H1 H1' H2 H4 H6 H7] Em Es Eb Ec Ecs Ep Hd Hd' Hs. constructor.
  - exact Hd.
  - exact Hd'.
  - rewrite Em, Es, Ecs. eapply Forall2_impl'; [|exact H2]. intros m rm. apply level_below.
    intros k. rewrite Eb. apply eqv_refl.
  - intros c Hc. destruct Ec as [Ec|Ec]; [|congruence]. rewrite Ec in Hc. specialize (H4 c Hc).
    eapply Forall_impl; [|exact H4]. intros e He. unfold good. rewrite Em, Eb, Ecs. exact He.
  - intros k Hk. rewrite Eb. apply H6. rewrite <- Ep. exact Hk.
  - exact Hs.
Qed.

(* nothing of what the invariant reads has changed, except that the cache may have been dropped *)
Lemma rinv_frame s s' r : rinv s r -> mem s' = mem s -> stages s' = stages s -> flushing s' = flushing s ->
  inflight s' = inflight s -> store s' = store s -> fpne s' = fpne s -> cneset s' = cneset s -> pne s' = pne s ->
  (cache s' = cache s \/ cache s' = None) -> rinv s' r.
Proof.
  intros H E1 E2 E3 E4 E5 E6 E7 E8 E9. apply (rinv_transfer s s' r H); try assumption.
  - intros k. unfold below. rewrite E3, E5. reflexivity.
  - rewrite E3, E4, E5, E6. apply (ri_done _ _ H).
  - rewrite E3, E5, E6, E7. apply (ri_fcne _ _ H).
  - rewrite E3. apply (ri_srt _ _ H).
Qed.

Lemma rinv_complete s r o : rinv s r -> closed (complete s o) = false -> rinv (complete s o) r.
Proof.
  intros H Hc. unfold complete in *. destruct (inflight s) eqn:Ei; [|exact H].
  cbn in Hc. apply Bool.orb_false_iff in Hc as [Hc1 Hc2]. apply Bool.negb_false_iff in Hc2.
  rewrite Hc2.
  assert (Hl : forall g fb k, flushing s = Some (g, fb) ->
            lookup k (overlay (lockable fb (fpne s)) (store s)) =
            match lookup k fb with Some v => if is_cne (fpne s) (k, v) then lookup k (store s) else Some v | None => lookup k (store s) end).
  { intros g fb k Ef. rewrite lookup_overlay. unfold lockable. rewrite lookup_filter by apply (ri_srt _ _ H g fb Ef).
    destruct (lookup k fb) as [v|]; [|reflexivity]. destruct (is_cne (fpne s) (k, v)); reflexivity. }
  eapply rinv_transfer; try exact H; try reflexivity; auto.
  - intros k. unfold below; cbn. destruct (flushing s) as [[g fb]|] eqn:Ef; [|reflexivity].
    destruct (lookup k fb) eqn:El; [reflexivity|]. rewrite (Hl g fb k eq_refl), El. reflexivity.
  - cbn. intros g fb Ef _ k v Hk Hn. rewrite Ef, (Hl g fb k Ef), Hk, Hn. reflexivity.
  - cbn. intros g fb Ef k v Hk Hn. destruct (ri_fcne _ _ H g fb Ef k v Hk Hn) as [A B]. split; [exact A|].
    rewrite Ef, (Hl g fb k Ef), Hk, Hn. exact B.
  - cbn. apply (ri_srt _ _ H).
Qed.

(* FlushWait / a waiting Flush forgets the flushing buffer: its lockable part is in the store, its CheckNotExists keys are
   now absent from every tier *)
Lemma rinv_clear s r : rinv s r -> inflight s = false -> rinv (clear_flushing s) r.
Proof.
  intros H Ei.
  assert (Hb : forall k, eqv (cneset s) k (below (clear_flushing s) k) (below s k) /\
                         (below s k = None -> below (clear_flushing s) k = None)).
  { intros k. unfold below; cbn [clear_flushing flushing store]. destruct (flushing s) as [[g fb]|] eqn:Ef; [|split; [left|]; auto].
    destruct (lookup k fb) eqn:El; [|split; [left|]; auto].
    destruct (is_cne (fpne s) (k, v)) eqn:Ec.
    - destruct (ri_fcne _ _ H g fb Ef k v El Ec) as [A B]. split; [|discriminate]. right. split; [exact A|]. split; [left; exact B|].
      right. unfold is_cne in Ec. cbn [snd] in Ec. apply Bool.andb_true_iff in Ec as [Ec _]. destruct v; [reflexivity|discriminate].
    - rewrite (ri_done _ _ H g fb Ef Ei k v El Ec). split; [left; reflexivity|discriminate]. }
  destruct H as [H1 H1' H2 H4 H6 H7]. constructor; proj.
  - discriminate.
  - discriminate.
  - eapply Forall2_impl'; [|exact H2]. intros m rm. apply level_below. intros k. apply Hb.
  - intros c Hc. specialize (H4 c Hc). eapply Forall_impl; [|exact H4]. intros e He. unfold good; proj. intros Hm.
    eapply eqv_trans; [apply He; exact Hm|apply eqv_sym, (proj1 (Hb (fst e)))].
  - intros k Hk. apply (proj2 (Hb k)), H6, Hk.
  - discriminate.
Qed.

(* the mutable buffer becomes the flushing one: the view of the now empty buffer is the old view; the keys flushed as
   CheckNotExists join cneset, and the map holds each of them (its tombstone) *)
Lemma rinv_start s r : rinv s r -> flushing s = None -> stages s = [] -> cache s = None -> rinv (start_flush s) r.
Proof.
  intros H Ef Es Ec. destruct (ri_top s r H) as [Lv Lc Ls]. destruct H as [H1 H1' H2 H4 H6 H7].
  assert (Hrs : rstages r = []).
  { rewrite Es in H2. inversion H2 as [|? ? ? ? _ Lt]. inversion Lt. reflexivity. }
  constructor; proj.
  - discriminate.
  - intros g fb [= <- <-] k v Hk Hn. split.
    + apply in_or_app; right. apply in_map_iff. exists (k, v). split; [reflexivity|]. apply filter_In. split; [apply lookup_In_pair; exact Hk|exact Hn].
    + unfold is_cne in Hn. cbn [fst snd] in Hn. apply Bool.andb_true_iff in Hn as [_ Hp].
      specialize (H6 k Hp). unfold below in H6. rewrite Ef in H6. exact H6.
  - rewrite Es, Hrs. constructor; [|constructor]. constructor.
    + intros k. eapply eqv_mono; [intros x Hx; apply in_or_app; left; exact Hx|].
      specialize (Lv k). unfold below in *; proj. rewrite Ef in Lv. exact Lv.
    + intros k Hk. apply in_app_or in Hk as [Hk|Hk]; [apply Lc; exact Hk|].
      apply In_filter_keys in Hk as (v & Hin & _). specialize (Lv k).
      rewrite (sorted_In_lookup k v (mem s) Ls Hin) in Lv.
      destruct Lv as [Lv|(Hin' & _ & _)]; [rewrite <- Lv; discriminate|apply Lc, Hin'].
    + constructor.
  - rewrite Ec; discriminate.
  - intros k [=].
  - intros g fb [= <- <-]. exact Ls.
Qed.

Lemma eqv_insert cs k k' v a b :
  eqv cs k' a b ->
  eqv cs k' (if bytes_eqb k' k then Some v else a) (if bytes_eqb k' k then Some v else b).
Proof. destruct (bytes_eqb k' k); [intros _; left; reflexivity|auto]. Qed.

Lemma rinv_write s r k v : rinv s r ->
  rinv (upd_field_mem s (insert k v (mem s)) (seg s ++ [(k, v)])) {| rmap := insert k v (rmap r); rstages := rstages r |}.
Proof.
  intros [H1 H1' H2 H4 H6 H7]. constructor; proj; try assumption.
  - inversion H2 as [|? ? ? ? [Lv Lc Ls] Lt]; subst. constructor; [|exact Lt]. constructor.
    + intros k'. rewrite !lookup_insert. destruct (bytes_eqb k' k); [left; reflexivity|apply Lv].
    + intros x Hx. rewrite lookup_insert. destruct (bytes_eqb x k); [discriminate|apply Lc, Hx].
    + apply insert_sorted, Ls.
  - intros c Hc. specialize (H4 c Hc). eapply Forall_impl; [|exact H4]. intros e He. unfold good, below in *; proj.
    rewrite lookup_insert. destruct (bytes_eqb (fst e) k); [discriminate|]. exact He.
Qed.

Lemma bget_cache_good s ks :
  Forall (good s) (match cache s with Some c => c | None => [] end) ->
  Forall (good s) (snd (fst (bget s ks))).
Proof.
  intros H0. unfold bget.
  assert (Q1 : let '(m, c, shr) := bget_local s ks in Forall (good s) c /\ Forall (fun k => get_local s k = None) shr).
  { unfold bget_local. apply fold_left_inv.
    - split; [exact H0|constructor].
    - intros [[m c] shr] k _ [Hc Hs]. destruct (get_local s k) eqn:Eg.
      + split; [|exact Hs]. constructor; [|exact Hc]. unfold good; cbn. intros Hm.
        apply get_local_view in Eg. unfold view in Eg. rewrite Hm in Eg. left. symmetry; exact Eg.
      + split; [exact Hc|]. apply Forall_app; split; [exact Hs|repeat constructor; exact Eg]. }
  destruct (bget_local s ks) as [[m c] shr]. destruct Q1 as [Hc Hs]. rewrite Forall_forall in Hs.
  apply (fold_left_inv _ (fun acc : buf * cache_t => Forall (good s) (snd (fst (let '(m2, c2) := acc in (m2, c2, shr))))));
    [exact Hc|].
  intros [m' c'] k Hin Hc'. destruct (get_local_none s k (Hs k Hin)) as [_ Hb]. cbn [fst snd] in Hc'.
  destruct (lookup k (store s)) eqn:El; cbn [fst snd]; constructor; try exact Hc'; unfold good; cbn; intros _; left; congruence.
Qed.

Lemma rinv_bget s r ks : rinv s r -> rinv (set_cache s (Some (snd (fst (bget s ks))))) r.
Proof.
  intros [H1 H1' H2 H4 H6 H7]. constructor; proj; try assumption.
  intros c [= <-]. change (Forall (good s) (snd (fst (bget s ks)))).
  apply bget_cache_good. destruct (cache s) eqn:Ec; [apply H4; reflexivity|constructor].
Qed.

(* a mutation of the flush in flight reaching the store early stays hidden behind the flushing buffer *)
Lemma rinv_store s r g fb k v : rinv s r -> inflight s = true -> flushing s = Some (g, fb) -> In (k, v) fb ->
  is_cne (fpne s) (k, v) = false -> rinv (set_store s (insert k v (store s))) r.
Proof.
  intros H Ei Ef Hin Ecn.
  assert (Hv : lookup k fb = Some v) by (apply sorted_In_lookup; [apply (ri_srt _ _ H g fb Ef)|exact Hin]).
  eapply rinv_transfer; try exact H; try reflexivity; auto.
  - intros k'. unfold below; cbn [set_store flushing store]. rewrite Ef, lookup_insert.
    destruct (lookup k' fb) eqn:El; [reflexivity|]. destruct (bytes_eqb k' k) eqn:E; [|reflexivity].
    apply bytes_eqb_eq in E; subst k'. congruence.
  - cbn [set_store flushing inflight store]. intros g' fb' _ Hi. congruence.
  - cbn [set_store flushing store fpne cneset]. intros g' fb' Ef' k' v' Hk' Hn'. rewrite Ef in Ef'. injection Ef' as <- <-.
    destruct (ri_fcne _ _ H g fb Ef k' v' Hk' Hn') as [A B]. split; [exact A|].
    rewrite lookup_insert. destruct (bytes_eqb k' k) eqn:E; [|exact B].
    (* k' = k would be flushed both as CheckNotExists and as a mutation that writes a lock *)
    apply bytes_eqb_eq in E; subst k'. congruence.
  - cbn [set_store flushing]. apply (ri_srt _ _ H).
Qed.

(* SetWithFlags(presumeKeyNotExists) on a key the transaction has not written *)
Lemma rinv_insert s r k v : rinv s r -> lookup k (rmap r) = None ->
  rinv (set_pne (upd_field_mem s (insert k v (mem s)) (seg s ++ [(k, v)])) (if key_in k (pne s) then pne s else k :: pne s))
       {| rmap := insert k v (rmap r); rstages := rstages r |}.
Proof.
  intros H Hn. pose proof (rinv_write s r k v H) as Hw.
  assert (Hb : below s k = None).
  { destruct (ri_top s r H) as [Lv Lc _]. specialize (Lv k). rewrite Hn in Lv.
    destruct (lookup k (mem s)); destruct Lv as [Lv|(Hc & _)]; try congruence; destruct (Lc k Hc Hn). }
  destruct Hw as [H1 H1' H2 H4 H6 H7]. constructor; proj; try assumption.
  intros k' Hk'. unfold below in *; proj.
  destruct (key_in k (pne s)) eqn:Ek; [apply (ri_pne _ _ H); exact Hk'|].
  cbn [key_in existsb] in Hk'. apply Bool.orb_true_iff in Hk' as [Hk'|Hk']; [|apply (ri_pne _ _ H); exact Hk'].
  apply bytes_eqb_eq in Hk'; subst k'. exact Hb.
Qed.

Definition op_pre (r : rst) (o : op) : Prop :=
  match o with OInsert k _ => lookup k (rmap r) = None | _ => True end.

(* the invariant is kept as long as nothing has failed; [closed] only ever rises, so it is carried as "holds unless closed" *)
Lemma rinv_step P s r o : shape s -> op_pre r o -> (closed s = false -> rinv s r) ->
  closed (fst (step P s o)) = false -> rinv (fst (step P s o)) (rstep r o).
Proof.
  intros Hs Hpre. destruct (internal o) eqn:Eo.
  - rewrite (proj1 (internal_spec o Eo)). clear Hs Hpre.
    revert s o Eo. apply (internal_ind P (fun s => closed s = false -> rinv s r)).
    + intros s c [->|[ks ->]] H Hc; [eapply rinv_frame; [exact (H Hc)|..]; auto|apply rinv_bget, H, Hc].
    + intros s o H Hc. apply rinv_complete; [|exact Hc]. apply H. destruct (closed s) eqn:E; [|reflexivity].
      rewrite (closed_complete s o E) in Hc. discriminate.
    + intros s Ei H Hc. apply rinv_clear; [exact (H Hc)|exact Ei].
    + intros s Ef Es Ec H Hc. apply rinv_start; [exact (H Hc)|assumption..].
    + intros s g fb k v Ei Ef Hin Ecn H Hc. apply (rinv_store s r g fb); [exact (H Hc)|assumption..].
    + intros s b pe _ H Hc. eapply rinv_frame; [exact (H Hc)|..]; auto.
  - intros H Hc. specialize (H (closed_step_back P s o Hc)). clear Hc.
    pose proof (ri_levels _ _ H) as L. inversion L as [|? ? ? ? Lh Lt]; subst. clear L.
    destruct o; try discriminate Eo; cbn [step rstep fst].
    + destruct (is_nil v); [exact H|apply rinv_write; exact H].
    + apply rinv_write; exact H.
    + destruct H as [H1 H1' H2 H4 H6 H7]. constructor; proj; try assumption.
      constructor; [exact Lh|]. constructor; [exact Lh|exact Lt].
    + pose proof (sh_stages _ Hs) as Hl. revert Hl. destruct Lt as [|m rm t rt _ Lt]; intros Hl; [exact H|].
      destruct (segstages s); [discriminate Hl|]. cbn [fst].
      destruct H as [H1 H1' H2 H4 H6 H7]. constructor; proj; try assumption. constructor; [exact Lh|exact Lt].
    + pose proof (sh_stages _ Hs) as Hl. revert Hl. destruct Lt as [|m rm t rt Lm Lt]; intros Hl; [exact H|].
      destruct (segstages s); [discriminate Hl|]. cbn [fst].
      destruct H as [H1 H1' H2 H4 H6 H7]. constructor; proj; try assumption; [|discriminate]. constructor; [exact Lm|exact Lt].
    + destruct (is_nil v); [exact H|]. apply rinv_insert; [exact H|exact Hpre].
Qed.

Lemma presume_ok_from_cons r o t : presume_ok_from r (o :: t) = true -> op_pre r o /\ presume_ok_from (rstep r o) t = true.
Proof.
  cbn [presume_ok_from]. intros H. apply Bool.andb_true_iff in H as [A B]. split; [|exact B].
  destruct o; cbn; auto. destruct (lookup k (rmap r)); [discriminate|reflexivity].
Qed.

Lemma rinv_run_from P ops : forall s r, shape s -> (closed s = false -> rinv s r) -> presume_ok_from r ops = true ->
  closed (run_from P s ops) = false -> rinv (run_from P s ops) (fold_left rstep ops r).
Proof.
  unfold run_from. induction ops as [|o t IH]; intros s r Hs H Hp Hc; cbn [fold_left] in *; [exact (H Hc)|].
  apply presume_ok_from_cons in Hp as [Hp1 Hp2].
  apply IH; [apply shape_step; exact Hs|apply rinv_step; assumption|exact Hp2|exact Hc].
Qed.

Lemma rinv_run P ops : presume_ok ops = true -> closed (run P ops) = false -> rinv (run P ops) (rrun ops).
Proof. intros Hp H. apply rinv_run_from; [apply shape_init|intros _; apply rinv_init|exact Hp|exact H]. Qed.

(* Get consults the mutable buffer, the flushing buffer, the cache, the store tier: each stage answers with the view *)
Lemma get_is_view s r k : rinv s r -> eqv (cneset s) k (fst (get s k)) (view (mem s) s k).
Proof.
  intros H. unfold get. destruct (get_local s k) eqn:Eg.
  - cbn [fst]. left. symmetry; apply get_local_view; exact Eg.
  - apply get_local_none in Eg as [Em Eb]. unfold view; rewrite Em.
    destruct (cache s) as [c|] eqn:Ec.
    + destruct (clookup k c) as [o|] eqn:El; cbn [fst]; [|left; symmetry; exact Eb].
      apply clookup_In in El. pose proof (ri_cache _ _ H c Ec) as Hg. rewrite Forall_forall in Hg.
      apply (Hg _ El). exact Em.
    + cbn [fst]. left; symmetry; exact Eb.
Qed.

Lemma get_view s r k : rinv s r -> eqv (cneset s) k (fst (get s k)) (lookup k (rmap r)).
Proof. intros H. eapply eqv_trans; [apply (get_is_view s r k H)|apply (ri_mem _ _ H)]. Qed.

(* a commit attempt (Flush(true); FlushWait) that succeeds has put every write of the transaction into the store:
   both calls are steps, the second wait reported "ok" so nothing is closed, and with both buffers empty the view is the store *)
Lemma commit_ok_stored P s r wo1 wo2 :
  shape s -> (closed s = false -> rinv s r) -> snd (commit_attempt P s wo1 wo2) = true ->
  let s2 := fst (commit_attempt P s wo1 wo2) in
  closed s2 = false /\ mem s2 = [] /\ flushing s2 = None /\
  forall k, eqv (cneset s2) k (lookup k (store s2)) (lookup k (rmap r)).
Proof.
  intros Hs H. destruct (commit_attempt_spec P s wo1 wo2) as [E|(s1 & E1 & E2)]; [congruence|]. rewrite E2. cbn [fst snd]. intros Hw.
  pose proof (rinv_step P s r (OFlush true 0 wo1) Hs I H) as R1. pose proof (shape_step P s (OFlush true 0 wo1) Hs) as Hs1.
  rewrite E1 in R1, Hs1. set (s1' := start_flush s1) in *.
  pose proof (rinv_step P s1' r (OFlushWait wo2) Hs1 I R1) as R2.
  cbn [step] in R2. rewrite flush_wait_spec in R2 by discriminate. cbn [rstep fst] in R2.
  assert (Hc : closed (complete s1' wo2) = false).
  { destruct (closed (complete s1' wo2)) eqn:Ec; [|reflexivity]. rewrite (wait_closed s1' wo2 Hs1 ltac:(discriminate) Ec) in Hw. discriminate. }
  specialize (R2 Hc).
  split; [exact Hc|]. destruct (complete_frame s1' wo2) as (Em & _). split; [exact Em|]. split; [reflexivity|].
  intros k. pose proof (ri_mem _ _ R2 k) as Hm. unfold view, below in Hm. cbn [clear_flushing mem flushing store] in Hm.
  rewrite Em in Hm. exact Hm.
Qed.
