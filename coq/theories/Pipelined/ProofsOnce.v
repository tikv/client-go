(* Pipelined/ProofsOnce.v — every buffered mutation is handed to exactly one flush; generations 1,2,3,...; one flush at a time *)
From Verif Require Import Base.Lex Pipelined.Model Pipelined.ProofsBuf Pipelined.ProofsShape.

Definition gen_of (e : N * buf * bool) : N := fst (fst e).
Definition buf_of (e : N * buf * bool) : buf := snd (fst e).

Record oinv (s : st) (w : wst) : Prop := {
  oi_gen : gen s = N.of_nat (length (flog s));
  oi_gens : forall i e, nth_error (flog s) i = Some e -> gen_of e = N.of_nat (S i);
  oi_bufs : map buf_of (flog s) = map writes_of (segs s);
  oi_mem : mem s = writes_of (seg s);
  oi_stages : stages s = map writes_of (segstages s);
  oi_part : concat (segs s) ++ seg s = wl w;
  oi_pstk : map (fun sg => concat (segs s) ++ sg) (segstages s) = wstk w
}.

Lemma oinv_init : oinv init {| wl := []; wstk := [] |}.
Proof. constructor; cbn; try reflexivity. intros [|i] e; discriminate. Qed.

Lemma oinv_frame s s' w : oinv s w ->
  gen s' = gen s -> flog s' = flog s -> segs s' = segs s -> seg s' = seg s -> segstages s' = segstages s ->
  mem s' = mem s -> stages s' = stages s -> oinv s' w.
Proof. intros [? ? ? ? ? ? ?] E1 E2 E3 E4 E5 E6 E7. constructor; rewrite ?E1, ?E2, ?E3, ?E4, ?E5, ?E6, ?E7; assumption. Qed.

Lemma oinv_complete s w o : oinv s w -> oinv (complete s o) w.
Proof. intros H. unfold complete. destruct (inflight s); [|exact H]. eapply oinv_frame; [exact H|..]; reflexivity. Qed.

Lemma writes_of_snoc l k v : writes_of (l ++ [(k, v)]) = insert k v (writes_of l).
Proof. unfold writes_of. rewrite fold_left_app. reflexivity. Qed.

Lemma oinv_start s w : oinv s w -> stages s = [] -> oinv (start_flush s) w.
Proof.
  intros [H1 H2 H3 H4 H5 H6 H7] Es.
  assert (Esg : segstages s = []).
  { rewrite Es in H5. destruct (segstages s); [reflexivity|discriminate]. }
  constructor; cbn [start_flush gen flog segs seg mem stages segstages].
  - rewrite app_length; cbn [length]. rewrite H1. lia.
  - intros i e Hn. destruct (Nat.lt_ge_cases i (length (flog s))) as [Hlt|Hge].
    + rewrite nth_error_app1 in Hn by exact Hlt. apply H2; exact Hn.
    + rewrite nth_error_app2 in Hn by exact Hge.
      destruct (i - length (flog s))%nat as [|j] eqn:Ej; [|destruct j; discriminate].
      cbn in Hn. injection Hn as <-. unfold gen_of; cbn [fst]. rewrite H1. lia.
  - rewrite !map_app; cbn [map]. unfold buf_of at 2; cbn [fst snd]. rewrite H3, H4. reflexivity.
  - reflexivity.
  - rewrite Es, Esg; reflexivity.
  - rewrite concat_app; cbn [concat]. rewrite !app_nil_r. exact H6.
  - rewrite Esg in *. cbn [map] in *. exact H7.
Qed.

Lemma oinv_write s w k v : oinv s w ->
  oinv (upd_field_mem s (insert k v (mem s)) (seg s ++ [(k, v)])) {| wl := wl w ++ [(k, v)]; wstk := wstk w |}.
Proof.
  intros [H1 H2 H3 H4 H5 H6 H7]. constructor; cbn [upd_field_mem gen flog segs seg mem stages segstages wl wstk]; try assumption.
  - rewrite writes_of_snoc, H4; reflexivity.
  - rewrite app_assoc, H6; reflexivity.
Qed.

Lemma oinv_step P s w o : oinv s w -> oinv (fst (step P s o)) (wstep w o).
Proof.
  intros H. destruct (internal o) eqn:Eo.
  - rewrite (proj2 (internal_spec o Eo)). revert s o Eo H. apply (internal_ind P (fun s => oinv s w)).
    + intros s c _ H. eapply oinv_frame; [exact H|..]; reflexivity.
    + intros s o. apply oinv_complete.
    + intros s _ H. eapply oinv_frame; [exact H|..]; reflexivity.
    + intros s _ Es _ H. apply oinv_start; assumption.
    + intros s g fb k v _ _ _ _ H. eapply oinv_frame; [exact H|..]; reflexivity.
    + intros s b pe _ H. eapply oinv_frame; [exact H|..]; reflexivity.
  - destruct o; try discriminate Eo; cbn [step wstep].
    + destruct (is_nil v); cbn [fst]; [exact H|apply oinv_write; exact H].
    + apply oinv_write; exact H.
    + destruct H as [H1 H2 H3 H4 H5 H6 H7].
      constructor; cbn [fst set_stages gen flog segs seg mem stages segstages wl wstk map]; try assumption.
      * rewrite H4 at 1. rewrite H5. reflexivity.
      * rewrite H6, H7. reflexivity.
    + pose proof H as [H1 H2 H3 H4 H5 H6 H7]. rewrite H5, <- H7.
      destruct (segstages s) as [|sg t']; cbn [map fst]; [exact H|].
      constructor; cbn [set_stages gen flog segs seg mem stages segstages wl wstk]; try assumption; reflexivity.
    + pose proof H as [H1 H2 H3 H4 H5 H6 H7]. rewrite H5, <- H7.
      destruct (segstages s) as [|sg t']; cbn [map fst]; [exact H|].
      constructor; cbn [set_cache set_stages gen flog segs seg mem stages segstages wl wstk]; try assumption; reflexivity.
    + destruct (is_nil v); cbn [fst]; [exact H|]. eapply oinv_frame; [apply (oinv_write s w k v H)|..]; reflexivity.
Qed.

Lemma oinv_run P ops : oinv (run P ops) (wrun ops).
Proof. apply (run_from_ind2 P wstep oinv); [intros s w o; apply oinv_step|apply oinv_init]. Qed.

(* the write log determines what the transaction wrote: the plain map evolves as the image of the log *)
Definition rst_of (w : wst) : rst := {| rmap := writes_of (wl w); rstages := map writes_of (wstk w) |}.

Lemma rstep_log w o : rstep (rst_of w) o = rst_of (wstep w o).
Proof.
  unfold rst_of. destruct o; cbn [rstep wstep rmap rstages wl wstk]; try reflexivity.
  - destruct (is_nil v); [reflexivity|]. cbn [wl wstk]. rewrite writes_of_snoc. reflexivity.
  - rewrite writes_of_snoc. reflexivity.
  - destruct w as [l [|x stk]]; reflexivity.
  - destruct w as [l [|x stk]]; reflexivity.
  - destruct (is_nil v); [reflexivity|]. cbn [wl wstk]. rewrite writes_of_snoc. reflexivity.
Qed.

Lemma rrun_log ops : rrun ops = rst_of (wrun ops).
Proof.
  unfold rrun, wrun. change {| rmap := []; rstages := [] |} with (rst_of {| wl := []; wstk := [] |}).
  generalize {| wl := []; wstk := [] |}. induction ops as [|o t IH]; intros w; cbn [fold_left]; [reflexivity|].
  rewrite rstep_log. apply IH.
Qed.

Lemma rrun_del ops k : lookup k (rmap (rrun (ops ++ [ODel k]))) = Some [].
Proof. unfold rrun. rewrite fold_left_app. apply lookup_insert_same. Qed.
