(* Pipelined/ProofsPrimary.v — what the flush callback records about the flushed keys: the bounds pipelinedStart /
   pipelinedEnd bracket every flushed key and one primary, the first key that got a lock, serves all generations; then what resolvers make of
   the locks a crashed client left behind *)
From Verif Require Import Base.Lex Pipelined.Model Pipelined.ProofsBuf Pipelined.ProofsShape.

Definition okbuf (m : buf) : Prop := bsorted m /\ Forall (fun k => k <> []) (map fst m).

Record binv (s : st) : Prop := {
  bi_mem : okbuf (mem s);
  bi_stages : Forall okbuf (stages s);
  bi_bounds : forall k, In k (flushed_keys s) ->
              pstart s <> [] /\ pend s <> [] /\ kle (pstart s) k /\ kle k (pend s);
  bi_logs : length (flog s) = length (flogp s);
  bi_prim : primary s = hd [] (locked_keys s)
}.

Lemma binv_init : binv init.
Proof. constructor; cbn; try tauto; [split; constructor|constructor]. Qed.

Lemma binv_frame s s' : binv s -> mem s' = mem s -> stages s' = stages s -> flog s' = flog s -> flogp s' = flogp s ->
  pstart s' = pstart s -> pend s' = pend s -> primary s' = primary s -> binv s'.
Proof.
  intros [H1 H2 H3 H4 H5] E1 E2 E3 E4 E5 E6 E7.
  constructor; unfold flushed_keys, locked_keys in *; rewrite ?E1, ?E2, ?E3, ?E4, ?E5, ?E6, ?E7; assumption.
Qed.

Lemma okbuf_insert k v m : k <> [] -> okbuf m -> okbuf (insert k v m).
Proof.
  intros Hk [H1 H2]. split; [apply insert_sorted; exact H1|].
  rewrite Forall_forall in *. intros x Hx. apply insert_keys in Hx as [->|Hx]; auto.
Qed.

(* the callback's bounds update: the smaller of the old start and the buffer's first key, [] standing for "unset" *)
Lemma upd_start_spec ps b : first_key b <> [] ->
  upd_start ps b <> [] /\ kle (upd_start ps b) (first_key b) /\ (ps <> [] -> kle (upd_start ps b) ps).
Proof.
  intros Hf. unfold upd_start, kle, lex_leb. destruct ps as [|c ps']; cbn [is_nil orb].
  - rewrite lex_cmp_refl. split; [exact Hf|]. split; [reflexivity|congruence].
  - destruct (lex_cmp (c :: ps') (first_key b)) eqn:Ec.
    + rewrite Ec, lex_cmp_refl. split; [discriminate|]. split; reflexivity.
    + rewrite Ec, lex_cmp_refl. split; [discriminate|]. split; reflexivity.
    + rewrite lex_cmp_refl, (lex_cmp_antisym (c :: ps')), Ec. split; [exact Hf|]. split; reflexivity.
Qed.

Lemma upd_end_spec pe b : last_key b <> [] ->
  upd_end pe b <> [] /\ kle (last_key b) (upd_end pe b) /\ (pe <> [] -> kle pe (upd_end pe b)).
Proof.
  intros Hl. unfold upd_end, kle, lex_leb. destruct pe as [|c pe']; cbn [is_nil orb].
  - rewrite lex_cmp_refl. split; [exact Hl|]. split; [reflexivity|congruence].
  - destruct (lex_cmp (c :: pe') (last_key b)) eqn:Ec.
    + rewrite (lex_cmp_antisym (c :: pe')), Ec, lex_cmp_refl. split; [discriminate|]. split; reflexivity.
    + rewrite Ec, lex_cmp_refl. split; [exact Hl|]. split; reflexivity.
    + rewrite (lex_cmp_antisym (c :: pe')), Ec, lex_cmp_refl. split; [discriminate|]. split; reflexivity.
Qed.

Lemma flushed_keys_start s :
  flushed_keys (start_flush s) =
  flushed_keys s ++ (if negb (closed s) && negb (is_nil (mem s)) then map fst (mem s) else []).
Proof.
  unfold flushed_keys. cbn [start_flush flog]. rewrite flat_map_app. cbn [flat_map snd fst]. rewrite app_nil_r. reflexivity.
Qed.

Lemma locked_keys_start s : length (flog s) = length (flogp s) ->
  locked_keys (start_flush s) =
  locked_keys s ++ (if negb (closed s) && negb (is_nil (mem s)) then map fst (lockable (mem s) (pne s)) else []).
Proof.
  intros Hl. unfold locked_keys. cbn [start_flush flog flogp]. rewrite combine_app by exact Hl. rewrite flat_map_app.
  cbn [combine flat_map snd fst]. rewrite app_nil_r. reflexivity.
Qed.

Lemma muts_of_In fb fp k v : In (k, v) fb -> In (k, mut_op (key_in k fp) v) (muts_of fb fp).
Proof. intros Hin. apply in_map_iff. exists (k, v). split; [reflexivity|exact Hin]. Qed.

Lemma lockable_sub fb fp k : In k (map fst (lockable fb fp)) -> In k (map fst fb).
Proof.
  unfold lockable. intros H. apply in_map_iff in H as (kv & E & Hf). apply filter_In in Hf as [Hf _].
  apply in_map_iff. exists kv; auto.
Qed.

Lemma locked_sub_flushed s k : In k (locked_keys s) -> In k (flushed_keys s).
Proof.
  unfold locked_keys, flushed_keys. intros H. apply in_flat_map in H as ([e fp] & Hin & Hk). cbn [fst snd] in Hk.
  apply in_flat_map. exists e. split; [eapply in_combine_l; exact Hin|].
  destruct (snd e); [|destruct Hk]. eapply lockable_sub, Hk.
Qed.

(* the bounds are non-empty keys and [] is the least key *)
Lemma locked_ne s k : binv s -> In k (locked_keys s) -> k <> [].
Proof.
  intros H Hk ->. destruct (bi_bounds _ H [] (locked_sub_flushed s [] Hk)) as (A & _ & C & _). apply A, kle_nil, C.
Qed.

Lemma primary_locked s : binv s -> locked_keys s <> [] -> primary s <> [] /\ In (primary s) (locked_keys s).
Proof.
  intros H Hne. rewrite (bi_prim _ H). destruct (locked_keys s) as [|k t] eqn:E; [congruence|].
  split; [apply (locked_ne s k H); rewrite E|]; left; reflexivity.
Qed.

Lemma primary_in_locked s : binv s -> primary s <> [] -> In (primary s) (locked_keys s).
Proof.
  intros H Hp. apply (primary_locked s H). intros E. rewrite (bi_prim _ H), E in Hp. apply Hp; reflexivity.
Qed.

(* a flush that is sent widens the bounds to the buffer's first and last key, and chooses the primary — the first key
   that gets a lock — unless one exists *)
Lemma binv_start s : binv s -> binv (start_flush s).
Proof.
  intros H. pose proof H as [[Hs Hne] H2 H3 H4 H5].
  constructor; rewrite ?flushed_keys_start, ?locked_keys_start by exact H4; cbn [start_flush mem stages pstart pend primary flog flogp].
  - split; constructor.
  - exact H2.
  - destruct (negb (closed s) && negb (is_nil (mem s))) eqn:Esent.
    2:{ rewrite app_nil_r. exact H3. }
    apply Bool.andb_true_iff in Esent as [_ Hnn]. apply Bool.negb_true_iff, is_nil_false in Hnn.
    rewrite Forall_forall in Hne.
    destruct (upd_start_spec (pstart s) (mem s)) as (A1 & A2 & A3); [apply Hne, first_key_in, Hnn|].
    destruct (upd_end_spec (pend s) (mem s)) as (B1 & B2 & B3); [apply Hne, last_key_in, Hnn|].
    intros k Hk. split; [exact A1|]. split; [exact B1|]. apply in_app_or in Hk as [Hk|Hk].
    + destruct (H3 k Hk) as (C1 & C2 & C3 & C4). split.
      * eapply kle_trans; [apply A3; exact C1|exact C3].
      * eapply kle_trans; [exact C4|apply B3; exact C2].
    + split.
      * eapply kle_trans; [exact A2|apply first_key_le; assumption].
      * eapply kle_trans; [apply le_last_key; eassumption|exact B2].
  - rewrite !app_length; cbn [length]. lia.
  - destruct (negb (closed s) && negb (is_nil (mem s))); cbn [andb]; [|rewrite app_nil_r; exact H5].
    (* no lock so far: the buffer's first lock-writing key; else the first locked key is a non-empty key and stays *)
    rewrite H5. pose proof (locked_ne s) as Hl. destruct (locked_keys s) as [|k0 t]; cbn [hd app is_nil].
    + destruct (lockable (mem s) (pne s)) as [|[k v] l]; reflexivity.
    + destruct k0; [destruct (Hl [] H); [left|]; reflexivity|reflexivity].
Qed.

Lemma binv_write s k v : k <> [] -> binv s -> binv (upd_field_mem s (insert k v (mem s)) (seg s ++ [(k, v)])).
Proof.
  intros Hk [H1 H2 H3 H4 H5]. constructor; try assumption. apply okbuf_insert; assumption.
Qed.

Lemma binv_step P s o : op_keys_ok o = true -> binv s -> binv (fst (step P s o)).
Proof.
  intros Hok H. destruct (internal o) eqn:Eo.
  - clear Hok. revert s o Eo H. apply internal_ind.
    + intros s c _ H. eapply binv_frame; [exact H|..]; reflexivity.
    + intros s o H. eapply binv_frame; [exact H|..]; unfold complete; destruct (inflight s); reflexivity.
    + intros s _ H. eapply binv_frame; [exact H|..]; reflexivity.
    + intros s _ _ _. apply binv_start.
    + intros s g fb k v _ _ _ _ H. eapply binv_frame; [exact H|..]; reflexivity.
    + intros s b pe _ H. eapply binv_frame; [exact H|..]; reflexivity.
  - destruct o; try discriminate Eo; cbn [step op_keys_ok] in *.
    + destruct (is_nil v); [exact H|]. apply binv_write; [|exact H]. apply is_nil_false, Bool.negb_true_iff, Hok.
    + apply binv_write; [|exact H]. apply is_nil_false, Bool.negb_true_iff, Hok.
    + destruct H as [H1 H2 H3 H4 H5]. constructor; try assumption. constructor; assumption.
    + destruct (stages s) as [|m t] eqn:E1, (segstages s); try exact H.
      destruct H as [H1 H2 H3 H4 H5]. rewrite E1 in H2. inversion H2; subst. constructor; assumption.
    + destruct (stages s) as [|m t] eqn:E1, (segstages s); try exact H.
      destruct H as [H1 H2 H3 H4 H5]. rewrite E1 in H2. inversion H2; subst. constructor; assumption.
    + destruct (is_nil v); [exact H|].
      eapply binv_frame; [apply (binv_write s k v); [apply is_nil_false, Bool.negb_true_iff, Hok|exact H]|..]; reflexivity.
Qed.

Lemma binv_run P ops : forallb op_keys_ok ops = true -> binv (run P ops).
Proof.
  unfold run, run_from. generalize binv_init. generalize init.
  induction ops as [|o t IH]; intros s H Hok; cbn [fold_left]; [exact H|].
  cbn [forallb] in Hok. apply Bool.andb_true_iff in Hok as [Ho Ht].
  apply IH; [apply binv_step; assumption|exact Ht].
Qed.

(* once chosen the primary never changes: every generation's locks point to the same primary *)
Lemma primary_stable P ops s : primary s <> [] -> primary (run_from P s ops) = primary s.
Proof.
  intros Hp. remember (primary s) as p eqn:Es. symmetry in Es. revert s Es.
  apply (run_from_ind P (fun s => primary s = p)). intros s o Es. destruct (internal o) eqn:Eo.
  - revert s o Eo Es. apply (internal_ind P (fun s => primary s = p)); try (intros; assumption).
    + intros s o Es. rewrite <- Es. unfold complete; destruct (inflight s); reflexivity.
    + intros s _ _ _ Es. cbn [start_flush primary]. rewrite Es. destruct p; [congruence|].
      cbn [is_nil]. rewrite Bool.andb_false_r. reflexivity.
  - destruct (writing_frame P s o Eo) as (m & sts & sg & sgs & q & c & -> & _). exact Es.
Qed.

(* resolvers after a crash: what [crun] leaves, said exactly. A lock is still there iff no resolver met it; a key has
   been driven to an outcome iff it was a lock, a resolver met it, and the outcome is the one the primary's status fixes. *)
Definition settled (c : cst) (x : key) (o : pstat) : Prop :=
  match o with PCommitted ts => In (x, ts) (ccommitted c) | _ => In x (crolled c) end.

Lemma decide_cases st : decide st = PRolledBack \/ exists ts, decide st = PCommitted ts.
Proof. destruct st; cbn; eauto. Qed.

Lemma cresolve_spec c k :
  (forall x, In x (clocks (cresolve c k)) <-> In x (clocks c) /\ x <> k) /\
  decide (cstat (cresolve c k)) = decide (cstat c) /\
  (forall x o, o <> PUndecided ->
     (settled (cresolve c k) x o <-> settled c x o \/ (x = k /\ In k (clocks c) /\ decide (cstat c) = o))).
Proof.
  unfold cresolve. destruct (key_in k (clocks c)) eqn:Ek.
  - apply key_in_In in Ek. cbn [clocks cstat]. split; [|split].
    + intros x. rewrite filter_In, Bool.negb_true_iff. split; intros [H Hn]; (split; [exact H|]).
      * intros ->. rewrite bytes_eqb_refl in Hn. discriminate.
      * apply bytes_eqb_neq. congruence.
    + destruct (cstat c); reflexivity.
    + intros x o Ho. unfold settled. cbn [ccommitted crolled].
      destruct (decide_cases (cstat c)) as [->|[ts0 ->]], o as [|ts|]; cbn [In]; try congruence; intuition congruence.
  - split; [|split; [reflexivity|]].
    + intros x. split; [|tauto]. intros H. split; [exact H|]. intros ->. apply key_in_In in H. congruence.
    + intros x o _. split; [tauto|]. intros [H|(_ & H & _)]; [exact H|]. apply key_in_In in H. congruence.
Qed.

Lemma crun_spec ks : forall c,
  (forall x, In x (clocks (crun c ks)) <-> In x (clocks c) /\ ~ In x ks) /\
  decide (cstat (crun c ks)) = decide (cstat c) /\
  (forall x o, o <> PUndecided ->
     (settled (crun c ks) x o <-> settled c x o \/ (In x ks /\ In x (clocks c) /\ decide (cstat c) = o))).
Proof.
  unfold crun. induction ks as [|k t IH]; intros c; cbn [fold_left In]; [tauto|].
  destruct (cresolve_spec c k) as (A1 & A2 & A3), (IH (cresolve c k)) as (B1 & B2 & B3). split; [|split].
  - intros x. rewrite B1, A1. intuition congruence.
  - rewrite B2. exact A2.
  - intros x o Ho. rewrite (B3 x o Ho), (A3 x o Ho), A1, A2.
    destruct (list_eq_dec N.eq_dec x k) as [->|Hn]; intuition congruence.
Qed.

Lemma crash_resolvers locks st0 ks x :
  let c := crun (crash_state locks st0) ks in
  (In x (clocks c) <-> In x locks /\ ~ In x ks) /\
  (forall ts, In (x, ts) (ccommitted c) <-> In x ks /\ In x locks /\ decide st0 = PCommitted ts) /\
  (In x (crolled c) <-> In x ks /\ In x locks /\ decide st0 = PRolledBack).
Proof.
  destruct (crun_spec ks (crash_state locks st0)) as (A & _ & B). split; [apply A|]. split.
  - intros ts. rewrite (B x (PCommitted ts)) by discriminate. cbn. tauto.
  - rewrite (B x PRolledBack) by discriminate. cbn. tauto.
Qed.
