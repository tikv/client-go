(* Pipelined/ProofsExec.v — a flush split into batches: any refused batch makes the flush fail, whatever the arrival order *)
From Verif Require Import Base.Lex Pipelined.Model Pipelined.ProofsBuf Pipelined.ProofsShape.
From Coq Require Import Permutation.

Definition refused (r : batch_res) : bool := match r with Some _ => true | None => false end.

(* process() returns nil exactly when every batch was applied; otherwise the error of one of the refused batches, an
   assertion failure only if nothing else was refused *)
Lemma process_err_spec arrivals :
  match process_err arrivals with
  | None => forall r, In r arrivals -> r = None
  | Some c => In (Some c) arrivals /\ (c = 0 -> forall c', In (Some c') arrivals -> c' = 0)
  end.
Proof.
  unfold process_err.
  destruct (find (fun r => match r with Some c => negb (c =? 0) | None => false end) arrivals) as [[c1|]|] eqn:E1.
  - apply find_some in E1 as [Hin Hc]. split; [exact Hin|]. intros ->. discriminate.
  - apply find_some in E1 as [_ E1]; discriminate.
  - destruct (find (fun r => match r with Some c => c =? 0 | None => false end) arrivals) as [[c2|]|] eqn:E2.
    + apply find_some in E2 as [Hin Hc]. split; [exact Hin|]. intros _ c' Hc'.
      pose proof (find_none _ _ E1 _ Hc') as A. cbn in A. apply Bool.negb_false_iff, N.eqb_eq in A. exact A.
    + apply find_some in E2 as [_ E2]; discriminate.
    + intros [c|] Hr; [|reflexivity]. pose proof (find_none _ _ E1 _ Hr) as A. pose proof (find_none _ _ E2 _ Hr) as B.
      cbn in A, B. rewrite B in A. discriminate.
Qed.

Lemma process_err_none arrivals : process_err arrivals = None <-> forall r, In r arrivals -> r = None.
Proof.
  pose proof (process_err_spec arrivals) as H. destruct (process_err arrivals) as [c|]; split; try tauto; try discriminate.
  intros Hall. destruct H as [Hin _]. discriminate (Hall _ Hin).
Qed.

Lemma process_err_some arrivals c : process_err arrivals = Some c ->
  In (Some c) arrivals /\ (c = 0 -> forall c', In (Some c') arrivals -> c' = 0).
Proof. intros E. pose proof (process_err_spec arrivals) as H. rewrite E in H. exact H. Qed.

Lemma process_err_perm a b : Permutation a b -> (process_err a = None <-> process_err b = None).
Proof.
  intros Hp. rewrite !process_err_none. split; intros H r Hr; apply H.
  - eapply Permutation_in; [apply Permutation_sym; exact Hp|exact Hr].
  - eapply Permutation_in; [exact Hp|exact Hr].
Qed.

Lemma refused_batch_fails_flush P s arrivals r :
  shape s -> inflight s = true -> In r arrivals -> refused r = true ->
  let s' := complete_batches s arrivals in
  closed s' = true /\ pending s' = Some false /\
  forall ops' wo1 wo2, snd (commit_attempt P (run_from P s' ops') wo1 wo2) = false.
Proof.
  intros Hs Hi Hin Hr s'. unfold s', complete_batches.
  destruct (process_err arrivals) as [c|] eqn:E.
  2:{ rewrite (proj1 (process_err_none arrivals) E r Hin) in Hr. discriminate. }
  destruct (complete_error_closes s Hi) as [A B]. split; [exact A|]. split; [exact B|].
  intros ops' wo1 wo2. apply commit_fails_closed; [apply shape_run_from, shape_complete, Hs|apply closed_run_from, A].
Qed.
