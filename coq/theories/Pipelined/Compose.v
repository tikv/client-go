(* Pipelined/Compose.v — the hypothesis of C16_resolve_covers_dynamic ("every locate step is handed a region that contains
   the probed key") discharged by C09's theorem about LocateKey (Region.Props.C09_contains) for the composed system:
   the resolve handler's loop running on the Region model's find_region_by_key, from any cache state, against any PD
   whose answers are sound (pd may depend on time: the layout changes under the loop). *)
From Verif Require Import Base.Lex.
From Verif Require Region.Model Region.ProofsContains.
From Verif Require Import Pipelined.Model Pipelined.ProofsBuf Pipelined.ProofsRange.

Module R := Region.Model.

Definition rgn_of (r : R.region) : rgn :=
  (R.r_start r, if R.is_nil (R.r_end r) then None else Some (R.r_end r)).

Lemma rgn_of_contains r k : R.r_contains r k = true -> rcontains (rgn_of r) k = true.
Proof.
  unfold R.r_contains, R.contains, rcontains, rgn_of. cbn [fst snd]. intros H.
  apply Bool.andb_true_iff in H as [H1 H2]. rewrite H1. cbn [andb].
  destruct (R.is_nil (R.r_end r)); [reflexivity|]. rewrite Bool.orb_false_r in H2. exact H2.
Qed.

(* buildPipelinedResolveHandler with LocateKey = C09's find_region_by_key (cache c and clock t are threaded) *)
Fixpoint handler_loc (pd : nat -> R.pd_req -> R.pd_ans) (budget batch fuel : nat) (n : nat) (t : nat) (c : R.cache)
    (start rend : key) : option (list rgn) :=
  match n with
  | O => None
  | S n' =>
      match R.find_region_by_key pd budget fuel t c start false with
      | (R.Ok r, c', t') =>
          let g := rgn_of r in
          match snd g with
          | None => Some [g]
          | Some e => if lex_leb rend e then Some [g]
                      else match handler_loc pd budget batch fuel n' t' c' e rend with Some l => Some (g :: l) | None => None end
          end
      | _ => None
      end
  end.

(* the loop on LocateKey is the handler of the model run on the regions LocateKey returned *)
Lemma handler_loc_seq pd budget batch fuel :
  Region.ProofsContains.pd_get_sound pd -> Region.ProofsContains.pd_prev_sound pd ->
  forall n t c start rend served,
  handler_loc pd budget batch fuel n t c start rend = Some served ->
  exists env, handler_seq env start rend = Some served.
Proof.
  intros Hg Hp. induction n as [|n IH]; intros t c start rend served; cbn [handler_loc]; [discriminate|].
  destruct (R.find_region_by_key pd budget fuel t c start false) as [[[r|e] c'] t'] eqn:Ef; [|discriminate].
  (* find_region_by_key_holds is the lemma Region.Props.C09_contains restates *)
  pose proof (Region.ProofsContains.find_region_by_key_holds pd budget Hg Hp fuel t c start false r c' t' Ef) as Hc.
  unfold Region.ProofsContains.holds in Hc.
  apply rgn_of_contains in Hc. set (g := rgn_of r) in *.
  destruct (snd g) as [e|] eqn:Es.
  - destruct (lex_leb rend e) eqn:Ele.
    + intros [= <-]. exists [g]. cbn [handler_seq]. rewrite Hc, Es, Ele. reflexivity.
    + destruct (handler_loc pd budget batch fuel n t' c' e rend) as [l|] eqn:Eh; [|discriminate].
      intros [= <-]. destruct (IH t' c' e rend l Eh) as [env He]. exists (g :: env).
      cbn [handler_seq]. rewrite Hc, Es, Ele, He. reflexivity.
  - intros [= <-]. exists [g]. cbn [handler_seq]. rewrite Hc, Es. reflexivity.
Qed.
