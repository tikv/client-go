(* Pipelined/ProofsShape.v — what the operations are made of, and the invariant of the flush hand-shake.
   Every operation that leaves the transaction's writes alone (all but set / delete / insert / staging ops) is a
   sequence of a few primitive state changes — drop or fill the cache, the flush function returns, forget the flushing
   buffer, start a flush, one mutation reaches the store, the keep-alive flag changes — so an invariant is shown once per
   primitive ([internal_ind]); what the six writing operations leave alone is [writing_frame]. *)
From Verif Require Import Base.Lex Pipelined.Model.

Lemma complete_inflight s o : inflight (complete s o) = false.
Proof. unfold complete. destruct (inflight s) eqn:E; [reflexivity|exact E]. Qed.

Lemma complete_frame s o : mem (complete s o) = mem s /\ stages (complete s o) = stages s /\ cache (complete s o) = cache s
  /\ flushing (complete s o) = flushing s.
Proof. unfold complete; destruct (inflight s); cbn; auto. Qed.

Lemma err_resp_cases s dflt :
  err_resp s dflt = dflt \/ exists k g fb, flushing s = Some (g, fb) /\ err_resp s dflt = RErrExist k (lookup k fb).
Proof.
  unfold err_resp. destruct (perr s) as [k|]; [|left; reflexivity].
  destruct (flushing s) as [[g fb]|]; [right; exists k, g, fb; split; reflexivity|left; reflexivity].
Qed.

(* the four ways a Flush call ends: refused under staging, below the thresholds, a new flush started (after waiting for
   the one before, if any), or the wait for the one before reported an error *)
Inductive flush_spec (s : st) (f wo : bool) : st * resp -> Prop :=
| fs_staging : stages s <> [] -> flush_spec s f wo (set_cache s None, RFlush false 2 None)
| fs_skip : f = false -> flush_spec s f wo (set_cache s None, RFlush false 0 None)
| fs_start s1 : stages s = [] ->
    (flushing s = None /\ s1 = set_cache s None) \/
    (flushing s <> None /\ s1 = clear_flushing (complete (set_cache s None) wo)) ->
    flush_spec s f wo (start_flush s1, RFlush true 0 (flushing (start_flush s1)))
| fs_fail : stages s = [] -> flushing s <> None ->
    flush_spec s f wo (clear_flushing (complete (set_cache s None) wo),
                       err_resp (complete (set_cache s None) wo) (RFlush false 1 None)).

Lemma flush_holds P s f m wo : flush_spec s f wo (flush P s f m wo).
Proof.
  unfold flush. cbn [set_cache stages flushing].
  destruct (stages s) eqn:Es; cbn [is_nil negb]; [|apply fs_staging; rewrite Es; discriminate].
  destruct (negb f && negb (need_flush P (set_cache s None) m)) eqn:En.
  { apply fs_skip. apply Bool.andb_true_iff in En as [En _]. apply Bool.negb_true_iff, En. }
  destruct (flushing s) eqn:Ef.
  - unfold wait. destruct (match pending _ with Some r => r | None => true end).
    + apply (fs_start s f wo); [exact Es|right; split; [congruence|reflexivity]].
    + apply fs_fail; [exact Es|congruence].
  - apply (fs_start s f wo); [exact Es|left; split; [exact Ef|reflexivity]].
Qed.

Definition internal (o : op) : bool :=
  match o with OSet _ _ | ODel _ | OInsert _ _ | OStaging | ORelease | OCleanup => false | _ => true end.

Lemma internal_spec o : internal o = true -> (forall r, rstep r o = r) /\ (forall w, wstep w o = w).
Proof. destruct o; try discriminate; split; reflexivity. Qed.

(* the other six change nothing but the buffer stack with its ghost copy, the flag set and (cleanup) the cache *)
Lemma writing_frame P s o : internal o = false ->
  exists m sts sg sgs p c, fst (step P s o) = set_cache (set_pne (set_stages s m sts sg sgs) p) c /\
    (length (stages s) = length (segstages s) -> length sts = length sgs).
Proof.
  assert (Hid : exists m sts sg sgs p c, s = set_cache (set_pne (set_stages s m sts sg sgs) p) c /\
                  (length (stages s) = length (segstages s) -> length sts = length sgs)).
  { exists (mem s), (stages s), (seg s), (segstages s), (pne s), (cache s). destruct s; split; [reflexivity|auto]. }
  intros Ho. destruct o; try discriminate Ho; cbn [step].
  - destruct (is_nil v); [exact Hid|]. do 6 eexists. split; [reflexivity|auto].
  - do 6 eexists. split; [reflexivity|auto].
  - do 6 eexists. split; [reflexivity|]. cbn [length]. auto.
  - destruct (stages s) as [|m r], (segstages s) as [|sg r']; try exact Hid.
    do 6 eexists. split; [reflexivity|]. cbn [length]. auto.
  - destruct (stages s) as [|m r], (segstages s) as [|sg r']; try exact Hid.
    do 6 eexists. split; [reflexivity|]. cbn [length]. auto.
  - destruct (is_nil v); [exact Hid|]. eexists _, _, _, _, (if key_in k (pne s) then pne s else k :: pne s), _.
    split; [reflexivity|auto].
Qed.

Lemma internal_ind P (I : st -> Prop) :
  (forall s c, c = None \/ (exists ks, c = Some (snd (fst (bget s ks)))) -> I s -> I (set_cache s c)) ->
  (forall s o, I s -> I (complete s o)) ->
  (forall s, inflight s = false -> I s -> I (clear_flushing s)) ->
  (forall s, flushing s = None -> stages s = [] -> cache s = None -> I s -> I (start_flush s)) ->
  (forall s g fb k v, inflight s = true -> flushing s = Some (g, fb) -> In (k, v) fb -> is_cne (fpne s) (k, v) = false ->
     I s -> I (set_store s (insert k v (store s)))) ->
  (forall s b pe, (b = true -> tmrun s = true \/ is_nil (primary s) = false) -> I s -> I (set_tm s b pe)) ->
  forall s o, internal o = true -> I s -> I (fst (step P s o)).
Proof.
  intros Hcache Hcomp Hclear Hstart Hstore Htm s o Ho H.
  assert (Hwait : forall s wo, I s -> I (clear_flushing (complete s wo))).
  { intros s' wo H'. apply Hclear; [apply complete_inflight|apply Hcomp, H']. }
  destruct o; try discriminate Ho; cbn [step]; try exact H.
  - destruct (get s k); exact H.
  - destruct (bget s ks) as [[m c] shr] eqn:E. apply Hcache; [|exact H]. right; exists ks. rewrite E; reflexivity.
  - assert (H0 : I (set_cache s None)) by (apply Hcache; [left; reflexivity|exact H]).
    destruct (flush_holds P s force memsz wo) as [Hs|Hf|s1 Hs Hs1|Hs Hf]; cbn [fst]; [exact H0|exact H0| |apply Hwait, H0].
    destruct Hs1 as [[Hf ->]|[Hf ->]].
    + apply Hstart; [exact Hf|exact Hs|reflexivity|exact H0].
    + destruct (complete_frame (set_cache s None) wo) as (_ & E2 & E3 & _).
      apply Hstart; [reflexivity|rewrite <- Hs; exact E2|exact E3|apply Hwait, H0].
  - apply Hcomp, H.
  - unfold flush_wait. destruct (flushing s); [|exact H]. apply Hwait, H.
  - cbn [fst]. unfold store_step. destruct (inflight s) eqn:Ei; [|exact H].
    destruct (flushing s) as [[g fb]|] eqn:Ef; [|exact H].
    destruct (nth_error fb (N.to_nat i)) as [[k v]|] eqn:En; [|exact H].
    destruct (is_cne (fpne s) (k, v)) eqn:Ec; [exact H|].
    apply (Hstore s g fb k v Ei Ef (nth_error_In _ _ En) Ec H).
  - cbn [fst]. unfold complete_exist. destruct (inflight s); [|exact H].
    apply Htm; [intros E; left; exact E|apply Hcomp, H].
  - cbn [fst]. unfold tm_start. destruct (inflight s && negb (closed s) && _) eqn:E; [|exact H].
    apply Htm; [|exact H]. intros _; right. apply Bool.andb_true_iff in E as [_ E].
    destruct (flushing s) as [[g fb]|]; [|discriminate]. apply Bool.andb_true_iff in E as [E _].
    apply Bool.negb_true_iff, E.
  - cbn [fst]. apply Htm; [discriminate|exact H].
Qed.

Lemma run_from_ind P (I : st -> Prop) :
  (forall s o, I s -> I (fst (step P s o))) -> forall ops s, I s -> I (run_from P s ops).
Proof.
  intros Hstep. unfold run_from. induction ops as [|o t IH]; intros s H; cbn [fold_left]; [exact H|].
  apply IH, Hstep, H.
Qed.

Lemma run_from_ind2 {X} P (xstep : X -> op -> X) (I : st -> X -> Prop) :
  (forall s x o, I s x -> I (fst (step P s o)) (xstep x o)) ->
  forall ops s x, I s x -> I (run_from P s ops) (fold_left xstep ops x).
Proof.
  intros Hstep. unfold run_from. induction ops as [|o t IH]; intros s x H; cbn [fold_left]; [exact H|].
  apply IH, Hstep, H.
Qed.

Record shape (s : st) : Prop := {
  sh_inflight : inflight s = true -> flushing s <> None /\ pending s = None;
  sh_done : flushing s <> None -> inflight s = false -> pending s <> None;
  sh_closed : closed s = true -> pending s <> Some true;
  sh_failed : pending s = Some false -> closed s = true;
  sh_stages : length (stages s) = length (segstages s);
  sh_running : running s = (if inflight s then 1 else 0);
  sh_maxrun : maxrun s <= 1
}.

Lemma shape_init : shape init.
Proof. constructor; cbn; try congruence; try lia. Qed.

Lemma shape_frame s s' : shape s ->
  inflight s' = inflight s -> flushing s' = flushing s -> pending s' = pending s -> closed s' = closed s ->
  length (stages s') = length (segstages s') -> running s' = running s -> maxrun s' = maxrun s -> shape s'.
Proof.
  intros [? ? ? ? ? ? ?] E1 E2 E3 E4 E5 E6 E7. constructor; rewrite ?E1, ?E2, ?E3, ?E4, ?E6, ?E7; assumption.
Qed.

Lemma shape_complete s o : shape s -> shape (complete s o).
Proof.
  intros H. unfold complete. destruct (inflight s) eqn:E; [|exact H].
  destruct H as [H1 H2 H3 H4 H5 H6 H7]. rewrite E in H6.
  constructor; cbn [inflight flushing pending closed stages segstages running maxrun]; try congruence; try assumption.
  - destruct (closed s), o, (is_nil (primary s) && _); cbn; congruence.
  - destruct (closed s), o, (is_nil (primary s) && _); cbn; congruence.
  - rewrite H6; reflexivity.
Qed.

Lemma shape_step P s o : shape s -> shape (fst (step P s o)).
Proof.
  intros H. destruct (internal o) eqn:Eo.
  - revert s o Eo H. apply internal_ind.
    + intros s c _ H. eapply shape_frame; [exact H|..]; try reflexivity. apply (sh_stages _ H).
    + apply shape_complete.
    + intros s E [H1 H2 H3 H4 H5 H6 H7]. constructor; cbn; try congruence; assumption.
    + intros s Ef _ _ [H1 H2 H3 H4 H5 H6 H7].
      assert (E : inflight s = false) by (destruct (inflight s); [destruct H1; congruence|]; reflexivity).
      rewrite E in H6. constructor; cbn; try congruence; try assumption.
      * intros _; split; congruence.
      * rewrite H6; reflexivity.
      * rewrite H6. lia.
    + intros s g fb k v _ _ _ _ H. eapply shape_frame; [exact H|..]; try reflexivity. apply (sh_stages _ H).
    + intros s b pe _ H. eapply shape_frame; [exact H|..]; try reflexivity. apply (sh_stages _ H).
  - destruct (writing_frame P s o Eo) as (m & sts & sg & sgs & p & c & -> & Hl).
    eapply shape_frame; [exact H|..]; try reflexivity. apply Hl, (sh_stages _ H).
Qed.

Lemma shape_run_from P s ops : shape s -> shape (run_from P s ops).
Proof. revert s. apply run_from_ind, shape_step. Qed.

Lemma shape_run P ops : shape (run P ops).
Proof. apply shape_run_from, shape_init. Qed.

Lemma running_le_one s : shape s -> running s <= 1.
Proof. intros H. rewrite (sh_running _ H). destruct (inflight s); lia. Qed.

(* closed is sticky: complete is the only primitive that writes it, and only upwards *)
Lemma closed_complete s o : closed s = true -> closed (complete s o) = true.
Proof. unfold complete; intros H. destruct (inflight s); cbn; [rewrite H; reflexivity|exact H]. Qed.

Lemma closed_step P s o : closed s = true -> closed (fst (step P s o)) = true.
Proof.
  intros H. destruct (internal o) eqn:Eo.
  - revert s o Eo H. apply (internal_ind P (fun s => closed s = true)); try (intros; assumption). apply closed_complete.
  - destruct (writing_frame P s o Eo) as (m & sts & sg & sgs & p & c & -> & _). exact H.
Qed.

Lemma closed_run_from P s ops : closed s = true -> closed (run_from P s ops) = true.
Proof. revert s. apply (run_from_ind P (fun s => closed s = true)), closed_step. Qed.

Lemma closed_step_back P s o : closed (fst (step P s o)) = false -> closed s = false.
Proof. intros H. destruct (closed s) eqn:E; [|reflexivity]. rewrite (closed_step P s o E) in H; discriminate. Qed.

Lemma complete_error_closes s : inflight s = true -> closed (complete s false) = true /\ pending (complete s false) = Some false.
Proof. intros H. unfold complete; rewrite H; cbn. split; [apply Bool.orb_true_r|reflexivity]. Qed.

Lemma complete_exist_closes s k : inflight s = true -> closed (complete_exist s k) = true.
Proof. intros Hi. unfold complete_exist. rewrite Hi. cbn [set_tm closed]. apply complete_error_closes, Hi. Qed.

Lemma complete_closed s o : closed s = true -> inflight s = true -> pending (complete s o) = Some false.
Proof. intros Hc Hi. unfold complete; rewrite Hi, Hc; cbn. rewrite Bool.andb_false_r; reflexivity. Qed.

(* a wait that ends on a closed transaction reports an error: the result left in errCh is not "ok" *)
Lemma wait_closed s wo : shape s -> flushing s <> None -> closed (complete s wo) = true -> snd (wait s wo) = false.
Proof.
  intros Hs Hf Hc. pose proof (shape_complete s wo Hs) as Hs'. unfold wait; cbn [snd].
  destruct (complete_frame s wo) as (_ & _ & _ & F). rewrite <- F in Hf.
  pose proof (sh_done _ Hs' Hf (complete_inflight s wo)). pose proof (sh_closed _ Hs' Hc).
  destruct (pending (complete s wo)) as [[|]|]; congruence.
Qed.

Lemma flush_wait_spec s wo : flushing s <> None ->
  flush_wait s wo = (clear_flushing (complete s wo), if snd (wait s wo) then RWait true else err_resp (complete s wo) (RWait false)).
Proof. intros Hf. unfold flush_wait. destruct (flushing s); [reflexivity|congruence]. Qed.

(* a commit attempt (Flush(true); FlushWait) fails at once, or Flush starts a flush and FlushWait hands on its result *)
Lemma commit_attempt_spec P s wo1 wo2 :
  snd (commit_attempt P s wo1 wo2) = false \/
  exists s1, fst (step P s (OFlush true 0 wo1)) = start_flush s1 /\
    commit_attempt P s wo1 wo2 = (clear_flushing (complete (start_flush s1) wo2), snd (wait (start_flush s1) wo2)).
Proof.
  unfold commit_attempt. cbn [step].
  destruct (flush_holds P s true 0 wo1) as [_|Hf|s1 _ _|_ _]; [left; reflexivity|discriminate Hf| |].
  - right. exists s1. split; [reflexivity|]. rewrite flush_wait_spec by discriminate.
    destruct (snd (wait (start_flush s1) wo2)); [reflexivity|].
    destruct (err_resp_cases (complete (start_flush s1) wo2) (RWait false)) as [->|(k & g & fb & _ & ->)]; reflexivity.
  - left. destruct (err_resp_cases (complete (set_cache s None) wo1) (RFlush false 1 None)) as [->|(k & g & fb & _ & ->)]; reflexivity.
Qed.

(* on a closed transaction the flush that Flush(true) starts can only report an error to FlushWait *)
Lemma commit_fails_closed P s wo1 wo2 : shape s -> closed s = true -> snd (commit_attempt P s wo1 wo2) = false.
Proof.
  intros Hs Hc. destruct (commit_attempt_spec P s wo1 wo2) as [E|(s1 & E1 & E2)]; [exact E|]. rewrite E2. cbn [snd].
  pose proof (shape_step P s (OFlush true 0 wo1) Hs) as Hs1. pose proof (closed_step P s (OFlush true 0 wo1) Hc) as Hc1.
  rewrite E1 in Hs1, Hc1. apply wait_closed; [exact Hs1|discriminate|apply closed_complete, Hc1].
Qed.
