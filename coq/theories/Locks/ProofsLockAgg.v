(* Locks/ProofsLockAgg.v — LockKeys in aggressive locking mode: the filter on the single key of the call *)
From Coq Require Import List NArith ZArith Bool Lia.
From Verif Require Import Locks.Model Locks.ProofsBase Locks.ProofsOps Locks.ProofsInv Locks.ProofsLock.
Import ListNotations.
Open Scope N_scope.

Arguments N.max : simpl never.
Arguments N.leb : simpl never.
Arguments N.ltb : simpl never.
Arguments N.eqb : simpl never.
Arguments dedup_sort : simpl never.
Arguments len : simpl never.

Lemma filter_agg_single a rv ce f ex cs k :
  filter_agg a rv ce f ex cs [k] =
  match findk k (prev a) with
  | Some e => if f <? e_lwc e then (a, [], true)
              else match (if cs then if ex then None else try_skip e rv ce else None) with
                   | Some e' => (a_cur ((k, e') :: delk k (cur a)) (a_prev (delk k (prev a)) a), [], false)
                   | None => (a, [k], false)
                   end
  | None => (a, [k], false)
  end.
Proof.
  simpl. destruct (findk k (prev a)); auto.
Qed.

Lemma try_skip_lwc e rv ce e' : try_skip e rv ce = Some e' -> e_lwc e' = 0.
Proof. unfold try_skip. destruct (if negb (e_lwc e =? 0) then _ else _); intros H; inversion H; auto. Qed.

(* inside an attempt a call is for one key and does one of three things: it stops at a stale for-update ts, takes the key
   over from the previous attempt, or sends the request (after stopping, or not, the keep-alive) *)
Lemma lock_pess_cases_agg k rv ce loie f o s a4 (P : st * list key -> Prop) :
  agg (prep [k] f s) = Some a4 ->
  P (prep [k] f s, []) ->
  (forall e e', findk k (prev a4) = Some e -> e_lwc e' = 0 ->
     P (set_agg (Some (a_cur ((k, e') :: delk k (cur a4)) (a_prev (delk k (prev a4)) a4))) (prep [k] f s), [])) ->
  (forall (c : bool) assigned, P (lock_rpc [k] [k] assigned rv ce loie f o (if c then ka_reset (prep [k] f s) else prep [k] f s), [k])) ->
  P (lock_pess [k] rv ce loie f o s).
Proof.
  intros E4 Hstale Hskip Hreq.
  apply (lock_pess_cases [k] rv ce loie f o s P _ _ eq_refl eq_refl); [congruence|].
  intros a a' rk err Ea. rewrite E4 in Ea. injection Ea as <-. rewrite filter_agg_single.
  destruct (findk k (prev a4)) as [e|] eqn:Ep; [destruct (f <? e_lwc e)|].
  - intros Ef. injection Ef as <- <- <-. split; [intros _; rewrite set_agg_same; auto|discriminate].
  - destruct (if negb (aprim a4) || opt_eqb (alastpk a4) (apk a4) then if lo_expired o then None else try_skip e rv ce else None) as [e'|] eqn:Esk;
      intros Ef; injection Ef as <- <- <-.
    + split; [intros _|congruence]. apply Hskip with e; auto.
      destruct (negb (aprim a4) || opt_eqb (alastpk a4) (apk a4)); [|discriminate].
      destruct (lo_expired o); [discriminate|]. eapply try_skip_lwc; eauto.
    + split; [intros [E|E]; discriminate|intros _ _]. rewrite set_agg_same by auto. apply Hreq.
  - intros Ef. injection Ef as <- <- <-. split; [intros [E|E]; discriminate|intros _ _]. rewrite set_agg_same by auto. apply Hreq.
Qed.

(* the key is taken over from the previous attempt without a request *)
Lemma skip_Inv s a k e e' :
  Inv s -> agg s = Some a -> findk k (prev a) = Some e -> e_lwc e' = 0 ->
  Inv (set_agg (Some (a_cur ((k, e') :: delk k (cur a)) (a_prev (delk k (prev a)) a))) s).
Proof.
  intros (HI & HL & HC) Ha Hp He'. split; [|split].
  - intros p Hin. simpl in Hin. destruct (HI p Hin) as [[B Hcv]|Ht].
    + left. split; [exact B|]. simpl. destruct (snd p) as [f'|]; auto.
      destruct Hcv as [Hcv|(a0 & e0 & Ha0 & Hfd & H2)]; auto. right.
      rewrite Ha in Ha0. inversion Ha0; subst a0.
      destruct (N.eq_dec (fst p) k) as [E|E].
      * rewrite E in *. eexists. exists e'. split; [reflexivity|]. simpl. split; auto.
        left. rewrite N.eqb_refl. auto.
      * eexists. exists e0. split; [reflexivity|]. simpl. split; auto.
        destruct (N.eqb_spec (fst p) k); [congruence|].
        rewrite !findk_delk_ne by congruence. auto.
    + right. destruct Ht as (t & T1 & T2). exists t; auto.
  - intros a' k0 e0 Ha' Hin. simpl in Ha'. inversion Ha'; subst a'. simpl in *.
    destruct Hin as [Hin|Hin]; [inversion Hin; subst; lia|].
    apply (HL a k0 e0 Ha). apply in_app_or in Hin. apply in_or_app.
    destruct Hin as [Hin|Hin]; apply In_delk in Hin; tauto.
  - unfold cnt_ok, agg_len in *. cbn [agg set_agg flags cnt cur prev a_cur a_prev]. rewrite Ha in HC.
    pose proof (length_delk k (cur a)). pose proof (length_delk_lt k (prev a) e Hp).
    unfold len in *. cbn [length]. lia.
Qed.
