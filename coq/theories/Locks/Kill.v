(* Locks/Kill.v — the session's kill flag (kv.Variables.Killed: KILL QUERY, max execution time).
   The sender checks it only for INTERRUPTIBLE requests (tikvrpc.Request.IsInterruptible; the 2PC actions'
   isInterruptible agree): such a request fails without being sent.  The table below says which request types are
   interruptible; release requests are not, so a killed session still releases what it holds. *)
From Coq Require Import List NArith ZArith Bool Lia.
From Verif Require Import Locks.Model Locks.ProofsBase Locks.ProofsInv Locks.ProofsLockAll Locks.ProofsMain.
Import ListNotations.
Open Scope N_scope.

Inductive cmd := CGet | CPessLock | CPrewrite | CHeartBeat | CCheckTxnStatus | CResolveLock
               | CPessRollback | CBatchRollback | CCommit.
(* tikvrpc.Request.IsInterruptible *)
Definition interruptible (c : cmd) : bool :=
  match c with CPessRollback | CBatchRollback | CCommit => false | _ => true end.
Definition task_cmd (t : task) : cmd :=
  match t with TPessRb _ _ => CPessRollback | TCleanup _ => CBatchRollback | TCommitSec _ => CCommit end.

Section Table.
Variable intr : cmd -> bool.      (* the table in force *)
Definition goes_out (killed : bool) (c : cmd) : bool := negb (killed && intr c).

(* an interrupted LockKeys / Commit: nothing was sent, the call fails (the existing failure paths) *)
Definition kill_lock_out (o : lock_out) : lock_out := mkLO (lo_expired o) [] [] 0 (Some FOther).
Definition kill_commit_out (o : commit_out) : commit_out := mkCO (co_mode o) [] [] (co_unnecessary o) CPrewriteFail.

(* one event under the kill flag [killed]; a release request that does not go out is dropped, its error only logged
   (asyncPessimisticRollback, the clean-up goroutine, KVTxn.Rollback) *)
Definition kstep (s : st) (ke : bool * ev) : st :=
  let (killed, e) := ke in
  match e with
  | ELock ks rv ce loie f o =>
    step s (ELock ks rv ce loie f (if goes_out killed CPessLock then o else kill_lock_out o))
  | ECommit o => step s (ECommit (if goes_out killed CPrewrite then o else kill_commit_out o))
  | ERollback => if goes_out killed CPessRollback then step s ERollback else step s (ERollbackLost (flags s))
  | ERun n =>
    match nth_error (tasks s) n with
    | Some t => if goes_out killed (task_cmd t) then step s e else set_tasks (remove_nth n (tasks s)) s
    | None => s
    end
  | ERunSome n ks =>
    match nth_error (tasks s) n with
    | Some t => if goes_out killed (task_cmd t) then step s e else s
    | None => s
    end
  | _ => step s e
  end.
Fixpoint krun (s : st) (kevs : list (bool * ev)) : st :=
  match kevs with [] => s | ke :: r => krun (kstep s ke) r end.
Fixpoint kwf_run (s : st) (kevs : list (bool * ev)) : Prop :=
  match kevs with [] => True | ke :: r => wf_ev s (snd ke) /\ kwf_run (kstep s ke) r end.

(* the event the plain model sees *)
Definition kill_ev (ke : bool * ev) : ev :=
  let (killed, e) := ke in
  match e with
  | ELock ks rv ce loie f o => ELock ks rv ce loie f (if goes_out killed CPessLock then o else kill_lock_out o)
  | ECommit o => ECommit (if goes_out killed CPrewrite then o else kill_commit_out o)
  | _ => e
  end.

Hypothesis releases_not_interruptible :
  intr CPessRollback = false /\ intr CBatchRollback = false /\ intr CCommit = false.

Lemma release_goes_out killed t : goes_out killed (task_cmd t) = true.
Proof.
  destruct releases_not_interruptible as (H1 & H2 & H3).
  unfold goes_out. destruct t; simpl; rewrite ?H1, ?H2, ?H3, andb_false_r; reflexivity.
Qed.

Lemma kstep_step s ke : kstep s ke = step s (kill_ev ke).
Proof.
  destruct ke as [killed e]. destruct e; simpl; auto.
  - destruct releases_not_interruptible as (H1 & _). unfold goes_out. rewrite H1, andb_false_r. reflexivity.
  - unfold run_nth. destruct (nth_error (tasks s) n) as [t|] eqn:En; auto. rewrite release_goes_out. reflexivity.
  - unfold run_some. destruct (nth_error (tasks s) n) as [t|] eqn:En; auto. rewrite release_goes_out. reflexivity.
Qed.

Lemma wf_kill_ev s ke : wf_ev s (snd ke) -> wf_ev s (kill_ev ke).
Proof. destruct ke as [killed e]. destruct e; simpl; auto. Qed.

Lemma krun_run s kevs : krun s kevs = run s (map kill_ev kevs).
Proof. revert s. induction kevs as [|ke r IH]; simpl; intros s; auto. rewrite kstep_step. apply IH. Qed.

Lemma kwf_wf s kevs : kwf_run s kevs -> wf_run s (map kill_ev kevs).
Proof.
  revert s. induction kevs as [|ke r IH]; simpl; intros s H; auto. destruct H as [H1 H2].
  split; [apply wf_kill_ev; auto|]. rewrite <- kstep_step. auto.
Qed.
End Table.

(* the table of the code satisfies the hypothesis *)
Lemma code_table_ok :
  interruptible CPessRollback = false /\ interruptible CBatchRollback = false /\ interruptible CCommit = false.
Proof. auto. Qed.

(* the model under any kill schedule is the plain model on the events [kill_ev] leaves, so its runs end as clean *)
Lemma no_leftover_killed :
  forall (p : bool) (kevs : list (bool * ev)), kwf_run interruptible (init p) kevs ->
  let s := krun interruptible (init p) kevs in
  (s = run (init p) (map (kill_ev interruptible) kevs) /\ wf_run (init p) (map (kill_ev interruptible) kevs)) /\
  (valid s = false -> tasks s = [] -> store s = []).
Proof.
  intros p kevs H s.
  assert (E : s = run (init p) (map (kill_ev interruptible) kevs)) by (apply krun_run; exact code_table_ok).
  assert (W : wf_run (init p) (map (kill_ev interruptible) kevs)) by (apply kwf_wf; [exact code_table_ok|exact H]).
  split; [split; auto|]. rewrite E. apply no_leftover_from, bookkeeping_inv, W.
Qed.
