(* Locks/PropsKill.v — C06 under the session's kill flag (model: Locks/Kill.v) *)
From Coq Require Import List NArith ZArith Bool Lia.
From Verif Require Import Locks.Model Locks.ProofsBase Locks.ProofsInv Locks.ProofsMain Locks.Kill Locks.Props.
Import ListNotations.
Open Scope N_scope.

(* the session's kill flag (kv.Variables.Killed).  The sender drops INTERRUPTIBLE requests of a killed session without
   sending them; which types are interruptible is the table [interruptible] (= tikvrpc.Request.IsInterruptible and the
   2PC actions' isInterruptible): everything except PessimisticRollback, BatchRollback and Commit.  [kstep] = one event
   under the flag: an interrupted LockKeys / Commit is the failed call with nothing sent (the existing failure paths), a
   release request that does not go out is dropped (its error is only logged).  With the table of the code, for ANY kill
   schedule: every release task that runs sends its request, the run is a run of the plain model, and a finished, drained
   transaction leaves no lock.  (Seeded change C06-9 swaps PessimisticLock and PessimisticRollback in the table:
   [C06_kill_table_matters].)
   What these two theorems are: [C06_release_requests_ignore_kill] is a fact about the hand-transcribed table (three
   cases by computation); [C06_no_leftover_under_any_kill_schedule] is C06_no_leftover transported along
   [krun = run . map kill_ev] — a corollary, not a new argument.  The tie to the code is the check: the kill programs
   d100-d108 / random kills, and the table differential (the driver reads IsInterruptible of every command type of the
   client on every run and the check compares it with the extracted [interruptible]). *)
Theorem C06_release_requests_ignore_kill :
  forall (killed : bool) (t : task), goes_out interruptible killed (task_cmd t) = true.
Proof. exact (release_goes_out interruptible code_table_ok). Qed.
Print Assumptions C06_release_requests_ignore_kill.

Theorem C06_no_leftover_under_any_kill_schedule :
  forall (p : bool) (kevs : list (bool * ev)), kwf_run interruptible (init p) kevs ->
  let s := krun interruptible (init p) kevs in
  (s = run (init p) (map (kill_ev interruptible) kevs) /\ wf_run (init p) (map (kill_ev interruptible) kevs)) /\
  (valid s = false -> tasks s = [] -> store s = []).
Proof. exact no_leftover_killed. Qed.
Print Assumptions C06_no_leftover_under_any_kill_schedule.

(* d100 / d101 of the check: Rollback of a killed session; the background rollback of a failed call runs killed — clean
   with the table of the code, a leftover lock with the seeded table *)
Definition seeded_table (c : cmd) : bool := match c with CPessLock | CBatchRollback | CCommit => false | _ => true end.
Definition killed_runs : list (list (bool * ev)) :=
  [[(false, ELock [1; 2] false false false 10 (ok_lock [1; 2])); (true, ERollback)];
   [(false, ELock [1; 2; 3] false false false 10 (fail_lock [1; 2] FNoWait)); (true, ERun 0); (true, ERollback)];
   [(true, ELock [1] false false false 10 (ok_lock [1])); (false, ELock [1] false false false 11 (ok_lock [1]));
    (true, ECommit (mkCO M2PC [1] [1] [] COk)); (true, ERun 0); (true, ERun 0)]].
Example C06_kill_table_matters :
  Forall (fun kevs => kwf_run interruptible (init true) kevs /\
                      let s := krun interruptible (init true) kevs in valid s = false /\ tasks s = [] /\ store s = []) killed_runs /\
  map (fun kevs => map fst (store (krun seeded_table (init true) kevs))) (firstn 2 killed_runs) = [[1; 2]; [1; 2]] /\
  (* an interrupted LockKeys locks nothing and flags nothing; the interrupted Commit fails and cleans up *)
  flags (krun interruptible (init true) (firstn 1 (nth 2 killed_runs []))) = [].
Proof.
  split; [|vm_compute; auto]. repeat constructor; vm_compute; repeat split; intros; try discriminate; auto.
Qed.
