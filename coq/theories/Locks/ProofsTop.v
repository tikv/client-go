(* Locks/ProofsTop.v — what the Examples of Props.v need to check the contract of a concrete run, and the theorems of
   Props.v whose derivation from the invariants takes more than a term *)
From Coq Require Import List NArith ZArith Bool Lia.
From Verif Require Import Locks.Model Locks.ProofsBase Locks.ProofsInv Locks.ProofsCommit Locks.ProofsLock
  Locks.ProofsLockAgg Locks.ProofsLockAll Locks.ProofsMain Locks.ProofsKA Locks.ProofsSched Locks.ProofsPrim Locks.ProofsEarly Locks.ProofsHeld Locks.Contract Locks.ProofsHeldLock.
Import ListNotations.
Open Scope N_scope.

(* the run contracts, decided: on a concrete run they hold by evaluation *)
Definition wf_apib (s : st) (e : ev) : bool :=
  match e with
  | ELock _ _ _ _ f _ => valid s && (fu s <=? f)
  | ECommit _ | ERollback | ERollbackLost _ => negb (pending s)
  | _ => true
  end.
Fixpoint wf_runb (s : st) (evs : list ev) : bool :=
  match evs with [] => true | e :: r => wf_apib s e && wf_runb (step s e) r end.

Lemma wf_apib_spec s e : wf_apib s e = true <-> wf_ev s e.
Proof.
  unfold wf_ev. destruct e; simpl; try apply negb_true_iff; try (split; [exact (fun _ => I)|reflexivity]).
  rewrite andb_true_iff, N.leb_le. reflexivity.
Qed.

Lemma wf_runb_spec s evs : wf_runb s evs = true <-> wf_run s evs.
Proof.
  revert s. induction evs as [|e r IH]; simpl; intros s; [split; auto|]. rewrite andb_true_iff, wf_apib_spec, IH. reflexivity.
Qed.

Definition ts_contractb (s : st) (e : ev) : bool :=
  match e with
  | ELock ks _ _ _ f _ =>
    match agg (exit_agg ks s) with Some a => forallb (fun p => e_lwc (snd p) <=? f) (prev a) | None => true end
  | _ => true
  end.
Fixpoint wf_run_tsb (s : st) (evs : list ev) : bool :=
  match evs with [] => true | e :: r => wf_apib s e && ts_contractb s e && wf_run_tsb (step s e) r end.

Lemma ts_contractb_sound s e : ts_contractb s e = true -> ts_contract s e.
Proof.
  destruct e; simpl; auto. intros H a k e' Ha Hf. rewrite Ha, forallb_forall in H.
  apply N.leb_le. exact (H _ (findk_In _ _ _ Hf)).
Qed.

Lemma wf_run_tsb_sound s evs : wf_run_tsb s evs = true -> wf_run_ts s evs.
Proof.
  revert s. induction evs as [|e r IH]; simpl; intros s H; [exact I|].
  apply andb_true_iff in H. destruct H as [H H3]. apply andb_true_iff in H. destruct H as [H1 H2].
  repeat split; [apply wf_apib_spec, H1|apply ts_contractb_sound, H2|apply IH, H3].
Qed.

Lemma C06_aggressive_retry_releases_unneeded_proof :
  forall (p : bool) (before mid after : list ev) a,
  let s0 := run (init p) before in
  agg s0 = Some a ->
  let s := run (init p) (before ++ EAggRetry :: mid ++ EAggDone :: after) in
  wf_run (init p) (before ++ EAggRetry :: mid ++ EAggDone :: after) ->
  tasks s = [] -> agg s = None ->
  forall k, In k (keys_of (cur a)) -> ~ In k (flags s) -> ~ In k (keys_of (store s)).
Proof.
  intros p before mid after a s0 Ha s Hwf Ht Hag k Hk Hnf Hin.
  unfold keys_of in Hin. apply in_map_iff in Hin. destruct Hin as (l & El & Hin).
  destruct (quiescent_store_flags s l (bookkeeping_inv p _ Hwf) Ht Hag Hin) as (_ & Hf & _).
  rewrite El in Hf. auto.
Qed.

Lemma C06_quiescent_store_within_flags_proof :
  forall (p : bool) (evs : list ev), wf_run (init p) evs ->
  let s := run (init p) evs in
  tasks s = [] -> agg s = None -> forall l, In l (store s) -> In (fst l) (flags s) /\ valid s = true.
Proof.
  intros p evs H s Ht Ha l Hl.
  destruct (quiescent_store_flags s l (bookkeeping_inv p evs H) Ht Ha Hl) as (A & B & _). auto.
Qed.

Lemma C06_tracked_keys_hold_locks_checked_proof :
  forall evs : list ev, wf_run (init true) evs -> wf_run_heldb false (init true) evs = true ->
  let s := run (init true) evs in
  valid s = true ->
  forall k, (In k (flags s) \/ in_cur s k = true) ->
  exists l, In (k, l) (store s) /\ forall t, In t (tasks s) -> releases t (k, l) = false.
Proof.
  intros evs Hw Hb s Hv k Hk. apply (tracked_keys_hold_locks evs); auto.
  - apply wf_run_heldb_sound; auto.
  - tauto.
Qed.

