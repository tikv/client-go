(* Locks/ProofsHeld.v — the converse of the bookkeeping invariant (oracle A of the check as a theorem):
   while the transaction is open, every key the client tracks as locked (flagged, or a current aggressive-locking
   key) holds a lock in the store that no pending background release removes.  Needs what [Inv] does not: the
   store's success contract, fresh for-update timestamps, and "after a failed LockKeys inside an attempt the caller
   retries / cancels / finishes the attempt before locking again" (see C06_note_skip_after_failed_relock). *)
From Coq Require Import List NArith ZArith Bool Lia.
From Verif Require Import Locks.Model Locks.ProofsBase Locks.ProofsOps Locks.ProofsInv Locks.ProofsCommit Locks.ProofsLock Locks.ProofsLockAgg Locks.ProofsLockAll.
Import ListNotations.
Open Scope N_scope.

Arguments N.max : simpl never.
Arguments N.eqb : simpl never.
Arguments N.ltb : simpl never.
Arguments N.leb : simpl never.
Arguments dedup_sort : simpl never.
Arguments len : simpl never.

Definition safe (tk : list task) (p : slock) : Prop := forall t, In t tk -> releases t p = false.
Definition heldv (stv : list slock) (tk : list task) (k : key) : Prop := exists l, In (k, l) stv /\ safe tk (k, l).
Definition held (s : st) (k : key) : Prop := heldv (store s) (tasks s) k.
Definition only_rb (tk : list task) : Prop := forall t, In t tk -> exists ks f, t = TPessRb ks f.
Definition cpv (s : st) : option (list key * list key) :=
  match agg s with Some a => Some (keys_of (cur a), keys_of (prev a)) | None => None end.

(* [b] = a LockKeys call failed inside the current aggressive-locking attempt and the attempt was not yet retried /
   cancelled / finished: keys of the previous attempt named by the call lose their lock to the scheduled rollback *)
Definition HV (b : bool) (stv : list slock) (tk : list task) (fl : list key) (cp : option (list key * list key)) : Prop :=
  only_rb tk /\
  (forall k, In k fl -> heldv stv tk k) /\
  (forall c p, cp = Some (c, p) ->
     (forall k, In k c -> heldv stv tk k) /\
     (b = false -> forall k, In k p -> heldv stv tk k) /\
     (forall k, In k (c ++ p) -> ~ In k fl) /\
     (forall k, In k c -> ~ In k p)).
Definition HInv (b : bool) (s : st) : Prop := pess s = true /\ HV b (store s) (tasks s) (flags s) (cpv s).

Lemma HInv_view b s s' :
  store s' = store s -> tasks s' = tasks s -> flags s' = flags s -> cpv s' = cpv s -> pess s' = pess s ->
  HInv b s -> HInv b s'.
Proof. unfold HInv. intros E1 E2 E3 E4 E5 H. rewrite E1, E2, E3, E4, E5. exact H. Qed.

Lemma HV_nocp b b' stv tk fl : HV b stv tk fl None -> HV b' stv tk fl None.
Proof. intros (H1 & H2 & _). split; [|split]; auto. intros c p E; discriminate. Qed.

Lemma HV_weaken stv tk fl cp : HV false stv tk fl cp -> HV true stv tk fl cp.
Proof.
  intros (H1 & H2 & H3). split; [|split]; auto. intros c p E. destruct (H3 c p E) as (A & B & C & D).
  repeat split; auto; try (intros; discriminate).
Qed.

Definition fresh_lock (lf : ts) (l : lkind) : Prop := l = Prew \/ exists f', l = Pess f' /\ lf <= f'.

Lemma put_pess_keeps f k st k0 l :
  In (k0, l) st -> exists l', In (k0, l') (put_pess f k st) /\ (l' = l \/ l' = Pess f).
Proof.
  intros H. unfold put_pess. destruct (findk k st) as [[f'|]|] eqn:Ef.
  - destruct (f' <? f); [|exists l; auto]. destruct (N.eq_dec k0 k) as [->|Hne].
    + exists (Pess f). simpl; auto.
    + exists l. split; auto. right. apply In_delk. simpl; auto.
  - exists l; auto.
  - exists l. split; auto. right; auto.
Qed.

Lemma put_pess_new f k st : exists l', In (k, l') (put_pess f k st) /\ fresh_lock f l'.
Proof.
  unfold put_pess. destruct (findk k st) as [[f'|]|] eqn:Ef.
  - destruct (f' <? f) eqn:El.
    + exists (Pess f). split; [left; auto|]. right. exists f. split; auto. lia.
    + exists (Pess f'). split; [eapply findk_In; eauto|]. right. exists f'. split; auto. apply N.ltb_ge in El. lia.
  - exists Prew. split; [eapply findk_In; eauto|]. left; auto.
  - exists (Pess f). split; [left; auto|]. right. exists f. split; auto. lia.
Qed.

Lemma fresh_lock_keep f l l' : fresh_lock f l -> l' = l \/ l' = Pess f -> fresh_lock f l'.
Proof. intros H [->| ->]; auto. right. exists f. split; auto. lia. Qed.

Lemma fold_put_keeps f ks st k0 l :
  In (k0, l) st -> exists l', In (k0, l') (fold_right (put_pess f) st ks) /\ (l' = l \/ l' = Pess f).
Proof.
  intros H. induction ks as [|k r IH]; simpl; [exists l; auto|].
  destruct IH as (l1 & H1 & H2). destruct (put_pess_keeps f k _ _ _ H1) as (l2 & H3 & H4).
  exists l2. split; auto. destruct H4 as [->| ->]; auto.
Qed.

Lemma fold_put_new f ks st k : In k ks -> exists l', In (k, l') (fold_right (put_pess f) st ks) /\ fresh_lock f l'.
Proof.
  induction ks as [|x r IH]; simpl; [tauto|]. intros [->|H].
  - apply put_pess_new.
  - destruct (IH H) as (l1 & H1 & H2). destruct (put_pess_keeps f x _ _ _ H1) as (l2 & H3 & H4).
    exists l2. split; auto. eapply fresh_lock_keep; eauto.
Qed.

(* a lock taken (or refreshed) at [lf] survives every pending rollback with an older ts *)
Lemma fresh_safe tk lf k l :
  only_rb tk -> (forall ks f', In (TPessRb ks f') tk -> f' < lf) -> fresh_lock lf l -> safe tk (k, l).
Proof.
  intros Hrb Hts Hl t Ht. destruct (Hrb t Ht) as (ks & f' & ->). simpl.
  destruct Hl as [->|(f2 & -> & Hle)]; auto. pose proof (Hts ks f' Ht).
  apply andb_false_iff. right. apply N.leb_gt. lia.
Qed.

Lemma heldv_refresh stv tk lf ks k :
  only_rb tk -> (forall ks' f', In (TPessRb ks' f') tk -> f' < lf) ->
  heldv stv tk k -> heldv (fold_right (put_pess lf) stv ks) tk k.
Proof.
  intros Hrb Hts (l & H1 & H2). destruct (fold_put_keeps lf ks _ _ _ H1) as (l' & H3 & [->| ->]).
  - exists l; auto.
  - exists (Pess lf). split; auto. eapply fresh_safe; eauto. right. exists lf. split; auto. lia.
Qed.

Lemma heldv_new stv tk lf ks k :
  only_rb tk -> (forall ks' f', In (TPessRb ks' f') tk -> f' < lf) ->
  In k ks -> heldv (fold_right (put_pess lf) stv ks) tk k.
Proof.
  intros Hrb Hts Hk. destruct (fold_put_new lf ks stv k Hk) as (l & H1 & H2).
  exists l. split; auto. eapply fresh_safe; eauto.
Qed.

Lemma heldv_add_task stv tk ks f k : heldv stv tk k -> ~ In k ks -> heldv stv (tk ++ [TPessRb ks f]) k.
Proof.
  intros (l & H1 & H2) Hn. exists l. split; auto. intros t Ht. apply in_app_or in Ht. destruct Ht as [Ht|[<-|[]]]; auto.
  simpl. destruct l; auto. apply andb_false_iff. left. apply memk_false. auto.
Qed.

Lemma only_rb_add tk ks f : only_rb tk -> only_rb (tk ++ [TPessRb ks f]).
Proof. intros H t Ht. apply in_app_or in Ht. destruct Ht as [Ht|[<-|[]]]; eauto. Qed.

Lemma HV_task b stv tk fl cp ks f :
  HV b stv tk fl cp ->
  (forall k, In k ks -> ~ In k fl) ->
  (forall c p, cp = Some (c, p) -> forall k, In k ks -> ~ In k c /\ (b = false -> ~ In k p)) ->
  HV b stv (tk ++ [TPessRb ks f]) fl cp.
Proof.
  intros (H1 & H2 & H3) Hf Hc. split; [apply only_rb_add; auto|]. split.
  - intros k Hk. apply heldv_add_task; auto. intros Hin. exact (Hf k Hin Hk).
  - intros c p E. destruct (H3 c p E) as (A & B & C & D). repeat split; auto.
    + intros k Hk. apply heldv_add_task; auto. intros Hin. destruct (Hc c p E k Hin) as [X _]. auto.
    + intros Hb k Hk. apply heldv_add_task; auto. intros Hin. destruct (Hc c p E k Hin) as [_ X]. exact (X Hb Hk).
Qed.

(* the invariant only asks that keys stay held *)
Lemma HV_mono b stv tk stv' tk' fl cp :
  HV b stv tk fl cp -> only_rb tk' -> (forall k, heldv stv tk k -> heldv stv' tk' k) -> HV b stv' tk' fl cp.
Proof.
  intros (H1 & H2 & H3) Hrb Hh. split; [exact Hrb|]. split; [intros k Hk; auto|].
  intros c p E. destruct (H3 c p E) as (A & B & C & D). repeat split; auto.
Qed.

Lemma HV_refresh b stv tk fl cp lf ks :
  HV b stv tk fl cp -> (forall ks' f', In (TPessRb ks' f') tk -> f' < lf) ->
  HV b (fold_right (put_pess lf) stv ks) tk fl cp.
Proof. intros H Hts. pose proof H as (H1 & _). apply (HV_mono b stv tk); auto. intros k. apply heldv_refresh; auto. Qed.

Lemma HV_run stv tk fl cp b t tk' :
  HV b stv tk fl cp -> In t tk -> (forall x, In x tk' -> In x tk) -> HV b (run_task t stv) tk' fl cp.
Proof.
  intros H Ht Hsub. pose proof H as (H1 & _). apply (HV_mono b stv tk); auto.
  - intros x Hx. apply H1; auto.
  - intros k (l & A & B). exists l. split; [apply run_task_In; split; auto|]. intros x Hx. apply B. auto.
Qed.

Lemma HV_run_part stv tk fl cp b t ks :
  HV b stv tk fl cp -> In t tk -> HV b (run_task (restrict_task ks t) stv) tk fl cp.
Proof.
  intros H Ht. pose proof H as (H1 & _). apply (HV_mono b stv tk); auto.
  intros k (l & A & B). exists l. split; auto. apply run_task_In. split; auto.
  destruct (releases (restrict_task ks t) (k, l)) eqn:E; auto. apply releases_restrict in E. rewrite (B t Ht) in E. discriminate.
Qed.

Lemma keys_of_nil {A} (l : list (key * A)) : keys_of l = [] -> l = [].
Proof. destruct l; simpl; auto; discriminate. Qed.

Lemma HV_with_task b stv tk fl cp ks f :
  HV b stv tk fl cp ->
  (forall k, In k ks -> ~ In k fl) ->
  (forall c p, cp = Some (c, p) -> forall k, In k ks -> ~ In k c /\ (b = false -> ~ In k p)) ->
  HV b stv (tk ++ rb_task ks f) fl cp.
Proof. intros H H1 H2. unfold rb_task. destruct ks; [rewrite app_nil_r; exact H|]. apply HV_task; auto. Qed.

Lemma HInv_noagg b b' s : agg s = None -> HInv b s -> HInv b' s.
Proof. intros Ha [Hp H]. split; auto. unfold cpv in *. rewrite Ha in *. eapply HV_nocp; eauto. Qed.

(* the keys of the previous attempt are released; those of the current one become the previous ones *)
Lemma H_agg_retry b s : HInv b s -> HInv false (agg_retry s).
Proof.
  destruct (agg s) as [a|] eqn:Ha; [|unfold agg_retry; rewrite Ha; apply HInv_noagg; exact Ha].
  intros [Hp H]. rewrite (agg_retry_eq s a Ha). split; [exact Hp|]. unfold cpv in *. rewrite Ha in H. cbn [store tasks flags agg cur prev].
  destruct H as (H1 & H2 & H3). destruct (H3 _ _ eq_refl) as (A & B & C & D).
  apply HV_with_task.
  - split; auto. split; auto. intros c p E. inversion E; subst c p. repeat split; auto.
    + intros k [].
    + intros k Hk. apply C. apply in_or_app; auto.
  - intros k Hk. apply C. apply in_or_app; auto.
  - intros c p E k Hk. inversion E; subst c p. split; [intros []|]. intros _ Hc. exact (D k Hc Hk).
Qed.

Lemma H_agg_cancel b b' s : HInv b s -> HInv b' (agg_cancel s).
Proof.
  destruct (agg s) as [a|] eqn:Ha; [|unfold agg_cancel; rewrite Ha; apply HInv_noagg; exact Ha].
  intros [Hp H]. rewrite (agg_cancel_eq s a Ha). split; [exact Hp|]. unfold cpv in *. rewrite Ha in H. cbn [store tasks flags agg].
  destruct H as (H1 & H2 & H3). destruct (H3 _ _ eq_refl) as (A & B & C & D).
  apply HV_with_task; [apply HV_with_task|..]; try (intros; discriminate).
  - split; auto. split; auto. intros; discriminate.
  - intros k Hk. apply C. apply in_or_app; auto.
  - intros k Hk. apply C. apply in_or_app; auto.
Qed.

(* the keys of the attempt become flagged keys *)
Lemma H_agg_done b b' s : HInv b s -> HInv b' (agg_done s).
Proof.
  destruct (agg s) as [a|] eqn:Ha; [|unfold agg_done; rewrite Ha; apply HInv_noagg; exact Ha].
  intros [Hp H]. rewrite (agg_done_eq s a Ha). split; [exact Hp|]. unfold cpv in *. rewrite Ha in H. cbn [store tasks flags agg].
  destruct H as (H1 & H2 & H3). destruct (H3 _ _ eq_refl) as (A & B & C & D).
  apply HV_with_task; try (intros; discriminate).
  - split; auto. split; [|intros; discriminate].
    intros k Hk. apply in_app_or in Hk. destruct Hk; auto.
  - intros k Hk Hin. apply in_app_or in Hin. destruct Hin as [Hin|Hin].
    + apply (C k); auto. apply in_or_app; auto.
    + exact (D k Hin Hk).
Qed.

Lemma H_agg_start b s : HInv b s -> HInv b (agg_start s).
Proof.
  intros [Hp H]. unfold agg_start. destruct (agg s) as [a|] eqn:Ha; [split; auto|].
  split; [exact Hp|]. unfold cpv in *. simpl. rewrite Ha in H. destruct H as (H1 & H2 & _).
  split; auto. split; auto. intros c p E. inversion E; subst c p. repeat split; intros; simpl in *; tauto.
Qed.

Lemma H_run_nth b n s : HInv b s -> HInv b (run_nth n s).
Proof.
  intros [Hp H]. unfold run_nth. destruct (nth_error (tasks s) n) as [t|] eqn:En; [|split; auto].
  split; [exact Hp|]. unfold cpv. simpl. fold (cpv s). eapply HV_run; eauto.
  - eapply nth_error_In; eauto.
  - intros x. apply remove_nth_In.
Qed.

Lemma H_run_some b n ks s : HInv b s -> HInv b (run_some n ks s).
Proof.
  intros [Hp H]. unfold run_some. destruct (nth_error (tasks s) n) as [t|] eqn:En; [|split; auto].
  split; [exact Hp|]. unfold cpv. simpl. fold (cpv s). eapply HV_run_part; eauto. eapply nth_error_In; eauto.
Qed.
