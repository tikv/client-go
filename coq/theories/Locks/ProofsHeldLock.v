(* Locks/ProofsHeldLock.v — tracked keys hold locks (ProofsHeld.v): LockKeys, steps, runs *)
From Coq Require Import List NArith ZArith Bool Lia.
From Verif Require Import Locks.Model Locks.ProofsBase Locks.ProofsOps Locks.ProofsInv Locks.ProofsCommit Locks.ProofsLock Locks.ProofsLockAgg Locks.ProofsLockAll Locks.ProofsHeld Locks.Contract.
Import ListNotations.
Open Scope N_scope.

Arguments N.max : simpl never.
Arguments N.eqb : simpl never.
Arguments N.ltb : simpl never.
Arguments N.leb : simpl never.
Arguments dedup_sort : simpl never.
Arguments len : simpl never.

Lemma keys_findk {A} k (l : list (key * A)) : In k (keys_of l) -> exists e, findk k l = Some e.
Proof.
  induction l as [|[k' e'] r IH]; simpl; [tauto|]. intros [H|H].
  - subst. rewrite N.eqb_refl. eauto.
  - destruct (N.eqb k k'); eauto.
Qed.

Lemma keys_cur_add E kp c k : In k (keys_of (cur_add E kp c)) -> In k kp \/ In k (keys_of c).
Proof.
  intros H. apply keys_findk in H. destruct H as (e & H). rewrite cur_add_find in H.
  destruct (memk k kp) eqn:Em; [left; apply memk_In; auto|right; eapply findk_keys; eauto].
Qed.

Lemma keys_prev_del kp c k : In k (keys_of (prev_del kp c)) -> In k (keys_of c) /\ ~ In k kp.
Proof.
  intros H. apply keys_findk in H. destruct H as (e & H). rewrite prev_del_find in H.
  destruct (memk k kp) eqn:Em; [discriminate|]. split; [eapply findk_keys; eauto|apply memk_false; auto].
Qed.

Lemma HInv_any b s : HInv false s -> HInv b s.
Proof. destruct b; auto. intros [Hp H]. split; auto. apply HV_weaken; auto. Qed.

Lemma H_finish b rk rv ce loie absent lwc hv s :
  HInv b s ->
  (forall k, In k (kept loie absent rk) -> held s k) ->
  (forall c p, cpv s = Some (c, p) -> forall k, In k (kept loie absent rk) -> ~ In k (flags s)) ->
  HInv b (finish_lock rk rv ce loie absent lwc hv s).
Proof.
  intros [Hp (H1 & H2 & H3)] Hk Hnf. unfold finish_lock. set (kp := kept loie absent rk) in *.
  destruct (agg s) as [a|] eqn:Ea.
  - set (E := fun k => mkE rv ce lwc (ex_of hv rv ce lwc absent k)).
    change (fold_left _ kp (cur a)) with (cur_add E kp (cur a)). fold (prev_del kp (prev a)).
    split; [exact Hp|]. unfold cpv in *. simpl. rewrite Ea in *.
    destruct (H3 _ _ eq_refl) as (A & B & C & D).
    split; auto. split; auto. intros c p Ecp. injection Ecp as E1 E2. subst c p. repeat split.
    + intros k Hin. apply keys_cur_add in Hin. destruct Hin; auto. apply Hk; auto.
    + intros Hb k Hin. apply keys_prev_del in Hin. destruct Hin. auto.
    + intros k Hin. apply in_app_or in Hin. destruct Hin as [Hin|Hin].
      * apply keys_cur_add in Hin. destruct Hin as [Hin|Hin]; [eapply Hnf; eauto|apply C; apply in_or_app; auto].
      * apply keys_prev_del in Hin. destruct Hin. apply C. apply in_or_app; auto.
    + intros k Hin Hin2. apply keys_prev_del in Hin2. destruct Hin2 as [P1 P2].
      apply keys_cur_add in Hin. destruct Hin as [Hin|Hin]; [auto|exact (D k Hin P1)].
  - split; [exact Hp|]. unfold cpv in *. simpl. rewrite Ea in *. split; auto. split; [|intros; discriminate].
    intros k Hin. apply in_app_or in Hin. destruct Hin; auto. apply Hk; auto.
Qed.

Lemma HV_cp_sub stv tk fl c c' p :
  HV true stv tk fl (Some (c, p)) -> (forall k, In k c' -> In k c) -> HV true stv tk fl (Some (c', p)).
Proof.
  intros (H1 & H2 & H3) Hs. destruct (H3 _ _ eq_refl) as (A & B & C & D).
  split; auto. split; auto. intros c0 p0 E. injection E as E1 E2. subst c0 p0. split; [|split; [|split]].
  - intros k Hin. auto.
  - intros; discriminate.
  - intros k Hin. apply C. apply in_app_or in Hin. apply in_or_app. destruct Hin; auto.
  - intros k Hin. auto.
Qed.

Definition fresh_tasks (s : st) (f : ts) : Prop := forall ks' f', In (TPessRb ks' f') (tasks s) -> f' < f.

(* a failing request: the locks it took are refreshed ones, and the rollback it schedules names no flagged key and takes
   its keys out of the current ones *)
Lemma H_core_fail all rk assigned rv ce loie f o s e b :
  lo_res o = Some e -> HInv b s -> fresh_tasks s f ->
  (forall k, In k all -> ~ In k (flags s)) ->
  HInv true (lock_rpc_core all rk assigned rv ce loie f o s).
Proof.
  intros Hr [Hp H] Hts Hnf. rewrite (lock_rpc_core_fail _ _ _ _ _ _ _ _ _ e Hr). set (lf := N.max f (eff_lwc s rk o)).
  assert (H' : HV true (fold_right (put_pess lf) (store s) (eff_locked rk loie o)) (tasks s) (flags s) (cpv s)).
  { destruct b; [|apply HV_weaken]; apply HV_refresh; auto; intros ks' f' Hin; pose proof (Hts ks' f' Hin); lia. }
  split; [exact Hp|]. unfold cpv in *. cbn [store tasks flags agg].
  destruct (many rk || may_be_locked e); destruct (agg s) as [a|]; cbn [option_map cur prev a_cur a_maxc]; try exact H';
    apply HV_task; auto; try (intros; discriminate).
  - eapply HV_cp_sub; [exact H'|]. intros k Hin. apply keys_filter_notin in Hin. tauto.
  - intros c p Ecp k Hk. injection Ecp as E1 E2. subst c p. split; [|intros; discriminate].
    intros Hin. apply keys_filter_notin in Hin. tauto.
Qed.

Lemma pre_finish_view rk assigned loie f o s :
  let s' := pre_finish rk assigned loie f o s in
  store s' = fold_right (put_pess (N.max f (eff_lwc s rk o))) (store s) (eff_locked rk loie o) /\
  tasks s' = tasks s /\ flags s' = flags s /\ cpv s' = cpv s /\ pess s' = pess s /\ valid s' = valid s.
Proof. unfold pre_finish, cpv. cbn [store tasks flags agg pess valid]. destruct (agg s); repeat split; reflexivity. Qed.

Lemma eff_locked_ok rk loie o k :
  lo_res o = None -> In k (kept loie (lo_absent o) rk) ->
  (In k (lo_locked o) \/ (loie = true /\ In k (lo_absent o))) -> In k (eff_locked rk loie o).
Proof.
  intros Hr Hk Hs. unfold eff_locked, hard_single. rewrite Hr, andb_false_r.
  apply kept_In in Hk. destruct Hk as [K1 K2].
  destruct Hs as [Hs|[Hl Ha]]; [|exfalso; exact (K2 Hl Ha)].
  apply filter_In. split; auto. apply andb_true_iff. split; [apply memk_In; auto|].
  apply negb_true_iff. destruct loie; auto. simpl. apply memk_false. auto.
Qed.

Lemma H_core_ok all rk assigned rv ce loie f o s :
  lo_res o = None -> HInv false s -> fresh_tasks s f ->
  (forall k, In k rk -> In k (lo_locked o) \/ (loie = true /\ In k (lo_absent o))) ->
  (forall c p, cpv s = Some (c, p) -> forall k, In k rk -> ~ In k (flags s)) ->
  HInv false (lock_rpc_core all rk assigned rv ce loie f o s).
Proof.
  intros Hr [Hp H] Hts Hst Hnf. rewrite lock_rpc_core_ok; auto.
  pose proof (pre_finish_view rk assigned loie f o s) as V. cbv zeta in V. destruct V as (V1 & V2 & V3 & V4 & V5 & V6).
  set (s3 := pre_finish rk assigned loie f o s) in *. set (lf := N.max f (eff_lwc s rk o)) in *.
  assert (Hlf : forall ks' f', In (TPessRb ks' f') (tasks s) -> f' < lf).
  { intros ks' f' Hin. pose proof (Hts ks' f' Hin). lia. }
  apply H_finish.
  - split; [congruence|]. rewrite V1, V2, V3, V4. apply HV_refresh; auto.
  - intros k Hk. unfold held. rewrite V1, V2. destruct H as (H1 & _).
    apply heldv_new; auto. apply eff_locked_ok; auto. apply Hst. apply kept_In in Hk. tauto.
  - intros c p Ecp k Hk. rewrite V3. rewrite V4 in Ecp. eapply Hnf; eauto. apply kept_In in Hk. tauto.
Qed.

Lemma cpv_agg_same s s' : agg_same (agg s) (agg s') -> cpv s' = cpv s.
Proof.
  unfold agg_same, cpv. destruct (agg s) as [a|]; destruct (agg s') as [b|]; try tauto. intros (A1 & A2 & _). rewrite A1, A2. auto.
Qed.

Lemma H_prep b keys f s : HInv b s -> HInv b (prep keys f s).
Proof.
  pose proof (prep_props keys f s) as P. cbv zeta in P.
  destruct P as (P1 & P2 & P3 & P4 & P5 & P6 & P7 & P8 & P9 & P10).
  apply HInv_view; auto. apply cpv_agg_same; auto.
Qed.

(* a key is taken over from the previous attempt without a request *)
Lemma H_skip s a k e e' :
  HInv false s -> agg s = Some a -> findk k (prev a) = Some e ->
  HInv false (set_agg (Some (a_cur ((k, e') :: delk k (cur a)) (a_prev (delk k (prev a)) a))) s).
Proof.
  intros [Hp (H1 & H2 & H3)] Ha Hf. split; [exact Hp|]. unfold cpv in *. simpl. rewrite Ha in H3.
  destruct (H3 _ _ eq_refl) as (A & B & C & D).
  assert (Hkp : In k (keys_of (prev a))) by (eapply findk_keys; eauto).
  split; auto. split; auto. intros c p Ecp. injection Ecp as E1 E2. subst c p. split; [|split; [|split]].
  - intros x [<-|Hin]; [apply B; auto|]. apply keys_delk in Hin. apply A. tauto.
  - intros _ x Hin. apply keys_delk in Hin. apply B; tauto.
  - intros x Hin. apply C. apply in_or_app. apply in_app_or in Hin. destruct Hin as [[<-|Hin]|Hin]; auto.
    + apply keys_delk in Hin. tauto.
    + apply keys_delk in Hin. tauto.
  - intros x Hin Hin2. apply keys_delk in Hin2. destruct Hin2 as [P1 P2]. destruct Hin as [<-|Hin]; [congruence|].
    apply keys_delk in Hin. destruct Hin. exact (D x H P1).
Qed.

Definition store_ok (ks : list key) (loie : bool) (o : lock_out) : Prop :=
  lo_res o = None -> forall k, In k ks -> In k (lo_locked o) \/ (loie = true /\ In k (lo_absent o)).

Lemma H_lock_rpc b all rk assigned rv ce loie f o s :
  HInv b (lock_rpc_core all rk assigned rv ce loie f o s) -> HInv b (lock_rpc all rk assigned rv ce loie f o s).
Proof. unfold lock_rpc. apply HInv_view; reflexivity. Qed.

Lemma H_rpc all rk assigned rv ce loie f o s :
  HInv false s -> fresh_tasks s f ->
  (forall k, In k all -> ~ In k (flags s)) -> (forall k, In k rk -> In k all) ->
  store_ok rk loie o ->
  HInv (failed o) (lock_rpc all rk assigned rv ce loie f o s).
Proof.
  intros H Hts Hnf Hsub Hst. apply H_lock_rpc. unfold failed, store_ok in *. destruct (lo_res o) as [e|] eqn:Er.
  - eapply H_core_fail; eauto.
  - apply H_core_ok; auto.
Qed.

Lemma H_lock_pess keys rv ce loie f o s :
  HInv false s -> fresh_tasks s f ->
  (forall k, In k keys -> ~ In k (flags s)) ->
  (forall a, agg s = Some a -> exists k, keys = [k]) ->
  store_ok (snd (lock_pess keys rv ce loie f o s)) loie o ->
  HInv (failed o) (fst (lock_pess keys rv ce loie f o s)).
Proof.
  intros HI Hts Hnf Hagg.
  pose proof (H_prep false keys f s HI) as HI4.
  pose proof (prep_props keys f s) as P. cbv zeta in P.
  destruct P as (P1 & P2 & P3 & P4 & P5 & P6 & P7 & P8 & P9 & P10).
  assert (Hrpc : forall (c : bool) assigned rk, (forall k, In k rk -> In k keys) -> store_ok rk loie o ->
                 HInv (failed o) (lock_rpc keys rk assigned rv ce loie f o (if c then ka_reset (prep keys f s) else prep keys f s))).
  { intros c assigned rk Hsub Hst. rewrite ka_reset_if. apply H_rpc; [|unfold fresh_tasks|..]; cbn [tasks flags set_ka]; rewrite ?P4, ?P2; auto. }
  destruct (agg (prep keys f s)) as [a4|] eqn:E4.
  - unfold agg_same in P10. rewrite ?E4 in P10. destruct (agg s) as [a|] eqn:Ea; [|tauto].
    destruct (Hagg a eq_refl) as (k & ->).
    apply (lock_pess_cases_agg k rv ce loie f o s a4 (fun r => store_ok (snd r) loie o -> HInv (failed o) (fst r)) E4); cbn [fst snd].
    + intros _. apply HInv_any. exact HI4.
    + intros e e' Ep _ _. apply HInv_any. apply H_skip with e; auto.
    + intros c assigned. apply Hrpc. auto.
  - apply (lock_pess_cases keys rv ce loie f o s (fun r => store_ok (snd r) loie o -> HInv (failed o) (fst r)) _ _ eq_refl eq_refl);
      cbn [fst snd]; [|congruence]. intros _. apply (Hrpc false). auto.
Qed.

Lemma need_lock_notflag b s k : HInv b s -> need_lock s k = true -> ~ In k (flags s).
Proof.
  intros [_ (_ & _ & H3)] Hn. unfold need_lock in Hn. apply andb_true_iff in Hn. destruct Hn as [_ Hn].
  apply orb_true_iff in Hn. destruct Hn as [Hn|Hn].
  - unfold in_prev in Hn. unfold cpv in H3. destruct (agg s) as [a|]; [|discriminate].
    destruct (H3 _ _ eq_refl) as (_ & _ & C & _). apply C. apply in_or_app. right. apply memk_In. auto.
  - apply negb_true_iff, memk_false in Hn. auto.
Qed.

Definition fresh_ts (s : st) (f : ts) : Prop :=
  0 < f /\ fresh_tasks s f /\ (forall a, agg s = Some a -> N.max (fu s) (amaxc a) < f).

Lemma H_exit_agg ks s f :
  HInv false s -> fresh_ts s f -> HInv false (exit_agg ks s) /\ fresh_tasks (exit_agg ks s) f.
Proof.
  intros HI (_ & Hts & Ha). unfold exit_agg. destruct (agg s) as [a|] eqn:Ea; [|auto]. destruct (many ks); [|auto].
  split; [apply H_agg_done with false; auto|]. rewrite (agg_done_eq s a Ea).
  intros ks' f' Hin. cbn [tasks] in Hin. apply in_app_or in Hin. destruct Hin as [Hin|Hin]; [eapply Hts; eauto|].
  apply rb_task_In in Hin. injection Hin as _ ->. apply Ha; auto.
Qed.

Lemma H_lock_keys ks rv ce loie f o s :
  HInv false s -> fresh_ts s f -> store_ok (snd (lock_keys_full ks rv ce loie f o s)) loie o ->
  HInv (failed o) (lock_keys ks rv ce loie f o s).
Proof.
  intros HI Hf. unfold lock_keys. destruct (H_exit_agg ks s f HI Hf) as [HI1 Hts1].
  apply (lock_keys_full_cases ks rv ce loie f o s (fun r => store_ok (snd r) loie o -> HInv (failed o) (fst r)) _ _ eq_refl eq_refl); cbn [fst snd].
  - intros _. apply HInv_any. exact HI1.
  - intros Hne _ _ _. apply H_lock_pess; auto.
    + intros k Hk. apply need_keys_In in Hk. eapply need_lock_notflag; [exact HI1|tauto].
    + intros a Ha. apply need_keys_single; auto. exact (exit_agg_single ks s a Ha).
  - intros Eb _. destruct HI1 as [Hp1 _]. destruct Hf as (Hf0 & _). apply N.ltb_lt in Hf0. rewrite Hp1, Hf0 in Eb. discriminate.
Qed.

(* what the caller and the store owe on top of [wf_ev]: no LockKeys while blocked; a fresh for-update ts (positive,
   greater than the ts of every pending rollback and, inside an attempt, than every ts the attempt used; outside an
   attempt with no rollback pending the ts of the previous call may be reused); the store reports success only if it
   locked every key it was asked to lock (or found it absent under lock-only-if-exists) *)
Definition held_contract (b : bool) (s : st) (e : ev) : Prop :=
  match e with
  | ELock ks rv ce loie f o => b = false /\ fresh_ts s f /\ store_ok (snd (lock_keys_full ks rv ce loie f o s)) loie o
  | _ => True
  end.
Fixpoint wf_run_held (b : bool) (s : st) (evs : list ev) : Prop :=
  match evs with
  | [] => True
  | e :: r => wf_ev s e /\ held_contract b s e /\ wf_run_held (next_blocked b s e) (step s e) r
  end.
Fixpoint blocked_after (b : bool) (s : st) (evs : list ev) : bool :=
  match evs with [] => b | e :: r => blocked_after (next_blocked b s e) (step s e) r end.

Definition J (b : bool) (s : st) : Prop := valid s = false \/ HInv b s.

Lemma valid_agg_ops s :
  valid (agg_start s) = valid s /\ valid (agg_retry s) = valid s /\ valid (agg_cancel s) = valid s /\ valid (agg_done s) = valid s.
Proof.
  unfold agg_start. destruct (agg s) as [a|] eqn:Ea.
  - rewrite (agg_retry_eq s a Ea), (agg_cancel_eq s a Ea), (agg_done_eq s a Ea). auto.
  - unfold agg_retry, agg_cancel, agg_done. rewrite Ea. auto.
Qed.

Lemma valid_finishers s :
  (forall o, valid (commit o s) = false) /\ valid (rollback s) = false /\ (forall l, valid (rollback_l l s) = false).
Proof.
  repeat split; intros; apply valid_closing; intros; try apply valid_commit_body; reflexivity.
Qed.

Lemma J_step b s e : J b s -> wf_ev s e -> held_contract b s e -> J (next_blocked b s e) (step s e).
Proof.
  intros HJ Hw Hc. unfold wf_ev in Hw.
  destruct (valid_agg_ops s) as (V1 & V2 & V3 & V4). destruct (valid_finishers s) as (F1 & F2 & F3).
  destruct HJ as [Hv|HI].
  - left. destruct e; simpl in *; auto; try congruence.
    + destruct (findk k (written s)); auto.
    + destruct Hw. congruence.
    + unfold run_nth. destruct (nth_error (tasks s) n); auto.
    + unfold run_some. destruct (nth_error (tasks s) n); auto.
  - destruct e; simpl in *; try (left; auto; fail); right.
    + revert HI. apply HInv_view; reflexivity.
    + revert HI. apply HInv_view; reflexivity.
    + revert HI. apply HInv_view; reflexivity.
    + revert HI. apply HInv_view; reflexivity.
    + destruct (findk k (written s)); auto; revert HI; apply HInv_view; reflexivity.
    + destruct Hc as (-> & Hf & Hst).
      pose proof (H_lock_keys ks rv ce loie f o s HI Hf Hst) as H.
      unfold in_agg. destruct (agg (lock_keys ks rv ce loie f o s)) eqn:Ea.
      * rewrite andb_true_r. exact H.
      * rewrite andb_false_r. eapply HInv_noagg; eauto.
    + apply H_agg_start; auto.
    + eapply H_agg_retry; eauto.
    + eapply H_agg_cancel; eauto.
    + eapply H_agg_done; eauto.
    + apply H_run_nth; auto.
    + apply H_run_some; auto.
Qed.

Lemma J_run b s evs : J b s -> wf_run_held b s evs -> J (blocked_after b s evs) (run s evs).
Proof.
  revert b s. induction evs as [|e r IH]; simpl; intros b s HJ Hw; auto.
  destruct Hw as (H1 & H2 & H3). apply IH; auto. apply J_step; auto.
Qed.

Lemma HInv_init : HInv false (init true).
Proof.
  split; [reflexivity|]. unfold cpv. simpl. split; [intros t []|]. split; [intros k []|]. intros; discriminate.
Qed.

Lemma tracked_keys_hold_locks evs :
  wf_run_held false (init true) evs ->
  let s := run (init true) evs in
  valid s = true ->
  forall k,
    (In k (flags s) \/ in_cur s k = true \/ (blocked_after false (init true) evs = false /\ in_prev s k = true)) ->
    exists l, In (k, l) (store s) /\ forall t, In t (tasks s) -> releases t (k, l) = false.
Proof.
  intros Hw s Hv k Hk.
  destruct (J_run false (init true) evs (or_intror HInv_init) Hw) as [Hf|[_ (H1 & H2 & H3)]]; [fold s in Hf; congruence|].
  fold s in H1, H2, H3. unfold cpv, in_cur, in_prev in *.
  destruct Hk as [Hk|Hk]; [exact (H2 k Hk)|].
  destruct (agg s) as [a|]; [|destruct Hk as [Hk|[_ Hk]]; discriminate].
  destruct (H3 _ _ eq_refl) as (A & B & _).
  destruct Hk as [Hk|[Hb Hk]]; [apply A|apply B; auto]; apply memk_In; auto.
Qed.

(* the executable contract of Contract.v implies the one the theorem assumes *)
Lemma held_contractb_sound b s e : held_contractb b s e = true -> held_contract b s e.
Proof.
  destruct e; simpl; auto. intros H.
  apply andb_true_iff in H. destruct H as [H H3]. apply andb_true_iff in H. destruct H as [H1 H2].
  split; [destruct b; auto; discriminate|]. split.
  - unfold fresh_tsb in H2. apply andb_true_iff in H2. destruct H2 as [H2 Ha]. apply andb_true_iff in H2. destruct H2 as [H0 Ht].
    split; [apply N.ltb_lt; auto|]. split.
    + intros ks' f' Hin. rewrite forallb_forall in Ht. specialize (Ht _ Hin). simpl in Ht. apply N.ltb_lt; auto.
    + intros a Ea. rewrite Ea in Ha. apply N.ltb_lt; auto.
  - unfold store_okb, store_ok in *. intros Hr. rewrite Hr in H3. rewrite forallb_forall in H3.
    intros k Hk. specialize (H3 k Hk). apply orb_true_iff in H3. destruct H3 as [H3|H3].
    + left. apply memk_In; auto.
    + right. apply andb_true_iff in H3. destruct H3. split; auto. apply memk_In; auto.
Qed.

Fixpoint wf_run_heldb (b : bool) (s : st) (evs : list ev) : bool :=
  match evs with
  | [] => true
  | e :: r => held_contractb b s e && wf_run_heldb (next_blocked b s e) (step s e) r
  end.
Lemma wf_run_heldb_sound b s evs : wf_run s evs -> wf_run_heldb b s evs = true -> wf_run_held b s evs.
Proof.
  revert b s. induction evs as [|e r IH]; simpl; intros b s Hw H; auto.
  destruct Hw as [W1 W2]. apply andb_true_iff in H. destruct H as [H1 H2].
  split; auto. split; [apply held_contractb_sound; auto|]. apply IH; auto.
Qed.
