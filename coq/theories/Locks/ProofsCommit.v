(* Locks/ProofsCommit.v — Commit preserves the bookkeeping invariant *)
From Coq Require Import List NArith ZArith Bool Lia.
From Verif Require Import Locks.Model Locks.ProofsBase Locks.ProofsOps Locks.ProofsInv.
Import ListNotations.
Open Scope N_scope.

Arguments N.max : simpl never.
Arguments dedup_sort : simpl never.
Arguments len : simpl never.

Lemma cov_split s p : agg s = None -> covered s p ->
  cov_task s p \/ (exists f', snd p = Pess f' /\ In (fst p) (flags s) /\ f' <= N.max (fu s) (cmaxc s) /\ pess s = true).
Proof.
  intros Ha [[(B1 & B2 & B3) Hc]|Ht]; auto. right.
  destruct (snd p) as [f'|]; [|tauto]. destruct Hc as [[H1 H2]|(a & e & Ha' & _ & _)]; [|congruence].
  exists f'. auto.
Qed.

Lemma flags_in_mutations s unn k : In k (flags s) -> In k (mutations unn s).
Proof.
  intros H. unfold mutations. apply dedup_sort_In. apply filter_In. split; [apply in_or_app; auto|].
  unfold keep_mut. destruct (findk k (written s)) as [b|] eqn:Ef; auto.
  apply orb_true_iff. right. apply memk_In; auto.
Qed.

(* 2PC / async commit: [pw], a subset of the mutations, is prewritten, then tasks over all mutations are scheduled.  A
   clean-up releases whatever is left on them; the commit of the secondaries suffices when everything was prewritten, since
   then no pessimistic lock of a flagged key is left *)
Lemma Inv_prewrite_phase o s :
  Inv s -> agg s = None -> mutations (co_unnecessary o) s <> [] -> co_mode o <> M1PC -> Inv (commit_body0 o s).
Proof.
  intros HInv Ha Hne Hmode. pose proof HInv as (HI & _ & HC).
  destruct (commit_body0_prewrite o s Hne Hmode) as (Hst & Htk & Hnew). destruct (commit_body0_frame o s) as [Efr _].
  pose proof (flags_in_mutations s (co_unnecessary o)) as Hfm. set (muts := mutations (co_unnecessary o) s) in *.
  set (pw := match co_res o with CPrewriteFail => _ | _ => muts end) in *.
  assert (Hpw : forall k, In k pw -> In k muts).
  { unfold pw. destruct (co_res o); auto. intros k Hk. apply filter_In in Hk. apply memk_In. tauto. }
  apply (Inv_of_tasks s); auto; try (rewrite Efr; auto; fail).
  intros p Hp. apply Hst, fold_put_prew_In in Hp. destruct Hp as [[H1 H2]|[H1 H2]].
  - destruct p as [k l]. simpl in *. subst l. destruct Hnew as [Hn|[E Hn]]; eexists; (split; [exact Hn|]); simpl; apply memk_In; auto.
  - destruct (cov_split s p Ha (HI p H1)) as [Ht|(f' & _ & Hin & _)]; [eapply cov_task_incl; eauto|].
    destruct Hnew as [Hn|[E Hn]]; [|elim H2; rewrite E; auto]. exists (TCleanup muts). split; [exact Hn|]. simpl. apply memk_In. auto.
Qed.

Lemma Inv_commit_body0 o s : Inv s -> agg s = None -> Inv (commit_body0 o s).
Proof.
  intros HInv Ha. pose proof HInv as (HI & HL & HC).
  pose proof (flags_in_mutations s (co_unnecessary o)) as Hfm.
  destruct (mutations (co_unnecessary o) s) as [|m0 ms] eqn:Em; [|destruct (co_mode o) eqn:Emode].
  - unfold commit_body0. rewrite Em. apply (Inv_of_tasks s); auto. intros p Hp. simpl in Hp.
    destruct (cov_split s p Ha (HI p Hp)) as [Ht|(f' & _ & Hin & _)]; auto.
    apply Hfm in Hin. inversion Hin.
  - (* 2PC *) apply Inv_prewrite_phase; auto; [rewrite Em|rewrite Emode]; discriminate.
  - (* async commit *) apply Inv_prewrite_phase; auto; [rewrite Em|rewrite Emode]; discriminate.
  - (* 1PC: committed at once, or nothing was written and the pessimistic locks are rolled back *)
    unfold commit_body0. rewrite Em, Emode. rewrite <- Em in *. clear Em m0 ms. set (muts := mutations (co_unnecessary o) s) in *.
    cbv zeta.
    assert (Hfail : Inv (if pess s then add_task (TPessRb muts (N.max (fu s) (cmaxc s))) (set_committer true (set_valid false s))
                         else set_committer true (set_valid false s))).
    { destruct (pess s) eqn:Ep; apply (Inv_of_tasks s); auto; intros p Hp; simpl in Hp;
        (destruct (cov_split s p Ha (HI p Hp)) as [Ht|(f' & Hs & Hin & Hle & Hpe)]; [|try congruence]).
      - apply cov_task_add. exact Ht.
      - apply cov_task_new. destruct p as [k l]; simpl in *. subst l. apply releases_pessrb; auto.
      - exact Ht. }
    destruct (co_res o); [|exact Hfail|exact Hfail].
    apply (Inv_of_tasks s); auto. intros p Hp. simpl in Hp. apply filter_In in Hp.
    destruct Hp as [H1 H2]. apply negb_true_iff in H2. apply memk_false in H2.
    destruct (cov_split s p Ha (HI p H1)) as [Ht|(f' & _ & Hin & _)]; [exact Ht|]. elim H2. auto.
Qed.

Lemma Inv_commit_body o s : Inv s -> agg s = None -> Inv (commit_body o s).
Proof.
  intros H1 H2. rewrite commit_body_ka. apply Inv_ka, Inv_commit_body0; auto.
Qed.

Lemma agg_cancel_flags s : flags (agg_cancel s) = flags s.
Proof. destruct (agg s) as [a|] eqn:Ea; [rewrite (agg_cancel_eq s a Ea)|unfold agg_cancel; rewrite Ea]; reflexivity. Qed.
Lemma agg_cancel_written s : written (agg_cancel s) = written s.
Proof. destruct (agg s) as [a|] eqn:Ea; [rewrite (agg_cancel_eq s a Ea)|unfold agg_cancel; rewrite Ea]; reflexivity. Qed.

Lemma Inv_commit o s : Inv s -> pending s = false -> Inv (commit o s).
Proof.
  intros HInv Hp. unfold commit. apply closing_cases; [auto|congruence|intros _ _].
  destruct (Inv_agg_cancel s HInv) as (H1 & H2 & H3). apply Inv_commit_body; auto.
Qed.

Lemma valid_commit_body o s : valid (commit_body o s) = false.
Proof. rewrite commit_body_ka. destruct (commit_body0_frame o s) as [E _]. rewrite E. reflexivity. Qed.
