(* Locks/ProofsKA.v — the keep-alive (ttlManager) component: whenever it is running it is bound to the
   current primary, except inside an aggressive-locking retry window (primary given up by
   RetryAggressiveLocking, keep-alive deliberately kept); it is not running once the transaction ended *)
From Coq Require Import List NArith ZArith Bool Lia.
From Verif Require Import Locks.Model Locks.ProofsBase Locks.ProofsOps Locks.ProofsInv.
Import ListNotations.
Open Scope N_scope.

Arguments N.max : simpl never.
Arguments N.eqb : simpl never.
Arguments N.ltb : simpl never.
Arguments N.leb : simpl never.
Arguments dedup_sort : simpl never.
Arguments len : simpl never.

(* the caller never passes a for-update ts below a conflict ts it was told (the code calls the
   violation "an unreachable path"; it would keep a tentative primary) *)
Definition ts_contract (s : st) (e : ev) : Prop :=
  match e with
  | ELock ks rv ce loie f o =>
    forall a k e', agg (exit_agg ks s) = Some a -> findk k (prev a) = Some e' -> e_lwc e' <= f
  | _ => True
  end.
Fixpoint wf_run_ts (s : st) (evs : list ev) : Prop :=
  match evs with [] => True | e :: r => (wf_ev s e /\ ts_contract s e) /\ wf_run_ts (step s e) r end.

Definition aflags (a : actx) := (aprim a, alastprim a, apk a, alastpk a).
Definition view := (kast * option key * bool * bool * bool * option (bool * bool * option key * option key))%type.
Definition kv (s : st) : view := (ka s, primary s, valid s, pess s, committer s, option_map aflags (agg s)).

(* three clauses: a running keep-alive is bound to the primary, or, with no primary, to the key the attempt remembers as
   its last primary (retry window); it does not run on a closed transaction; the attempt's own primaryKey field is the
   committer's primary while the attempt has one assigned and empty otherwise (Retry moves that field to lastPrimaryKey,
   which is how the first clause survives it) *)
Definition ka_ok_v (v : view) : Prop :=
  let '(k, p, vl, pe, co, ag) := v in
  (match k with
   | KRunning q => pe = true /\ co = true /\
       match p with
       | Some p' => p' = q
       | None => match ag with
                 | Some (ap, alp, _, alpk) => ap = false /\ alp = true /\ (alpk = Some q \/ alpk = None)
                 | None => False
                 end
       end
   | _ => True
   end) /\
  (vl = false -> match k with KRunning _ => False | _ => True end) /\
  (match ag with
   | Some (ap, _, apk_, _) => (ap = true -> forall p', p = Some p' -> apk_ = Some p') /\ (ap = false -> apk_ = None)
   | None => True
   end).
Definition ka_ok (s : st) : Prop := ka_ok_v (kv s).

Definition retry_window (s : st) : Prop :=
  primary s = None /\ exists a, agg s = Some a /\ aprim a = false /\ alastprim a = true.

Lemma ka_ok_meaning s :
  ka_ok s ->
  (forall k, ka s = KRunning k -> primary s = Some k \/ retry_window s) /\
  (valid s = false -> forall k, ka s <> KRunning k).
Proof.
  unfold ka_ok, ka_ok_v, kv, retry_window. destruct (ka s) as [|q|]; intros (H1 & H2 & H3); split; try (intros; discriminate).
  - intros k E. inversion E; subst q. destruct H1 as (_ & _ & H1). destruct (primary s) as [p|]; [left; congruence|right].
    split; auto. destruct (agg s) as [a|]; simpl in H1; [|tauto]. exists a. tauto.
  - intros Hv k E. apply H2. auto.
Qed.

Lemma kv_cleanup a s : kv (cleanup_redundant a s) = kv s.
Proof. unfold cleanup_redundant. destruct (prev a); reflexivity. Qed.

Lemma filter_agg_flags a rv ce f ex cs ks a' rk err :
  filter_agg a rv ce f ex cs ks = (a', rk, err) -> aflags a' = aflags a.
Proof.
  intros H. change a' with (fst (fst (a', rk, err))). rewrite <- H.
  apply (filter_agg_cases rv ce f ex cs (fun a _ res => aflags (fst (fst res)) = aflags a)); intros; auto.
Qed.

(* a filter that may not skip asks for every key *)
Lemma filter_agg_noskip a rv ce f ex ks a' rk :
  filter_agg a rv ce f ex false ks = (a', rk, false) -> rk = ks.
Proof.
  intros H. change rk with (snd (fst (a', rk, false))). rewrite <- H.
  cut (snd (filter_agg a rv ce f ex false ks) = false); [|rewrite H; reflexivity].
  apply (filter_agg_cases rv ce f ex false (fun _ ks res => snd res = false -> snd (fst res) = ks)); intros; try discriminate; auto.
  simpl in *. f_equal. auto.
Qed.

Lemma filter_agg_noerr a rv ce f ex cs ks a' rk err :
  (forall k e, findk k (prev a) = Some e -> e_lwc e <= f) ->
  filter_agg a rv ce f ex cs ks = (a', rk, err) -> err = false.
Proof.
  intros Hts H. change err with (snd (a', rk, err)). rewrite <- H. revert Hts.
  apply (filter_agg_cases rv ce f ex cs (fun a _ res => (forall k e, findk k (prev a) = Some e -> e_lwc e <= f) -> snd res = false)); auto.
  - intros a0 k r e Hf Hlt Hts. specialize (Hts _ _ Hf). lia.
  - intros a0 k r e e' res _ _ _ IH Hts. apply IH. simpl. intros k0 ee Hk. destruct (N.eq_dec k k0) as [->|Hne].
    + rewrite findk_delk_eq in Hk. discriminate.
    + rewrite findk_delk_ne in Hk; eauto.
Qed.

(* the invariant reads the state through [kv] only *)
Lemma ka_ok_kv s s' : kv s' = kv s -> ka_ok s -> ka_ok s'.
Proof. unfold ka_ok. intros ->. auto. Qed.

Lemma kv_set_ka k s : kv (set_ka k s) = (k, primary s, valid s, pess s, committer s, option_map aflags (agg s)).
Proof. reflexivity. Qed.

(* stopping the keep-alive never hurts *)
Lemma ok_kreset k p vl pe co ag : ka_ok_v (k, p, vl, pe, co, ag) -> ka_ok_v (kreset k, p, vl, pe, co, ag).
Proof. intros (H1 & H2 & H3). destruct k; repeat split; auto. Qed.
Lemma ok_kclose k p vl pe co ag : ka_ok_v (k, p, vl, pe, co, ag) -> ka_ok_v (kclose k, p, false, pe, co, ag).
Proof. intros (H1 & H2 & H3). destruct k; repeat split; auto. Qed.

Lemma kv_finish_lock rk rv ce loie absent lwc hv s : kv (finish_lock rk rv ce loie absent lwc hv s) = kv s.
Proof. unfold finish_lock, kv. destruct (agg s) eqn:Ea; simpl; rewrite ?Ea; reflexivity. Qed.

Lemma kv_lock_rpc_core all rk assigned rv ce loie f o s :
  kv (lock_rpc_core all rk assigned rv ce loie f o s) =
  (ka s, primary_after assigned loie o (primary s), valid s, pess s, committer s, option_map aflags (agg s)).
Proof.
  destruct (lo_res o) as [e|] eqn:Er;
    [rewrite (lock_rpc_core_fail _ _ _ _ _ _ _ _ _ e Er)|rewrite lock_rpc_core_ok, kv_finish_lock by exact Er; unfold pre_finish];
    unfold kv; cbn [ka primary valid pess committer agg]; destruct (agg s); simpl; try destruct (many rk || may_be_locked e); reflexivity.
Qed.

Lemma dedup_sort_nonempty l : l <> [] -> dedup_sort l <> [].
Proof.
  unfold dedup_sort. destruct l as [|x r]; [congruence|]. intros _. simpl.
  destruct (fold_right insert_sorted [] r); simpl; [discriminate|].
  destruct (x <? n); [discriminate|]. destruct (x =? n); discriminate.
Qed.

(* view-level transitions of Start / Retry / Cancel / DoneAggressiveLocking *)
Definition v_start (v : view) : view :=
  let '(k, p, vl, pe, co, ag) := v in
  match ag with Some _ => v | None => (k, p, vl, pe, co, Some (false, false, None, None)) end.
Definition v_retry (v : view) : view :=
  let '(k, p, vl, pe, co, ag) := v in
  match ag with
  | None => v
  | Some (ap, alp, apk_, alpk) => (k, (if ap then None else p), vl, pe, co, Some (false, ap || alp, None, apk_))
  end.
Definition v_cancel (v : view) : view :=
  let '(k, p, vl, pe, co, ag) := v in
  match ag with
  | None => v
  | Some (ap, alp, _, _) => if ap || alp then (kreset k, None, vl, pe, co, None) else (k, p, vl, pe, co, None)
  end.
Definition v_done (v : view) : view :=
  let '(k, p, vl, pe, co, ag) := v in
  match ag with
  | None => v
  | Some (ap, alp, _, _) => ((if alp && negb ap then kreset k else k), p, vl, pe, co, None)
  end.

Lemma kv_agg_start s : kv (agg_start s) = v_start (kv s).
Proof. unfold agg_start, v_start, kv. destruct (agg s) eqn:Ea; simpl; rewrite ?Ea; reflexivity. Qed.

Lemma kv_agg_retry s : kv (agg_retry s) = v_retry (kv s).
Proof.
  destruct (agg s) as [a|] eqn:Ea; [rewrite (agg_retry_eq s a Ea)|unfold agg_retry; rewrite Ea]; unfold kv; rewrite Ea; reflexivity.
Qed.

Lemma kv_agg_cancel s : kv (agg_cancel s) = v_cancel (kv s).
Proof.
  destruct (agg s) as [a|] eqn:Ea; [rewrite (agg_cancel_eq s a Ea)|unfold agg_cancel; rewrite Ea]; unfold kv; rewrite Ea; [|reflexivity].
  simpl. destruct (aprim a || alastprim a); reflexivity.
Qed.

Lemma kv_agg_done s : kv (agg_done s) = v_done (kv s).
Proof.
  destruct (agg s) as [a|] eqn:Ea; [rewrite (agg_done_eq s a Ea)|unfold agg_done; rewrite Ea]; unfold kv; rewrite Ea; reflexivity.
Qed.

(* a new attempt has no primary of its own yet *)
Lemma ok_start v : ka_ok_v v -> ka_ok_v (v_start v).
Proof.
  destruct v as [[[[[k p] vl] pe] co] [ag|]]; [exact (fun H => H)|]. intros (H1 & H2 & _).
  repeat split; auto; try discriminate. destruct k; auto. destruct p; tauto.
Qed.

(* a retry gives the primary up and remembers it as the last one: a running keep-alive enters the retry window *)
Lemma ok_retry v : ka_ok_v v -> ka_ok_v (v_retry v).
Proof.
  destruct v as [[[[[k p] vl] pe] co] [[[[ap alp] apk_] alpk]|]]; [|exact (fun H => H)]. intros (H1 & H2 & H3 & H4).
  repeat split; auto; try discriminate. destruct k as [|q|]; auto. destruct H1 as (Hpe & Hco & H1). repeat split; auto.
  destruct ap; simpl.
  - repeat split; auto. destruct p as [p'|]; [left; rewrite (H3 eq_refl p' eq_refl); congruence|].
    destruct H1 as (E & _). discriminate.
  - destruct p; [exact H1|]. destruct H1 as (_ & Ha & _). repeat split; auto.
Qed.

Lemma ok_cancel v : ka_ok_v v -> ka_ok_v (v_cancel v).
Proof.
  destruct v as [[[[[k p] vl] pe] co] [[[[ap alp] apk_] alpk]|]]; [|exact (fun H => H)]. intros (H1 & H2 & _). simpl.
  destruct ap; [|destruct alp]; simpl; try (destruct k; repeat split; auto; fail).
  repeat split; auto. destruct k; auto. destruct p; [exact H1|]. destruct H1 as (_ & _ & _ & E & _). discriminate.
Qed.

Lemma ok_done v : ka_ok_v v -> ka_ok_v (v_done v).
Proof.
  destruct v as [[[[[k p] vl] pe] co] [[[[ap alp] apk_] alpk]|]]; [|exact (fun H => H)]. intros (H1 & H2 & _). simpl.
  destruct (alp && negb ap) eqn:Eb; [destruct k; repeat split; auto|].
  repeat split; auto. destruct k; auto. destruct p; [exact H1|]. destruct H1 as (_ & _ & E1 & E2 & _). subst. discriminate.
Qed.

Lemma ok_rollback_body_l lost s : ka_ok s -> ka_ok (rollback_body_l lost s).
Proof.
  unfold ka_ok. rewrite (rollback_body_l_eq lost s _ _ eq_refl eq_refl). unfold kv. cbn [ka primary valid pess committer agg].
  intros H. destruct (pess s && committer s) eqn:Ea; [eapply ok_kclose; exact H|].
  destruct H as (H1 & _ & H3). repeat split; auto; destruct (ka s); auto; destruct H1 as (Hp & Hc & _); rewrite Hp, Hc in Ea; discriminate.
Qed.

(* Commit and Rollback: cancel the attempt, then the body *)
Lemma ka_ok_closing body s :
  (forall x, ka_ok x -> ka_ok (body x)) -> ka_ok s -> pending s = false ->
  ka_ok (if negb (valid s) then s else if pending s then set_valid false s else body (agg_cancel s)).
Proof.
  intros Hb H Hp. apply closing_cases; [auto|congruence|intros _ _].
  apply Hb. unfold ka_ok. rewrite kv_agg_cancel. apply ok_cancel. exact H.
Qed.

Lemma ka_ok_rollback_l lost s : ka_ok s -> pending s = false -> ka_ok (rollback_l lost s).
Proof. apply (ka_ok_closing (rollback_body_l lost)). apply ok_rollback_body_l. Qed.

Lemma ka_ok_rollback s : ka_ok s -> pending s = false -> ka_ok (rollback s).
Proof. rewrite rollback_nolost. apply ka_ok_rollback_l. Qed.

Lemma ok_commit_body o s : ka_ok s -> ka_ok (commit_body o s).
Proof.
  unfold ka_ok. rewrite commit_body_ka, kv_set_ka. destruct (commit_body0_frame o s) as [E Hco]. rewrite E.
  cbn [primary valid pess committer agg set_tasks set_store set_committer set_valid].
  intros H. apply ok_kclose in H. destruct H as (H1 & H2 & H3). repeat split; auto.
  destruct (kclose (ka s)); auto. destruct H1 as (Hp & Hc & H1). auto.
Qed.

Lemma ka_ok_commit o s : ka_ok s -> pending s = false -> ka_ok (commit o s).
Proof. apply (ka_ok_closing (commit_body o)). apply ok_commit_body. Qed.

Lemma ok_exit_agg ks s : ka_ok s -> ka_ok (exit_agg ks s).
Proof.
  unfold exit_agg. destruct (agg s); auto. destruct (many ks); auto.
  unfold ka_ok. rewrite kv_agg_done. apply ok_done.
Qed.

Lemma opt_eqb_true a b : opt_eqb a b = true -> a = b.
Proof. destruct a, b; simpl; intros H; try discriminate; auto. apply N.eqb_eq in H. congruence. Qed.

Lemma kv_lock_rpc all rk assigned rv ce loie f o s :
  kv (lock_rpc all rk assigned rv ce loie f o s) =
  (lock_rpc_ka rk assigned loie o s, primary_after assigned loie o (primary s), valid s, pess s, committer s, option_map aflags (agg s)).
Proof.
  unfold lock_rpc. pose proof (kv_lock_rpc_core all rk assigned rv ce loie f o s) as H.
  unfold kv in *. simpl. inversion H. reflexivity.
Qed.

(* the request stops the keep-alive exactly when it gives the primary up; otherwise the keep-alive is the one before the
   request, started if the batch holding the primary went through *)
Lemma lock_rpc_gives_up rk assigned loie o s :
  exists r : bool,
    lock_rpc_ka rk assigned loie o s =
      (let k1 := if prim_batch_ok rk loie o s then krun (primary s) (ka s) else ka s in if r then kreset k1 else k1) /\
    primary_after assigned loie o (primary s) = if r then None else primary s.
Proof.
  unfold lock_rpc_ka, primary_after. destruct (lo_res o).
  - exists assigned. destruct assigned; auto.
  - destruct (assigned && loie); [|exists false; auto].
    destruct (primary s) as [q|]; [exists (memk q (lo_absent o)); destruct (memk q (lo_absent o)); auto|exists false; auto].
Qed.

(* so it runs afterwards only if it ran before or was started on the primary, which is then unchanged *)
Lemma lock_rpc_ka_cases rk assigned loie o s :
  (forall q, lock_rpc_ka rk assigned loie o s = KRunning q ->
     primary_after assigned loie o (primary s) = primary s /\ (ka s = KRunning q \/ primary s = Some q)) /\
  (primary_after assigned loie o (primary s) = primary s \/ primary_after assigned loie o (primary s) = None).
Proof.
  destruct (lock_rpc_gives_up rk assigned loie o s) as (r & -> & ->). cbv zeta. destruct r; split; auto.
  - intros q E. elim (kreset_not_running _ _ E).
  - intros q E. split; [reflexivity|]. destruct (prim_batch_ok rk loie o s); [apply krun_running|]; auto.
Qed.

(* view level: a keep-alive that runs after the request ran before it or was started on the unchanged primary *)
Lemma ok_rpc k p ag k' p' :
  ka_ok_v (k, p, true, true, true, ag) ->
  (forall q, k' = KRunning q -> p' = p /\ (k = KRunning q \/ p = Some q)) -> (p' = p \/ p' = None) ->
  ka_ok_v (k', p', true, true, true, ag).
Proof.
  intros (H1 & H2 & H3) C1 C2. split; [|split; [discriminate|]].
  - destruct k' as [|q|]; auto. destruct (C1 q eq_refl) as [-> [->| ->]]; auto.
  - destruct ag as [[[[ap alp] apk_] alpk]|]; auto. destruct H3 as [H3 H4]. split; auto.
    intros Hap p0 E. destruct C2 as [->| ->]; [auto|discriminate].
Qed.

Lemma ka_ok_lock_rpc all rk assigned rv ce loie f o s :
  ka_ok s -> valid s = true -> pess s = true -> committer s = true ->
  ka_ok (lock_rpc all rk assigned rv ce loie f o s).
Proof.
  unfold ka_ok. rewrite kv_lock_rpc. unfold kv. intros H Hv Hp Hc. rewrite Hv, Hp, Hc in H |- *.
  destruct (lock_rpc_ka_cases rk assigned loie o s) as [C1 C2]. eapply ok_rpc; eauto.
Qed.

(* After [prep] the primary may be a key this call has just chosen while the keep-alive still runs on the primary
   of the previous attempt; lockKeys stops it (resetTTLManagerForAggressiveLockingMode) exactly when the two differ
   and a request follows.  So [prep] keeps the invariant once the keep-alive is stopped, and as it is when the new
   primary is the previous one. *)
Lemma ok_prep keys f s :
  ka_ok s -> pess s = true -> keys <> [] ->
  ka_ok (ka_reset (prep keys f s)) /\
  ((primary s = None -> forall a, agg (prep keys f s) = Some a -> alastpk a = apk a) -> ka_ok (prep keys f s)).
Proof.
  intros H Hp Hne. rewrite ka_reset_eq. unfold ka_ok in *. rewrite kv_set_ka. rewrite prep_eq. unfold kv in *.
  destruct (primary s) as [p|] eqn:Epr; cbn [ka primary valid pess committer agg set_fu set_agg set_primary set_committer]; rewrite ?Epr.
  - assert (H' : ka_ok_v (ka s, Some p, valid s, pess s, true, option_map aflags (agg s))).
    { destruct H as (H1 & H2 & H3). repeat split; auto. destruct (ka s); auto. tauto. }
    split; [apply ok_kreset|intros _]; exact H'.
  - destruct (pick_primary_In keys (agg s) Hne) as (q0 & Eq & _). rewrite Eq. destruct H as (H1 & H2 & H3).
    destruct (agg s) as [a|]; simpl in *.
    + unfold aflags in *. simpl in *. split.
      * destruct (ka s); repeat split; auto; congruence.
      * intros Hl. specialize (Hl eq_refl _ eq_refl). simpl in Hl. repeat split; auto; try congruence.
        destruct (ka s) as [|q|]; auto. destruct H1 as (_ & Hco & _ & _ & [E|E]); rewrite E in Hl; [|discriminate].
        repeat split; auto; congruence.
    + split; [destruct (ka s); repeat split; auto|intros _]. repeat split; auto. destruct (ka s); auto. tauto.
Qed.

(* under the ts contract the filter, run on the attempt [prep] leaves (same previous-attempt map), reports no stale ts *)
Lemma prep_filter_noerr keys f s a rv ce ex cs a' rk err :
  (forall a k e', agg s = Some a -> findk k (prev a) = Some e' -> e_lwc e' <= f) ->
  agg (prep keys f s) = Some a -> filter_agg a rv ce f ex cs keys = (a', rk, err) -> err = false.
Proof.
  intros Hts Ha Ef. eapply filter_agg_noerr; [|exact Ef]. rewrite prep_eq in Ha. intros k e'. destruct (primary s); simpl in Ha.
  - eapply Hts; eauto.
  - destruct (agg s) as [a0|] eqn:E0; [|discriminate]. injection Ha as <-. apply (Hts a0). reflexivity.
Qed.

Lemma kv_set_agg a' s a : agg s = Some a -> aflags a' = aflags a -> kv (set_agg (Some a') s) = kv s.
Proof. intros Ha E. unfold kv. simpl. rewrite Ha. simpl. rewrite E. reflexivity. Qed.

Lemma ka_ok_lock_pess keys rv ce loie f o s :
  ka_ok s -> pess s = true -> valid s = true -> keys <> [] ->
  (forall a k e', agg s = Some a -> findk k (prev a) = Some e' -> e_lwc e' <= f) ->
  ka_ok (fst (lock_pess keys rv ce loie f o s)).
Proof.
  intros Hok Hp Hvl Hne Hts. destruct (ok_prep keys f s Hok Hp Hne) as [Hr Hk].
  assert (F : valid (prep keys f s) = true /\ pess (prep keys f s) = true /\ committer (prep keys f s) = true)
    by (rewrite prep_eq; destruct (primary s); auto).
  destruct F as (F1 & F2 & F3).
  apply (lock_pess_cases keys rv ce loie f o s (fun r => ka_ok (fst r)) _ _ eq_refl eq_refl); cbn [fst].
  - intros Ha. apply ka_ok_lock_rpc; auto. apply Hk. intros _ a E. congruence.
  - intros a a' rk err Ha Ef. pose proof (filter_agg_flags _ _ _ _ _ _ _ _ _ _ Ef) as Hfl.
    assert (err = false) by (eapply prep_filter_noerr; eauto).
    subst err. pose proof (kv_set_agg a' _ a Ha Hfl) as Ekv.
    assert (Hsame : alastpk a' = alastpk a /\ apk a' = apk a /\ aprim a' = aprim a) by (unfold aflags in Hfl; intuition congruence).
    destruct Hsame as (S1 & S2 & S3).
    assert (Hk' : (primary s = None -> alastpk a = apk a) -> ka_ok (set_agg (Some a') (prep keys f s))).
    { intros E. apply (ka_ok_kv _ _ Ekv). apply Hk. intros Hn b Eb. rewrite Ha in Eb. injection Eb as <-. auto. }
    split.
    + (* every key was taken over without a request: then the filter was allowed to skip *)
      intros [E|E]; [discriminate|]. subst rk. apply Hk'. intros Hn.
      assert (Hap : aprim a = true) by (rewrite prep_eq, Hn in Ha; destruct (agg s); [injection Ha as <-; reflexivity|discriminate]).
      rewrite Hap in Ef. cbn [negb orb] in Ef. destruct (opt_eqb (alastpk a) (apk a)) eqn:Eo; [apply opt_eqb_true; exact Eo|].
      apply filter_agg_noskip in Ef. congruence.
    + intros _ Hrk. rewrite S1, S2. apply ka_ok_lock_rpc; [|destruct (_ && _); [rewrite ka_reset_eq|]; assumption..].
      destruct (primary s) eqn:Epr; simpl; [apply Hk'; discriminate|].
      destruct (opt_eqb (apk a) (alastpk a)) eqn:Eo; simpl.
      * apply Hk'. intros _. symmetry. apply opt_eqb_true. exact Eo.
      * rewrite ka_reset_eq. unfold ka_ok. rewrite kv_set_ka.
        rewrite ka_reset_eq in Hr. unfold ka_ok in Hr. rewrite kv_set_ka in Hr.
        cbn [ka primary valid pess committer agg set_agg option_map]. rewrite Ha in Hr. cbn [option_map] in Hr. rewrite Hfl. exact Hr.
Qed.

Lemma valid_exit_agg ks s : valid (exit_agg ks s) = valid s.
Proof.
  unfold exit_agg. destruct (agg s) as [a|] eqn:Ea; auto. destruct (many ks); auto. rewrite (agg_done_eq s a Ea). reflexivity.
Qed.

Lemma ka_ok_lock_keys ks rv ce loie f o s :
  ka_ok s -> valid s = true -> ts_contract s (ELock ks rv ce loie f o) ->
  ka_ok (lock_keys ks rv ce loie f o s).
Proof.
  intros H Hv Hts. pose proof (ok_exit_agg ks s H) as H1. unfold lock_keys.
  apply (lock_keys_full_cases ks rv ce loie f o s (fun r => ka_ok (fst r)) _ _ eq_refl eq_refl); cbn [fst]; auto.
  - intros Hne _ Hp _. apply ka_ok_lock_pess; auto.
    + rewrite valid_exit_agg. exact Hv.
    + apply dedup_sort_nonempty. exact Hne.
  - intros _ _. apply (ka_ok_kv _ _ (kv_finish_lock _ _ _ _ _ _ _ _)). exact H1.
Qed.

Lemma kv_run_nth n s : kv (run_nth n s) = kv s.
Proof. unfold run_nth. destruct (nth_error (tasks s) n); reflexivity. Qed.
Lemma kv_run_some n ks s : kv (run_some n ks s) = kv s.
Proof. unfold run_some. destruct (nth_error (tasks s) n); reflexivity. Qed.

Lemma ka_ok_step s e : ka_ok s -> wf_ev s e -> ts_contract s e -> ka_ok (step s e).
Proof.
  intros H Hw Ht. unfold wf_ev in Hw. destruct e; simpl in *.
  - exact H.
  - exact H.
  - exact H.
  - exact H.
  - destruct (findk k (written s)); exact H.
  - destruct Hw. apply ka_ok_lock_keys; auto.
  - unfold ka_ok. rewrite kv_agg_start. apply ok_start. exact H.
  - unfold ka_ok. rewrite kv_agg_retry. apply ok_retry. exact H.
  - unfold ka_ok. rewrite kv_agg_cancel. apply ok_cancel. exact H.
  - unfold ka_ok. rewrite kv_agg_done. apply ok_done. exact H.
  - apply ka_ok_commit; auto.
  - apply ka_ok_rollback; auto.
  - apply ka_ok_rollback_l; auto.
  - apply (ka_ok_kv _ _ (kv_run_nth n s)). exact H.
  - apply (ka_ok_kv _ _ (kv_run_some n ks s)). exact H.
Qed.

Lemma ka_ok_init p : ka_ok (init p).
Proof. unfold ka_ok, kv, ka_ok_v. simpl. intuition discriminate. Qed.

Lemma ka_ok_run s evs : ka_ok s -> wf_run_ts s evs -> ka_ok (run s evs).
Proof.
  exact (run_invariant ka_ok (fun s e => wf_ev s e /\ ts_contract s e) wf_run_ts (fun _ _ _ H => H)
           (fun s e H C => ka_ok_step s e H (proj1 C) (proj2 C)) s evs).
Qed.

Lemma wf_run_ts_wf s evs : wf_run_ts s evs -> wf_run s evs.
Proof. revert s. induction evs as [|e r IH]; simpl; intros s H; auto. destruct H as [[H1 _] H2]. split; auto. Qed.
