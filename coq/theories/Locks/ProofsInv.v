(* Locks/ProofsInv.v — the bookkeeping invariant and its preservation by every step except LockKeys *)
From Coq Require Import List NArith ZArith Bool Lia.
From Verif Require Import Locks.Model Locks.ProofsBase Locks.ProofsOps.
Import ListNotations.
Open Scope N_scope.

Arguments N.max : simpl never.
Arguments N.leb : simpl never.
Arguments N.ltb : simpl never.
Arguments N.eqb : simpl never.
Arguments len : simpl never.
Arguments dedup_sort : simpl never.

Definition agg_entry (s : st) (k : key) (e : entry) : Prop :=
  exists a, agg s = Some a /\ (findk k (cur a) = Some e \/ findk k (prev a) = Some e).

Definition book_ok (s : st) : Prop := valid s = true /\ pess s = true /\ committer s = true.

(* key held in the current / previous aggressive-locking attempt; every release of such a key uses
   max(committer.forUpdateTS, maxLockedWithConflictTS) *)
Definition agg_cov (s : st) (k : key) (f' : ts) : Prop :=
  exists a e, agg s = Some a /\ (findk k (cur a) = Some e \/ findk k (prev a) = Some e) /\
              f' <= N.max (fu s) (amaxc a).
(* the client still knows the lock and will release it with a sufficient for-update ts *)
Definition cov_book (s : st) (p : slock) : Prop :=
  book_ok s /\
  match snd p with
  | Pess f' => (In (fst p) (flags s) /\ f' <= N.max (fu s) (cmaxc s)) \/ agg_cov s (fst p) f'
  | Prew => False
  end.
Definition cov_task (s : st) (p : slock) : Prop := exists t, In t (tasks s) /\ releases t p = true.
Definition covered (s : st) (p : slock) : Prop := cov_book s p \/ cov_task s p.

Definition lwc_ok (s : st) : Prop :=
  forall a k e, agg s = Some a -> In (k, e) (cur a ++ prev a) -> e_lwc e <= amaxc a.
Definition agg_len (s : st) : Z :=
  match agg s with Some a => (len (cur a) + len (prev a))%Z | None => 0%Z end.
Definition cnt_ok (s : st) : Prop := (len (flags s) + agg_len s <= cnt s)%Z.

Definition Inv (s : st) : Prop :=
  (forall p, In p (store s) -> covered s p) /\ lwc_ok s /\ cnt_ok s.

Definition hard_fail (o : lock_out) : bool :=
  match lo_res o with Some e => negb (may_be_locked e) | None => false end.

(* well-formed events: the API contract *)
Definition wf_api (s : st) (e : ev) : Prop :=
  match e with
  | ELock ks rv ce loie f o => valid s = true /\ fu s <= f
  | ECommit _ | ERollback | ERollbackLost _ => pending s = false
  | _ => True
  end.
Definition wf_ev (s : st) (e : ev) : Prop := wf_api s e.

Fixpoint wf_run (s : st) (evs : list ev) : Prop :=
  match evs with [] => True | e :: r => wf_ev s e /\ wf_run (step s e) r end.
Fixpoint wf_run_api (s : st) (evs : list ev) : Prop :=
  match evs with [] => True | e :: r => wf_api s e /\ wf_run_api (step s e) r end.

Lemma cov_task_add s t p : cov_task s p -> cov_task (add_task t s) p.
Proof. intros (t0 & H1 & H2). exists t0. split; auto. simpl. apply in_or_app; auto. Qed.

Lemma cov_task_new s t p : releases t p = true -> cov_task (add_task t s) p.
Proof. intros H. exists t. split; auto. simpl. apply in_or_app; right; simpl; auto. Qed.

Lemma cov_task_incl s s' p : (forall t, In t (tasks s) -> In t (tasks s')) -> cov_task s p -> cov_task s' p.
Proof. intros H (t & H1 & H2). exists t; auto. Qed.

Lemma Inv_init p : Inv (init p).
Proof.
  split; [|split].
  - simpl; tauto.
  - intros a k e H; discriminate.
  - unfold cnt_ok, agg_len; simpl. unfold len; simpl; lia.
Qed.

(* generic frame: nothing the coverage depends on shrinks *)
Lemma Inv_frame s s' :
  store s' = store s -> flags s' = flags s -> cnt s' = cnt s ->
  (forall t, In t (tasks s) -> In t (tasks s')) ->
  valid s' = valid s -> pess s' = pess s -> cmaxc s' = cmaxc s ->
  fu s <= fu s' -> (committer s = true -> committer s' = true) ->
  (forall k f', agg_cov s k f' -> agg_cov s' k f') ->
  (lwc_ok s -> lwc_ok s') -> (agg_len s' <= agg_len s)%Z ->
  Inv s -> Inv s'.
Proof.
  intros Hst Hfl Hcnt Htk Hv Hp Hcm Hfu Hco Hent Hlwc Hlen (HI & HL & HC).
  split; [|split]; auto.
  - intros p Hin. rewrite Hst in Hin. destruct (HI p Hin) as [[(B1 & B2 & B3) Hc]|Ht].
    + left. split; [unfold book_ok; rewrite Hv, Hp; auto|].
      destruct (snd p) as [f'|]; auto. destruct Hc as [[H1 H2]|H1].
      * left. rewrite Hfl, Hcm. split; auto. lia.
      * right. auto.
    + right. eapply cov_task_incl; eauto.
  - unfold cnt_ok in *. rewrite Hfl, Hcnt. lia.
Qed.

(* the invariant does not read the buffer writes, the insert flags, the primary or the keep-alive *)
Lemma Inv_same s s' :
  store s' = store s -> flags s' = flags s -> cnt s' = cnt s -> agg s' = agg s -> tasks s' = tasks s ->
  valid s' = valid s -> pess s' = pess s -> committer s' = committer s -> fu s' = fu s -> cmaxc s' = cmaxc s ->
  Inv s -> Inv s'.
Proof.
  intros E1 E2 E3 E4 E5 E6 E7 E8 E9 E10. apply Inv_frame; try congruence.
  - rewrite E9. lia.
  - unfold agg_cov. rewrite E4, E9. auto.
  - unfold lwc_ok. rewrite E4. auto.
  - unfold agg_len. rewrite E4. lia.
Qed.

Lemma Inv_written s x : Inv s -> Inv (set_written x s).
Proof. apply Inv_same; reflexivity. Qed.
Lemma Inv_presume s x : Inv s -> Inv (set_presume x s).
Proof. apply Inv_same; reflexivity. Qed.
Lemma Inv_primary s x : Inv s -> Inv (set_primary x s).
Proof. apply Inv_same; reflexivity. Qed.
Lemma Inv_ka s x : Inv s -> Inv (set_ka x s).
Proof. apply Inv_same; reflexivity. Qed.
Lemma Inv_ka_reset s : Inv s -> Inv (ka_reset s).
Proof. rewrite ka_reset_eq. apply Inv_ka. Qed.
Lemma Inv_ka_close s : Inv s -> Inv (ka_close s).
Proof. rewrite ka_close_eq. apply Inv_ka. Qed.
Lemma Inv_ka_run s : Inv s -> Inv (ka_run s).
Proof. rewrite ka_run_eq. apply Inv_ka. Qed.
Lemma Inv_reset_primary b s : Inv s -> Inv (reset_primary b s).
Proof. intros H. unfold reset_primary. destruct b; [apply Inv_primary; auto|apply Inv_ka_reset, Inv_primary; auto]. Qed.

Lemma Inv_agg_start s : Inv s -> Inv (agg_start s).
Proof.
  unfold agg_start. destruct (agg s) eqn:Ea; auto.
  apply Inv_frame; simpl; auto; try lia.
  - intros k f' (a & e & Ha & _). congruence.
  - intros _ a k e Ha Hin. inversion Ha; subst. simpl in Hin. tauto.
  - unfold agg_len. rewrite Ea. simpl. unfold len; simpl; lia.
Qed.

Lemma len_app {A} (l r : list A) : len (l ++ r) = (len l + len r)%Z.
Proof. unfold len. rewrite app_length. lia. Qed.
Lemma len_keys {A} (l : list (key * A)) : len (keys_of l) = len l.
Proof. unfold len, keys_of. rewrite map_length. auto. Qed.
Lemma len_nonneg {A} (l : list A) : (0 <= len l)%Z.
Proof. unfold len. lia. Qed.

(* a key of the attempt's map [l] is released by the rollback scheduled for [l] *)
Lemma cov_rb s (l : list (key * entry)) f k e f' :
  (forall t, In t (rb_task (keys_of l) f) -> In t (tasks s)) -> findk k l = Some e -> f' <= f -> cov_task s (k, Pess f').
Proof.
  intros Hsub Hf Hle. destruct (rb_task_releases (keys_of l) f k f' (findk_keys _ _ _ Hf) Hle) as (t & T1 & T2).
  exists t. auto.
Qed.

(* Retry / Cancel / Done end an attempt [a]: flagged keys and pending tasks stay, the keys of the previous attempt go to the
   rollback the operation schedules; what becomes of the current keys is the operation's own *)
Lemma Inv_attempt_end s s' a :
  Inv s -> agg s = Some a ->
  store s' = store s -> valid s' = valid s -> pess s' = pess s -> committer s' = committer s ->
  (forall k, In k (flags s) -> In k (flags s')) -> N.max (fu s) (cmaxc s) <= N.max (fu s') (cmaxc s') ->
  (forall t, In t (tasks s ++ rb_task (keys_of (prev a)) (N.max (fu s) (amaxc a))) -> In t (tasks s')) ->
  (forall k e f', findk k (cur a) = Some e -> f' <= N.max (fu s) (amaxc a) -> book_ok s' -> covered s' (k, Pess f')) ->
  lwc_ok s' -> cnt_ok s' -> Inv s'.
Proof.
  intros (HI & _ & _) Ea Hst Hv Hp Hco Hfl Hmx Htk Hcur HL' HC'. split; [|split]; [|exact HL'|exact HC'].
  intros p Hin. rewrite Hst in Hin. destruct (HI p Hin) as [[B Hc]|(t & T1 & T2)].
  - assert (B' : book_ok s') by (unfold book_ok in *; rewrite Hv, Hp, Hco; exact B).
    destruct p as [k [f'|]]; simpl in Hc; [|tauto]. destruct Hc as [[H1 H2]|(a0 & e & Ha0 & Hf & H2)].
    + left. split; [exact B'|]. left. simpl. split; [auto|lia].
    + rewrite Ea in Ha0. injection Ha0 as <-. destruct Hf as [Hf|Hf]; [eapply Hcur; eauto|].
      right. eapply cov_rb; [|exact Hf|exact H2]. intros t Ht. apply Htk, in_or_app. auto.
  - right. exists t. split; [apply Htk, in_or_app; auto|exact T2].
Qed.

(* the current keys become the previous ones *)
Lemma Inv_agg_retry s : Inv s -> Inv (agg_retry s).
Proof.
  intros HInv. destruct (agg s) as [a|] eqn:Ea; [rewrite (agg_retry_eq s a Ea)|unfold agg_retry; rewrite Ea; exact HInv].
  pose proof HInv as (_ & HL & HC). apply (Inv_attempt_end s _ a HInv Ea); try reflexivity; auto.
  - intros k e f' Hf Hle B. left. split; [exact B|]. right. eexists. exists e. split; [reflexivity|]. simpl. auto.
  - intros a' k e Ha' Hin. injection Ha' as <-. apply (HL a k e Ea). apply in_or_app; auto.
  - unfold cnt_ok, agg_len in *. rewrite Ea in HC. cbn [flags agg cnt cur prev]. rewrite len_nil. lia.
Qed.

(* the current keys are rolled back too *)
Lemma Inv_agg_cancel s : Inv s -> Inv (agg_cancel s) /\ agg (agg_cancel s) = None /\
                                  valid (agg_cancel s) = valid s.
Proof.
  intros HInv. destruct (agg s) as [a|] eqn:Ea; [rewrite (agg_cancel_eq s a Ea)|unfold agg_cancel; rewrite Ea; auto].
  split; [|split; reflexivity]. pose proof HInv as (_ & _ & HC). apply (Inv_attempt_end s _ a HInv Ea); try reflexivity; auto.
  - intros t Ht. apply in_or_app; auto.
  - intros k e f' Hf Hle _. right. eapply cov_rb; [|exact Hf|exact Hle]. intros t Ht. apply in_or_app; auto.
  - intros a' k e Ha'. discriminate.
  - unfold cnt_ok, agg_len in *. rewrite Ea in HC. cbn [flags agg cnt]. lia.
Qed.

(* the current keys become flagged keys *)
Lemma Inv_agg_done s : Inv s -> Inv (agg_done s).
Proof.
  intros HInv. destruct (agg s) as [a|] eqn:Ea; [rewrite (agg_done_eq s a Ea)|unfold agg_done; rewrite Ea; exact HInv].
  pose proof HInv as (_ & _ & HC). apply (Inv_attempt_end s _ a HInv Ea); try reflexivity; cbn [flags fu cmaxc tasks]; auto.
  - intros k Hk. apply in_or_app; auto.
  - lia.
  - intros k e f' Hf Hle B. left. split; [exact B|]. left. simpl. split; [apply in_or_app; right; eapply findk_keys; eauto|lia].
  - intros a' k e Ha'. discriminate.
  - unfold cnt_ok, agg_len in *. rewrite Ea in HC. cbn [flags agg cnt]. rewrite len_app, len_keys. lia.
Qed.

Lemma Inv_run_nth n s : Inv s -> Inv (run_nth n s).
Proof.
  intros (HI & HL & HC). unfold run_nth. destruct (nth_error (tasks s) n) as [t|] eqn:En; [|repeat split; auto].
  split; [|split]; auto.
  intros p Hin. simpl in Hin. apply run_task_In in Hin. destruct Hin as [Hin Hrel].
  destruct (HI p Hin) as [Hb|(t0 & Ht0 & Hr0)].
  - left. destruct Hb as [B Hc]. split; auto.
  - right. destruct (In_remove_nth t0 n (tasks s) Ht0) as [H|H].
    + exists t0. split; auto.
    + rewrite En in H. inversion H; subst. congruence.
Qed.

Lemma releases_restrict ks t p : releases (restrict_task ks t) p = true -> releases t p = true.
Proof. rewrite releases_restrict_eq. intros H. apply andb_true_iff in H. tauto. Qed.

Lemma Inv_run_some n ks s : Inv s -> Inv (run_some n ks s).
Proof.
  intros (HI & HL & HC). unfold run_some. destruct (nth_error (tasks s) n) as [t|] eqn:En; [|repeat split; auto].
  split; [|split]; auto.
  intros p Hin. simpl in Hin. apply run_task_In in Hin. destruct Hin as [Hin _].
  destruct (HI p Hin) as [[B Hc]|(t0 & Ht0 & Hr0)]; [left; split; auto|right; exists t0; auto].
Qed.

Lemma Inv_of_tasks s s' :
  agg s' = None -> flags s' = flags s -> cnt s' = cnt s -> agg s = None -> cnt_ok s ->
  (forall p, In p (store s') -> cov_task s' p) -> Inv s'.
Proof.
  intros Ha' Hf Hc Ha HC Hcov. split; [|split].
  - intros p Hp. right. auto.
  - intros a k e H. congruence.
  - unfold cnt_ok, agg_len in *. rewrite Ha', Hf, Hc. rewrite Ha in HC. auto.
Qed.

(* the synchronous release covers the flagged keys that were not lost; the lost ones stay under a pending release *)
Lemma Inv_rollback_body_l lost s : Inv s -> agg s = None -> Inv (rollback_body_l lost s).
Proof.
  intros (HI & HL & HC) Hag. rewrite (rollback_body_l_eq lost s _ _ eq_refl eq_refl).
  apply (Inv_of_tasks s); auto. cbn [store tasks]. intros p Hp.
  assert (Hin : In p (store s)) by (destruct (_ && negb _); [apply run_task_In in Hp; tauto|exact Hp]).
  destruct (HI p Hin) as [[(B1 & B2 & B3) Hc]|(t & T1 & T2)]; [|exists t; split; [apply in_or_app; auto|exact T2]].
  destruct p as [k [f'|]]; simpl in Hc; [|tauto]. destruct Hc as [[H1 H2]|(a0 & e & Ha0 & _)]; [|congruence].
  rewrite B2, B3 in *. cbn [andb] in *. destruct (cnt s =? 0)%Z eqn:Ec; cbn [negb] in *.
  - exfalso. apply Z.eqb_eq in Ec. unfold cnt_ok, agg_len in HC. rewrite Hag, Ec in HC.
    destruct (flags s); [inversion H1|]. unfold len in HC. simpl in HC. lia.
  - apply run_task_In in Hp. destruct Hp as [_ Hrel].
    destruct (rb_task_releases (filter (fun k => memk k lost) (flags s)) (N.max (fu s) (cmaxc s)) k f') as (t & T1 & T2); auto.
    + apply filter_In. split; auto. destruct (memk k lost) eqn:Em; auto.
      rewrite releases_pessrb in Hrel; [discriminate| |exact H2]. apply minus_In. split; auto. apply memk_false; auto.
    + exists t. split; [apply in_or_app; auto|auto].
Qed.

Lemma Inv_rollback_l lost s : Inv s -> pending s = false -> Inv (rollback_l lost s).
Proof.
  intros HInv Hp. unfold rollback_l. apply closing_cases; [auto|congruence|intros _ _].
  destruct (Inv_agg_cancel s HInv) as (H1 & H2 & H3). apply Inv_rollback_body_l; auto.
Qed.

Lemma Inv_rollback s : Inv s -> pending s = false -> Inv (rollback s).
Proof. rewrite rollback_nolost. apply Inv_rollback_l. Qed.
