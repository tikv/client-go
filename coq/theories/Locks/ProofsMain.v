(* Locks/ProofsMain.v — the C06 statements derived from the invariant *)
From Coq Require Import List NArith ZArith Bool Lia.
From Verif Require Import Locks.Model Locks.ProofsBase Locks.ProofsOps Locks.ProofsInv Locks.ProofsCommit Locks.ProofsLock
  Locks.ProofsLockAgg Locks.ProofsLockAll.
Import ListNotations.
Open Scope N_scope.

Arguments N.max : simpl never.
Arguments dedup_sort : simpl never.
Arguments len : simpl never.

Lemma bookkeeping_inv p evs : wf_run (init p) evs -> Inv (run (init p) evs).
Proof. intros H. apply Inv_run; auto. apply Inv_init. Qed.

Lemma no_leftover_from s : Inv s -> valid s = false -> tasks s = [] -> store s = [].
Proof.
  intros (HI & _ & _) Hv Ht. destruct (store s) as [|p r] eqn:Es; auto. exfalso.
  destruct (HI p (or_introl eq_refl)) as [[(B1 & _) _]|(t & T1 & _)]; [congruence|].
  rewrite Ht in T1. inversion T1.
Qed.

Lemma quiescent_store_flags s p :
  Inv s -> tasks s = [] -> agg s = None -> In p (store s) ->
  valid s = true /\ In (fst p) (flags s) /\ exists f', snd p = Pess f' /\ f' <= N.max (fu s) (cmaxc s).
Proof.
  intros (HI & _ & _) Ht Ha Hin. destruct (HI p Hin) as [[(B1 & _) Hc]|(t & T1 & _)].
  - destruct (snd p) as [f'|]; [|tauto]. destruct Hc as [[H1 H2]|(a & e & Ha' & _ & _)]; [|congruence].
    split; auto. split; auto. exists f'. auto.
  - rewrite Ht in T1. inversion T1.
Qed.

Lemma filter_agg_sub a rv ce f ex cs ks a' rk err k :
  filter_agg a rv ce f ex cs ks = (a', rk, err) -> In k rk -> In k ks.
Proof.
  intros H. change rk with (snd (fst (a', rk, err))). rewrite <- H. revert k.
  apply (filter_agg_cases rv ce f ex cs (fun _ ks res => forall k, In k (snd (fst res)) -> In k ks)); simpl; auto; try tauto.
  intros _ x r _ ks' _ IH k [->|Hk]; auto.
Qed.

(* keys go to the store only through [lock_rpc], and only keys the call still needs *)
Lemma lock_keys_full_rpc ks rv ce loie f o s :
  let keys := dedup_sort (filter (need_lock (exit_agg ks s)) ks) in
  let r := lock_keys_full ks rv ce loie f o s in
  snd r <> [] ->
  exists s5 assigned, fst r = lock_rpc keys (snd r) assigned rv ce loie f o s5 /\ (forall k, In k (snd r) -> In k keys).
Proof.
  set (P := fun keys (r : st * list key) =>
              snd r <> [] -> exists s5 assigned, fst r = lock_rpc keys (snd r) assigned rv ce loie f o s5 /\ (forall k, In k (snd r) -> In k keys)).
  apply (lock_keys_full_cases ks rv ce loie f o s (P _) _ _ eq_refl eq_refl); unfold P; cbn [fst snd]; try congruence.
  intros _ _ _ _. apply (lock_pess_cases _ rv ce loie f o _ (P _) _ _ eq_refl eq_refl); unfold P; cbn [fst snd].
  - intros _ _. eexists. eexists. split; [reflexivity|auto].
  - intros a a' rk err Ha Ef. split; [congruence|]. intros _ _ _. eexists. eexists. split; [reflexivity|].
    intros k Hk. eapply filter_agg_sub; eauto.
Qed.

Lemma lock_rpc_fail_task all rk assigned rv ce loie f o s e :
  lo_res o = Some e -> (many rk || may_be_locked e) = true ->
  In (TPessRb all (N.max f (eff_lwc s rk o))) (tasks (lock_rpc all rk assigned rv ce loie f o s)).
Proof.
  intros Hr Hb. unfold lock_rpc. cbn [tasks set_ka]. rewrite (lock_rpc_core_fail _ _ _ _ _ _ _ _ _ e Hr), Hb.
  cbn [tasks]. apply in_or_app. simpl. auto.
Qed.

Lemma failed_lockkeys ks rv ce loie f o s e :
  lo_res o = Some e ->
  let s1 := exit_agg ks s in
  let s' := fst (lock_keys_full ks rv ce loie f o s) in
  let rk := snd (lock_keys_full ks rv ce loie f o s) in
  rk <> [] ->
  forall k, In k (eff_locked rk loie o) ->
  exists ks' t lf, In (TPessRb ks' t) (tasks s') /\ releases (TPessRb ks' t) (k, Pess lf) = true /\ f <= lf /\
                 (forall k', In k' ks' -> In k' ks /\ need_lock s1 k' = true).
Proof.
  intros Hr s1 s' rk Hne k Hk.
  destruct (lock_keys_full_rpc ks rv ce loie f o s Hne) as (s5 & assigned & Hs & Hsub). fold s1 s' rk in Hs, Hsub.
  destruct (many rk || may_be_locked e) eqn:Eb.
  - exists (dedup_sort (filter (need_lock s1) ks)), (N.max f (eff_lwc s5 rk o)), (N.max f (eff_lwc s5 rk o)).
    split; [rewrite Hs; eapply lock_rpc_fail_task; eauto|]. split; [|split; [lia|]].
    + apply releases_pessrb; [|lia]. apply Hsub. apply eff_locked_In in Hk. tauto.
    + apply need_keys_In.
  - exfalso. unfold eff_locked in Hk. rewrite (hard_single_false rk o e Hr Eb) in Hk. inversion Hk.
Qed.

Lemma lock_rpc_fail_flags all rk assigned rv ce loie f o s e :
  lo_res o = Some e -> flags (lock_rpc all rk assigned rv ce loie f o s) = flags s.
Proof.
  intros Hr. unfold lock_rpc. cbn [flags set_ka]. rewrite (lock_rpc_core_fail _ _ _ _ _ _ _ _ _ e Hr). reflexivity.
Qed.

Lemma run_nth0_tasks s : tasks (run_nth 0 s) = tl (tasks s).
Proof. unfold run_nth. destruct (tasks s) as [|t r] eqn:E; simpl; auto. Qed.

Lemma run_nth_valid n s : valid (run_nth n s) = valid s.
Proof. unfold run_nth. destruct (nth_error (tasks s) n); reflexivity. Qed.

Lemma run_app s a b : run s (a ++ b) = run (run s a) b.
Proof. unfold run. apply fold_left_app. Qed.

Lemma wf_run_runs n s : wf_run s (repeat (ERun 0) n).
Proof. revert s. induction n; simpl; intros s; auto. Qed.

Lemma run_runs n s :
  (length (tasks s) <= n)%nat ->
  tasks (run s (repeat (ERun 0) n)) = [] /\ valid (run s (repeat (ERun 0) n)) = valid s.
Proof.
  revert s. induction n as [|n IH]; simpl; intros s Hl.
  - destruct (tasks s); simpl in Hl; [auto|lia].
  - destruct (IH (run_nth 0 s)) as (A & B).
    + rewrite run_nth0_tasks. destruct (tasks s); simpl in *; lia.
    + rewrite run_nth_valid in B. auto.
Qed.

Lemma drain_run n s : drain n s = run s (repeat (ERun 0) n).
Proof.
  revert s. induction n as [|n IH]; intros s; [reflexivity|]. simpl. rewrite <- IH.
  destruct (tasks s) eqn:E; [|reflexivity]. unfold run_nth. rewrite E. simpl. destruct n; simpl; rewrite ?E; reflexivity.
Qed.

Lemma drain_props n s :
  Inv s -> (length (tasks s) <= n)%nat ->
  Inv (drain n s) /\ tasks (drain n s) = [] /\ valid (drain n s) = valid s.
Proof.
  intros HI Hl. rewrite drain_run. split; [|apply run_runs; exact Hl]. apply Inv_run; [exact HI|apply wf_run_runs].
Qed.

Lemma no_leftover_drain s n :
  Inv s -> valid s = false -> (length (tasks s) <= n)%nat -> store (drain n s) = [].
Proof.
  intros HI Hv Hl. destruct (drain_props n s HI Hl) as (A & B & C).
  apply no_leftover_from; auto. congruence.
Qed.

Lemma rollback_valid s : valid (rollback s) = false.
Proof. apply valid_closing. reflexivity. Qed.

Lemma agg_cancel_not_pending s : pending (agg_cancel s) = false.
Proof.
  unfold pending, agg_cancel. destruct (agg s) as [a|] eqn:Ea; [reflexivity|]. rewrite Ea. auto.
Qed.

Definition finish_evs (s : st) : list ev :=
  EAggCancel :: ERollback :: repeat (ERun 0) (length (tasks (rollback (agg_cancel s)))).

Lemma can_always_finish s :
  wf_run s (finish_evs s) /\ valid (run s (finish_evs s)) = false /\ tasks (run s (finish_evs s)) = [].
Proof.
  unfold finish_evs. pose proof (agg_cancel_not_pending s) as Hp.
  split.
  - simpl. repeat split; auto. apply wf_run_runs.
  - simpl. destruct (run_runs (length (tasks (rollback (agg_cancel s)))) (rollback (agg_cancel s)) (le_n _)) as (A & B).
    split; auto. rewrite B. apply rollback_valid.
Qed.

(* the contract can be met in every state, with ANY answer of the store *)
Lemma wf_ev_exists s :
  (forall k, wf_ev s (ESet k) /\ wf_ev s (EDel k) /\ wf_ev s (EInsert k)) /\
  wf_ev s EAggStart /\ wf_ev s EAggRetry /\ wf_ev s EAggCancel /\ wf_ev s EAggDone /\
  (forall n ks, wf_ev s (ERun n) /\ wf_ev s (ERunSome n ks)) /\
  (valid s = true -> forall ks rv ce loie f o, fu s <= f -> wf_ev s (ELock ks rv ce loie f o)) /\
  (pending s = false -> wf_ev s ERollback /\ forall o, wf_ev s (ECommit o)).
Proof. unfold wf_ev. repeat split; simpl; auto. Qed.

Lemma wf_run_app s a b : wf_run s a -> wf_run (run s a) b -> wf_run s (a ++ b).
Proof.
  revert s. induction a as [|e r IH]; simpl; intros s Ha Hb; auto.
  destruct Ha as [H1 H2]. split; auto.
Qed.

Lemma every_run_can_finish_clean p evs :
  wf_run (init p) evs ->
  exists more, wf_run (init p) (evs ++ more) /\
    valid (run (init p) (evs ++ more)) = false /\ tasks (run (init p) (evs ++ more)) = [] /\
    store (run (init p) (evs ++ more)) = [].
Proof.
  intros H. exists (finish_evs (run (init p) evs)).
  destruct (can_always_finish (run (init p) evs)) as (A & B & C).
  assert (W : wf_run (init p) (evs ++ finish_evs (run (init p) evs))) by (apply wf_run_app; auto).
  split; [exact W|]. rewrite run_app. repeat split; auto.
  rewrite <- run_app. apply no_leftover_from; [apply bookkeeping_inv; auto| |]; rewrite run_app; auto.
Qed.

(* re-batching: a task whose batch is re-split into sub-batches (region error, split in the
   request's window) releases exactly what the whole task releases, provided ALL sub-batches are processed *)
Definition task_keys (t : task) : list key :=
  match t with TPessRb l _ => l | TCleanup l => l | TCommitSec l => l end.

Definition run_parts (t : task) (parts : list (list key)) (s : list slock) : list slock :=
  fold_left (fun s p => run_task (restrict_task p t) s) parts s.

Lemma releases_in_keys t l : releases t l = true -> In (fst l) (task_keys t).
Proof.
  destruct t as [ks f|ks|ks]; simpl; destruct (snd l); intros H; try discriminate;
    try (apply andb_true_iff in H; destruct H as [H _]); apply memk_In; auto.
Qed.

Lemma filter_filter {A} (f g : A -> bool) l : filter f (filter g l) = filter (fun x => g x && f x) l.
Proof.
  induction l as [|x l IH]; simpl; auto. destruct (g x); simpl; [destruct (f x); simpl; rewrite IH; auto|auto].
Qed.

Lemma run_parts_spec t parts s :
  run_parts t parts s = filter (fun l => negb (releases t l && existsb (fun p => memk (fst l) p) parts)) s.
Proof.
  unfold run_parts. revert s. induction parts as [|p r IH]; intros s.
  - simpl. induction s as [|l s IHs]; simpl; auto. rewrite andb_false_r. simpl. f_equal. auto.
  - cbn [fold_left]. rewrite IH. unfold run_task. rewrite filter_filter. apply filter_ext. intros l.
    rewrite releases_restrict_eq. cbn [existsb].
    destruct (releases t l); destruct (memk (fst l) p); destruct (existsb (fun p0 => memk (fst l) p0) r); reflexivity.
Qed.

Lemma rebatched_task_equals_whole t parts s :
  (forall k, In k (task_keys t) -> exists p, In p parts /\ In k p) ->
  run_parts t parts s = run_task t s.
Proof.
  intros Hcov. rewrite run_parts_spec. unfold run_task. apply filter_ext_in. intros l _.
  destruct (releases t l) eqn:E; simpl; auto.
  apply releases_in_keys in E. destruct (Hcov _ E) as (p & Hp & Hk).
  assert (X : existsb (fun p0 => memk (fst l) p0) parts = true).
  { apply existsb_exists. exists p. split; auto. apply memk_In; auto. }
  rewrite X. reflexivity.
Qed.

(* a background rollback scheduled late releases with the for-update ts of the FAILED call: locks
   that a retried call acquired with a newer ts survive it *)
Lemma late_rollback_spares_newer ks f s k f' :
  In (k, Pess f') s -> f < f' -> In (k, Pess f') (run_task (TPessRb ks f) s).
Proof.
  intros Hin Hlt. apply run_task_In. split; auto. simpl.
  destruct (memk k ks); simpl; auto. apply N.leb_gt. auto.
Qed.

(* lost release requests: a task whose request is lost is retried by the sender (it stays pending: any number
   of partial runs [ERunSome] and finally [ERun]); a task lost for good never completes.  After the transaction ended,
   every lock that is still there is one that a release task which has NOT completed would release *)
Lemma leftover_under_unfinished_tasks s l :
  Inv s -> valid s = false -> In l (store s) -> exists t, In t (tasks s) /\ releases t l = true.
Proof.
  intros (HI & _ & _) Hv Hin. destruct (HI l Hin) as [[(B1 & _) _]|Ht]; [congruence|exact Ht].
Qed.
