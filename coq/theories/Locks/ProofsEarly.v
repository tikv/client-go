(* Locks/ProofsEarly.v — the key-exists error LockKeys returns before any request (pre-loop) is computed by the
   model ([early_exists]); what such an error means: nothing was sent, nothing changed, and the key is one this
   transaction inserted and already tracks as locked *)
From Coq Require Import List NArith ZArith Bool Lia.
From Verif Require Import Locks.Model Locks.ProofsBase Locks.ProofsOps Locks.ProofsInv Locks.ProofsCommit Locks.ProofsLock Locks.ProofsKA Locks.ProofsPrim.
Import ListNotations.
Open Scope N_scope.

Arguments N.max : simpl never.
Arguments N.eqb : simpl never.
Arguments N.ltb : simpl never.
Arguments N.leb : simpl never.
Arguments dedup_sort : simpl never.
Arguments len : simpl never.

(* the NeedCheckExists / PresumeKeyNotExists flags never appear by themselves *)
Definition ple (s s' : st) : Prop := forall k, In k (presume s') -> In k (presume s).

Lemma ple_refl s : ple s s.
Proof. intros k H; exact H. Qed.
Lemma ple_trans a b c : ple a b -> ple b c -> ple a c.
Proof. intros H1 H2 k H. apply H1, H2, H. Qed.
Lemma ple_eq s s' : presume s' = presume s -> ple s s'.
Proof. intros E k H. rewrite <- E. exact H. Qed.

Lemma ple_finish_lock rk rv ce loie absent lwc hv s : ple s (finish_lock rk rv ce loie absent lwc hv s).
Proof.
  unfold finish_lock, ple. destruct (agg s); simpl; auto. intros k H. apply minus_In in H. tauto.
Qed.

Lemma ple_lock_rpc_core all rk assigned rv ce loie f o s : ple s (lock_rpc_core all rk assigned rv ce loie f o s).
Proof.
  destruct (lo_res o) as [e|] eqn:Er.
  - rewrite (lock_rpc_core_fail _ _ _ _ _ _ _ _ _ e Er). intros k H. cbn [presume] in H. apply minus_In in H. tauto.
  - rewrite lock_rpc_core_ok by exact Er. eapply ple_trans; [|apply ple_finish_lock]. apply ple_eq. reflexivity.
Qed.

Lemma ple_lock_pess keys rv ce loie f o s : ple s (fst (lock_pess keys rv ce loie f o s)).
Proof.
  assert (E4 : presume (prep keys f s) = presume s) by (rewrite prep_eq; destruct (primary s); reflexivity).
  assert (Hrpc : forall all rk a rv ce loie o x, presume x = presume s -> ple s (lock_rpc all rk a rv ce loie f o x)).
  { intros. unfold lock_rpc. eapply ple_trans; [apply ple_eq; eassumption|]. apply ple_lock_rpc_core. }
  apply (lock_pess_cases keys rv ce loie f o s (fun r => ple s (fst r)) _ _ eq_refl eq_refl); cbn [fst].
  - intros _. apply Hrpc. exact E4.
  - intros a a' rk err _ _. split; intros; [apply ple_eq; exact E4|]. apply Hrpc. rewrite ka_reset_if. exact E4.
Qed.

Lemma ple_agg_done s : ple s (agg_done s).
Proof.
  destruct (agg s) as [a|] eqn:Ea; [rewrite (agg_done_eq s a Ea)|unfold agg_done; rewrite Ea; apply ple_refl].
  intros x H. cbn [presume] in H. apply minus_In in H. tauto.
Qed.

Lemma ple_exit_agg ks s : ple s (exit_agg ks s).
Proof. unfold exit_agg. destruct (agg s); [destruct (many ks)|]; try apply ple_refl. apply ple_agg_done. Qed.

Lemma ple_lock_keys ks rv ce loie f o s : ple s (lock_keys ks rv ce loie f o s).
Proof.
  pose proof (ple_exit_agg ks s) as H1. unfold lock_keys.
  apply (lock_keys_full_cases ks rv ce loie f o s (fun r => ple s (fst r)) _ _ eq_refl eq_refl); cbn [fst]; auto; intros;
    (eapply ple_trans; [exact H1|]); [apply ple_lock_pess|apply ple_finish_lock].
Qed.

Lemma presume_agg_start s : presume (agg_start s) = presume s.
Proof. unfold agg_start. destruct (agg s); reflexivity. Qed.
Lemma presume_agg_retry s : presume (agg_retry s) = presume s.
Proof. destruct (agg s) as [a|] eqn:Ea; [rewrite (agg_retry_eq s a Ea)|unfold agg_retry; rewrite Ea]; reflexivity. Qed.
Lemma presume_agg_cancel s : presume (agg_cancel s) = presume s.
Proof. destruct (agg s) as [a|] eqn:Ea; [rewrite (agg_cancel_eq s a Ea)|unfold agg_cancel; rewrite Ea]; reflexivity. Qed.
Lemma presume_rollback_body_l lost s : presume (rollback_body_l lost s) = presume s.
Proof. rewrite (rollback_body_l_eq lost s _ _ eq_refl eq_refl). reflexivity. Qed.
Lemma presume_commit_body o s : presume (commit_body o s) = presume s.
Proof. rewrite commit_body_ka. destruct (commit_body0_frame o s) as [E _]. rewrite E. reflexivity. Qed.

Lemma presume_closing body s :
  (forall x, presume (body x) = presume x) ->
  presume (if negb (valid s) then s else if pending s then set_valid false s else body (agg_cancel s)) = presume s.
Proof. intros Hb. apply closing_cases; intros; [reflexivity|reflexivity|]. rewrite Hb. apply presume_agg_cancel. Qed.

Lemma presume_step s e k :
  In k (presume (step s e)) -> In k (presume s) \/ e = EInsert k \/ e = EMark k.
Proof.
  destruct e; simpl; intros H; auto.
  - destruct H as [H|H]; [subst; auto|auto].
  - destruct H as [H|H]; [subst; auto|auto].
  - destruct (findk k0 (written s)); auto. simpl in H. apply minus_In in H. tauto.
  - left. eapply ple_lock_keys. exact H.
  - rewrite presume_agg_start in H. auto.
  - rewrite presume_agg_retry in H. auto.
  - rewrite presume_agg_cancel in H. auto.
  - left. eapply ple_agg_done. exact H.
  - left. unfold commit in H. rewrite (presume_closing _ s (presume_commit_body o)) in H. exact H.
  - left. rewrite rollback_nolost in H. unfold rollback_l in H. rewrite (presume_closing _ s (presume_rollback_body_l [])) in H. exact H.
  - left. unfold rollback_l in H. rewrite (presume_closing _ s (presume_rollback_body_l lost)) in H. exact H.
  - left. revert H. unfold run_nth. destruct (nth_error (tasks s) n); auto.
  - left. revert H. unfold run_some. destruct (nth_error (tasks s) n); auto.
Qed.

Lemma presume_run s evs k :
  In k (presume (run s evs)) -> In k (presume s) \/ In (EInsert k) evs \/ In (EMark k) evs.
Proof.
  revert s. induction evs as [|e r IH]; simpl; intros s H; auto.
  destruct (IH _ H) as [H1|[H1|H1]]; auto.
  destruct (presume_step _ _ _ H1) as [H2|[H2|H2]]; auto.
Qed.

Lemma entry_of_tracked s k e : entry_of s k = Some e -> in_cur s k = true \/ in_prev s k = true.
Proof.
  unfold entry_of, in_cur, in_prev. destruct (agg s) as [a|]; [|discriminate].
  destruct (findk k (cur a)) eqn:E1.
  - intros _. left. apply memk_In. eapply findk_keys; eauto.
  - intros E2. right. apply memk_In. eapply findk_keys; eauto.
Qed.

Lemma early_exists_key s ks :
  early_exists s ks = true ->
  pess s = true /\
  exists k, In k ks /\ In k (presume s) /\ (In k (flags s) \/ in_cur s k = true \/ in_prev s k = true).
Proof.
  unfold early_exists. intros H. apply andb_true_iff in H. destruct H as [Hp H]. split; auto.
  apply existsb_exists in H. destruct H as (k & Hk & H). apply andb_true_iff in H. destruct H as [H1 H2].
  exists k. split; auto. split; [apply memk_In; auto|].
  destruct (entry_of s k) as [e|] eqn:Ee.
  - right. eapply entry_of_tracked; eauto.
  - left. apply andb_true_iff in H2. destruct H2 as [H2 _]. apply memk_In. auto.
Qed.

Lemma early_exists_sends_nothing ks rv ce loie f o s :
  early_exists (exit_agg ks s) ks = true ->
  lock_keys_full ks rv ce loie f o s = (exit_agg ks s, []).
Proof.
  intros H. unfold lock_keys_full. rewrite H.
  destruct (early_exists_key _ _ H) as [Hp _]. rewrite Hp. reflexivity.
Qed.

(* a call naming no key that carries the insert flags cannot fail early *)
Lemma early_exists_false_on_fresh s ks :
  (forall k, In k ks -> ~ In k (presume s)) -> early_exists s ks = false.
Proof.
  intros H. unfold early_exists. destruct (pess s); auto. simpl.
  apply not_true_is_false. intros E. apply existsb_exists in E. destruct E as (k & Hk & E).
  apply andb_true_iff in E. destruct E as [E _]. apply memk_In in E. exact (H k Hk E).
Qed.

Lemma early_key_exists_meaning p evs ks :
  let s := run (init p) evs in
  let s1 := exit_agg ks s in
  early_exists s1 ks = true ->
  (forall rv ce loie f o, lock_keys_full ks rv ce loie f o s = (s1, [])) /\
  exists k, In k ks /\ (In (EInsert k) evs \/ In (EMark k) evs) /\
            (In k (flags s1) \/ in_cur s1 k = true \/ in_prev s1 k = true).
Proof.
  intros s s1 H. split; [intros; apply early_exists_sends_nothing; exact H|].
  destruct (early_exists_key _ _ H) as (_ & k & Hk & Hpr & Htr).
  exists k. split; auto. split; auto.
  apply (ple_exit_agg ks s) in Hpr. apply presume_run in Hpr. simpl in Hpr. tauto.
Qed.

Lemma no_insert_no_early p evs ks :
  (forall k, In k ks -> ~ In (EInsert k) evs /\ ~ In (EMark k) evs) ->
  early_exists (exit_agg ks (run (init p) evs)) ks = false.
Proof.
  intros H. apply early_exists_false_on_fresh. intros k Hk Hpr.
  apply (ple_exit_agg ks _) in Hpr. apply presume_run in Hpr. simpl in Hpr.
  destruct (H k Hk). tauto.
Qed.
