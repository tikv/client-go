(* Locks/ProofsPrim.v — the committer's primary key is always a key the client tracks as locked
   (flagged, or a current aggressive-locking key of the attempt that chose it): no "ghost" primary *)
From Coq Require Import List NArith ZArith Bool Lia.
From Verif Require Import Locks.Model Locks.ProofsBase Locks.ProofsOps Locks.ProofsInv Locks.ProofsCommit Locks.ProofsLock Locks.ProofsKA.
Import ListNotations.
Open Scope N_scope.

Arguments N.max : simpl never.
Arguments N.eqb : simpl never.
Arguments N.ltb : simpl never.
Arguments N.leb : simpl never.
Arguments dedup_sort : simpl never.
Arguments len : simpl never.

Definition tracked (s : st) (p : key) : Prop :=
  In p (flags s) \/ exists a, agg s = Some a /\ aprim a = true /\ In p (keys_of (cur a)).
Definition prim_ok (s : st) : Prop := forall p, primary s = Some p -> tracked s p.

Lemma keys_cons_delk {A} k (e : A) c x : In x (keys_of c) -> In x (keys_of ((k, e) :: delk k c)).
Proof. intros H. simpl. destruct (N.eq_dec k x) as [E|E]; [auto|]. right. apply keys_delk. auto. Qed.

Lemma cur_add_keys E kp c x : In x (keys_of c) \/ In x kp -> In x (keys_of (cur_add E kp c)).
Proof.
  unfold cur_add. revert c. induction kp as [|k r IH]; simpl; intros c H.
  - tauto.
  - apply IH. destruct H as [H|[H|H]]; [left; apply keys_cons_delk; auto | left; subst; simpl; auto | right; auto].
Qed.

(* the filter only adds current keys, and every key it does not ask for has become one *)
Lemma filter_agg_cur a rv ce f ex cs ks a' rk err :
  filter_agg a rv ce f ex cs ks = (a', rk, err) ->
  (forall x, In x (keys_of (cur a)) -> In x (keys_of (cur a'))) /\
  (err = false -> forall x, In x ks -> In x rk \/ In x (keys_of (cur a'))).
Proof.
  intros H.
  cut ((forall x, In x (keys_of (cur a)) -> In x (keys_of (cur (fst (fst (a', rk, err)))))) /\
       (snd (a', rk, err) = false -> forall x, In x ks -> In x (snd (fst (a', rk, err))) \/ In x (keys_of (cur (fst (fst (a', rk, err))))))); [auto|].
  rewrite <- H.
  apply (filter_agg_cases rv ce f ex cs (fun a ks res =>
           (forall x, In x (keys_of (cur a)) -> In x (keys_of (cur (fst (fst res))))) /\
           (snd res = false -> forall x, In x ks -> In x (snd (fst res)) \/ In x (keys_of (cur (fst (fst res))))))); simpl.
  - intros a0. split; [auto|intros _ x []].
  - intros a0 k r e _ _. split; [auto|discriminate].
  - intros a0 k r e e' res _ _ _ [H1 H2]. split.
    + intros x Hx. apply H1. apply (keys_cons_delk k e'). exact Hx.
    + intros He x [->|Hx]; [right; apply H1; simpl; auto|auto].
  - intros a0 k r a2 ks' err' [H1 H2]. split; [exact H1|].
    intros He x [->|Hx]; [left; auto|]. destruct (H2 He x Hx); auto.
Qed.

(* what a successful request and the final loop do to the flags and the current aggressive-locking keys *)
Lemma core_ok all rk assigned rv ce loie f o s :
  lo_res o = None ->
  let s' := lock_rpc_core all rk assigned rv ce loie f o s in
  match agg s with
  | None => agg s' = None /\ flags s' = flags s ++ kept loie (lo_absent o) rk
  | Some a => flags s' = flags s /\ exists a', agg s' = Some a' /\ aprim a' = aprim a /\
                cur a' = cur_add (fun k => mkE rv ce (eff_lwc s rk o) (ex_of true rv ce (eff_lwc s rk o) (lo_absent o) k)) (kept loie (lo_absent o) rk) (cur a)
  end.
Proof.
  intros Hr. cbv zeta. rewrite lock_rpc_core_ok by exact Hr. unfold finish_lock, pre_finish. cbn [agg].
  destruct (agg s); simpl; auto. split; auto. eexists. split; [reflexivity|]. simpl. auto.
Qed.

Lemma primary_lock_rpc all rk assigned rv ce loie f o s :
  primary (lock_rpc all rk assigned rv ce loie f o s) = primary_after assigned loie o (primary s).
Proof. pose proof (kv_lock_rpc all rk assigned rv ce loie f o s) as H. unfold kv in H. congruence. Qed.

(* the call did not choose the primary *)
Lemma prim_rpc_keep all rk rv ce loie f o s :
  (forall p, primary s = Some p ->
     In p (flags s) \/ exists a, agg s = Some a /\ aprim a = true /\ In p (keys_of (cur a)) /\ ~ In p all) ->
  prim_ok (lock_rpc all rk false rv ce loie f o s).
Proof.
  intros H p Hp.
  assert (Hpr : primary (lock_rpc all rk false rv ce loie f o s) = primary s).
  { rewrite primary_lock_rpc. unfold primary_after. destruct (lo_res o); reflexivity. }
  rewrite Hpr in Hp. unfold tracked, lock_rpc. cbn [flags agg set_ka].
  destruct (lo_res o) as [e|] eqn:Er.
  - rewrite (lock_rpc_core_fail _ _ _ _ _ _ _ _ _ e Er). cbn [flags agg].
    destruct (H p Hp) as [Hin|(a & Ea & Eap & Hin & Hn)]; [left; exact Hin|right].
    rewrite Ea. cbn [option_map]. eexists. split; [reflexivity|].
    destruct (many rk || may_be_locked e); cbn [aprim cur a_cur a_maxc]; split; auto. apply keys_filter_notin; auto.
  - pose proof (core_ok all rk false rv ce loie f o s Er) as Hok. cbv zeta in Hok.
    destruct (H p Hp) as [Hin|(a & Ea & Eap & Hin & Hn)].
    + left. destruct (agg s); [destruct Hok as [Hf _]; rewrite Hf; auto|destruct Hok as [_ Hf]; rewrite Hf; apply in_or_app; auto].
    + right. rewrite Ea in Hok. destruct Hok as (_ & a' & Ea' & Eap' & Ec). exists a'. rewrite Ec.
      repeat split; auto; try congruence. apply cur_add_keys. auto.
Qed.

(* the call chose the primary [pk] *)
Lemma prim_rpc_assigned all rk rv ce loie f o s pk :
  primary s = Some pk ->
  (forall a, agg s = Some a -> aprim a = true) ->
  (In pk rk \/ exists a, agg s = Some a /\ In pk (keys_of (cur a))) ->
  prim_ok (lock_rpc all rk true rv ce loie f o s).
Proof.
  intros Hpk Hap Hin p Hp. rewrite primary_lock_rpc, Hpk in Hp. unfold primary_after in Hp.
  destruct (lo_res o) as [e|] eqn:Er; [discriminate|].
  assert (Hk : p = pk /\ (loie = true -> ~ In pk (lo_absent o))).
  { simpl in Hp. destruct loie; simpl in Hp.
    - destruct (memk pk (lo_absent o)) eqn:Em; [discriminate|]. inversion Hp; subst. split; auto. intros _. apply memk_false; auto.
    - inversion Hp; subst. split; auto. discriminate. }
  destruct Hk as [-> Hab]. unfold tracked, lock_rpc. cbn [flags agg set_ka].
  pose proof (core_ok all rk true rv ce loie f o s Er) as Hok. cbv zeta in Hok.
  destruct (agg s) as [a|] eqn:Ea.
  - right. destruct Hok as (_ & a' & Ea' & Eap' & Ec). exists a'. rewrite Ec. repeat split; auto.
    + rewrite Eap'. apply Hap; auto.
    + apply cur_add_keys. destruct Hin as [Hin|(a0 & Ea0 & Hin)].
      * right. apply kept_In. auto.
      * left. congruence.
  - left. destruct Hok as [_ Hf]. rewrite Hf. apply in_or_app. right. apply kept_In.
    destruct Hin as [Hin|(a0 & Ea0 & _)]; [auto|discriminate].
Qed.

Lemma in_cur_keys s a x : agg s = Some a -> In x (keys_of (cur a)) -> in_cur s x = true.
Proof. intros Ha H. unfold in_cur. rewrite Ha. apply memk_In. auto. Qed.

(* the filter run after [prep] under the ts contract: no stale ts; the attempt keeps its primary flag and its current keys;
   every key of the call is asked for or has become a current key *)
Lemma prep_filter_facts keys f s a rv ce ex cs a' rk err :
  (forall a k e', agg s = Some a -> findk k (prev a) = Some e' -> e_lwc e' <= f) ->
  agg (prep keys f s) = Some a -> filter_agg a rv ce f ex cs keys = (a', rk, err) ->
  err = false /\ aprim a' = aprim a /\ (forall x, In x (keys_of (cur a)) -> In x (keys_of (cur a'))) /\
  (forall x, In x keys -> In x rk \/ In x (keys_of (cur a'))).
Proof.
  intros Hts Ha Ef. assert (err = false) by (eapply prep_filter_noerr; eauto). subst err.
  destruct (filter_agg_cur _ _ _ _ _ _ _ _ _ _ Ef) as [Hcur Hcov]. pose proof (filter_agg_flags _ _ _ _ _ _ _ _ _ _ Ef) as Hfl.
  repeat split; auto. unfold aflags in Hfl. congruence.
Qed.

Lemma prim_lock_pess keys rv ce loie f o s :
  prim_ok s -> keys <> [] ->
  (forall x, In x keys -> in_cur s x = false) ->
  (forall a k e', agg s = Some a -> findk k (prev a) = Some e' -> e_lwc e' <= f) ->
  prim_ok (fst (lock_pess keys rv ce loie f o s)).
Proof.
  intros Hok Hne Hnc Hts. destruct (primary s) as [p|] eqn:Epr.
  - (* the primary was chosen earlier and stays: it is flagged, or a current key of the attempt and not a key of the call *)
    assert (F : flags (prep keys f s) = flags s /\ primary (prep keys f s) = Some p /\ agg (prep keys f s) = agg s)
      by (rewrite prep_eq, Epr; auto).
    destruct F as (Ffl & Fp & Fa).
    apply (lock_pess_cases keys rv ce loie f o s (fun r => prim_ok (fst r)) _ _ eq_refl eq_refl); cbn [fst]; rewrite Epr.
    + intros Ha. apply prim_rpc_keep. intros q Hq. left. rewrite Fp in Hq. injection Hq as <-. rewrite Ffl.
      destruct (Hok p Epr) as [Hin|(b & Eb & _)]; [exact Hin|congruence].
    + intros a a' rk err Ha Ef. destruct (prep_filter_facts _ _ _ _ _ _ _ _ _ _ _ Hts Ha Ef) as (-> & Hap & Hcur & _).
      assert (T : In p (flags s) \/ (aprim a' = true /\ In p (keys_of (cur a')) /\ ~ In p keys)).
      { destruct (Hok p Epr) as [Hin|(b & Eb & Hb & Hin)]; [left; exact Hin|right].
        assert (b = a) by congruence. subst b. repeat split; [congruence|auto|].
        intros Hk. pose proof (Hnc p Hk) as Hc. unfold in_cur in Hc. rewrite Eb in Hc. apply memk_false in Hc. contradiction. }
      split.
      * intros _ q Hq. cbn [primary set_agg] in Hq. rewrite Fp in Hq. injection Hq as <-. unfold tracked. cbn [flags agg set_agg]. rewrite Ffl.
        destruct T as [T|(T1 & T2 & _)]; [left; exact T|right; exists a'; auto].
      * intros _ _. rewrite ka_reset_if. apply prim_rpc_keep. cbn [primary flags agg set_ka set_agg]. intros q Hq.
        rewrite Fp in Hq. injection Hq as <-. rewrite Ffl. destruct T as [T|(T1 & T2 & T3)]; [left; exact T|right; exists a'; auto].
  - (* the call chooses the primary among its keys: the key is requested, or the filter made it a current key *)
    destruct (pick_primary_In keys (agg s) Hne) as (q0 & Eq & Hq0).
    assert (F : primary (prep keys f s) = Some q0 /\ agg (prep keys f s) = option_map (a_prim true (Some q0)) (agg s))
      by (rewrite prep_eq, Epr; cbn [primary agg set_fu set_agg set_primary]; rewrite Eq; auto).
    destruct F as (Fp & Fa).
    apply (lock_pess_cases keys rv ce loie f o s (fun r => prim_ok (fst r)) _ _ eq_refl eq_refl); cbn [fst]; rewrite Epr.
    + intros Ha. apply (prim_rpc_assigned _ _ _ _ _ _ _ _ q0); auto. intros b Hb. congruence.
    + intros a a' rk err Ha Ef. destruct (prep_filter_facts _ _ _ _ _ _ _ _ _ _ _ Hts Ha Ef) as (-> & Hap & _ & Hcov).
      assert (Hap' : aprim a' = true).
      { rewrite Hap. rewrite Ha in Fa. destruct (agg s); [injection Fa as ->; reflexivity|discriminate]. }
      split.
      * intros [E|E]; [discriminate|subst rk]. intros q Hq. cbn [primary set_agg] in Hq. rewrite Fp in Hq. injection Hq as <-.
        right. exists a'. cbn [agg set_agg]. repeat split; auto. destruct (Hcov q0 Hq0) as [[]|H]; exact H.
      * intros _ _. rewrite ka_reset_if. apply (prim_rpc_assigned _ _ _ _ _ _ _ _ q0); cbn [primary agg set_ka set_agg]; auto.
        -- intros b Eb. congruence.
        -- destruct (Hcov q0 Hq0) as [H|H]; [left; exact H|right; exists a'; auto].
Qed.

Lemma prim_agg_done s : prim_ok s -> prim_ok (agg_done s).
Proof.
  intros Hok. destruct (agg s) as [a|] eqn:Ea; [rewrite (agg_done_eq s a Ea)|unfold agg_done; rewrite Ea; exact Hok].
  intros p Hp. left. cbn [primary flags] in *. apply in_or_app.
  destruct (Hok p Hp) as [Hin|(b & Eb & _ & Hin)]; [left; exact Hin|right; congruence].
Qed.

Lemma prim_agg_start s : prim_ok s -> prim_ok (agg_start s).
Proof.
  intros Hok. unfold agg_start. destruct (agg s) as [a|] eqn:Ea; [exact Hok|].
  intros p Hp. destruct (Hok p Hp) as [Hin|(b & Eb & _)]; [left; exact Hin|congruence].
Qed.

(* giving the primary up: afterwards there is none, unless the attempt had not chosen it *)
Lemma prim_agg_retry s : prim_ok s -> prim_ok (agg_retry s).
Proof.
  intros Hok. destruct (agg s) as [a|] eqn:Ea; [rewrite (agg_retry_eq s a Ea)|unfold agg_retry; rewrite Ea; exact Hok].
  intros p Hp. cbn [primary] in Hp. destruct (aprim a) eqn:Eap; [discriminate|].
  destruct (Hok p Hp) as [Hin|(b & Eb & Hb & _)]; [left; exact Hin|congruence].
Qed.

Lemma prim_agg_cancel s : prim_ok s -> prim_ok (agg_cancel s).
Proof.
  intros Hok. destruct (agg s) as [a|] eqn:Ea; [rewrite (agg_cancel_eq s a Ea)|unfold agg_cancel; rewrite Ea; exact Hok].
  intros p Hp. cbn [primary] in Hp. destruct (aprim a) eqn:Eap; [discriminate|]. destruct (alastprim a); [discriminate|].
  destruct (Hok p Hp) as [Hin|(b & Eb & Hb & _)]; [left; exact Hin|congruence].
Qed.

Lemma prim_same s s' :
  primary s' = primary s -> flags s' = flags s -> agg s' = agg s -> prim_ok s -> prim_ok s'.
Proof.
  intros H1 H2 H3 Hok p Hp. rewrite H1 in Hp. unfold tracked. rewrite H2, H3. apply Hok. exact Hp.
Qed.

Lemma prim_rollback_body_l lost s : prim_ok s -> prim_ok (rollback_body_l lost s).
Proof. rewrite (rollback_body_l_eq lost s _ _ eq_refl eq_refl). apply prim_same; reflexivity. Qed.

Lemma prim_commit_body o s : prim_ok s -> prim_ok (commit_body o s).
Proof.
  rewrite commit_body_ka. destruct (commit_body0_frame o s) as [E _]. rewrite E. apply prim_same; reflexivity.
Qed.

Lemma prim_finish_lock rk rv ce loie absent lwc hv s : prim_ok s -> prim_ok (finish_lock rk rv ce loie absent lwc hv s).
Proof.
  intros Hok p Hp. unfold finish_lock in *. unfold tracked.
  destruct (agg s) as [a|] eqn:Ea; simpl in *; destruct (Hok p Hp) as [Hin|(b & Eb & Hb & Hin)].
  - left. exact Hin.
  - right. rewrite Ea in Eb. injection Eb as <-. eexists. split; [reflexivity|]. simpl. split; auto.
    apply (cur_add_keys (fun k => mkE rv ce lwc (ex_of hv rv ce lwc absent k))). auto.
  - left. apply in_or_app; auto.
  - congruence.
Qed.

Lemma prim_lock_keys ks rv ce loie f o s :
  prim_ok s -> ts_contract s (ELock ks rv ce loie f o) -> prim_ok (lock_keys ks rv ce loie f o s).
Proof.
  intros H Hts. unfold lock_keys.
  assert (H1 : prim_ok (exit_agg ks s)).
  { unfold exit_agg. destruct (agg s); auto. destruct (many ks); auto. apply prim_agg_done. auto. }
  apply (lock_keys_full_cases ks rv ce loie f o s (fun r => prim_ok (fst r)) _ _ eq_refl eq_refl); cbn [fst]; auto.
  - intros Hne _ _ _. apply prim_lock_pess; auto.
    + apply dedup_sort_nonempty. exact Hne.
    + intros x Hx. apply need_lock_not_cur. apply need_keys_In in Hx. tauto.
  - intros _ _. apply prim_finish_lock. exact H1.
Qed.

Lemma prim_closing body s :
  (forall x, prim_ok x -> prim_ok (body x)) -> prim_ok s ->
  prim_ok (if negb (valid s) then s else if pending s then set_valid false s else body (agg_cancel s)).
Proof.
  intros Hb H. apply closing_cases; intros; [exact H|revert H; apply prim_same; reflexivity|apply Hb, prim_agg_cancel, H].
Qed.

Lemma prim_step s e : prim_ok s -> ts_contract s e -> prim_ok (step s e).
Proof.
  intros H Ht. destruct e; simpl.
  1-4: revert H; apply prim_same; reflexivity.
  - destruct (findk k (written s)); auto; revert H; apply prim_same; reflexivity.
  - apply prim_lock_keys; auto.
  - apply prim_agg_start; auto.
  - apply prim_agg_retry; auto.
  - apply prim_agg_cancel; auto.
  - apply prim_agg_done; auto.
  - exact (prim_closing _ s (prim_commit_body o) H).
  - rewrite rollback_nolost. exact (prim_closing _ s (prim_rollback_body_l []) H).
  - exact (prim_closing _ s (prim_rollback_body_l lost) H).
  - unfold run_nth. destruct (nth_error (tasks s) n); auto; revert H; apply prim_same; reflexivity.
  - unfold run_some. destruct (nth_error (tasks s) n); auto; revert H; apply prim_same; reflexivity.
Qed.

(* only the [ts_contract] half of the contract is used *)
Lemma prim_run s evs : prim_ok s -> wf_run_ts s evs -> prim_ok (run s evs).
Proof.
  exact (run_invariant prim_ok ts_contract wf_run_ts (fun _ _ _ H => conj (proj2 (proj1 H)) (proj2 H)) prim_step s evs).
Qed.

Lemma prim_ok_init p : prim_ok (init p).
Proof. intros q Hq. discriminate. Qed.
