(* Locks/ProofsLock.v — the two halves of a LockKeys call that touch the bookkeeping, the request and the final loop,
   preserve the bookkeeping invariant *)
From Coq Require Import List NArith ZArith Bool Lia.
From Verif Require Import Locks.Model Locks.ProofsBase Locks.ProofsOps Locks.ProofsInv.
Import ListNotations.
Open Scope N_scope.

Arguments N.max : simpl never.
Arguments N.leb : simpl never.
Arguments N.ltb : simpl never.
Arguments N.eqb : simpl never.
Arguments dedup_sort : simpl never.
Arguments len : simpl never.
Arguments cur_add : simpl never.

Lemma set_agg_same s a : agg s = Some a -> set_agg (Some a) s = s.
Proof. destruct s; simpl; intros; subst; reflexivity. Qed.

Lemma kept_In loie absent rk k : In k (kept loie absent rk) <-> In k rk /\ (loie = true -> ~ In k absent).
Proof.
  unfold kept. destruct loie.
  - rewrite minus_In. intuition.
  - intuition discriminate.
Qed.

Lemma kept_len loie absent rk : (len (kept loie absent rk) <= len rk)%Z.
Proof.
  unfold kept, minus, len. destruct loie; [|lia].
  pose proof (length_filter_le (fun k => negb (memk k absent)) rk). lia.
Qed.

Lemma in_cur_findk s a k : agg s = Some a -> in_cur s k = false -> findk k (cur a) = None.
Proof.
  unfold in_cur. intros Ha H. rewrite Ha in H. apply findk_none. apply memk_false; auto.
Qed.

(* the final loop keeps the invariant: a recorded key that was covered as a key of the attempt is covered as a current key *)
Lemma finish_lock_Inv rk rv ce loie absent lwc hv s :
  Inv s -> (forall a, agg s = Some a -> lwc <= amaxc a) -> Inv (finish_lock rk rv ce loie absent lwc hv s).
Proof.
  intros (HI & HL & HC) Hla. unfold finish_lock. set (kp := kept loie absent rk) in *.
  destruct (agg s) as [a|] eqn:Ea.
  - set (E := fun k => mkE rv ce lwc (ex_of hv rv ce lwc absent k)).
    change (fold_left _ kp (cur a)) with (cur_add E kp (cur a)). fold (prev_del kp (prev a)).
    assert (Hold : forall k f', agg_cov s k f' ->
             agg_cov (set_agg (Some (a_prev (prev_del kp (prev a)) (a_cur (cur_add E kp (cur a)) a))) s) k f').
    { intros k f' (a0 & e & Ha0 & Hf & Hle). rewrite Ea in Ha0. inversion Ha0; subst a0.
      destruct (memk k kp) eqn:Em.
      - eexists. exists (E k). split; [reflexivity|]. simpl. split; auto.
        left. rewrite cur_add_find, Em. auto.
      - eexists. exists e. split; [reflexivity|]. simpl. split; auto.
        rewrite cur_add_find, prev_del_find, Em. auto. }
    split; [|split].
    + intros p Hp. simpl in Hp. destruct (HI p Hp) as [[B Hc]|(t & T1 & T2)]; [|right; exists t; auto].
      left. split; [exact B|]. simpl. destruct (snd p) as [f'|]; auto.
      destruct Hc as [Hc|Hc]; [left; auto|]. right. apply Hold. exact Hc.
    + intros a' k e Ha' Hin. simpl in Ha'. inversion Ha'; subst a'. simpl in *.
      apply in_app_or in Hin. destruct Hin as [Hin|Hin].
      * apply cur_add_In in Hin. simpl in Hin. destruct Hin as [Hin|Hin].
        -- subst e. simpl. auto.
        -- apply (HL a k e Ea). apply in_or_app; auto.
      * apply prev_del_In in Hin. apply (HL a k e Ea). apply in_or_app; auto.
    + unfold cnt_ok, agg_len in *. simpl. rewrite Ea in HC.
      pose proof (cur_add_length E kp (cur a)). pose proof (prev_del_length kp (prev a)). unfold len in *. lia.
  - split; [|split].
    + intros p Hp. simpl in Hp. destruct (HI p Hp) as [[B Hc]|(t & T1 & T2)]; [|right; exists t; auto].
      left. split; [exact B|]. simpl. destruct (snd p) as [f'|]; auto.
      destruct Hc as [[H1 H2]|(a0 & e & Ha0 & _ & _)]; [|congruence]. left. split; auto. apply in_or_app; auto.
    + intros a k e Ha. simpl in Ha. congruence.
    + unfold cnt_ok, agg_len in *. simpl. rewrite Ea in *. rewrite len_app. lia.
Qed.

(* and every key it records is then covered up to max(for-update ts, conflict ts of the call) *)
Lemma finish_lock_covers rk rv ce loie absent lwc hv s k f' :
  book_ok s -> In k (kept loie absent rk) -> f' <= N.max (fu s) lwc ->
  (agg s = None -> lwc = 0) -> (forall a, agg s = Some a -> lwc <= amaxc a) ->
  covered (finish_lock rk rv ce loie absent lwc hv s) (k, Pess f').
Proof.
  intros B Hk Hle Hl0 Hla. left. unfold finish_lock. destruct (agg s) as [a|] eqn:Ea; (split; [exact B|]); simpl.
  - right. set (E := fun k => mkE rv ce lwc (ex_of hv rv ce lwc absent k)). eexists. exists (E k). split; [reflexivity|]. simpl.
    pose proof (cur_add_find E (kept loie absent rk) (cur a) k) as Hf. apply memk_In in Hk. rewrite Hk in Hf.
    split; [left; exact Hf|]. pose proof (Hla a eq_refl). lia.
  - left. split; [apply in_or_app; auto|]. rewrite (Hl0 eq_refl) in Hle. lia.
Qed.

Lemma finish_lock_store rk rv ce loie absent lwc hv x s :
  finish_lock rk rv ce loie absent lwc hv (set_store x s) = set_store x (finish_lock rk rv ce loie absent lwc hv s).
Proof. unfold finish_lock. cbn [agg set_store]. destruct (agg s); reflexivity. Qed.

Lemma store_finish_lock rk rv ce loie absent lwc hv s : store (finish_lock rk rv ce loie absent lwc hv s) = store s.
Proof. unfold finish_lock. destruct (agg s); reflexivity. Qed.

(* a state whose store is an older one plus locks at [lf] on keys that are covered at that ts *)
Lemma Inv_put_locks s lf ks st0 :
  store s = fold_right (put_pess lf) st0 ks -> Inv (set_store st0 s) -> (forall k, In k ks -> covered s (k, Pess lf)) -> Inv s.
Proof.
  intros Es (HI & HL & HC) Hks. split; [|split]; [|exact HL|exact HC].
  intros p Hp. rewrite Es in Hp. apply fold_put_pess_In in Hp. destruct Hp as [[H1 H2]|Hp]; [|exact (HI p Hp)].
  destruct p as [k l]. simpl in *. subst l. exact (Hks k H1).
Qed.

Lemma hard_single_false rk o e :
  lo_res o = Some e -> (many rk || may_be_locked e) = false -> hard_single rk o = true.
Proof.
  intros Hr Hb. apply orb_false_iff in Hb. destruct Hb as [H1 H2].
  unfold hard_single. rewrite Hr, H1, H2. reflexivity.
Qed.

Lemma eff_locked_In rk loie o k :
  In k (eff_locked rk loie o) -> In k rk /\ (loie = true -> ~ In k (lo_absent o)).
Proof.
  unfold eff_locked. destruct (hard_single rk o); [intros []|].
  intros H. apply filter_In in H. destruct H as [_ H]. apply andb_true_iff in H. destruct H as [H1 H2].
  apply memk_In in H1. split; auto. intros ->. simpl in H2. apply negb_true_iff, memk_false in H2. auto.
Qed.

(* The keys of the request are not current keys of the attempt (the caller filtered them out).  Either way the request is
   a step of the bookkeeping with the store left alone, then the store's writes: a failing request leaves what it locked to
   the rollback it schedules, a successful one records it in the final loop. *)
Lemma lock_rpc_core_Inv rk assigned rv ce loie f o s :
  Inv s -> book_ok s -> fu s = f -> (forall k, In k rk -> in_cur s k = false) ->
  Inv (lock_rpc_core rk rk assigned rv ce loie f o s).
Proof.
  intros HInv B Hf Hnc. pose proof HInv as (_ & HL & _). set (w := eff_lwc s rk o).
  assert (Hw0 : agg s = None -> w = 0) by (unfold w, eff_lwc; intros ->; reflexivity).
  destruct (lo_res o) as [e|] eqn:Er.
  - rewrite (lock_rpc_core_fail _ _ _ _ _ _ _ _ _ e Er). fold w.
    apply (Inv_put_locks _ (N.max f w) (eff_locked rk loie o) (store s)); [reflexivity| |].
    + unfold set_store. cbn [store flags written presume cnt agg committer primary fu cmaxc tasks valid pess ka fnx]. revert HInv. apply Inv_frame; try reflexivity; cbn [set_store store flags cnt agg committer fu cmaxc tasks valid pess]; auto.
      * destruct (many rk || _); lia.
      * intros t Ht. destruct (many rk || _); [apply in_or_app|]; auto.
      * intros k f' (a & e0 & Ha & Hfd & Hle). unfold agg_cov. cbn [agg fu]. rewrite Ha. cbn [option_map]. eexists. exists e0. split; [reflexivity|]. split.
        -- destruct (many rk || may_be_locked e); cbn [cur prev a_cur a_maxc]; [|exact Hfd].
           destruct Hfd as [Hfd|Hfd]; [left|right; exact Hfd].
           rewrite findk_filter_notin. destruct (memk k rk) eqn:Em; [|exact Hfd].
           apply memk_In in Em. rewrite (in_cur_findk s a _ Ha (Hnc _ Em)) in Hfd. discriminate.
        -- destruct (many rk || may_be_locked e); cbn [amaxc a_cur a_maxc]; lia.
      * intros _ a' k e0 Ha' Hin. cbn [agg] in Ha'. destruct (agg s) as [a|] eqn:Ea; [|discriminate]. injection Ha' as <-.
        assert (Hin0 : In (k, e0) (cur a ++ prev a)).
        { destruct (many rk || _); cbn [cur prev a_cur a_maxc] in Hin; [|exact Hin].
          apply in_app_or in Hin. apply in_or_app. destruct Hin as [Hin|Hin]; [left; apply filter_In in Hin; tauto|right; exact Hin]. }
        pose proof (HL a k e0 Ea Hin0). destruct (many rk || _); cbn [amaxc a_cur a_maxc]; lia.
      * unfold agg_len. cbn [agg]. destruct (agg s) as [a|]; cbn [option_map]; [|lia].
        pose proof (length_filter_le (fun p : N * entry => negb (memk (fst p) rk)) (cur a)).
        destruct (many rk || _); cbn [cur prev a_cur a_maxc]; unfold len in *; lia.
    + intros k Hk. right. destruct (many rk || may_be_locked e) eqn:Eb.
      * exists (TPessRb rk (N.max f w)). split; [cbn [tasks]; apply in_or_app; simpl; auto|].
        apply releases_pessrb; [|lia]. apply eff_locked_In in Hk. tauto.
      * unfold eff_locked in Hk. rewrite (hard_single_false rk o e Er Eb) in Hk. destruct Hk.
  - rewrite lock_rpc_core_ok by exact Er. fold w.
    assert (Hw2 : forall a', agg (pre_finish rk assigned loie f o s) = Some a' -> w <= amaxc a').
    { intros a' Ha'. cbn [agg pre_finish] in Ha'. destruct (agg s) as [a|]; [|discriminate]. injection Ha' as <-. cbn [amaxc a_maxc]. lia. }
    apply (Inv_put_locks _ (N.max f w) (eff_locked rk loie o) (store s)); [rewrite store_finish_lock; reflexivity|rewrite <- finish_lock_store; apply finish_lock_Inv; [|exact Hw2]|].
    + revert HInv. apply Inv_frame; try reflexivity; auto.
      * intros k f' (a & e0 & Ha & Hfd & Hle). unfold agg_cov. cbn [agg fu set_store pre_finish]. rewrite Ha. cbn [option_map].
        exists (a_maxc (N.max (amaxc a) w) a), e0. repeat split; auto. cbn [amaxc a_maxc]. lia.
      * intros _ a' k e0 Ha' Hin. cbn [agg set_store pre_finish] in Ha'. destruct (agg s) as [a|] eqn:Ea; [|discriminate]. injection Ha' as <-.
        pose proof (HL a k e0 Ea Hin). cbn [amaxc a_maxc]. lia.
      * unfold agg_len. cbn [agg set_store pre_finish]. destruct (agg s); cbn [option_map cur prev a_maxc]; lia.
    + intros k Hk. apply eff_locked_In in Hk. apply finish_lock_covers; [exact B|apply kept_In; exact Hk|cbn [fu pre_finish]; lia| |exact Hw2].
      cbn [agg pre_finish]. destruct (agg s) eqn:Ea; [discriminate|intros _; apply Hw0; reflexivity].
Qed.

Lemma lock_rpc_Inv rk assigned rv ce loie f o s :
  Inv s -> book_ok s -> fu s = f -> (forall k, In k rk -> in_cur s k = false) ->
  Inv (lock_rpc rk rk assigned rv ce loie f o s).
Proof. intros. unfold lock_rpc. apply Inv_ka. apply lock_rpc_core_Inv; auto. Qed.
