(* Locks/Contract.v — executable form of the extra contract of C06_tracked_keys_hold_locks (evaluated by the model
   driver along every replayed program; soundness w.r.t. the Prop version: ProofsHeldLock.held_contractb_sound) *)
From Coq Require Import List NArith ZArith Bool.
From Verif Require Import Locks.Model.
Import ListNotations.
Open Scope N_scope.

Definition failed (o : lock_out) : bool := match lo_res o with Some _ => true | None => false end.
Definition in_agg (s : st) : bool := match agg s with Some _ => true | None => false end.
(* blocked = a LockKeys call failed inside the running aggressive-locking attempt *)
Definition next_blocked (b : bool) (s : st) (e : ev) : bool :=
  match e with
  | ELock _ _ _ _ _ o => failed o && in_agg (step s e)
  | EAggRetry | EAggCancel | EAggDone | ECommit _ | ERollback | ERollbackLost _ => false
  | _ => b
  end.

(* a fresh for-update ts: positive, greater than the ts of every pending rollback and, inside an aggressive-locking
   attempt, than every ts the attempt used *)
Definition fresh_tsb (s : st) (f : ts) : bool :=
  (0 <? f) &&
  forallb (fun t => match t with TPessRb _ f' => f' <? f | _ => true end) (tasks s) &&
  match agg s with Some a => N.max (fu s) (amaxc a) <? f | None => true end.
(* the store acknowledges a request only if it locked every key of it (or found it absent under lock-only-if-exists) *)
Definition store_okb (rk : list key) (loie : bool) (o : lock_out) : bool :=
  match lo_res o with
  | Some _ => true
  | None => forallb (fun k => memk k (lo_locked o) || (loie && memk k (lo_absent o))) rk
  end.
Definition held_contractb (b : bool) (s : st) (e : ev) : bool :=
  match e with
  | ELock ks rv ce loie f o => negb b && fresh_tsb s f && store_okb (snd (lock_keys_full ks rv ce loie f o s)) loie o
  | _ => true
  end.
