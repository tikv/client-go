(* Locks/ProofsLockAll.v — LockKeys as a whole preserves the invariant; every step does *)
From Coq Require Import List NArith ZArith Bool Lia.
From Verif Require Import Locks.Model Locks.ProofsBase Locks.ProofsOps Locks.ProofsInv Locks.ProofsCommit Locks.ProofsLock Locks.ProofsLockAgg.
Import ListNotations.
Open Scope N_scope.

Arguments N.max : simpl never.
Arguments N.leb : simpl never.
Arguments N.ltb : simpl never.
Arguments N.eqb : simpl never.
Arguments dedup_sort : simpl never.
Arguments len : simpl never.

Definition agg_same (x y : option actx) : Prop :=
  match x, y with
  | None, None => True
  | Some a, Some b => cur b = cur a /\ prev b = prev a /\ amaxc b = amaxc a
  | _, _ => False
  end.

Lemma prep_props keys f s :
  let s4 := prep keys f s in
  store s4 = store s /\ flags s4 = flags s /\ cnt s4 = cnt s /\ tasks s4 = tasks s /\ valid s4 = valid s /\
  pess s4 = pess s /\ cmaxc s4 = cmaxc s /\ fu s4 = f /\ committer s4 = true /\ agg_same (agg s) (agg s4).
Proof.
  cbv zeta. rewrite prep_eq. unfold agg_same. destruct (primary s); destruct (agg s) eqn:Ea; simpl; rewrite ?Ea; repeat split; auto.
Qed.

Lemma Inv_agg_same s s' :
  store s' = store s -> flags s' = flags s -> cnt s' = cnt s -> tasks s' = tasks s -> valid s' = valid s ->
  pess s' = pess s -> cmaxc s' = cmaxc s -> fu s <= fu s' -> (committer s = true -> committer s' = true) ->
  agg_same (agg s) (agg s') -> Inv s -> Inv s'.
Proof.
  intros H1 H2 H3 H4 H5 H6 H7 H8 H9 HA. apply Inv_frame; auto.
  - intros t. rewrite H4. auto.
  - intros k f' (a & e & Ha & Hf & Hle). unfold agg_same in HA. rewrite Ha in HA.
    destruct (agg s') as [b|] eqn:Eb; [|tauto]. destruct HA as (A1 & A2 & A3). exists b, e. rewrite A1, A2, A3.
    repeat split; auto. lia.
  - intros HL b k e Hb Hin. unfold agg_same in HA. rewrite Hb in HA.
    destruct (agg s) as [a|] eqn:Ea; [|tauto]. destruct HA as (A1 & A2 & A3). rewrite A1, A2 in Hin. rewrite A3. eapply HL; eauto.
  - unfold agg_len, agg_same in *. destruct (agg s) as [a|]; destruct (agg s') as [b|]; try tauto; try lia.
    destruct HA as (A1 & A2 & A3). rewrite A1, A2. lia.
Qed.

Lemma Inv_prep keys f s : Inv s -> fu s <= f -> Inv (prep keys f s).
Proof.
  intros HInv Hle. pose proof (prep_props keys f s) as P. cbv zeta in P.
  destruct P as (P1 & P2 & P3 & P4 & P5 & P6 & P7 & P8 & P9 & P10).
  eapply Inv_agg_same; eauto; lia.
Qed.

Lemma lock_pess_Inv keys rv ce loie f o s :
  Inv s -> valid s = true -> pess s = true -> fu s <= f ->
  (forall a, agg s = Some a -> exists k, keys = [k]) -> (forall k, In k keys -> in_cur s k = false) ->
  Inv (fst (lock_pess keys rv ce loie f o s)).
Proof.
  intros HInv Hv Hp Hle Hagg Hnc.
  pose proof (Inv_prep keys f s HInv Hle) as HI4.
  pose proof (prep_props keys f s) as P. cbv zeta in P.
  destruct P as (P1 & P2 & P3 & P4 & P5 & P6 & P7 & P8 & P9 & P10).
  assert (Hr : forall (c : bool) assigned, Inv (lock_rpc keys keys assigned rv ce loie f o
                                                  (if c then ka_reset (prep keys f s) else prep keys f s))).
  { intros c assigned. rewrite ka_reset_if. apply lock_rpc_Inv; auto using Inv_ka.
    - unfold book_ok. cbn [valid pess committer set_ka]. rewrite P5, P6, P9. auto.
    - intros k Hk. specialize (Hnc k Hk). unfold in_cur, agg_same in *. cbn [agg set_ka].
      destruct (agg s); destruct (agg (prep keys f s)); try tauto. destruct P10 as (-> & _). exact Hnc. }
  destruct (agg (prep keys f s)) as [a4|] eqn:E4.
  - unfold agg_same in P10. rewrite ?E4 in P10. destruct (agg s) as [a|] eqn:Ea; [|tauto].
    destruct (Hagg a eq_refl) as (k & ->).
    apply (lock_pess_cases_agg k rv ce loie f o s a4 (fun r => Inv (fst r)) E4); cbn [fst]; auto.
    intros e e' Ep He'. apply skip_Inv with e; auto.
  - apply (lock_pess_cases keys rv ce loie f o s (fun r => Inv (fst r)) _ _ eq_refl eq_refl); cbn [fst]; [|congruence].
    intros _. apply (Hr false).
Qed.

Lemma exit_agg_props ks s :
  Inv s -> let s1 := exit_agg ks s in
  Inv s1 /\ valid s1 = valid s /\ fu s1 = fu s /\ (forall a, agg s1 = Some a -> many ks = false).
Proof.
  intros HInv. unfold exit_agg. destruct (agg s) as [a|] eqn:Ea; simpl.
  - destruct (many ks) eqn:Em.
    + split; [apply Inv_agg_done; auto|]. rewrite (agg_done_eq s a Ea). repeat split; auto. intros a' H; discriminate.
    + split; [exact HInv|]. repeat split; auto.
  - split; [exact HInv|]. repeat split; auto. intros a H. congruence.
Qed.

Lemma Inv_lock_keys ks rv ce loie f o s :
  Inv s -> valid s = true -> fu s <= f ->
  Inv (lock_keys ks rv ce loie f o s).
Proof.
  intros HInv Hv Hle. destruct (exit_agg_props ks s HInv) as (HI1 & Hv1 & Hf1 & Hm1). unfold lock_keys.
  apply (lock_keys_full_cases ks rv ce loie f o s (fun r => Inv (fst r)) _ _ eq_refl eq_refl); cbn [fst]; auto.
  - intros Hne _ Ep _. apply lock_pess_Inv; auto; [congruence|lia| |].
    + intros a Ha. apply need_keys_single; auto. exact (Hm1 a Ha).
    + intros k Hk. apply need_lock_not_cur. apply need_keys_In in Hk. tauto.
  - intros _ _. apply finish_lock_Inv; [exact HI1|]. intros a Ha. lia.
Qed.

Lemma Inv_step s e : Inv s -> wf_ev s e -> Inv (step s e).
Proof.
  intros HInv Hapi. unfold wf_ev in Hapi. destruct e; simpl in *.
  - apply Inv_written; auto.
  - apply Inv_written; auto.
  - apply Inv_presume. apply Inv_written; auto.
  - apply Inv_presume; auto.
  - destruct (findk k (written s)); auto; apply Inv_presume; auto.
  - destruct Hapi. apply Inv_lock_keys; auto.
  - apply Inv_agg_start; auto.
  - apply Inv_agg_retry; auto.
  - apply Inv_agg_cancel; auto.
  - apply Inv_agg_done; auto.
  - apply Inv_commit; auto.
  - apply Inv_rollback; auto.
  - apply Inv_rollback_l; auto.
  - apply Inv_run_nth; auto.
  - apply Inv_run_some; auto.
Qed.

Lemma Inv_run s evs : Inv s -> wf_run s evs -> Inv (run s evs).
Proof. exact (run_invariant Inv wf_ev wf_run (fun _ _ _ H => H) Inv_step s evs). Qed.
