(* Locks/ProofsBase.v — list / association-list / lock-table lemmas for the Locks model *)
From Coq Require Import List NArith ZArith Bool Lia.
From Verif Require Import Locks.Model.
Import ListNotations.
Open Scope N_scope.

Lemma memk_In k l : memk k l = true <-> In k l.
Proof.
  unfold memk. rewrite existsb_exists. split.
  - intros (x & Hx & E). apply N.eqb_eq in E. subst; auto.
  - intros H. exists k. split; auto. apply N.eqb_refl.
Qed.

Lemma memk_false k l : memk k l = false <-> ~ In k l.
Proof.
  rewrite <- memk_In. destruct (memk k l); split; intros H; try congruence; try (intro; congruence).
Qed.

Lemma findk_In {A} k (l : list (key * A)) a : findk k l = Some a -> In (k, a) l.
Proof.
  induction l as [|[k' a'] r IH]; simpl; intros H; try discriminate.
  destruct (N.eqb_spec k k').
  - inversion H; subst; auto.
  - right; auto.
Qed.

Lemma findk_keys {A} k (l : list (key * A)) a : findk k l = Some a -> In k (keys_of l).
Proof. intros H. apply findk_In in H. unfold keys_of. change k with (fst (k, a)). apply in_map; auto. Qed.

Lemma findk_none {A} k (l : list (key * A)) : ~ In k (keys_of l) -> findk k l = None.
Proof.
  induction l as [|[k' a'] r IH]; simpl; intros H; auto.
  destruct (N.eqb_spec k k'); [ subst; exfalso; auto | apply IH; auto ].
Qed.

Lemma In_delk {A} (p : key * A) k l : In p (delk k l) <-> In p l /\ fst p <> k.
Proof.
  unfold delk. rewrite filter_In. split; intros [H1 H2]; split; auto.
  - destruct (N.eqb_spec k (fst p)); simpl in H2; congruence.
  - destruct (N.eqb_spec k (fst p)); simpl; congruence.
Qed.

Lemma keys_delk {A} k (l : list (key * A)) x : In x (keys_of (delk k l)) <-> In x (keys_of l) /\ x <> k.
Proof.
  unfold keys_of. rewrite !in_map_iff. split.
  - intros (y & <- & Hy). apply In_delk in Hy. destruct Hy as [Hy Hne]. split; [exists y; auto|exact Hne].
  - intros [(y & <- & Hy) Hne]. exists y. split; [reflexivity|]. apply In_delk. auto.
Qed.

Lemma findk_delk_eq {A} k (l : list (key * A)) : findk k (delk k l) = None.
Proof.
  apply findk_none. intros H. apply keys_delk in H. destruct H as [_ H]. exact (H eq_refl).
Qed.

Lemma findk_delk_ne {A} k k' (l : list (key * A)) : k <> k' -> findk k' (delk k l) = findk k' l.
Proof.
  intros Hne. induction l as [|[k2 a] r IH]; simpl; auto.
  destruct (N.eqb_spec k k2); simpl.
  - subst. destruct (N.eqb_spec k' k2); [congruence | auto].
  - destruct (N.eqb_spec k' k2); auto.
Qed.

Lemma length_filter_le {A} (f : A -> bool) l : (length (filter f l) <= length l)%nat.
Proof. induction l as [|a l IH]; simpl; [lia|]. destruct (f a); simpl; lia. Qed.

Lemma length_delk {A} k (l : list (key * A)) : (length (delk k l) <= length l)%nat.
Proof. apply length_filter_le. Qed.

Lemma length_delk_lt {A} k (l : list (key * A)) a : findk k l = Some a -> (length (delk k l) < length l)%nat.
Proof.
  unfold delk. induction l as [|[k2 a2] r IH]; simpl; try discriminate.
  destruct (N.eqb_spec k k2); simpl; intros H.
  - pose proof (length_filter_le (fun p : N * A => negb (k =? fst p)) r). lia.
  - apply IH in H. lia.
Qed.

Lemma findk_filter_notin {A} (all : list key) k (l : list (key * A)) :
  findk k (filter (fun p => negb (memk (fst p) all)) l) = if memk k all then None else findk k l.
Proof.
  induction l as [|[k2 a] r IH]; simpl.
  - destruct (memk k all); auto.
  - destruct (memk k2 all) eqn:E2; simpl.
    + rewrite IH. destruct (N.eqb_spec k k2); auto. subst. rewrite E2. auto.
    + rewrite IH. destruct (N.eqb_spec k k2); auto. subst. rewrite E2. auto.
Qed.

Lemma keys_filter_notin {A} (all : list key) (l : list (key * A)) x :
  In x (keys_of (filter (fun p => negb (memk (fst p) all)) l)) <-> In x (keys_of l) /\ ~ In x all.
Proof.
  unfold keys_of. rewrite !in_map_iff. split.
  - intros (y & <- & Hy). apply filter_In in Hy. destruct Hy as [Hy Hn]. apply negb_true_iff, memk_false in Hn.
    split; [exists y; auto|exact Hn].
  - intros [(y & <- & Hy) Hn]. exists y. split; [reflexivity|]. apply filter_In. split; [exact Hy|].
    apply negb_true_iff, memk_false. exact Hn.
Qed.

Lemma insert_sorted_In x k l : In x (insert_sorted k l) <-> x = k \/ In x l.
Proof.
  induction l as [|y r IH]; simpl.
  - intuition.
  - destruct (k <? y); simpl; [intuition|].
    destruct (N.eqb_spec k y); simpl.
    + subst. intuition.
    + rewrite IH. intuition.
Qed.

Lemma dedup_sort_In x l : In x (dedup_sort l) <-> In x l.
Proof.
  unfold dedup_sort. induction l; simpl; [tauto|]. rewrite insert_sorted_In, IHl. intuition.
Qed.

Lemma dedup_sort_single k : dedup_sort [k] = [k].
Proof. reflexivity. Qed.

Lemma minus_In x l r : In x (minus l r) <-> In x l /\ ~ In x r.
Proof. unfold minus. rewrite filter_In. rewrite negb_true_iff, memk_false. tauto. Qed.

Lemma many_false_cases {A} (l : list A) : many l = false -> l = [] \/ exists x, l = [x].
Proof. destruct l as [|x [|y r]]; simpl; intros; try discriminate; eauto. Qed.

Lemma put_pess_In p f k s : In p (put_pess f k s) -> p = (k, Pess f) \/ In p s.
Proof.
  unfold put_pess. destruct (findk k s) as [[f'|]|]; auto.
  - destruct (f' <? f); auto. intros [H|H]; auto. apply In_delk in H. tauto.
  - intros [H|H]; auto.
Qed.

Lemma fold_put_pess_In p f ks s :
  In p (fold_right (put_pess f) s ks) -> (In (fst p) ks /\ snd p = Pess f) \/ In p s.
Proof.
  induction ks as [|k r IH]; simpl; auto.
  intros H. apply put_pess_In in H. destruct H as [H|H].
  - subst. simpl. auto.
  - apply IH in H. tauto.
Qed.

Lemma fold_put_prew_In p ks s :
  In p (fold_right put_prew s ks) -> (snd p = Prew /\ In (fst p) ks) \/ (In p s /\ ~ In (fst p) ks).
Proof.
  induction ks as [|k r IH]; simpl; auto.
  unfold put_prew at 1. intros [H|H].
  - subst. simpl. auto.
  - apply In_delk in H. destruct H as [H Hne]. apply IH in H. destruct H as [[H1 H2]|[H1 H2]]; [left|right]; intuition.
Qed.

Lemma run_task_In p t s : In p (run_task t s) <-> In p s /\ releases t p = false.
Proof. unfold run_task. rewrite filter_In, negb_true_iff. tauto. Qed.

Lemma memk_filter x (g : key -> bool) l : memk x (filter g l) = memk x l && g x.
Proof.
  unfold memk. induction l as [|y l IH]; [reflexivity|]. simpl.
  destruct (g y) eqn:Eg; simpl; rewrite IH; destruct (N.eqb_spec x y) as [->|]; simpl; rewrite ?Eg, ?andb_false_r; reflexivity.
Qed.

Lemma releases_restrict_eq p t l : releases (restrict_task p t) l = releases t l && memk (fst l) p.
Proof.
  destruct t as [ks f|ks|ks]; simpl; destruct (snd l) as [f'|]; rewrite ?memk_filter; try reflexivity.
  destruct (memk (fst l) ks), (memk (fst l) p), (f' <=? f); reflexivity.
Qed.

Lemma In_remove_nth {A} (x : A) n l : In x l -> In x (remove_nth n l) \/ nth_error l n = Some x.
Proof.
  revert n. induction l as [|y r IH]; simpl; intros n H; [tauto|].
  destruct n; simpl.
  - destruct H; [right; congruence | left; auto].
  - destruct H; [left; left; auto|]. destruct (IH n H); auto.
Qed.

Lemma remove_nth_In {A} (x : A) n l : In x (remove_nth n l) -> In x l.
Proof.
  revert n. induction l as [|y r IH]; destruct n; simpl; auto.
  intros [H|H]; eauto.
Qed.

Lemma remove_nth_length {A} n (l : list A) x : nth_error l n = Some x -> length l = S (length (remove_nth n l)).
Proof.
  revert n. induction l as [|y r IH]; destruct n; simpl; intros H; try discriminate; auto.
Qed.

(* fold of the final loop of lockKeys over currentLockedKeys *)
Definition cur_add (E : key -> entry) (kp : list key) (c : list (key * entry)) :=
  fold_left (fun c k => (k, E k) :: delk k c) kp c.

Lemma cur_add_find E kp c k : findk k (cur_add E kp c) = if memk k kp then Some (E k) else findk k c.
Proof.
  unfold cur_add. revert c. induction kp as [|x r IH]; simpl; intros c; auto.
  rewrite IH. destruct (N.eqb_spec k x).
  - subst. simpl. destruct (memk x r); auto. simpl. rewrite N.eqb_refl. auto.
  - simpl. destruct (memk k r); auto. simpl. destruct (N.eqb_spec k x); [congruence|].
    apply findk_delk_ne. congruence.
Qed.

Lemma cur_add_In E kp c p : In p (cur_add E kp c) -> snd p = E (fst p) \/ In p c.
Proof.
  unfold cur_add. revert c. induction kp as [|x r IH]; simpl; intros c H; auto.
  apply IH in H. destruct H as [H|[H|H]]; auto.
  - subst. auto.
  - apply In_delk in H. tauto.
Qed.

Lemma cur_add_length E kp c : (length (cur_add E kp c) <= length c + length kp)%nat.
Proof.
  unfold cur_add. revert c. induction kp as [|x r IH]; simpl; intros c; [lia|].
  specialize (IH ((x, E x) :: delk x c)). simpl in IH. pose proof (length_delk x c). lia.
Qed.

(* the success loop of lockKeys also takes the keys out of the previous-attempt map *)
Definition prev_del (kp : list key) (c : list (key * entry)) := fold_left (fun c k => delk k c) kp c.

Lemma prev_del_find kp c k : findk k (prev_del kp c) = if memk k kp then None else findk k c.
Proof.
  unfold prev_del. revert c. induction kp as [|x r IH]; simpl; intros c; auto.
  rewrite IH. destruct (N.eqb_spec k x).
  - subst. simpl. destruct (memk x r); auto. apply findk_delk_eq.
  - simpl. destruct (memk k r); auto. apply findk_delk_ne. congruence.
Qed.

Lemma prev_del_In kp c p : In p (prev_del kp c) -> In p c.
Proof.
  unfold prev_del. revert c. induction kp as [|x r IH]; simpl; intros c H; auto.
  apply IH in H. apply In_delk in H. tauto.
Qed.

Lemma prev_del_length kp c : (length (prev_del kp c) <= length c)%nat.
Proof.
  unfold prev_del. revert c. induction kp as [|x r IH]; simpl; intros c; auto.
  specialize (IH (delk x c)). pose proof (length_delk x c). lia.
Qed.
