(* Locks/ProofsOps.v — what each operation of the model does to the state, written out field by field.
   Every invariant of the area (bookkeeping, keep-alive, primary, held keys, insert flags) reads the fields it
   cares about off these equations; the case lemmas do the same for the control flow (the entry of Commit / Rollback, the
   filter of an aggressive-locking attempt, LockKeys); the last lemma is the induction along a run. *)
From Coq Require Import List NArith ZArith Bool Lia.
From Verif Require Import Locks.Model Locks.ProofsBase.
Import ListNotations.
Open Scope N_scope.

Arguments N.max : simpl never.
Arguments N.leb : simpl never.
Arguments N.ltb : simpl never.
Arguments N.eqb : simpl never.
Arguments len : simpl never.
Arguments dedup_sort : simpl never.

Lemma ka_reset_eq s : ka_reset s = set_ka (kreset (ka s)) s.
Proof. unfold ka_reset. destruct s as [? ? ? ? ? ? ? ? ? ? ? ? ? k ?]; destruct k; reflexivity. Qed.
Lemma ka_close_eq s : ka_close s = set_ka (kclose (ka s)) s.
Proof. unfold ka_close. destruct s as [? ? ? ? ? ? ? ? ? ? ? ? ? k ?]; destruct k; reflexivity. Qed.
Lemma ka_run_eq s : ka_run s = set_ka (krun (primary s) (ka s)) s.
Proof. unfold ka_run. destruct s as [? ? ? ? ? ? ? p ? ? ? ? ? k ?]; destruct k; try destruct p; reflexivity. Qed.

Lemma kreset_not_running k q : kreset k <> KRunning q.
Proof. destruct k; discriminate. Qed.
Lemma krun_running p k q : krun p k = KRunning q -> k = KRunning q \/ p = Some q.
Proof. destruct k; [destruct p|..]; simpl; intros E; try discriminate; [injection E as <-|]; auto. Qed.

Lemma ka_reset_if (c : bool) s : (if c then ka_reset s else s) = set_ka (if c then kreset (ka s) else ka s) s.
Proof. destruct c; [apply ka_reset_eq|destruct s; reflexivity]. Qed.

(* the asynchronous pessimistic rollback of a key set: no task for no key *)
Definition rb_task (ks : list key) (f : ts) : list task :=
  match ks with [] => [] | _ => [TPessRb ks f] end.

Lemma rb_task_In ks f t : In t (rb_task ks f) -> t = TPessRb ks f.
Proof. destruct ks; simpl; [tauto|]. intros [H|[]]. auto. Qed.

Lemma releases_pessrb k f' ks f : In k ks -> f' <= f -> releases (TPessRb ks f) (k, Pess f') = true.
Proof.
  intros H1 H2. simpl. apply andb_true_iff. split; [apply memk_In; auto | apply N.leb_le; auto].
Qed.

Lemma rb_task_releases ks f k f' : In k ks -> f' <= f -> exists t, In t (rb_task ks f) /\ releases t (k, Pess f') = true.
Proof.
  intros Hk Hle. exists (TPessRb ks f). split; [destruct ks; [destruct Hk|left; reflexivity]|apply releases_pessrb; auto].
Qed.

Lemma len_nil {A} : len (@nil A) = 0%Z.
Proof. reflexivity. Qed.

Lemma cleanup_eq a s :
  cleanup_redundant a s =
  set_tasks (tasks s ++ rb_task (keys_of (prev a)) (N.max (fu s) (amaxc a))) (set_cnt (cnt s - len (prev a)) s).
Proof.
  unfold cleanup_redundant. destruct (prev a); [|reflexivity].
  destruct s; simpl. rewrite app_nil_r, len_nil, Z.sub_0_r. reflexivity.
Qed.

Lemma agg_retry_eq s a :
  agg s = Some a ->
  agg_retry s =
  mkS (store s) (flags s) (written s) (presume s) (cnt s - len (prev a))
      (Some (mkA [] (cur a) (amaxc a) false (aprim a || alastprim a) None (apk a)))
      (committer s) (if aprim a then None else primary s) (fu s) (cmaxc s)
      (tasks s ++ rb_task (keys_of (prev a)) (N.max (fu s) (amaxc a))) (valid s) (pess s) (ka s) (fnx s).
Proof.
  intros Ha. unfold agg_retry. rewrite Ha, cleanup_eq. destruct (aprim a); reflexivity.
Qed.

Lemma agg_cancel_eq s a :
  agg s = Some a ->
  agg_cancel s =
  mkS (store s) (flags s) (written s) (presume s) (cnt s - len (prev a) - len (cur a)) None
      (committer s) (if aprim a || alastprim a then None else primary s) (fu s) (cmaxc s)
      ((tasks s ++ rb_task (keys_of (prev a)) (N.max (fu s) (amaxc a))) ++ rb_task (keys_of (cur a)) (N.max (fu s) (amaxc a)))
      (valid s) (pess s) (if aprim a || alastprim a then kreset (ka s) else ka s) (fnx s).
Proof.
  intros Ha. unfold agg_cancel, reset_primary. rewrite Ha, cleanup_eq, ka_reset_eq.
  destruct (aprim a || alastprim a); (destruct (cur a); [simpl; rewrite app_nil_r, len_nil, Z.sub_0_r|]; reflexivity).
Qed.

Lemma agg_done_eq s a :
  agg s = Some a ->
  agg_done s =
  mkS (store s) (flags s ++ keys_of (cur a)) (written s) (minus (presume s) (keys_of (cur a))) (cnt s - len (prev a)) None
      (committer s) (primary s) (fu s) (N.max (cmaxc s) (amaxc a))
      (tasks s ++ rb_task (keys_of (prev a)) (N.max (fu s) (amaxc a)))
      (valid s) (pess s) (if alastprim a && negb (aprim a) then kreset (ka s) else ka s)
      (minus (fnx s) (keys_of (cur a)) ++
       keys_of (filter (fun p => (e_ce (snd p) || e_rv (snd p)) && negb (e_ex (snd p))) (cur a))).
Proof.
  intros Ha. unfold agg_done. rewrite Ha, ka_reset_eq, !cleanup_eq.
  destruct (alastprim a && negb (aprim a)); reflexivity.
Qed.

Lemma minus_nil l : minus l [] = l.
Proof. unfold minus. induction l as [|x l IH]; [reflexivity|]. simpl. f_equal. exact IH. Qed.

Lemma rollback_body_nolost s : rollback_body s = rollback_body_l [] s.
Proof.
  unfold rollback_body, rollback_body_l. rewrite minus_nil.
  replace (filter (fun k => memk k []) (flags s)) with (@nil key); [reflexivity|].
  induction (flags s); simpl; auto.
Qed.

Lemma rollback_nolost s : rollback s = rollback_l [] s.
Proof. unfold rollback, rollback_l. rewrite rollback_body_nolost. reflexivity. Qed.

(* Commit and Rollback enter the same way: a closed transaction is left alone; while an attempt holds current keys the
   transaction is closed and nothing is released; otherwise the attempt is cancelled and [body] runs *)
Lemma closing_cases (body : st -> st) s (P : st -> Prop) :
  (valid s = false -> P s) -> (pending s = true -> P (set_valid false s)) ->
  (valid s = true -> pending s = false -> P (body (agg_cancel s))) ->
  P (if negb (valid s) then s else if pending s then set_valid false s else body (agg_cancel s)).
Proof. intros H1 H2 H3. destruct (valid s); cbn [negb]; [destruct (pending s)|]; auto. Qed.

Lemma valid_closing body s :
  (forall x, valid (body x) = false) ->
  valid (if negb (valid s) then s else if pending s then set_valid false s else body (agg_cancel s)) = false.
Proof. intros Hb. apply closing_cases; auto. Qed.

(* [act]: the transaction has pessimistic locks to release; the request is only sent when some key was counted *)
Lemma rollback_body_l_eq lost s act rel :
  act = pess s && committer s -> rel = act && negb (cnt s =? 0)%Z ->
  rollback_body_l lost s =
  mkS (if rel then run_task (TPessRb (minus (flags s) lost) (N.max (fu s) (cmaxc s))) (store s) else store s)
      (flags s) (written s) (presume s) (cnt s) (agg s) (committer s) (primary s) (fu s) (cmaxc s)
      (tasks s ++ if rel then rb_task (filter (fun k => memk k lost) (flags s)) (N.max (fu s) (cmaxc s)) else [])
      false (pess s) (if act then kclose (ka s) else ka s) (fnx s).
Proof.
  intros -> ->. unfold rollback_body_l. destruct (pess s && committer s); simpl.
  - rewrite ka_close_eq. destruct (cnt s =? 0)%Z; simpl.
    + rewrite app_nil_r. reflexivity.
    + destruct (filter (fun k => memk k lost) (flags s)); simpl; rewrite ?app_nil_r; reflexivity.
  - rewrite app_nil_r. reflexivity.
Qed.

(* Commit: closing the keep-alive commutes with everything else the commit does *)
Definition commit_body0 (o : commit_out) (s : st) : st :=
  let s0 := set_valid false s in
  let muts := mutations (co_unnecessary o) s in
  match muts with
  | [] => s0
  | _ =>
    let s1 := set_committer true s0 in
    match co_mode o with
    | M1PC =>
      match co_res o with
      | COk => set_store (filter (fun l => negb (memk (fst l) muts)) (store s1)) s1
      | _ => if pess s1 then add_task (TPessRb muts (N.max (fu s1) (cmaxc s1))) s1 else s1
      end
    | _ =>
      let pw := match co_res o with
                | CPrewriteFail => filter (fun k => memk k muts) (co_prewritten o)
                | _ => muts
                end in
      let s2 := set_store (fold_right put_prew (store s1) pw) s1 in
      match co_res o with
      | COk =>
        match co_mode o with
        | MAsync => add_task (TCommitSec muts) s2
        | _ =>
          let s3 := add_task (TCommitSec muts) (set_store (run_task (TCommitSec (co_sync o)) (store s2)) s2) in
          if primary_in muts s then s3 else add_task (TCleanup muts) s3
        end
      | _ => add_task (TCleanup muts) s2
      end
    end
  end.

(* what Commit leaves alone: only the store, the tasks and the committer flag move *)
Lemma commit_body0_frame o s :
  let s' := commit_body0 o s in
  s' = set_tasks (tasks s') (set_store (store s') (set_committer (committer s') (set_valid false s))) /\
  (committer s = true -> committer s' = true).
Proof.
  unfold commit_body0. destruct (mutations (co_unnecessary o) s) as [|m ms].
  - destruct s; split; auto.
  - generalize (m :: ms). intros muts.
    destruct (co_mode o); destruct (co_res o); cbn [set_committer set_valid pess fu cmaxc store];
      try destruct (pess s); try destruct (primary_in muts s); split; reflexivity.
Qed.

(* 2PC / async commit: the store is the old one with [pw] prewritten (less what the commit of the primary batch removed
   at once), no task is dropped, and the new tasks include the clean-up or, when everything was prewritten, the commit of
   the secondaries *)
Lemma commit_body0_prewrite o s :
  let muts := mutations (co_unnecessary o) s in
  let pw := match co_res o with CPrewriteFail => filter (fun k => memk k muts) (co_prewritten o) | _ => muts end in
  let s' := commit_body0 o s in
  muts <> [] -> co_mode o <> M1PC ->
  (forall p, In p (store s') -> In p (fold_right put_prew (store s) pw)) /\
  (forall t, In t (tasks s) -> In t (tasks s')) /\
  (In (TCleanup muts) (tasks s') \/ (pw = muts /\ In (TCommitSec muts) (tasks s'))).
Proof.
  cbv zeta. unfold commit_body0. destruct (mutations (co_unnecessary o) s) as [|m ms]; [congruence|]. intros _.
  generalize (m :: ms). intros muts Hm.
  destruct (co_mode o); [| |congruence]; destruct (co_res o); try destruct (primary_in muts s);
    cbn [store tasks add_task set_tasks set_store set_committer set_valid];
    (split; [intros p Hp; try (apply run_task_In in Hp; destruct Hp as [Hp _]); exact Hp|split; [auto using in_or_app|]]);
    auto 7 using in_or_app, in_eq.
Qed.

Lemma commit_body_ka o s : commit_body o s = set_ka (kclose (ka s)) (commit_body0 o s).
Proof.
  unfold commit_body, commit_body0. rewrite ka_close_eq. destruct (mutations (co_unnecessary o) s) as [|m ms]; [reflexivity|].
  generalize (m :: ms). intros muts.
  destruct (co_mode o); destruct (co_res o); cbn [set_committer set_valid set_ka pess fu cmaxc store];
    try destruct (pess s); try destruct (primary_in muts s); reflexivity.
Qed.

(* the key selectPrimaryForPessimisticLock picks *)
Definition pick_primary (keys : list key) (ag : option actx) : option key :=
  let hd := match keys with k :: _ => Some k | [] => None end in
  match ag with
  | Some a => match alastpk a with Some p => if memk p keys then Some p else hd | None => hd end
  | None => hd
  end.

Lemma pick_primary_In keys ag : keys <> [] -> exists q, pick_primary keys ag = Some q /\ In q keys.
Proof.
  destruct keys as [|k0 kr]; [congruence|]. intros _. unfold pick_primary.
  destruct ag as [a|]; [destruct (alastpk a) as [p|]; [destruct (memk p (k0 :: kr)) eqn:Em|]|];
    eexists; (split; [reflexivity|]); simpl; auto. apply memk_In in Em. exact Em.
Qed.

(* committer creation, primary selection, for-update ts *)
Definition prep (keys : list key) (f : ts) (s : st) : st :=
  set_fu f (if match primary s with None => true | Some _ => false end
            then select_primary keys (set_committer true s) else set_committer true s).

Lemma prep_eq keys f s :
  prep keys f s =
  match primary s with
  | Some _ => set_fu f (set_committer true s)
  | None => set_fu f (set_agg (option_map (a_prim true (pick_primary keys (agg s))) (agg s))
                        (set_primary (pick_primary keys (agg s)) (set_committer true s)))
  end.
Proof.
  unfold prep, select_primary, pick_primary. destruct s as [? ? ? ? ? ag ? p ? ? ? ? ? ? ?]; destruct p; [reflexivity|].
  destruct ag; reflexivity.
Qed.

(* the request itself.  The primary after it: given up by a failing call that had chosen it (resetPrimary), or
   when it turned out absent under lock-only-if-exists (unsetPrimaryKeyIfNeeded) *)
Definition primary_after (assigned loie : bool) (o : lock_out) (p : option key) : option key :=
  match lo_res o with
  | Some _ => if assigned then None else p
  | None => if assigned && loie then
              match p with Some q => if memk q (lo_absent o) then None else Some q | None => None end
            else p
  end.

Lemma lock_rpc_core_fail all rk assigned rv ce loie f o s e :
  lo_res o = Some e ->
  lock_rpc_core all rk assigned rv ce loie f o s =
  mkS (fold_right (put_pess (N.max f (eff_lwc s rk o))) (store s) (eff_locked rk loie o))
      (flags s) (written s) (minus (presume s) rk)
      (if many rk || may_be_locked e then cnt s - (len all - len rk) else cnt s)%Z
      (option_map (fun a => if many rk || may_be_locked e
                            then a_cur (filter (fun p => negb (memk (fst p) all)) (cur a)) (a_maxc (N.max (amaxc a) (eff_lwc s rk o)) a)
                            else a_maxc (N.max (amaxc a) (eff_lwc s rk o)) a) (agg s))
      (committer s) (primary_after assigned loie o (primary s)) (fu s) (cmaxc s)
      (if many rk || may_be_locked e then tasks s ++ [TPessRb all (N.max f (eff_lwc s rk o))] else tasks s)
      (valid s) (pess s) (ka s) (fnx s).
Proof.
  intros Hr. unfold lock_rpc_core, primary_after. rewrite Hr. destruct s as [? ? ? ? ? ag ? ? ? ? ? ? ? ? ?]. cbn [agg set_store].
  destruct ag; destruct assigned; destruct (many rk || may_be_locked e); reflexivity.
Qed.

(* a successful request: the store's answer, then the final loop of lockKeys *)
Definition pre_finish (rk : list key) (assigned loie : bool) (f : ts) (o : lock_out) (s : st) : st :=
  mkS (fold_right (put_pess (N.max f (eff_lwc s rk o))) (store s) (eff_locked rk loie o))
      (flags s) (written s) (presume s) (cnt s)
      (option_map (fun a => a_maxc (N.max (amaxc a) (eff_lwc s rk o)) a) (agg s))
      (committer s) (primary_after assigned loie o (primary s)) (fu s) (cmaxc s) (tasks s) (valid s) (pess s) (ka s) (fnx s).

Lemma lock_rpc_core_ok all rk assigned rv ce loie f o s :
  lo_res o = None ->
  lock_rpc_core all rk assigned rv ce loie f o s =
  finish_lock rk rv ce loie (lo_absent o) (eff_lwc s rk o) true (pre_finish rk assigned loie f o s).
Proof.
  intros Hr. unfold lock_rpc_core, pre_finish, primary_after. rewrite Hr. f_equal.
  destruct s as [? ? ? ? ? ag ? p ? ? ? ? ? ? ?]. unfold set_store, set_agg, set_primary, eff_lwc. simpl.
  destruct ag; destruct (assigned && loie); try destruct p as [q|]; simpl; try destruct (memk q (lo_absent o)); reflexivity.
Qed.

(* filterAggressiveLockedKeys, key by key: the list ends; a for-update ts below a recorded conflict ts stops the filter;
   the key is taken over from the previous attempt; the key is requested (again) *)
Section FilterAgg.
Variables (rv ce : bool) (f : ts) (ex cs : bool).
Variable P : actx -> list key -> actx * list key * bool -> Prop.
Hypothesis Pnil : forall a, P a [] (a, [], false).
Hypothesis Pstale : forall a k r e, findk k (prev a) = Some e -> f < e_lwc e -> P a (k :: r) (a, [], true).
Hypothesis Pskip : forall a k r e e' res,
  findk k (prev a) = Some e -> e_lwc e <= f -> (if cs then if ex then None else try_skip e rv ce else None) = Some e' ->
  P (a_cur ((k, e') :: delk k (cur a)) (a_prev (delk k (prev a)) a)) r res -> P a (k :: r) res.
Hypothesis Preq : forall a k r a2 ks' err, P a r (a2, ks', err) -> P a (k :: r) (a2, k :: ks', err).

Lemma filter_agg_cases a ks : P a ks (filter_agg a rv ce f ex cs ks).
Proof.
  revert a. induction ks as [|k r IH]; intros a; simpl; [apply Pnil|].
  assert (Hreq : P a (k :: r) (let '(a2, ks', err) := filter_agg a rv ce f ex cs r in (a2, k :: ks', err))).
  { specialize (IH a). destruct (filter_agg a rv ce f ex cs r) as [[a2 ks'] err]. apply Preq. exact IH. }
  destruct (findk k (prev a)) as [e|] eqn:Ef; [|exact Hreq].
  destruct (f <? e_lwc e) eqn:El; [apply N.ltb_lt in El; eapply Pstale; eauto|]. apply N.ltb_ge in El.
  destruct (if cs then if ex then None else try_skip e rv ce else None) as [e'|] eqn:Es; [|exact Hreq].
  eapply Pskip; eauto.
Qed.
End FilterAgg.

(* the ways through the pessimistic branch: no aggressive locking; the filter reports a stale for-update ts; every key
   is taken over from the previous attempt; a request for the remaining keys, after the keep-alive of an abandoned
   primary was stopped *)
Lemma lock_pess_cases keys rv ce loie f o s (P : st * list key -> Prop) :
  forall s4 assigned, s4 = prep keys f s -> assigned = match primary s with None => true | Some _ => false end ->
  (agg s4 = None -> P (lock_rpc keys keys assigned rv ce loie f o s4, keys)) ->
  (forall a a' rk err, agg s4 = Some a ->
     filter_agg a rv ce f (lo_expired o) (negb (aprim a) || opt_eqb (alastpk a) (apk a)) keys = (a', rk, err) ->
     (err = true \/ rk = [] -> P (set_agg (Some a') s4, [])) /\
     (err = false -> rk <> [] ->
      P (lock_rpc keys rk assigned rv ce loie f o
           (if assigned && negb (opt_eqb (apk a') (alastpk a')) then ka_reset (set_agg (Some a') s4) else set_agg (Some a') s4), rk))) ->
  P (lock_pess keys rv ce loie f o s).
Proof.
  intros s4 assigned -> -> Hn Ha. unfold lock_pess.
  change (set_fu f _) with (prep keys f s). cbn [primary set_committer].
  destruct (agg (prep keys f s)) as [a|]; [|auto].
  destruct (filter_agg a rv ce f (lo_expired o) (negb (aprim a) || opt_eqb (alastpk a) (apk a)) keys) as [[a' rk] err] eqn:Ef.
  destruct (Ha a a' rk err eq_refl Ef) as [H1 H2].
  destruct err; [auto|]. destruct rk as [|r0 rr]; [auto|]. apply H2; [reflexivity|discriminate].
Qed.

(* an attempt that survives the entry of LockKeys is one the call has a single key for *)
Lemma exit_agg_single ks s a : agg (exit_agg ks s) = Some a -> many ks = false.
Proof.
  unfold exit_agg. destruct (agg s) as [a0|] eqn:Ea; [|congruence]. destruct (many ks); [|reflexivity].
  rewrite (agg_done_eq s a0 Ea). discriminate.
Qed.

(* the keys LockKeys goes on with: requested, not yet held in the current attempt; a single one in an attempt *)
Lemma need_keys_In s ks k : In k (dedup_sort (filter (need_lock s) ks)) -> In k ks /\ need_lock s k = true.
Proof. intros H. apply dedup_sort_In, filter_In in H. exact H. Qed.

Lemma need_lock_not_cur s k : need_lock s k = true -> in_cur s k = false.
Proof. unfold need_lock. intros H. apply andb_true_iff in H. destruct H as [H _]. apply negb_true_iff in H. exact H. Qed.

Lemma need_keys_single s ks :
  many ks = false -> filter (need_lock s) ks <> [] -> exists k, dedup_sort (filter (need_lock s) ks) = [k].
Proof.
  intros Hm Hne. apply many_false_cases in Hm. destruct Hm as [->|(k & ->)]; [elim Hne; reflexivity|].
  simpl in *. destruct (need_lock s k); [exists k; reflexivity|elim Hne; reflexivity].
Qed.

(* the ways through LockKeys: nothing to do (or refused before anything happened), the pessimistic branch,
   the optimistic / lock-free flagging *)
Lemma lock_keys_full_cases ks rv ce loie f o s (P : st * list key -> Prop) :
  forall s1 keys, s1 = exit_agg ks s -> keys = dedup_sort (filter (need_lock s1) ks) ->
  P (s1, []) ->
  (filter (need_lock s1) ks <> [] -> early_exists s1 ks = false -> pess s1 = true -> 0 < f ->
   P (lock_pess keys rv ce loie f o s1)) ->
  (pess s1 && (0 <? f) = false -> negb (pess s1) && (match agg s1 with Some _ => true | None => false end) = false ->
   P (finish_lock keys rv ce loie [] 0 false s1, [])) ->
  P (lock_keys_full ks rv ce loie f o s).
Proof.
  intros s1 keys -> -> H0 Hp Hf. unfold lock_keys_full.
  destruct (negb (pess (exit_agg ks s)) && _) eqn:Eo; [exact H0|].
  destruct (early_exists _ ks) eqn:Ee; [exact H0|].
  destruct (filter (need_lock (exit_agg ks s)) ks) as [|k0 r0] eqn:Ek; [exact H0|]. rewrite <- Ek in Hp, Hf |- *.
  destruct (loie && negb rv); [exact H0|].
  destruct (loie && _ && many _); [exact H0|].
  destruct (pess (exit_agg ks s) && (0 <? f)) eqn:Eb; [|auto].
  apply andb_true_iff in Eb. destruct Eb as [E1 E2]. apply N.ltb_lt in E2. apply Hp; auto. rewrite Ek. discriminate.
Qed.

(* what every step keeps under the contract [C] holds along every run whose contract [W] yields [C] step by step *)
Lemma run_invariant (I : st -> Prop) (C : st -> ev -> Prop) (W : st -> list ev -> Prop) :
  (forall s e r, W s (e :: r) -> C s e /\ W (step s e) r) ->
  (forall s e, I s -> C s e -> I (step s e)) ->
  forall s evs, I s -> W s evs -> I (run s evs).
Proof.
  intros HW HI s evs. revert s. induction evs as [|e r IH]; simpl; intros s H Hw; [exact H|].
  destruct (HW s e r Hw) as [Hc Hr]. apply IH; auto.
Qed.
