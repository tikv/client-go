(* Locks/Props.v — C06: no lock of a finished transaction is left behind on failure-free paths.
   Model: Locks/Model.v (client bookkeeping of one transaction S + the set of locks the store holds
   for S; the store's answers are arbitrary event inputs, sanitised to the store contract inside
   the model; every pending task eventually runs: no loss, no crash).
   [wf_run] = the documented API contract along the run, nothing else:
     - LockKeys only on a valid transaction, for-update ts non-decreasing;
     - Commit / Rollback not while an aggressive-locking attempt still holds current keys.
   The model follows the code after the fixes of F19 / F19b (a re-requested key of the previous
   aggressive-locking attempt stays in lastRetryUnnecessaryLocks until the request put it into
   currentLockedKeys) and F31 (KVFilter); their replays are regression Examples below.
   [C06_contract_satisfiable_everywhere], [C06_can_always_finish], [C06_every_run_can_finish_clean]
   show that the hypotheses never exclude a state or a store answer.
   This file holds statements only (Theorem ... Proof. exact <term>. Qed. + Print Assumptions) and Examples; the proof
   scripts are in Locks/Proofs*.v (ProofsTop.v: the decision of the run contracts that the Examples evaluate, and the
   corollaries that are more than a term). *)
From Coq Require Import List NArith ZArith Bool Lia.
From Verif Require Import Locks.Model Locks.ProofsBase Locks.ProofsInv Locks.ProofsCommit Locks.ProofsLock
  Locks.ProofsLockAgg Locks.ProofsLockAll Locks.ProofsMain Locks.ProofsKA Locks.ProofsSched Locks.ProofsPrim Locks.ProofsEarly Locks.ProofsHeld Locks.Contract Locks.ProofsHeldLock Locks.ProofsTop.
Import ListNotations.
Open Scope N_scope.



(* The invariant: every lock the store holds for S is still known to the client (flagged key,
   current / previous aggressive-locking key — with a release ts that suffices) or is covered by a
   pending background task that releases it; preserved by every step of every well-formed run. *)
Theorem C06_bookkeeping_inv :
  forall (p : bool) (evs : list ev), wf_run (init p) evs ->
  let s := run (init p) evs in
  (forall l, In l (store s) -> cov_book s l \/ cov_task s l) /\ lwc_ok s /\ cnt_ok s.
Proof. exact bookkeeping_inv. Qed.
Print Assumptions C06_bookkeeping_inv.

Theorem C06_inv_step :
  forall s e, Inv s -> wf_ev s e -> Inv (step s e).
Proof. exact Inv_step. Qed.
Print Assumptions C06_inv_step.

(* Once the transaction is finished (committed, failed definitively, rolled back) and all its
   background tasks have run, the store holds no lock of S. *)
Theorem C06_no_leftover :
  forall (p : bool) (evs : list ev), wf_run (init p) evs ->
  let s := run (init p) evs in
  valid s = false -> tasks s = [] -> store s = [].
Proof. exact (fun p evs H => no_leftover_from _ (bookkeeping_inv p evs H)). Qed.
Print Assumptions C06_no_leftover.

(* A LockKeys call that sent a request and failed: every key the store locked during the call is in
   the key set of an asynchronous pessimistic rollback scheduled by the call, with a for-update ts
   that releases the lock just written; that key set consists of requested keys that were not
   already held (flag / current attempt) or were held from the previous attempt.  (That the failing request flags
   nothing is [lock_rpc_fail_flags], not part of this statement.)
   (A single-key call failing with write conflict / key exists schedules nothing: the store wrote
   nothing, [eff_locked] = [].) *)
Theorem C06_failed_lockkeys_releases_call :
  forall ks rv ce loie f o s e,
  lo_res o = Some e ->
  let s1 := exit_agg ks s in
  let s' := fst (lock_keys_full ks rv ce loie f o s) in
  let rk := snd (lock_keys_full ks rv ce loie f o s) in
  rk <> [] ->
  forall k, In k (eff_locked rk loie o) ->
  exists ks' t lf, In (TPessRb ks' t) (tasks s') /\ releases (TPessRb ks' t) (k, Pess lf) = true /\ f <= lf /\
                 (forall k', In k' ks' -> In k' ks /\ need_lock s1 k' = true).
Proof. exact failed_lockkeys. Qed.
Print Assumptions C06_failed_lockkeys_releases_call.

(* Retry + re-lock + Done (any well-formed events in between), then the background work drains:
   a key locked in the previous attempt and not re-locked (not flagged at the end) holds no lock. *)
Theorem C06_aggressive_retry_releases_unneeded :
  forall (p : bool) (before mid after : list ev) a,
  let s0 := run (init p) before in
  agg s0 = Some a ->
  let s := run (init p) (before ++ EAggRetry :: mid ++ EAggDone :: after) in
  wf_run (init p) (before ++ EAggRetry :: mid ++ EAggDone :: after) ->
  tasks s = [] -> agg s = None ->
  forall k, In k (keys_of (cur a)) -> ~ In k (flags s) -> ~ In k (keys_of (store s)).
Proof. exact C06_aggressive_retry_releases_unneeded_proof. Qed.
Print Assumptions C06_aggressive_retry_releases_unneeded.

(* the general form of the previous statement *)
Theorem C06_quiescent_store_within_flags :
  forall (p : bool) (evs : list ev), wf_run (init p) evs ->
  let s := run (init p) evs in
  tasks s = [] -> agg s = None -> forall l, In l (store s) -> In (fst l) (flags s) /\ valid s = true.
Proof. exact C06_quiescent_store_within_flags_proof. Qed.
Print Assumptions C06_quiescent_store_within_flags.

(* the same from ANY state that satisfies the invariant (not only the initial one), any events *)
Theorem C06_no_leftover_from_any_state :
  forall s evs, Inv s -> wf_run s evs ->
  valid (run s evs) = false -> tasks (run s evs) = [] -> store (run s evs) = [].
Proof. exact (fun s evs HI Hwf => no_leftover_from _ (Inv_run s evs HI Hwf)). Qed.
Print Assumptions C06_no_leftover_from_any_state.

(* scheduler-free form: after a finished well-formed run, draining the pending tasks (at most
   [length tasks] task runs, any fuel beyond that) empties the store's lock set *)
Theorem C06_no_leftover_after_drain :
  forall (p : bool) (evs : list ev) (n : nat), wf_run (init p) evs ->
  let s := run (init p) evs in
  valid s = false -> (length (tasks s) <= n)%nat -> store (drain n s) = [].
Proof. exact (fun p evs n H => no_leftover_drain _ n (bookkeeping_inv p evs H)). Qed.
Print Assumptions C06_no_leftover_after_drain.

(* no hidden vacuity: EVERY state (reachable or not) can be extended by well-formed events to a
   finished, drained state — so the premises of C06_no_leftover are reachable from everywhere *)
Theorem C06_can_always_finish :
  forall s, exists evs, wf_run s evs /\ valid (run s evs) = false /\ tasks (run s evs) = [].
Proof. exact (fun s => ex_intro _ (finish_evs s) (can_always_finish s)). Qed.
Print Assumptions C06_can_always_finish.

Theorem C06_every_run_can_finish_clean :
  forall (p : bool) (evs : list ev), wf_run (init p) evs ->
  exists more, wf_run (init p) (evs ++ more) /\
    let s := run (init p) (evs ++ more) in valid s = false /\ tasks s = [] /\ store s = [].
Proof. exact every_run_can_finish_clean. Qed.
Print Assumptions C06_every_run_can_finish_clean.

(* in every state there are well-formed events of every kind, with ANY answer of the store: writes,
   aggressive-locking calls and task runs always; LockKeys with any options and any outcome whenever
   the transaction is valid and the for-update ts does not go back; Commit (any mode, any filter,
   any prewrite / commit outcome) and Rollback whenever no attempt holds current keys *)
Theorem C06_contract_satisfiable_everywhere :
  forall s,
  (forall k, wf_ev s (ESet k) /\ wf_ev s (EDel k) /\ wf_ev s (EInsert k)) /\
  wf_ev s EAggStart /\ wf_ev s EAggRetry /\ wf_ev s EAggCancel /\ wf_ev s EAggDone /\
  (forall n ks, wf_ev s (ERun n) /\ wf_ev s (ERunSome n ks)) /\
  (valid s = true -> forall ks rv ce loie f o, fu s <= f -> wf_ev s (ELock ks rv ce loie f o)) /\
  (pending s = false -> wf_ev s ERollback /\ forall o, wf_ev s (ECommit o)).
Proof. exact wf_ev_exists. Qed.
Print Assumptions C06_contract_satisfiable_everywhere.

(* re-batching: when the region of a task's batch is split in the request's window the batch is
   re-grouped into sub-batches; processing ALL of them (in any grouping that covers the task's keys)
   releases exactly what the whole task releases — so [ERun] stands for any such re-batched execution *)
Theorem C06_rebatched_task_equals_whole :
  forall t parts s,
  (forall k, In k (task_keys t) -> exists p, In p parts /\ In k p) ->
  run_parts t parts s = run_task t s.
Proof. exact rebatched_task_equals_whole. Qed.
Print Assumptions C06_rebatched_task_equals_whole.

(* ... and what goes wrong when only the first sub-batch of a re-split batch is processed (seeded change
   C06-3: the sequential branch of doActionOnBatches handling batches[0] only): the secondaries of a
   committed transaction keep their prewrite locks *)
Example C06_first_sub_batch_only_leaves_locks :
  let st0 := [(1, Prew); (2, Prew); (3, Prew); (4, Prew)] in
  run_parts (TCommitSec [1; 2; 3; 4]) [[1]; [2]; [3; 4]] st0 = [] /\
  run_parts (TCommitSec [1; 2; 3; 4]) [[1]] st0 = [(2, Prew); (3, Prew); (4, Prew)].
Proof. vm_compute. auto. Qed.

(* schedules: the asynchronous rollback of a failed LockKeys carries the for-update ts of that call (fixed
   when the task is created), so however late it runs it cannot remove a lock that a retried call
   acquired with a newer ts (seeded change C01-5 snapshots the ts when the task RUNS) *)
Theorem C06_late_rollback_spares_newer_locks :
  forall ks f s k f', In (k, Pess f') s -> f < f' -> In (k, Pess f') (run_task (TPessRb ks f) s).
Proof. exact late_rollback_spares_newer. Qed.
Print Assumptions C06_late_rollback_spares_newer_locks.

Definition late_rollback_run : list ev :=
  [ELock [1; 2] false false false 10 (mkLO false [1] [] 0 (Some FNoWait));
   ELock [1; 2] false false false 20 (mkLO false [1; 2] [] 0 None);
   ERun 0].
Example C06_late_rollback_after_retry :
  wf_run (init true) late_rollback_run /\
  tasks (run (init true) (firstn 2 late_rollback_run)) = [TPessRb [1; 2] 10] /\
  let s := run (init true) late_rollback_run in
  store s = [(1, Pess 20); (2, Pess 20)] /\ flags s = [1; 2] /\ tasks s = [].
Proof. split; [apply wf_runb_spec; reflexivity|]. vm_compute. auto. Qed.

(* keep-alive (ttlManager, state [ka]: uninitialised / running bound to a key / closed): under the API
   contract plus [ts_contract] (no for-update ts below a conflict ts the caller was told — the code's
   "unreachable path" would keep a tentative primary), whenever the keep-alive is running it is bound to
   the current primary, except inside an aggressive-locking retry window (RetryAggressiveLocking gave the
   primary up and deliberately keeps the keep-alive; no primary is set there); and it is not running
   once the transaction has ended *)
Theorem C06_keepalive_bound_to_primary :
  forall (p : bool) (evs : list ev), wf_run_ts (init p) evs ->
  let s := run (init p) evs in
  (forall k, ka s = KRunning k -> primary s = Some k \/ retry_window s) /\
  (valid s = false -> forall k, ka s <> KRunning k).
Proof. exact (fun p evs H => ka_ok_meaning _ (ka_ok_run _ evs (ka_ok_init p) H)). Qed.
Print Assumptions C06_keepalive_bound_to_primary.

(* non-vacuity: a run through a retry window (keep-alive kept on the given-up primary 1, then moved to the
   new primary 2), a lock-only-if-exists miss that drops the tentative primary, and the end of the transaction *)
Definition keepalive_run : list ev :=
  [ELock [7] true false true 5 (mkLO false [] [7] 0 None);
   EAggStart; ELock [1] false false false 10 (mkLO false [1] [] 0 None); EAggRetry;
   ELock [2] false false false 20 (mkLO false [2] [] 0 None); EAggDone; ERun 0; ECommit (mkCO M1PC [] [] [] COk)].
Example C06_keepalive_run :
  wf_run_ts (init true) keepalive_run /\
  ka (run (init true) (firstn 1 keepalive_run)) = KUninit /\
  ka (run (init true) (firstn 3 keepalive_run)) = KRunning 1 /\
  (let s := run (init true) (firstn 4 keepalive_run) in ka s = KRunning 1 /\ primary s = None) /\
  (let s := run (init true) (firstn 5 keepalive_run) in ka s = KRunning 2 /\ primary s = Some 2) /\
  ka (run (init true) keepalive_run) = KClosed.
Proof.
  split; [apply wf_run_tsb_sound; reflexivity|vm_compute; auto 10].
Qed.

(* the committer's primary is never a "ghost": under the caller contract (incl. [ts_contract]) the primary key is
   always a key the client tracks as locked — flagged, or a current aggressive-locking key of the attempt that
   chose it (oracle P of the check; seeded change C02-6 keeps a never-locked primary after a single-key failure) *)
Theorem C06_primary_is_a_tracked_key :
  forall (p : bool) (evs : list ev), wf_run_ts (init p) evs ->
  let s := run (init p) evs in
  forall k, primary s = Some k ->
    In k (flags s) \/ exists a, agg s = Some a /\ aprim a = true /\ In k (keys_of (cur a)).
Proof. exact (fun p evs H => prim_run _ evs (prim_ok_init p) H). Qed.
Print Assumptions C06_primary_is_a_tracked_key.

Example C06_primary_tracked_examples :
  (let s := run (init true) (firstn 3 keepalive_run) in primary s = Some 1 /\ flags s = [] /\ in_cur s 1 = true) /\
  (let s := run (init true) (firstn 6 keepalive_run) in primary s = Some 2 /\ flags s = [2]) /\
  (* a first lock that fails outright leaves no primary *)
  primary (run (init true) [ELock [1] false false false 10 (mkLO false [] [] 0 (Some FConflict))]) = None.
Proof. vm_compute. auto 10. Qed.


(* batches are not regions: the keys of one call may travel in several requests even inside one region (batch
   size limit); the store's answer is any subset of the requested keys locked before the failing batch.  A
   multi-key call failing with write conflict after earlier batches succeeded rolls all its keys back
   (instance of C06_failed_lockkeys_releases_call; seeded change C06-7 skips the rollback when one region
   served all batches) *)
Definition partial_batches_run : list ev :=
  [ELock [1; 2; 3] false false false 10 (mkLO false [1; 2] [] 0 (Some FConflict)); ERollback; ERun 0].
Example C06_partial_batches_in_one_region :
  wf_run (init true) partial_batches_run /\
  (let s := run (init true) (firstn 1 partial_batches_run) in
   map fst (store s) = [1; 2] /\ tasks s = [TPessRb [1; 2; 3] 10] /\ flags s = []) /\
  store (run (init true) partial_batches_run) = [].
Proof. split; [apply wf_runb_spec; reflexivity|]. vm_compute. auto. Qed.

(* lost release requests.  A release task whose request (or response) is lost is retried by the sender and stays
   pending — partial progress is [ERunSome], completion [ERun]; a task that is lost for good (retry budget
   exhausted) simply never completes.  Without assuming that the tasks drain: once the transaction has ended,
   EVERY remaining lock is one that a release task that has not completed would release — locks remain only under
   release requests that were lost for good (no task left => no lock left: C06_no_leftover) *)
Theorem C06_leftover_only_under_unfinished_release :
  forall (p : bool) (evs : list ev), wf_run (init p) evs ->
  let s := run (init p) evs in
  valid s = false -> forall l, In l (store s) -> exists t, In t (tasks s) /\ releases t l = true.
Proof. exact (fun p evs H Hv l => leftover_under_unfinished_tasks _ l (bookkeeping_inv p evs H) Hv). Qed.
Print Assumptions C06_leftover_only_under_unfinished_release.

(* a rollback lost for good on key 2 (its batch never completes) while the batch of key 1 completes *)
Definition lost_release_run2 : list ev :=
  [ELock [1; 2; 3] false false false 10 (mkLO false [1; 2] [] 0 (Some FNoWait)); ERunSome 0 [1]; ERollback].
Example C06_lost_release :
  wf_run (init true) lost_release_run2 /\
  let s := run (init true) lost_release_run2 in
  valid s = false /\ store s = [(2, Pess 10)] /\ tasks s = [TPessRb [1; 2; 3] 10] /\
  store (run (init true) (lost_release_run2 ++ [ERun 0])) = [].
Proof. split; [apply wf_runb_spec; reflexivity|]. vm_compute. auto. Qed.

(* Rollback whose own (synchronous) release request for key 2 never completed *)
Example C06_rollback_with_lost_release :
  let evs := [ELock [1; 2] false false false 10 (mkLO false [1; 2] [] 0 None); ERollbackLost [2]] in
  wf_run (init true) evs /\
  let s := run (init true) evs in
  valid s = false /\ store s = [(2, Pess 10)] /\ tasks s = [TPessRb [2] 10] /\ store (run (init true) (evs ++ [ERun 0])) = [].
Proof. split; [apply wf_runb_spec; reflexivity|]. vm_compute. auto. Qed.

(* request-level schedules of ONE failing LockKeys call (ProofsSched.v): the code schedules the rollback only after
   every lock request of the call was answered; then whatever the order of the lock requests among themselves,
   whatever they locked, and however the rollback is batched, re-batched and ordered, no pessimistic lock of the call
   (for-update ts <= f) remains on a key of the call *)
Theorem C06_call_requests_any_order_rollback_after :
  forall all f locks rbs s k f',
  (forall r, In r rbs -> is_rb f r) ->
  (forall k, In k all -> exists r, In r rbs /\ In k (rb_keys r)) ->
  In (k, Pess f') (exec (locks ++ rbs) s) -> In k all -> f < f'.
Proof. exact rollback_after_all_locks. Qed.
Print Assumptions C06_call_requests_any_order_rollback_after.

(* the one reordering that is not tolerated — and that the unmodified code never produces: a lock request of the call
   served after the rollback leaves a lock nothing tracks (seeded change C06-5 returns from LockKeys early) *)
Theorem C06_lock_served_after_rollback_leaves_lock :
  forall pre k r f s, exists l, In (k, l) (exec (pre ++ [RLock (k :: r) f]) s).
Proof. exact lock_after_rollback_leaves_lock. Qed.
Print Assumptions C06_lock_served_after_rollback_leaves_lock.

Example C06_schedules_of_one_call :
  exec [RLock [2] 10; RLock [] 10; RLock [1] 10; RRb [3; 1] 10; RRb [2] 10] [] = [] /\
  exec [RLock [1] 10; RLock [] 10; RRb [1; 2; 3] 10; RLock [2] 10] [] = [(2, Pess 10)].
Proof. vm_compute. auto. Qed.

(* ---- regression replays of the fixed findings F19 / F19b ---- *)
Definition ok_lock (ks : list key) : lock_out := mkLO false ks [] 0 None.

(* F19: the re-lock of a previous-attempt key fails with key-exists (PresumeKeyNotExists set in between) *)
Definition f19_run : list ev :=
  [EAggStart; ELock [1] false false false 10 (ok_lock [1]); EInsert 1; EAggRetry;
   ELock [1] true false false 20 (mkLO false [] [] 0 (Some FExists)); EAggDone; ERollback; ERun 0].
(* F19b: the re-lock with lock-only-if-exists reports the key absent *)
Definition f19b_run : list ev :=
  [EAggStart; ELock [4] false false false 10 (ok_lock [4]); EAggRetry;
   ELock [4] true false true 20 (mkLO false [] [4] 0 None); EAggDone; ERollback; ERun 0].

Example C06_f19_regression :
  wf_run (init true) f19_run /\
  (* after the failed re-lock the key is still a key of the previous attempt *)
  in_prev (run (init true) (firstn 5 f19_run)) 1 = true /\
  store (run (init true) (firstn 7 f19_run)) = [(1, Pess 10)] /\ store (run (init true) f19_run) = [].
Proof. split; [apply wf_runb_spec; reflexivity|]. vm_compute. auto. Qed.

Example C06_f19b_regression :
  wf_run (init true) f19b_run /\
  in_prev (run (init true) (firstn 4 f19b_run)) 4 = true /\
  store (run (init true) (firstn 6 f19b_run)) = [(4, Pess 10)] /\ store (run (init true) f19b_run) = [].
Proof. split; [apply wf_runb_spec; reflexivity|]. vm_compute. auto. Qed.

(* KVFilter (finding "kvfilter_drops_locked_delete", fixed in /repo: the model follows the fixed code):
   whatever the transaction's KVFilter declares unnecessary, every flagged (locked) key stays a
   mutation, so its lock is converted by the prewrite and released by commit / clean-up *)
Theorem C06_kvfilter_keeps_locked_keys :
  forall s unn k, In k (flags s) -> In k (mutations unn s).
Proof. exact flags_in_mutations. Qed.
Print Assumptions C06_kvfilter_keeps_locked_keys.

(* the replay of the finding: a filtered Delete on a locked key, alone and next to another mutation *)
Definition kvfilter_run : list ev :=
  [ELock [1] false false false 10 (ok_lock [1]); EDel 1; ECommit (mkCO M2PC [] [1] [1] COk); ERun 0].
Definition kvfilter_run2 : list ev :=
  [ELock [1] false false false 10 (ok_lock [1]); EDel 1; ESet 2; ECommit (mkCO M2PC [] [1] [1] COk); ERun 0].
Example C06_kvfilter_runs_clean :
  wf_run (init true) kvfilter_run /\ wf_run (init true) kvfilter_run2 /\
  mutations [1] (run (init true) (firstn 2 kvfilter_run)) = [1] /\
  mutations [1] (run (init true) (firstn 3 kvfilter_run2)) = [1; 2] /\
  store (run (init true) kvfilter_run) = [] /\ store (run (init true) kvfilter_run2) = [].
Proof. split; [apply wf_runb_spec; reflexivity|]. split; [apply wf_runb_spec; reflexivity|]. vm_compute. auto. Qed.

(* ---- non-vacuity: the hypotheses are satisfiable, and what goes wrong without them ---- *)
(* a partial LockKeys failure, a write conflict, an aggressive retry dropping a lock, a failed commit *)
Definition sample_run : list ev :=
  [ELock [1; 2; 3] false false false 10 (mkLO false [1; 2] [] 0 (Some FNoWait));
   ELock [2] false false false 11 (mkLO false [] [] 0 (Some FConflict));
   EAggStart; ELock [4] false false false 12 (ok_lock [4]); ELock [5] false false false 13 (mkLO false [5] [] 15 None);
   EAggRetry; ELock [4] false false false 16 (ok_lock []); EAggDone;
   ESet 3; ECommit (mkCO M2PC [3] [] [] CPrewriteFail);
   ERun 0; ERun 0; ERun 0].

Example C06_hypotheses_satisfiable :
  wf_run (init true) sample_run /\
  let s := run (init true) sample_run in valid s = false /\ tasks s = [] /\ store s = [].
Proof.
  split; [apply wf_runb_spec; reflexivity|]. vm_compute. auto.
Qed.

(* the store really held locks on the way (the run is not trivial) *)
Example C06_sample_run_holds_locks :
  map fst (store (run (init true) (firstn 8 sample_run))) = [5; 4; 1; 2].
Proof. vm_compute. reflexivity. Qed.

(* without "no Commit/Rollback while an attempt holds current keys": the code closes the
   transaction with an error and releases nothing *)
Example C06_rollback_while_pending_leaves_lock :
  let evs := [EAggStart; ELock [1] false false false 10 (ok_lock [1]); ERollback] in
  let s := run (init true) evs in
  ~ wf_run (init true) evs /\ valid s = false /\ tasks s = [] /\ map fst (store s) = [1].
Proof.
  split; [|vm_compute; auto]. intros H. apply wf_runb_spec in H. discriminate H.
Qed.

(* without "for-update ts non-decreasing": Rollback releases with the last (smaller) ts *)
Example C06_decreasing_for_update_ts_leaves_lock :
  let evs := [ELock [1] false false false 10 (ok_lock [1]); ELock [2] false false false 5 (ok_lock [2]); ERollback] in
  let s := run (init true) evs in
  ~ wf_run (init true) evs /\ valid s = false /\ tasks s = [] /\ store s = [(1, Pess 10)].
Proof.
  split; [|vm_compute; auto]. intros H. apply wf_runb_spec in H. discriminate H.
Qed.

(* ---- more non-vacuity: every event kind, every failure kind, every commit mode in well-formed runs
   that really hold locks and end clean ---- *)
Definition fail_lock (ks : list key) (e : fail) : lock_out := mkLO false ks [] 0 (Some e).
(* 1PC success; deadlock / timeout / other failures; a Delete; a partial task run *)
Definition sample_1pc : list ev :=
  [ELock [1; 2] false true false 10 (fail_lock [1] FDeadlock);
   ERunSome 0 [1];
   ELock [3] true false false 11 (fail_lock [] FTimeout);
   ELock [2; 3] true false false 12 (fail_lock [2; 3] FOther);
   ELock [4] false false false 13 (ok_lock [4]); EDel 4; EInsert 5; ELock [5] false false false 14 (ok_lock [5]);
   ECommit (mkCO M1PC [] [] [] COk); ERun 0; ERun 0; ERun 0].
Example C06_sample_1pc :
  wf_run (init true) sample_1pc /\ map fst (store (run (init true) (firstn 8 sample_1pc))) = [5; 4; 2; 3] /\
  let s := run (init true) sample_1pc in valid s = false /\ tasks s = [] /\ store s = [].
Proof. split; [apply wf_runb_spec; reflexivity|]. vm_compute. auto. Qed.

(* async commit (everything in the background); key exists; lock-only-if-exists on an absent fresh key;
   expiry of a previous-attempt lock forces the re-lock request; cancel *)
Definition sample_async : list ev :=
  [EInsert 1; ELock [1] false false false 10 (fail_lock [] FExists);
   EAggStart; ELock [2] true false true 11 (mkLO false [] [2] 0 None);
   ELock [3] true false false 12 (ok_lock [3]); EAggRetry;
   ELock [3] true false false 13 (mkLO true [3] [] 0 None);
   EAggCancel; ELock [4] false false false 14 (ok_lock [4]); ESet 4;
   ECommit (mkCO MAsync [] [] [] COk); ERun 0; ERunSome 0 [4]; ERun 0].
Example C06_sample_async :
  wf_run (init true) sample_async /\
  snd (lock_keys_full [3] true false false 13 (mkLO true [3] [] 0 None) (run (init true) (firstn 6 sample_async))) = [3] /\
  snd (lock_keys_full [3] true false false 13 (mkLO false [3] [] 0 None) (run (init true) (firstn 6 sample_async))) = [] /\
  let s := run (init true) sample_async in valid s = false /\ tasks s = [] /\ store s = [].
Proof. split; [apply wf_runb_spec; reflexivity|]. vm_compute. auto. Qed.

(* commit fails definitively after a successful prewrite; a filtered SET on a locked key is kept as a
   lock mutation (the filter is harmless there); optimistic transaction: prewrite conflict *)
Definition sample_cfail : list ev :=
  [ELock [1] false false false 10 (ok_lock [1]); ESet 1; ESet 2;
   ECommit (mkCO M2PC [] [] [1] CCommitFail); ERun 0].
Example C06_sample_commit_fail :
  wf_run (init true) sample_cfail /\ mutations [1] (run (init true) (firstn 3 sample_cfail)) = [1; 2] /\
  let s := run (init true) sample_cfail in valid s = false /\ tasks s = [] /\ store s = [].
Proof. split; [apply wf_runb_spec; reflexivity|]. vm_compute. auto. Qed.

Definition sample_optimistic : list ev :=
  [ESet 1; EDel 2; ECommit (mkCO M2PC [1] [] [] CPrewriteFail); ERun 0].
Example C06_sample_optimistic :
  wf_run (init false) sample_optimistic /\ map fst (store (run (init false) (firstn 3 sample_optimistic))) = [1] /\
  let s := run (init false) sample_optimistic in valid s = false /\ tasks s = [] /\ store s = [].
Proof. split; [apply wf_runb_spec; reflexivity|]. vm_compute. auto. Qed.

(* caller-contract observation (not a leftover): after a re-lock of a previous-attempt key failed with
   an error that schedules the rollback, the key is still in the previous-attempt map; a further
   LockKeys on it IN THE SAME attempt may take the skip path, and then the client counts a key as
   locked whose lock the pending rollback releases.  Callers retry or cancel after a failed call. *)
Definition skip_after_failed_relock : list ev :=
  [EAggStart; ELock [1] false false false 10 (ok_lock [1]); EAggRetry;
   ELock [1] true false false 20 (mkLO false [] [] 0 (Some FNoWait));
   ELock [1] false false false 21 (ok_lock []); ERun 0].
Example C06_note_skip_after_failed_relock :
  wf_run (init true) skip_after_failed_relock /\
  let s := run (init true) skip_after_failed_relock in in_cur s 1 = true /\ store s = [] /\ tasks s = [].
Proof. split; [apply wf_runb_spec; reflexivity|]. vm_compute. auto. Qed.

(* the key-exists error LockKeys returns from its pre-loop, before any request, is COMPUTED by the model
   ([early_exists]: an already-locked key that carries the insert flags and whose recorded existence says "exists";
   compared with the client on every LockKeys call of the check).  Whenever it fires — in any run, whatever the store
   answered before — the call sends nothing and changes nothing (beyond leaving a many-key aggressive attempt), and the
   culprit is a key this transaction inserted and tracks as locked; a call naming no inserted key never fails early. *)
Theorem C06_early_key_exists_meaning :
  forall (p : bool) (evs : list ev) (ks : list key),
  let s := run (init p) evs in
  let s1 := exit_agg ks s in
  early_exists s1 ks = true ->
  (forall rv ce loie f o, lock_keys_full ks rv ce loie f o s = (s1, [])) /\
  exists k, In k ks /\ (In (EInsert k) evs \/ In (EMark k) evs) /\
            (In k (flags s1) \/ in_cur s1 k = true \/ in_prev s1 k = true).
Proof. exact early_key_exists_meaning. Qed.
Print Assumptions C06_early_key_exists_meaning.

Theorem C06_no_early_key_exists_without_insert :
  forall (p : bool) (evs : list ev) (ks : list key),
  (forall k, In k ks -> ~ In (EInsert k) evs /\ ~ In (EMark k) evs) ->
  early_exists (exit_agg ks (run (init p) evs)) ks = false.
Proof. exact no_insert_no_early. Qed.
Print Assumptions C06_no_early_key_exists_without_insert.

(* d90-d95 of the check: plain lock then insert -> early error (the flag reads "exists" by default); existence checked
   and absent -> no error; an aggressive-locking entry without returned values reads "not exists" until Done copies it
   into the flags; a failed staged insert keeps its flags only over an older buffered value *)
Example C06_early_key_exists_examples :
  let E evs ks := early_exists (exit_agg ks (run (init true) evs)) ks in
  E [ELock [1] false false false 10 (ok_lock [1]); EMark 1] [1] = true /\
  E [ELock [1; 4] false true false 10 (mkLO false [1; 4] [4] 0 None); EMark 4; EMark 1] [4] = false /\
  E [ELock [1; 4] false true false 10 (mkLO false [1; 4] [4] 0 None); EMark 4; EMark 1] [1] = true /\
  E [EAggStart; ELock [1] false false false 10 (ok_lock [1]); EMark 1] [1] = false /\
  E [EAggStart; ELock [1] false false false 10 (ok_lock [1]); EInsert 1; EAggDone; EMark 1] [1] = true /\
  E [EAggStart; ELock [1] true false false 10 (ok_lock [1]); EMark 1] [1] = true /\
  E [EMark 1; ELock [1] false false false 10 (fail_lock [] FExists); EUnmark 1; ELock [1] false false false 11 (ok_lock [1])] [1] = false /\
  E [ESet 2; ELock [2] false false false 10 (ok_lock [2]); EMark 2; EUnmark 2] [2] = true /\
  E [ELock [1] false false false 10 (ok_lock [1]); EMark 1; EUnmark 1] [1] = false.
Proof. vm_compute. auto 12. Qed.

(* the converse of the bookkeeping invariant (oracle A of the check as a theorem): while the transaction is open, every
   key the client tracks as locked — flagged, a current aggressive-locking key, a previous-attempt key unless a call of
   this attempt failed — holds a lock in the store that NO pending background release removes, however late it runs.
   On top of [wf_run] this needs ([wf_run_held]): a fresh for-update ts for every LockKeys (greater than the ts of
   every pending rollback and, inside an attempt, than every ts the attempt used: [fresh_ts]); a store that reports success only if it locked every
   key of the call (or found it absent under lock-only-if-exists: [store_ok]); and, after a LockKeys that failed inside an
   aggressive-locking attempt, Retry / Cancel / Done before the next LockKeys ([next_blocked]; cf.
   C06_note_skip_after_failed_relock).  Seeded change C01-5 (rollback ts taken when the task runs) breaks exactly this. *)
Theorem C06_tracked_keys_hold_locks :
  forall evs : list ev, wf_run_held false (init true) evs ->
  let s := run (init true) evs in
  valid s = true ->
  forall k,
    (In k (flags s) \/ in_cur s k = true \/ (blocked_after false (init true) evs = false /\ in_prev s k = true)) ->
    exists l, In (k, l) (store s) /\ forall t, In t (tasks s) -> releases t (k, l) = false.
Proof. exact tracked_keys_hold_locks. Qed.
Print Assumptions C06_tracked_keys_hold_locks.

(* the form the check uses: the model driver evaluates the executable contract [wf_run_heldb] (Contract.v) along every
   replayed program; where it holds, the lock set of the model at a quiescent point contains every tracked key, and that
   lock set is compared with the store's (audit steps) *)
Theorem C06_tracked_keys_hold_locks_checked :
  forall evs : list ev, wf_run (init true) evs -> wf_run_heldb false (init true) evs = true ->
  let s := run (init true) evs in
  valid s = true ->
  forall k, (In k (flags s) \/ in_cur s k = true) ->
  exists l, In (k, l) (store s) /\ forall t, In t (tasks s) -> releases t (k, l) = false.
Proof. exact C06_tracked_keys_hold_locks_checked_proof. Qed.
Print Assumptions C06_tracked_keys_hold_locks_checked.


(* a run inside the contract: a failed multi-key call, its retry with a fresh ts, an attempt with a failed call followed by
   Retry, a key taken over without a request, Done — pending rollbacks run late *)
Definition held_run : list ev :=
  [ELock [1; 2] false false false 10 (ok_lock [1; 2]);
   ELock [3; 4] false false false 20 (fail_lock [3] FNoWait);
   ELock [3] false false false 30 (ok_lock [3]);
   EAggStart; ELock [5] false false false 40 (ok_lock [5]);
   ELock [6] false false false 50 (fail_lock [] FDeadlock); EAggRetry;
   ELock [5] false false false 60 (ok_lock [5]); ELock [7] false false false 70 (ok_lock [7]); EAggDone;
   ERun 0; ERun 0].
Example C06_tracked_keys_hold_locks_run :
  wf_run_held false (init true) held_run /\
  let s := run (init true) held_run in
  valid s = true /\ flags s = [1; 2; 3; 7; 5] /\ map fst (store s) = [7; 5; 3; 1; 2] /\ tasks s = [].
Proof. split; [apply wf_run_heldb_sound; [apply wf_runb_spec|]; reflexivity|]. vm_compute. auto. Qed.
Example C06_tracked_keys_contract_checker :
  wf_run_heldb false (init true) held_run = true /\
  wf_run_heldb false (init true) [ELock [1; 2] false false false 10 (fail_lock [1] FNoWait); ELock [1] false false false 10 (ok_lock [1])] = false /\
  wf_run_heldb false (init true) [ELock [1] false false false 10 (ok_lock [])] = false /\
  wf_run_heldb false (init true) skip_after_failed_relock = false.
Proof. vm_compute. auto. Qed.

(* each extra clause matters (all three runs satisfy [wf_run]): a retry with the SAME for-update ts loses its lock to the
   late rollback of the failed call; a store that acknowledges without locking; (the third clause:
   C06_note_skip_after_failed_relock) *)
Example C06_tracked_keys_need_the_contract :
  (let evs := [ELock [1; 2] false false false 10 (fail_lock [1] FNoWait); ELock [1] false false false 10 (ok_lock [1]); ERun 0] in
   wf_run (init true) evs /\ flags (run (init true) evs) = [1] /\ store (run (init true) evs) = []) /\
  (let evs := [ELock [1] false false false 10 (ok_lock [])] in
   wf_run (init true) evs /\ flags (run (init true) evs) = [1] /\ store (run (init true) evs) = []).
Proof. split; (split; [apply wf_runb_spec; reflexivity|vm_compute; auto]). Qed.
