(* C18 — the builder / send-loop / async layer over the core system: every layer step is a run of core steps
   (xstep_core_run), so what holds of reachable core states holds of the layer; builder rounds; the wake-up; the exits of the
   send loop and the asynchronous calls; the unary path; the ids of the layer *)
From Coq Require Import List Arith Bool Lia Sorted.
Import ListNotations.
From Verif Require Import BatchRPC.Model BatchRPC.Iter BatchRPC.Proofs3 BatchRPC.Proofs BatchRPC.CoreProofs BatchRPC.System.

(* the core labels of a layer step; only a builder round contains a Build *)
Definition is_build (l : label) : bool := match l with Build _ _ => true | _ => false end.
Definition no_build (ls : list label) : bool := forallb (fun l => negb (is_build l)) ls.

Lemma no_build_map : forall (A : Type) (f : A -> label) (l : list A), (forall a, is_build (f a) = false) -> no_build (map f l) = true.
Proof. intros A f l H. induction l; simpl; auto. now rewrite H. Qed.

(* Five layer steps (builder round, clean, cancel, the two exits) are a guard and a core run over a list of labels. *)
Lemma batch_step : forall (g : bool) s ls (mk : state -> sys) x',
  (if g then match run s ls with Some st => Some (mk st) | None => None end else None) = Some x' ->
  g = true /\ exists st, run s ls = Some st /\ x' = mk st.
Proof. intros g s ls mk x' H. destruct g; [|discriminate]. destruct (run s ls) as [st|]; inversion H. eauto. Qed.

Lemma round_step : forall x lim takes x', xstep x (XBuildRound lim takes) = Some x' ->
  round_guard x lim takes = true
  /\ exists st, run (core x) (build_labels (ent (core x)) (next_id (core x)) takes) = Some st
       /\ x' = mkSys st (chq x) (filter (fun c => negb (memb c takes)) (inb x)) (pri x) (asy x) (sendloop x) false (idle x).
Proof. intros x lim takes x' H. exact (batch_step _ _ _ _ _ H). Qed.

Lemma xstep_core_run : forall x l x', xstep x l = Some x' ->
  exists ls, run (core x) ls = Some (core x') /\ ((forall lim takes, l <> XBuildRound lim takes) -> no_build ls = true).
Proof.
  intros x l x' H. destruct l; unfold xstep in H.
  3-7: destruct (batch_step _ _ _ _ _ H) as (_ & st & E & ->); (eexists; split; [exact E|]).
  3: intros N; now destruct (N lim takes).
  3-6: intros _; now apply no_build_map.
  - destruct (step (core x) (Submit c h)) as [st|] eqn:E; [|discriminate].
    destruct (a && closed st).
    + destruct (step st (QueueFail c)) as [s2|] eqn:E2; inversion H; subst;
        [exists [Submit c h; QueueFail c] | exists [Submit c h]]; cbn [run core]; rewrite E; try rewrite E2; auto.
    + destruct (a && idle x).
      * destruct (step st (IdleFail c)) as [s2|] eqn:E2; inversion H; subst;
          [exists [Submit c h; IdleFail c] | exists [Submit c h]]; cbn [run core]; rewrite E; try rewrite E2; auto.
      * inversion H; subst. exists [Submit c h]. cbn [run core]. rewrite E. auto.
  - destruct (sendloop x && memb c (chq x) && negb (memb c (inb x)) && is_queued (e_st (ent (core x) c))); [|discriminate].
    inversion H; subst. exists []. auto.
  - destruct (sendloop x && match inb x with [] => false | _ => true end); [|discriminate].
    inversion H; subst. exists []. auto.
  - destruct (core_allowed x l) eqn:CA; [|discriminate]. destruct (step (core x) l) eqn:E; [|discriminate].
    inversion H; subst. exists [l]. cbn [run]. rewrite E. split; auto.
    intros _. destruct l; simpl in CA; try discriminate; reflexivity.
Qed.

Lemma xrun_core_run : forall ls x x', xrun x ls = Some x' -> exists cls, run (core x) cls = Some (core x').
Proof.
  intros ls x x' H. apply (iter_inv xstep (fun x1 => exists cls, run (core x) cls = Some (core x1))) with (ls := ls) (s := x); auto.
  - intros x1 l x2 E [l1 H1]. destruct (xstep_core_run _ _ _ E) as (l2 & H2 & _). exists (l1 ++ l2). now rewrite run_app, H1.
  - now exists [].
Qed.

Lemma xreach_core : forall x, xreach x -> reachable (core x).
Proof. intros x [ls H]. destruct (xrun_core_run _ _ _ H) as [cls Hc]. exists cls. exact Hc. Qed.

Lemma memb_In : forall c l, memb c l = true <-> In c l.
Proof.
  intros c l. unfold memb. rewrite existsb_exists. split.
  - intros [y [Hy E]]. apply Nat.eqb_eq in E. now subst.
  - intros H. exists c. split; auto. apply Nat.eqb_refl.
Qed.

Lemma nodupb_NoDup : forall l, nodupb l = true -> NoDup l.
Proof.
  induction l as [|c r IH]; simpl; intros H; [constructor|].
  apply andb_prop in H. destruct H as [A B]. constructor; auto.
  intros Hin. apply memb_In in Hin. rewrite Hin in A. discriminate.
Qed.

Lemma nodupb_of_NoDup : forall l, NoDup l -> nodupb l = true.
Proof.
  induction l as [|c r IH]; simpl; intros H; auto. inversion H; subst. rewrite IH by auto.
  destruct (memb c r) eqn:M; auto. apply memb_In in M. tauto.
Qed.

Lemma filter_none : forall (A : Type) (p : A -> bool) (l : list A), (forall a, In a l -> p a = false) -> filter p l = [].
Proof.
  induction l as [|a r IH]; simpl; intros H; auto. rewrite (H a (or_introl eq_refl)). apply IH. intros b Hb. apply H. now right.
Qed.

(* the guards of a builder round, read as propositions *)
Lemma round_ok_spec : forall pr q takes, round_ok pr q takes = true <->
  NoDup takes /\ (forall t, In t takes -> In t q)
  /\ (forall r, In r q -> In r takes \/ (pr r < high_pri /\ forall t, In t takes -> pr r <= pr t)).
Proof.
  intros pr q takes. unfold round_ok. rewrite !andb_true_iff, !forallb_forall. split.
  - intros ((A & B) & C). split; [now apply nodupb_NoDup|]. split; [intros t Ht; apply memb_In; auto|].
    intros r Hr. specialize (C r Hr). apply orb_true_iff in C. destruct C as [C|C]; [left; now apply memb_In | right].
    apply andb_true_iff in C. destruct C as [C1 C2]. rewrite forallb_forall in C2.
    split; [now apply Nat.ltb_lt | intros t Ht; apply Nat.leb_le; auto].
  - intros (A & B & C). split; [split; [now apply nodupb_of_NoDup | intros t Ht; apply memb_In; auto]|].
    intros r Hr. apply orb_true_iff. destruct (C r Hr) as [D|[D1 D2]]; [left; now apply memb_In | right].
    apply andb_true_iff. split; [now apply Nat.ltb_lt | apply forallb_forall; intros t Ht; apply Nat.leb_le; auto].
Qed.

Lemma quota_ok_spec : forall lim f pr q takes, quota_ok lim f pr q takes = true <->
  (forall r, In r q -> In r takes) \/ exists l, lim = Some l /\ l <= counted f pr takes.
Proof.
  intros lim f pr q takes. unfold quota_ok. rewrite orb_true_iff, forallb_forall. split; intros [A|A].
  - left. intros r Hr. apply memb_In; auto.
  - right. destruct lim as [l|]; [|discriminate]. exists l. split; auto. now apply Nat.leb_le.
  - left. intros r Hr. apply memb_In; auto.
  - right. destruct A as (l & -> & A). now apply Nat.leb_le.
Qed.

Lemma round_guard_spec : forall x lim takes, round_guard x lim takes = true <->
  sendloop x = true /\ ready x = true /\ round_ok (pri x) (inb x) takes = true
  /\ quota_ok lim (ent (core x)) (pri x) (inb x) takes = true.
Proof. intros. unfold round_guard. rewrite !andb_true_iff. tauto. Qed.

Lemma round_discipline : forall x lim takes x', xstep x (XBuildRound lim takes) = Some x' ->
  (forall t, In t takes -> In t (inb x))
  /\ (forall r, In r (inb x') -> In r (inb x) /\ ~ In r takes /\ pri x r < high_pri /\ forall t, In t takes -> pri x r <= pri x t).
Proof.
  intros x lim takes x' H. destruct (round_step _ _ _ _ H) as (G & st & _ & ->). simpl.
  apply round_guard_spec in G. destruct G as (_ & _ & G & _). apply round_ok_spec in G. destruct G as (_ & G2 & G3).
  split; [exact G2|].
  intros r Hr. apply filter_In in Hr. destruct Hr as [Hin Hn]. apply negb_true_iff in Hn.
  assert (Hc : ~ In r takes) by (intros Hc; apply memb_In in Hc; congruence).
  destruct (G3 _ Hin) as [A|[A B]]; tauto.
Qed.

Lemma build_pairs_ids : forall takes f n, map fst (build_pairs f n takes) = seq (S n) (length (build_pairs f n takes)).
Proof.
  induction takes as [|c r IH]; simpl; intros f n; [reflexivity|].
  destruct (e_canceled (f c)); [apply IH|]. cbn [map fst length seq]. now rewrite IH.
Qed.

Lemma build_pairs_in : forall takes f n i c, In (i, c) (build_pairs f n takes) -> In c takes /\ e_canceled (f c) = false.
Proof.
  induction takes as [|c0 r IH]; simpl; intros f n i c Hin; [tauto|].
  destruct (e_canceled (f c0)) eqn:EC.
  - destruct (IH _ _ _ _ Hin); auto.
  - destruct Hin as [E|Hin]; [inversion E; subst; auto | destruct (IH _ _ _ _ Hin); auto].
Qed.

(* The core run of a builder round: the allocation log and the counter afterwards, and what has become of each entry --
   one not popped is as it was, a popped one is retired (cancelled) or built under its id of build_pairs. *)
Lemma build_run_spec : forall takes f n s s', NoDup takes -> next_id s = n -> run s (build_labels f n takes) = Some s' ->
  alloc s' = rev (build_pairs f n takes) ++ alloc s
  /\ next_id s' = n + length (build_pairs f n takes)
  /\ (forall c, ~ In c takes -> ent s' c = ent s c)
  /\ (forall c, In c takes ->
        (e_canceled (f c) = true /\ e_st (ent s' c) = Retired /\ e_comp (ent s' c) = e_comp (ent s c))
        \/ (e_canceled (f c) = false /\ exists i, e_st (ent s' c) = Built i /\ In (i, c) (build_pairs f n takes))).
Proof.
  induction takes as [|c0 r IH]; simpl; intros f n s s' ND Hn H.
  - inversion H; subst. repeat split; auto. intros c [].
  - inversion ND as [|? ? Hnot ND']; subst.
    (* the first step rewrites the entry of c0 and no other; the rest of the round leaves c0 alone *)
    destruct (e_canceled (f c0)) eqn:EC; cbn [run] in H.
    + destruct (step s (DropCanceled c0)) as [s1|] eqn:E; [|discriminate]. destruct (drop_step _ _ _ E) as (_ & _ & ->).
      destruct (IH f _ _ s' ND' eq_refl H) as (A & B & C & D). simpl in *.
      split; [exact A|]. split; [exact B|]. split.
      * intros c Hc. rewrite C by tauto. apply upd_other. intros ->. tauto.
      * intros c [<-|Hin].
        -- left. rewrite (C c0 Hnot), upd_same. auto.
        -- assert (c <> c0) by (intros ->; tauto).
           destruct (D c Hin) as [(P & Q & R)|(P & i & Q & R)]; [left | right; eauto].
           repeat split; auto. rewrite R. now rewrite upd_other.
    + destruct (step s (Build c0 (S (next_id s)))) as [s1|] eqn:E; [|discriminate].
      destruct (build_step _ _ _ _ E) as (_ & _ & _ & ->).
      destruct (IH f _ _ s' ND' eq_refl H) as (A & B & C & D). simpl in *.
      split; [rewrite A, <- app_assoc; reflexivity|]. split; [rewrite B; lia|]. split.
      * intros c Hc. rewrite C by tauto. apply upd_other. intros ->. tauto.
      * intros c [<-|Hin].
        -- right. split; auto. exists (S (next_id s)). split; [|now left]. now rewrite (C c0 Hnot), upd_same.
        -- assert (c <> c0) by (intros ->; tauto).
           destruct (D c Hin) as [(P & Q & R)|(P & i & Q & R)]; [left | right].
           ++ repeat split; auto. rewrite R. now rewrite upd_other.
           ++ split; auto. exists i. split; auto.
Qed.

Lemma round_takes_nodup : forall x lim takes, round_guard x lim takes = true -> NoDup takes.
Proof.
  intros x lim takes G. apply round_guard_spec in G. destruct G as (_ & _ & G & _). apply round_ok_spec in G. apply G.
Qed.

Lemma round_ids_consecutive : forall x lim takes x', xstep x (XBuildRound lim takes) = Some x' ->
  let ps := build_pairs (ent (core x)) (next_id (core x)) takes in
  alloc (core x') = rev ps ++ alloc (core x)
  /\ next_id (core x') = next_id (core x) + length ps
  /\ map fst ps = seq (S (next_id (core x))) (length ps)
  /\ (forall i c, In (i, c) ps -> In c takes /\ e_canceled (ent (core x) c) = false).
Proof.
  intros x lim takes x' H. destruct (round_step _ _ _ _ H) as (G & st & E & ->). cbn [core].
  destruct (build_run_spec _ _ _ _ _ (round_takes_nodup _ _ _ G) eq_refl E) as (A & B & _).
  split; [exact A|]. split; [exact B|]. split; [apply build_pairs_ids|]. intros i c Hin. eapply build_pairs_in; eauto.
Qed.

Lemma round_nothing_lost : forall x lim takes x', xstep x (XBuildRound lim takes) = Some x' ->
  forall c, In c (inb x) ->
    (In c takes /\ e_canceled (ent (core x) c) = true /\ e_st (ent (core x') c) = Retired)
    \/ (In c takes /\ e_canceled (ent (core x) c) = false /\ exists i, e_st (ent (core x') c) = Built i /\ In (i, c) (alloc (core x')))
    \/ (~ In c takes /\ In c (inb x') /\ ent (core x') c = ent (core x) c).
Proof.
  intros x lim takes x' H c Hin. destruct (round_step _ _ _ _ H) as (G & st & E & ->). cbn [core inb].
  destruct (build_run_spec _ _ _ _ _ (round_takes_nodup _ _ _ G) eq_refl E) as (A & _ & C & D).
  destruct (in_dec Nat.eq_dec c takes) as [Ht|Hn].
  - destruct (D c Ht) as [(P & Q & _)|(P & i & Q & R)]; [left; auto | right; left].
    repeat split; auto. exists i. split; auto. rewrite A. apply in_or_app. left. now apply -> in_rev.
  - right; right. split; auto. split; [|now apply C].
    apply filter_In. split; auto. destruct (memb c takes) eqn:M; auto. apply memb_In in M. tauto.
Qed.

(* the quota: entries are only left behind when the (soft) quota is used up *)
Lemma round_quota : forall x lim takes x', xstep x (XBuildRound lim takes) = Some x' ->
  inb x' = [] \/ exists l, lim = Some l /\ l <= counted (ent (core x)) (pri x) takes.
Proof.
  intros x lim takes x' H. destruct (round_step _ _ _ _ H) as (G & st & _ & ->). cbn [inb].
  apply round_guard_spec in G. destruct G as (_ & _ & _ & G). apply quota_ok_spec in G. destruct G as [G|G]; [left | now right].
  apply filter_none. intros a Ha. apply G, memb_In in Ha. now rewrite Ha.
Qed.

Lemma build_labels_succeeds : forall takes f n s, NoDup takes -> next_id s = n ->
  (forall c, In c takes -> ent s c = f c /\ e_st (f c) = Queued) ->
  exists s', run s (build_labels f n takes) = Some s'.
Proof.
  induction takes as [|c0 r IH]; simpl; intros f n s ND Hn Hq; [eexists; reflexivity|].
  inversion ND as [|? ? Hnot ND']; subst.
  destruct (Hq c0 (or_introl eq_refl)) as [E0 Q0].
  destruct (e_canceled (f c0)) eqn:EC; cbn [run].
  - assert (Es : step s (DropCanceled c0) = Some (with_ent s (upd (ent s) c0 (retire (ent s c0))))).
    { simpl. rewrite E0, Q0, EC. reflexivity. }
    rewrite Es. apply IH; auto. intros c Hc. simpl.
    assert (c <> c0) by (intros E; subst; tauto). rewrite upd_other by auto. apply Hq. now right.
  - assert (Es : step s (Build c0 (S (next_id s))) = Some (mkState (S (next_id s)) (tab s) (upd (ent s) c0 (set_st (ent s c0) (Built (S (next_id s))))) (loops s) (epoch s) (closed s) (outdated s) ((S (next_id s), c0) :: alloc s))).
    { simpl. rewrite E0, Q0, EC. simpl. assert (next_id s <? S (next_id s) = true) as -> by (apply Nat.ltb_lt; lia). reflexivity. }
    rewrite Es. apply IH; auto. intros c Hc. simpl.
    assert (c <> c0) by (intros E; subst; tauto). rewrite upd_other by auto. apply Hq. now right.
Qed.

(* the converse of round_step: a round whose guard holds, over queued entries, is a step *)
Lemma round_enabled : forall x lim takes, round_guard x lim takes = true ->
  (forall c, In c takes -> e_st (ent (core x) c) = Queued) ->
  exists st, run (core x) (build_labels (ent (core x)) (next_id (core x)) takes) = Some st
    /\ xstep x (XBuildRound lim takes)
       = Some (mkSys st (chq x) (filter (fun c => negb (memb c takes)) (inb x)) (pri x) (asy x) (sendloop x) false (idle x)).
Proof.
  intros x lim takes G HQ.
  destruct (build_labels_succeeds takes (ent (core x)) (next_id (core x)) (core x) (round_takes_nodup _ _ _ G) eq_refl)
    as [st Hr]; [intros c Hc; split; auto|].
  exists st. split; [exact Hr|]. unfold xstep. now rewrite G, Hr.
Qed.

(* progress: whenever the send loop is alive and an entry sits in a well-formed builder, the wake-up step is enabled
   -- no request has to arrive -- and after it a round that builds the entry is enabled (popping the whole builder is
   always a legal round: nothing stays behind) *)
Lemma wake_builds_leftover : forall x c, sendloop x = true -> NoDup (inb x) ->
  (forall c', In c' (inb x) -> e_st (ent (core x) c') = Queued) ->
  In c (inb x) -> e_canceled (ent (core x) c) = false ->
  exists x1, xstep x XWake = Some x1 /\ core x1 = core x /\ inb x1 = inb x
    /\ forall lim, exists x2 i, xstep x1 (XBuildRound lim (inb x)) = Some x2 /\ e_st (ent (core x2) c) = Built i /\ inb x2 = [].
Proof.
  intros x c HS ND HQ Hin HC.
  set (x1 := mkSys (core x) (chq x) (inb x) (pri x) (asy x) (sendloop x) true (idle x)).
  exists x1. split; [unfold x1; simpl; rewrite HS; destruct (inb x); [destruct Hin | reflexivity]|].
  split; [reflexivity|]. split; [reflexivity|]. intros lim.
  assert (G : round_guard x1 lim (inb x) = true).
  { apply round_guard_spec. split; [exact HS|]. split; [reflexivity|]. split.
    - apply round_ok_spec. auto.
    - apply quota_ok_spec. auto. }
  destruct (round_enabled x1 lim (inb x) G HQ) as (st & Hr & Hx).
  destruct (build_run_spec _ _ _ _ _ ND eq_refl Hr) as (_ & _ & _ & D).
  destruct (D c Hin) as [(P & _)|(_ & i & Q & _)]; [simpl in P; congruence|].
  eexists; exists i. split; [exact Hx|]. split; [exact Q|].
  unfold x1. cbn [inb]. apply filter_none. intros a Ha. apply memb_In in Ha. now rewrite Ha.
Qed.

(* What a layer step does to the flags of the send loop.  With the loop gone only submissions and core steps remain, and
   it stays gone; it goes only on a closed client or by making the conn idle; idle is for good; only an arrival or the
   wake-up make a waiting loop ready. *)
Lemma xstep_flags : forall x l x', xstep x l = Some x' ->
  (sendloop x = false -> sendloop x' = false /\ ((exists c h p a, l = XSubmit c h p a) \/ exists l0, l = XCore l0))
  /\ (sendloop x' = false -> sendloop x = false \/ closed (core x) = true \/ idle x' = true)
  /\ (idle x = true -> idle x' = true)
  /\ (ready x' = true -> ready x = true \/ l = XWake \/ exists c, l = XFetch c).
Proof.
  intros x l x' H. destruct l; unfold xstep in H.
  (* the five batch steps need a live send loop *)
  3-7: destruct (batch_step _ _ _ _ _ H) as (G & st & _ & ->); simpl;
       (split; [intros HS; try unfold round_guard in G; rewrite HS in G; discriminate|]).
  - destruct (step (core x) (Submit c h)); [|discriminate]. inversion H; subst; simpl.
    split; [eauto 7|]. repeat split; auto.
  - destruct (sendloop x && memb c (chq x) && negb (memb c (inb x)) && is_queued (e_st (ent (core x) c))) eqn:G; [|discriminate].
    inversion H; subst; simpl. split; [intros HS; rewrite HS in G; discriminate|]. repeat split; eauto.
  - split; [auto|]. split; [auto | discriminate].
  - repeat split; auto.
  - repeat split; auto.
  - apply andb_prop in G. destruct G as [G _]. apply andb_prop in G. destruct G as [_ G].
    split; [auto|]. split; [auto | discriminate].
  - split; [auto|]. split; [auto | discriminate].
  - destruct (sendloop x && match inb x with [] => false | _ => true end) eqn:G; [|discriminate].
    inversion H; subst; simpl. split; [intros HS; rewrite HS in G; discriminate | repeat split; auto].
  - destruct (core_allowed x l); [|discriminate]. destruct (step (core x) l); [|discriminate]. inversion H; subst; simpl.
    split; [eauto | repeat split; auto].
Qed.

(* before the fix there was no wake-up: a send loop that is waiting (not ready) builds nothing, and only the arrival of a
   request (XFetch) or the wake-up makes it ready again *)
Lemma leftover_needs_wake : forall x l x', ready x = false -> xstep x l = Some x' ->
  l <> XWake -> (forall c, l <> XFetch c) ->
  ready x' = false /\ (forall lim takes, xstep x (XBuildRound lim takes) = None).
Proof.
  intros x l x' HR H N1 N2. split.
  - destruct (xstep_flags _ _ _ H) as (_ & _ & _ & F). destruct (ready x'); auto.
    destruct (F eq_refl) as [E|[E|[c E]]]; [congruence | contradiction | now apply N2 in E].
  - intros lim takes. unfold xstep, round_guard. rewrite HR. now rewrite andb_false_r.
Qed.

Lemma step_keeps_queued_entry : forall s l s' c, Inv s -> e_st (ent s c) = Queued -> e_comp (ent s c) = [] ->
  step s l = Some s' ->
  (forall i, l <> Build c i) -> l <> DropCanceled c -> l <> NoConn c -> l <> InitFail c ->
  (forall k, l <> Abort c k) -> l <> QueueFail c -> l <> IdleFail c ->
  ent s' c = ent s c.
Proof.
  intros s l s' c I HQ HC H N2 N3 N4 N5 N6 N7 N8.
  destruct (step_etrans _ _ _ I H c) as [E|(A & X & _)]; [exact E | exfalso].
  (* the label acts on c and expects it queued: it is one of those excluded, or Return, which needs a completion *)
  destruct l; simpl in A, X; subst; try contradiction; try congruence.
  all: destruct X as [i X]; congruence.
Qed.

Lemma queuefail_step : forall s c s', step s (QueueFail c) = Some s' ->
  e_st (ent s c) = Queued /\ ent s' = upd (ent s) c (complete (ent s c) (Err EClosed)).
Proof.
  intros s c s' H. simpl in H. destruct (e_st (ent s c)); try discriminate. destruct (closed s); try discriminate.
  inversion H; auto.
Qed.

Lemma idlefail_step : forall s c s', step s (IdleFail c) = Some s' ->
  e_st (ent s c) = Queued /\ ent s' = upd (ent s) c (complete (ent s c) (Err EIdle)).
Proof. intros s c s' H. simpl in H. destruct (e_st (ent s c)); try discriminate. inversion H; auto. Qed.

(* a submission, with the async sender's re-check, rewrites no entry but its own *)
Lemma xsubmit_other : forall x c0 h p a x' c, xstep x (XSubmit c0 h p a) = Some x' -> c <> c0 ->
  ent (core x') c = ent (core x) c.
Proof.
  intros x c0 h p a x' c H N. unfold xstep in H. destruct (step (core x) (Submit c0 h)) as [st|] eqn:E; [|discriminate].
  remember (step st (QueueFail c0)) as q eqn:E2. remember (step st (IdleFail c0)) as i eqn:E3. symmetry in E2, E3.
  injection H as <-. cbn [core]. rewrite <- (submit_other _ _ _ _ c E N).
  destruct (a && closed st); cbv iota.
  - destruct q as [s2|]; [|reflexivity]. destruct (queuefail_step _ _ _ E2) as [_ ->]. now apply upd_other.
  - destruct (a && idle x); cbv iota; [|reflexivity].
    destruct i as [s2|]; [|reflexivity]. destruct (idlefail_step _ _ _ E3) as [_ ->]. now apply upd_other.
Qed.

(* once batchSendLoop has returned -- on close or on the idle timer -- a queued asynchronous call is completed by nothing
   but its own context: the sender's re-check of batchConn.closed happened when it enqueued, the drain when the loop exited *)
Lemma async_after_exit : forall x c l x', xreach x -> sendloop x = false -> asy x c = true ->
  e_st (ent (core x) c) = Queued -> e_comp (ent (core x) c) = [] ->
  xstep x l = Some x' ->
  (forall k, l <> XCore (Abort c k)) ->
  ent (core x') c = ent (core x) c /\ sendloop x' = false /\ asy x' c = true.
Proof.
  intros x c l x' R HS HA HQ HC H N. pose proof (reachable_inv _ (xreach_core x R)) as I.
  destruct (xstep_flags _ _ _ H) as (F & _). destruct (F HS) as [HS' Hl]. clear F.
  destruct Hl as [(c0 & h & p & a & ->)|(l0 & ->)].
  - (* c is queued, the submitted entry was fresh *)
    assert (Hne : c <> c0) by (intros ->; unfold xstep in H; simpl in H; rewrite HQ in H; discriminate).
    split; [exact (xsubmit_other _ _ _ _ _ _ _ H Hne)|]. split; [exact HS'|].
    unfold xstep in H. destruct (step (core x) (Submit c0 h)); [|discriminate]. injection H as <-. cbn [asy].
    unfold updb. destruct (Nat.eqb_spec c c0); congruence.
  - split; [|split; [exact HS'|]]; simpl in H; destruct (core_allowed x l0) eqn:CA; try discriminate;
      destruct (step (core x) l0) as [st|] eqn:E; try discriminate; inversion H; subst; clear H; simpl; auto.
    eapply step_keeps_queued_entry; eauto; intros; intro El; subst l0; simpl in CA; rewrite ?HS, ?HA in CA; simpl in CA; try discriminate.
    eapply N; eauto.
Qed.

(* the drain at the exit of the send loop: QueueFail (closed) or IdleFail over the queued async entries of the channel *)
Lemma run_drain : forall (lab : caller -> label) k,
  (forall s c s', step s (lab c) = Some s' ->
     e_st (ent s c) = Queued /\ ent s' = upd (ent s) c (complete (ent s c) (Err k))) ->
  forall cs s s', run s (map lab cs) = Some s' ->
  (forall c, In c cs -> e_st (ent s c) = Queued /\ e_comp (ent s' c) = e_comp (ent s c) ++ [Err k] /\ e_st (ent s' c) = Retired)
  /\ (forall c, ~ In c cs -> ent s' c = ent s c).
Proof.
  intros lab k Hlab. induction cs as [|c0 r IH]; cbn [map run]; intros s s' H.
  - inversion H; subst. split; [intros c [] | auto].
  - destruct (step s (lab c0)) as [s1|] eqn:E; [|discriminate]. destruct (Hlab _ _ _ E) as [Q E1].
    destruct (IH _ _ H) as [A B]. clear IH.
    assert (Hn : ~ In c0 r).
    { intros Hin. destruct (A _ Hin) as (Q1 & _). rewrite E1, upd_same in Q1. discriminate. }
    split.
    + intros c [<-|Hin].
      * rewrite (B _ Hn), E1, upd_same. auto.
      * destruct (A _ Hin) as (Q1 & C & D). assert (c <> c0) by (intros ->; tauto).
        rewrite E1, upd_other in Q1, C by auto. auto.
    + intros c Hc. assert (c <> c0) by (intros ->; apply Hc; now left).
      rewrite B by (intros Hin; apply Hc; now right). rewrite E1. now apply upd_other.
Qed.

(* failQueuedAsyncRequestsOnClose: when batchSendLoop returns, every asynchronous entry still in the channel is
   completed with exactly the closed error; the channel is empty afterwards *)
Lemma send_exit_drains : forall x x', xstep x XSendExit = Some x' ->
  chq x' = [] /\ sendloop x' = false
  /\ (forall c, In c (chq x) -> asy x c = true -> e_st (ent (core x) c) = Queued ->
        e_comp (ent (core x') c) = e_comp (ent (core x) c) ++ [Err EClosed] /\ e_st (ent (core x') c) = Retired).
Proof.
  intros x x' H. destruct (batch_step _ _ _ _ _ H) as (_ & st & E & ->). simpl.
  split; auto. split; auto. intros c Hin HA HQ. destruct (run_drain _ _ queuefail_step _ _ _ E) as [A _].
  destruct (A c) as (_ & B & C); auto. unfold drained. apply filter_In. split; auto. now rewrite HA, HQ.
Qed.

Lemma idle_exit_drains : forall x x', xstep x XIdleExit = Some x' ->
  chq x' = [] /\ sendloop x' = false /\ idle x' = true
  /\ (forall c, In c (chq x) -> asy x c = true -> e_st (ent (core x) c) = Queued ->
        e_comp (ent (core x') c) = e_comp (ent (core x) c) ++ [Err EIdle] /\ e_st (ent (core x') c) = Retired).
Proof.
  intros x x' H. destruct (batch_step _ _ _ _ _ H) as (_ & st & E & ->). simpl.
  split; auto. split; auto. split; auto. intros c Hin HA HQ. destruct (run_drain _ _ idlefail_step _ _ _ E) as [A _].
  destruct (A c) as (_ & B & C); auto. unfold drained. apply filter_In. split; auto. now rewrite HA, HQ.
Qed.

(* whichever way batchSendLoop returns, it drains the channel and every asynchronous entry queued there gets exactly one
   error (closed / idle) *)
Lemma exit_drains : forall x l x', (l = XSendExit \/ l = XIdleExit) -> xstep x l = Some x' ->
  chq x' = [] /\ sendloop x' = false
  /\ (forall c, In c (chq x) -> asy x c = true -> e_st (ent (core x) c) = Queued ->
        exists e, (e = EClosed \/ e = EIdle) /\ e_comp (ent (core x') c) = e_comp (ent (core x) c) ++ [Err e]
                  /\ e_st (ent (core x') c) = Retired).
Proof.
  intros x l x' [E|E] H; subst l.
  - destruct (send_exit_drains _ _ H) as (A & B & C). split; auto. split; auto.
    intros c H1 H2 H3. destruct (C c H1 H2 H3) as [D F]. exists EClosed. auto.
  - destruct (idle_exit_drains _ _ H) as (A & B & _ & C). split; auto. split; auto.
    intros c H1 H2 H3. destruct (C c H1 H2 H3) as [D F]. exists EIdle. auto.
Qed.

(* the sender's re-check: an asynchronous call that enqueues its entry while the client is closed is failed at once *)
Lemma async_submit_when_closed : forall x c h p, closed (core x) = true -> e_st (ent (core x) c) = Fresh ->
  exists x', xstep x (XSubmit c h p true) = Some x' /\ e_comp (ent (core x') c) = [Err EClosed] /\ e_st (ent (core x') c) = Retired.
Proof.
  intros x c h p HC HF. unfold xstep.
  assert (E1 : step (core x) (Submit c h) = Some (with_ent (core x) (upd (ent (core x)) c (mkEntry h Queued [] false None)))).
  { simpl. now rewrite HF. }
  rewrite E1. cbn [andb]. cbn [closed with_ent]. rewrite HC.
  match goal with |- context [step ?st (QueueFail c)] =>
    assert (E2 : step st (QueueFail c) = Some (with_ent st (upd (ent st) c (complete (ent st c) (Err EClosed))))) end.
  { simpl. rewrite upd_same. simpl. now rewrite HC. }
  rewrite E2. eexists; split; [reflexivity|]. simpl. rewrite !upd_same. simpl. auto.
Qed.

Lemma async_submit_when_idle : forall x c h p, idle x = true -> closed (core x) = false -> e_st (ent (core x) c) = Fresh ->
  exists x', xstep x (XSubmit c h p true) = Some x' /\ e_comp (ent (core x') c) = [Err EIdle] /\ e_st (ent (core x') c) = Retired.
Proof.
  intros x c h p HI HC HF. unfold xstep.
  assert (E1 : step (core x) (Submit c h) = Some (with_ent (core x) (upd (ent (core x)) c (mkEntry h Queued [] false None)))).
  { simpl. now rewrite HF. }
  rewrite E1. cbn [andb]. cbn [closed with_ent]. rewrite HC, HI.
  match goal with |- context [step ?st (IdleFail c)] =>
    assert (E2 : step st (IdleFail c) = Some (with_ent st (upd (ent st) c (complete (ent st c) (Err EIdle))))) end.
  { simpl. rewrite upd_same. reflexivity. }
  rewrite E2. eexists; split; [reflexivity|]. simpl. rewrite !upd_same. simpl. auto.
Qed.

(* the send loop is only ever gone because the client was closed or the conn has become idle -- and both are for good *)
Definition exit_reason (x : sys) : Prop := sendloop x = false -> closed (core x) = true \/ idle x = true.

Lemma run_closed_stays : forall ls s s', run s ls = Some s' -> closed s = true -> closed s' = true.
Proof. apply (iter_inv step (fun s => closed s = true)). exact closed_stays. Qed.

Lemma xstep_exit_reason : forall x l x', exit_reason x -> xstep x l = Some x' -> exit_reason x'.
Proof.
  intros x l x' P H HS. destruct (xstep_flags _ _ _ H) as (_ & F & Fi & _).
  destruct (xstep_core_run _ _ _ H) as (ls & Hrun & _).
  assert (C : closed (core x) = true \/ idle x' = true) by (destruct (F HS) as [E|E]; [destruct (P E); auto | exact E]).
  destruct C as [C|C]; [left; eapply run_closed_stays; eauto | now right].
Qed.

Lemma xreach_exit_reason : forall x, xreach x -> exit_reason x.
Proof.
  intros x [ls H]. apply (iter_inv xstep exit_reason (fun x l x' E P => xstep_exit_reason x l x' P E) ls xinit x H).
  intros HS. discriminate.
Qed.

(* ... so an asynchronous call that enqueues its entry after the loop has gone is failed at once by the sender's re-check:
   with exit_drains, no asynchronous call is left behind by the send loop *)
Lemma async_submit_after_exit : forall x c h p, xreach x -> sendloop x = false -> e_st (ent (core x) c) = Fresh ->
  exists x' e, xstep x (XSubmit c h p true) = Some x' /\ (e = EClosed \/ e = EIdle)
               /\ e_comp (ent (core x') c) = [Err e] /\ e_st (ent (core x') c) = Retired.
Proof.
  intros x c h p R HS HF. destruct (closed (core x)) eqn:EC.
  - destruct (async_submit_when_closed x c h p EC HF) as [x' (A & B & C)]. exists x', EClosed. auto.
  - destruct (xreach_exit_reason x R HS) as [E|E]; [congruence|].
    destruct (async_submit_when_idle x c h p E EC HF) as [x' (A & B & C)]. exists x', EIdle. auto.
Qed.

(* a unary step leaves every call alone but the one it names, which was not done before and is not answered with
   another call's payload *)
Lemma ustep_call : forall u l u' c, ustep u l = Some u' ->
  ucalls u' c = ucalls u c
  \/ ((forall r, ucalls u c <> UDone r) /\ forall p, ucalls u' c = UDone (Resp p) -> p = c).
Proof.
  intros u l u' c H. destruct l; simpl in H; [| | |inversion H; auto]; destruct (ucalls u c0) eqn:E; try discriminate.
  - inversion H; subst; simpl. unfold uupd. destruct (Nat.eqb_spec c c0) as [->|]; [right | now left].
    split; [congruence | destruct (uclosed u); discriminate].
  - destruct (uclosed u); try discriminate.
    inversion H; subst; simpl. unfold uupd. destruct (Nat.eqb_spec c c0) as [->|]; [right | now left].
    split; [congruence | intros p Hp; now inversion Hp].
  - destruct (match k with ECtx | ETimeout | EStream => true | EClosed => uclosed u | _ => false end); try discriminate.
    inversion H; subst; simpl. unfold uupd. destruct (Nat.eqb_spec c c0) as [->|]; [right | now left].
    split; [congruence | discriminate].
Qed.

Lemma ustep_done_stable : forall u l u' c r, ustep u l = Some u' -> ucalls u c = UDone r -> ucalls u' c = UDone r.
Proof. intros u l u' c r H HD. destruct (ustep_call _ _ _ c H) as [->|[N _]]; [exact HD | now apply N in HD]. Qed.

Lemma urun_done_stable : forall ls u u' c r, urun u ls = Some u' -> ucalls u c = UDone r -> ucalls u' c = UDone r.
Proof.
  intros ls u u' c r. apply (iter_inv ustep (fun u => ucalls u c = UDone r)). intros u0 l u1. apply ustep_done_stable.
Qed.

Lemma ustep_own : forall u l u', ustep u l = Some u' ->
  (forall c p, ucalls u c = UDone (Resp p) -> p = c) -> forall c p, ucalls u' c = UDone (Resp p) -> p = c.
Proof. intros u l u' E P c p Hc. destruct (ustep_call _ _ _ c E) as [Eq|[_ Q]]; [rewrite Eq in Hc; eauto | auto]. Qed.

Lemma urun_own : forall ls u' c p, urun uinit ls = Some u' -> ucalls u' c = UDone (Resp p) -> p = c.
Proof.
  intros ls u' c p H. revert c p.
  apply (iter_inv ustep (fun u => forall c p, ucalls u c = UDone (Resp p) -> p = c) ustep_own ls uinit u' H). discriminate.
Qed.

(* after UClose every pending unary call can be completed (conn.Close fails it), and a new call fails at once *)
Lemma uclose_completes : forall u c, uclosed u = true -> ucalls u c = UPending ->
  exists u', ustep u (UFail c EClosed) = Some u' /\ ucalls u' c = UDone (Err EClosed).
Proof.
  intros u c HC HP. simpl. rewrite HP, HC. eexists; split; [reflexivity|]. simpl. unfold uupd. now rewrite Nat.eqb_refl.
Qed.

(* In the builder / send-loop layer the request id is COMPUTED by the step, not chosen by the environment: the core
   label `Build c i` (guard next_id < i) is not a step of the layer (core_allowed); the only layer step that allocates ids
   is XBuildRound, which numbers the popped, non-cancelled entries next_id+1, next_id+2, ... (build_labels).  Freshness
   of the ids of every layer-reachable state follows from that counter. *)
Lemma run_alloc_nobuild : forall ls s s', run s ls = Some s' -> no_build ls = true -> alloc s' = alloc s.
Proof.
  induction ls as [|l r IH]; simpl; intros s s' H F; [inversion H; reflexivity|].
  destruct (step s l) as [s1|] eqn:E; [|discriminate]. apply andb_true_iff in F. destruct F as [F1 F2].
  rewrite (IH _ _ H F2). destruct (step_alloc _ _ _ E) as [Eq|(c & i & El & _)]; [exact Eq|]. subst. discriminate.
Qed.

Lemma xstep_alloc : forall x l x', xstep x l = Some x' -> (forall lim takes, l <> XBuildRound lim takes) ->
  alloc (core x') = alloc (core x).
Proof. intros x l x' H N. destruct (xstep_core_run _ _ _ H) as (ls & R & B). eapply run_alloc_nobuild; eauto. Qed.

Lemma ids_computed : forall x, xreach x ->
  (forall l x', xstep x l = Some x' ->
     alloc (core x') = alloc (core x)
     \/ exists lim takes, l = XBuildRound lim takes
          /\ (let ps := build_pairs (ent (core x)) (next_id (core x)) takes in
              alloc (core x') = rev ps ++ alloc (core x)
              /\ map fst ps = seq (S (next_id (core x))) (length ps)
              /\ next_id (core x') = next_id (core x) + length ps))
  /\ (forall i c, In (i, c) (alloc (core x)) -> i <= next_id (core x))
  /\ NoDup (map fst (alloc (core x)))
  /\ NoDup (map fst (tab (core x)))
  /\ (forall i c, In (i, c) (tab (core x)) -> In (i, c) (alloc (core x))).
Proof.
  intros x R. pose proof (xreach_core _ R) as RC. split; [|split; [|split; [|split]]].
  - intros l x' H. destruct l; try (left; apply (xstep_alloc _ _ _ H); intros; discriminate).
    right. exists lim, takes. split; [reflexivity|].
    destruct (round_ids_consecutive _ _ _ _ H) as (A & B & C & _). cbv zeta. auto.
  - intros i c Hin. exact (I_alloc_le _ (reachable_inv _ RC) _ _ Hin).
  - exact (proj1 (proj2 (ids_fresh _ RC))).
  - exact (proj1 (proj2 (proj2 (proj2 (proj2 (ids_fresh _ RC)))))).
  - exact (proj1 (proj2 (proj2 (proj2 (ids_fresh _ RC))))).
Qed.
