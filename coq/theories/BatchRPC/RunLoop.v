(* C18 — one layer out from the batch client:
   (1) util/async.RunLoop, the executor on which the batch recv loop schedules every asynchronous completion
       (entry.response -> cb.Schedule -> RunLoop.Append; the owner calls RunLoop.Exec): two lists, `runnable` (receives
       Append, under the lock) and `running` (the round being executed), swapped at the start of every round;
   (2) reqCollapse (client_collapse.go): full-region ResolveLock requests with the same key share ONE flight
       (singleflight) that is sent with context.Background(), i.e. is owned by no caller. *)
From Coq Require Import List Arith Bool Lia.
Import ListNotations.
From Verif Require Import BatchRPC.Model.

(* ---------------------------------------------------------------- RunLoop *)
Record rstate := mkR { r_runnable : list nat; r_running : list nat; r_done : list nat; r_log : list nat }.
Inductive rlabel :=
| RAppend (fs : list nat)   (* Append, from any goroutine -- also from a callback that is running (re-entrant) *)
| RStart                    (* Exec / run: no round in progress, runnable not empty: running, runnable := runnable, [] *)
| RRunOne                   (* the next callback of the round is executed *)
| RInterrupt.               (* context done during a round: the rest of the round goes back in front of runnable *)

Definition rstep (st : rstate) (l : rlabel) : option rstate :=
  match l with
  | RAppend fs => Some (mkR (r_runnable st ++ fs) (r_running st) (r_done st) (r_log st ++ fs))
  | RStart => match r_running st, r_runnable st with
              | [], _ :: _ => Some (mkR [] (r_runnable st) (r_done st) (r_log st))
              | _, _ => None
              end
  | RRunOne => match r_running st with
               | t :: r => Some (mkR (r_runnable st) r (r_done st ++ [t]) (r_log st))
               | [] => None
               end
  | RInterrupt => Some (mkR (r_running st ++ r_runnable st) [] (r_done st) (r_log st))
  end.

Fixpoint rrun (st : rstate) (ls : list rlabel) : option rstate :=
  match ls with [] => Some st | l :: r => match rstep st l with Some st' => rrun st' r | None => None end end.
Definition rinit : rstate := mkR [] [] [] [].
Definition rreach (st : rstate) : Prop := exists ls, rrun rinit ls = Some st.

(* executable driver used by the differential: callbacks append their children while they run *)
Fixpoint rl_exec (fuel : nat) (spawn : nat -> list nat) (st : rstate) : rstate :=
  match fuel with
  | O => st
  | S f =>
      match r_running st with
      | t :: _ =>
          match rstep st RRunOne with
          | Some st1 => match rstep st1 (RAppend (spawn t)) with Some st2 => rl_exec f spawn st2 | None => st1 end
          | None => st
          end
      | [] => match rstep st RStart with Some st1 => rl_exec f spawn st1 | None => st end
      end
  end.

(* ---------------------------------------------------------------- reqCollapse (single flight) *)
Inductive ccall := CIdle | CWait (f : nat) | CRet (r : result).
Record cstate := mkC {
  c_nfl : nat;                          (* number of flights ever started *)
  c_fkey : nat -> nat;                  (* key of a flight *)
  c_fres : nat -> option result;        (* its result, once the shared request has returned *)
  c_cur : nat -> option nat;            (* singleflight: the flight currently registered under a key *)
  c_call : nat -> ccall;                (* callers *)
  c_key : nat -> nat;                   (* the key a caller asked for *)
  c_joined : nat -> option nat          (* ghost: the flight a caller joined *)
}.
Inductive clabel :=
| CJoin (c k : nat)             (* collapse(): sf.DoChan(key, ...) -- starts the shared request unless one is registered *)
| CFlightDone (f : nat) (r : result)  (* the shared SendRequest(context.Background(), ...) returned; singleflight forgets the key *)
| CDeliver (c : nat)            (* rs := <-rsC *)
| CAbort (c : nat) (e : errk).  (* the caller's own ctx.Done() / timer *)

Definition updo {A : Type} (f : nat -> A) (k : nat) (v : A) : nat -> A := fun k' => if Nat.eqb k' k then v else f k'.

Definition cstep (s : cstate) (l : clabel) : option cstate :=
  match l with
  | CJoin c k =>
      match c_call s c with
      | CIdle =>
          match c_cur s k with
          | Some f => Some (mkC (c_nfl s) (c_fkey s) (c_fres s) (c_cur s) (updo (c_call s) c (CWait f)) (updo (c_key s) c k) (updo (c_joined s) c (Some f)))
          | None => let f := c_nfl s in
                    Some (mkC (S f) (updo (c_fkey s) f k) (updo (c_fres s) f None) (updo (c_cur s) k (Some f))
                              (updo (c_call s) c (CWait f)) (updo (c_key s) c k) (updo (c_joined s) c (Some f)))
          end
      | _ => None
      end
  | CFlightDone f r =>
      if Nat.ltb f (c_nfl s) && match c_fres s f with None => true | Some _ => false end
         && match r with Resp p => Nat.eqb p (c_fkey s f) | Err _ => true end  (* own response of the layer below *)
      then Some (mkC (c_nfl s) (c_fkey s) (updo (c_fres s) f (Some r))
                     (match c_cur s (c_fkey s f) with
                      | Some f' => if Nat.eqb f' f then updo (c_cur s) (c_fkey s f) None else c_cur s
                      | None => c_cur s end)
                     (c_call s) (c_key s) (c_joined s))
      else None
  | CDeliver c =>
      match c_call s c with
      | CWait f => match c_fres s f with
                   | Some r => Some (mkC (c_nfl s) (c_fkey s) (c_fres s) (c_cur s) (updo (c_call s) c (CRet r)) (c_key s) (c_joined s))
                   | None => None end
      | _ => None
      end
  | CAbort c e =>
      match c_call s c, e with
      | CWait _, ECtx | CWait _, ETimeout =>
          Some (mkC (c_nfl s) (c_fkey s) (c_fres s) (c_cur s) (updo (c_call s) c (CRet (Err e))) (c_key s) (c_joined s))
      | _, _ => None
      end
  end.

Fixpoint crun (s : cstate) (ls : list clabel) : option cstate :=
  match ls with [] => Some s | l :: r => match cstep s l with Some s' => crun s' r | None => None end end.
Definition cinit : cstate := mkC 0 (fun _ => 0) (fun _ => None) (fun _ => None) (fun _ => CIdle) (fun _ => 0) (fun _ => None).
Definition creach (s : cstate) : Prop := exists ls, crun cinit ls = Some s.

(* ---------------------------------------------------------------- which requests may share a flight: the collapse key *)
(* a ResolveLock command as reqCollapse sees it *)
Record rcmd := mkCmd {
  rc_region : nat; rc_start : nat; rc_commit : nat; rc_isasync : bool;
  rc_txninfos : list (nat * nat);   (* batch resolve (GC worker) *)
  rc_keys : list nat                (* resolve lock lite *)
}.

(* tryCollapseRequest (sync entry) and SendRequestAsync (async entry) use the SAME test: only a full-region ResolveLock --
   no keys, no txn infos -- is collapsed; everything else goes straight to the wrapped client *)
Definition collapsible (r : rcmd) : bool :=
  match rc_keys r, rc_txninfos r with [], [] => true | _, _ => false end.

(* resolveLockCollapseKey: region id, start version, IsAsync (the commit version is NOT part of it) *)
Definition collapse_key (r : rcmd) : nat * nat * bool := (rc_region r, rc_start r, rc_isasync r).

(* the key under which caller c's request enters the single-flight group: a collapsible request the encoding of its
   collapse key, any other request a key of its own (it is not collapsed at all) *)
Definition flight_key (kenc : nat * nat * bool -> nat) (r : rcmd) (c : nat) : nat :=
  if collapsible r then 2 * kenc (collapse_key r) else 2 * c + 1.
