(* C18 — what the invariant and the entry transitions give for the core system: the lemmas behind the theorems of
   Props.v about runs of Model.step *)
From Coq Require Import List Arith Bool Lia Sorted.
Import ListNotations.
From Verif Require Import BatchRPC.Model BatchRPC.Proofs3 BatchRPC.Proofs.

Lemma run_ret_stable : forall ls s s' c r, Inv s -> run s ls = Some s' ->
  e_ret (ent s c) = Some r -> e_ret (ent s' c) = Some r.
Proof. intros ls s s' c r. apply (run_entry_ind (fun e => e_ret e = Some r)). intros e e' T. now apply etrans_ret_stable. Qed.

Lemma step_frame : forall s l s', step s l = Some s' ->
  epoch s <= epoch s' /\ (closed s = true -> closed s' = true)
  /\ forall h, loop_ep (loops s' h) = loop_ep (loops s h) \/ loop_ep (loops s' h) = None
               \/ loop_ep (loops s' h) = Some (epoch s').
Proof.
  intros s l s' H. destruct l; simpl in H; step_guards H; inv_some; simpl; (split; [auto|]); (split; [auto|]); intros h'; auto.
  all: unfold updl; match goal with |- context [Nat.eqb ?a ?k] => destruct (Nat.eqb_spec a k) as [->|] end; simpl; auto.
  all: try (match goal with E : loops _ _ = _ |- _ => rewrite E end; simpl; auto).
  (* the winner of the CAS held the current epoch *)
  right; right. f_equal. f_equal. now apply Nat.eqb_eq.
Qed.

Lemma step_epoch_mono : forall s l s', step s l = Some s' -> epoch s <= epoch s'.
Proof. intros s l s' H. apply (step_frame _ _ _ H). Qed.

Lemma closed_stays : forall s l s', step s l = Some s' -> closed s = true -> closed s' = true.
Proof. intros s l s' H. apply (step_frame _ _ _ H). Qed.

Lemma step_loop_ep : forall s l s', step s l = Some s' -> forall h,
  loop_ep (loops s' h) = loop_ep (loops s h) \/ loop_ep (loops s' h) = None \/ loop_ep (loops s' h) = Some (epoch s').
Proof. intros s l s' H. apply (step_frame _ _ _ H). Qed.

Lemma ids_fresh : forall s, reachable s ->
  StronglySorted newer (alloc s)
  /\ NoDup (map fst (alloc s))
  /\ (forall i c c', In (i, c) (alloc s) -> In (i, c') (alloc s) -> c = c')
  /\ (forall i c, In (i, c) (tab s) -> In (i, c) (alloc s))
  /\ NoDup (map fst (tab s))
  /\ (forall c i s', step s (Build c i) = Some s' ->
        (forall j c', In (j, c') (alloc s) -> j < i) /\ alloc s' = (i, c) :: alloc s).
Proof.
  intros s R. pose proof (reachable_inv s R) as I.
  split; [apply (I_alloc_sorted s I)|].
  split; [apply sorted_nodup_fst, (I_alloc_sorted s I)|].
  split; [intros; eapply sorted_unique; eauto; apply (I_alloc_sorted s I)|].
  split; [intros i c Hin; apply (I_st_alloc s I); left; now apply (I_tab_st s I)|].
  split; [apply (I_tab_nodup s I)|].
  intros c i s' H. destruct (build_step _ _ _ _ H) as (_ & _ & EL & ->). simpl.
  split; auto. intros j c' Hin. apply (I_alloc_le s I) in Hin. lia.
Qed.

Lemma own_response : forall s c p, reachable s -> e_ret (ent s c) = Some (Resp p) ->
  p = c /\ In (Resp c) (e_comp (ent s c))
  /\ exists i, In (i, c) (alloc s) /\ forall c', In (i, c') (alloc s) -> c' = c.
Proof.
  intros s c p R H. pose proof (reachable_inv s R) as I.
  destruct (I_good s I c) as (_ & G2 & G3 & _).
  destruct (G3 _ H) as [Hin|[k [E _]]]; [|discriminate].
  pose proof (G2 _ Hin). subst p. split; auto. split; auto.
  destruct (I_resp_alloc s I _ _ Hin) as [i Hi]. exists i. split; auto.
  intros c' Hc'. eapply sorted_unique; eauto. apply (I_alloc_sorted s I).
Qed.

Lemma dispatch_by_id : forall s h ep i c p, reachable s -> loops s h = LLoaded ep i c p ->
  In (i, c) (tab s) /\ In (i, c) (alloc s) /\ e_host (ent s c) = h /\ p = c.
Proof.
  intros s h ep i c p R H. pose proof (reachable_inv s R) as I.
  destruct (I_loop s I _ _ _ _ _ H) as (A & B & C). repeat split; auto.
  apply (I_st_alloc s I). left. now apply (I_tab_st s I).
Qed.

Lemma comp_at_most_once : forall s c, reachable s -> length (e_comp (ent s c)) <= 1.
Proof.
  intros s c R. destruct (I_good s (reachable_inv s R) c) as (G1 & _).
  destruct (e_st (ent s c)); try (rewrite G1; simpl; lia). tauto.
Qed.

Lemma completed_when_retired : forall s c, reachable s -> e_st (ent s c) = Retired ->
  e_comp (ent s c) <> [] \/ e_ret (ent s c) <> None.
Proof.
  intros s c R H. destruct (I_good s (reachable_inv s R) c) as (G1 & _ & _ & G4 & _).
  rewrite H in G1. destruct G1 as [_ [G|G]]; auto.
Qed.

Lemma completed_when_table_empty : forall s c, reachable s -> tab s = [] ->
  e_st (ent s c) <> Fresh -> e_st (ent s c) <> Queued -> (forall i, e_st (ent s c) <> Built i) ->
  e_comp (ent s c) <> [] \/ e_ret (ent s c) <> None.
Proof.
  intros s c R HT H1 H2 H3. apply completed_when_retired; auto.
  destruct (e_st (ent s c)) eqn:ES; try congruence.
  all: try (exfalso; eapply H3; reflexivity).
  apply (I_st_tab s (reachable_inv s R)) in ES. rewrite HT in ES. destruct ES.
Qed.

Lemma return_enabled : forall s c r l, e_ret (ent s c) = None -> e_comp (ent s c) = r :: l ->
  exists s', step s (Return c) = Some s' /\ e_ret (ent s' c) = Some r.
Proof.
  intros s c r l H1 H2. simpl. rewrite H1, H2. eexists; split; [reflexivity|]. simpl. now rewrite upd_same.
Qed.

(* an entry that a step leaves as it is keeps its place in the table: the invariant ties the table to the entries *)
Lemma step_keeps_in_tab : forall s l s' i c, Inv s -> step s l = Some s' -> ent s' c = ent s c ->
  In (i, c) (tab s) -> In (i, c) (tab s').
Proof.
  intros s l s' i c I H E Hin. apply (I_st_tab s' (step_inv _ _ _ I H)). rewrite E. now apply (I_tab_st s I).
Qed.

Lemma fail_pending_total : forall s h s', reachable s ->
  closed s = false -> step s (StreamFail h) = Some s' ->
  (forall i c, In (i, c) (tab s') -> e_host (ent s' c) <> h)
  /\ (forall i c, In (i, c) (tab s) -> e_host (ent s c) = h ->
        e_comp (ent s' c) = [Err EStream] /\ e_st (ent s' c) = Retired /\ ~ In (i, c) (tab s'))
  /\ (forall i c, In (i, c) (tab s) -> e_host (ent s c) <> h -> In (i, c) (tab s') /\ ent s' c = ent s c).
Proof.
  intros s h s' R HC H. pose proof (reachable_inv s R) as I.
  destruct (streamfail_step _ _ _ HC H) as (_ & _ & EF & _).
  pose proof (tab_callers_nodup s I) as NDc.
  destruct (fail_pending_cases _ _ _ _ _ NDc EF) as (A & D).
  split; [|split].
  - intros i c Hin. rewrite A in Hin. apply filter_In in Hin. simpl in Hin. destruct Hin as [_ Hne].
    rewrite (fail_pending_host _ _ _ _ _ NDc EF). intros E. rewrite E, Nat.eqb_refl in Hne. discriminate.
  - intros i c Hin Hh.
    destruct (D c) as [(_ & _ & ->)|(Hn & _)]; [|exfalso; apply Hn; split; auto; apply in_map_iff; exists (i, c); auto].
    pose proof (I_tab_st s I _ _ Hin) as ES. simpl.
    rewrite (comp_nil_of_good c _ (I_good s I c)) by congruence.
    repeat split; auto. rewrite A. intros Hf. apply filter_In in Hf. simpl in Hf. destruct Hf as [_ Hf].
    rewrite Hh, Nat.eqb_refl in Hf; discriminate.
  - intros i c Hin Hh. destruct (D c) as [(_ & E & _)|(_ & E)]; [congruence|].
    split; [eapply step_keeps_in_tab; eauto | exact E].
Qed.

Lemma prefix_loser_keeps_pending : exists s s', reachable s /\ closed s = false /\
  streamfail_prefix_loser s 0 = Some s' /\ In (1, 0) (tab s') /\ e_host (ent s' 0) = 0 /\ e_comp (ent s' 0) = [].
Proof.
  destruct (run init stale_epoch_run) as [s|] eqn:E; [|vm_compute in E; discriminate].
  assert (R : reachable s) by (exists stale_epoch_run; exact E).
  vm_compute in E. inversion E; subst. clear E.
  eexists; eexists. split; [exact R|]. split; [reflexivity|]. split; [vm_compute; reflexivity|].
  simpl. auto.
Qed.

Lemma run_canceled_never_delivered : forall ls s s' c p, Inv s -> run s ls = Some s' ->
  e_canceled (ent s c) = true -> In (Resp p) (e_comp (ent s' c)) -> In (Resp p) (e_comp (ent s c)).
Proof.
  intros ls s s' c p I H HC.
  apply (run_entry_ind (fun e => e_canceled e = true /\ (In (Resp p) (e_comp e) -> In (Resp p) (e_comp (ent s c)))) c)
    with (ls := ls) (s := s); auto.
  intros e e' T [C K]. split; [eapply etrans_canceled_stays; eauto|].
  intros Hin. apply K. eapply etrans_canceled_resp; eauto.
Qed.

Lemma monitor_sound : forall s c r, reachable s -> e_ret (ent s c) = Some r -> obs_identity c r = true.
Proof.
  intros s c r R H. destruct r as [p|k]; simpl; auto.
  destruct (own_response _ _ _ R H) as [E _]. subst. apply Nat.eqb_refl.
Qed.

(* the allocation log grows only by Build, and only for an entry that is not cancelled *)
Lemma step_alloc : forall s l s', step s l = Some s' ->
  alloc s' = alloc s \/ exists c i, l = Build c i /\ alloc s' = (i, c) :: alloc s /\ e_canceled (ent s c) = false.
Proof.
  intros s l s' H. destruct l; try (simpl in H; step_guards H; inv_some; simpl; auto; fail).
  destruct (build_step _ _ _ _ H) as (_ & EC & _ & ->). right. eauto.
Qed.

Definition skipped (s : state) (c : caller) : Prop :=
  e_canceled (ent s c) = true
  /\ (e_st (ent s c) = Queued \/ e_st (ent s c) = Retired)
  /\ (forall i, ~ In (i, c) (alloc s))
  /\ (forall p, ~ In (Resp p) (e_comp (ent s c))).

Lemma step_skipped : forall c s l s', Inv s -> step s l = Some s' -> skipped s c -> skipped s' c.
Proof.
  intros c s l s' I H (HC & HS & HA & HR).
  assert (HE : e_canceled (ent s' c) = true /\ (e_st (ent s' c) = Queued \/ e_st (ent s' c) = Retired)
               /\ (forall p, ~ In (Resp p) (e_comp (ent s' c)))).
  { destruct (step_etrans _ _ _ I H c) as [->|(_ & _ & T)]; auto.
    split; [eapply etrans_canceled_stays; eauto|]. split; [eapply etrans_skipped_st; eauto|].
    intros p Hp. eapply HR. eapply etrans_canceled_resp; eauto. }
  destruct HE as (A & B & C). split; auto. split; auto. split; auto.
  intros i Hin. destruct (step_alloc _ _ _ H) as [Eq|(c0 & i0 & _ & Eq & EC)]; rewrite Eq in Hin.
  - eapply HA; eauto.
  - destruct Hin as [E|Hin]; [inversion E; subst; congruence | eapply HA; eauto].
Qed.

Definition alloc_past_queue (s : state) : Prop :=
  forall i c, In (i, c) (alloc s) -> e_st (ent s c) <> Fresh /\ e_st (ent s c) <> Queued.

Lemma step_alloc_past_queue : forall s l s', Inv s -> step s l = Some s' -> alloc_past_queue s -> alloc_past_queue s'.
Proof.
  intros s l s' I H P i c Hin.
  assert (Hold : In (i, c) (alloc s) -> e_st (ent s' c) <> Fresh /\ e_st (ent s' c) <> Queued).
  { intros Hi. destruct (P _ _ Hi) as [A B].
    destruct (step_etrans _ _ _ I H c) as [->|(_ & _ & T)]; [auto | eapply etrans_past_queue; eauto]. }
  destruct (step_alloc _ _ _ H) as [Eq|(c0 & i0 & El & Eq & EC)]; rewrite Eq in Hin; auto.
  destruct Hin as [E|Hin]; auto. inversion E; subst.
  destruct (build_step _ _ _ _ H) as (_ & _ & _ & ->). simpl. rewrite upd_same. simpl. split; discriminate.
Qed.

Lemma reachable_alloc_past_queue : forall s, reachable s -> alloc_past_queue s.
Proof.
  intros s [ls H]. apply (run_ind_inv _ step_alloc_past_queue ls init s inv_init H). intros i c [].
Qed.

(* cancelled while still queued (before buildWithLimit looked at it) *)
Lemma canceled_before_build : forall s c ls s', reachable s ->
  e_st (ent s c) = Queued -> e_canceled (ent s c) = true -> run s ls = Some s' ->
  (exists k, e_ret (ent s c) = Some (Err k) /\ is_abort_kind k = true)
  /\ e_ret (ent s' c) = e_ret (ent s c)
  /\ (e_st (ent s' c) = Queued \/ e_st (ent s' c) = Retired)
  /\ (forall i, ~ In (i, c) (alloc s')) /\ (forall i, ~ In (i, c) (tab s'))
  /\ (forall p, ~ In (Resp p) (e_comp (ent s' c))).
Proof.
  intros s c ls s' R HS HC Hrun. pose proof (reachable_inv s R) as I.
  destruct (I_good s I c) as (G1 & G2 & G3 & G4 & G5). rewrite HS in G1.
  assert (Hret : exists k, e_ret (ent s c) = Some (Err k) /\ is_abort_kind k = true).
  { destruct (e_ret (ent s c)) as [r|] eqn:ER; [|exfalso; now apply G4].
    destruct (G3 _ eq_refl) as [Hin|(k & E & K & _)]; [rewrite G1 in Hin; destruct Hin | subst; eauto]. }
  assert (K : skipped s c).
  { split; auto. split; auto. split.
    - intros i Hin. destruct (reachable_alloc_past_queue s R _ _ Hin) as [_ B]. congruence.
    - intros p Hp. rewrite G1 in Hp. destruct Hp. }
  destruct (run_ind_inv _ (step_skipped c) _ _ _ I Hrun K) as (A & B & C & D).
  split; auto. destruct Hret as (k & Ek & Kk).
  split; [rewrite Ek; eapply run_ret_stable; eauto|].
  split; auto. split; auto. split; auto.
  intros i Hin. pose proof (run_inv _ _ _ I Hrun) as I'.
  apply (C i). apply (I_st_alloc s' I'). left. now apply (I_tab_st s' I').
Qed.

(* a panic of the recv loop, idle or between Load and deliver, or inside failPendingRequests *)
Lemma panic_keeps : forall s h l s', l = RecvPanic h \/ l = FailPanic h -> step s l = Some s' ->
  tab s' = tab s /\ ent s' = ent s /\ alloc s' = alloc s /\ loops s' h = LIdle (epoch s').
Proof.
  intros s h l s' [->| ->] H; simpl in H; destruct (loops s h); try discriminate.
  1, 2: inv_some; simpl; rewrite updl_same; auto.
  destruct (closed s); try discriminate. inv_some; simpl; rewrite updl_same; auto.
Qed.

(* Whatever happens in between, an entry pending on stream h is completed at most once, and the next failure of the
   stream (on a live client) fails it if it is still in flight. *)
Lemma pending_then_fail_once : forall s1 h ls s2 s3 i c, reachable s1 ->
  In (i, c) (tab s1) -> e_host (ent s1 c) = h ->
  run s1 ls = Some s2 -> closed s2 = false -> step s2 (StreamFail h) = Some s3 ->
  e_st (ent s3 c) = Retired /\ length (e_comp (ent s3 c)) <= 1
  /\ (e_comp (ent s3 c) <> [] \/ e_ret (ent s3 c) <> None)
  /\ (In (i, c) (tab s2) -> e_comp (ent s3 c) = [Err EStream]).
Proof.
  intros s1 h ls s2 s3 i c R1 Hin Hh Hrun HC H3.
  pose proof (reachable_inv _ R1) as I1. pose proof (I_tab_st s1 I1 _ _ Hin) as ES.
  pose proof (reachable_run _ _ _ R1 Hrun) as R2. pose proof (reachable_inv _ R2) as I2.
  pose proof (reachable_step _ _ _ R2 H3) as R3.
  destruct (fail_pending_total _ _ _ R2 HC H3) as (_ & B & _).
  assert (S2 : e_st (ent s2 c) = Stored i \/ e_st (ent s2 c) = Retired).
  { apply (run_entry_ind (fun e => e_st e = Stored i \/ e_st e = Retired) c) with (ls := ls) (s := s1); auto.
    intros e e' T HS. destruct (etrans_stored i _ _ T HS) as [E|E]; [rewrite E|]; auto. }
  assert (Hh2 : e_host (ent s2 c) = h).
  { apply (run_entry_ind _ c (etrans_host h) ls s1 s2 I1 Hrun). rewrite ES. split; [auto | discriminate]. }
  assert (S3 : e_st (ent s3 c) = Retired).
  { destruct S2 as [S2|S2].
    - destruct (B _ _ (I_st_tab s2 I2 _ _ S2) Hh2) as (_ & E & _). exact E.
    - destruct (step_etrans _ _ _ I2 H3 c) as [->|(_ & _ & T)]; auto.
      destruct (etrans_stored 0 _ _ T (or_intror S2)) as [E|E]; [congruence | auto]. }
  split; auto. split; [apply comp_at_most_once; auto|].
  split; [apply completed_when_retired; auto|].
  intros Hin2. destruct (B _ _ Hin2 Hh2) as (E & _). exact E.
Qed.

(* a recv-loop panic (or a panic inside failPendingRequests) completes nothing and loses nothing, so this holds of every
   entry that was pending on the stream when it happened *)
Lemma panic_then_fail_once : forall s h l s1 ls s2 s3 i c, reachable s ->
  (l = RecvPanic h \/ l = FailPanic h) -> step s l = Some s1 ->
  In (i, c) (tab s) -> e_host (ent s c) = h ->
  run s1 ls = Some s2 -> closed s2 = false -> step s2 (StreamFail h) = Some s3 ->
  e_comp (ent s1 c) = [] /\ In (i, c) (tab s1)
  /\ e_st (ent s3 c) = Retired /\ length (e_comp (ent s3 c)) <= 1
  /\ (e_comp (ent s3 c) <> [] \/ e_ret (ent s3 c) <> None)
  /\ (In (i, c) (tab s2) -> e_comp (ent s3 c) = [Err EStream]).
Proof.
  intros s h l s1 ls s2 s3 i c R Hl H1 Hin Hh Hrun HC H3. pose proof (reachable_inv s R) as I.
  destruct (panic_keeps _ _ _ _ Hl H1) as (Kt & Ke & _).
  split; [rewrite Ke; apply (comp_nil_of_good c _ (I_good s I c)); rewrite (I_tab_st s I _ _ Hin); discriminate|].
  split; [now rewrite Kt|].
  apply (pending_then_fail_once s1 h ls s2 s3 i c); auto; [eapply reachable_step; eauto | now rewrite Kt | now rewrite Ke].
Qed.

Lemma reachable_comp_clean : forall s c, reachable s -> comp_clean (ent s c).
Proof.
  intros s c [ls H]. apply (run_entry_ind _ c etrans_comp_clean ls init s inv_init H). intros k [].
Qed.

(* a call that returned a context / time-out error has its own canceled flag set, and no such completion *)
Lemma own_error_ret : forall s c k, reachable s -> e_ret (ent s c) = Some (Err k) -> own_only k = true ->
  e_canceled (ent s c) = true /\ ~ In (Err k) (e_comp (ent s c)).
Proof.
  intros s c k R H Ho. destruct (I_good s (reachable_inv s R) c) as (_ & _ & G3 & _).
  assert (Hn : ~ In (Err k) (e_comp (ent s c))) by (intros Hin; apply (reachable_comp_clean s c R) in Hin; congruence).
  destruct (G3 _ H) as [Hin|(k0 & E & _ & Hc)]; [tauto | auto].
Qed.

Lemma canceled_by_own_abort : forall s c l s', reachable s -> step s l = Some s' ->
  e_canceled (ent s c) = false -> e_canceled (ent s' c) = true ->
  exists k, ent s' c = mkEntry (e_host (ent s c)) (e_st (ent s c)) (e_comp (ent s c)) true (Some (Err k))
            /\ e_ret (ent s c) = None.
Proof.
  intros s c l s' R H H0 H1. destruct (step_etrans _ _ _ (reachable_inv s R) H c) as [Eq|(_ & _ & T)]; [rewrite Eq in H1; congruence|].
  eapply etrans_canceled_by_abort; eauto.
Qed.
