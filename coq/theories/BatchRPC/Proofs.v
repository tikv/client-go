(* C18 — the invariant of the in-flight-table transition system.  The steps fall in few kinds (an entry off the table is
   rewritten; an entry leaves the table; only the recv loops move; Build; Store; failPendingRequests) with one
   preservation lemma per kind; step_sound then goes through the labels once and gives, for each, the invariant and the
   transition of the entry acted on (Proofs3.etrans).  Induction over runs at the end. *)
From Coq Require Import List Arith Bool Lia Sorted.
Import ListNotations.
From Verif Require Import BatchRPC.Model BatchRPC.Iter BatchRPC.Proofs3.

Lemma upd_same : forall f c e, upd f c e c = e.
Proof. intros; unfold upd; now rewrite Nat.eqb_refl. Qed.

Lemma upd_other : forall f c e c', c' <> c -> upd f c e c' = f c'.
Proof. intros f c e c' H; unfold upd. destruct (Nat.eqb_spec c' c); congruence. Qed.

Lemma updl_same : forall f h l, updl f h l h = l.
Proof. intros; unfold updl; now rewrite Nat.eqb_refl. Qed.

Lemma updl_other : forall f h l h', h' <> h -> updl f h l h' = f h'.
Proof. intros f h l h' H; unfold updl. destruct (Nat.eqb_spec h' h); congruence. Qed.

Lemma lookup_In : forall t i c, lookup i t = Some c -> In (i, c) t.
Proof.
  induction t as [|[j d] r IH]; simpl; intros i c H; [discriminate|].
  destruct (Nat.eqb_spec j i); [inversion H; subst; now left | right; auto].
Qed.

Lemma lookup_None : forall t i c, lookup i t = None -> ~ In (i, c) t.
Proof.
  induction t as [|[j d] r IH]; simpl; intros i c H; [tauto|].
  destruct (Nat.eqb_spec j i); [discriminate|].
  intros [E|E]; [inversion E; congruence | eapply IH; eauto].
Qed.

Lemma NoDup_fst_inj : forall (t : list (id * caller)) i c c',
  NoDup (map fst t) -> In (i, c) t -> In (i, c') t -> c = c'.
Proof.
  induction t as [|[j d] r IH]; simpl; intros i c c' ND H1 H2; [tauto|].
  inversion ND as [|? ? Hn ND']; subst.
  destruct H1 as [E1|H1], H2 as [E2|H2].
  - congruence.
  - inversion E1; subst. exfalso; apply Hn. change i with (fst (i, c')). now apply in_map.
  - inversion E2; subst. exfalso; apply Hn. change i with (fst (i, c)). now apply in_map.
  - eauto.
Qed.

Lemma remove_id_In : forall t i j c, In (j, c) (remove_id i t) <-> In (j, c) t /\ j <> i.
Proof.
  intros; unfold remove_id; rewrite filter_In; simpl.
  destruct (Nat.eqb_spec j i); simpl; intuition congruence.
Qed.

Lemma NoDup_map_filter : forall (A B : Type) (g : A -> B) (p : A -> bool) (l : list A),
  NoDup (map g l) -> NoDup (map g (filter p l)).
Proof.
  induction l as [|a r IH]; simpl; intros ND; [constructor|].
  inversion ND as [|? ? Hn ND']; subst.
  destruct (p a); simpl; [constructor|]; auto.
  intros Hin. apply Hn. apply in_map_iff in Hin. destruct Hin as [x [E Hx]].
  apply filter_In in Hx. rewrite <- E. apply in_map. tauto.
Qed.

Definition newer (a b : id * caller) : Prop := fst b < fst a.

Lemma sorted_nodup_fst : forall l : list (id * caller), StronglySorted newer l -> NoDup (map fst l).
Proof.
  induction l as [|a r IH]; simpl; intros S; [constructor|].
  inversion S as [|? ? S' F]; subst. constructor; auto.
  rewrite Forall_forall in F. intros Hin. apply in_map_iff in Hin. destruct Hin as [x [E Hx]].
  apply F in Hx. unfold newer in Hx. lia.
Qed.

Lemma sorted_unique : forall (l : list (id * caller)) i c c',
  StronglySorted newer l -> In (i, c) l -> In (i, c') l -> c = c'.
Proof. intros l i c c' S. apply NoDup_fst_inj. now apply sorted_nodup_fst. Qed.

Lemma sorted_lookup : forall (l : list (id * caller)) i c,
  StronglySorted newer l -> In (i, c) l -> lookup i l = Some c.
Proof.
  induction l as [|[j d] r IH]; simpl; intros i c S H; [tauto|].
  inversion S as [|? ? S' F]; subst. rewrite Forall_forall in F.
  destruct H as [E|H].
  - inversion E; subst. now rewrite Nat.eqb_refl.
  - destruct (Nat.eqb_spec j i); [|auto].
    subst. apply F in H. unfold newer in H; simpl in H; lia.
Qed.

Definition good (c : caller) (e : entry) : Prop :=
  (match e_st e with
   | Retired => length (e_comp e) <= 1 /\ (e_comp e <> [] \/ e_canceled e = true)
   | _ => e_comp e = []
   end)
  /\ (forall p, In (Resp p) (e_comp e) -> p = c)
  /\ (forall r, e_ret e = Some r ->
        In r (e_comp e) \/ (exists k, r = Err k /\ is_abort_kind k = true /\ e_canceled e = true))
  /\ (e_canceled e = true -> e_ret e <> None)
  /\ (e_st e = Fresh -> e = entry0).

Lemma good_entry0 : forall c, good c entry0.
Proof. intros c; unfold good, entry0; simpl. repeat split; try tauto; try discriminate. Qed.

Lemma comp_nil_of_good : forall c e, good c e -> e_st e <> Retired -> e_comp e = [].
Proof. intros c e (G1 & _) H. destruct (e_st e); auto; congruence. Qed.

Lemma good_set_st : forall c e st, good c e -> e_st e <> Retired -> st <> Retired -> st <> Fresh -> good c (set_st e st).
Proof.
  intros c e st G H1 H2 H3. pose proof (comp_nil_of_good c e G H1) as E. destruct G as (G1 & G2 & G3 & G4 & G5).
  unfold good, set_st; simpl.
  split; [destruct st; auto; congruence|].
  split; [auto|]. split; [auto|]. split; [auto|]. congruence.
Qed.

Lemma good_complete : forall c e r, good c e -> e_st e <> Retired -> e_st e <> Fresh ->
  (forall p, r = Resp p -> p = c) -> good c (complete e r).
Proof.
  intros c e r G H1 H1' H2. pose proof (comp_nil_of_good c e G H1) as E. destruct G as (G1 & G2 & G3 & G4 & G5).
  unfold good, complete; simpl. rewrite E; simpl.
  split; [split; [lia | left; discriminate]|].
  split; [intros p [Hp|[]]; auto|].
  split; [|split; [auto | discriminate]].
  intros r0 Hr. destruct (G3 _ Hr) as [Hin|Hk]; [rewrite E in Hin; destruct Hin | now right].
Qed.

Lemma good_retire : forall c e, good c e -> e_st e <> Retired -> e_st e <> Fresh -> e_canceled e = true -> good c (retire e).
Proof.
  intros c e G H1 H1' H2. pose proof (comp_nil_of_good c e G H1) as E. destruct G as (G1 & G2 & G3 & G4 & G5).
  unfold good, retire, set_st; simpl. rewrite E; simpl.
  split; [split; [lia | now right]|].
  split; [intros p []|].
  split; [|split; [auto | discriminate]].
  intros r0 Hr. destruct (G3 _ Hr) as [Hin|Hk]; [rewrite E in Hin; destruct Hin | now right].
Qed.

Record Inv (s : state) : Prop := {
  I_alloc_le : forall i c, In (i, c) (alloc s) -> i <= next_id s;
  I_alloc_sorted : StronglySorted newer (alloc s);
  I_tab_st : forall i c, In (i, c) (tab s) -> e_st (ent s c) = Stored i;
  I_st_tab : forall i c, e_st (ent s c) = Stored i -> In (i, c) (tab s);
  I_tab_nodup : NoDup (map fst (tab s));
  I_st_alloc : forall i c, e_st (ent s c) = Stored i \/ e_st (ent s c) = Built i -> In (i, c) (alloc s);
  I_good : forall c, good c (ent s c);
  I_resp_alloc : forall c p, In (Resp p) (e_comp (ent s c)) -> exists i, In (i, c) (alloc s);
  I_loop : forall h ep i c p, loops s h = LLoaded ep i c p -> In (i, c) (tab s) /\ e_host (ent s c) = h /\ p = c
}.

Lemma inv_init : Inv init.
Proof.
  constructor; simpl; intros; try tauto; try discriminate.
  - constructor.
  - constructor.
  - destruct H; discriminate.
  - apply good_entry0.
Qed.

Lemma tab_callers_nodup : forall s, Inv s -> NoDup (map snd (tab s)).
Proof.
  intros s I. pose proof (I_tab_st s I) as H. pose proof (I_tab_nodup s I) as ND.
  induction (tab s) as [|[i c] r IH]; simpl in *; [constructor|].
  inversion ND as [|? ? Hn ND']; subst. constructor; [|apply IH; auto].
  intros Hin. apply in_map_iff in Hin. destruct Hin as [[j c'] [E Hx]]. simpl in E; subst c'.
  assert (Stored j = Stored i) as E by (rewrite <- (H j c), <- (H i c); auto).
  inversion E; subst. apply Hn. change i with (fst (i, c)). now apply in_map.
Qed.

Ltac inv_some := match goal with H : Some _ = Some _ |- _ => injection H as H; subst end.

(* For frame facts (a field that a step leaves alone or moves one way), where only the shape of the new state matters:
   split H : step s l = Some s', already simplified, on every guard it tests. *)
Ltac step_guards H :=
  repeat match type of H with
         | context [match ?x with _ => _ end] => destruct x eqn:?; try discriminate
         end.

Lemma good_upd : forall (f : caller -> entry) c e, (forall c', good c' (f c')) -> good c e ->
  forall c', good c' (upd f c e c').
Proof.
  intros f c e Hf He c'. destruct (Nat.eq_dec c' c) as [E|N]; [subst; now rewrite upd_same | now rewrite upd_other].
Qed.

Lemma good_abort : forall c e k, good c e -> e_st e <> Fresh -> is_abort_kind k = true ->
  good c (mkEntry (e_host e) (e_st e) (e_comp e) true (Some (Err k))).
Proof.
  intros c e k (G1 & G2 & G3 & G4 & G5) HF HK. unfold good; simpl.
  split; [destruct (e_st e); auto; destruct G1 as [G1 _]; split; auto|].
  split; [exact G2|].
  split; [intros r Hr; inversion Hr; subst; right; exists k; auto|].
  split; [discriminate | tauto].
Qed.

Lemma good_return : forall c e r l, good c e -> e_comp e = r :: l ->
  good c (mkEntry (e_host e) (e_st e) (e_comp e) (e_canceled e) (Some r)).
Proof.
  intros c e r l (G1 & G2 & G3 & G4 & G5) EC. unfold good; simpl. rewrite EC in *.
  split; [exact G1|]. split; [exact G2|].
  split; [intros r0 Hr; inversion Hr; subst; left; now left|].
  split; [discriminate|].
  intros EF. rewrite EF in G1. discriminate.
Qed.

(* The entry of caller c is rewritten while table, loops and log stay: its place in them must not move. *)
Lemma inv_with_ent : forall s c e,
  Inv s -> good c e ->
  (forall i, e_st e = Stored i <-> e_st (ent s c) = Stored i) ->
  (forall i, e_st e = Built i -> e_st (ent s c) = Built i) ->
  (forall p, In (Resp p) (e_comp e) -> In (Resp p) (e_comp (ent s c))) ->
  e_host e = e_host (ent s c) \/ e_st (ent s c) = Fresh ->
  Inv (with_ent s (upd (ent s) c e)).
Proof.
  intros s c e [Ile Iso Its Ist Ind Isa Igo Ira Ilo] G HS HB HR HH. constructor; simpl; auto.
  - intros i c' Hin. destruct (Nat.eq_dec c' c) as [->|N]; [rewrite upd_same; apply HS; auto | rewrite upd_other; auto].
  - intros i c' H. destruct (Nat.eq_dec c' c) as [->|N]; [rewrite upd_same in H; apply HS in H; auto | rewrite upd_other in H; auto].
  - intros i c' H. destruct (Nat.eq_dec c' c) as [->|N]; [rewrite upd_same in H | rewrite upd_other in H; auto].
    apply Isa. destruct H as [H|H]; [left; now apply HS | right; auto].
  - apply good_upd; auto.
  - intros c' p H. destruct (Nat.eq_dec c' c) as [->|N]; [rewrite upd_same in H; eauto | rewrite upd_other in H; eauto].
  - intros h ep i c' p H. destruct (Ilo _ _ _ _ _ H) as (A & B & C). repeat split; auto.
    destruct (Nat.eq_dec c' c) as [->|N]; [rewrite upd_same | rewrite upd_other; auto].
    destruct HH as [HH|HH]; [congruence|]. apply Its in A. congruence.
Qed.

(* An entry that has not reached the table (queued or built) is failed with an error. *)
Lemma inv_fail_unsent : forall s c k, Inv s -> e_st (ent s c) = Queued \/ (exists i, e_st (ent s c) = Built i) ->
  Inv (with_ent s (upd (ent s) c (complete (ent s c) (Err k)))).
Proof.
  intros s c k I HS. pose proof (I_good s I c) as G.
  assert (L : e_st (ent s c) <> Retired /\ e_st (ent s c) <> Fresh /\ forall i, e_st (ent s c) <> Stored i)
    by (destruct HS as [E|[i E]]; rewrite E; repeat split; congruence).
  destruct L as (L1 & L2 & L3).
  apply inv_with_ent; simpl; auto.
  - apply good_complete; auto. discriminate.
  - intros i; split; [discriminate | intros E; now apply L3 in E].
  - discriminate.
  - rewrite (comp_nil_of_good _ _ G L1). simpl. intros p [Hp|[]]; discriminate.
Qed.

(* Only the recv loops, the epoch, the closed flag or the counter of outdated responses move. *)
Lemma inv_loops : forall s lp ep cl od, Inv s ->
  (forall h e i c p, lp h = LLoaded e i c p -> In (i, c) (tab s) /\ e_host (ent s c) = h /\ p = c) ->
  Inv (mkState (next_id s) (tab s) (ent s) lp ep cl od (alloc s)).
Proof. intros s lp ep cl od [Ile Iso Its Ist Ind Isa Igo Ira Ilo] H. constructor; simpl; auto. Qed.

Lemma updl_loaded : forall f h l h' ep i c p, (forall ep i c p, l <> LLoaded ep i c p) ->
  updl f h l h' = LLoaded ep i c p -> f h' = LLoaded ep i c p /\ h' <> h.
Proof.
  intros f h l h' ep i c p Hl H. destruct (Nat.eq_dec h' h) as [->|N].
  - rewrite updl_same in H. exfalso; eapply Hl; eauto.
  - rewrite updl_other in H; auto.
Qed.

Lemma inv_loop_reset : forall s h l ep cl od, Inv s -> (forall ep i c p, l <> LLoaded ep i c p) ->
  Inv (mkState (next_id s) (tab s) (ent s) (updl (loops s) h l) ep cl od (alloc s)).
Proof.
  intros s h l ep cl od I Hl. apply inv_loops; auto.
  intros h' ep' j c p' H'. apply updl_loaded in H'; [|exact Hl]. eapply (I_loop s I), H'.
Qed.

(* The entry stored under id i leaves the table, completed or retired (e); no loop of lp holds it. *)
Lemma inv_remove : forall s c i e lp,
  Inv s -> e_st (ent s c) = Stored i -> good c e -> e_st e = Retired ->
  (forall h ep j c' p, lp h = LLoaded ep j c' p -> loops s h = LLoaded ep j c' p /\ c' <> c) ->
  Inv (mkState (next_id s) (remove_id i (tab s)) (upd (ent s) c e) lp (epoch s) (closed s) (outdated s) (alloc s)).
Proof.
  intros s c i e lp I ES G ER Hlp. pose proof (I_st_tab s I _ _ ES) as Hin0.
  destruct I as [Ile Iso Its Ist Ind Isa Igo Ira Ilo]. constructor; simpl; auto.
  - intros j c' Hin. apply remove_id_In in Hin. destruct Hin as [Hin Hne].
    destruct (Nat.eq_dec c' c) as [->|N]; [apply Its in Hin; congruence | rewrite upd_other; auto].
  - intros j c' H. destruct (Nat.eq_dec c' c) as [->|N]; [rewrite upd_same in H; congruence|].
    rewrite upd_other in H; auto. apply remove_id_In. split; auto.
    intros ->. apply Ist in H. apply N. eapply NoDup_fst_inj; eauto.
  - apply NoDup_map_filter; auto.
  - intros j c' H. destruct (Nat.eq_dec c' c) as [->|N]; [rewrite upd_same in H; destruct H; congruence | rewrite upd_other in H; auto].
  - apply good_upd; auto.
  - intros c' p H. destruct (Nat.eq_dec c' c) as [->|N]; [exists i; apply Isa; now left | rewrite upd_other in H; eauto].
  - intros h ep j c' p H. destruct (Hlp _ _ _ _ _ H) as [H' N]. destruct (Ilo _ _ _ _ _ H') as (A & B & C).
    rewrite upd_other by auto. repeat split; auto. apply remove_id_In. split; auto.
    intros ->. apply N. eapply NoDup_fst_inj; eauto.
Qed.

(* FailSent and CloseFail only act on an entry that no recv loop has loaded. *)
Lemma not_loaded : forall s c i, Inv s -> e_st (ent s c) = Stored i -> loaded_on (loops s (e_host (ent s c))) i = false ->
  forall h ep j c' p, loops s h = LLoaded ep j c' p -> loops s h = LLoaded ep j c' p /\ c' <> c.
Proof.
  intros s c i I ES EL h ep j c' p H. split; auto. intros ->.
  destruct (I_loop s I _ _ _ _ _ H) as (A & B & _). apply (I_tab_st s I) in A.
  rewrite B, H in EL. simpl in EL. assert (j = i) by congruence. subst. now rewrite Nat.eqb_refl in EL.
Qed.

(* what Build, DropCanceled and StreamFail (on a live client) do *)
Lemma build_step : forall s c i s', step s (Build c i) = Some s' ->
  e_st (ent s c) = Queued /\ e_canceled (ent s c) = false /\ next_id s < i
  /\ s' = mkState i (tab s) (upd (ent s) c (set_st (ent s c) (Built i))) (loops s) (epoch s) (closed s) (outdated s)
                  ((i, c) :: alloc s).
Proof.
  intros s c i s' H. simpl in H. destruct (e_st (ent s c)); try discriminate.
  destruct (negb (e_canceled (ent s c)) && (next_id s <? i)) eqn:EG; try discriminate. inv_some.
  apply andb_prop in EG. destruct EG as [EC EL]. apply negb_true_iff in EC. apply Nat.ltb_lt in EL. auto.
Qed.

Lemma drop_step : forall s c s', step s (DropCanceled c) = Some s' ->
  e_st (ent s c) = Queued /\ e_canceled (ent s c) = true /\ s' = with_ent s (upd (ent s) c (retire (ent s c))).
Proof.
  intros s c s' H. simpl in H. destruct (e_st (ent s c)); try discriminate.
  destruct (e_canceled (ent s c)); try discriminate. inv_some. auto.
Qed.

Lemma streamfail_step : forall s h s', closed s = false -> step s (StreamFail h) = Some s' ->
  exists ep, loops s h = LIdle ep /\ fail_pending h (tab s) (ent s) = (tab s', ent s')
    /\ (ep = epoch s -> epoch s' = S (epoch s)) /\ (ep <> epoch s -> epoch s' = epoch s)
    /\ loops s' h = LIdle (epoch s').
Proof.
  intros s h s' HC H. simpl in H. rewrite HC in H. destruct (loops s h) as [|ep| |]; try discriminate.
  exists ep. split; auto. destruct (fail_pending h (tab s) (ent s)) as [t' f'].
  destruct (Nat.eqb_spec ep (epoch s)); inv_some; simpl; rewrite updl_same; repeat split; congruence.
Qed.

Lemma submit_other : forall s c0 h st c, step s (Submit c0 h) = Some st -> c <> c0 -> ent st c = ent s c.
Proof. intros s c0 h st c H N. simpl in H. destruct (e_st (ent s c0)); try discriminate. inversion H; subst. simpl. now apply upd_other. Qed.

Lemma inv_build : forall s c i s', Inv s -> step s (Build c i) = Some s' -> Inv s'.
Proof.
  intros s c i s' I H. pose proof (I_good s I c) as G. destruct (build_step _ _ _ _ H) as (ES & _ & EL & ->). clear H.
  destruct I as [Ile Iso Its Ist Ind Isa Igo Ira Ilo]. constructor; simpl; auto.
  - intros j c' [E|Hin]; [inversion E; subst; lia | apply Ile in Hin; lia].
  - constructor; auto. apply Forall_forall. intros [j c'] Hin. unfold newer; simpl.
    apply Ile in Hin. lia.
  - intros j c' Hin. destruct (Nat.eq_dec c' c) as [->|N]; [apply Its in Hin; congruence | rewrite upd_other; auto].
  - intros j c' H. destruct (Nat.eq_dec c' c) as [->|N]; [rewrite upd_same in H; discriminate | rewrite upd_other in H; auto].
  - intros j c' H. destruct (Nat.eq_dec c' c) as [->|N].
    + rewrite upd_same in H; simpl in H. destruct H as [H|H]; inversion H; subst. now left.
    + rewrite upd_other in H; auto.
  - apply good_upd; auto. apply good_set_st; auto; congruence.
  - intros c' p H. assert (H' : In (Resp p) (e_comp (ent s c'))).
    { destruct (Nat.eq_dec c' c) as [->|N]; [now rewrite upd_same in H | now rewrite upd_other in H]. }
    destruct (Ira _ _ H') as [j Hj]. exists j; now right.
  - intros h ep j c' p H. destruct (Ilo _ _ _ _ _ H) as (A & B & C). repeat split; auto.
    destruct (Nat.eq_dec c' c) as [->|N]; [rewrite upd_same; auto | rewrite upd_other; auto].
Qed.

Lemma inv_store : forall s c s', Inv s -> step s (Store c) = Some s' -> Inv s'.
Proof.
  intros s c s' I H. simpl in H. pose proof (I_good s I c) as G.
  destruct (e_st (ent s c)) eqn:ES; try discriminate. inv_some.
  assert (Hfresh : forall c', ~ In (i, c') (tab s)).
  { intros c' Hin. pose proof (I_tab_st s I _ _ Hin) as Hs.
    assert (A1 : In (i, c') (alloc s)) by (apply (I_st_alloc s I); now left).
    assert (A2 : In (i, c) (alloc s)) by (apply (I_st_alloc s I); now right).
    pose proof (sorted_unique _ _ _ _ (I_alloc_sorted s I) A1 A2). subst. congruence. }
  destruct I as [Ile Iso Its Ist Ind Isa Igo Ira Ilo]. constructor; simpl; auto.
  - intros j c' [E|Hin].
    + inversion E; subst. now rewrite upd_same.
    + destruct (Nat.eq_dec c' c) as [->|N]; [apply Its in Hin; congruence | rewrite upd_other; auto].
  - intros j c' H. destruct (Nat.eq_dec c' c) as [->|N].
    + rewrite upd_same in H; simpl in H. inversion H; subst. now left.
    + rewrite upd_other in H; auto.
  - constructor; auto. intros Hin. apply in_map_iff in Hin. destruct Hin as [[j c'] [E Hx]]. simpl in E; subst.
    eapply Hfresh; eauto.
  - intros j c' H. destruct (Nat.eq_dec c' c) as [->|N].
    + rewrite upd_same in H; simpl in H. apply Isa. destruct H as [H|H]; inversion H; subst. now right.
    + rewrite upd_other in H; auto.
  - apply good_upd; auto. apply good_set_st; auto; congruence.
  - intros c' p H. destruct (Nat.eq_dec c' c) as [->|N]; [rewrite upd_same in H; eauto | rewrite upd_other in H; eauto].
  - intros h ep j c' p H.
    assert (H' : loops s h = LLoaded ep j c' p).
    { destruct (loops s (e_host (ent s c))) eqn:EL; auto. apply updl_loaded in H; [tauto | discriminate]. }
    destruct (Ilo _ _ _ _ _ H') as (A & B & C). repeat split; auto.
    destruct (Nat.eq_dec c' c) as [->|N]; [rewrite upd_same; auto | rewrite upd_other; auto].
Qed.

(* failPendingRequests, entry by entry: an entry is hit iff it is in the table and of that host *)
Lemma fail_pending_cases : forall h t f t' f', NoDup (map snd t) -> fail_pending h t f = (t', f') ->
  t' = filter (fun x => negb (Nat.eqb (e_host (f (snd x))) h)) t
  /\ forall c, (In c (map snd t) /\ e_host (f c) = h /\ f' c = complete (f c) (Err EStream))
               \/ (~ (In c (map snd t) /\ e_host (f c) = h) /\ f' c = f c).
Proof.
  intros h t; induction t as [|[i c0] r IH]; simpl; intros f t' f' ND H.
  - inversion H; subst. split; auto. intros c. right. tauto.
  - inversion ND as [|? ? Hn ND']; subst.
    destruct (Nat.eqb_spec (e_host (f c0)) h) as [Eh|Nh]; simpl.
    + (* c0 is hit; it does not occur in the rest of the table, which therefore sees the entries as they were *)
      destruct (IH _ _ _ ND' H) as (A & D). split.
      * rewrite A. apply filter_ext_in. intros x Hx. rewrite upd_other; auto.
        intros E. apply Hn. rewrite <- E. now apply in_map.
      * intros c. destruct (Nat.eq_dec c c0) as [->|N].
        -- left. destruct (D c0) as [(Hin & _)|(_ & ->)]; [contradiction|]. rewrite upd_same. auto.
        -- specialize (D c). rewrite upd_other in D by auto.
           destruct D as [(Hin & E & F)|(Hno & F)]; [left; auto | right]. split; auto.
           intros [[E|Hin] Hh]; [congruence | tauto].
    + destruct (fail_pending h r f) as [t1 f1] eqn:E1. inversion H; subst.
      destruct (IH _ _ _ ND' E1) as (A & D). split; [now rewrite A|].
      intros c. destruct (D c) as [(Hin & E & F)|(Hno & F)]; [left; auto | right]. split; auto.
      intros [[E|Hin] Hh]; [subst; congruence | tauto].
Qed.

Lemma fail_pending_host : forall h t f t' f',
  NoDup (map snd t) -> fail_pending h t f = (t', f') -> forall c, e_host (f' c) = e_host (f c).
Proof.
  intros h t f t' f' ND H c. destruct (fail_pending_cases _ _ _ _ _ ND H) as [_ D].
  destruct (D c) as [(_ & _ & ->)|(_ & ->)]; reflexivity.
Qed.

Lemma inv_streamfail : forall s h s', Inv s -> closed s = false -> step s (StreamFail h) = Some s' -> Inv s'.
Proof.
  intros s h s' I HC H. simpl in H. rewrite HC in H.
  destruct (loops s h) eqn:EL; try discriminate.
  destruct (fail_pending h (tab s) (ent s)) as [t' f'] eqn:EF.
  assert (Hboth : exists l' e', (forall ep i c p, l' <> LLoaded ep i c p) /\
            s' = mkState (next_id s) t' f' (updl (loops s) h l') e' false (outdated s) (alloc s)).
  { destruct (Nat.eqb ep (epoch s)); inv_some; do 2 eexists; (split; [|reflexivity]); discriminate. }
  clear H. destruct Hboth as (l' & e' & Hl' & ->).
  destruct (fail_pending_cases _ _ _ _ _ (tab_callers_nodup s I) EF) as (-> & D).
  assert (Hkeep : forall j c, In (j, c) (tab s) -> e_host (ent s c) <> h ->
            f' c = ent s c /\ In (j, c) (filter (fun x => negb (Nat.eqb (e_host (ent s (snd x))) h)) (tab s))).
  { intros j c Hin Hne. destruct (D c) as [(_ & E & _)|(_ & ->)]; [congruence|]. split; auto.
    apply filter_In. split; auto. simpl. destruct (Nat.eqb_spec (e_host (ent s c)) h); [congruence | auto]. }
  destruct I as [Ile Iso Its Ist Ind Isa Igo Ira Ilo]. constructor; simpl; auto.
  - intros j c Hin. apply filter_In in Hin. simpl in Hin. destruct Hin as [Hin Hne].
    destruct (D c) as [(_ & E & _)|(_ & ->)]; auto. rewrite E, Nat.eqb_refl in Hne. discriminate.
  - intros j c H. destruct (D c) as [(_ & _ & E)|(Hn & E)]; rewrite E in H; [discriminate|].
    pose proof (Ist _ _ H) as Hin. apply (Hkeep j c Hin). intros Eh. apply Hn. split; auto.
    apply in_map_iff. exists (j, c). auto.
  - apply NoDup_map_filter; auto.
  - intros j c H. destruct (D c) as [(_ & _ & E)|(_ & E)]; rewrite E in H; auto. destruct H; discriminate.
  - intros c. destruct (D c) as [(Hin & _ & ->)|(_ & ->)]; auto.
    apply in_map_iff in Hin. destruct Hin as [[j c''] [<- Hin]].
    apply Its in Hin. apply good_complete; auto; simpl; congruence.
  - intros c p H. destruct (D c) as [(_ & _ & E)|(_ & E)]; rewrite E in H; eauto.
    simpl in H. apply in_app_or in H. destruct H as [H|[H|[]]]; [eauto | discriminate].
  - intros h' ep' j c p' H'. apply updl_loaded in H'; [|exact Hl']. destruct H' as [H' Hne].
    destruct (Ilo _ _ _ _ _ H') as (A' & B' & C'). subst h'.
    destruct (Hkeep j c A' Hne) as [-> K]. auto.
Qed.

(* the entry of the caller a label names is rewritten: every other entry stays *)
Lemma upd_acts : forall s l c e, acts s l c -> expects l (ent s c) -> etrans (ent s c) e ->
  forall c0, upd (ent s) c e c0 = ent s c0
             \/ (acts s l c0 /\ expects l (ent s c0) /\ etrans (ent s c0) (upd (ent s) c e c0)).
Proof.
  intros s l c e A X T c0. destruct (Nat.eq_dec c0 c) as [->|N]; [rewrite upd_same; auto | left; now apply upd_other].
Qed.

(* One case analysis of the step function gives both: the invariant is kept, and an entry either stays or makes one
   transition -- then the label acts on it and found it in the state it expects. *)
Theorem step_sound : forall s l s', Inv s -> step s l = Some s' ->
  Inv s' /\ forall c, ent s' c = ent s c \/ (acts s l c /\ expects l (ent s c) /\ etrans (ent s c) (ent s' c)).
Proof.
  intros s l s' I H. pose proof (I_good s I) as G. destruct l; try (simpl in H).
  - (* Submit *) destruct (e_st (ent s c)) eqn:ES; try discriminate. inv_some. split.
    + apply inv_with_ent; simpl; auto; try tauto; try (intros; discriminate).
      * unfold good; simpl. repeat split; try tauto; discriminate.
      * intros i; split; [discriminate | congruence].
    + apply upd_acts; simpl; auto. destruct (G c) as (_ & _ & _ & _ & G5). rewrite (G5 ES). constructor.
  - (* Build *) split; [eapply inv_build; eauto|]. destruct (build_step _ _ _ _ H) as (ES & EC & _ & ->).
    apply upd_acts; simpl; auto. apply T_st. right; left. eauto.
  - (* DropCanceled *) destruct (drop_step _ _ _ H) as (ES & EC & ->). split.
    + apply inv_with_ent; simpl; auto; try (intros; discriminate).
      * apply good_retire; auto; congruence.
      * intros i; split; [discriminate | congruence].
    + apply upd_acts; simpl; auto. apply T_st. now left.
  - (* NoConn *) destruct (e_st (ent s c)) eqn:ES; try discriminate. inv_some.
    split; [apply inv_fail_unsent; auto | apply upd_acts; simpl; auto; now constructor].
  - (* InitFail *) destruct (e_st (ent s c)) eqn:ES; try discriminate.
    + destruct (e_canceled (ent s c)); try discriminate. inv_some.
      split; [apply inv_fail_unsent; auto | apply upd_acts; simpl; auto; now constructor].
    + inv_some. split; [apply inv_fail_unsent; eauto | apply upd_acts; simpl; eauto; now constructor].
  - (* Store *) split; [eapply inv_store; eauto|]. destruct (e_st (ent s c)) eqn:ES; try discriminate. inv_some.
    apply upd_acts; simpl; eauto. apply T_st. right; right. eauto.
  - (* FailSent *) destruct (e_st (ent s c)) eqn:ES; try discriminate.
    destruct (loaded_on (loops s (e_host (ent s c))) i) eqn:EL; try discriminate. inv_some. split.
    + apply inv_remove; auto; [apply good_complete; auto; congruence | eapply not_loaded; eauto].
    + apply upd_acts; simpl; eauto. now constructor.
  - (* RecvLoad *) destruct (loops s h) eqn:EL; try discriminate.
    destruct (lookup i (tab s)) as [c|] eqn:ELK; [|inv_some; split; [apply inv_loops; [auto | apply (I_loop s I)] | now left]].
    destruct (Nat.eqb (e_host (ent s c)) h && match lookup i (alloc s) with Some c' => Nat.eqb p c' | None => true end) eqn:EG; try discriminate.
    inv_some. split; [|now left]. apply andb_prop in EG. destruct EG as [EH EP]. apply Nat.eqb_eq in EH.
    apply lookup_In in ELK.
    assert (A : In (i, c) (alloc s)) by (apply (I_st_alloc s I); left; apply (I_tab_st s I); auto).
    rewrite (sorted_lookup _ _ _ (I_alloc_sorted s I) A) in EP. apply Nat.eqb_eq in EP.
    apply inv_loops; auto. intros h' ep' j c' p' H. destruct (Nat.eq_dec h' h) as [->|N].
    + rewrite updl_same in H. inversion H; subst. auto.
    + rewrite updl_other in H; auto. eapply (I_loop s I); eauto.
  - (* RecvFinish *) destruct (loops s h) eqn:EL; try discriminate. inv_some.
    destruct (I_loop s I _ _ _ _ _ EL) as (Hin0 & Hh & ->).
    pose proof (I_tab_st s I _ _ Hin0) as ES. split.
    + apply inv_remove; auto.
      * destruct (e_canceled (ent s c)) eqn:EC; [apply good_retire | apply good_complete]; auto; congruence.
      * destruct (e_canceled (ent s c)); reflexivity.
      * intros h' ep' j c' p' H. apply updl_loaded in H; [|discriminate]. destruct H as [H N]. split; auto.
        intros ->. destruct (I_loop s I _ _ _ _ _ H) as (_ & B & _). congruence.
    + apply upd_acts; simpl; eauto.
      destruct (e_canceled (ent s c)) eqn:EC; [apply T_st; now left | now constructor].
  - (* StreamFail *) destruct (closed s) eqn:EC.
    { destruct (loops s h); try discriminate. inv_some. split; [apply inv_loop_reset; auto; discriminate | now left]. }
    assert (H' : step s (StreamFail h) = Some s') by (simpl; rewrite EC; exact H).
    split; [exact (inv_streamfail s h s' I EC H')|]. intros c.
    destruct (streamfail_step _ _ _ EC H') as (_ & _ & EF & _).
    destruct (fail_pending_cases _ _ _ _ _ (tab_callers_nodup s I) EF) as (_ & D).
    destruct (D c) as [(Hin & Hh & ->)|(_ & ->)]; [right | now left].
    split; [split; auto|]. split; [|now constructor].
    apply in_map_iff in Hin. destruct Hin as [[j c'] [<- Hin]]. exists j. now apply (I_tab_st s I).
  - (* Abort *) assert (HF : e_st (ent s c) <> Fresh) by (intros E; rewrite E in H; discriminate).
    assert (H' : (if is_abort_kind k && match k with EClosed => closed s | _ => true end
                  then Some (with_ent s (upd (ent s) c (mkEntry (e_host (ent s c)) (e_st (ent s c)) (e_comp (ent s c)) true (Some (Err k)))))
                  else None) = Some s' /\ e_ret (ent s c) = None).
    { destruct (e_st (ent s c)); try congruence; destruct (e_ret (ent s c)); try discriminate; auto. }
    clear H. destruct H' as [H ER].
    destruct (is_abort_kind k && match k with EClosed => closed s | _ => true end) eqn:EK; try discriminate.
    inv_some. apply andb_prop in EK. destruct EK as [EK _]. split.
    + apply inv_with_ent; simpl; auto; [apply good_abort; auto | tauto].
    + apply upd_acts; simpl; auto. now constructor.
  - (* Return *) destruct (e_ret (ent s c)) eqn:ER; try discriminate.
    destruct (e_comp (ent s c)) as [|r rest] eqn:EC; try discriminate. inv_some. rewrite <- EC. split.
    + apply inv_with_ent; simpl; auto; [eapply good_return; eauto | tauto].
    + apply upd_acts; simpl; auto; [rewrite EC; discriminate | now constructor].
  - (* Close *) inv_some. split; [apply inv_loops; [auto | apply (I_loop s I)] | now left].
  - inv_some. auto.
  - (* RecvPanic *)
    assert (Hs : s' = mkState (next_id s) (tab s) (ent s) (updl (loops s) h (LIdle (epoch s))) (epoch s) (closed s) (outdated s) (alloc s))
      by (destruct (loops s h); try discriminate; inv_some; reflexivity).
    subst s'. split; [apply inv_loop_reset; auto; discriminate | now left].
  - (* FailPanic *) destruct (loops s h) eqn:EL; try discriminate. destruct (closed s); try discriminate. inv_some.
    split; [apply inv_loop_reset; auto; discriminate | now left].
  - (* CloseFail *) destruct (e_st (ent s c)) eqn:ES; try discriminate.
    destruct (closed s) eqn:EC; simpl in H; try discriminate.
    destruct (loaded_on (loops s (e_host (ent s c))) i) eqn:EL; simpl in H; try discriminate. inv_some.
    rewrite <- EC. split.
    + apply inv_remove; auto; [apply good_complete; auto; congruence | eapply not_loaded; eauto].
    + apply upd_acts; simpl; eauto. now constructor.
  - (* QueueFail *) destruct (e_st (ent s c)) eqn:ES; try discriminate. destruct (closed s); try discriminate. inv_some.
    split; [apply inv_fail_unsent; auto | apply upd_acts; simpl; auto; now constructor].
  - (* IdleFail *) destruct (e_st (ent s c)) eqn:ES; try discriminate. inv_some.
    split; [apply inv_fail_unsent; auto | apply upd_acts; simpl; auto; now constructor].
Qed.

Lemma step_inv : forall s l s', Inv s -> step s l = Some s' -> Inv s'.
Proof. intros s l s' I H. exact (proj1 (step_sound s l s' I H)). Qed.

Lemma step_etrans : forall s l s', Inv s -> step s l = Some s' ->
  forall c, ent s' c = ent s c \/ (acts s l c /\ expects l (ent s c) /\ etrans (ent s c) (ent s' c)).
Proof. intros s l s' I H. exact (proj2 (step_sound s l s' I H)). Qed.

Lemma run_inv : forall ls s s', Inv s -> run s ls = Some s' -> Inv s'.
Proof. intros ls s s' I H. exact (iter_inv step Inv (fun s l s' E I => step_inv s l s' I E) ls s s' H I). Qed.

Lemma reachable_inv : forall s, reachable s -> Inv s.
Proof. intros s [ls H]. eapply run_inv; [apply inv_init | eauto]. Qed.

Lemma run_app : forall l1 l2 s, run s (l1 ++ l2) = match run s l1 with Some s1 => run s1 l2 | None => None end.
Proof. exact (iter_app step). Qed.

Lemma run_one : forall s l s', step s l = Some s' -> run s [l] = Some s'.
Proof. intros s l s' H. cbn [run]. now rewrite H. Qed.

Lemma reachable_run : forall s ls s', reachable s -> run s ls = Some s' -> reachable s'.
Proof.
  intros s ls s' [l0 H0] H. exists (l0 ++ ls). rewrite run_app, H0. exact H.
Qed.

Lemma reachable_step : forall s l s', reachable s -> step s l = Some s' -> reachable s'.
Proof. intros s l s' R H. exact (reachable_run s [l] s' R (run_one s l s' H)). Qed.

Lemma run_ind_inv : forall P : state -> Prop,
  (forall s l s', Inv s -> step s l = Some s' -> P s -> P s') ->
  forall ls s s', Inv s -> run s ls = Some s' -> P s -> P s'.
Proof.
  intros P HP ls s s' I H Hs. apply (iter_inv step (fun s => Inv s /\ P s)) with (ls := ls) (s := s); auto.
  intros s0 l s1 E [I0 P0]. split; [exact (step_inv _ _ _ I0 E) | exact (HP _ _ _ I0 E P0)].
Qed.

Lemma run_entry_ind : forall (P : entry -> Prop) c,
  (forall e e', etrans e e' -> P e -> P e') ->
  forall ls s s', Inv s -> run s ls = Some s' -> P (ent s c) -> P (ent s' c).
Proof.
  intros P c HP. apply (run_ind_inv (fun s => P (ent s c))). intros s l s' I E Hs.
  destruct (step_etrans _ _ _ I E c) as [->|(_ & _ & T)]; eauto.
Qed.
