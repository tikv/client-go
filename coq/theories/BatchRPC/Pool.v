(* C18 — the connection pool layer: RPCClient.connPools[addr] -> connPool with n batchCommandsClients, re-created by
   CloseAddr / idle recycling, closed by RPCClient.Close.  Each batchCommandsClient of each pool generation is ONE instance
   of the core system of Model.v (own table, loops and epoch; the ids it sees are a strictly increasing subsequence of
   the pool's shared id source, which is what the core's Build guard asks for).  Which client a request goes to --
   round-robin over the clients with available() > 0 that can be locked for sending -- is left nondeterministic. *)
From Coq Require Import List Arith Bool Lia.
Import ListNotations.
From Verif Require Import BatchRPC.Model BatchRPC.Iter BatchRPC.Proofs3 BatchRPC.Proofs BatchRPC.CoreProofs.

Record pstate := mkP {
  p_gen : nat;                            (* connPool.ver of the pool currently registered for the address *)
  p_cl : nat -> nat -> state;             (* generation, connection index -> batchCommandsClient *)
  p_home : caller -> option (nat * nat);  (* ghost: where a call was routed *)
  p_rpc_closed : bool;                    (* RPCClient.isClosed *)
  p_idle : bool                           (* batchConn.idle of the current pool *)
}.

Inductive plabel :=
| PRoute (c : caller) (k : nat) (h : host)  (* sendRequest: getConnPool (client not closed, pool not idle; creates the pool of the
                                               current generation if needed), entry enqueued; connection k will carry it *)
| PCore (g k : nat) (l : label)             (* a step of client k of generation g (not Submit) *)
| PCloseAddr                                (* CloseAddr / CloseAddrVer: the pool is taken out of the map and closed; the next
                                               call creates generation + 1 *)
| PClose                                    (* RPCClient.Close: the current pool is closed, no further calls *)
| PIdle                                     (* the idle timer of the current pool fired *)
| PRecycle.                                 (* recycleIdleConnArray: an idle pool is closed like CloseAddrVer *)

Definition set_closed (s : state) : state :=
  mkState (next_id s) (tab s) (ent s) (loops s) (epoch s) true (outdated s) (alloc s).

Definition upd_cl (f : nat -> nat -> state) (g k : nat) (s : state) : nat -> nat -> state :=
  fun g' k' => if Nat.eqb g' g && Nat.eqb k' k then s else f g' k'.
Definition close_gen (f : nat -> nat -> state) (g : nat) : nat -> nat -> state :=
  fun g' k' => if Nat.eqb g' g then set_closed (f g' k') else f g' k'.
Definition upd_home (f : caller -> option (nat * nat)) (c : caller) (v : nat * nat) : caller -> option (nat * nat) :=
  fun c' => if Nat.eqb c' c then Some v else f c'.

Definition is_submit (l : label) : bool := match l with Submit _ _ => true | _ => false end.

Definition pstep (p : pstate) (l : plabel) : option pstate :=
  match l with
  | PRoute c k h =>
      match p_home p c with
      | Some _ => None
      | None =>
          if p_rpc_closed p || p_idle p then None   (* "rpcClient is closed" / "rpcClient is idle": the call fails before it is enqueued *)
          else match step (p_cl p (p_gen p) k) (Submit c h) with
               | Some s => Some (mkP (p_gen p) (upd_cl (p_cl p) (p_gen p) k s) (upd_home (p_home p) c (p_gen p, k)) (p_rpc_closed p) (p_idle p))
               | None => None
               end
      end
  | PCore g k l0 =>
      if is_submit l0 then None
      else match step (p_cl p g k) l0 with
           | Some s => Some (mkP (p_gen p) (upd_cl (p_cl p) g k s) (p_home p) (p_rpc_closed p) (p_idle p))
           | None => None
           end
  | PCloseAddr => Some (mkP (S (p_gen p)) (close_gen (p_cl p) (p_gen p)) (p_home p) (p_rpc_closed p) false)
  | PClose => Some (mkP (p_gen p) (close_gen (p_cl p) (p_gen p)) (p_home p) true (p_idle p))
  | PIdle => Some (mkP (p_gen p) (p_cl p) (p_home p) (p_rpc_closed p) true)
  | PRecycle => if p_idle p then Some (mkP (S (p_gen p)) (close_gen (p_cl p) (p_gen p)) (p_home p) (p_rpc_closed p) false) else None
  end.

Fixpoint prun (p : pstate) (ls : list plabel) : option pstate :=
  match ls with [] => Some p | l :: r => match pstep p l with Some p' => prun p' r | None => None end end.
Definition pinit : pstate := mkP 0 (fun _ _ => init) (fun _ => None) false false.
Definition preach (p : pstate) : Prop := exists ls, prun pinit ls = Some p.

(* an entry that has not been submitted is touched by nothing but its own Submit *)
Lemma step_keeps_fresh_entry : forall s l s' c, Inv s -> e_st (ent s c) = Fresh ->
  step s l = Some s' -> is_submit l = false -> ent s' c = ent s c.
Proof.
  intros s l s' c I HQ H NS.
  destruct (step_etrans _ _ _ I H c) as [E|(A & X & _)]; [exact E | exfalso].
  destruct l; simpl in A, X, NS; try contradiction; try congruence; try (destruct X as [? X]; congruence).
  - destruct X as [X|[i X]]; congruence.
  - (* Return needs a completion *) destruct (I_good s I c) as (_ & _ & _ & _ & G5). apply X. now rewrite (G5 HQ).
Qed.

Lemma fresh_stays_fresh : forall s l s' c, Inv s -> step s l = Some s' -> is_submit l = false ->
  e_st (ent s c) = Fresh -> e_st (ent s' c) = Fresh.
Proof. intros s l s' c I H NS HF. now rewrite (step_keeps_fresh_entry _ _ _ _ I HF H NS). Qed.

Record PInv (p : pstate) : Prop := {
  PI_reach : forall g k, reachable (p_cl p g k);
  PI_home : forall c g k, e_st (ent (p_cl p g k) c) <> Fresh -> p_home p c = Some (g, k);
  PI_gen : forall c g k, p_home p c = Some (g, k) -> g <= p_gen p
}.

Lemma set_closed_step : forall s, step s Close = Some (set_closed s).
Proof. reflexivity. Qed.

Lemma upd_cl_same : forall f g k s, upd_cl f g k s g k = s.
Proof. intros; unfold upd_cl. now rewrite !Nat.eqb_refl. Qed.
Lemma upd_cl_other : forall f g k s g' k', (g', k') <> (g, k) -> upd_cl f g k s g' k' = f g' k'.
Proof.
  intros f g k s g' k' H. unfold upd_cl. destruct (Nat.eqb_spec g' g); destruct (Nat.eqb_spec k' k); simpl; auto. subst. congruence.
Qed.

Lemma pinv_init : PInv pinit.
Proof.
  constructor; simpl; intros; try discriminate.
  - exists []. reflexivity.
  - exfalso. apply H. reflexivity.
Qed.

Lemma close_gen_ent : forall f g g' k', ent (close_gen f g g' k') = ent (f g' k').
Proof. intros. unfold close_gen. destruct (Nat.eqb g' g); reflexivity. Qed.

Lemma close_gen_reach : forall f g, (forall g' k', reachable (f g' k')) -> forall g' k', reachable (close_gen f g g' k').
Proof.
  intros f g H g' k'. unfold close_gen. destruct (Nat.eqb g' g); auto.
  eapply reachable_step; [apply H | apply set_closed_step].
Qed.

(* closing every client of a generation; the generation counter may move on *)
Lemma pinv_close_gen : forall p g n rc idl, PInv p -> p_gen p <= n ->
  PInv (mkP n (close_gen (p_cl p) g) (p_home p) rc idl).
Proof.
  intros p g n rc idl [I1 I2 I3] Hn. constructor; simpl.
  - apply close_gen_reach; auto.
  - intros c g0 k Hst. rewrite close_gen_ent in Hst. auto.
  - intros c g0 k Hh. apply I3 in Hh. lia.
Qed.

(* a statement about every client after one of them was replaced: about the new one, and about the others as they were *)
Lemma upd_cl_ind : forall (P : nat -> nat -> state -> Prop) f g k s,
  P g k s -> (forall g' k', (g', k') <> (g, k) -> P g' k' (f g' k')) -> forall g' k', P g' k' (upd_cl f g k s g' k').
Proof.
  intros P f g k s Hs Hf g' k'. destruct (Nat.eq_dec g' g) as [->|]; [destruct (Nat.eq_dec k' k) as [->|]|].
  - now rewrite upd_cl_same.
  - rewrite upd_cl_other by congruence. apply Hf. congruence.
  - rewrite upd_cl_other by congruence. apply Hf. congruence.
Qed.

Lemma pstep_inv : forall p l p', PInv p -> pstep p l = Some p' -> PInv p'.
Proof.
  intros p l p' I H. pose proof I as [I1 I2 I3]. destruct l; unfold pstep in H.
  - destruct (p_home p c) eqn:EH; [discriminate|].
    destruct (p_rpc_closed p || p_idle p); [discriminate|].
    destruct (step (p_cl p (p_gen p) k) (Submit c h)) as [s|] eqn:E; [|discriminate]. inversion H; subst; clear H.
    constructor; simpl.
    + apply (upd_cl_ind (fun _ _ s => reachable s)); [eapply reachable_step; eauto | auto].
    + intros c0.
      apply (upd_cl_ind (fun g' k' s' => e_st (ent s' c0) <> Fresh -> upd_home (p_home p) c (p_gen p, k) c0 = Some (g', k')));
        unfold upd_home.
      * (* the client the call went to: its other entries are as before *)
        intros Hst. destruct (Nat.eqb_spec c0 c) as [|N]; auto. rewrite (submit_other _ _ _ _ _ E N) in Hst. auto.
      * intros g' k' _ Hst. apply I2 in Hst. destruct (Nat.eqb_spec c0 c); [congruence | exact Hst].
    + intros c0 g k0 Hh. unfold upd_home in Hh. destruct (Nat.eqb_spec c0 c); [inversion Hh; subst; lia | eauto].
  - destruct (is_submit l) eqn:ES; [discriminate|].
    destruct (step (p_cl p g k) l) as [s|] eqn:E; [|discriminate]. inversion H; subst; clear H.
    constructor; simpl; auto.
    + apply (upd_cl_ind (fun _ _ s => reachable s)); [eapply reachable_step; eauto | auto].
    + intros c0. apply (upd_cl_ind (fun g' k' s' => e_st (ent s' c0) <> Fresh -> p_home p c0 = Some (g', k'))); [|auto].
      (* no step but its own Submit takes an entry out of Fresh *)
      intros Hst. apply I2. intros HF. apply Hst. eapply fresh_stays_fresh; eauto. apply reachable_inv; auto.
  - inversion H; subst; clear H. apply pinv_close_gen; auto.
  - inversion H; subst; clear H. apply pinv_close_gen; auto.
  - inversion H; subst; clear H. constructor; simpl; auto.
  - destruct (p_idle p); [|discriminate]. inversion H; subst; clear H. apply pinv_close_gen; auto.
Qed.

Lemma option_pair_dec : forall (o : option (nat * nat)) (v : nat * nat), {o = Some v} + {o <> Some v}.
Proof. intros o v. decide equality. decide equality; apply Nat.eq_dec. Qed.

Lemma preach_inv : forall p, preach p -> PInv p.
Proof. intros p [ls H]. exact (iter_inv pstep PInv (fun p l p' E I => pstep_inv p l p' I E) ls pinit p H pinv_init). Qed.

(* every client of every pool generation is a reachable core state; a call lives in exactly one of them *)
Lemma pool_clients : forall p, preach p ->
  (forall g k, reachable (p_cl p g k))
  /\ (forall c g k, p_home p c <> Some (g, k) -> ent (p_cl p g k) c = entry0)
  /\ (forall c g k, p_home p c = Some (g, k) -> g <= p_gen p).
Proof.
  intros p R. destruct (preach_inv p R) as [I1 I2 I3]. split; auto. split; auto.
  intros c g k Hn. destruct (I_good _ (reachable_inv _ (I1 g k)) c) as (_ & _ & _ & _ & G5). apply G5.
  destruct (e_st (ent (p_cl p g k) c)) eqn:ES; auto; exfalso; apply Hn; apply I2; congruence.
Qed.

Lemma pool_home : forall p c g k, preach p -> ent (p_cl p g k) c <> entry0 -> p_home p c = Some (g, k).
Proof.
  intros p c g k R H. destruct (option_pair_dec (p_home p c) (g, k)) as [E|E]; auto.
  destruct (pool_clients p R) as (_ & B & _). now apply B in E.
Qed.

(* exactly once / own response for a call routed to ANY client of ANY generation: over the whole pool a call has at most
   one completion, a returned response is its own, and a return value never changes whatever happens to the pool *)
Lemma pool_exactly_once : forall p c, preach p ->
  (forall g k, length (e_comp (ent (p_cl p g k) c)) <= 1)
  /\ (forall g k g' k', e_comp (ent (p_cl p g k) c) <> [] -> e_comp (ent (p_cl p g' k') c) <> [] -> (g, k) = (g', k'))
  /\ (forall g k q, e_ret (ent (p_cl p g k) c) = Some (Resp q) -> q = c /\ p_home p c = Some (g, k)).
Proof.
  intros p c R. destruct (pool_clients p R) as (A & _). split; [|split].
  - intros g k. apply comp_at_most_once; auto.
  - intros g k g' k' H1 H2.
    assert (E1 : p_home p c = Some (g, k)) by (apply pool_home; auto; intros E; now rewrite E in H1).
    assert (E2 : p_home p c = Some (g', k')) by (apply pool_home; auto; intros E; now rewrite E in H2).
    congruence.
  - intros g k q H. destruct (own_response _ _ _ (A g k) H) as (E & _). split; auto.
    apply pool_home; auto. intros E'. rewrite E' in H. discriminate.
Qed.

(* pool re-creation (CloseAddr, idle recycling): every client of the old generation is closed, nothing is completed or
   lost by the re-creation itself, later calls are routed to the new generation; in a closed client every synchronous
   caller still waiting can return the closed error (its select on batchConn.closed) *)
Lemma pool_recreate : forall p l p', (l = PCloseAddr \/ l = PRecycle) -> pstep p l = Some p' ->
  p_gen p' = S (p_gen p)
  /\ (forall k, closed (p_cl p' (p_gen p) k) = true)
  /\ (forall g k, ent (p_cl p' g k) = ent (p_cl p g k) /\ tab (p_cl p' g k) = tab (p_cl p g k))
  /\ (forall c k h p'', pstep p' (PRoute c k h) = Some p'' -> p_home p'' c = Some (S (p_gen p), k)).
Proof.
  intros p l p' Hl H.
  assert (Hp : p' = mkP (S (p_gen p)) (close_gen (p_cl p) (p_gen p)) (p_home p) (p_rpc_closed p) false).
  { destruct Hl; subst l; simpl in H; [|destruct (p_idle p); try discriminate]; inversion H; reflexivity. }
  subst p'. split; [reflexivity|]. split; [|split].
  - intros k. cbn [p_cl p_gen]. unfold close_gen. now rewrite Nat.eqb_refl.
  - intros g k. cbn [p_cl]. unfold close_gen. destruct (Nat.eqb g (p_gen p)); auto.
  - intros c k h p'' H2. unfold pstep in H2. cbn [p_home p_rpc_closed p_idle p_gen p_cl] in H2. destruct (p_home p c); [discriminate|].
    destruct (p_rpc_closed p || false); [discriminate|].
    match type of H2 with context [step ?st (Submit c h)] => destruct (step st (Submit c h)) end; [|discriminate].
    inversion H2; subst. cbn [p_home]. unfold upd_home. now rewrite Nat.eqb_refl.
Qed.

Lemma closed_sync_can_return : forall s c, closed s = true -> e_st (ent s c) <> Fresh -> e_ret (ent s c) = None ->
  exists s', step s (Abort c EClosed) = Some s' /\ e_ret (ent s' c) = Some (Err EClosed).
Proof.
  intros s c HC HF HR. simpl. rewrite HR, HC.
  destruct (e_st (ent s c)) eqn:ES; try congruence; (eexists; split; [reflexivity|]; simpl; now rewrite upd_same).
Qed.

(* what happens on stream h -- a response batch, a Recv failure with re-creation, a panic of its recv loop -- completes,
   fails or removes only entries that were sent on h; every entry of another (direct or forwarded-host) stream, with
   whatever id of the shared id space, is untouched and stays in the table *)
Lemma stream_frame : forall s l h s' c, Inv s -> step s l = Some s' ->
  (l = RecvFinish h \/ l = StreamFail h \/ l = RecvPanic h \/ l = FailPanic h \/ exists i p, l = RecvLoad h i p) ->
  e_host (ent s c) <> h ->
  ent s' c = ent s c /\ (forall i, In (i, c) (tab s) -> In (i, c) (tab s')).
Proof.
  intros s l h s' c I H Hl Hh.
  assert (E : ent s' c = ent s c).
  { (* a label of stream h acts only on entries of host h *)
    destruct (step_etrans _ _ _ I H c) as [E|(A & _)]; [exact E | exfalso].
    destruct Hl as [->|[->|[->|[->|[i [p ->]]]]]]; simpl in A; try contradiction.
    - destruct A as (ep & i & p & A). destruct (I_loop s I _ _ _ _ _ A) as (_ & B & _). contradiction.
    - destruct A as [_ A]. contradiction. }
  split; [exact E|]. intros i. now apply (step_keeps_in_tab s l s').
Qed.

Lemma stream_isolation : forall s l h s' c, reachable s -> step s l = Some s' ->
  (l = RecvFinish h \/ l = StreamFail h \/ l = RecvPanic h \/ l = FailPanic h \/ exists i p, l = RecvLoad h i p) ->
  e_host (ent s c) <> h -> e_st (ent s c) <> Fresh ->
  ent s' c = ent s c /\ (forall i, In (i, c) (tab s) -> In (i, c) (tab s')).
Proof. intros s l h s' c R H Hl Hh _. exact (stream_frame s l h s' c (reachable_inv s R) H Hl Hh). Qed.

Lemma pool_exactly_once_own : forall p c, preach p ->
  (forall g k, reachable (p_cl p g k))
  /\ (forall g k, p_home p c <> Some (g, k) -> ent (p_cl p g k) c = entry0)
  /\ (forall g k, length (e_comp (ent (p_cl p g k) c)) <= 1)
  /\ (forall g k g' k', e_comp (ent (p_cl p g k) c) <> [] -> e_comp (ent (p_cl p g' k') c) <> [] -> (g, k) = (g', k'))
  /\ (forall g k q, e_ret (ent (p_cl p g k) c) = Some (Resp q) -> q = c /\ p_home p c = Some (g, k)).
Proof.
  intros p c R. destruct (pool_clients p R) as (A & B & _). destruct (pool_exactly_once p c R) as (C & D & E).
  split; [exact A|]. split; [intros g k H; apply B; exact H|]. split; [exact C|]. split; [exact D | exact E].
Qed.
