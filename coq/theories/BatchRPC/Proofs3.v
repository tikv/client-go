(* C18 — the transitions of one entry.  A step changes an entry in one of six ways (etrans), it changes only an entry
   its label acts on, and it finds that entry in the state the label expects; Proofs.step_sound proves this together
   with the invariant.  Here: what the transitions alone imply, with no reference to states or runs. *)
From Coq Require Import List Arith Bool.
Import ListNotations.
From Verif Require Import BatchRPC.Model.

(* error kinds that only the caller itself produces (its context / its timer) *)
Definition own_only (k : errk) : bool := match k with ECtx | ETimeout => true | _ => false end.

Inductive etrans : entry -> entry -> Prop :=
| T_submit h : etrans entry0 (mkEntry h Queued [] false None)
| T_st e st : (st = Retired \/ (exists i, st = Built i /\ e_st e = Queued /\ e_canceled e = false)
               \/ (exists i, st = Stored i /\ e_st e = Built i)) -> etrans e (set_st e st)
| T_err e k : own_only k = false -> etrans e (complete e (Err k))
| T_resp e p : e_canceled e = false -> etrans e (complete e (Resp p))
| T_abort e k : e_ret e = None -> etrans e (mkEntry (e_host e) (e_st e) (e_comp e) true (Some (Err k)))
| T_return e r : e_ret e = None -> etrans e (mkEntry (e_host e) (e_st e) (e_comp e) (e_canceled e) (Some r)).

(* the callers whose entry a step may rewrite *)
Definition acts (s : state) (l : label) (c : caller) : Prop :=
  match l with
  | Submit c0 _ | Build c0 _ | DropCanceled c0 | NoConn c0 | InitFail c0 | Store c0 | FailSent c0
  | Abort c0 _ | Return c0 | CloseFail c0 | QueueFail c0 | IdleFail c0 => c = c0
  | RecvFinish h => exists ep i p, loops s h = LLoaded ep i c p
  | StreamFail h => In c (map snd (tab s)) /\ e_host (ent s c) = h
  | _ => False
  end.

(* ... and the state that entry is in *)
Definition expects (l : label) (e : entry) : Prop :=
  match l with
  | Submit _ _ => e_st e = Fresh
  | Build _ _ | DropCanceled _ | NoConn _ | QueueFail _ | IdleFail _ => e_st e = Queued
  | InitFail _ => e_st e = Queued \/ exists i, e_st e = Built i
  | Store _ => exists i, e_st e = Built i
  | FailSent _ | CloseFail _ | RecvFinish _ | StreamFail _ => exists i, e_st e = Stored i
  | Abort _ _ => e_st e <> Fresh
  | Return _ => e_comp e <> []
  | _ => True
  end.

Lemma etrans_ret_stable : forall e e' r, etrans e e' -> e_ret e = Some r -> e_ret e' = Some r.
Proof. intros e e' r T H. destruct T; simpl in *; auto; congruence. Qed.

Lemma etrans_canceled_resp : forall e e' p, etrans e e' -> e_canceled e = true ->
  In (Resp p) (e_comp e') -> In (Resp p) (e_comp e).
Proof.
  intros e e' p T HC H. destruct T; simpl in *; auto; try discriminate; try congruence.
  apply in_app_or in H. destruct H as [H|[H|[]]]; auto. discriminate.
Qed.

Lemma etrans_canceled_stays : forall e e', etrans e e' -> e_canceled e = true -> e_canceled e' = true.
Proof. intros e e' T H. destruct T; simpl in *; auto. Qed.

Lemma etrans_skipped_st : forall e e', etrans e e' -> e_canceled e = true ->
  (e_st e = Queued \/ e_st e = Retired) -> (e_st e' = Queued \/ e_st e' = Retired).
Proof.
  intros e e' T HC HS. destruct T; simpl in *; auto; try discriminate.
  destruct H as [E|[[i (E & _ & E2)]|[i (E & E2)]]]; subst; auto; [congruence|].
  destruct HS as [E|E]; rewrite E in E2; discriminate.
Qed.

Lemma etrans_past_queue : forall e e', etrans e e' -> e_st e <> Fresh -> e_st e <> Queued ->
  e_st e' <> Fresh /\ e_st e' <> Queued.
Proof.
  intros e e' T H1 H2. destruct T; simpl in *; try (split; congruence); auto.
  destruct H as [E|[[i (E & _)]|[i (E & _)]]]; subst; split; discriminate.
Qed.

(* an entry in the table stays there under its id until it is retired; its host never changes once it is submitted *)
Lemma etrans_stored : forall i e e', etrans e e' -> e_st e = Stored i \/ e_st e = Retired ->
  e_st e' = e_st e \/ e_st e' = Retired.
Proof.
  intros i e e' T HS. destruct T; simpl in *; auto.
  - destruct HS; discriminate.
  - destruct H as [E|[[j (E & E2 & _)]|[j (E & E2)]]]; subst; auto; destruct HS as [E|E]; rewrite E in E2; discriminate.
Qed.

Lemma etrans_host : forall h e e', etrans e e' -> e_host e = h /\ e_st e <> Fresh -> e_host e' = h /\ e_st e' <> Fresh.
Proof.
  intros h e e' T [Hh HF]. destruct T; simpl in *; auto; try (split; [assumption | discriminate]); try congruence.
  destruct H as [E0|[[j (E0 & _)]|[j (E0 & _)]]]; subst; split; auto; discriminate.
Qed.

Definition comp_clean (e : entry) : Prop := forall k, In (Err k) (e_comp e) -> own_only k = false.

Lemma etrans_comp_clean : forall e e', etrans e e' -> comp_clean e -> comp_clean e'.
Proof.
  intros e e' T C. destruct T; unfold comp_clean in *; simpl in *; intros k0 Hin; auto; try contradiction;
    apply in_app_or in Hin; destruct Hin as [Hin|[E|[]]]; auto; inversion E; subst; auto.
Qed.

(* the canceled flag of an entry is raised only by the transition of its own caller's abort *)
Lemma etrans_canceled_by_abort : forall e e', etrans e e' -> e_canceled e = false -> e_canceled e' = true ->
  exists k, e' = mkEntry (e_host e) (e_st e) (e_comp e) true (Some (Err k)) /\ e_ret e = None.
Proof.
  intros e e' T H0 H1. destruct T; simpl in *; try congruence. exists k. auto.
Qed.

(* regression witness for the branch as it was before fix a827fda: caller 0 on the direct stream (host 0), caller 1 on
   a forwarded stream (host 1); the forwarded stream fails first (wins the epoch CAS), then the direct stream fails:
   its loop holds epoch 0, loses the CAS and -- pre-fix -- re-creates the stream without failPendingRequests *)
Definition stale_epoch_run : list label :=
  [Submit 0 0; Submit 1 1; Build 0 1; Build 1 2; Store 0; Store 1; StreamFail 1].
