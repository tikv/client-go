(* C18 — the resource-control / RPC-interceptor wrapper around the batch client (client_interceptor.go,
   NewInterceptedClient): per call, getResourceControlInfo decides whether a resource-group controller is active (switch
   on, group name set, not a background group); if so OnRequestWait may refuse the call before it is sent and supplies the
   group's priority, which becomes the request's priority ONLY if the request carries no override priority; the wrapped
   client is called once; OnResponseWait may turn a response into an error.  The wrapper never touches the response. *)
From Coq Require Import List Arith Bool Lia.
Import ListNotations.
From Verif Require Import BatchRPC.Model BatchRPC.Proofs3 BatchRPC.Proofs BatchRPC.CoreProofs.

Record gspec := mkG {
  g_rc : bool;        (* wrapper in the stack, ResourceControlSwitch on, a controller installed *)
  g_override : nat;   (* ResourceControlContext.OverridePriority of the request *)
  g_group : nat;      (* resource group: 0 = no group name; bg = a background group *)
  g_gate : nat        (* scripted controller: 1 = OnRequestWait fails, 2 = OnResponseWait fails *)
}.

Definition rc_active (bg : nat) (g : gspec) : bool :=
  g_rc g && negb (Nat.eqb (g_group g) 0) && negb (Nat.eqb (g_group g) bg).

(* the priority the request is enqueued with (batchCommandsEntry.pri) *)
Definition gate_priority (bg : nat) (gp : nat -> nat) (g : gspec) : nat :=
  if rc_active bg g && Nat.eqb (g_override g) 0 then gp (g_group g) else g_override g.

Definition gate_admits (bg : nat) (g : gspec) : bool := negb (rc_active bg g && Nat.eqb (g_gate g) 1).

Inductive gres := GReqErr | GRespErr | GInner (r : result).

(* what the wrapped call returns, given what the inner call returned (None: it has not returned / was never made) *)
Definition gate_result (bg : nat) (g : gspec) (inner : option result) : option gres :=
  if negb (gate_admits bg g) then Some GReqErr
  else match inner with
       | None => None
       | Some (Resp p) => if rc_active bg g && Nat.eqb (g_gate g) 2 then Some GRespErr else Some (GInner (Resp p))
       | Some (Err e) => Some (GInner (Err e))
       end.

(* the wrapped call over the core system: caller c's inner call is entry c *)
Definition wrapped_ret (bg : nat) (g : gspec) (s : state) (c : caller) : option gres := gate_result bg g (e_ret (ent s c)).

Lemma gate_wrapped_call : forall bg g,
  (* own response through the wrapper, exactly once *)
  (forall s c p, reachable s -> wrapped_ret bg g s c = Some (GInner (Resp p)) -> p = c /\ e_ret (ent s c) = Some (Resp c))
  /\ (forall s ls s' c r, reachable s -> run s ls = Some s' -> wrapped_ret bg g s c = Some r -> wrapped_ret bg g s' c = Some r)
  (* a refused call is refused whatever happens inside, an admitted call returns nothing before the inner call has *)
  /\ (gate_admits bg g = false -> forall inner, gate_result bg g inner = Some GReqErr)
  /\ (gate_admits bg g = true -> gate_result bg g None = None)
  (* an error of the inner call passes unchanged; a response is only ever replaced by the response gate's error *)
  /\ (gate_admits bg g = true -> forall e, gate_result bg g (Some (Err e)) = Some (GInner (Err e)))
  /\ (gate_admits bg g = true -> forall p, gate_result bg g (Some (Resp p)) = Some (GInner (Resp p)) \/ gate_result bg g (Some (Resp p)) = Some GRespErr).
Proof.
  intros bg g. split; [|split; [|split; [|split; [|split]]]].
  - intros s c p R H. unfold wrapped_ret, gate_result in H. destruct (negb (gate_admits bg g)); [discriminate|].
    destruct (e_ret (ent s c)) as [[q|e]|] eqn:ER; try discriminate.
    destruct (rc_active bg g && Nat.eqb (g_gate g) 2); [discriminate|]. inversion H; subst.
    destruct (own_response _ _ _ R ER) as (E & _). subst. auto.
  - intros s ls s' c r R Hrun H. unfold wrapped_ret, gate_result in *. destruct (negb (gate_admits bg g)); auto.
    destruct (e_ret (ent s c)) as [r0|] eqn:ER; [|discriminate].
    rewrite (run_ret_stable _ _ _ _ _ (reachable_inv s R) Hrun ER). exact H.
  - intros H inner. unfold gate_result. now rewrite H.
  - intros H. unfold gate_result. now rewrite H.
  - intros H e. unfold gate_result. now rewrite H.
  - intros H p. unfold gate_result. rewrite H. simpl. destruct (rc_active bg g && Nat.eqb (g_gate g) 2); auto.
Qed.

Lemma gate_priority_spec : forall bg gp g,
  (g_override g <> 0 -> gate_priority bg gp g = g_override g)
  /\ (rc_active bg g = false -> gate_priority bg gp g = g_override g)
  /\ (g_override g = 0 -> rc_active bg g = true -> gate_priority bg gp g = gp (g_group g))
  /\ (g_rc g = false \/ g_group g = 0 \/ g_group g = bg -> rc_active bg g = false).
Proof.
  intros bg gp g. unfold gate_priority. repeat split.
  - intros H. destruct (Nat.eqb_spec (g_override g) 0); [congruence|]. now rewrite andb_false_r.
  - intros H. now rewrite H.
  - intros H1 H2. rewrite H1, H2. reflexivity.
  - intros [H|[H|H]]; unfold rc_active; rewrite H; simpl; auto.
    + now rewrite andb_false_r.
    + rewrite Nat.eqb_refl. simpl. now rewrite andb_false_r.
Qed.

(* how often the RPC interceptor attached to the call's context runs for a call that has returned: around a synchronous
   call once, unless OnRequestWait refused it; for an asynchronous call only inside the resource-control wrapper's injected
   completion hook, i.e. once if a controller is active for the call and admitted it, otherwise never (code as it is) *)
Definition icpt_runs (bg : nat) (g : gspec) (is_async : bool) : nat :=
  if is_async then (if rc_active bg g && gate_admits bg g then 1 else 0)
  else (if gate_admits bg g then 1 else 0).

Lemma icpt_runs_spec : forall bg g a,
  icpt_runs bg g a <= 1
  /\ (gate_admits bg g = false -> icpt_runs bg g a = 0)
  /\ (gate_admits bg g = true -> icpt_runs bg g false = 1)
  /\ (rc_active bg g = false -> icpt_runs bg g true = 0).
Proof.
  intros bg g a. unfold icpt_runs. repeat split.
  - destruct a; destruct (gate_admits bg g); destruct (rc_active bg g); simpl; lia.
  - intros H. rewrite H. rewrite andb_false_r. destruct a; reflexivity.
  - intros H. now rewrite H.
  - intros H. now rewrite H.
Qed.
