(* C18 — batched RPC multiplexing: theorems over ALL runs of the in-flight-table transition system
   (any number of callers / forwarded hosts, any interleaving of the atomic steps, any failure points).
   What the model cannot exhibit (gRPC, goroutine scheduling inside a step, timers) is explored on
   the implementation by checks/C18.py. *)
From Coq Require Import List Arith Bool Sorted.
Import ListNotations.
From Verif Require Import BatchRPC.Model BatchRPC.Proofs3 BatchRPC.Proofs BatchRPC.CoreProofs BatchRPC.Proofs4
  BatchRPC.System BatchRPC.SysProofs BatchRPC.RunLoop BatchRPC.RunLoopProofs BatchRPC.Pool BatchRPC.Gate BatchRPC.ProofsTop BatchRPC.Round.

(* ids, CORE level: allocation order is strictly increasing, every id is allocated exactly once (also across stream
   re-creation: no step lowers next_id), every id in the table was allocated to exactly that entry.  NOTE: in the core
   the id of `Build c i` is a label parameter guarded by `next_id s < i` (an abstraction of the counter that allows gaps),
   so the last conjunct reads that guard back; what is PROVED is that the guard plus "no step lowers next_id" keep the
   log sorted / duplicate-free and the table inside the log in every reachable state.  The id being COMPUTED from the
   counter is C18_ids_computed below (builder layer), and the acceptor checks the code's ids against it. *)
Theorem C18_ids_fresh : forall s, reachable s ->
  StronglySorted newer (alloc s)
  /\ NoDup (map fst (alloc s))
  /\ (forall i c c', In (i, c) (alloc s) -> In (i, c') (alloc s) -> c = c')
  /\ (forall i c, In (i, c) (tab s) -> In (i, c) (alloc s))
  /\ NoDup (map fst (tab s))
  /\ (forall c i s', step s (Build c i) = Some s' ->
        (forall j c', In (j, c') (alloc s) -> j < i) /\ alloc s' = (i, c) :: alloc s).
Proof. exact ids_fresh. Qed.
Print Assumptions C18_ids_fresh.

(* a caller that returned a response returned the echo of its own request, which was put on its channel,
   under an id that was allocated to this caller and to nobody else *)
Theorem C18_own_response : forall s c p, reachable s -> e_ret (ent s c) = Some (Resp p) ->
  p = c /\ In (Resp c) (e_comp (ent s c))
  /\ exists i, In (i, c) (alloc s) /\ forall c', In (i, c') (alloc s) -> c' = c.
Proof. exact own_response. Qed.
Print Assumptions C18_own_response.

(* responses are dispatched by id: what a recv loop holds between Load and deliver is the entry
   registered under that id, on that loop's own stream *)
Theorem C18_dispatch_by_id : forall s h ep i c p, reachable s -> loops s h = LLoaded ep i c p ->
  In (i, c) (tab s) /\ In (i, c) (alloc s) /\ e_host (ent s c) = h /\ p = c.
Proof. exact dispatch_by_id. Qed.
Print Assumptions C18_dispatch_by_id.

(* exactly once: (1) at most one completion event (value or close) ever reaches an entry's channel,
   (2) what a caller returned never changes afterwards, (3) an entry that left the system was completed
   or its caller had already returned, in particular in every state with an empty table every caller that is
   not still queued, (4) a completed caller that has not returned can return, and returns that completion *)
Theorem C18_exactly_once :
  (forall s c, reachable s -> length (e_comp (ent s c)) <= 1)
  /\ (forall s ls s' c r, reachable s -> run s ls = Some s' -> e_ret (ent s c) = Some r -> e_ret (ent s' c) = Some r)
  /\ (forall s c, reachable s -> e_st (ent s c) = Retired -> e_comp (ent s c) <> [] \/ e_ret (ent s c) <> None)
  /\ (forall s c, reachable s -> tab s = [] ->
        e_st (ent s c) <> Fresh -> e_st (ent s c) <> Queued -> (forall i, e_st (ent s c) <> Built i) ->
        e_comp (ent s c) <> [] \/ e_ret (ent s c) <> None)
  /\ (forall s c r l, e_ret (ent s c) = None -> e_comp (ent s c) = r :: l ->
        exists s', step s (Return c) = Some s' /\ e_ret (ent s' c) = Some r).
Proof. exact (conj comp_at_most_once (conj (fun s ls s' c r R => run_ret_stable ls s s' c r (reachable_inv s R))
  (conj completed_when_retired (conj completed_when_table_empty return_enabled)))). Qed.
Print Assumptions C18_exactly_once.

(* stream failure (both branches of the epoch CAS, client not closed): no entry of that stream stays in flight, each
   of them got exactly the stream error, entries of other forwarded hosts are untouched *)
Theorem C18_fail_pending_total : forall s h s', reachable s ->
  closed s = false -> step s (StreamFail h) = Some s' ->
  (forall i c, In (i, c) (tab s') -> e_host (ent s' c) <> h)
  /\ (forall i c, In (i, c) (tab s) -> e_host (ent s c) = h ->
        e_comp (ent s' c) = [Err EStream] /\ e_st (ent s' c) = Retired /\ ~ In (i, c) (tab s'))
  /\ (forall i c, In (i, c) (tab s) -> e_host (ent s c) <> h -> In (i, c) (tab s') /\ ent s' c = ent s c).
Proof. exact fail_pending_total. Qed.
Print Assumptions C18_fail_pending_total.

(* regression witness: with the CAS-losing branch as it was before fix a827fda (`streamfail_prefix_loser`: re-create
   only) a reachable state exists in which an entry of the failed stream stays in flight without any completion *)
Theorem C18_prefix_loser_branch_refuted : exists s s', reachable s /\ closed s = false /\
  streamfail_prefix_loser s 0 = Some s' /\ In (1, 0) (tab s') /\ e_host (ent s' 0) = 0 /\ e_comp (ent s' 0) = [].
Proof. exact prefix_loser_keeps_pending. Qed.
Print Assumptions C18_prefix_loser_branch_refuted.

(* the losing branch of the epoch CAS refreshes the loop's epoch copy (`*epoch = atomic.LoadUint64(&c.epoch)`) and
   leaves the epoch alone; therefore, as long as no other loop wins a CAS in between (epoch unchanged), the NEXT break
   of the same stream wins the CAS: failPendingRequests is reached, every entry then in flight on that stream gets
   the stream error and leaves the table *)
Theorem C18_lost_cas_refreshes_epoch : forall s h ep s', loops s h = LIdle ep -> ep <> epoch s -> closed s = false ->
  step s (StreamFail h) = Some s' ->
  loops s' h = LIdle (epoch s') /\ epoch s' = epoch s.
Proof. exact lost_cas_refreshes. Qed.
Print Assumptions C18_lost_cas_refreshes_epoch.

Theorem C18_lost_cas_then_fail_pending : forall s h ep s1 ls s2 s3, reachable s ->
  loops s h = LIdle ep -> ep <> epoch s -> closed s = false -> step s (StreamFail h) = Some s1 ->
  run s1 ls = Some s2 -> epoch s2 = epoch s1 -> closed s2 = false ->
  step s2 (StreamFail h) = Some s3 ->
  epoch s3 = S (epoch s2)
  /\ (forall i c, In (i, c) (tab s3) -> e_host (ent s3 c) <> h)
  /\ (forall i c, In (i, c) (tab s2) -> e_host (ent s2 c) = h ->
        e_comp (ent s3 c) = [Err EStream] /\ e_st (ent s3 c) = Retired /\ ~ In (i, c) (tab s3)).
Proof. exact lost_cas_then_fail_pending. Qed.
Print Assumptions C18_lost_cas_then_fail_pending.


(* a response is never put on the channel of an entry whose canceled flag was set when the dispatch read it *)
Theorem C18_canceled_never_delivered : forall s l s' c p, reachable s -> step s l = Some s' ->
  e_canceled (ent s c) = true -> In (Resp p) (e_comp (ent s' c)) -> In (Resp p) (e_comp (ent s c)).
Proof. exact (fun s l s' c p R H =>
  run_canceled_never_delivered [l] s s' c p (reachable_inv s R) (run_one s l s' H)). Qed.
Print Assumptions C18_canceled_never_delivered.

(* the extracted monitor predicate used on the implementation accepts every return value of the model *)
Theorem C18_monitor_sound : forall s c r, reachable s -> e_ret (ent s c) = Some r -> obs_identity c r = true.
Proof. exact monitor_sound. Qed.
Print Assumptions C18_monitor_sound.

(* ids are fresh ACROSS streams: the direct stream and every forwarded-host stream of a connection draw from the one id
   source and share the table, so two entries in flight -- on whatever hosts -- never carry the same id, and the entry
   found under an id is the one the id was allocated to *)
Theorem C18_ids_fresh_across_streams : forall s i c c', reachable s ->
  In (i, c) (tab s) -> In (i, c') (tab s) -> c = c' /\ e_host (ent s c) = e_host (ent s c') /\ lookup i (alloc s) = Some c.
Proof. exact ids_fresh_across_streams. Qed.
Print Assumptions C18_ids_fresh_across_streams.

(* an entry cancelled while it is still queued (before buildWithLimit looked at it): its caller has returned the
   ctx / time-out / closed error, and in EVERY continuation that return value stays, the entry never gets an id, is
   never put in the table (never sent) and never receives a response *)
Theorem C18_canceled_before_build : forall s c ls s', reachable s ->
  e_st (ent s c) = Queued -> e_canceled (ent s c) = true -> run s ls = Some s' ->
  (exists k, e_ret (ent s c) = Some (Err k) /\ is_abort_kind k = true)
  /\ e_ret (ent s' c) = e_ret (ent s c)
  /\ (e_st (ent s' c) = Queued \/ e_st (ent s' c) = Retired)
  /\ (forall i, ~ In (i, c) (alloc s')) /\ (forall i, ~ In (i, c) (tab s'))
  /\ (forall p, ~ In (Resp p) (e_comp (ent s' c))).
Proof. exact canceled_before_build. Qed.
Print Assumptions C18_canceled_before_build.


(* ... and every entry that was pending on that stream is completed exactly once in every continuation that reaches
   the next failure of the stream: at most one completion ever, and the ones still in flight get the stream error *)
Theorem C18_panic_then_failed_once : forall s h l s1 ls s2 s3 i c, reachable s ->
  (l = RecvPanic h \/ l = FailPanic h) -> step s l = Some s1 ->
  In (i, c) (tab s) -> e_host (ent s c) = h ->
  run s1 ls = Some s2 -> closed s2 = false -> step s2 (StreamFail h) = Some s3 ->
  e_comp (ent s1 c) = [] /\ In (i, c) (tab s1)
  /\ e_st (ent s3 c) = Retired /\ length (e_comp (ent s3 c)) <= 1
  /\ (e_comp (ent s3 c) <> [] \/ e_ret (ent s3 c) <> None)
  /\ (In (i, c) (tab s2) -> e_comp (ent s3 c) = [Err EStream]).
Proof. exact panic_then_fail_once. Qed.
Print Assumptions C18_panic_then_failed_once.

(* the builder / send-loop / async layer (System.v) only performs sequences of core steps: everything above holds
   for core x of every reachable x *)
Theorem C18_builder_layer_refines_core : forall x, xreach x -> reachable (core x).
Proof. exact xreach_core. Qed.
Print Assumptions C18_builder_layer_refines_core.

(* one call of buildWithLimit.  NOTE: WHICH entries a round pops (`takes`) is a label parameter; the first two conjuncts
   read the step guard `round_ok` back (in System.v the loop over the heap is not a function -- Round.v has it, see
   C18_build_loop_legal below; the acceptor checks every real round against that guard).  What is proved beyond the guard: the ids (third conjunct) are computed.
   Only fetched entries are popped; whatever is left behind has no high priority and no
   priority above a popped entry; the popped, non-cancelled entries get exactly the next consecutive ids, in
   order; cancelled ones get none *)
Theorem C18_build_round : forall x lim takes x', xstep x (XBuildRound lim takes) = Some x' ->
  (forall t, In t takes -> In t (inb x))
  /\ (forall r, In r (inb x') -> In r (inb x) /\ ~ In r takes /\ pri x r < high_pri /\ forall t, In t takes -> pri x r <= pri x t)
  /\ (let ps := build_pairs (ent (core x)) (next_id (core x)) takes in
      alloc (core x') = rev ps ++ alloc (core x)
      /\ next_id (core x') = next_id (core x) + length ps
      /\ map fst ps = seq (S (next_id (core x))) (length ps)
      /\ (forall i c, In (i, c) ps -> In c takes /\ e_canceled (ent (core x) c) = false)).
Proof. exact (fun x lim takes x' H => conj (proj1 (round_discipline x lim takes x' H))
  (conj (proj2 (round_discipline x lim takes x' H)) (round_ids_consecutive x lim takes x' H))). Qed.
Print Assumptions C18_build_round.

(* buildWithLimit's LOOP as a function (Round.v: `for (count < limit && Len() > 0) || hasHighPriorityTask() { Take(n) }` over a
   heap whose pop removes SOME element of maximal priority -- `pop` is a parameter with exactly that specification):
   whatever the loop pops is a legal round of the model, for every limit and every duplicate-free builder -- the guards
   round_ok / quota_ok of XBuildRound are not assumptions about the code's loop but consequences of its shape.  Nothing
   of high priority and nothing above a popped entry stays behind; entries stay behind only once `lim` normal
   non-cancelled entries were popped. *)
Theorem C18_build_loop_legal : forall pr f pop,
  (forall q, match pop q with
             | None => q = []
             | Some (c, q') => In c q /\ q' = remove_c c q /\ (forall r, In r q -> pr r <= pr c)
             end) ->
  forall lim q takes left, NoDup q -> build_with_limit pr f pop lim q = (takes, left) ->
  round_ok pr q takes = true
  /\ quota_ok (Some lim) f pr q takes = true
  /\ NoDup takes /\ (forall c, In c q <-> In c takes \/ In c left) /\ (forall c, In c takes -> ~ In c left)
  /\ (forall r, In r left -> pr r < high_pri /\ forall t, In t takes -> pr r <= pr t)
  /\ (left = [] \/ lim <= counted f pr takes).
Proof. exact build_with_limit_legal. Qed.
Print Assumptions C18_build_loop_legal.

(* ... and with a concrete pop (first element of maximal priority) the computed round is an ENABLED XBuildRound step of the
   layer whenever the send loop is alive and ready and the builder is well-formed; it leaves exactly what the loop left *)
Theorem C18_build_loop_is_round : forall x lim takes left, sendloop x = true -> ready x = true -> NoDup (inb x) ->
  (forall c, In c (inb x) -> e_st (ent (core x) c) = Queued) ->
  build_with_limit (pri x) (ent (core x)) (pop_max (pri x)) lim (inb x) = (takes, left) ->
  exists x', xstep x (XBuildRound (Some lim) takes) = Some x'
    /\ (forall c, In c (inb x') <-> In c left)
    /\ (left = [] \/ lim <= counted (ent (core x)) (pri x) takes).
Proof. exact build_loop_is_round. Qed.
Print Assumptions C18_build_loop_is_round.

(* ids, BUILDER layer: here no id is chosen by the environment.  `Build` is not a step of the layer; the only step that
   allocates is a builder round, which numbers the popped non-cancelled entries next_id+1, next_id+2, .. (b.idAlloc++);
   every other step leaves the allocation log alone.  Hence in every layer-reachable state: ids <= the counter, no id
   allocated twice, no id twice in the in-flight table, the table inside the log. *)
Theorem C18_ids_computed : forall x, xreach x ->
  (forall l x', xstep x l = Some x' ->
     alloc (core x') = alloc (core x)
     \/ exists lim takes, l = XBuildRound lim takes
          /\ (let ps := build_pairs (ent (core x)) (next_id (core x)) takes in
              alloc (core x') = rev ps ++ alloc (core x)
              /\ map fst ps = seq (S (next_id (core x))) (length ps)
              /\ next_id (core x') = next_id (core x) + length ps))
  /\ (forall i c, In (i, c) (alloc (core x)) -> i <= next_id (core x))
  /\ NoDup (map fst (alloc (core x)))
  /\ NoDup (map fst (tab (core x)))
  /\ (forall i c, In (i, c) (tab (core x)) -> In (i, c) (alloc (core x))).
Proof. exact ids_computed. Qed.
Print Assumptions C18_ids_computed.

(* buildWithLimit(limit) loses nothing: every entry that was in the builder is afterwards either popped-and-cancelled
   (retired, never sent), or popped and given an id (recorded in the allocation log; from there only Store / InitFail
   apply), or NOT popped and still in the builder, untouched, for the next round.  And entries are only left behind when
   the quota is used up: with the default (unbounded) limit nothing is left, with available() = l at least l normal
   non-cancelled entries were popped. *)
Theorem C18_round_nothing_lost : forall x lim takes x', xstep x (XBuildRound lim takes) = Some x' ->
  (forall c, In c (inb x) ->
     (In c takes /\ e_canceled (ent (core x) c) = true /\ e_st (ent (core x') c) = Retired)
     \/ (In c takes /\ e_canceled (ent (core x) c) = false /\ exists i, e_st (ent (core x') c) = Built i /\ In (i, c) (alloc (core x')))
     \/ (~ In c takes /\ In c (inb x') /\ ent (core x') c = ent (core x) c))
  /\ (inb x' = [] \/ exists l, lim = Some l /\ l <= counted (ent (core x)) (pri x) takes).
Proof. exact (fun x lim takes x' H => conj (round_nothing_lost x lim takes x' H) (round_quota x lim takes x' H)). Qed.
Print Assumptions C18_round_nothing_lost.

(* leftover entries are retried without a new arrival (fix 7ad2a8a).  They are never lost (C18_round_nothing_lost: what is
   not popped stays in the builder untouched).  Progress: whenever the send loop is alive and an entry sits in a
   well-formed builder, the wake-up step XWake is enabled -- no request has to arrive -- and after it a round that builds
   the entry is enabled, under ANY limit (free capacity is not even needed for the step to be legal: the quota is soft -- the statement is for EVERY limit `lim`;
   in the code the round pops at least `available()` > 0 normal entries, which entry is the heap's choice).  Regression
   witness for the code before the fix: a waiting send loop builds nothing, and nothing but an arriving request or the
   wake-up makes it ready. *)
Theorem C18_leftover_retried :
  (forall x c, sendloop x = true -> NoDup (inb x) ->
     (forall c', In c' (inb x) -> e_st (ent (core x) c') = Queued) ->
     In c (inb x) -> e_canceled (ent (core x) c) = false ->
     exists x1, xstep x XWake = Some x1 /\ core x1 = core x /\ inb x1 = inb x
       /\ forall lim, exists x2 i, xstep x1 (XBuildRound lim (inb x)) = Some x2 /\ e_st (ent (core x2) c) = Built i /\ inb x2 = [])
  /\ (forall x l x', ready x = false -> xstep x l = Some x' -> l <> XWake -> (forall c, l <> XFetch c) ->
        ready x' = false /\ (forall lim takes, xstep x (XBuildRound lim takes) = None)).
Proof. exact (conj wake_builds_leftover leftover_needs_wake). Qed.
Print Assumptions C18_leftover_retried.

(* Close and the asynchronous API (after fix 000f10e).  (1) When batchSendLoop returns because the client is closed it
   drains the channel: every asynchronous entry still queued there gets exactly the closed error.  (2) The sender's
   re-check: an asynchronous call that enqueues its entry while the client is closed is failed at once. *)
Theorem C18_close_fails_queued_async :
  (forall x x', xstep x XSendExit = Some x' ->
     chq x' = [] /\ sendloop x' = false
     /\ (forall c, In c (chq x) -> asy x c = true -> e_st (ent (core x) c) = Queued ->
           e_comp (ent (core x') c) = e_comp (ent (core x) c) ++ [Err EClosed] /\ e_st (ent (core x') c) = Retired))
  /\ (forall x c h p, closed (core x) = true -> e_st (ent (core x) c) = Fresh ->
        exists x', xstep x (XSubmit c h p true) = Some x' /\ e_comp (ent (core x') c) = [Err EClosed] /\ e_st (ent (core x') c) = Retired).
Proof. exact (conj send_exit_drains async_submit_when_closed). Qed.
Print Assumptions C18_close_fails_queued_async.

(* the full statement for the code after fixes 000f10e and e17a7fd: an asynchronous call is never left behind by the send
   loop.  (1) Whichever way batchSendLoop returns -- client closed, or the idle timer -- it drains the channel and every
   asynchronous entry queued there gets exactly one error (closed / idle).  (2) The loop is only ever gone when the client
   is closed or the conn idle, and an asynchronous call that enqueues its entry in such a state is failed at once by the
   sender's re-check. *)
Theorem C18_async_never_orphaned :
  (forall x l x', (l = XSendExit \/ l = XIdleExit) -> xstep x l = Some x' ->
     chq x' = [] /\ sendloop x' = false
     /\ (forall c, In c (chq x) -> asy x c = true -> e_st (ent (core x) c) = Queued ->
           exists e, (e = EClosed \/ e = EIdle) /\ e_comp (ent (core x') c) = e_comp (ent (core x) c) ++ [Err e]
                     /\ e_st (ent (core x') c) = Retired))
  /\ (forall x c h p, xreach x -> sendloop x = false -> e_st (ent (core x) c) = Fresh ->
        exists x' e, xstep x (XSubmit c h p true) = Some x' /\ (e = EClosed \/ e = EIdle)
                     /\ e_comp (ent (core x') c) = [Err e] /\ e_st (ent (core x') c) = Retired).
Proof. exact (conj exit_drains async_submit_after_exit). Qed.
Print Assumptions C18_async_never_orphaned.

(* regression witness for the code before those fixes: once the send loop is gone, NO other step but the caller's own
   context touches a queued asynchronous entry -- which is why the drains and the re-check are needed (before them such an
   entry, e.g. one enqueued while the loop returned on its idle timer, was never completed) *)
Theorem C18_async_queued_untouched_after_loop_exit : forall x c l x', xreach x -> sendloop x = false -> asy x c = true ->
  e_st (ent (core x) c) = Queued -> e_comp (ent (core x) c) = [] -> xstep x l = Some x' ->
  (forall k, l <> XCore (Abort c k)) ->
  ent (core x') c = ent (core x) c /\ sendloop x' = false /\ asy x' c = true.
Proof. exact async_after_exit. Qed.
Print Assumptions C18_async_queued_untouched_after_loop_exit.

(* the connection pool: every batchCommandsClient of every pool generation is a reachable core state (so every theorem
   above holds for it); a call lives in exactly one of them; over the whole pool -- across CloseAddr / idle recycling /
   Close -- it has at most one completion and a returned response is its own *)
Theorem C18_pool_exactly_once_own_response : forall p c, preach p ->
  (forall g k, reachable (p_cl p g k))
  /\ (forall g k, p_home p c <> Some (g, k) -> ent (p_cl p g k) c = entry0)
  /\ (forall g k, length (e_comp (ent (p_cl p g k) c)) <= 1)
  /\ (forall g k g' k', e_comp (ent (p_cl p g k) c) <> [] -> e_comp (ent (p_cl p g' k') c) <> [] -> (g, k) = (g', k'))
  /\ (forall g k q, e_ret (ent (p_cl p g k) c) = Some (Resp q) -> q = c /\ p_home p c = Some (g, k)).
Proof. exact pool_exactly_once_own. Qed.
Print Assumptions C18_pool_exactly_once_own_response.

(* pool re-creation: every client of the old generation is closed, the re-creation itself completes and loses nothing,
   later calls are routed to the new generation, and in a closed client every synchronous caller still waiting can return
   the closed error (asynchronous ones: CloseFail / the drain, see above) *)
Theorem C18_pool_recreate :
  (forall p l p', (l = PCloseAddr \/ l = PRecycle) -> pstep p l = Some p' ->
     p_gen p' = S (p_gen p)
     /\ (forall k, closed (p_cl p' (p_gen p) k) = true)
     /\ (forall g k, ent (p_cl p' g k) = ent (p_cl p g k) /\ tab (p_cl p' g k) = tab (p_cl p g k))
     /\ (forall c k h p'', pstep p' (PRoute c k h) = Some p'' -> p_home p'' c = Some (S (p_gen p), k)))
  /\ (forall s c, closed s = true -> e_st (ent s c) <> Fresh -> e_ret (ent s c) = None ->
        exists s', step s (Abort c EClosed) = Some s' /\ e_ret (ent s' c) = Some (Err EClosed)).
Proof. exact (conj pool_recreate closed_sync_can_return). Qed.
Print Assumptions C18_pool_recreate.

(* streams of one client share the id space and the table but are isolated: what happens on stream h (response batch,
   Recv failure + re-creation, panic of its recv loop) completes / fails / removes only entries sent on h *)
Theorem C18_stream_isolation : forall s l h s' c, reachable s -> step s l = Some s' ->
  (l = RecvFinish h \/ l = StreamFail h \/ l = RecvPanic h \/ l = FailPanic h \/ exists i p, l = RecvLoad h i p) ->
  e_host (ent s c) <> h -> e_st (ent s c) <> Fresh ->
  ent s' c = ent s c /\ (forall i, In (i, c) (tab s) -> In (i, c) (tab s')).
Proof. exact stream_isolation. Qed.
Print Assumptions C18_stream_isolation.

(* the non-batch path (one unary call per request): a completed call stays completed with the same result, a reply is
   the call's own, and after Close every pending call can be completed with the closed error *)
Theorem C18_unary_exactly_once :
  (forall ls u u' c r, urun u ls = Some u' -> ucalls u c = UDone r -> ucalls u' c = UDone r)
  /\ (forall ls u' c p, urun uinit ls = Some u' -> ucalls u' c = UDone (Resp p) -> p = c)
  /\ (forall u c, uclosed u = true -> ucalls u c = UPending ->
        exists u', ustep u (UFail c EClosed) = Some u' /\ ucalls u' c = UDone (Err EClosed)).
Proof. exact (conj urun_done_stable (conj urun_own uclose_completes)). Qed.
Print Assumptions C18_unary_exactly_once.

(* util/async.RunLoop, on which every asynchronous completion is scheduled: in every reachable state
   done ++ running ++ runnable is exactly the list of callbacks ever appended, in append order -- so every callback runs
   exactly once, callbacks run in FIFO order, nothing appended during a round (also re-entrantly, by a running callback)
   can overwrite or duplicate a callback of the round, and an idle loop has run everything; the start of a round hands the
   whole runnable list to the round and leaves an EMPTY runnable list *)
Theorem C18_runloop_fifo_once :
  (forall st, rreach st ->
     r_done st ++ r_running st ++ r_runnable st = r_log st
     /\ (r_running st = [] -> r_runnable st = [] -> r_done st = r_log st)
     /\ (NoDup (r_log st) -> NoDup (r_done st ++ r_running st ++ r_runnable st))
     /\ (exists rest, r_log st = r_done st ++ rest))
  /\ (forall st st', rstep st RStart = Some st' ->
        r_running st' = r_runnable st /\ r_runnable st' = [] /\ r_done st' = r_done st).
Proof. exact (conj runloop_fifo_once runloop_round_start). Qed.
Print Assumptions C18_runloop_fifo_once.

(* reqCollapse: the shared flight is owned by no caller.  A caller that has returned got either ITS OWN cancellation /
   time-out, or the result of the flight it joined -- a flight of its own key, whose response carries that key (own
   response of the layer below).  A caller's cancellation touches neither the flight nor any other caller, and once
   the shared request has returned every caller still waiting on it can take the result. *)
Theorem C18_collapse_follower_result :
  (forall s c r, creach s -> c_call s c = CRet r ->
     (r = Err ECtx \/ r = Err ETimeout)
     \/ exists f, c_joined s c = Some f /\ c_fkey s f = c_key s c /\ c_fres s f = Some r /\ (forall p, r = Resp p -> p = c_key s c))
  /\ (forall s c e s', cstep s (CAbort c e) = Some s' ->
        c_fres s' = c_fres s /\ c_cur s' = c_cur s /\ c_nfl s' = c_nfl s /\ c_fkey s' = c_fkey s
        /\ (forall c', c' <> c -> c_call s' c' = c_call s c') /\ c_call s' c = CRet (Err e) /\ (e = ECtx \/ e = ETimeout))
  /\ (forall s c f r, c_call s c = CWait f -> c_fres s f = Some r ->
        exists s', cstep s (CDeliver c) = Some s' /\ c_call s' c = CRet r).
Proof. exact (conj collapse_follower_result (conj collapse_abort_frame collapse_deliver_enabled)). Qed.
Print Assumptions C18_collapse_follower_result.

(* which requests may share a flight: the collapse key, for BOTH entries of the wrapper (tryCollapseRequest and
   SendRequestAsync use the same `collapsible` test).  (1) Callers that joined the same flight entered it under the same key.
   (2) For an injective encoding of (region, start version, async flag): two different callers whose requests enter the
   single-flight group under the same key are both plain full-region ResolveLock requests -- no keys, no txn infos -- equal in
   every component but the commit version (which resolveLockCollapseKey leaves out), and equal commands outright when the
   commit version is a function of the transaction.  (3) A request that may not be collapsed (resolve lock lite, batch
   resolve with TxnInfos) never shares a flight. *)
Theorem C18_collapse_key_equal_commands :
  (forall s c1 c2 f, creach s -> c_joined s c1 = Some f -> c_joined s c2 = Some f -> c_key s c1 = c_key s c2)
  /\ (forall (kenc : nat * nat * bool -> nat), (forall a b, kenc a = kenc b -> a = b) ->
        forall r1 r2 c1 c2, c1 <> c2 -> flight_key kenc r1 c1 = flight_key kenc r2 c2 ->
        rc_keys r1 = [] /\ rc_txninfos r1 = [] /\ rc_keys r2 = [] /\ rc_txninfos r2 = []
        /\ rc_region r1 = rc_region r2 /\ rc_start r1 = rc_start r2 /\ rc_isasync r1 = rc_isasync r2
        /\ (rc_commit r1 = rc_commit r2 -> r1 = r2))
  /\ (forall kenc r1 r2 c1 c2, collapsible r1 = false -> c1 <> c2 -> flight_key kenc r1 c1 <> flight_key kenc r2 c2).
Proof. exact (conj collapse_same_flight_same_key (conj collapse_key_equal_commands not_collapsible_private)). Qed.
Print Assumptions C18_collapse_key_equal_commands.

(* an error is the call's OWN (the black-box oracle own_error, over all runs): (1) no completion put on an entry's channel
   ever carries a context / time-out error; (2) a call that returned such an error has its own canceled flag set and no such
   completion; (3) the canceled flag of an entry is raised only by the abort transition of its own caller, which changes
   nothing else of the entry -- so another call's cancellation or time-out can never become this call's result *)
Theorem C18_own_error : forall s c, reachable s ->
  (forall k, In (Err k) (e_comp (ent s c)) -> own_only k = false)
  /\ (forall k, e_ret (ent s c) = Some (Err k) -> own_only k = true ->
        e_canceled (ent s c) = true /\ ~ In (Err k) (e_comp (ent s c)))
  /\ (forall l s', step s l = Some s' -> e_canceled (ent s c) = false -> e_canceled (ent s' c) = true ->
        exists k, ent s' c = mkEntry (e_host (ent s c)) (e_st (ent s c)) (e_comp (ent s c)) true (Some (Err k))
                  /\ e_ret (ent s c) = None).
Proof. exact (fun s c R => conj (reachable_comp_clean s c R)
  (conj (fun k => own_error_ret s c k R) (fun l s' => canceled_by_own_abort s c l s' R))). Qed.
Print Assumptions C18_own_error.

(* the resource-control / RPC-interceptor wrapper (NewInterceptedClient) over the core: a response that comes out of the
   wrapper is the call's own, the wrapped result never changes once it exists, a call refused by OnRequestWait is refused
   whatever happens inside and an admitted one returns nothing before the inner call has, an inner error passes unchanged
   and a response is only ever replaced by the response gate's error *)
Theorem C18_gate_wrapped_call : forall bg g,
  (forall s c p, reachable s -> wrapped_ret bg g s c = Some (GInner (Resp p)) -> p = c /\ e_ret (ent s c) = Some (Resp c))
  /\ (forall s ls s' c r, reachable s -> run s ls = Some s' -> wrapped_ret bg g s c = Some r -> wrapped_ret bg g s' c = Some r)
  /\ (gate_admits bg g = false -> forall inner, gate_result bg g inner = Some GReqErr)
  /\ (gate_admits bg g = true -> gate_result bg g None = None)
  /\ (gate_admits bg g = true -> forall e, gate_result bg g (Some (Err e)) = Some (GInner (Err e)))
  /\ (gate_admits bg g = true -> forall p, gate_result bg g (Some (Resp p)) = Some (GInner (Resp p)) \/ gate_result bg g (Some (Resp p)) = Some GRespErr).
Proof. exact gate_wrapped_call. Qed.
Print Assumptions C18_gate_wrapped_call.



(* ---------------------------------------------------------------- non-vacuity *)

(* two callers on two streams, responses arrive in the opposite order, both return their own echo *)
Example ex1_runs : exists s, run init ex_run1 = Some s /\ e_ret (ent s 7) = Some (Resp 7)
  /\ e_ret (ent s 8) = Some (Resp 8) /\ tab s = [].
Proof. exists (get (run init ex_run1)). vm_compute. auto. Qed.

(* a response carrying somebody else's payload under this id is not a step of the model (echo server) *)
Example ex_wrong_payload_rejected :
  run init [Submit 7 0; Submit 8 0; Build 7 1; Build 8 2; Store 7; Store 8; RecvLoad 0 2 7] = None.
Proof. vm_compute. reflexivity. Qed.

(* an id is never handed out twice, also not after the stream was re-created *)
Example ex_reuse_rejected :
  run init [Submit 1 0; Build 1 1; Store 1; StreamFail 0; Submit 2 0; Build 2 1] = None.
Proof. vm_compute. reflexivity. Qed.

(* stream failure with the current epoch fails exactly the entries of that stream *)
Example ex_fail_pending : let s := get (run init [Submit 1 0; Submit 2 1; Build 1 1; Build 2 2; Store 1; Store 2; StreamFail 0]) in
  tab s = [(2, 2)] /\ e_comp (ent s 1) = [Err EStream] /\ e_comp (ent s 2) = [] /\ epoch s = 1.
Proof. vm_compute. auto. Qed.

(* the hypotheses of C18_fail_pending_total are satisfiable; the CAS-losing branch fails its pending entry too *)
Example ex_fail_pending_hyps : let s := get (run init [Submit 1 0; Build 1 1; Store 1]) in
  reachable s /\ closed s = false /\ step s (StreamFail 0) <> None.
Proof.
  split; [exists [Submit 1 0; Build 1 1; Store 1]; reflexivity|]. vm_compute. repeat split; discriminate.
Qed.
Example ex_loser_fails_pending : let s := get (run init (stale_epoch_run ++ [StreamFail 0])) in
  tab s = [] /\ e_comp (ent s 0) = [Err EStream] /\ e_comp (ent s 1) = [Err EStream] /\ epoch s = 1 /\ loops s 0 = LIdle 1.
Proof. vm_compute. auto. Qed.

(* a canceled (timed-out) entry: its late response is dropped, the entry still leaves the table;
   a duplicate response is counted as outdated *)
Example ex_cancel : let s := get (run init [Submit 1 0; Build 1 1; Store 1; Abort 1 ETimeout; RecvLoad 0 1 1; RecvFinish 0; RecvLoad 0 1 1]) in
  e_ret (ent s 1) = Some (Err ETimeout) /\ e_comp (ent s 1) = [] /\ tab s = [] /\ outdated s = 1.
Proof. vm_compute. auto. Qed.

(* both streams break with nothing pending (host 0 wins, host 1 loses and refreshes), later a request is pending on
   host 1 and its stream breaks again: it is failed at once; ids keep growing across a send-loop restart *)
Example ex_rebreak : let s := get (run init [Submit 1 0; Submit 2 1; Build 1 1; Build 2 2; Store 1; Store 2;
     RecvLoad 0 1 1; RecvFinish 0; RecvLoad 1 2 2; RecvFinish 1; StreamFail 0; StreamFail 1;
     Submit 3 1; Build 3 3; Store 3; StreamFail 1]) in
  tab s = [] /\ e_comp (ent s 3) = [Err EStream] /\ epoch s = 2.
Proof. vm_compute. auto. Qed.

Example ex_restart_then_reuse_rejected :
  run init [Submit 1 0; Build 1 1; Store 1; Restart; Submit 2 0; Build 2 1] = None
  /\ run init [Submit 1 0; Build 1 1; Store 1; Restart; Submit 2 0; Build 2 2] <> None.
Proof. split; vm_compute; [reflexivity | discriminate]. Qed.

(* a builder round: entries 1 (pri 0), 2 (pri 12), 3 (pri 5, cancelled) fetched; popping only {2} is a legal round,
   popping only {1} is not (a high-priority entry would stay behind); popping all skips the cancelled entry *)
Example ex_round : let x := xget (xrun xinit ex_builder) in
  xstep x (XBuildRound (Some 0) [1]) = None /\ xstep x (XBuildRound (Some 0) [2]) <> None
  /\ xstep x (XBuildRound None [2]) = None /\ xstep x (XBuildRound (Some 1) [2; 3]) = None
  /\ alloc (core (xget (xstep x (XBuildRound None [2; 3; 1])))) = [(2, 1); (1, 2)]
  /\ e_st (ent (core (xget (xstep x (XBuildRound None [2; 3; 1])))) 3) = Retired
  /\ inb (xget (xstep x (XBuildRound (Some 0) [2]))) = [3; 1].
Proof. vm_compute. repeat split; discriminate. Qed.

(* limit 2, one batch of priorities [16,0,0,0]: Take(2) pops {16,0} (count 1 < 2), the second Take(2) pops the other two:
   all four are built (the quota is soft); leaving any of them behind AND dropping it is not a step *)
Example ex_limit_two_takes : let x := xget (xrun xinit
    [XSubmit 1 0 16 false; XSubmit 2 0 0 false; XSubmit 3 0 0 true; XSubmit 4 0 0 true; XFetch 1; XFetch 2; XFetch 3; XFetch 4]) in
  let x' := xget (xstep x (XBuildRound (Some 2) [1; 2; 3; 4])) in
  alloc (core x') = [(4, 4); (3, 3); (2, 2); (1, 1)] /\ inb x' = []
  /\ inb (xget (xstep x (XBuildRound (Some 2) [1; 2; 3]))) = [4] /\ e_st (ent (core (xget (xstep x (XBuildRound (Some 2) [1; 2; 3])))) 4) = Queued.
Proof. vm_compute. auto. Qed.

(* an asynchronous call queued when the send loop exits is failed with the closed error; one enqueued after the exit
   satisfies the hypotheses of part (2) of C18_close_fails_queued_async and is failed by the sender's re-check *)
Example ex_async_close : let x := xget (xrun xinit [XSubmit 1 0 0 true; XCore Close; XSendExit]) in
  e_comp (ent (core x) 1) = [Err EClosed] /\ chq x = [] /\ sendloop x = false.
Proof. vm_compute. auto. Qed.
Example ex_async_after_exit : let x := xget (xrun xinit [XCore Close; XSendExit; XSubmit 1 0 0 true]) in
  e_comp (ent (core x) 1) = [Err EClosed] /\ sendloop x = false.
Proof. vm_compute. auto. Qed.

(* the idle exit after fix e17a7fd: the asynchronous entry sitting in the channel when the send loop returns on its idle
   timer is failed with the idle error (before the fix it stayed Queued for ever: the pre-fix orphan), and a later
   asynchronous call on the idle conn is failed at once *)
Example ex_async_idle_exit : let x := xget (xrun xinit [XSubmit 1 0 0 true; XIdleExit; XSubmit 2 0 0 true; XCore Close]) in
  xreach x /\ sendloop x = false /\ idle x = true /\ e_comp (ent (core x) 1) = [Err EIdle] /\ e_comp (ent (core x) 2) = [Err EIdle]
  /\ e_st (ent (core x) 1) = Retired.
Proof. intro x. split; [apply xreach_xget; vm_compute; reflexivity|]. revert x. vm_compute. auto 10. Qed.

(* the loop function on a builder with priorities 0,12,5,0,3 (callers 1..5), limit 2: Take(2) pops the high-priority entry 2 (not counted) and 3,
   count = 1 < 2, so Take(2) again pops 5 and 1 (the loop overshoots by design: the quota is soft); 4 stays.  Limit 0 with a high-priority entry: only that one is popped. *)
Example ex_build_loop : let pr := fun c => match c with 2 => 12 | 3 => 5 | 5 => 3 | _ => 0 end in
  build_with_limit pr (fun _ => entry0) (pop_max pr) 2 [1; 2; 3; 4; 5] = ([2; 3; 5; 1], [4])
  /\ build_with_limit pr (fun _ => entry0) (pop_max pr) 0 [1; 2; 3; 4; 5] = ([2], [1; 3; 4; 5])
  /\ build_with_limit pr (fun _ => entry0) (pop_max pr) 9 [1; 2; 3] = ([2; 3; 1], []).
Proof. vm_compute. auto. Qed.

(* MIXED queue at the exit of the send loop (seed C18-10): sync 1, async 2, sync 3, async 4 sit in the channel in that order.
   Both exits fail BOTH async entries -- the drain is a filter over the whole channel, C18_async_never_orphaned quantifies
   over every member of an arbitrary queue, not over a prefix -- and leave the sync entries alone (their callers watch
   the closed signal / their timer themselves) *)
Example ex_mixed_queue_idle_exit : let x0 := xget (xrun xinit mixed_queue) in let x := xget (xrun xinit (mixed_queue ++ [XIdleExit])) in
  chq x0 = [4; 3; 2; 1] (* newest first: the sync entry 1 is the one the loop would receive first *) /\ xreach x /\ chq x = [] /\ e_comp (ent (core x) 2) = [Err EIdle] /\ e_comp (ent (core x) 4) = [Err EIdle]
  /\ e_comp (ent (core x) 1) = [] /\ e_st (ent (core x) 1) = Queued /\ e_comp (ent (core x) 3) = [] /\ e_st (ent (core x) 3) = Queued.
Proof. intros x0 x. split; [vm_compute; reflexivity|]. split; [apply xreach_xget; vm_compute; reflexivity|]. revert x. vm_compute. auto 10. Qed.
Example ex_mixed_queue_closed_exit : let x := xget (xrun xinit (mixed_queue ++ [XCore Close; XSendExit])) in
  xreach x /\ chq x = [] /\ e_comp (ent (core x) 2) = [Err EClosed] /\ e_comp (ent (core x) 4) = [Err EClosed]
  /\ e_comp (ent (core x) 1) = [] /\ e_comp (ent (core x) 3) = []
  /\ (exists x', xstep x (XCore (Abort 1 EClosed)) = Some x') /\ (exists x', xstep x (XCore (Abort 3 EClosed)) = Some x').
Proof. intro x. split; [apply xreach_xget; vm_compute; reflexivity|]. revert x. vm_compute. repeat split; eauto. Qed.

(* pool: call 1 on connection 0 of generation 0, CloseAddr, call 2 goes to generation 1; call 1 returns the closed error *)
Example ex_pool : let p := pget (prun pinit [PRoute 1 0 0; PCore 0 0 (Build 1 1); PCore 0 0 (Store 1); PCloseAddr; PRoute 2 1 0;
                                              PCore 0 0 (Abort 1 EClosed); PCore 1 1 (Build 2 1)]) in
  p_gen p = 1 /\ p_home p 1 = Some (0, 0) /\ p_home p 2 = Some (1, 1) /\ e_ret (ent (p_cl p 0 0) 1) = Some (Err EClosed)
  /\ e_st (ent (p_cl p 1 1) 2) = Built 1 /\ ent (p_cl p 1 1) 1 = entry0.
Proof. vm_compute. auto 10. Qed.

(* recv-loop panic between Load and deliver: the entry stays in the table, its (re-sent) response is delivered once *)
Example ex_recv_panic : let s := get (run init [Submit 1 0; Build 1 1; Store 1; RecvLoad 0 1 1; RecvPanic 0; RecvLoad 0 1 1; RecvFinish 0; Return 1]) in
  e_ret (ent s 1) = Some (Resp 1) /\ e_comp (ent s 1) = [Resp 1] /\ tab s = [].
Proof. vm_compute. auto. Qed.

Example ex_unary : exists u, urun uinit [UCall 1; UCall 2; UReply 1; UClose; UFail 2 EClosed; UCall 3] = Some u
  /\ ucalls u 1 = UDone (Resp 1) /\ ucalls u 2 = UDone (Err EClosed) /\ ucalls u 3 = UDone (Err EClosed).
Proof. eexists; split; [vm_compute; reflexivity|]. vm_compute. auto. Qed.

(* limit 1, three requests in one build: 1 is built, 2 and 3 stay behind; the waiting send loop cannot build again until
   the wake-up (or an arrival); after XWake the leftovers are built *)
Example ex_leftover_wake : let x := xget (xrun xinit
    [XSubmit 1 0 0 false; XSubmit 2 0 0 true; XSubmit 3 0 0 false; XFetch 1; XFetch 2; XFetch 3; XBuildRound (Some 1) [1]]) in
  inb x = [3; 2] /\ ready x = false /\ xstep x (XBuildRound (Some 1) [2]) = None
  /\ alloc (core (xget (xrun x [XWake; XBuildRound (Some 1) [2]; XWake; XBuildRound (Some 1) [3]]))) = [(3, 3); (2, 2); (1, 1)].
Proof. vm_compute. auto. Qed.

(* run loop: callback 0 appends 3 and 4 while it runs, 1 appends 5: everything runs once, in append order *)
Example ex_runloop : r_done (rl_exec 50 (fun t => match t with 0 => [3; 4] | 1 => [5] | _ => [] end)
                                    (mkR [0; 1; 2] [] [] [0; 1; 2])) = [0; 1; 2; 3; 4; 5].
Proof. vm_compute. reflexivity. Qed.

(* collapse: A (caller 1) starts the flight for key 7, B (caller 2) joins it, A is cancelled, the flight returns: B gets the
   shared response; a caller of key 8 gets its own flight *)
Example ex_collapse : exists s, crun cinit [CJoin 1 7; CJoin 2 7; CJoin 3 8; CAbort 1 ECtx; CFlightDone 0 (Resp 7); CDeliver 2;
                                            CFlightDone 1 (Resp 8); CDeliver 3] = Some s
  /\ c_call s 1 = CRet (Err ECtx) /\ c_call s 2 = CRet (Resp 7) /\ c_call s 3 = CRet (Resp 8) /\ c_nfl s = 2.
Proof. eexists; split; [vm_compute; reflexivity|]. vm_compute. auto. Qed.

(* the collapse key: a plain full-region request is collapsible, one with TxnInfos or Keys is not, whichever entry it takes;
   two plain requests of one (region, start, async flag) get the same flight key, a TxnInfos request a key of its own *)
Example ex_collapse_key : let kenc := fun k : nat * nat * bool => let '(a, b, c) := k in a + 100 * b + (if c then 1 else 0) * 50 in
  let plain := mkCmd 7 30 31 false [] [] in let batch := mkCmd 7 30 31 false [(30, 1)] [] in let lite := mkCmd 7 30 31 false [] [9] in
  collapsible plain = true /\ collapsible batch = false /\ collapsible lite = false
  /\ flight_key kenc plain 1 = flight_key kenc plain 2 /\ flight_key kenc batch 3 <> flight_key kenc plain 1
  /\ flight_key kenc batch 3 <> flight_key kenc batch 4.
Proof. intros kenc plain batch lite. repeat split; try apply Nat.eqb_neq; vm_compute; reflexivity. Qed.

(* the wrapper: group 3 (priority 12) without override -> 12, with override 5 -> 5, background group 9 -> 0; a refused call;
   a response replaced by the response gate; caller 7's own response passing through *)
Example ex_gate : let gp := fun g => match g with 1 => 1 | 2 => 8 | 3 => 12 | _ => 0 end in
  gate_priority 9 gp (mkG true 0 3 0) = 12 /\ gate_priority 9 gp (mkG true 5 3 0) = 5 /\ gate_priority 9 gp (mkG true 0 9 0) = 0
  /\ gate_priority 9 gp (mkG false 0 3 0) = 0
  /\ gate_result 9 (mkG true 0 2 1) (Some (Resp 7)) = Some GReqErr /\ gate_result 9 (mkG true 0 2 2) (Some (Resp 7)) = Some GRespErr
  /\ gate_result 9 (mkG true 0 9 2) (Some (Resp 7)) = Some (GInner (Resp 7)) /\ gate_result 9 (mkG true 0 2 0) None = None.
Proof. vm_compute. auto 10. Qed.

(* own error: caller 1 times out, caller 2's entry is failed by the stream: 1 has its own flag and no completion, 2's
   completion is the stream error; nobody holds the other's error *)
Example ex_own_error : let s := get (run init [Submit 1 0; Submit 2 0; Build 1 1; Build 2 2; Store 1; Store 2; Abort 1 ETimeout; StreamFail 0; Return 2]) in
  e_ret (ent s 1) = Some (Err ETimeout) /\ e_canceled (ent s 1) = true /\ e_comp (ent s 1) = [Err EStream]
  /\ e_ret (ent s 2) = Some (Err EStream) /\ e_canceled (ent s 2) = false.
Proof. vm_compute. auto. Qed.
