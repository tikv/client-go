(* C18 — ids across streams, the panic steps, and the runs the Examples of Props.v evaluate *)
From Coq Require Import List Arith Bool Sorted.
Import ListNotations.
From Verif Require Import BatchRPC.Model BatchRPC.Proofs3 BatchRPC.Proofs BatchRPC.CoreProofs BatchRPC.System BatchRPC.Pool.

Lemma ids_fresh_across_streams : forall s i c c', reachable s ->
  In (i, c) (tab s) -> In (i, c') (tab s) -> c = c' /\ e_host (ent s c) = e_host (ent s c') /\ lookup i (alloc s) = Some c.
Proof.
  intros s i c c' R H1 H2. pose proof (reachable_inv s R) as I.
  pose proof (NoDup_fst_inj _ _ _ _ (I_tab_nodup s I) H1 H2). subst. repeat split; auto.
  apply sorted_lookup; [apply (I_alloc_sorted s I)|]. apply (I_st_alloc s I). left. now apply (I_tab_st s I).
Qed.

Remark recv_panic_keeps_pending : forall s h s',
  (step s (RecvPanic h) = Some s' \/ step s (FailPanic h) = Some s') ->
  tab s' = tab s /\ ent s' = ent s /\ alloc s' = alloc s /\ loops s' h = LIdle (epoch s').
Proof.
  intros s h s' [H|H]; [apply (panic_keeps s h (RecvPanic h)) | apply (panic_keeps s h (FailPanic h))]; auto.
Qed.

Definition get (o : option state) : state := match o with Some s => s | None => init end.
Definition ex_run1 : list label :=
  [Submit 7 0; Submit 8 1; Build 7 1; Build 8 2; Store 7; Store 8;
   RecvLoad 1 2 8; RecvFinish 1; RecvLoad 0 1 7; RecvFinish 0; Return 8; Return 7].
Definition xget (o : option sys) : sys := match o with Some x => x | None => xinit end.
(* the premise is a boolean so that evaluating it leaves only eq_refl in the proof, not the final state *)
Lemma xreach_xget : forall ls, (if xrun xinit ls then true else false) = true -> xreach (xget (xrun xinit ls)).
Proof. intros ls H. exists ls. destruct (xrun xinit ls); [reflexivity | discriminate]. Qed.
Definition ex_builder : list xlabel :=
  [XSubmit 1 0 0 false; XSubmit 2 0 12 false; XSubmit 3 1 5 false; XCore (Abort 3 ECtx); XFetch 1; XFetch 2; XFetch 3].
Definition mixed_queue : list xlabel := [XSubmit 1 0 0 false; XSubmit 2 0 0 true; XSubmit 3 0 0 false; XSubmit 4 0 0 true].
Definition pget (o : option pstate) : pstate := match o with Some p => p | None => pinit end.
