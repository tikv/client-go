(* C18 — run loop: every appended callback runs exactly once, in order; collapse: a follower's result is the shared
   flight's result or its own cancellation *)
From Coq Require Import List Arith Bool Lia.
Import ListNotations.
From Verif Require Import BatchRPC.Model BatchRPC.Iter BatchRPC.RunLoop.

Lemma rstep_inv : forall st l st', rstep st l = Some st' ->
  r_done st ++ r_running st ++ r_runnable st = r_log st -> r_done st' ++ r_running st' ++ r_runnable st' = r_log st'.
Proof.
  intros st l st' H I. destruct l; simpl in H.
  - inversion H; subst; simpl. rewrite <- I. now rewrite !app_assoc.
  - destruct (r_running st) eqn:E1; try discriminate. destruct (r_runnable st) eqn:E2; try discriminate.
    inversion H; subst; simpl. rewrite <- I. simpl. now rewrite app_nil_r.
  - destruct (r_running st) eqn:E1; try discriminate. inversion H; subst; simpl. rewrite <- I. now rewrite <- app_assoc.
  - inversion H; subst; simpl. exact I.
Qed.

Lemma rreach_inv : forall st, rreach st -> r_done st ++ r_running st ++ r_runnable st = r_log st.
Proof.
  intros st [ls H]. apply (iter_inv rstep (fun st => r_done st ++ r_running st ++ r_runnable st = r_log st) rstep_inv ls rinit st H).
  reflexivity.
Qed.

Lemma runloop_fifo_once : forall st, rreach st ->
  r_done st ++ r_running st ++ r_runnable st = r_log st
  /\ (r_running st = [] -> r_runnable st = [] -> r_done st = r_log st)
  /\ (NoDup (r_log st) -> NoDup (r_done st ++ r_running st ++ r_runnable st))
  /\ (exists rest, r_log st = r_done st ++ rest).
Proof.
  intros st R. pose proof (rreach_inv st R) as I. split; auto. split; [|split].
  - intros E1 E2. rewrite E1, E2 in I. now rewrite !app_nil_r in I.
  - intros ND. now rewrite I.
  - exists (r_running st ++ r_runnable st). auto.
Qed.

(* the start of a round hands the WHOLE runnable list to the round and leaves an EMPTY runnable list: what is appended
   during the round can neither overwrite nor duplicate a callback of the round *)
Lemma runloop_round_start : forall st st', rstep st RStart = Some st' ->
  r_running st' = r_runnable st /\ r_runnable st' = [] /\ r_done st' = r_done st.
Proof.
  intros st st' H. simpl in H. destruct (r_running st); try discriminate. destruct (r_runnable st); try discriminate.
  inversion H; subst; auto.
Qed.

Lemma updo_same : forall (A : Type) (f : nat -> A) k v, updo f k v k = v.
Proof. intros; unfold updo; now rewrite Nat.eqb_refl. Qed.
Lemma updo_other : forall (A : Type) (f : nat -> A) k v k', k' <> k -> updo f k v k' = f k'.
Proof. intros A f k v k' H; unfold updo. destruct (Nat.eqb_spec k' k); congruence. Qed.

Record CInv (s : cstate) : Prop := {
  CI_wait : forall c f, c_call s c = CWait f -> c_joined s c = Some f;
  CI_joined : forall c f, c_joined s c = Some f -> f < c_nfl s /\ c_fkey s f = c_key s c;
  CI_resp : forall f p, f < c_nfl s -> c_fres s f = Some (Resp p) -> p = c_fkey s f;
  CI_ret : forall c r, c_call s c = CRet r ->
             (r = Err ECtx \/ r = Err ETimeout) \/ exists f, c_joined s c = Some f /\ c_fres s f = Some r;
  CI_cur : forall k f, c_cur s k = Some f -> f < c_nfl s /\ c_fkey s f = k;
  CI_idle : forall c, c_call s c = CIdle -> c_joined s c = None
}.

Lemma cinv_init : CInv cinit.
Proof. constructor; simpl; intros; try discriminate; auto. Qed.

Lemma updo_inv : forall (A : Type) (f : nat -> A) k v k' w,
  updo f k v k' = w -> (k' = k /\ v = w) \/ (k' <> k /\ f k' = w).
Proof. intros A f k v k' w H. unfold updo in H. destruct (Nat.eqb_spec k' k); auto. Qed.

(* The steps change a state in four ways, each keeping the invariant.  A new flight is registered under key k ... *)
Lemma cinv_start_flight : forall s k, CInv s ->
  CInv (mkC (S (c_nfl s)) (updo (c_fkey s) (c_nfl s) k) (updo (c_fres s) (c_nfl s) None) (updo (c_cur s) k (Some (c_nfl s)))
            (c_call s) (c_key s) (c_joined s)).
Proof.
  intros s k [I1 I2 I3 I4 I5 I6]. constructor; simpl; auto.
  - intros c f H. destruct (I2 _ _ H) as [A B]. split; [lia|]. rewrite updo_other by lia. exact B.
  - intros f p Hf H. apply updo_inv in H. destruct H as [[_ E]|[N E]]; [discriminate|].
    rewrite updo_other by auto. apply I3; auto. lia.
  - intros c r H. destruct (I4 _ _ H) as [A|[f [A B]]]; auto. right. exists f. split; auto.
    destruct (I2 _ _ A) as [C _]. rewrite updo_other by lia. exact B.
  - intros k0 f H. apply updo_inv in H. destruct H as [[-> E]|[N E]].
    + inversion E; subst. rewrite updo_same. auto.
    + destruct (I5 _ _ E) as [A B]. split; [lia|]. rewrite updo_other by lia. exact B.
Qed.

(* ... a caller joins the flight registered under its key ... *)
Lemma cinv_join : forall s c k f, CInv s -> c_cur s k = Some f ->
  CInv (mkC (c_nfl s) (c_fkey s) (c_fres s) (c_cur s) (updo (c_call s) c (CWait f)) (updo (c_key s) c k)
            (updo (c_joined s) c (Some f))).
Proof.
  intros s c k f [I1 I2 I3 I4 I5 I6] EK. destruct (I5 _ _ EK) as [A B]. constructor; simpl; auto.
  - intros c0 f0 H. apply updo_inv in H. destruct H as [[-> E]|[N E]]; [rewrite updo_same; congruence | rewrite updo_other; auto].
  - intros c0 f0 H. apply updo_inv in H. destruct H as [[-> E]|[N E]].
    + inversion E; subst. rewrite updo_same. auto.
    + rewrite updo_other by auto. auto.
  - intros c0 r H. apply updo_inv in H. destruct H as [[_ E]|[N E]]; [discriminate|]. rewrite updo_other by auto. auto.
  - intros c0 H. apply updo_inv in H. destruct H as [[_ E]|[N E]]; [discriminate|]. rewrite updo_other by auto. auto.
Qed.

(* ... a caller returns, with its own cancellation or with the result of the flight it joined ... *)
Lemma cinv_ret : forall s c r, CInv s ->
  ((r = Err ECtx \/ r = Err ETimeout) \/ exists f, c_joined s c = Some f /\ c_fres s f = Some r) ->
  CInv (mkC (c_nfl s) (c_fkey s) (c_fres s) (c_cur s) (updo (c_call s) c (CRet r)) (c_key s) (c_joined s)).
Proof.
  intros s c r [I1 I2 I3 I4 I5 I6] Hr. constructor; simpl; auto.
  - intros c0 f0 H. apply updo_inv in H. destruct H as [[_ E]|[N E]]; [discriminate | auto].
  - intros c0 r0 H. apply updo_inv in H. destruct H as [[-> E]|[N E]]; [inversion E; subst; exact Hr | auto].
  - intros c0 H. apply updo_inv in H. destruct H as [[_ E]|[N E]]; [discriminate | auto].
Qed.

(* ... or the shared request returns (CFlightDone, below). *)
Lemma cstep_inv : forall s l s', CInv s -> cstep s l = Some s' -> CInv s'.
Proof.
  intros s l s' I H. destruct l; simpl in H.
  - destruct (c_call s c); try discriminate. destruct (c_cur s k) as [f|] eqn:EK; inversion H; subst; clear H.
    + now apply cinv_join.
    + (* no flight under k: one is started, and c joins it *)
      apply (cinv_join _ c k (c_nfl s) (cinv_start_flight s k I)). simpl. apply updo_same.
  - destruct I as [I1 I2 I3 I4 I5 I6].
    destruct (Nat.ltb f (c_nfl s) && match c_fres s f with None => true | Some _ => false end
              && match r with Resp p => Nat.eqb p (c_fkey s f) | Err _ => true end) eqn:G; [|discriminate].
    inversion H; subst; clear H. apply andb_prop in G. destruct G as [G G3]. apply andb_prop in G. destruct G as [G1 G2].
    apply Nat.ltb_lt in G1. destruct (c_fres s f) eqn:EF; [discriminate|].
    constructor; simpl; auto.
    + intros f0 p Hf H. apply updo_inv in H. destruct H as [[-> E]|[N E]]; [|auto].
      inversion E; subst. now apply Nat.eqb_eq in G3.
    + intros c0 r0 H. destruct (I4 _ _ H) as [A|[f0 [A B]]]; auto. right. exists f0. split; auto.
      destruct (Nat.eq_dec f0 f); [subst; congruence | rewrite updo_other by auto; auto].
    + intros k f0 H. apply I5.
      destruct (c_cur s (c_fkey s f)) as [f'|] eqn:EK; auto. destruct (Nat.eqb f' f); auto.
      apply updo_inv in H. destruct H as [[_ E]|[_ E]]; [discriminate | exact E].
  - destruct (c_call s c) eqn:EC; try discriminate. destruct (c_fres s f) eqn:EF; try discriminate. inversion H; subst; clear H.
    apply cinv_ret; auto. right. exists f. split; auto. exact (CI_wait s I _ _ EC).
  - destruct (c_call s c); try discriminate. destruct e; try discriminate; inversion H; subst; apply cinv_ret; auto.
Qed.

Lemma creach_inv : forall s, creach s -> CInv s.
Proof. intros s [ls H]. exact (iter_inv cstep CInv (fun s l s' E I => cstep_inv s l s' I E) ls cinit s H cinv_init). Qed.

Lemma collapse_follower_result : forall s c r, creach s -> c_call s c = CRet r ->
  (r = Err ECtx \/ r = Err ETimeout)
  \/ exists f, c_joined s c = Some f /\ c_fkey s f = c_key s c /\ c_fres s f = Some r /\ (forall p, r = Resp p -> p = c_key s c).
Proof.
  intros s c r R H. destruct (creach_inv s R) as [I1 I2 I3 I4 I5 I6].
  destruct (I4 _ _ H) as [A|[f [A B]]]; auto. right. exists f. destruct (I2 _ _ A) as [C D].
  repeat split; auto. intros p E. subst. rewrite <- D. eapply I3; eauto.
Qed.

(* a caller's cancellation / time-out touches neither the flight nor any other caller *)
Lemma collapse_abort_frame : forall s c e s', cstep s (CAbort c e) = Some s' ->
  c_fres s' = c_fres s /\ c_cur s' = c_cur s /\ c_nfl s' = c_nfl s /\ c_fkey s' = c_fkey s
  /\ (forall c', c' <> c -> c_call s' c' = c_call s c') /\ c_call s' c = CRet (Err e) /\ (e = ECtx \/ e = ETimeout).
Proof.
  intros s c e s' H. simpl in H. destruct (c_call s c); try discriminate.
  destruct e; try discriminate; inversion H; subst; simpl; repeat split; auto; try (intros; now apply updo_other); apply updo_same.
Qed.

(* ... and once the shared request has returned, every caller still waiting on it can take its result *)
Lemma collapse_deliver_enabled : forall s c f r, c_call s c = CWait f -> c_fres s f = Some r ->
  exists s', cstep s (CDeliver c) = Some s' /\ c_call s' c = CRet r.
Proof. intros s c f r H1 H2. simpl. rewrite H1, H2. eexists; split; [reflexivity|]. simpl. apply updo_same. Qed.

Lemma collapse_same_flight_same_key : forall s c1 c2 f, creach s ->
  c_joined s c1 = Some f -> c_joined s c2 = Some f -> c_key s c1 = c_key s c2.
Proof.
  intros s c1 c2 f R H1 H2. destruct (creach_inv s R) as [_ I2 _ _ _ _].
  destruct (I2 _ _ H1) as [_ A]. destruct (I2 _ _ H2) as [_ B]. congruence.
Qed.

(* requests that share a flight are equal commands: two DIFFERENT callers whose requests enter the single-flight group
   under the same key are both plain full-region ResolveLock requests (no keys, no txn infos) of the same region, start
   version and async flag -- equal in every component but the commit version, and equal outright when the commit version
   is a function of the transaction (a transaction has one commit ts) *)
Lemma collapse_key_equal_commands : forall (kenc : nat * nat * bool -> nat),
  (forall a b, kenc a = kenc b -> a = b) ->
  forall r1 r2 c1 c2, c1 <> c2 -> flight_key kenc r1 c1 = flight_key kenc r2 c2 ->
  rc_keys r1 = [] /\ rc_txninfos r1 = [] /\ rc_keys r2 = [] /\ rc_txninfos r2 = []
  /\ rc_region r1 = rc_region r2 /\ rc_start r1 = rc_start r2 /\ rc_isasync r1 = rc_isasync r2
  /\ (rc_commit r1 = rc_commit r2 -> r1 = r2).
Proof.
  intros kenc Hinj r1 r2 c1 c2 Hne H. unfold flight_key in H.
  destruct (collapsible r1) eqn:E1; destruct (collapsible r2) eqn:E2; try lia.
  unfold collapsible in E1, E2.
  destruct (rc_keys r1) eqn:K1; try discriminate. destruct (rc_txninfos r1) eqn:T1; try discriminate.
  destruct (rc_keys r2) eqn:K2; try discriminate. destruct (rc_txninfos r2) eqn:T2; try discriminate.
  assert (Hk : collapse_key r1 = collapse_key r2) by (apply Hinj; lia).
  unfold collapse_key in Hk. inversion Hk as [[A B C]].
  repeat split; auto. intros HC. destruct r1, r2; simpl in *. congruence.
Qed.

(* a request that may not be collapsed never shares a flight: its key is its caller's own *)
Lemma not_collapsible_private : forall kenc r1 r2 c1 c2, collapsible r1 = false -> c1 <> c2 ->
  flight_key kenc r1 c1 <> flight_key kenc r2 c2.
Proof.
  intros kenc r1 r2 c1 c2 E1 Hne H. unfold flight_key in H. rewrite E1 in H. destruct (collapsible r2); lia.
Qed.
