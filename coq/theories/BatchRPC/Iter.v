(* C18 — runs of a step function.  Every transition system of this directory is a function `S -> L -> option S` with a
   run function of the shape of `iter`; `run`, `xrun`, `urun`, `prun`, `rrun` and `crun` are convertible to `iter` of their
   step function, so a statement about `iter step` applies to each of them as it stands. *)
From Coq Require Import List.
Import ListNotations.

Section Iter.
Variables (S L : Type) (step : S -> L -> option S).

Fixpoint iter (s : S) (ls : list L) : option S :=
  match ls with [] => Some s | l :: r => match step s l with Some s' => iter s' r | None => None end end.

Lemma iter_inv : forall P : S -> Prop, (forall s l s', step s l = Some s' -> P s -> P s') ->
  forall ls s s', iter s ls = Some s' -> P s -> P s'.
Proof.
  intros P HP. induction ls as [|l r IH]; simpl; intros s s' H Hs; [inversion H; subst; exact Hs|].
  destruct (step s l) as [s1|] eqn:E; [|discriminate]. eauto.
Qed.

Lemma iter_app : forall l1 l2 s, iter s (l1 ++ l2) = match iter s l1 with Some s1 => iter s1 l2 | None => None end.
Proof. induction l1 as [|l r IH]; simpl; intros; auto. destruct (step s l); auto. Qed.
End Iter.

Arguments iter {S L}.
Arguments iter_inv {S L}.
Arguments iter_app {S L}.
