(* C18 — buildWithLimit's LOOP as a function (client_batch.go buildWithLimit + PriorityQueue.Take / pop), and the proof that
   whatever it pops satisfies the guards `round_ok` / `quota_ok` that System.v puts on a builder round (the acceptor checks
   every real round against those guards; this file shows that a loop of the code's shape can only produce legal rounds).

     for (count < limit && entries.Len() > 0) || hasHighPriorityTask() { n := limit; if limit == 0 { n = 1 }; entries.Take(n, build) }

   `pop` is the heap's pop: it removes SOME element of maximal priority (which one among equal priorities is the heap's
   business: a parameter with exactly that specification; a concrete instance is given at the end).  Take(n) with
   n >= Len() hands out the whole array, otherwise n pops: in both cases the n (or all) popped elements are maximal at the
   time, which is all that is used.  `count` counts the popped entries that are not cancelled and below highTaskPriority. *)
From Coq Require Import List Arith Bool Lia.
Import ListNotations.
From Verif Require Import BatchRPC.Model BatchRPC.System BatchRPC.SysProofs.

Section Loop.
Variable pr : caller -> nat.
Variable f : caller -> entry.
Variable pop : list caller -> option (caller * list caller).
Hypothesis pop_spec : forall q,
  match pop q with
  | None => q = []
  | Some (c, q') => In c q /\ q' = remove_c c q /\ (forall r, In r q -> pr r <= pr c)
  end.

Fixpoint take (n : nat) (q : list caller) : list caller * list caller :=
  match n with
  | 0 => ([], q)
  | S n' => match pop q with
            | None => ([], q)
            | Some (c, q') => let (t, q'') := take n' q' in (c :: t, q'')
            end
  end.

Definition has_high (q : list caller) : bool := existsb (fun c => Nat.leb high_pri (pr c)) q.
Definition is_nil (q : list caller) : bool := match q with [] => true | _ => false end.
Definition loop_cond (lim : nat) (q taken : list caller) : bool :=
  (Nat.ltb (counted f pr taken) lim && negb (is_nil q)) || has_high q.

Fixpoint loop (fuel lim : nat) (q taken : list caller) : list caller * list caller :=
  match fuel with
  | 0 => (taken, q)
  | S k => if loop_cond lim q taken
           then let (t, q') := take (if Nat.eqb lim 0 then 1 else lim) q in loop k lim q' (taken ++ t)
           else (taken, q)
  end.

(* buildWithLimit(limit) on a builder holding q: (popped entries in build order, entries left in the heap) *)
Definition build_with_limit (lim : nat) (q : list caller) : list caller * list caller := loop (S (length q)) lim q [].

Lemma In_remove_c : forall c q x, In x (remove_c c q) <-> In x q /\ x <> c.
Proof.
  intros c q x. unfold remove_c. rewrite filter_In. split; intros [A B]; split; auto.
  - intros E. subst. now rewrite Nat.eqb_refl in B.
  - destruct (Nat.eqb_spec x c); auto.
Qed.
Lemma NoDup_remove_c : forall c q, NoDup q -> NoDup (remove_c c q).
Proof. intros c q H. unfold remove_c. now apply NoDup_filter. Qed.
Lemma filter_len_le : forall (A : Type) (p : A -> bool) (l : list A), length (filter p l) <= length l.
Proof. induction l as [|a r IH]; simpl; auto. destruct (p a); simpl; lia. Qed.
Lemma length_remove_c : forall c q, In c q -> length (remove_c c q) < length q.
Proof.
  intros c q. unfold remove_c. induction q as [|a r IH]; simpl; intros H; [destruct H|].
  destruct (Nat.eqb_spec a c); simpl.
  - apply Nat.lt_succ_r. apply filter_len_le.
  - destruct H as [H|H]; [congruence|]. specialize (IH H). lia.
Qed.

Lemma NoDup_app_intro : forall (a b : list caller), NoDup a -> NoDup b -> (forall x, In x a -> In x b -> False) -> NoDup (a ++ b).
Proof.
  induction a as [|x r IH]; simpl; intros b Ha Hb D; auto. inversion Ha; subst. constructor.
  - intros Hin. apply in_app_or in Hin. destruct Hin as [Hin|Hin]; [auto | exact (D x (or_introl eq_refl) Hin)].
  - apply IH; auto. intros y Hy. apply D. now right.
Qed.

(* the state of the loop relative to the builder q0 it started from *)
Record linv (q0 q taken : list caller) : Prop := mkLinv {
  L_nd_t : NoDup taken;
  L_nd_q : NoDup q;
  L_disj : forall c, In c taken -> ~ In c q;
  L_all : forall c, In c q0 <-> In c taken \/ In c q;
  L_max : forall r t, In r q -> In t taken -> pr r <= pr t
}.

(* one pop keeps the loop's state well-formed *)
Lemma linv_pop : forall q0 q taken c, linv q0 q taken -> In c q -> (forall r, In r q -> pr r <= pr c) ->
  linv q0 (remove_c c q) (taken ++ [c]).
Proof.
  intros q0 q taken c [I1 I2 I3 I4 I5] Hin Hmax. constructor.
  - apply NoDup_app_intro; auto; [constructor; [intros []|constructor]|].
    intros x Hx [E|[]]. subst. exact (I3 _ Hx Hin).
  - now apply NoDup_remove_c.
  - intros x Hx Hq. apply In_remove_c in Hq. destruct Hq as [Hq Ne].
    apply in_app_or in Hx. destruct Hx as [Hx|[E|[]]]; [exact (I3 _ Hx Hq) | congruence].
  - intros x. rewrite I4, in_app_iff, In_remove_c. simpl. destruct (Nat.eq_dec x c); [subst; tauto|].
    split; [intros [A|B]; auto | intros [[A|[A|[]]]|[A _]]; auto; congruence].
  - intros r t0 Hr Ht. apply In_remove_c in Hr. destruct Hr as [Hr _].
    apply in_app_or in Ht. destruct Ht as [Ht|[E|[]]]; [auto | subst; auto].
Qed.

Lemma take_spec : forall n q0 q taken t q', linv q0 q taken -> take n q = (t, q') ->
  linv q0 q' (taken ++ t) /\ length q' <= length q /\ (1 <= n -> q <> [] -> length q' < length q).
Proof.
  induction n as [|n IH]; simpl; intros q0 q taken t q' I H.
  - inversion H; subst. rewrite app_nil_r. split; [exact I|]. split; [lia|]. intros; lia.
  - pose proof (pop_spec q) as PS. destruct (pop q) as [[c q1]|] eqn:EP.
    + destruct PS as (Hin & -> & Hmax).
      destruct (take n (remove_c c q)) as [t1 q2] eqn:ET. inversion H; subst. clear H.
      destruct (IH _ _ _ _ _ (linv_pop _ _ _ _ I Hin Hmax) ET) as (J & Len & _). rewrite <- app_assoc in J. simpl in J.
      split; [exact J|]. pose proof (length_remove_c _ _ Hin). split; [lia|]. intros; lia.
    + subst q. inversion H; subst. rewrite app_nil_r. split; [exact I|]. split; [lia|]. intros _ N. congruence.
Qed.

Lemma has_high_nonempty : forall q, has_high q = true -> q <> [].
Proof. intros q H E. subst. discriminate. Qed.

Lemma loop_spec : forall fuel lim q0 q taken takes left, linv q0 q taken -> length q < fuel ->
  loop fuel lim q taken = (takes, left) ->
  linv q0 left takes /\ loop_cond lim left takes = false.
Proof.
  induction fuel as [|k IH]; intros lim q0 q taken takes left I Hf H; [lia|]. simpl in H.
  destruct (loop_cond lim q taken) eqn:C; [|inversion H; subst; auto].
  destruct (take (if lim =? 0 then 1 else lim) q) as [t q'] eqn:ET.
  destruct (take_spec _ _ _ _ _ _ I ET) as (I' & _ & Dec).
  assert (NE : q <> []).
  { unfold loop_cond in C. apply orb_true_iff in C. destruct C as [C|C]; [|now apply has_high_nonempty].
    apply andb_true_iff in C. destruct C as [_ C]. destruct q; [discriminate|congruence]. }
  assert (N1 : 1 <= (if lim =? 0 then 1 else lim)) by (destruct (Nat.eqb_spec lim 0); lia).
  specialize (Dec N1 NE). eapply IH; [exact I'| lia | exact H].
Qed.

(* MAIN: the rounds the loop produces are legal rounds of the model, for every limit and every duplicate-free builder *)
Theorem build_with_limit_legal : forall lim q takes left, NoDup q -> build_with_limit lim q = (takes, left) ->
  round_ok pr q takes = true
  /\ quota_ok (Some lim) f pr q takes = true
  /\ NoDup takes /\ (forall c, In c q <-> In c takes \/ In c left) /\ (forall c, In c takes -> ~ In c left)
  /\ (forall r, In r left -> pr r < high_pri /\ forall t, In t takes -> pr r <= pr t)
  /\ (left = [] \/ lim <= counted f pr takes).
Proof.
  intros lim q takes left ND H. unfold build_with_limit in H.
  assert (I0 : linv q q []).
  { constructor; [constructor | exact ND | intros c [] | intros c; simpl; tauto | intros r t _ []]. }
  destruct (loop_spec _ _ _ _ _ _ _ I0 (Nat.lt_succ_diag_r _) H) as ([I1 I2 I3 I4 I5] & C).
  unfold loop_cond in C. apply orb_false_iff in C. destruct C as [C1 C2].
  assert (Hlow : forall r, In r left -> pr r < high_pri).
  { intros r Hr. unfold has_high in C2. destruct (Nat.ltb_spec (pr r) high_pri); auto.
    exfalso. assert (existsb (fun c => high_pri <=? pr c) left = true); [|congruence].
    apply existsb_exists. exists r. split; auto. now apply Nat.leb_le. }
  assert (Hq : left = [] \/ lim <= counted f pr takes).
  { apply andb_false_iff in C1. destruct C1 as [C1|C1]; [right; now apply Nat.ltb_ge in C1|left].
    destruct left; [reflexivity|discriminate]. }
  split; [|split; [|repeat split; auto]].
  - apply round_ok_spec. split; [exact I1|]. split; [intros t Ht; apply I4; now left|].
    intros r Hr. apply I4 in Hr. destruct Hr as [Hr|Hr]; auto.
  - apply quota_ok_spec. destruct Hq as [->|L]; [left | right; eauto].
    intros r Hr. apply I4 in Hr. destruct Hr as [Hr|[]]. exact Hr.
  - apply I4.
  - apply I4.
Qed.
End Loop.

(* a concrete heap pop: the first element of maximal priority *)
Fixpoint max_of (pr : caller -> nat) (c : caller) (q : list caller) : caller :=
  match q with [] => c | d :: r => max_of pr (if Nat.ltb (pr c) (pr d) then d else c) r end.
Definition pop_max (pr : caller -> nat) (q : list caller) : option (caller * list caller) :=
  match q with [] => None | c :: r => let m := max_of pr c r in Some (m, remove_c m q) end.

Lemma max_of_spec : forall pr q c, In (max_of pr c q) (c :: q) /\ (forall r, In r (c :: q) -> pr r <= pr (max_of pr c q)).
Proof.
  intros pr. induction q as [|d r IH]; intros c; simpl.
  - split; auto. intros x [E|[]]. subst. lia.
  - destruct (IH (if pr c <? pr d then d else c)) as [A B]. split.
    + destruct A as [A|A]; [|auto]. destruct (pr c <? pr d); rewrite <- A; auto.
    + intros x Hx. destruct (Nat.ltb_spec (pr c) (pr d)) as [L|L].
      * destruct Hx as [E|[E|Hx]]; [subst x; specialize (B d (or_introl eq_refl)); lia | subst x; apply B; now left | apply B; now right].
      * destruct Hx as [E|[E|Hx]]; [subst x; apply B; now left | subst x; specialize (B c (or_introl eq_refl)); lia | apply B; now right].
Qed.

Lemma pop_max_spec : forall pr q,
  match pop_max pr q with
  | None => q = []
  | Some (c, q') => In c q /\ q' = remove_c c q /\ (forall r, In r q -> pr r <= pr c)
  end.
Proof.
  intros pr q. destruct q as [|c r]; [reflexivity|]. unfold pop_max. destruct (max_of_spec pr r c) as [A B]. auto.
Qed.

(* the round the loop computes is an ENABLED builder round of the layer: with a live, ready send loop and a well-formed
   builder (duplicate-free, every entry queued), XBuildRound (Some lim) takes is a step, and it leaves exactly `left` *)
Lemma build_loop_is_round : forall x lim takes left, sendloop x = true -> ready x = true -> NoDup (inb x) ->
  (forall c, In c (inb x) -> e_st (ent (core x) c) = Queued) ->
  build_with_limit (pri x) (ent (core x)) (pop_max (pri x)) lim (inb x) = (takes, left) ->
  exists x', xstep x (XBuildRound (Some lim) takes) = Some x'
    /\ (forall c, In c (inb x') <-> In c left)
    /\ (left = [] \/ lim <= counted (ent (core x)) (pri x) takes).
Proof.
  intros x lim takes left HS HR ND HQ HB.
  destruct (build_with_limit_legal (pri x) (ent (core x)) (pop_max (pri x)) (pop_max_spec (pri x)) lim (inb x) takes left ND HB)
    as (RO & QO & NDt & All & Disj & _ & Quota).
  assert (G : round_guard x (Some lim) takes = true) by (apply round_guard_spec; auto).
  destruct (round_enabled x (Some lim) takes G) as (st & _ & Hx); [intros c Hc; apply HQ, All; now left|].
  eexists. split; [exact Hx|]. split; [|exact Quota].
  - intros c. cbn [inb]. rewrite filter_In. split.
    + intros [Hin Hn]. apply All in Hin. destruct Hin as [Hin|Hin]; auto. apply memb_In in Hin. rewrite Hin in Hn. discriminate.
    + intros Hl. split; [apply All; now right|]. destruct (memb c takes) eqn:M; auto. apply memb_In in M. exfalso. exact (Disj _ M Hl).
Qed.
