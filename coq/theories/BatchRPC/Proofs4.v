(* C18 — the epoch copy of a recv loop: a loop that lost the epoch CAS refreshes its copy, so it wins the next
   uncontended CAS and reaches failPendingRequests on the next break of its stream; the id source survives a
   restart of the send loop *)
From Coq Require Import List Arith Bool Lia Sorted.
Import ListNotations.
From Verif Require Import BatchRPC.Model BatchRPC.Iter BatchRPC.Proofs3 BatchRPC.Proofs BatchRPC.CoreProofs.

Lemma run_epoch_mono : forall ls s s', run s ls = Some s' -> epoch s <= epoch s'.
Proof.
  intros ls s s' H. apply (iter_inv step (fun s1 => epoch s <= epoch s1)) with (ls := ls) (s := s); auto.
  intros s1 l s2 E L. apply step_epoch_mono in E. lia.
Qed.

(* every epoch copy of stream h equals E *)
Definition ep_is (E : nat) (l : lstate) : Prop := forall ep, loop_ep l = Some ep -> ep = E.

Lemma step_ep_is : forall s l s' h E, step s l = Some s' -> epoch s' = E ->
  ep_is E (loops s h) -> ep_is E (loops s' h).
Proof.
  intros s l s' h E H E2 P ep Hep.
  destruct (step_loop_ep _ _ _ H h) as [K|[K|K]]; rewrite K in Hep; [auto | discriminate | congruence].
Qed.

Lemma run_ep_is : forall ls s s' h E, run s ls = Some s' -> epoch s = E -> epoch s' = E ->
  ep_is E (loops s h) -> ep_is E (loops s' h).
Proof.
  induction ls as [|l r IH]; simpl; intros s s' h E H E1 E2 P; [inversion H; subst; auto|].
  destruct (step s l) as [s1|] eqn:Es; [|discriminate].
  pose proof (step_epoch_mono _ _ _ Es). pose proof (run_epoch_mono _ _ _ H).
  assert (epoch s1 = E) by lia.
  eapply IH; eauto. eapply step_ep_is; eauto.
Qed.

(* the losing branch of recreateStreamingClient refreshes the loop's epoch copy and leaves the epoch alone *)
Lemma lost_cas_refreshes : forall s h ep s', loops s h = LIdle ep -> ep <> epoch s -> closed s = false ->
  step s (StreamFail h) = Some s' ->
  loops s' h = LIdle (epoch s') /\ epoch s' = epoch s.
Proof.
  intros s h ep s' HL HN HC H. destruct (streamfail_step _ _ _ HC H) as (ep' & HL' & _ & _ & E & L).
  assert (ep' = ep) by congruence. subst. auto.
Qed.

(* after a lost CAS, as long as nobody else wins a CAS (epoch unchanged), the next break of the same stream
   wins: no entry of that stream stays in flight, each gets the stream error *)
Lemma lost_cas_then_fail_pending : forall s h ep s1 ls s2 s3, reachable s ->
  loops s h = LIdle ep -> ep <> epoch s -> closed s = false -> step s (StreamFail h) = Some s1 ->
  run s1 ls = Some s2 -> epoch s2 = epoch s1 -> closed s2 = false ->
  step s2 (StreamFail h) = Some s3 ->
  epoch s3 = S (epoch s2)
  /\ (forall i c, In (i, c) (tab s3) -> e_host (ent s3 c) <> h)
  /\ (forall i c, In (i, c) (tab s2) -> e_host (ent s2 c) = h ->
        e_comp (ent s3 c) = [Err EStream] /\ e_st (ent s3 c) = Retired /\ ~ In (i, c) (tab s3)).
Proof.
  intros s h ep s1 ls s2 s3 R HL HN HC H1 Hrun HE HC2 H3.
  destruct (lost_cas_refreshes _ _ _ _ HL HN HC H1) as (L1 & E1).
  assert (P : ep_is (epoch s1) (loops s2 h)).
  { eapply run_ep_is; eauto. rewrite L1. intros ep' Hep. simpl in Hep. now inversion Hep. }
  assert (R2 : reachable s2).
  { eapply reachable_run; [|exact Hrun]. eapply reachable_step; eauto. }
  destruct (streamfail_step _ _ _ HC2 H3) as (ep2 & EL2 & _ & W & _).
  destruct (fail_pending_total _ _ _ R2 HC2 H3) as (A & B & _). split; [|split; auto].
  apply W. rewrite HE. apply P. now rewrite EL2.
Qed.

(* restart of the send loop: the id source and everything else survive *)
Lemma restart_keeps_ids : forall s s', step s Restart = Some s' -> s' = s.
Proof. intros s s' H. simpl in H. now inversion H. Qed.
