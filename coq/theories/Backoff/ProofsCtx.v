(* Backoff/ProofsCtx.v — the context tree: cancellation is permanent; Fork's cancel function cancels the fork only, the
   parent's cancels both *)
From Coq Require Import ZArith List Bool Lia.
From Verif Require Import Backoff.Model Backoff.ProofsBase Backoff.ProofsStep Backoff.ProofsInv.
Import ListNotations.
Open Scope Z_scope.

(* the order in which [cancelled] is monotone: entries and parents stay, flags only rise *)
Definition ctx_le (cs cs' : list (option nat * bool)) : Prop :=
  forall x p f, nth_error cs x = Some (p, f) -> exists f', nth_error cs' x = Some (p, f') /\ (f = true -> f' = true).

Lemma cancelled_fuel_mono cs cs' : ctx_le cs cs' -> forall k k' c, (k <= k')%nat ->
  cancelled_fuel k cs c = true -> cancelled_fuel k' cs' c = true.
Proof.
  intros Le. induction k; intros k' c Hk; simpl; [discriminate|].
  destruct k'; [lia|]. simpl. destruct (nth_error cs c) as [[p f]|] eqn:E; [|discriminate].
  destruct (Le _ _ _ E) as (f' & E' & Hf). rewrite E'. intros H. apply orb_true_iff in H as [H|H].
  - rewrite (Hf H). auto.
  - apply orb_true_iff. right. destruct p as [p|]; [|discriminate]. apply IHk; auto. lia.
Qed.

Lemma ctx_le_refl cs : ctx_le cs cs.
Proof. intros x p f H. eauto. Qed.

Lemma step_ctxs e w o : ctx_le (w_ctxs w) (w_ctxs (fst (step e w o))) /\
  (length (w_ctxs w) <= length (w_ctxs (fst (step e w o))))%nat.
Proof.
  assert (A : forall x : option nat * bool, ctx_le (w_ctxs w) (w_ctxs w ++ [x]) /\ (length (w_ctxs w) <= length (w_ctxs w ++ [x]))%nat).
  { intros x0. split; [|rewrite app_length; lia]. intros x p f H. exists f. split; auto. apply nth_app_l; auto. }
  pose proof (conj (ctx_le_refl (w_ctxs w)) (Nat.le_refl (length (w_ctxs w)))) as R.
  (* only New and Fork add a context, only Cancel writes one *)
  destruct o; simpl; auto; try (dm; simpl; auto; fail).
  - destruct (do_backoff e w i c maxms errid sleep) as [w' r] eqn:E.
    apply do_backoff_cases in E as [[-> _]|(b & f & _ & _ & _ & _ & _ & _ & _ & -> & _)]; simpl; auto.
  - dm; simpl; auto. split; [|rewrite length_upd; lia].
    intros x q f H. destruct (Nat.eq_dec c x) as [->|N].
    + rewrite nth_upd_same by (eapply nth_lt; eauto). assert (q = o) by congruence. subst. eauto.
    + rewrite nth_upd_other by auto. eauto.
Qed.

Lemma cancelled_step e w o c : cancelled w c = true -> cancelled (fst (step e w o)) c = true.
Proof.
  unfold cancelled. destruct (step_ctxs e w o) as [Le Len]. apply cancelled_fuel_mono; auto. lia.
Qed.

Lemma cancelled_run e ops w c : cancelled w c = true -> cancelled (run e w ops) c = true.
Proof. revert w; induction ops; simpl; auto. intros. apply IHops. apply cancelled_step; auto. Qed.

Lemma cancel_sets e w c p f : nth_error (w_ctxs w) c = Some (p, f) -> cancelled (fst (step e w (OCancel c))) c = true.
Proof.
  intros H. simpl. rewrite H. simpl. unfold cancelled. simpl.
  rewrite nth_upd_same by (eapply nth_lt; eauto). reflexivity.
Qed.

Definition ctx_ord (cs : list (option nat * bool)) : Prop :=
  forall c p f, nth_error cs c = Some (Some p, f) -> (p < c)%nat.
Definition ctx_wf (w : world) : Prop :=
  ctx_ord (w_ctxs w) /\ Forall (fun b => (b_ctx b < length (w_ctxs w))%nat) (w_bos w).

Lemma ord_app cs x : ctx_ord cs -> (forall p, fst x = Some p -> (p < length cs)%nat) -> ctx_ord (cs ++ [x]).
Proof.
  intros T H c p f Hc. apply nth_app_inv in Hc as [[L Hc]|[-> E]]; [eapply T; eauto|]. subst x. apply H. reflexivity.
Qed.

Lemma ord_upd cs c p f : ctx_ord cs -> nth_error cs c = Some (p, f) -> ctx_ord (upd c (p, true) cs).
Proof.
  intros T H c' q g Hc. apply nth_upd in Hc as [[-> E]|[N Hc]]; [|eapply T; eauto].
  inversion E; subst. eapply T; eauto.
Qed.

Lemma ctx_wf_set w i x : ctx_wf w -> (b_ctx x < length (w_ctxs w))%nat -> ctx_wf (set_bo w i x).
Proof. intros [T F] L. split; auto. apply Forall_upd; auto. Qed.

Lemma ctx_wf_new w x p : ctx_wf w -> b_ctx x = length (w_ctxs w) -> (forall q, p = Some q -> (q < length (w_ctxs w))%nat) ->
  ctx_wf (mkWorld (w_bos w ++ [x]) (w_ctxs w ++ [(p, false)]) (w_vars w) (w_cerr w)).
Proof.
  intros [T F] E Hp. split; simpl; [apply ord_app; auto|]. rewrite app_length. simpl.
  apply Forall_app. split; [|repeat constructor; lia]. eapply Forall_impl; [|exact F]. simpl. intros. lia.
Qed.

Lemma step_ctx_wf e w o : ctx_wf w -> ctx_wf (fst (step e w o)).
Proof.
  intros W. pose proof (fun i b => Forall_nth _ _ i b (proj2 W)) as In.
  destruct o; simpl; auto.
  - dm; simpl; auto; apply ctx_wf_new; auto; discriminate.
  - destruct (do_backoff e w i c maxms errid sleep) as [w' r] eqn:E.
    apply do_backoff_cases in E as [[-> _]|(b & f & Hn & _ & _ & _ & _ & _ & _ & -> & _)]; simpl; auto.
    apply ctx_wf_set; auto. exact (In _ _ Hn).
  - dm; simpl; auto. split; [exact (proj1 W)|]. apply Forall_app. split; [exact (proj2 W)|]. repeat constructor. exact (In _ _ Heqo).
  - dm; simpl; auto. apply ctx_wf_new; auto. intros q [= <-]. exact (In _ _ Heqo).
  - dm; simpl; auto. apply (ctx_wf_set (set_bo w i (merged b b0)) j); [apply ctx_wf_set; auto; exact (In _ _ Heqo)|exact (In _ _ Heqo0)].
  - dm; simpl; auto. apply ctx_wf_set; auto. exact (In _ _ Heqo).
  - dm; simpl; auto; apply ctx_wf_set; auto; exact (In _ _ Heqo).
  - dm; simpl; auto. destruct W as [T F]. split; simpl; [eapply ord_upd; eauto|rewrite length_upd; auto].
  - dm; simpl; auto.
  - dm; simpl; auto. apply ctx_wf_set; auto. simpl. eapply nth_lt; eauto.
  - dm; simpl; auto. apply ctx_wf_set; auto. exact (In _ _ Heqo).
Qed.

Lemma reach_ctx_wf e ops : ctx_wf (run e init_world ops).
Proof.
  apply (run_ind ctx_wf (fun _ => True)).
  - split; [intros c p f H; destruct c; discriminate|constructor].
  - intros. apply step_ctx_wf; auto.
  - apply Forall_forall; auto.
Qed.

Lemma cf_agree cs cs' : ctx_ord cs -> forall k c, (forall x, (x <= c)%nat -> nth_error cs' x = nth_error cs x) ->
  cancelled_fuel k cs' c = cancelled_fuel k cs c.
Proof.
  intros T. induction k; intros c A; simpl; auto. rewrite (A c (le_n c)).
  destruct (nth_error cs c) as [[[p|] f]|] eqn:E; auto. rewrite IHk; auto.
  intros x L. apply A. pose proof (T _ _ _ E). lia.
Qed.

Lemma cf_child cs k c p : nth_error cs c = Some (Some p, false) -> cancelled_fuel (S k) cs c = cancelled_fuel k cs p.
Proof. intros H. simpl. rewrite H. reflexivity. Qed.
Lemma cf_self cs k c p : nth_error cs c = Some (p, true) -> cancelled_fuel (S k) cs c = true.
Proof. intros H. simpl. rewrite H. reflexivity. Qed.

Lemma cancel_scope e w : ctx_wf w -> forall i b,
  nth_error (w_bos w) i = Some b -> b_live b = true ->
  let w1 := fst (step e w (OFork i)) in
  let cj := length (w_ctxs w) in
  (exists nb, nth_error (w_bos w1) (length (w_bos w)) = Some nb /\ b_ctx nb = cj) /\
  cancelled w1 cj = cancelled w (b_ctx b) /\
  (forall c', (c' < cj)%nat -> cancelled (fst (step e w1 (OCancel cj))) c' = cancelled w1 c') /\
  cancelled (fst (step e w1 (OCancel cj))) cj = true /\
  cancelled (fst (step e w1 (OCancel (b_ctx b)))) cj = true.
Proof.
  intros [T F] i b Hn Lv w1 cj.
  pose proof (Forall_nth _ _ _ _ F Hn) as Lb. simpl in Lb. fold cj in Lb.
  assert (E1 : w1 = mkWorld (w_bos w ++ [copy_bo b cj (Some i)]) (w_ctxs w ++ [(Some (b_ctx b), false)]) (w_vars w) (w_cerr w)).
  { unfold w1. simpl. rewrite Hn, Lv. reflexivity. }
  assert (T1 : ctx_ord (w_ctxs w1)).
  { rewrite E1. simpl. apply ord_app; auto. simpl. intros p X. inversion X; subst; auto. }
  assert (Nj : nth_error (w_ctxs w1) cj = Some (Some (b_ctx b), false)). { rewrite E1. simpl. apply nth_app_new. }
  assert (Len1 : length (w_ctxs w1) = S cj). { rewrite E1. simpl. rewrite app_length. simpl. unfold cj. lia. }
  split; [|split; [|split; [|split]]].
  - exists (copy_bo b cj (Some i)). rewrite E1. simpl. split; auto. apply nth_app_new.
  - unfold cancelled. rewrite Len1. rewrite (cf_child _ _ _ _ Nj). rewrite E1. cbn [w_ctxs].
    apply cf_agree; auto. intros y Ly. apply nth_error_app1. lia.
  - intros c' L. cbn [step]. rewrite Nj. cbn [fst]. unfold cancelled. cbn [w_ctxs]. rewrite length_upd.
    apply cf_agree; auto. intros y Ly. apply nth_upd_other. lia.
  - eapply cancel_sets; eauto.
  - assert (Lb1 : (b_ctx b < length (w_ctxs w1))%nat) by lia.
    destruct (nth_error (w_ctxs w1) (b_ctx b)) as [[p f]|] eqn:Eb; [|apply nth_error_None in Eb; lia].
    cbn [step]. rewrite Eb. cbn [fst]. unfold cancelled. cbn [w_ctxs]. rewrite length_upd, Len1.
    rewrite (cf_child _ _ _ (b_ctx b)); [|rewrite nth_upd_other by lia; exact Nj].
    destruct cj; [lia|]. apply (cf_self _ _ _ p). apply nth_upd_same. lia.
Qed.
