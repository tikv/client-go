(* Backoff/ProofsWorker.v — runs that log every sleep with the back-offer it was made on, as the consumers' pattern needs
   them: fork; one clone of the FORK per further worker; every worker backs off on its own back-offer; the last finished
   worker is merged into the caller's back-offer (worker_pattern, ProofsTree.v). *)
From Coq Require Import ZArith List Bool Lia.
From Verif Require Import Backoff.Model Backoff.ProofsBase Backoff.ProofsStep Backoff.ProofsInv Backoff.ProofsAcct.
Import ListNotations.
Open Scope Z_scope.

Definition op_target (o : op) : option nat := match o with OBackoff i _ _ _ _ => Some i | _ => None end.
Definition log_entry_i (o : op) (r : res) : list (nat * (Z * Z)) :=
  match o, r with
  | OBackoff i c _ _ _, ROk x => [(i, (c_name c, x))]
  | OBackoff i c _ _ _, RKilled x _ => [(i, (c_name c, x))]
  | _, _ => []
  end.
Fixpoint run_logi (e : env) (w : world) (ops : list op) : world * list (nat * (Z * Z)) :=
  match ops with
  | [] => (w, [])
  | o :: r => let wr := step e w o in let wl := run_logi e (fst wr) r in (fst wl, log_entry_i o (snd wr) ++ snd wl)
  end.
(* the log of worker k *)
Definition for_idx (k : nat) (lg : list (nat * (Z * Z))) : list (Z * Z) :=
  map snd (filter (fun x => Nat.eqb (fst x) k) lg).

(* the workers' phase: only back-offs, never on the caller's back-offer [i] *)
Definition worker_op (i : nat) (o : op) : Prop := exists j c m er s, o = OBackoff j c m er s /\ j <> i.

Lemma run_logi_fst e ops : forall w, fst (run_logi e w ops) = run e w ops.
Proof. induction ops; intros; simpl; auto. Qed.

Lemma for_idx_app k a b : for_idx k (a ++ b) = for_idx k a ++ for_idx k b.
Proof. unfold for_idx. rewrite filter_app, map_app. auto. Qed.

Lemma run_log_logi e j ops : Forall (is_backoff_on j) ops -> forall w,
  run_log e w ops = (fst (run_logi e w ops), for_idx j (snd (run_logi e w ops))).
Proof.
  induction 1 as [|o r (c & m & er & s & ->) _ IH]; intros w; [reflexivity|].
  cbn [run_log run_logi fst snd]. rewrite IH, for_idx_app. cbn [fst snd]. f_equal. f_equal.
  unfold for_idx. destruct (snd (step e w (OBackoff j c m er s))); cbn [log_entry log_entry_i filter fst]; rewrite ?Nat.eqb_refl; reflexivity.
Qed.
