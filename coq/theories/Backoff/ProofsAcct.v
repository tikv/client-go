(* Backoff/ProofsAcct.v — longest sleeper, back-offs under cancel / kill, fork / clone start, exact merge accounting, the
   sleep log of a run and the accounting relation [acct_plus] *)
From Coq Require Import ZArith List Bool Lia.
From Verif Require Import Backoff.Model Backoff.ProofsBase Backoff.ProofsStep Backoff.ProofsInv.
Import ListNotations.
Open Scope Z_scope.

Lemma longest_val_nonneg e l : 0 <= longest_val e l.
Proof. induction l as [|[n v] r]; simpl; [lia|]. destruct (is_excl e n); lia. Qed.

Lemma longest_val_max e l n v : In (n, v) l -> is_excl e n = false -> v <= longest_val e l.
Proof.
  induction l as [|[n' v'] r]; simpl; [tauto|]. intros [E|I] X.
  - inversion E; subst. rewrite X. lia.
  - specialize (IHr I X). destruct (is_excl e n'); lia.
Qed.

Lemma longest_val_attained e l : 0 < longest_val e l -> exists n, In (n, longest_val e l) l /\ is_excl e n = false.
Proof.
  induction l as [|[n v] r]; simpl; [lia|]. destruct (is_excl e n) eqn:X.
  - intros P. destruct (IHr P) as (n0 & I & E). eauto.
  - intros P. destruct (Z.max_spec v (longest_val e r)) as [[Lt ->]|[Ge ->]].
    + destruct (IHr ltac:(lia)) as (n0 & I & E). eauto.
    + exists n. auto.
Qed.

Lemma first_cfg_some n l : (exists c, In c l /\ c_name c = n) ->
  exists cf, first_cfg n l = Some cf /\ c_name cf = n /\ In cf l.
Proof.
  induction l as [|c0 r]; intros (c & I & E); simpl in *; [tauto|].
  destruct (c_name c0 =? n) eqn:X.
  - apply Z.eqb_eq in X. eauto.
  - destruct I as [->|I]; [apply Z.eqb_neq in X; congruence|].
    destruct IHr as (cf & F & N & I'); eauto.
Qed.

Definition is_longest (e : env) (b : bo) (n : Z) : Prop :=
  is_excl e n = false /\ In (n, longest_val e (b_sleep b)) (b_sleep b) /\
  forall n' v', In (n', v') (b_sleep b) -> is_excl e n' = false -> v' <= longest_val e (b_sleep b).

Lemma in_longest_cands e w b r : 0 < longest_val e (b_sleep b) ->
  In r (longest_cands e w b) <->
  exists n, r = cand_err w b n /\ is_excl e n = false /\ In (n, longest_val e (b_sleep b)) (b_sleep b).
Proof.
  intros P. unfold longest_cands. apply Z.ltb_lt in P. rewrite P, in_map_iff. split.
  - intros ([n v] & <- & I). apply filter_In in I as [I F]. simpl in *. apply andb_true_iff in F as [F1 F2].
    apply negb_true_iff in F1. apply Z.eqb_eq in F2. subst v. eauto.
  - intros (n & -> & Ex & I). exists (n, longest_val e (b_sleep b)). split; auto.
    apply filter_In. split; auto. simpl. rewrite Ex, Z.eqb_refl. auto.
Qed.

Lemma longest_thm e w : all_bos keys_inv w -> forall i c maxms errid s w' cands,
  step e w (OBackoff i c maxms errid s) = (w', RExceeded cands) ->
  w' = w /\
  exists b, nth_error (w_bos w) i = Some b /\ 0 < b_max b /\ exceeded e b (c_name c) = true /\
    cands <> [] /\
    (0 < longest_val e (b_sleep b) ->
       forall r, In r cands -> exists n cf, r = Some (cur_err w cf) /\ first_cfg n (b_cfgs b) = Some cf /\ c_name cf = n /\ is_longest e b n) /\
    (longest_val e (b_sleep b) <= 0 -> cands = [cand_err w b 0]).
Proof.
  simpl. intros K i c maxms errid s w' cands E.
  apply do_backoff_cases in E as [[-> [X|[X|(b & Hn & Hx & X)]]]|(b & f & _ & _ & _ & _ & _ & _ & _ & _ & X)]; try discriminate.
  2:{ unfold kill_res in X. destruct (_ =? 0); discriminate. }
  split; auto. exists b. apply andb_true_iff in Hx as [Hm Hx]. apply Z.ltb_lt in Hm.
  inversion X; subst cands; clear X. repeat split; auto.
  - destruct (Z.ltb_spec 0 (longest_val e (b_sleep b))) as [P|P].
    + destruct (longest_val_attained _ _ P) as (n & I & Ex). intros Z0.
      assert (H : In (cand_err w b n) (longest_cands e w b)) by (apply in_longest_cands; eauto).
      rewrite Z0 in H. destruct H.
    + unfold longest_cands. apply Z.ltb_ge in P. rewrite P. discriminate.
  - intros P r I. apply in_longest_cands in I as (n & -> & Ex & I); auto.
    destruct (first_cfg_some n (b_cfgs b) (K i b Hn _ _ I)) as (cf & Fc & Nc & _).
    exists n, cf. unfold cand_err. rewrite Fc. repeat split; auto. intros. eapply longest_val_max; eauto.
  - intros P. unfold longest_cands. destruct (0 <? longest_val e (b_sleep b)) eqn:Q; auto. apply Z.ltb_lt in Q. lia.
Qed.

Definition backoff_on_cancelled (w : world) (o : op) : Prop :=
  match o with
  | OBackoff i _ _ _ _ => exists b, nth_error (w_bos w) i = Some b /\ b_live b = true /\ cancelled w (b_ctx b) = true
  | _ => False
  end.

Lemma cancelled_backoff e w i c maxms errid s b :
  nth_error (w_bos w) i = Some b -> b_live b = true -> cancelled w (b_ctx b) = true ->
  step e w (OBackoff i c maxms errid s) = (w, RErrOrig).
Proof. intros H L C. simpl. unfold do_backoff. rewrite H, L, C. reflexivity. Qed.

Lemma cancelled_backoffs e w ops : Forall (backoff_on_cancelled w) ops -> run e w ops = w.
Proof.
  induction 1 as [|o r Ho _ IH]; simpl; auto. destruct o; simpl in Ho; try tauto.
  destruct Ho as (b & H & L & C). change (run e (fst (step e w (OBackoff i c maxms errid sleep))) r = w).
  rewrite (cancelled_backoff e w i c maxms errid sleep b H L C). exact IH.
Qed.

(* a killed query never gets a nil error from a back-off, and pays for at most the one sleep of that call — unless the
   back-offer was marked KeepGoingWhenKilled (release requests): then the kill flag never ends a back-off *)
Lemma killed_backoff e w i c maxms errid s b w' r :
  nth_error (w_bos w) i = Some b ->
  step e w (OBackoff i c maxms errid s) = (w', r) ->
  (b_keep b = false -> killed_sig w b <> 0 ->
     (forall real, r <> ROk real) /\
     (w' = w \/ exists f, r = RKilled (cut s maxms) (killed_sig w b) /\ sleep_ok f s = true /\
                          w' = set_bo w i (slept_bo e b c f s maxms errid))) /\
  (b_keep b = true -> forall real sg, r <> RKilled real sg).
Proof.
  intros H E. simpl in E.
  apply do_backoff_cases in E as [[-> [->|[->|(b0 & _ & _ & ->)]]]|(b0 & f & Hn & _ & _ & _ & _ & _ & Hs & -> & ->)].
  1-3: split; [intros; split; [intros; discriminate|auto]|intros; discriminate].
  assert (b0 = b) by congruence. subst b0. unfold kill_res, kill_eff. split.
  - intros Kp K. rewrite Kp. apply Z.eqb_neq in K. rewrite K.
    split; [intros; discriminate|]. right. exists f. auto.
  - intros Kp real sg. rewrite Kp. simpl. discriminate.
Qed.

Lemma keep_flag e w i b : nth_error (w_bos w) i = Some b -> b_live b = true ->
  (exists b', nth_error (w_bos (fst (step e w (OKeepGoing i)))) i = Some b' /\ b_keep b' = true /\
              b_total b' = b_total b /\ b_max b' = b_max b /\ b_ctx b' = b_ctx b) /\
  (exists nb, nth_error (w_bos (fst (step e w (OFork i)))) (length (w_bos w)) = Some nb /\ b_keep nb = b_keep b) /\
  (exists nb, nth_error (w_bos (fst (step e w (OClone i)))) (length (w_bos w)) = Some nb /\ b_keep nb = b_keep b) /\
  (forall j f, nth_error (w_bos w) j = Some f -> i <> j ->
     exists b', nth_error (w_bos (fst (step e w (OMerge i j)))) i = Some b' /\ b_keep b' = b_keep b) /\
  (forall c maxms errid s b', nth_error (w_bos (fst (step e w (OBackoff i c maxms errid s)))) i = Some b' -> b_keep b' = b_keep b).
Proof.
  intros H L. pose proof (nth_lt _ _ _ H) as Lt. split; [|split; [|split; [|split]]].
  - simpl. rewrite H, L. simpl. rewrite nth_upd_same by auto. eexists. split; eauto.
  - simpl. rewrite H, L. simpl. rewrite nth_app_new. eexists. split; eauto.
  - simpl. rewrite H, L. simpl. rewrite nth_app_new. eexists. split; eauto.
  - intros j f Hj N. simpl. rewrite H, Hj. destruct (negb (b_live b && b_live f)); simpl; eauto.
    destruct (on_chain _ _ _ _); simpl; eauto. rewrite nth_upd_other by auto. rewrite nth_upd_same by auto. eexists. split; eauto.
  - intros c maxms errid s b' Hb. destruct (step e w (OBackoff i c maxms errid s)) as [w' r] eqn:E. simpl in E.
    apply do_backoff_cases in E as [[-> _]|(b0 & f & Hn & _ & _ & _ & _ & _ & _ & -> & _)]; simpl in Hb.
    + congruence.
    + rewrite nth_upd_same in Hb by auto. assert (b0 = b) by congruence. subst. inversion Hb. reflexivity.
Qed.

Definition counters (b : bo) := (b_total b, b_excl b, b_errs b, b_errnum b, b_cfgs b, b_sleep b, b_times b).

Lemma copy_start e w i b (fk : bool) : nth_error (w_bos w) i = Some b -> b_live b = true ->
  exists w' nb, step e w (if fk then OFork i else OClone i) = (w', RNone) /\
    nth_error (w_bos w') (length (w_bos w)) = Some nb /\ length (w_bos w') = S (length (w_bos w)) /\
    counters nb = counters b /\ b_max nb = b_max b /\ b_vars nb = b_vars b /\
    b_parent nb = (if fk then Some i else b_parent b) /\ b_fn nb = [] /\ b_live nb = true /\ b_noop nb = false /\
    if fk
    then nth_error (w_ctxs w') (b_ctx nb) = Some (Some (b_ctx b), false) /\
         (forall k x, nth_error (w_bos w) k = Some x -> nth_error (w_bos w') k = Some x)
    else b_ctx nb = b_ctx b /\ w_ctxs w' = w_ctxs w /\
         (forall k x, nth_error (w_bos w) k = Some x -> nth_error (w_bos w') k = Some x).
Proof.
  intros H L. destruct fk; simpl; rewrite H, L; (eexists _, _; split; [reflexivity|]); simpl;
    rewrite nth_app_new, app_length; simpl; repeat split; auto; try lia; try apply nth_app_new; intros; apply nth_app_l; auto.
Qed.

(* the receiver is written before the fork is marked dead, so the two slots must differ: in a reachable world the fork
   is younger than everything on its parent chain *)
Lemma merge_exact_gen e w i j b f : (on_chain (length (w_bos w)) (w_bos w) (b_parent f) i = true -> i <> j) ->
  nth_error (w_bos w) i = Some b -> nth_error (w_bos w) j = Some f -> b_live b = true -> b_live f = true ->
  if on_chain (length (w_bos w)) (w_bos w) (b_parent f) i
  then exists w' b', step e w (OMerge i j) = (w', RNone) /\ nth_error (w_bos w') i = Some b' /\
         counters b' = counters f /\ b_max b' = b_max b /\ b_fn b' = b_fn b /\ b_parent b' = b_parent b /\ b_ctx b' = b_ctx b /\
         nth_error (w_bos w') j = Some (kill_bo f) /\
         (forall k, k <> i -> k <> j -> nth_error (w_bos w') k = nth_error (w_bos w) k)
  else step e w (OMerge i j) = (w, RNone).
Proof.
  intros N Hi Hj Li Lj. simpl. rewrite Hi, Hj, Li, Lj. simpl.
  destruct (on_chain _ _ _ _) eqn:Oc; auto. specialize (N eq_refl).
  eexists _, (merged b f). split; [reflexivity|]. simpl. repeat split; auto.
  - rewrite nth_upd_other by auto. apply nth_upd_same. eapply nth_lt; eauto.
  - apply nth_upd_same. rewrite length_upd. eapply nth_lt; eauto.
  - intros k N1 N2. rewrite !nth_upd_other by auto. auto.
Qed.

Lemma chain_younger e ops i j f : nth_error (w_bos (run e init_world ops)) j = Some f ->
  on_chain (length (w_bos (run e init_world ops))) (w_bos (run e init_world ops)) (b_parent f) i = true -> i <> j.
Proof. intros Hj Oc. pose proof (on_chain_lt _ (reach_tree_ord e ops) _ _ _ _ Hj Oc). lia. Qed.

Definition log_entry (o : op) (r : res) : list (Z * Z) :=
  match o, r with
  | OBackoff _ c _ _ _, ROk x => [(c_name c, x)]
  | OBackoff _ c _ _ _, RKilled x _ => [(c_name c, x)]
  | _, _ => []
  end.
Fixpoint run_log (e : env) (w : world) (ops : list op) : world * list (Z * Z) :=
  match ops with
  | [] => (w, [])
  | o :: r => let wr := step e w o in let wl := run_log e (fst wr) r in (fst wl, log_entry o (snd wr) ++ snd wl)
  end.
Definition sum_all (lg : list (Z * Z)) : Z := fold_right (fun nv acc => snd nv + acc) 0 lg.
Definition sum_if (p : Z -> bool) (lg : list (Z * Z)) : Z := fold_right (fun nv acc => if p (fst nv) then snd nv + acc else acc) 0 lg.
Definition cnt_if (p : Z -> bool) (lg : list (Z * Z)) : Z := fold_right (fun nv acc => if p (fst nv) then 1 + acc else acc) 0 lg.

Definition is_backoff_on (j : nat) (o : op) : Prop := exists c m er s, o = OBackoff j c m er s.

Lemma sum_all_app a b : sum_all (a ++ b) = sum_all a + sum_all b.
Proof. unfold sum_all. induction a; simpl; lia. Qed.
Lemma sum_if_app p a b : sum_if p (a ++ b) = sum_if p a + sum_if p b.
Proof. unfold sum_if. induction a; cbn [app fold_right]; [lia|]. destruct (p (fst a)); lia. Qed.
Lemma cnt_if_app p a b : cnt_if p (a ++ b) = cnt_if p a + cnt_if p b.
Proof. unfold cnt_if. induction a; cbn [app fold_right]; [lia|]. destruct (p (fst a)); lia. Qed.

Definition acct_plus (e : env) (b f : bo) (lg : list (Z * Z)) : Prop :=
  b_total f = b_total b + sum_all lg /\ b_excl f = b_excl b + sum_if (is_excl e) lg /\
  (forall n, zget n (b_sleep f) = zget n (b_sleep b) + sum_if (Z.eqb n) lg /\
             zget n (b_times f) = zget n (b_times b) + cnt_if (Z.eqb n) lg).

(* the accounting written out, as the theorems about merges state it *)
Lemma acct_plus_out {e b lg} {Q : bo -> Prop} {bs : list bo} {i} :
  (exists b', nth_error bs i = Some b' /\ acct_plus e b b' lg /\ Q b') ->
  exists b', nth_error bs i = Some b' /\
    b_total b' = b_total b + sum_all lg /\
    b_excl b' = b_excl b + sum_if (is_excl e) lg /\
    (forall n, zget n (b_sleep b') = zget n (b_sleep b) + sum_if (Z.eqb n) lg /\
               zget n (b_times b') = zget n (b_times b) + cnt_if (Z.eqb n) lg) /\
    Q b'.
Proof. intros (b' & N & (A1 & A2 & A3) & HQ). exists b'. auto. Qed.

Lemma acct_plus_nil e b f : counters f = counters b -> acct_plus e b f [].
Proof. unfold acct_plus, sum_all, sum_if, cnt_if. intros [= -> -> _ _ _ -> ->]. simpl. repeat split; lia. Qed.

Lemma acct_plus_counters e b f f' lg : acct_plus e b f lg -> counters f' = counters f -> acct_plus e b f' lg.
Proof. unfold acct_plus. intros A [= -> -> _ _ _ -> ->]. exact A. Qed.

Lemma acct_plus_trans e b f f' l l' : acct_plus e b f l -> acct_plus e f f' l' -> acct_plus e b f' (l ++ l').
Proof.
  intros (A1 & A2 & A3) (B1 & B2 & B3). unfold acct_plus. rewrite sum_all_app, sum_if_app.
  repeat split; try lia; destruct (A3 n), (B3 n); rewrite ?sum_if_app, ?cnt_if_app; lia.
Qed.

Lemma acct_plus_slept e b c f s m er : acct_plus e b (slept_bo e b c f s m er) [(c_name c, cut s m)].
Proof.
  unfold acct_plus, sum_all, sum_if, cnt_if. cbn [fold_right fst snd slept_bo b_total b_excl b_sleep b_times].
  split; [lia|]. split; [destruct (is_excl e (c_name c)); lia|]. intros n. destruct (Z.eqb_spec n (c_name c)) as [->|Q].
  - rewrite !zget_zadd_same. lia.
  - rewrite !zget_zadd_other by congruence. lia.
Qed.

Lemma merge_plus e w i t b ft lg : i <> t ->
  nth_error (w_bos w) i = Some b -> nth_error (w_bos w) t = Some ft -> b_live b = true -> b_live ft = true ->
  on_chain (length (w_bos w)) (w_bos w) (b_parent ft) i = true -> acct_plus e b ft lg ->
  exists b', nth_error (w_bos (fst (step e w (OMerge i t)))) i = Some b' /\ acct_plus e b b' lg /\
             b_max b' = b_max b /\ b_fn b' = b_fn b.
Proof.
  intros N Hi Ht Li Lt Oc A. pose proof (merge_exact_gen e w i t b ft (fun _ => N) Hi Ht Li Lt) as M. rewrite Oc in M.
  destruct M as (w' & b' & E & Hb' & Cn & Mx & Fn & _). exists b'. rewrite E. split; auto. split; auto.
  eapply acct_plus_counters; eauto.
Qed.
