(* Backoff/ProofsExt.v — the budget when all budgets stay within a bound, integer ranges (no overflow), expo saturation,
   closures of well-formed kinds never draw from an empty interval. *)
From Coq Require Import ZArith List Bool Lia.
From Verif Require Import Backoff.Model Backoff.ProofsBase Backoff.ProofsStep Backoff.ProofsInv.
Import ListNotations.
Open Scope Z_scope.

Fixpoint always (P : world -> Prop) (e : env) (w : world) (ops : list op) : Prop :=
  P w /\ match ops with [] => True | o :: r => always P e (fst (step e w o)) r end.

Lemma always_run (P Q : world -> Prop) e : (forall w o, P w -> Q w -> Q (fst (step e w o))) ->
  forall ops w, Q w -> always P e w ops -> Q (run e w ops) /\ P (run e w ops).
Proof.
  intros S. induction ops; intros w Hq [Pw Ha]; simpl; [auto|apply IHops; auto].
Qed.

Definition budgets_in (B : Z) (w : world) : Prop := Forall (fun b => 0 < b_max b <= B) (w_bos w).
(* the ghost is never above the largest budget any back-offer had during the run; stated for back-offers whose own
   budget is within the bound, so that it holds of whatever a step writes *)
Definition hi_in (B : Z) (b : bo) : Prop := 0 < b_max b <= B -> exists h, b_hi b = Some h /\ h <= B.

Lemma budget_hi_in B m : 0 < m <= B -> exists h, budget_hi m = Some h /\ h <= B.
Proof. intros P. exists m. unfold budget_hi. destruct (Z.ltb_spec 0 m); [split; auto|]; lia. Qed.

Lemma fresh_hi_in B e w o j x : budgets_in B w -> all_bos (hi_in B) w -> fresh e w o j x -> hi_in B x.
Proof.
  intros P A F. destruct F; try exact (A _ _ H); try exact (budget_hi_in B m).
  - exact (A _ _ H0).
  - intros Pb. simpl in Pb. destruct (budget_hi_in B _ Pb) as (h & Eh & Lh).
    destruct (A _ _ H1 (Forall_nth _ _ _ _ P H1)) as (fh & Ef & Lf).
    simpl. rewrite Eh, Ef. simpl. eexists. split; eauto. lia.
Qed.

Lemma budget_bounded C L B e ops i b : 0 <= C -> env_bound e L -> Forall (op_wf C) ops ->
  always (budgets_in B) e init_world ops ->
  nth_error (w_bos (run e init_world ops)) i = Some b ->
  b_total b - b_excl b < B + C /\ b_excl b < Z.max L B + C /\ 0 <= b_excl b <= b_total b.
Proof.
  intros HC HL W Al Hn.
  assert (S : forall w o, budgets_in B w -> all_bos (hi_in B) w -> all_bos (hi_in B) (fst (step e w o))).
  { intros w o Pw A. apply step_all; auto. intros j x. apply fresh_hi_in; auto. }
  destruct (always_run _ (all_bos (hi_in B)) e S ops init_world) as [H P]; auto. { apply all_bos_init. }
  destruct (H _ _ Hn (Forall_nth _ _ _ _ P Hn)) as (h & Eh & Lh).
  destruct (gen_inv_bounds C L b h (reach_gen C L e ops HC HL W i b Hn) Eh) as (_ & X & Y & Z0). lia.
Qed.

(* integer ranges: nothing the code keeps in an int leaves [0, (#ops)*C] *)
Definition fn_sz (k : Z) (f : fnst) : Prop := 0 <= f_att f <= k /\ 0 <= f_last f <= Z.max (f_cap f) (f_base f).
Definition size_inv (C k : Z) (b : bo) : Prop :=
  0 <= b_total b <= k * C /\ 0 <= b_excl b <= b_total b /\ 0 <= b_errnum b <= k /\
  (forall n v, In (n, v) (b_sleep b) -> 0 <= v <= k * C) /\
  (forall n v, In (n, v) (b_times b) -> 0 <= v <= k) /\
  Forall (fun nf => fn_wf C (snd nf) /\ fn_sz k (snd nf)) (b_fn b).

Lemma aget_In {A} k (l : list (Z * A)) v : aget k l = Some v -> In (k, v) l.
Proof. induction l as [|[k' v'] r]; simpl; [discriminate|]. destruct (k =? k') eqn:E; auto.
  apply Z.eqb_eq in E; subst. intros X; inversion X; auto. Qed.

Lemma zget_range k l M : 0 <= M -> (forall n v, In (n, v) l -> 0 <= v <= M) -> 0 <= zget k l <= M.
Proof. intros HM H. unfold zget. destruct (aget k l) eqn:E; [apply aget_In in E; eauto|lia]. Qed.

Lemma size_mono C k k' b : 0 <= C -> 0 <= k <= k' -> size_inv C k b -> size_inv C k' b.
Proof.
  intros HC Hk (A & B & D & E & F & G). unfold size_inv. assert (k * C <= k' * C) by nia.
  split; [lia|]. split; [lia|]. split; [lia|].
  split; [intros n v I; specialize (E n v I); lia|]. split; [intros n v I; specialize (F n v I); lia|].
  eapply Forall_impl; [|exact G]. intros [n f] [W [S1 S2]]. simpl in *. split; auto. split; auto. lia.
Qed.

Lemma slept_size C k e b c f s maxms errid : 0 <= k ->
  size_inv C k b -> fn_wf C f -> fn_sz k f -> sleep_ok f s = true ->
  size_inv C (k + 1) (slept_bo e b c f s maxms errid).
Proof.
  intros Hk (A & B & D & E & F & G) Hf Hz Hs.
  pose proof (proj1 (sleep_ok_range C f s Hf Hs)) as Hr. destruct Hf as [Hcap Hbase].
  destruct (cut_range s maxms ltac:(lia)) as [Hcut _]. set (real := cut s maxms) in *.
  assert (K : (k + 1) * C = k * C + C) by lia. assert (0 <= k * C) by nia.
  unfold size_inv, slept_bo; simpl. fold real. rewrite K.
  refine (conj _ (conj _ (conj _ (conj _ (conj _ _))))).
  - lia.
  - destruct (is_excl e (c_name c)); lia.
  - lia.
  - intros n v I. unfold zadd in I. apply in_aset in I as [[-> ->]|I].
    + pose proof (zget_range (c_name c) (b_sleep b) (k * C) ltac:(lia) E). lia.
    + specialize (E n v I). lia.
  - intros n v I. unfold zadd in I. apply in_aset in I as [[-> ->]|I].
    + pose proof (zget_range (c_name c) (b_times b) k ltac:(lia) F). lia.
    + specialize (F n v I). lia.
  - apply Forall_aset.
    + eapply Forall_impl; [|exact G]. intros [n g] [W [S1 S2]]. simpl in *. split; auto. split; auto. lia.
    + destruct Hz as [Z1 Z2]. simpl. split; [split; simpl; lia|]. split; simpl; lia.
Qed.

Lemma pick_fn_size C k e w b c f : 0 <= k -> size_inv C k b -> 0 <= c_cap c <= C -> pick_fn e w b c = Some f -> fn_wf C f /\ fn_sz k f.
Proof.
  intros Hk (_ & _ & _ & _ & _ & G) Hc. apply (pick_fn_Forall (fun f => fn_wf C f /\ fn_sz k f)); auto. intros base _. split; [apply new_fn_wf; auto|].
  unfold fn_sz, new_fn; simpl. destruct (Z.ltb_spec base 2); lia.
Qed.

Lemma step_size C k e w o : 0 <= C -> 0 <= k -> op_wf C o ->
  all_bos (size_inv C k) w -> all_bos (size_inv C (k + 1)) (fst (step e w o)).
Proof.
  intros HC Hk WF A.
  assert (M : all_bos (size_inv C (k + 1)) w). { intros i b H. eapply size_mono; eauto. lia. }
  assert (Z0 : 0 <= (k + 1) * C) by nia.
  apply step_all; auto. intros j x F. destruct F.
  - unfold size_inv, empty_bo; simpl. repeat split; try lia; try tauto. constructor.
  - destruct (M _ _ H) as (A1 & A2 & A3 & A4 & A5 & _).
    unfold size_inv, copy_bo; simpl. repeat split; try lia; try apply (A4 _ _ H1); try apply (A5 _ _ H1). constructor.
  - subst o. simpl in WF. destruct (pick_fn_size _ _ _ _ _ _ _ Hk (A _ _ H0) WF H1). eapply slept_size; eauto.
  - destruct (M _ _ H) as (A1 & A2 & A3 & A4 & A5 & _).
    unfold size_inv, reset_bo; simpl. repeat split; try lia; try apply (A4 _ _ H1); try apply (A5 _ _ H1). constructor.
  - exact (M _ _ H).
  - destruct (M _ _ H1) as (A1 & A2 & A3 & A4 & A5 & _). destruct (M _ _ H0) as (_ & _ & _ & _ & _ & G).
    unfold size_inv, merged; simpl. repeat split; try lia; try apply (A4 _ _ H3); try apply (A5 _ _ H3). exact G.
  - exact (M _ _ H).
Qed.

Lemma run_size C e : 0 <= C -> forall ops w k, 0 <= k -> Forall (op_wf C) ops ->
  all_bos (size_inv C k) w -> all_bos (size_inv C (k + Z.of_nat (length ops))) (run e w ops).
Proof.
  intros HC. induction ops; intros w k Hk W A.
  - simpl. rewrite Z.add_0_r. auto.
  - inversion W; subst. cbn [run fold_left length]. change (fold_left _ ops ?x) with (run e x ops).
    replace (k + Z.of_nat (S (length ops))) with ((k + 1) + Z.of_nat (length ops)) by lia.
    apply IHops; auto; try lia. apply step_size; auto.
Qed.

Lemma size_62 C k b : 0 <= C <= 2 ^ 31 -> 0 <= k <= 2 ^ 20 -> size_inv C k b ->
  b_total b < 2 ^ 62 /\ b_excl b < 2 ^ 62 /\ b_errnum b < 2 ^ 62 /\
  (forall n v, In (n, v) (b_sleep b) -> 0 <= v < 2 ^ 62) /\ (forall n v, In (n, v) (b_times b) -> 0 <= v < 2 ^ 62) /\
  (forall n f, In (n, f) (b_fn b) -> 0 <= f_att f < 2 ^ 62 /\ (f_base f < 2 ^ 60 -> 0 <= f_last f * 3 - f_base f + f_base f < 2 ^ 62)).
Proof.
  intros HC Kb (A & B & D & E & F & G).
  assert (P : k * C <= 2 ^ 51). { change (2 ^ 51) with (2 ^ 20 * 2 ^ 31). nia. }
  assert (2 ^ 51 < 2 ^ 62) by (vm_compute; reflexivity). assert (2 ^ 20 < 2 ^ 62) by (vm_compute; reflexivity).
  assert (2 ^ 31 < 2 ^ 60) by (vm_compute; reflexivity). assert (2 ^ 60 * 4 = 2 ^ 62) by (vm_compute; reflexivity).
  split; [lia|]. split; [lia|]. split; [lia|].
  split; [intros n v I; specialize (E n v I); lia|]. split; [intros n v I; specialize (F n v I); lia|].
  intros n f I. rewrite Forall_forall in G. destruct (G _ I) as [[W1 W2] [S1 S2]]. simpl in *. lia.
Qed.

Lemma expo_clamp base cap n : cap <= base * 2 ^ n -> expo base cap n = cap.
Proof. intros. unfold expo. lia. Qed.

Lemma expo_sat62 base cap n : 1 <= base -> cap < 2 ^ 62 -> 62 <= n -> expo base cap n = cap.
Proof.
  intros Hb Hc Hn. apply expo_clamp. assert (2 ^ 62 <= 2 ^ n) by (apply Z.pow_le_mono_r; lia). nia.
Qed.

Lemma expo_min62 base cap n : 1 <= base -> cap < 2 ^ 62 -> expo base cap n = expo base cap (Z.min n 62).
Proof.
  intros. destruct (Z.le_gt_cases n 62); [rewrite Z.min_l by lia; auto|].
  rewrite Z.min_r by lia. rewrite !expo_sat62; auto; lia.
Qed.

Lemma expo_mono base cap n n' : 0 <= base -> 0 <= n <= n' -> expo base cap n <= expo base cap n'.
Proof. intros. unfold expo. assert (2 ^ n <= 2 ^ n') by (apply Z.pow_le_mono_r; lia). nia. Qed.

(* the product the float code forms is an exactly representable double as long as it matters:
   mantissa [base] < 2^53, exponent <= 62; beyond that the result is the cap anyway (expo_min62) *)
Lemma expo_arg_exact base n : 0 <= base < 2 ^ 53 -> 0 <= n <= 62 ->
  exists m ex, base * 2 ^ n = m * 2 ^ ex /\ 0 <= m < 2 ^ 53 /\ 0 <= ex <= 62 /\ base * 2 ^ n < 2 ^ 115.
Proof.
  intros Hb Hn. exists base, n. repeat split; try lia.
  assert (2 ^ n <= 2 ^ 62) by (apply Z.pow_le_mono_r; lia). assert (0 < 2 ^ n) by (apply Z.pow_pos_nonneg; lia).
  change (2 ^ 115) with (2 ^ 53 * 2 ^ 62). nia.
Qed.

Definition fn_good (f : fnst) : Prop :=
  2 <= f_base f /\ 2 <= f_cap f /\ 1 <= f_jit f <= 4 /\ 0 <= f_att f /\
  (f_jit f = 4 -> f_base f <= f_cap f /\ f_base f <= f_last f).

(* [lf] = names that take their base from vars.BackoffLockFast *)
Definition cfg_okb (lf : list Z) (c : cfg) : bool :=
  (0 <? c_base c) && (2 <=? c_cap c) && (1 <=? c_jit c) && (c_jit c <=? 4) &&
  (if c_jit c =? 4 then (Z.max 2 (c_base c) <=? c_cap c) && negb (existsb (Z.eqb (c_name c)) lf) else true).

Lemma cfg_okb_spec lf c : cfg_okb lf c = true ->
  0 < c_base c /\ 2 <= c_cap c /\ 1 <= c_jit c <= 4 /\
  (c_jit c = 4 -> Z.max 2 (c_base c) <= c_cap c /\ existsb (Z.eqb (c_name c)) lf = false).
Proof.
  unfold cfg_okb. intros H.
  apply andb_true_iff in H as [H E5]. apply andb_true_iff in H as [H E4]. apply andb_true_iff in H as [H E3].
  apply andb_true_iff in H as [E1 E2]. apply Z.ltb_lt in E1. apply Z.leb_le in E2, E3, E4.
  split; [lia|]. split; [lia|]. split; [lia|]. intros J. apply Z.eqb_eq in J. rewrite J in E5.
  apply andb_true_iff in E5 as [A B]. apply Z.leb_le in A. apply negb_true_iff in B. split; [lia|exact B].
Qed.

Lemma new_fn_good lf c base : cfg_okb lf c = true ->
  (existsb (Z.eqb (c_name c)) lf = false -> base = c_base c) -> fn_good (new_fn base (c_cap c) (c_jit c)).
Proof.
  intros H Hb. destruct (cfg_okb_spec lf c H) as (B1 & B2 & B3 & B4).
  unfold fn_good, new_fn; simpl. destruct (Z.ltb_spec base 2); repeat split; try lia; destruct (B4 H1) as [X Y]; try lia.
  rewrite (Hb Y). lia.
Qed.

Lemma expo_ge2 f : fn_good f -> 2 <= expo (f_base f) (f_cap f) (f_att f).
Proof. intros (A & B & _ & D & _). unfold expo. assert (1 <= 2 ^ f_att f) by (pose proof (Z.pow_pos_nonneg 2 (f_att f)); lia). nia. Qed.

Lemma quot2_ge1 v : 2 <= v -> 1 <= Z.quot v 2.
Proof. intros. rewrite Z.quot_div_nonneg by lia. apply Z.div_le_lower_bound; lia. Qed.

Lemma draw_nonempty f : fn_good f -> exists s, sleep_ok f s = true.
Proof.
  intros G. pose proof (expo_ge2 f G) as V. pose proof (quot2_ge1 _ V). destruct G as (A & B & J & D & E).
  assert (K : f_jit f = 1 \/ f_jit f = 2 \/ f_jit f = 3 \/ f_jit f = 4) by lia.
  destruct K as [K|[K|[K|K]]].
  - exists (expo (f_base f) (f_cap f) (f_att f)). apply sleep_ok_spec. left. auto.
  - exists 0. apply sleep_ok_spec. right; left. lia.
  - exists (Z.quot (expo (f_base f) (f_cap f) (f_att f)) 2). apply sleep_ok_spec. right; right; left. lia.
  - exists (f_base f). apply sleep_ok_spec. right; right; right; left. specialize (E K). lia.
Qed.

Lemma sleep_pos f s : fn_good f -> f_jit f <> 2 -> sleep_ok f s = true -> 1 <= s.
Proof.
  intros G N Hs. apply sleep_ok_spec in Hs. pose proof (expo_ge2 f G) as V. pose proof (quot2_ge1 _ V).
  destruct G as (A & B & J & D & E). lia.
Qed.

Lemma fn_next_good f s : fn_good f -> sleep_ok f s = true -> fn_good (fn_next f s).
Proof.
  intros (A & B & J & D & E) Hs. apply sleep_ok_spec in Hs. unfold fn_good, fn_next; simpl.
  repeat split; try lia; destruct (E H); lia.
Qed.

Definition op_good (e : env) (o : op) : Prop :=
  match o with OBackoff _ c _ _ _ => cfg_okb (e_lfnames e) c = true | _ => True end.
Definition fns_good (b : bo) : Prop := Forall (fun nf => fn_good (snd nf)) (b_fn b).

Lemma pick_fn_good e w b c f : fns_good b -> cfg_okb (e_lfnames e) c = true -> pick_fn e w b c = Some f -> fn_good f.
Proof.
  intros G Hc. apply pick_fn_Forall; auto. intros base Hb. eapply new_fn_good; eauto.
  unfold fn_base in Hb. intros Lf. rewrite Lf in Hb. congruence.
Qed.

Lemma reach_good e ops : Forall (op_good e) ops -> all_bos fns_good (run e init_world ops).
Proof.
  intros W. apply (reach_all fns_good (op_good e)); auto.
  intros w o j x WF A F. destruct F; try constructor; try exact (A _ _ H).
  - subst o. simpl in WF. apply Forall_aset; [exact (A _ _ H0)|]. simpl. apply fn_next_good; auto.
    exact (pick_fn_good e w _ c f (A _ _ H0) WF H1).
  - exact (A _ _ H0).
Qed.

(* with well-formed kinds: whenever the code reaches the jitter draw an admissible sleep exists (rand.Intn never
   gets a non-positive argument), and every admissible sleep of a non-Full-jitter kind is at least 1 ms *)
Lemma kinds_live e w b c f : fns_good b -> cfg_okb (e_lfnames e) c = true -> pick_fn e w b c = Some f ->
  fn_good f /\ (exists s, sleep_ok f s = true) /\ (f_jit f <> 2 -> forall s, sleep_ok f s = true -> 1 <= s).
Proof.
  intros Gb Hc Hf. pose proof (pick_fn_good _ _ _ _ _ Gb Hc Hf) as G.
  split; auto. split; [apply draw_nonempty; auto|]. intros. eapply sleep_pos; eauto.
Qed.

(* a table of kinds that passes the boolean check satisfies the hypotheses of the budget theorems with
   C = the largest cap of the table *)
Definition table_cap (t : list cfg) : Z := fold_right (fun c m => Z.max (c_cap c) m) 0 t.

Lemma table_cap_ge t c : In c t -> c_cap c <= table_cap t.
Proof. unfold table_cap. induction t; cbn [fold_right In]; [tauto|]. intros [->|I]; [lia|]. specialize (IHt I). lia. Qed.

Lemma table_applies lf t : forallb (cfg_okb lf) t = true ->
  0 <= table_cap t /\
  forall c, In c t -> cfg_okb lf c = true /\ 0 < c_base c /\ 2 <= c_cap c <= table_cap t /\
    (forall i m er s, op_wf (table_cap t) (OBackoff i c m er s)).
Proof.
  intros H. split. { clear H. unfold table_cap. induction t; cbn [fold_right]; lia. }
  intros c I. rewrite forallb_forall in H. pose proof (H c I) as K. pose proof (table_cap_ge t c I).
  destruct (cfg_okb_spec lf c K) as (B1 & B2 & B3 & B4). repeat split; auto; simpl; lia.
Qed.
