(* Backoff/ProofsTree.v — merge accounting for fork / clone trees: UpdateUsingForked walks up forked.parent until it
   meets the receiver; the receiver then holds its accounting at the first fork plus the sleeps made along the path (each
   node's sleeps up to the moment the next node was forked / cloned from it).  One invariant ([tip_inv]: a live node below
   the caller that carries the caller's accounting plus a log) is kept by frame ops and by forking or cloning the node;
   the consumers' pattern (a fork and clones of it) and the descent of any depth are two ways of walking with it. *)
From Coq Require Import ZArith List Bool Lia.
From Verif Require Import Backoff.Model Backoff.ProofsBase Backoff.ProofsStep Backoff.ProofsInv Backoff.ProofsAcct Backoff.ProofsWorker.
Import ListNotations.
Open Scope Z_scope.

(* ops that never write the caller's back-offer [i]: back-offs elsewhere, forks and clones of anything *)
Definition frame_op (i : nat) (o : op) : Prop :=
  match o with OBackoff j _ _ _ _ => j <> i | OFork _ => True | OClone _ => True | _ => False end.

(* [i] is [d] steps up the parent chain that starts at [p] *)
Inductive reaches (bs : list bo) (i : nat) : nat -> option nat -> Prop :=
| R_here : reaches bs i 0 (Some i)
| R_up d q bq : nth_error bs q = Some bq -> reaches bs i d (b_parent bq) -> reaches bs i (S d) (Some q).

Definition ext (bs bs' : list bo) : Prop :=
  forall q x, nth_error bs q = Some x -> exists x', nth_error bs' q = Some x' /\ b_parent x' = b_parent x.

Lemma reaches_ext bs bs' i d p : ext bs bs' -> reaches bs i d p -> reaches bs' i d p.
Proof.
  intros E. induction 1; [constructor|]. destruct (E _ _ H) as (x' & N & P). econstructor; eauto. rewrite P. auto.
Qed.

Lemma reaches_on_chain bs i d p : reaches bs i d p -> forall fuel, (d < fuel)%nat -> on_chain fuel bs p i = true.
Proof.
  induction 1; intros [|fuel] L; try lia; simpl.
  - rewrite Nat.eqb_refl. auto.
  - destruct (Nat.eqb q i); auto. rewrite H. apply IHreaches. lia.
Qed.

Lemma run_ext e ops : forall w, ext (w_bos w) (w_bos (run e w ops)).
Proof.
  induction ops as [|o r IH]; intros w q x H; simpl; [eauto|].
  destruct (step_kept e w o _ _ H) as (x1 & H1 & P1 & _). destruct (IH _ _ _ H1) as (x2 & H2 & P2).
  exists x2. split; auto. congruence.
Qed.

Definition same_plus (e : env) (f f' : bo) (lg : list (Z * Z)) : Prop :=
  acct_plus e f f' lg /\ b_parent f' = b_parent f /\ b_live f' = b_live f.

Lemma same_plus_nil e f : same_plus e f f [].
Proof. split; auto. apply acct_plus_nil. auto. Qed.

Lemma same_plus_trans e f f' f'' a b : same_plus e f f' a -> same_plus e f' f'' b -> same_plus e f f'' (a ++ b).
Proof. intros (A & A1 & A2) (B & B1 & B2). split; [eapply acct_plus_trans; eauto|split; congruence]. Qed.

Lemma frame_step e i k o w f : frame_op i o -> nth_error (w_bos w) k = Some f ->
  exists f1, nth_error (w_bos (fst (step e w o))) k = Some f1 /\
    same_plus e f f1 (for_idx k (log_entry_i o (snd (step e w o)))) /\
    (forall x, nth_error (w_bos w) i = Some x -> nth_error (w_bos (fst (step e w o))) i = Some x).
Proof.
  intros Ho Hf.
  (* nothing is logged and slots [k] and [i] are as before: failed back-offs, back-offs elsewhere, forks, clones *)
  assert (Same : forall w', nth_error (w_bos w') k = Some f ->
            (forall x, nth_error (w_bos w) i = Some x -> nth_error (w_bos w') i = Some x) ->
            exists f1, nth_error (w_bos w') k = Some f1 /\ same_plus e f f1 [] /\
                       (forall x, nth_error (w_bos w) i = Some x -> nth_error (w_bos w') i = Some x)).
  { intros w' K Y. exists f. split; auto. split; auto. apply same_plus_nil. }
  assert (App : forall o', (w_bos (fst (step e w o')) = w_bos w \/ exists x, w_bos (fst (step e w o')) = w_bos w ++ [x]) ->
            forall q x, nth_error (w_bos w) q = Some x -> nth_error (w_bos (fst (step e w o'))) q = Some x).
  { intros o' [->|[y ->]] q x Hq; auto. apply nth_app_l. auto. }
  destruct o; simpl in Ho; try tauto.
  - destruct (step e w (OBackoff i0 c maxms errid sleep)) as [w1 r1] eqn:E. cbn [fst snd]. simpl in E.
    apply do_backoff_cases in E as [[-> R]|(b & fs & Hn & Lv & _ & _ & _ & _ & _ & -> & ->)].
    + replace (log_entry_i _ r1) with (@nil (nat * (Z * Z))) by (destruct R as [->|[->|(b0 & _ & _ & ->)]]; reflexivity).
      apply Same; auto.
    + replace (log_entry_i _ (kill_res w b (cut sleep maxms))) with [(i0, (c_name c, cut sleep maxms))]
        by (unfold kill_res; destruct (_ =? 0); reflexivity).
      assert (Y : forall x, nth_error (w_bos w) i = Some x ->
                  nth_error (w_bos (set_bo w i0 (slept_bo e b c fs sleep maxms errid))) i = Some x).
      { intros x Hx. simpl. rewrite nth_upd_other by auto. auto. }
      unfold for_idx. cbn [filter fst]. destruct (Nat.eqb_spec i0 k) as [->|N]; cbn [map snd].
      * assert (b = f) by congruence. subst b. exists (slept_bo e f c fs sleep maxms errid).
        split; [simpl; apply nth_upd_same; eapply nth_lt; eauto|]. split; [split; [apply acct_plus_slept|auto]|auto].
      * apply Same; auto. simpl. rewrite nth_upd_other by auto. auto.
  - apply Same; apply (App (OClone i0)); auto; simpl; dm; simpl; eauto.
  - apply Same; apply (App (OFork i0)); auto; simpl; dm; simpl; eauto.
Qed.

Lemma frame_acct e i k ops : Forall (frame_op i) ops -> forall w f,
  nth_error (w_bos w) k = Some f ->
  exists f', nth_error (w_bos (run e w ops)) k = Some f' /\
    same_plus e f f' (for_idx k (snd (run_logi e w ops))) /\
    (forall x, nth_error (w_bos w) i = Some x -> nth_error (w_bos (run e w ops)) i = Some x).
Proof.
  induction 1 as [|o r Ho _ IH]; intros w f Hf.
  - exists f. split; auto. split; auto. apply same_plus_nil.
  - destruct (frame_step e i k o w f Ho Hf) as (f1 & N1 & S1 & Y1). destruct (IH _ _ N1) as (f' & N & S2 & Y2).
    exists f'. cbn [run_logi snd]. rewrite for_idx_app. split; [exact N|]. split; [eapply same_plus_trans; eauto|].
    intros x Hx. apply Y2, Y1, Hx.
Qed.

(* a descent: at every level some frame ops run, then the tip is forked (true) or cloned (false); the new node is the
   next tip.  The path log collects, per level, the sleeps of the tip of that level. *)
Definition level := (list op * bool)%type.
Fixpoint descend (e : env) (w : world) (tip : nat) (lv : list level) : world * nat * list (Z * Z) :=
  match lv with
  | [] => (w, tip, [])
  | (ops, fk) :: rest =>
    let wl := run_logi e w ops in
    let w2 := fst (step e (fst wl) (if fk then OFork tip else OClone tip)) in
    let r := descend e w2 (length (w_bos (fst wl))) rest in
    (fst (fst r), snd (fst r), for_idx tip (snd wl) ++ snd r)
  end.

Definition tip_inv (e : env) (i : nat) (b : bo) (w : world) (tip : nat) (acc : list (Z * Z)) : Prop :=
  nth_error (w_bos w) i = Some b /\ (i < tip)%nat /\
  exists ft d, nth_error (w_bos w) tip = Some ft /\ b_live ft = true /\
    reaches (w_bos w) i d (b_parent ft) /\ (d < tip)%nat /\ acct_plus e b ft acc.

Lemma tip_frame e i b w tip acc ops : tip_inv e i b w tip acc -> Forall (frame_op i) ops ->
  tip_inv e i b (run e w ops) tip (acc ++ for_idx tip (snd (run_logi e w ops))).
Proof.
  intros (Hi & Lt & ft & d & Ht & Lv & R & Ld & A) F.
  destruct (frame_acct e i tip ops F w ft Ht) as (f' & N & (S1 & S2 & S3) & Y).
  split; auto. split; auto. exists f', d. split; auto. split; [congruence|].
  split; [rewrite S2; eapply reaches_ext; [apply run_ext|]; auto|]. split; auto. eapply acct_plus_trans; eauto.
Qed.

Lemma tip_next e i b w tip acc (fk : bool) : tip_inv e i b w tip acc ->
  tip_inv e i b (fst (step e w (if fk then OFork tip else OClone tip))) (length (w_bos w)) acc.
Proof.
  intros (Hi & Lt & ft & d & Ht & Lv & R & Ld & A). pose proof (nth_lt _ _ _ Ht) as Ltip.
  pose proof (fun o => run_ext e [o] w) as X. cbn [run fold_left] in X.
  destruct (copy_start e w tip ft fk Ht Lv) as (w' & nb & E & Hnb & Len & Cn & _ & _ & Pa & _ & Lnb & _ & Rest).
  specialize (X (if fk then OFork tip else OClone tip)). rewrite E in *. cbn [fst] in *.
  assert (Keep : forall k x, nth_error (w_bos w) k = Some x -> nth_error (w_bos w') k = Some x) by (destruct fk; apply Rest).
  split; auto. split; [lia|]. exists nb, (if fk then S d else d). split; auto. split; auto.
  split; [|split; [destruct fk; lia|eapply acct_plus_counters; eauto]].
  (* a fork hangs below the tip, one step further from [i]; a clone hangs where the tip hangs *)
  rewrite Pa. destruct fk; [econstructor; [apply Keep; eauto|]|]; eapply reaches_ext; eauto.
Qed.

Lemma tip_fork e w i b : nth_error (w_bos w) i = Some b -> b_live b = true ->
  tip_inv e i b (fst (step e w (OFork i))) (length (w_bos w)) [].
Proof.
  intros Hi Li. destruct (copy_start e w i b true Hi Li) as (w' & nb & E & Hnb & Len & Cn & _ & _ & Pa & _ & Lnb & _ & _ & Keep).
  rewrite E. cbn [fst]. pose proof (nth_lt _ _ _ Hi). split; auto. split; auto. exists nb, O.
  split; auto. split; auto. split; [rewrite Pa; constructor|]. split; [lia|]. apply acct_plus_nil; auto.
Qed.

(* the depth of the tip is below its index, hence below the fuel of the walk up *)
Lemma tip_merge e i b w t lg : b_live b = true -> tip_inv e i b w t lg ->
  exists b', nth_error (w_bos (fst (step e w (OMerge i t)))) i = Some b' /\ acct_plus e b b' lg /\
             b_max b' = b_max b /\ b_fn b' = b_fn b.
Proof.
  intros Li (Hi & Lt & ft & d & Ht & Lv & R & Ld & A). pose proof (nth_lt _ _ _ Ht).
  apply (merge_plus e w i t b ft); auto; try lia. apply (reaches_on_chain _ _ _ _ R). lia.
Qed.

Lemma tip_clones e i b j : forall n w, (j < length (w_bos w))%nat ->
  (forall k, (j <= k < length (w_bos w))%nat -> tip_inv e i b w k []) ->
  let w' := run e w (repeat (OClone j) n) in
  length (w_bos w') = (length (w_bos w) + n)%nat /\ (forall k, (j <= k < length (w_bos w'))%nat -> tip_inv e i b w' k []).
Proof.
  induction n; intros w Lj All.
  - simpl. rewrite Nat.add_0_r. auto.
  - change (run e w (repeat (OClone j) (S n))) with (run e (fst (step e w (OClone j))) (repeat (OClone j) n)).
    assert (L1 : length (w_bos (fst (step e w (OClone j)))) = S (length (w_bos w))).
    { destruct (All j ltac:(lia)) as (_ & _ & ft & d & Ht & Lv & _).
      destruct (copy_start e w j ft false Ht Lv) as (w' & nb & E & _ & L & _). rewrite E. exact L. }
    destruct (IHn (fst (step e w (OClone j)))) as [A B]; [lia| |split; [lia|exact B]].
    intros k Hk. destruct (Nat.eq_dec k (length (w_bos w))) as [->|Nk].
    + apply (tip_next e i b w j [] false). apply All. lia.
    + apply (tip_frame e i b w k [] [OClone j]); [apply All; lia|repeat constructor].
Qed.

(* whichever worker k (the fork or one of its clones) finished last and is merged, the caller ends with exactly its own
   accounting at the fork plus the sleeps logged for worker k — no other worker's sleep is counted, none of k's is lost *)
Lemma worker_pattern e w i b n wops k :
  nth_error (w_bos w) i = Some b -> b_live b = true ->
  let j := length (w_bos w) in
  Forall (worker_op i) wops -> (j <= k <= j + n)%nat ->
  let w1 := fst (step e w (OFork i)) in
  let w2 := run e w1 (repeat (OClone j) n) in
  let wl := run_logi e w2 wops in
  exists b4, nth_error (w_bos (fst (step e (fst wl) (OMerge i k)))) i = Some b4 /\
    acct_plus e b b4 (for_idx k (snd wl)) /\ b_max b4 = b_max b.
Proof.
  intros Hi Li j F Hk w1 w2 wl.
  assert (L1 : length (w_bos w1) = S j).
  { destruct (copy_start e w i b true Hi Li) as (w1' & nb & E & _ & Len & _). unfold w1. rewrite E. exact Len. }
  destruct (tip_clones e i b j n w1) as [Len2 All2]; [lia| |].
  { intros q Hq. assert (q = j) by lia. subst q. apply tip_fork; auto. }
  fold w2 in Len2, All2.
  assert (Fr : Forall (frame_op i) wops).
  { eapply Forall_impl; [|exact F]. intros o (q & c & m & er & s & -> & N). exact N. }
  pose proof (tip_frame e i b w2 k [] wops (All2 k ltac:(lia)) Fr) as T.
  unfold wl. rewrite run_logi_fst.
  destruct (tip_merge e i b _ k _ Li T) as (b4 & H4 & A & M & _). exists b4. auto.
Qed.

(* fork, sleep only in the fork, merge back: the pattern with no clone *)
Lemma fork_merge_sum e w i b bops :
  nth_error (w_bos w) i = Some b -> b_live b = true ->
  let j := length (w_bos w) in
  Forall (is_backoff_on j) bops ->
  let wl := run_log e (fst (step e w (OFork i))) bops in
  exists b3, nth_error (w_bos (fst (step e (fst wl) (OMerge i j)))) i = Some b3 /\
    acct_plus e b b3 (snd wl) /\ b_max b3 = b_max b.
Proof.
  intros Hi Li j F wl. pose proof (nth_lt _ _ _ Hi) as Lt. fold j in Lt.
  assert (Fw : Forall (worker_op i) bops).
  { eapply Forall_impl; [|exact F]. intros o (c & m & er & s & ->). exists j, c, m, er, s. split; auto. lia. }
  unfold wl. rewrite (run_log_logi e j bops F). cbn [fst snd].
  exact (worker_pattern e w i b 0 bops j Hi Li Fw ltac:(fold j; lia)).
Qed.

Lemma descend_inv e i b : forall lv w tip acc, tip_inv e i b w tip acc ->
  Forall (fun l : level => Forall (frame_op i) (fst l)) lv ->
  tip_inv e i b (fst (fst (descend e w tip lv))) (snd (fst (descend e w tip lv))) (acc ++ snd (descend e w tip lv)).
Proof.
  induction lv as [|[ops fk] rest IH]; intros w tip acc Inv F.
  - simpl. rewrite app_nil_r. auto.
  - inversion F; subst. cbn [descend fst snd]. rewrite app_assoc, run_logi_fst. apply IH; auto.
    apply tip_next. apply tip_frame; auto.
Qed.

(* any depth, forks and clones mixed, arbitrary other activity in the tree; the nodes of the descent are born in order,
   so the walk up from the last tip needs no assumption on the heap the caller starts from *)
Lemma merge_sum_path e w i b lv fin :
  nth_error (w_bos w) i = Some b -> b_live b = true ->
  Forall (fun l : level => Forall (frame_op i) (fst l)) lv -> Forall (frame_op i) fin ->
  let r := descend e (fst (step e w (OFork i))) (length (w_bos w)) lv in
  let t := snd (fst r) in
  let wl := run_logi e (fst (fst r)) fin in
  exists b5, nth_error (w_bos (fst (step e (fst wl) (OMerge i t)))) i = Some b5 /\
    acct_plus e b b5 (snd r ++ for_idx t (snd wl)) /\ b_max b5 = b_max b /\ b_fn b5 = b_fn b.
Proof.
  intros Hi Li F Ff r t wl.
  pose proof (descend_inv e i b lv _ _ [] (tip_fork e w i b Hi Li) F) as I1. fold r in I1. simpl app in I1. fold t in I1.
  pose proof (tip_frame e i b _ _ _ fin I1 Ff) as T.
  unfold wl. rewrite run_logi_fst. exact (tip_merge e i b _ t _ Li T).
Qed.
