(* Backoff/ProofsDomain.v — the domain guards of the model made explicit: where the model answers RBad the code
   panics (checked by the driver's class "domain"); no-op back-offers *)
From Coq Require Import ZArith List Bool Lia.
From Verif Require Import Backoff.Model Backoff.ProofsBase Backoff.ProofsStep Backoff.ProofsInv Backoff.ProofsAcct.
Import ListNotations.
Open Scope Z_scope.

(* withVars: "maxSleep is the max sleep time in millisecond. When it is multiplied by BackOffWeight, it should not be
   greater than MaxInt32": `b.maxSleep > 0 && math.MaxInt32/b.vars.BackOffWeight >= b.maxSleep` divides by zero for
   BackOffWeight = 0 *)
Lemma domain_weight0 : forall e w v x,
  nth_error (w_vars w) v = Some x -> v_weight x = 0 ->
  (forall m, 0 < m -> step e w (ONew m v 0) = (w, RBad)) /\
  (forall i b m, nth_error (w_bos w) i = Some b -> b_live b = true -> 0 < m -> b_vars b = Some v ->
                 step e w (OResetMax i m) = (w, RBad)).
Proof.
  intros e w v x X W. split.
  - intros m P. apply Z.ltb_lt in P. simpl. rewrite X, W, P. reflexivity.
  - intros i b m H L P V. apply Z.ltb_lt in P. simpl. rewrite H, L. simpl. rewrite P, V, X, W. reflexivity.
Qed.

(* NewNoopBackoff "create a Backoffer do nothing just return error directly": vars is nil; Fork/Clone copy vars but not
   the noop flag.  ResetMaxSleep(>0) reads b.vars.BackOffWeight, createBackoffFn reads vars.BackoffLockFast for txnLockFast *)
Lemma domain_noop : forall e w i b,
  nth_error (w_bos w) i = Some b -> b_live b = true ->
  (b_noop b = true -> cancelled w (b_ctx b) = false ->
     forall c maxms errid s, step e w (OBackoff i c maxms errid s) = (w, RErrOrig)) /\
  (b_noop b = true -> b_vars b = None ->
     (exists nb, nth_error (w_bos (fst (step e w (OFork i)))) (length (w_bos w)) = Some nb /\ b_noop nb = false /\ b_vars nb = None /\ b_max nb = b_max b) /\
     (exists nb, nth_error (w_bos (fst (step e w (OClone i)))) (length (w_bos w)) = Some nb /\ b_noop nb = false /\ b_vars nb = None /\ b_max nb = b_max b)) /\
  (b_vars b = None -> forall m, 0 < m -> step e w (OResetMax i m) = (w, RBad)) /\
  (b_vars b = None -> cancelled w (b_ctx b) = false -> b_noop b = false ->
     forall c maxms errid s, (0 <? b_max b) && exceeded e b (c_name c) = false ->
       existsb (Z.eqb (c_name c)) (e_lfnames e) = true -> aget (c_name c) (b_fn b) = None ->
       step e w (OBackoff i c maxms errid s) = (w, RBad)).
Proof.
  intros e w i b H L. split; [|split; [|split]].
  - intros N C c maxms errid s. simpl. unfold do_backoff. rewrite H, L, C, N. reflexivity.
  - intros N V. split.
    + destruct (copy_start e w i b true H L) as (w' & nb & E & Hnb & _ & _ & Mx & Vr & _ & _ & _ & No & _).
      rewrite E. exists nb. repeat split; auto. congruence.
    + destruct (copy_start e w i b false H L) as (w' & nb & E & Hnb & _ & _ & Mx & Vr & _ & _ & _ & No & _).
      rewrite E. exists nb. repeat split; auto. congruence.
  - intros V m P. apply Z.ltb_lt in P. simpl. rewrite H, L. simpl. rewrite P, V. reflexivity.
  - intros V C N c maxms errid s X F A. simpl. unfold do_backoff. rewrite H, L, C, N, X. simpl.
    unfold pick_fn, fn_base. rewrite A, F, V. reflexivity.
Qed.
