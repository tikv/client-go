(* Backoff/ProofsFloat.v — the Go expression  int(math.Min(float64(cap), float64(base)*math.Pow(2.0, float64(n))))
   written out with IEEE-754 binary64 rounding, and the range in which it equals the model's integer [expo].
   All quantities are non-negative integers here, so a double is represented by the integer it denotes (None = +Inf). *)
From Coq Require Import ZArith List Bool Lia.
From Verif Require Import Backoff.Model.
Open Scope Z_scope.

(* round to nearest, ties to even, 53 significant bits (no subnormals / underflow for integers >= 0) *)
Definition f64_round (x : Z) : Z :=
  if x <? 2 ^ 53 then x
  else
    let e := Z.log2 x - 52 in
    let q := x / 2 ^ e in
    let r := x mod 2 ^ e in
    let half := 2 ^ (e - 1) in
    let q' := if r <? half then q else if half <? r then q + 1 else if Z.even q then q else q + 1 in
    q' * 2 ^ e.

Definition f64_fin (x : Z) : option Z := if x <? 2 ^ 1024 then Some x else None.   (* overflow to +Inf *)

(* math.Pow(2.0, float64(n)) for an integer n >= 0: the exact power of two, +Inf from 2^1024 on *)
Definition f64_pow2 (n : Z) : option Z := if n <? 1024 then Some (2 ^ n) else None.

(* the Go expression; base >= 1, so base * +Inf = +Inf; the conversion int(m) is exact for m < 2^63 *)
Definition go_expo (base cap n : Z) : Z :=
  let fb := f64_round base in
  let fc := f64_round cap in
  let prod := match f64_pow2 n with
              | Some p => f64_fin (f64_round (fb * p))        (* one correctly rounded multiplication *)
              | None => None
              end in
  match prod with Some x => Z.min fc x | None => fc end.

Lemma f64_round_small x : x < 2 ^ 53 -> f64_round x = x.
Proof. intros H. unfold f64_round. apply Z.ltb_lt in H. rewrite H. reflexivity. Qed.

(* a 53-bit mantissa times a power of two is a double: rounding leaves it alone *)
Lemma f64_round_exact m k : 0 <= m < 2 ^ 53 -> 0 <= k -> f64_round (m * 2 ^ k) = m * 2 ^ k.
Proof.
  intros Hm Hk. unfold f64_round. destruct (m * 2 ^ k <? 2 ^ 53) eqn:E; auto. apply Z.ltb_ge in E.
  assert (P2 : 0 < 2 ^ k) by (apply Z.pow_pos_nonneg; lia).
  assert (Mp : 0 < m). { destruct (Z.eq_dec m 0); [subst; simpl in E; lia|lia]. }
  assert (L : Z.log2 (m * 2 ^ k) = k + Z.log2 m) by (apply Z.log2_mul_pow2; lia).
  assert (Lm : Z.log2 m < 53) by (apply Z.log2_lt_pow2; lia).
  assert (Lx : 53 <= Z.log2 (m * 2 ^ k)) by (apply Z.log2_le_pow2; lia).
  set (e := Z.log2 (m * 2 ^ k) - 52). assert (He : 1 <= e <= k) by (unfold e; lia).
  assert (Sp : 2 ^ k = 2 ^ (k - e) * 2 ^ e) by (rewrite <- Z.pow_add_r by lia; f_equal; lia).
  assert (Pe : 0 < 2 ^ e) by (apply Z.pow_pos_nonneg; lia).
  assert (X : m * 2 ^ k = (m * 2 ^ (k - e)) * 2 ^ e) by (rewrite Sp; ring).
  assert (Hmod : (m * 2 ^ k) mod 2 ^ e = 0) by (rewrite X; apply Z.mod_mul; lia).
  assert (Hdiv : (m * 2 ^ k) / 2 ^ e = m * 2 ^ (k - e)) by (rewrite X; apply Z.div_mul; lia).
  cbv zeta. rewrite Hmod, Hdiv.
  assert (Hh : 0 < 2 ^ (e - 1)) by (apply Z.pow_pos_nonneg; lia).
  assert (Hl : (0 <? 2 ^ (e - 1)) = true) by (apply Z.ltb_lt; lia). rewrite Hl. lia.
Qed.

(* THE statement: for base and cap below 2^53 (every shipped kind: cap <= 10 000) and every attempt count n >= 0 —
   including the range where base*2^n exceeds 2^53 (still a double), 2^1024 (the product overflows to +Inf) and
   n >= 1024 (math.Pow itself returns +Inf) — the float expression equals the model's integer expo *)
Lemma go_expo_exact base cap n : 1 <= base < 2 ^ 53 -> 0 <= cap < 2 ^ 53 -> 0 <= n ->
  go_expo base cap n = expo base cap n.
Proof.
  intros Hb Hc Hn. unfold go_expo, expo, f64_pow2, f64_fin.
  rewrite (f64_round_small base), (f64_round_small cap) by lia.
  assert (Inf : 2 ^ 53 < 2 ^ 1024) by (apply Z.pow_lt_mono_r; lia).
  assert (Pow : 1024 <= n -> 2 ^ 1024 <= 2 ^ n) by (intros; apply Z.pow_le_mono_r; lia).
  (* only these two facts about 2^1024 are used: lia must not meet the 1024-bit numeral *)
  remember (2 ^ 1024) as inf eqn:E. clear E.
  destruct (n <? 1024) eqn:En.
  - rewrite f64_round_exact by lia. destruct (base * 2 ^ n <? inf) eqn:Ef; auto.
    apply Z.ltb_ge in Ef. lia.
  - apply Z.ltb_ge in En. nia.
Qed.

(* outside that range the expression is NOT the integer minimum: float64(2^53+1) = 2^53 *)
Lemma go_expo_inexact_beyond : go_expo 2 (2 ^ 53 + 1) 60 <> expo 2 (2 ^ 53 + 1) 60.
Proof. vm_compute. discriminate. Qed.
