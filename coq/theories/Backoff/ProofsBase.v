(* Backoff/ProofsBase.v — list / assoc lemmas, range of an admissible sleep, per-back-offer invariants *)
From Coq Require Import ZArith List Bool Lia.
From Verif Require Import Backoff.Model.
Import ListNotations.
Open Scope Z_scope.

Lemma length_upd {A} i (x : A) l : length (upd i x l) = length l.
Proof. revert i; induction l; destruct i; simpl; auto. Qed.

Lemma nth_upd_same {A} i (x : A) l : (i < length l)%nat -> nth_error (upd i x l) i = Some x.
Proof. revert i; induction l; destruct i; simpl; intros; try lia; auto. apply IHl; lia. Qed.

Lemma nth_upd_other {A} i j (x : A) l : i <> j -> nth_error (upd i x l) j = nth_error l j.
Proof. revert i j; induction l; destruct i, j; simpl; intros; try congruence; auto. Qed.

Lemma nth_upd {A} i j (x y : A) l : nth_error (upd i x l) j = Some y ->
  (i = j /\ y = x) \/ (i <> j /\ nth_error l j = Some y).
Proof.
  intros H. destruct (Nat.eq_dec i j) as [->|N].
  - left. split; auto. assert (j < length l)%nat.
    { rewrite <- (length_upd j x l). apply nth_error_Some. congruence. }
    rewrite nth_upd_same in H by auto. congruence.
  - right. rewrite nth_upd_other in H by auto. auto.
Qed.

Lemma Forall_upd {A} (P : A -> Prop) i x l : Forall P l -> P x -> Forall P (upd i x l).
Proof. intros H Hx; revert i; induction H; destruct i; simpl; auto. Qed.

Lemma Forall_nth {A} (P : A -> Prop) l i x : Forall P l -> nth_error l i = Some x -> P x.
Proof. intros H E. rewrite Forall_forall in H. apply H. eapply nth_error_In; eauto. Qed.

Lemma nth_lt {A} (l : list A) i x : nth_error l i = Some x -> (i < length l)%nat.
Proof. intros. apply nth_error_Some. congruence. Qed.

Lemma nth_app_l {A} (l r : list A) i x : nth_error l i = Some x -> nth_error (l ++ r) i = Some x.
Proof. intros H. rewrite nth_error_app1; auto. eapply nth_lt; eauto. Qed.

Lemma nth_app_new {A} (l : list A) x : nth_error (l ++ [x]) (length l) = Some x.
Proof. rewrite nth_error_app2 by lia. rewrite Nat.sub_diag. reflexivity. Qed.

Lemma nth_app_inv {A} (l : list A) x j y : nth_error (l ++ [x]) j = Some y ->
  (j < length l /\ nth_error l j = Some y)%nat \/ (j = length l /\ y = x).
Proof.
  intros H. destruct (Nat.lt_ge_cases j (length l)).
  - left. rewrite nth_error_app1 in H by auto. auto.
  - right. assert (j < length (l ++ [x]))%nat by (apply nth_error_Some; congruence).
    rewrite app_length in H1; simpl in H1. assert (j = length l) by lia. subst.
    rewrite nth_app_new in H. split; congruence.
Qed.

Lemma aget_aset_same {A} k (v : A) l : aget k (aset k v l) = Some v.
Proof. induction l as [|[k' v'] r]; simpl; [rewrite Z.eqb_refl; auto|].
  destruct (k =? k') eqn:E; simpl; rewrite ?Z.eqb_refl, ?E; auto. Qed.

Lemma aget_aset_other {A} k k' (v : A) l : k <> k' -> aget k' (aset k v l) = aget k' l.
Proof. intros N. induction l as [|[k2 v2] r]; simpl.
  - destruct (k' =? k) eqn:E; auto. apply Z.eqb_eq in E. congruence.
  - destruct (k =? k2) eqn:E; simpl.
    + apply Z.eqb_eq in E; subst. destruct (k' =? k2) eqn:E2; auto. apply Z.eqb_eq in E2. congruence.
    + rewrite IHr. auto.
Qed.

Lemma in_aset {A} k (v : A) l n x : In (n, x) (aset k v l) -> (n = k /\ x = v) \/ In (n, x) l.
Proof. induction l as [|[k2 v2] r]; simpl.
  - intros [E|[]]. inversion E; auto.
  - destruct (k =? k2) eqn:E; simpl; intros [H|H]; auto.
    + inversion H; auto.
    + destruct (IHr H); auto.
Qed.

Lemma zget_zadd_same k d l : zget k (zadd k d l) = zget k l + d.
Proof. unfold zadd, zget at 1. rewrite aget_aset_same. reflexivity. Qed.
Lemma zget_zadd_other k k' d l : k <> k' -> zget k' (zadd k d l) = zget k' l.
Proof. intros. unfold zadd, zget. rewrite aget_aset_other; auto. Qed.

Definition fn_wf (C : Z) (f : fnst) : Prop := 0 <= f_cap f <= C /\ 2 <= f_base f.

Lemma new_fn_wf C base cap jit : 0 <= cap <= C -> fn_wf C (new_fn base cap jit).
Proof. unfold fn_wf, new_fn; simpl. destruct (base <? 2) eqn:E; [|apply Z.ltb_ge in E]; lia. Qed.

Lemma expo_range base cap n : 0 <= cap -> 2 <= base -> 0 <= expo base cap n <= cap.
Proof. intros. unfold expo. assert (0 <= 2 ^ n) by (apply Z.pow_nonneg; lia). nia. Qed.

Lemma quot2 v : 0 <= v -> 0 <= Z.quot v 2 /\ Z.quot v 2 + Z.quot v 2 <= v.
Proof. intros. rewrite Z.quot_div_nonneg by lia. pose proof (Z.div_mod v 2). pose proof (Z.mod_pos_bound v 2). lia. Qed.

(* the exclusive bound of the Decorr draw base + Intn(last*3 - base) is last*3 *)
Lemma sleep_ok_spec f s : let v := expo (f_base f) (f_cap f) (f_att f) in
  sleep_ok f s = true <->
  (f_jit f = 1 /\ s = v) \/ (f_jit f = 2 /\ 0 <= s < v) \/
  (f_jit f = 3 /\ Z.quot v 2 <= s < Z.quot v 2 + Z.quot v 2) \/
  (f_jit f = 4 /\ (f_base f <= s < f_last f * 3 /\ s <= f_cap f \/
                   s = f_cap f /\ f_cap f < f_last f * 3 /\ f_base f < f_last f * 3)) \/
  (~ 1 <= f_jit f <= 4 /\ s = 0).
Proof.
  (* jitter by jitter, the two directions apart and the disjunct named: lia has no case analysis of its own to do *)
  intros v. unfold sleep_ok. fold v.
  destruct (Z.eqb_spec (f_jit f) 1) as [J|J1].
  { rewrite J, Z.eqb_eq. split; intros H; [left|]; lia. }
  destruct (Z.eqb_spec (f_jit f) 2) as [J|J2].
  { rewrite J, andb_true_iff, Z.leb_le, Z.ltb_lt. split; intros H; [right; left|]; lia. }
  destruct (Z.eqb_spec (f_jit f) 3) as [J|J3].
  { rewrite J, andb_true_iff, Z.leb_le, Z.ltb_lt. split; intros H; [right; right; left|]; lia. }
  destruct (Z.eqb_spec (f_jit f) 4) as [J|J4].
  { rewrite J, orb_true_iff, !andb_true_iff, !Z.leb_le, !Z.ltb_lt, Z.eqb_eq. split; intros H; [right; right; right; left|]; lia. }
  rewrite Z.eqb_eq. split; intros H; [do 4 right|]; lia.
Qed.

Lemma sleep_ok_range C f s : fn_wf C f -> sleep_ok f s = true ->
  0 <= s <= f_cap f /\ (1 <= f_jit f <= 3 -> s <= expo (f_base f) (f_cap f) (f_att f)).
Proof.
  intros [Hc Hb] H. apply sleep_ok_spec in H.
  pose proof (expo_range (f_base f) (f_cap f) (f_att f) ltac:(lia) Hb) as Hv. pose proof (quot2 _ (proj1 Hv)). lia.
Qed.

Lemma cut_range s m : 0 <= s -> 0 <= cut s m <= s /\ (0 <= m -> cut s m <= m).
Proof. intros. unfold cut. destruct (Z.leb_spec 0 m), (Z.ltb_spec m s); simpl; lia. Qed.

Lemma aget_Forall {A} (P : Z * A -> Prop) k l v : Forall P l -> aget k l = Some v -> P (k, v).
Proof. induction 1 as [|[k' v'] r]; simpl; [discriminate|].
  destruct (k =? k') eqn:E; auto. apply Z.eqb_eq in E; subst. intros X; inversion X; subst; auto. Qed.

Lemma Forall_aset {A} (P : Z * A -> Prop) k v l : Forall P l -> P (k, v) -> Forall P (aset k v l).
Proof. induction 1 as [|[k' v'] r]; simpl; auto. destruct (k =? k'); auto. Qed.

Lemma pick_fn_Forall (P : fnst -> Prop) e w b c f : Forall (fun nf => P (snd nf)) (b_fn b) ->
  (forall base, fn_base e w b c = Some base -> P (new_fn base (c_cap c) (c_jit c))) ->
  pick_fn e w b c = Some f -> P f.
Proof.
  intros Hf Hn. unfold pick_fn. destruct (aget (c_name c) (b_fn b)) as [f0|] eqn:E.
  - intros [= <-]. exact (aget_Forall _ _ _ _ Hf E).
  - destruct (fn_base e w b c); [|discriminate]. intros [= <-]. auto.
Qed.

Definition env_bound (e : env) (L : Z) : Prop := forall n lim, excl_limit e n = Some lim -> lim <= L.

(* what lets longestSleepCfg find a config for the name it picked (longest_thm, ProofsAcct); UpdateUsingForked keeps it
   because it takes the fork's configs together with the fork's sleep map *)
Definition keys_inv (b : bo) : Prop :=
  forall n v, In (n, v) (b_sleep b) -> exists c, In c (b_cfgs b) /\ c_name c = n.
