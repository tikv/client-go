(* Backoff/Props.v — property C20: the theorems, nothing else.
   Each is closed by [exact] of a lemma, or of a lemma about any world with an invariant applied to the fact that
   reachable worlds have it, and followed by Print Assumptions.  [run e init_world ops] is the
   world reached by an ARBITRARY op sequence (new vars / new / backoff with any observed sleep / clone / fork /
   update-using-forked / reset / reset-max-sleep / set-ctx / keep-going / cancel / kill / set-errors), see Model.v. *)
From Coq Require Import ZArith List Bool.
From Verif Require Import Backoff.Model Backoff.ProofsBase Backoff.ProofsStep Backoff.ProofsInv Backoff.ProofsAcct Backoff.ProofsExt Backoff.ProofsCtx Backoff.ProofsWorker Backoff.ProofsTree Backoff.ProofsDomain Backoff.ProofsCount Backoff.ProofsFloat Backoff.Examples.
Import ListNotations.
Open Scope Z_scope.

(* Budget: C bounds the caps of all kinds used, L the limits of the excluded kinds.  On every back-offer
   with a positive budget the non-excluded sleep stays below budget + one step, the excluded sleep below
   max(limit, budget) + one step.  ResetMaxSleep and UpdateUsingForked may not both occur (a fork whose
   budget was changed imports its sleeps into a parent with another budget, see [budget_hypothesis_needed]). *)
Theorem C20_budget : forall C L e ops i b,
  0 <= C -> env_bound e L -> Forall (op_wf C) ops ->
  Forall not_merge ops \/ Forall not_resetmax ops ->
  nth_error (w_bos (run e init_world ops)) i = Some b -> 0 < b_max b ->
  b_total b - b_excl b < b_max b + C /\ b_excl b < Z.max L (b_max b) + C /\ 0 <= b_excl b <= b_total b.
Proof. exact (fun C L e ops i b HC HL W N Hn P => proj2 (gen_inv_bounds C L b (b_max b) (reach_gen C L e ops HC HL W i b Hn) (own_budget e ops i b N Hn P))). Qed.
Print Assumptions C20_budget.

(* Each sleep: admissible for the closure state of its kind, cut by the per-call maximum, within the cap,
   within the exponential envelope base*2^attempts, and only taken while the budget is not exhausted. *)
Theorem C20_step_bounds : forall C L e ops i c maxms errid s w' r real,
  0 <= C -> env_bound e L -> Forall (op_wf C) ops -> Forall not_merge ops \/ Forall not_resetmax ops -> 0 <= c_cap c <= C ->
  step e (run e init_world ops) (OBackoff i c maxms errid s) = (w', r) ->
  (r = ROk real \/ exists sig, r = RKilled real sig) ->
  exists b f, nth_error (w_bos (run e init_world ops)) i = Some b /\ pick_fn e (run e init_world ops) b c = Some f /\
    sleep_ok f s = true /\ real = cut s maxms /\
    0 <= real <= s /\ s <= f_cap f /\ f_cap f <= C /\ (0 <= maxms -> real <= maxms) /\
    (1 <= f_jit f <= 3 -> s <= expo (f_base f) (f_cap f) (f_att f)) /\
    (0 < b_max b -> b_total b - b_excl b < b_max b).
Proof. exact (fun C L e ops i c maxms errid s w' r real HC HL W _ => step_bounds C L e _ (reach_gen C L e ops HC HL W) i c maxms errid s w' r real). Qed.
Print Assumptions C20_step_bounds.

(* Budget exhausted: nothing changes, and every error the code may return is the error of the first
   recorded config of a non-excluded kind with the largest accumulated sleep (any op sequence, merges included). *)
Theorem C20_longest : forall e ops i c maxms errid s w' cands,
  step e (run e init_world ops) (OBackoff i c maxms errid s) = (w', RExceeded cands) ->
  w' = run e init_world ops /\
  exists b, nth_error (w_bos (run e init_world ops)) i = Some b /\ 0 < b_max b /\ exceeded e b (c_name c) = true /\
    cands <> [] /\
    (0 < longest_val e (b_sleep b) ->
       forall r, In r cands -> exists n cf, r = Some (cur_err (run e init_world ops) cf) /\ first_cfg n (b_cfgs b) = Some cf /\ c_name cf = n /\ is_longest e b n) /\
    (longest_val e (b_sleep b) <= 0 -> cands = [cand_err (run e init_world ops) b 0]).
Proof. exact (fun e ops => longest_thm e (run e init_world ops) (reach_keys e ops)). Qed.
Print Assumptions C20_longest.

(* Cancellation: a back-off on a back-offer whose context (or an ancestor context) is cancelled returns the
   caller's error and changes nothing; cancellation is permanent over all later ops; OCancel cancels. *)
Theorem C20_cancel_kill_cancelled : forall e w i c maxms errid s b,
  nth_error (w_bos w) i = Some b -> b_live b = true -> cancelled w (b_ctx b) = true ->
  step e w (OBackoff i c maxms errid s) = (w, RErrOrig).
Proof. exact cancelled_backoff. Qed.
Print Assumptions C20_cancel_kill_cancelled.

Theorem C20_cancel_kill_permanent : forall e ops w c, cancelled w c = true -> cancelled (run e w ops) c = true.
Proof. exact cancelled_run. Qed.
Print Assumptions C20_cancel_kill_permanent.

Theorem C20_cancel_kill_frozen : forall e w ops, Forall (backoff_on_cancelled w) ops -> run e w ops = w.
Proof. exact cancelled_backoffs. Qed.
Print Assumptions C20_cancel_kill_frozen.

(* Kill: the code checks the flag AFTER the sleep of the current call, and only if the back-offer was not marked
   KeepGoingWhenKilled (release requests: commit, rollback, clean-up).  Flag off: the caller never gets nil, and at most
   that one admissible sleep is accounted.  Flag on: the kill flag never ends a back-off (it keeps backing off until the
   budget is exhausted or the context is cancelled). *)
Theorem C20_cancel_kill_killed : forall e w i c maxms errid s b w' r,
  nth_error (w_bos w) i = Some b ->
  step e w (OBackoff i c maxms errid s) = (w', r) ->
  (b_keep b = false -> killed_sig w b <> 0 ->
     (forall real, r <> ROk real) /\
     (w' = w \/ exists f, r = RKilled (cut s maxms) (killed_sig w b) /\ sleep_ok f s = true /\
                          w' = set_bo w i (slept_bo e b c f s maxms errid))) /\
  (b_keep b = true -> forall real sg, r <> RKilled real sg).
Proof. exact killed_backoff. Qed.
Print Assumptions C20_cancel_kill_killed.

(* the keep-going flag: set by KeepGoingWhenKilled (nothing else changes), copied by Fork and Clone, left alone by
   UpdateUsingForked and by back-offs *)
Theorem C20_keepgoing_flag : forall e w i b, nth_error (w_bos w) i = Some b -> b_live b = true ->
  (exists b', nth_error (w_bos (fst (step e w (OKeepGoing i)))) i = Some b' /\ b_keep b' = true /\
              b_total b' = b_total b /\ b_max b' = b_max b /\ b_ctx b' = b_ctx b) /\
  (exists nb, nth_error (w_bos (fst (step e w (OFork i)))) (length (w_bos w)) = Some nb /\ b_keep nb = b_keep b) /\
  (exists nb, nth_error (w_bos (fst (step e w (OClone i)))) (length (w_bos w)) = Some nb /\ b_keep nb = b_keep b) /\
  (forall j f, nth_error (w_bos w) j = Some f -> i <> j ->
     exists b', nth_error (w_bos (fst (step e w (OMerge i j)))) i = Some b' /\ b_keep b' = b_keep b) /\
  (forall c maxms errid s b', nth_error (w_bos (fst (step e w (OBackoff i c maxms errid s)))) i = Some b' -> b_keep b' = b_keep b).
Proof. exact keep_flag. Qed.
Print Assumptions C20_keepgoing_flag.

Theorem C20_fork_clone_start : forall e w i b, nth_error (w_bos w) i = Some b -> b_live b = true ->
  (exists w' nb, step e w (OFork i) = (w', RNone) /\
    nth_error (w_bos w') (length (w_bos w)) = Some nb /\ length (w_bos w') = S (length (w_bos w)) /\
    counters nb = counters b /\ b_max nb = b_max b /\ b_vars nb = b_vars b /\ b_parent nb = Some i /\ b_fn nb = [] /\
    b_live nb = true /\ b_noop nb = false /\
    nth_error (w_ctxs w') (b_ctx nb) = Some (Some (b_ctx b), false) /\
    (forall k x, nth_error (w_bos w) k = Some x -> nth_error (w_bos w') k = Some x)) /\
  (exists w' nb, step e w (OClone i) = (w', RNone) /\
    nth_error (w_bos w') (length (w_bos w)) = Some nb /\ length (w_bos w') = S (length (w_bos w)) /\
    counters nb = counters b /\ b_max nb = b_max b /\ b_vars nb = b_vars b /\ b_parent nb = b_parent b /\ b_fn nb = [] /\
    b_live nb = true /\ b_noop nb = false /\ b_ctx nb = b_ctx b /\ w_ctxs w' = w_ctxs w /\
    (forall k x, nth_error (w_bos w) k = Some x -> nth_error (w_bos w') k = Some x)).
Proof. exact (fun e w i b H L => conj (copy_start e w i b true H L) (copy_start e w i b false H L)). Qed.
Print Assumptions C20_fork_clone_start.

(* UpdateUsingForked in any reachable world, along a parent chain of any length: the ancestor's counters
   (total, excluded, errors, configs, per-kind sleep and times) become exactly the fork's, its budget, closures,
   parent and context stay, nobody else changes; off the chain nothing happens. *)
Theorem C20_merge_exact : forall e ops i j b f,
  let w := run e init_world ops in
  nth_error (w_bos w) i = Some b -> nth_error (w_bos w) j = Some f -> b_live b = true -> b_live f = true ->
  if on_chain (length (w_bos w)) (w_bos w) (b_parent f) i
  then exists w' b', step e w (OMerge i j) = (w', RNone) /\ nth_error (w_bos w') i = Some b' /\
         counters b' = counters f /\ b_max b' = b_max b /\ b_fn b' = b_fn b /\ b_parent b' = b_parent b /\ b_ctx b' = b_ctx b /\
         nth_error (w_bos w') j = Some (kill_bo f) /\
         (forall k, k <> i -> k <> j -> nth_error (w_bos w') k = nth_error (w_bos w) k)
  else step e w (OMerge i j) = (w, RNone).
Proof. exact (fun e ops i j b f => let w := run e init_world ops in fun Hi Hj => merge_exact_gen e w i j b f (chain_younger e ops i j f Hj) Hi Hj). Qed.
Print Assumptions C20_merge_exact.

(* fork, any number of back-offs in the fork, merge: the parent ends with exactly its counters at the fork
   plus the logged sleeps of the fork — nothing lost, nothing counted twice. *)
Theorem C20_merge_sum : forall e w i b bops,
  nth_error (w_bos w) i = Some b -> b_live b = true ->
  let j := length (w_bos w) in
  Forall (is_backoff_on j) bops ->
  let w1 := fst (step e w (OFork i)) in
  let w2 := fst (run_log e w1 bops) in
  let lg := snd (run_log e w1 bops) in
  let w3 := fst (step e w2 (OMerge i j)) in
  exists b3, nth_error (w_bos w3) i = Some b3 /\
    b_total b3 = b_total b + sum_all lg /\
    b_excl b3 = b_excl b + sum_if (is_excl e) lg /\
    (forall n, zget n (b_sleep b3) = zget n (b_sleep b) + sum_if (Z.eqb n) lg /\
               zget n (b_times b3) = zget n (b_times b) + cnt_if (Z.eqb n) lg) /\
    b_max b3 = b_max b.
Proof. exact (fun e w i b bops Hi Li F => acct_plus_out (fork_merge_sum e w i b bops Hi Li F)). Qed.
Print Assumptions C20_merge_sum.

(* Budget for ALL op sequences (ResetMaxSleep and merges freely mixed).  [b_hi] is a ghost field of the model:
   the largest budget under which the back-offer's current total was accumulated (own budget after New / Reset /
   ResetMaxSleep; copied by Fork / Clone; max(own budget, fork's ghost) after UpdateUsingForked; None as soon as
   an unlimited budget (<= 0) took part). *)
Theorem C20_budget_general : forall C L e ops i b h,
  0 <= C -> env_bound e L -> Forall (op_wf C) ops ->
  nth_error (w_bos (run e init_world ops)) i = Some b -> b_hi b = Some h ->
  b_max b <= h /\ b_total b - b_excl b < h + C /\ b_excl b < Z.max L h + C /\ 0 <= b_excl b <= b_total b.
Proof. exact (fun C L e ops i b h HC HL W Hn => gen_inv_bounds C L b h (reach_gen C L e ops HC HL W i b Hn)). Qed.
Print Assumptions C20_budget_general.

(* the ghost is the back-offer's own budget whenever ResetMaxSleep and merges are not mixed (=> C20_budget) *)
Theorem C20_budget_ghost_own : forall e ops, Forall not_merge ops \/ Forall not_resetmax ops ->
  Forall (fun b => b_hi b = budget_hi (b_max b)) (w_bos (run e init_world ops)).
Proof. exact (fun e ops N => all_bos_Forall _ _ (reach_hi_own e ops N)). Qed.
Print Assumptions C20_budget_ghost_own.

(* ghost-free corollary: if every back-offer's budget stays within (0, B] during the whole run (any mixture of
   ResetMaxSleep, forks and merges), every back-offer stays below B + one step *)
Theorem C20_budget_bounded : forall C L B e ops i b,
  0 <= C -> env_bound e L -> Forall (op_wf C) ops -> always (budgets_in B) e init_world ops ->
  nth_error (w_bos (run e init_world ops)) i = Some b ->
  b_total b - b_excl b < B + C /\ b_excl b < Z.max L B + C /\ 0 <= b_excl b <= b_total b.
Proof. exact budget_bounded. Qed.
Print Assumptions C20_budget_bounded.

(* Integer ranges: after n ops every int the code keeps is within [0, n*C] (times, errorsNum, attempts within
   [0, n]; lastSleep within [0, max(cap, base)]) — the model's unbounded Z never leaves the int64 range. *)
Theorem C20_no_overflow : forall C e ops i b, 0 <= C -> Forall (op_wf C) ops ->
  nth_error (w_bos (run e init_world ops)) i = Some b -> size_inv C (Z.of_nat (length ops)) b.
Proof. exact (fun C e ops i b HC W => run_size C e HC ops init_world 0 (Z.le_refl 0) W (all_bos_init _) i b). Qed.
Print Assumptions C20_no_overflow.

Theorem C20_no_overflow_62 : forall C e ops i b, 0 <= C <= 2 ^ 31 -> Z.of_nat (length ops) <= 2 ^ 20 -> Forall (op_wf C) ops ->
  nth_error (w_bos (run e init_world ops)) i = Some b ->
  b_total b < 2 ^ 62 /\ b_excl b < 2 ^ 62 /\ b_errnum b < 2 ^ 62 /\
  (forall n v, In (n, v) (b_sleep b) -> 0 <= v < 2 ^ 62) /\ (forall n v, In (n, v) (b_times b) -> 0 <= v < 2 ^ 62) /\
  (forall n f, In (n, f) (b_fn b) -> 0 <= f_att f < 2 ^ 62 /\ (f_base f < 2 ^ 60 -> 0 <= f_last f * 3 - f_base f + f_base f < 2 ^ 62)).
Proof. exact (fun C e ops i b HC HN W Hn => size_62 C _ b HC (conj (Nat2Z.is_nonneg _) HN) (C20_no_overflow C e ops i b (proj1 HC) W Hn)). Qed.
Print Assumptions C20_no_overflow_62.

(* expo: the value only depends on min(attempts, 62), and from 62 attempts on it is the cap (for a cap below 2^62);
   what the float expression of the code computes is the matter of C20_expo_float_exact *)
Theorem C20_expo_saturates : forall base cap n, 1 <= base -> cap < 2 ^ 62 -> 0 <= n ->
  expo base cap n = expo base cap (Z.min n 62) /\ (62 <= n -> expo base cap n = cap).
Proof. exact (fun base cap n Hb Hc _ => conj (expo_min62 base cap n Hb Hc) (expo_sat62 base cap n Hb Hc)). Qed.
Print Assumptions C20_expo_saturates.

(* the Go expression int(math.Min(float64(cap), float64(base)*math.Pow(2.0, float64(n)))) written out with IEEE-754
   binary64 rounding ([go_expo], ProofsFloat.v: round-to-nearest-even to 53 bits, +Inf from 2^1024, Pow = +Inf from
   n = 1024) equals the model's integer expo for 1 <= base < 2^53, 0 <= cap < 2^53 and EVERY n >= 0 (large n included:
   the product stays a double while finite, overflows to +Inf, the minimum is then the cap).  Outside that range it
   is not exact (go_expo_inexact_beyond: float64(2^53+1) = 2^53).  [go_expo] is tied to the code by the differential. *)
Theorem C20_expo_float_exact : forall base cap n, 1 <= base < 2 ^ 53 -> 0 <= cap < 2 ^ 53 -> 0 <= n ->
  go_expo base cap n = expo base cap n.
Proof. exact go_expo_exact. Qed.
Print Assumptions C20_expo_float_exact.

(* kinds that pass [cfg_okb] (0 < base, 2 <= cap, jitter 1..4, Decorr: max(2,base) <= cap and base not from vars):
   the jitter draw is never from an empty interval (rand.Intn never panics) and, except for FullJitter, every
   sleep is at least 1 ms — a retry loop cannot spin without backing off *)
Theorem C20_kinds_live : forall e ops i c b, Forall (op_good e) ops -> cfg_okb (e_lfnames e) c = true ->
  nth_error (w_bos (run e init_world ops)) i = Some b ->
  forall f, pick_fn e (run e init_world ops) b c = Some f ->
    fn_good f /\ (exists s, sleep_ok f s = true) /\ (f_jit f <> 2 -> forall s, sleep_ok f s = true -> 1 <= s).
Proof. exact (fun e ops i c b W Hc Hn f => kinds_live e _ b c f (reach_good e ops W i b Hn) Hc). Qed.
Print Assumptions C20_kinds_live.

(* instantiated on every run with the table read from config/retry/config.go (build/coq_cases/C20Table.v) *)
Theorem C20_table_applies : forall lf t, forallb (cfg_okb lf) t = true ->
  0 <= table_cap t /\
  forall c, In c t -> cfg_okb lf c = true /\ 0 < c_base c /\ 2 <= c_cap c <= table_cap t /\
    (forall i m er s, op_wf (table_cap t) (OBackoff i c m er s)).
Proof. exact table_applies. Qed.
Print Assumptions C20_table_applies.

(* Fork's context: inherits the parent's cancellation, its cancel function touches no older context (in particular
   not the parent's), the parent's cancel function cancels the fork *)
Theorem C20_cancel_scope : forall e ops i b,
  let w := run e init_world ops in
  nth_error (w_bos w) i = Some b -> b_live b = true ->
  let w1 := fst (step e w (OFork i)) in
  let cj := length (w_ctxs w) in
  (exists nb, nth_error (w_bos w1) (length (w_bos w)) = Some nb /\ b_ctx nb = cj) /\
  cancelled w1 cj = cancelled w (b_ctx b) /\
  (forall c', (c' < cj)%nat -> cancelled (fst (step e w1 (OCancel cj))) c' = cancelled w1 c') /\
  cancelled (fst (step e w1 (OCancel cj))) cj = true /\
  cancelled (fst (step e w1 (OCancel (b_ctx b)))) cj = true.
Proof. exact (fun e ops => cancel_scope e (run e init_world ops) (reach_ctx_wf e ops)). Qed.
Print Assumptions C20_cancel_scope.

(* The consumers' pattern (txnsnapshot.batchGetKeysByRegions, txnlock.checkAllSecondaries): fork the caller's back-offer,
   clone the FORK once per further worker, let the workers back off (any interleaving, never on the caller's
   back-offer), merge the worker k that finished last.  Whichever k in [fork .. last clone] that is, the caller ends with
   exactly its accounting at the fork plus the sleeps logged for k.  (Cloning the CALLER instead makes the merge a no-op:
   Example ex_clone_of_parent_not_merged.) *)
Theorem C20_worker_pattern : forall e w i b n wops k,
  nth_error (w_bos w) i = Some b -> b_live b = true ->
  let j := length (w_bos w) in
  Forall (worker_op i) wops -> (j <= k <= j + n)%nat ->
  let w1 := fst (step e w (OFork i)) in
  let w2 := run e w1 (repeat (OClone j) n) in
  let w3 := fst (run_logi e w2 wops) in
  let lg := for_idx k (snd (run_logi e w2 wops)) in
  let w4 := fst (step e w3 (OMerge i k)) in
  exists b4, nth_error (w_bos w4) i = Some b4 /\
    b_total b4 = b_total b + sum_all lg /\
    b_excl b4 = b_excl b + sum_if (is_excl e) lg /\
    (forall nm, zget nm (b_sleep b4) = zget nm (b_sleep b) + sum_if (Z.eqb nm) lg /\
                zget nm (b_times b4) = zget nm (b_times b) + cnt_if (Z.eqb nm) lg) /\
    b_max b4 = b_max b.
Proof. exact (fun e w i b n wops k Hi Li F Hk => acct_plus_out (worker_pattern e w i b n wops k Hi Li F Hk)). Qed.
Print Assumptions C20_worker_pattern.

(* Merge accounting for trees of ANY depth (generalises C20_merge_sum / C20_worker_pattern): fork i, then a descent of
   levels — at each level arbitrary frame ops (back-offs anywhere but on i, forks and clones of anything) and then the
   tip is forked (true) or cloned (false), the new node is the next tip — then more frame ops, then
   bos[i].UpdateUsingForked(last tip).  The walk up forked.parent finds i, and i ends with its accounting at the first
   fork plus, per level, the sleeps the tip of that level made before the next node was taken from it, plus the last
   tip's sleeps: nothing else in the tree is counted, nothing on the path is lost.  [tree_ord] (parents are older) holds
   in every reachable world (reach_tree_ord). *)
Theorem C20_merge_sum_tree : forall e w i b lv fin,
  tree_ord (w_bos w) -> nth_error (w_bos w) i = Some b -> b_live b = true ->
  Forall (fun l : level => Forall (frame_op i) (fst l)) lv -> Forall (frame_op i) fin ->
  let r := descend e (fst (step e w (OFork i))) (length (w_bos w)) lv in
  let t := snd (fst r) in
  let wl := run_logi e (fst (fst r)) fin in
  let lg := snd r ++ for_idx t (snd wl) in
  let w5 := fst (step e (fst wl) (OMerge i t)) in
  exists b5, nth_error (w_bos w5) i = Some b5 /\
    b_total b5 = b_total b + sum_all lg /\
    b_excl b5 = b_excl b + sum_if (is_excl e) lg /\
    (forall n, zget n (b_sleep b5) = zget n (b_sleep b) + sum_if (Z.eqb n) lg /\
               zget n (b_times b5) = zget n (b_times b) + cnt_if (Z.eqb n) lg) /\
    b_max b5 = b_max b /\ b_fn b5 = b_fn b.
Proof. exact (fun e w i b lv fin _ Hi Li F Ff => acct_plus_out (merge_sum_path e w i b lv fin Hi Li F Ff)). Qed.
Print Assumptions C20_merge_sum_tree.

(* Domain guards: where the model answers RBad, the code panics (driver class "domain"). *)
(* withVars: `b.maxSleep > 0 && math.MaxInt32/b.vars.BackOffWeight >= b.maxSleep` — integer divide by zero for
   BackOffWeight = 0 (NewBackofferWithVars and ResetMaxSleep with a positive budget; with a budget <= 0 the code
   short-circuits, does not divide, and the model proceeds as well). *)
Theorem C20_domain_weight0 : forall e w v x,
  nth_error (w_vars w) v = Some x -> v_weight x = 0 ->
  (forall m, 0 < m -> step e w (ONew m v 0) = (w, RBad)) /\
  (forall i b m, nth_error (w_bos w) i = Some b -> b_live b = true -> 0 < m -> b_vars b = Some v ->
                 step e w (OResetMax i m) = (w, RBad)).
Proof. exact domain_weight0. Qed.
Print Assumptions C20_domain_weight0.

(* NewNoopBackoff ("create a Backoffer do nothing just return error directly") has vars = nil and noop = true.
   It returns the caller's error and changes nothing; Fork / Clone copy vars (nil) but NOT the noop flag, so the copy
   is an ordinary unlimited back-offer that really sleeps; on a back-offer with nil vars ResetMaxSleep(>0) and the
   first back-off of a txnLockFast-named kind are outside the model's domain (the code dereferences nil vars). *)
Theorem C20_domain_noop : forall e w i b,
  nth_error (w_bos w) i = Some b -> b_live b = true ->
  (b_noop b = true -> cancelled w (b_ctx b) = false ->
     forall c maxms errid s, step e w (OBackoff i c maxms errid s) = (w, RErrOrig)) /\
  (b_noop b = true -> b_vars b = None ->
     (exists nb, nth_error (w_bos (fst (step e w (OFork i)))) (length (w_bos w)) = Some nb /\ b_noop nb = false /\ b_vars nb = None /\ b_max nb = b_max b) /\
     (exists nb, nth_error (w_bos (fst (step e w (OClone i)))) (length (w_bos w)) = Some nb /\ b_noop nb = false /\ b_vars nb = None /\ b_max nb = b_max b)) /\
  (b_vars b = None -> forall m, 0 < m -> step e w (OResetMax i m) = (w, RBad)) /\
  (b_vars b = None -> cancelled w (b_ctx b) = false -> b_noop b = false ->
     forall c maxms errid s, (0 <? b_max b) && exceeded e b (c_name c) = false ->
       existsb (Z.eqb (c_name c)) (e_lfnames e) = true -> aget (c_name c) (b_fn b) = None ->
       step e w (OBackoff i c maxms errid s) = (w, RBad)).
Proof. exact domain_noop. Qed.
Print Assumptions C20_domain_noop.

(* oracle C20_accounting: a back-off either changes nothing (error results) or accounts exactly one sleep on exactly one
   back-offer: total / excluded / the kind's sleep and times / errorsNum / configs; nothing else in the world moves *)
Theorem C20_step_exact : forall e w i c maxms errid s w' r,
  step e w (OBackoff i c maxms errid s) = (w', r) ->
  (w' = w /\ (forall real, r <> ROk real) /\ (forall real sg, r <> RKilled real sg)) \/
  (exists b b' real, nth_error (w_bos w) i = Some b /\ nth_error (w_bos w') i = Some b' /\
     (r = ROk real \/ exists sg, r = RKilled real sg) /\ real = cut s maxms /\
     b_total b' = b_total b + real /\
     b_excl b' = b_excl b + (if is_excl e (c_name c) then real else 0) /\
     zget (c_name c) (b_sleep b') = zget (c_name c) (b_sleep b) + real /\
     zget (c_name c) (b_times b') = zget (c_name c) (b_times b) + 1 /\
     (forall n, n <> c_name c -> zget n (b_sleep b') = zget n (b_sleep b) /\ zget n (b_times b') = zget n (b_times b)) /\
     b_errnum b' = b_errnum b + 1 /\ b_cfgs b' = b_cfgs b ++ [c] /\
     b_max b' = b_max b /\ b_parent b' = b_parent b /\ b_ctx b' = b_ctx b /\ b_vars b' = b_vars b /\
     (forall k, k <> i -> nth_error (w_bos w') k = nth_error (w_bos w) k) /\
     w_ctxs w' = w_ctxs w /\ w_vars w' = w_vars w /\ w_cerr w' = w_cerr w).
Proof. exact step_exact. Qed.
Print Assumptions C20_step_exact.

(* oracle C20_getters: on every back-offer of every reachable world GetTotalBackoffTimes (sum of backoffTimes) =
   ErrorsNum = number of recorded configs (what String() and GetTypes list); the errors ring has its 3 slots *)
Theorem C20_counters_agree : forall e ops i b, nth_error (w_bos (run e init_world ops)) i = Some b ->
  sum_all (b_times b) = b_errnum b /\ b_errnum b = Z.of_nat (length (b_cfgs b)) /\ length (b_errs b) = 3%nat.
Proof. exact reach_count. Qed.
Print Assumptions C20_counters_agree.

(* latestErrors: after a back-off the ring reads as the last (at most 3) of "what it read before ++ the new error",
   oldest first; it holds min(3, errorsNum) entries *)
Theorem C20_errors_ring : forall e ops i b, nth_error (w_bos (run e init_world ops)) i = Some b ->
  forall c f s maxms errid,
    latest_errs (slept_bo e b c f s maxms errid) = last3 (latest_errs b ++ [errid]) /\
    Z.of_nat (length (latest_errs b)) = Z.min 3 (b_errnum b).
Proof. exact (fun e ops i b Hn => ring_push e b (reach_count e ops i b Hn)). Qed.
Print Assumptions C20_errors_ring.

(* KVSnapshot.recordBackoffInfo over the calls made on one snapshot: the statistics of kind n are the sum, over the
   calls whose back-offer slept at all (total <> 0), of that back-offer's backoffSleepMS[n] / backoffTimes[n] *)
Theorem C20_stats_accumulate : forall e ops (idx : list nat) (bs : list bo) n,
  Forall2 (fun i b => nth_error (w_bos (run e init_world ops)) i = Some b) idx bs ->
  zget n (fst (record_all bs)) = fold_right (fun b a => (if counted b then zget n (b_sleep b) else 0) + a) 0 bs /\
  zget n (snd (record_all bs)) = fold_right (fun b a => (if counted b then zget n (b_times b) else 0) + a) 0 bs.
Proof. exact (fun e ops idx bs n F => stats_accumulate n bs ([], []) (all_bos_Forall2 _ _ idx bs (reach_uniq e ops) F)). Qed.
Print Assumptions C20_stats_accumulate.

(* Non-vacuity: the hypotheses are met by concrete runs, and the model computes what the code was seen to do. *)
Example ex_longest_after_merge :
  snd (step ex_env (run ex_env init_world ex_ops) (OBackoff 0 regionMiss (-1) 4 2)) = RExceeded [Some 2].
Proof. vm_compute. reflexivity. Qed.
Example ex_budget_hyps : Forall (op_wf 10000) ex_ops /\ Forall not_resetmax ex_ops /\ env_bound ex_env 600000 /\
  exists b, nth_error (w_bos (run ex_env init_world ex_ops)) 0 = Some b /\ b_max b = 400 /\ b_total b = 525.
Proof.
  split; [repeat constructor; simpl; discriminate|]. split; [repeat constructor|]. split.
  - intros n lim. unfold excl_limit, ex_env; simpl. destruct (n =? 4); intros H; inversion H. apply Z.le_refl.
  - eexists. vm_compute. repeat split.
Qed.
(* excluded sleep does not eat the budget *)
Example ex_excluded : exists b, nth_error (w_bos (run ex_env init_world
    [ONewVars 1 10; ONew 400 1 0; OBackoff 0 busy (-1) 1 1500; OBackoff 0 regionMiss (-1) 2 2])) 0 = Some b /\
    b_total b = 1502 /\ b_excl b = 1500.
Proof. eexists. vm_compute. repeat split. Qed.
(* an inadmissible sleep is rejected by the model (jitter window of attempt 0 of txnLock is [50,100)) *)
Example ex_sleep_rejected : snd (step ex_env (run ex_env init_world [ONewVars 1 10; ONew 400 1 0]) (OBackoff 0 txnLock (-1) 1 100)) = RBad.
Proof. vm_compute. reflexivity. Qed.
(* cancel and kill *)
Example ex_cancel : snd (step ex_env (run ex_env init_world [ONewVars 1 10; ONew 400 1 0; OFork 0; OCancel 0]) (OBackoff 1 txnLock (-1) 1 75)) = RErrOrig.
Proof. vm_compute. reflexivity. Qed.
Example ex_kill : snd (step ex_env (run ex_env init_world [ONewVars 1 10; ONew 400 1 0; OKill 1 7]) (OBackoff 0 txnLock 20 1 75)) = RKilled 20 7.
Proof. vm_compute. reflexivity. Qed.
(* why C20_budget excludes ResetMaxSleep together with a merge: the fork's budget is raised, it sleeps 525 ms,
   the merge imports them into the parent whose budget is 100 *)
Example budget_hypothesis_needed : exists b, nth_error (w_bos (run ex_env init_world
    [ONewVars 1 10; ONew 100 1 0; OFork 0; OResetMax 1 5000;
     OBackoff 1 txnLock (-1) 1 75; OBackoff 1 txnLock (-1) 2 150; OBackoff 1 txnLock (-1) 3 300; OMerge 0 1])) 0 = Some b /\
    b_max b = 100 /\ b_total b = 525.
Proof. eexists. vm_compute. repeat split. Qed.
(* the same run under the general theorem: the ghost is the fork's raised budget, 525 < 5000 + C holds *)
Example ex_budget_general : exists b, nth_error (w_bos (run ex_env init_world
    [ONewVars 1 10; ONew 100 1 0; OFork 0; OResetMax 1 5000;
     OBackoff 1 txnLock (-1) 1 75; OBackoff 1 txnLock (-1) 2 150; OBackoff 1 txnLock (-1) 3 300; OMerge 0 1])) 0 = Some b /\
    b_hi b = Some 5000 /\ b_max b = 100.
Proof. eexists. vm_compute. repeat split. Qed.
(* SetErrors after the config was recorded: the exhausted back-off reports the config's CURRENT error (9) *)
Example ex_seterrors :
  snd (step ex_env (run ex_env init_world (ex_ops ++ [OSetErr 1 9])) (OBackoff 0 regionMiss (-1) 4 2)) = RExceeded [Some 9].
Proof. vm_compute. reflexivity. Qed.
Example ex_real_kinds_ok : forallb (cfg_okb [6]) [txnLock; regionMiss; busy] = true.
Proof. vm_compute. reflexivity. Qed.
(* worker pattern: fork 0 -> 1, clone of the FORK -> 2 sleeps 2 ms, merge 0 2: the caller gets the 2 ms *)
Example ex_clone_of_fork_merged : exists b, nth_error (w_bos (run ex_env init_world
    [ONewVars 1 10; ONew 400 1 0; OFork 0; OClone 1; OBackoff 2 regionMiss (-1) 1 2; OMerge 0 2])) 0 = Some b /\ b_total b = 2.
Proof. eexists. vm_compute. repeat split. Qed.
(* the same with a clone of the CALLER (parent chain of the clone does not contain the caller): the merge does nothing,
   the worker's 2 ms never reach the caller *)
Example ex_clone_of_parent_not_merged :
  let w := run ex_env init_world [ONewVars 1 10; ONew 400 1 0; OFork 0; OClone 0; OBackoff 2 regionMiss (-1) 1 2] in
  step ex_env w (OMerge 0 2) = (w, RNone) /\
  (exists b, nth_error (w_bos w) 0 = Some b /\ b_total b = 0) /\ (exists f, nth_error (w_bos w) 2 = Some f /\ b_total f = 2 /\ b_parent f = None).
Proof. vm_compute. repeat split; eexists; repeat split. Qed.
(* two-level fork (the shape of rawkv's batch requests and of seed C20-3): 0 -> fork 1 -> fork 2; 2 sleeps 75+150 after
   1 slept 2 before forking; 1 sleeps 2 more afterwards (not inherited); merging 2 into 0 gives 2+75+150 *)
Example ex_two_level_merge : exists b, nth_error (w_bos (run ex_env init_world
    [ONewVars 1 10; ONew 4000 1 0; OFork 0; OBackoff 1 regionMiss (-1) 1 2; OFork 1;
     OBackoff 2 txnLock (-1) 2 75; OBackoff 1 regionMiss (-1) 3 4; OBackoff 2 txnLock (-1) 4 150; OMerge 0 2])) 0 = Some b /\
    b_total b = 227 /\ zget 3 (b_sleep b) = 2 /\ zget 2 (b_sleep b) = 225 /\ zget 3 (b_times b) = 1.
Proof. eexists. vm_compute. repeat split. Qed.
Example ex_descend_shape : (* the same run, written as the descent of C20_merge_sum_tree *)
  let w := run ex_env init_world [ONewVars 1 10; ONew 4000 1 0] in
  let r := descend ex_env (fst (step ex_env w (OFork 0))) 1 [([OBackoff 1 regionMiss (-1) 1 2], true)] in
  snd (fst r) = 2%nat /\ snd r = [(3, 2)].
Proof. vm_compute. split; reflexivity. Qed.
Example ex_domain_weight0 : snd (step ex_env (run ex_env init_world [ONewVars 0 10]) (ONew 100 1 0)) = RBad.
Proof. vm_compute. reflexivity. Qed.
Example ex_domain_noop_fork_sleeps : exists b, nth_error (w_bos (run ex_env init_world
    [ONew 0 0 2; OFork 0; OBackoff 0 regionMiss (-1) 1 2; OBackoff 1 regionMiss (-1) 2 2])) 1 = Some b /\ b_total b = 2 /\ b_noop b = false.
Proof. eexists. vm_compute. repeat split. Qed.
(* ring: four errors 1..4 recorded, the ring reads 2,3,4 *)
Example ex_errors_ring : exists b, nth_error (w_bos (run ex_env init_world
    [ONewVars 1 10; ONew 0 1 0; OBackoff 0 regionMiss (-1) 1 2; OBackoff 0 regionMiss (-1) 2 4;
     OBackoff 0 regionMiss (-1) 3 8; OBackoff 0 regionMiss (-1) 4 16])) 0 = Some b /\
    latest_errs b = [2; 3; 4] /\ b_errnum b = 4 /\ sum_all (b_times b) = 4 /\ length (b_cfgs b) = 4%nat.
Proof. eexists. vm_compute. repeat split. Qed.
(* statistics over two calls: back-offers 0 (slept 2+4 of regionMiss) and 1 (slept 2 of regionMiss, 75 of txnLock);
   a third back-offer that only "slept" 0 ms (per-call maximum 0) is not recorded although its times counter is 1 *)
Example ex_stats : let w := run ex_env init_world
    [ONewVars 1 10; ONew 0 1 0; ONew 0 1 0; ONew 0 1 0;
     OBackoff 0 regionMiss (-1) 1 2; OBackoff 0 regionMiss (-1) 2 4;
     OBackoff 1 regionMiss (-1) 3 2; OBackoff 1 txnLock (-1) 4 75; OBackoff 2 regionMiss 0 5 2] in
  let st := record_all (w_bos w) in
  zget 3 (fst st) = 8 /\ zget 3 (snd st) = 3 /\ zget 2 (fst st) = 75 /\ zget 2 (snd st) = 1.
Proof. vm_compute. repeat split. Qed.
(* keep going when killed: the marked back-offer and its fork sleep on under a raised kill flag until the budget (400)
   is exhausted; then the budget error (txnLock's, id 2) is returned, never the kill error *)
Example ex_keepgoing :
  let w := run ex_env init_world [ONewVars 1 10; ONew 400 1 0; OKeepGoing 0; OKill 1 7; OFork 0;
                                  OBackoff 0 txnLock (-1) 1 75; OBackoff 1 txnLock (-1) 2 75; OBackoff 1 txnLock (-1) 3 150;
                                  OBackoff 1 txnLock (-1) 4 300] in
  snd (step ex_env (run ex_env init_world [ONewVars 1 10; ONew 400 1 0; OKeepGoing 0; OKill 1 7]) (OBackoff 0 txnLock (-1) 1 75)) = ROk 75 /\
  snd (step ex_env w (OBackoff 1 txnLock (-1) 5 600)) = RExceeded [Some 2] /\
  snd (step ex_env (run ex_env init_world [ONewVars 1 10; ONew 400 1 0; OKill 1 7]) (OBackoff 0 txnLock (-1) 1 75)) = RKilled 75 7.
Proof. vm_compute. repeat split. Qed.
Example ex_expo_float : go_expo 100 3000 3 = 800 /\ go_expo 100 3000 2000 = 3000 /\ go_expo (2 ^ 53 - 1) (2 ^ 53 - 1) 1023 = 2 ^ 53 - 1 /\
  go_expo 2 (2 ^ 53 + 1) 60 = 2 ^ 53.
Proof.
  split; [vm_compute; reflexivity|]. split; [vm_compute; reflexivity|]. split; [|vm_compute; reflexivity].
  (* the product has 1076 bits: rounding it by evaluation is slow to check, and go_expo_exact says it is exact *)
  rewrite go_expo_exact by (vm_compute; intuition discriminate). vm_compute. reflexivity.
Qed.
