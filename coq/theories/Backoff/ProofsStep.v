(* Backoff/ProofsStep.v — case analysis of one back-off, preservation of the per-back-offer invariants *)
From Coq Require Import ZArith List Bool Lia.
From Verif Require Import Backoff.Model Backoff.ProofsBase.
Import ListNotations.
Open Scope Z_scope.

Definition kill_res (w : world) (b : bo) (real : Z) : res :=
  if kill_eff w b =? 0 then ROk real else RKilled real (kill_eff w b).

Lemma do_backoff_cases e w i c maxms errid s w' r :
  do_backoff e w i c maxms errid s = (w', r) ->
  (w' = w /\ (r = RBad \/ r = RErrOrig \/
              exists b, nth_error (w_bos w) i = Some b /\ (0 <? b_max b) && exceeded e b (c_name c) = true
                        /\ r = RExceeded (longest_cands e w b))) \/
  (exists b f, nth_error (w_bos w) i = Some b /\ b_live b = true /\ cancelled w (b_ctx b) = false /\
               b_noop b = false /\ (0 <? b_max b) && exceeded e b (c_name c) = false /\
               pick_fn e w b c = Some f /\ sleep_ok f s = true /\
               w' = set_bo w i (slept_bo e b c f s maxms errid) /\ r = kill_res w b (cut s maxms)).
Proof.
  unfold do_backoff. destruct (nth_error (w_bos w) i) as [b|] eqn:Hn.
  2:{ intros H; inversion H; auto. }
  destruct (b_live b) eqn:Hl; simpl. 2:{ intros H; inversion H; auto. }
  destruct (cancelled w (b_ctx b)) eqn:Hc. { intros H; inversion H; auto. }
  destruct (b_noop b) eqn:Hno. { intros H; inversion H; auto. }
  destruct ((0 <? b_max b) && exceeded e b (c_name c)) eqn:Hx.
  { intros H; inversion H. left. split; auto. right. right. exists b. auto. }
  destruct (pick_fn e w b c) as [f|] eqn:Hf. 2:{ intros H; inversion H; auto. }
  destruct (sleep_ok f s) eqn:Hs; simpl. 2:{ intros H; inversion H; auto. }
  intros H; inversion H. right. exists b, f. repeat split; auto.
Qed.

Lemma is_excl_limit e n : is_excl e n = true -> exists lim, excl_limit e n = Some lim.
Proof. unfold is_excl. destruct (excl_limit e n); eauto; discriminate. Qed.

Lemma slept_keys e b c f s maxms errid : keys_inv b -> keys_inv (slept_bo e b c f s maxms errid).
Proof.
  intros H n v. unfold slept_bo; simpl. unfold zadd. intros I. apply in_aset in I as [[-> _]|I].
  - exists c. split; auto. apply in_or_app; right; simpl; auto.
  - destruct (H _ _ I) as (c0 & I0 & E0). exists c0. split; auto. apply in_or_app; auto.
Qed.

(* The budget invariant of one back-offer: C bounds every cap, L every limit of an excluded kind.  The bounds are stated
   against the ghost [b_hi], the largest budget under which the current total was accumulated: a merge imports the
   fork's total into a back-offer whose own budget may be smaller, so the own budget bounds the total only while the
   ghost equals it (hi_own, ProofsInv). *)
Definition gen_inv (C L : Z) (b : bo) : Prop :=
  0 <= b_excl b <= b_total b /\
  Forall (fun nf => fn_wf C (snd nf)) (b_fn b) /\
  (b_max b <= 0 -> b_hi b = None) /\
  (forall h, b_hi b = Some h -> b_max b <= h /\ b_total b - b_excl b < h + C /\ b_excl b < Z.max L h + C).

Lemma gen_inv_bounds C L b h : gen_inv C L b -> b_hi b = Some h ->
  b_max b <= h /\ b_total b - b_excl b < h + C /\ b_excl b < Z.max L h + C /\ 0 <= b_excl b <= b_total b.
Proof. intros (A1 & _ & _ & A6) Hh. destruct (A6 h Hh) as (X & Y & Z0). auto. Qed.

Lemma budget_hi_spec m : (m <= 0 -> budget_hi m = None) /\ (forall h, budget_hi m = Some h -> h = m /\ 0 < m).
Proof.
  unfold budget_hi. destruct (Z.ltb_spec 0 m); split; try lia; try reflexivity.
  - intros h [= <-]. lia.
  - discriminate.
Qed.

Lemma pick_fn_wf C L e w b c f : gen_inv C L b -> 0 <= c_cap c <= C -> pick_fn e w b c = Some f -> fn_wf C f.
Proof. intros (_ & Hf & _) Hc. apply pick_fn_Forall; auto. intros. apply new_fn_wf; auto. Qed.

(* the budget test passed: the non-excluded sleep is below the budget, and an excluded kind is below its limit or below
   the budget as well; one more sleep of at most C keeps the bounds *)
Lemma slept_gen C L e b c f s maxms errid :
  env_bound e L -> gen_inv C L b -> fn_wf C f -> sleep_ok f s = true ->
  (0 <? b_max b) && exceeded e b (c_name c) = false ->
  gen_inv C L (slept_bo e b c f s maxms errid).
Proof.
  intros HL (H1 & H4 & H5 & H6) Hf Hs Hx.
  pose proof (proj1 (sleep_ok_range C f s Hf Hs)) as Hr. destruct Hf as [Hcap Hbase].
  destruct (cut_range s maxms ltac:(lia)) as [Hcut _].
  unfold gen_inv, slept_bo; simpl. set (real := cut s maxms) in *.
  refine (conj _ (conj _ (conj H5 _))).
  - destruct (is_excl e (c_name c)); lia.
  - apply Forall_aset; auto. simpl. split; simpl; lia.
  - intros h Hh. destruct (H6 h Hh) as (A & B & D).
    destruct (Z.ltb_spec 0 (b_max b)) as [P|P]; [|rewrite (H5 P) in Hh; discriminate].
    simpl in Hx. unfold exceeded in Hx. apply orb_false_iff in Hx as [X1 X2]. rewrite Z.geb_leb in X1. apply Z.leb_gt in X1.
    split; auto. destruct (is_excl e (c_name c)) eqn:Ex; [|lia].
    destruct (is_excl_limit _ _ Ex) as [lim El]. rewrite El in X2. pose proof (HL _ _ El).
    apply andb_false_iff in X2 as [X2|X2]; rewrite Z.geb_leb in X2; apply Z.leb_gt in X2; lia.
Qed.

(* New / Reset / ResetMaxSleep: nothing accumulated, the ghost is the own budget *)
Lemma zeroed_gen C L b : 0 <= C -> b_total b = 0 -> b_excl b = 0 -> b_fn b = [] -> b_hi b = budget_hi (b_max b) -> gen_inv C L b.
Proof.
  intros HC T X F H. unfold gen_inv. rewrite T, X, F, H. destruct (budget_hi_spec (b_max b)) as [A B].
  refine (conj _ (conj _ (conj A _))); [lia|constructor|]. intros h Hh. destruct (B h Hh). lia.
Qed.

Lemma copy_gen C L b ctx p : gen_inv C L b -> gen_inv C L (copy_bo b ctx p).
Proof. intros (H1 & _ & H5 & H6). unfold gen_inv, copy_bo; simpl. auto. Qed.

Lemma merged_gen C L b f : gen_inv C L b -> gen_inv C L f -> gen_inv C L (merged b f).
Proof.
  intros (_ & B4 & _ & _) (F1 & _ & _ & F6). unfold gen_inv, merged; simpl.
  destruct (budget_hi_spec (b_max b)) as [A B].
  refine (conj F1 (conj B4 (conj _ _))).
  - intros P. rewrite (A P). reflexivity.
  - intros h. destruct (budget_hi (b_max b)) as [bm|] eqn:E1; [|discriminate]. destruct (b_hi f) as [fh|] eqn:E2; [|discriminate].
    simpl. intros X; inversion X; subst h. destruct (B bm eq_refl) as [-> P]. destruct (F6 fh eq_refl) as (_ & Q & R). lia.
Qed.

Definition op_wf (C : Z) (o : op) : Prop :=
  match o with OBackoff _ c _ _ _ => 0 <= c_cap c <= C | _ => True end.
Definition not_resetmax (o : op) : Prop := match o with OResetMax _ _ => False | _ => True end.
Definition not_merge (o : op) : Prop := match o with OMerge _ _ => False | _ => True end.

Definition tree_ord (bs : list bo) : Prop :=
  forall j b p, nth_error bs j = Some b -> b_parent b = Some p -> (p < j)%nat.
(* a fork tree shares one budget (as long as ResetMaxSleep is not used) *)
Definition tree_max (bs : list bo) : Prop :=
  forall j b p, nth_error bs j = Some b -> b_parent b = Some p ->
                exists bp, nth_error bs p = Some bp /\ b_max bp = b_max b.

Lemma on_chain_lt bs : tree_ord bs -> forall fuel q i bq,
  nth_error bs q = Some bq -> on_chain fuel bs (b_parent bq) i = true -> (i < q)%nat.
Proof.
  intros T. induction fuel; intros q i bq Hq; simpl; [discriminate|].
  destruct (b_parent bq) as [p|] eqn:Ep; [|discriminate].
  pose proof (T _ _ _ Hq Ep). destruct (Nat.eqb p i) eqn:E.
  - apply Nat.eqb_eq in E. lia.
  - destruct (nth_error bs p) as [bp|] eqn:Hp; [|discriminate]. intros H'. specialize (IHfuel _ _ _ Hp H'). lia.
Qed.

Lemma on_chain_max bs : tree_max bs -> forall fuel q i bq,
  nth_error bs q = Some bq -> on_chain fuel bs (b_parent bq) i = true ->
  exists bi, nth_error bs i = Some bi /\ b_max bi = b_max bq.
Proof.
  intros T. induction fuel; intros q i bq Hq; simpl; [discriminate|].
  destruct (b_parent bq) as [p|] eqn:Ep; [|discriminate].
  destruct (T _ _ _ Hq Ep) as (bp & Hp & Em). destruct (Nat.eqb p i) eqn:E.
  - apply Nat.eqb_eq in E; subst. eauto.
  - rewrite Hp. intros H'. destruct (IHfuel _ _ _ Hp H') as (bi & Hi & Ei). exists bi. split; auto. congruence.
Qed.

