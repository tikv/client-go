(* Backoff/ProofsInv.v — what one step puts into the heap of back-offers, and the invariants of all op sequences that
   follow from it: the fork tree, the budget against the ghost high-water budget, the bounds of each sleep *)
From Coq Require Import ZArith List Bool Lia.
From Verif Require Import Backoff.Model Backoff.ProofsBase Backoff.ProofsStep.
Import ListNotations.
Open Scope Z_scope.

(* [fresh e w o j x]: the step [o] writes [x] into slot [j].  Every slot of the new heap holds what it held before or
   something fresh (step_fresh), and no slot disappears: every invariant below is proved from these two facts. *)
Inductive fresh (e : env) (w : world) (o : op) : nat -> bo -> Prop :=
| F_new ctx noop v m : fresh e w o (length (w_bos w)) (empty_bo ctx noop v m)
| F_copy i b ctx p : nth_error (w_bos w) i = Some b -> (p = b_parent b \/ p = Some i) ->
    fresh e w o (length (w_bos w)) (copy_bo b ctx p)
| F_slept i b c f s maxms errid : o = OBackoff i c maxms errid s -> nth_error (w_bos w) i = Some b ->
    pick_fn e w b c = Some f -> sleep_ok f s = true -> (0 <? b_max b) && exceeded e b (c_name c) = false ->
    fresh e w o i (slept_bo e b c f s maxms errid)
| F_reset i b m : nth_error (w_bos w) i = Some b -> (m = b_max b \/ ~ not_resetmax o) ->
    fresh e w o i (reset_bo b m)
| F_ctx i b c k : nth_error (w_bos w) i = Some b -> fresh e w o i (with_ctx b c k)
| F_merged i j b f : o = OMerge i j -> nth_error (w_bos w) i = Some b -> nth_error (w_bos w) j = Some f ->
    on_chain (length (w_bos w)) (w_bos w) (b_parent f) i = true -> fresh e w o i (merged b f)
| F_killed j f : nth_error (w_bos w) j = Some f -> fresh e w o j (kill_bo f).

Ltac dm := repeat match goal with
  | |- context [match ?x with _ => _ end] => destruct x eqn:?
  end.

Lemma step_fresh e w o j x : nth_error (w_bos (fst (step e w o))) j = Some x ->
  nth_error (w_bos w) j = Some x \/ fresh e w o j x.
Proof.
  (* the heap after the step is the old one, the old one with one more back-offer, or with one or two slots written *)
  assert (App : forall y, fresh e w o (length (w_bos w)) y -> nth_error (w_bos w ++ [y]) j = Some x ->
                          nth_error (w_bos w) j = Some x \/ fresh e w o j x).
  { intros y F H. apply nth_app_inv in H as [[_ H]|[-> ->]]; auto. }
  assert (Upd : forall i y l, fresh e w o i y -> (nth_error l j = Some x -> nth_error (w_bos w) j = Some x \/ fresh e w o j x) ->
                              nth_error (upd i y l) j = Some x -> nth_error (w_bos w) j = Some x \/ fresh e w o j x).
  { intros i y l F K H. apply nth_upd in H as [[-> ->]|[_ H]]; auto. }
  destruct o; simpl; auto.
  - dm; simpl; auto; apply App; constructor.
  - destruct (do_backoff e w i c maxms errid sleep) as [w' r] eqn:E.
    apply do_backoff_cases in E as [[-> _]|(b & f & Hn & _ & _ & _ & Hx & Hf & Hs & -> & _)]; simpl; auto.
    apply Upd; auto. eapply F_slept; eauto.
  - dm; simpl; auto. apply App. eapply F_copy; eauto.
  - dm; simpl; auto. apply App. eapply F_copy; eauto.
  - dm; simpl; auto. apply Upd; [eapply F_killed; eauto|]. apply Upd; auto. eapply F_merged; eauto.
  - dm; simpl; auto. apply Upd; auto. eapply F_reset; eauto.
  - dm; simpl; auto; (apply Upd; auto; eapply F_reset; eauto; right; simpl; tauto).
  - dm; simpl; auto.
  - dm; simpl; auto.
  - dm; simpl; auto. apply Upd; auto. eapply F_ctx; eauto.
  - dm; simpl; auto. apply Upd; auto. eapply F_ctx; eauto.
Qed.

Lemma step_length e w o : (length (w_bos w) <= length (w_bos (fst (step e w o))))%nat.
Proof.
  destruct o; simpl; try (dm; simpl; rewrite ?app_length, ?length_upd; simpl; lia).
  destruct (do_backoff e w i c maxms errid sleep) as [w' r] eqn:E.
  apply do_backoff_cases in E as [[-> _]|(b & f & _ & _ & _ & _ & _ & _ & _ & -> & _)]; simpl; rewrite ?length_upd; auto.
Qed.

Lemma step_kept e w o q x : nth_error (w_bos w) q = Some x ->
  exists x', nth_error (w_bos (fst (step e w o))) q = Some x' /\ b_parent x' = b_parent x /\
             (not_resetmax o -> b_max x' = b_max x).
Proof.
  intros H. pose proof (nth_lt _ _ _ H) as L. pose proof (step_length e w o).
  destruct (nth_error (w_bos (fst (step e w o))) q) as [x'|] eqn:E; [|apply nth_error_None in E; lia].
  exists x'. split; auto. apply step_fresh in E as [E|F]; [split; congruence|].
  revert H L. destruct F as [| | i b ? ? ? ? ? _ Hb| i b m Hb Hm| i b ? ? Hb| i ? b ? _ Hb| i b Hb]; intros Hq Lq; try lia;
    assert (b = x) by congruence; subst b; simpl; auto.
  destruct Hm as [->|N]; tauto.
Qed.

Definition all_bos (P : bo -> Prop) (w : world) : Prop := forall i b, nth_error (w_bos w) i = Some b -> P b.

Lemma step_all (P : bo -> Prop) e w o :
  all_bos P w -> (forall j x, fresh e w o j x -> P x) -> all_bos P (fst (step e w o)).
Proof. intros A F j x Hj. apply step_fresh in Hj as [Hj|Hj]; eauto. Qed.

Lemma all_bos_Forall P w : all_bos P w -> Forall P (w_bos w).
Proof. intros A. apply Forall_forall. intros x I. apply In_nth_error in I as [j Hj]. eauto. Qed.

Lemma all_bos_Forall2 P w idx bs : all_bos P w ->
  Forall2 (fun i b => nth_error (w_bos w) i = Some b) idx bs -> Forall P bs.
Proof. intros A F. induction F; constructor; eauto. Qed.

Lemma step_tree_ord e w o : tree_ord (w_bos w) -> tree_ord (w_bos (fst (step e w o))).
Proof.
  intros T j x p Hj Hp. apply step_fresh in Hj as [Hj|F]; [eapply T; eauto|].
  destruct F as [| i b ctx p' H [->| ->] | | | | |]; simpl in Hp; try (eapply T; eauto; fail).
  - discriminate.
  - pose proof (T _ _ _ H Hp). apply nth_lt in H. lia.
  - inversion Hp; subst. eapply nth_lt; eauto.
Qed.

Lemma step_tree_max e w o : not_resetmax o -> tree_max (w_bos w) -> tree_max (w_bos (fst (step e w o))).
Proof.
  intros NR T j x p Hj Hp.
  (* the parent [p] was the parent of an old slot [y] with the budget of [x], or is that slot itself *)
  assert (K : exists y, b_max y = b_max x /\
                (nth_error (w_bos w) p = Some y \/ exists q, nth_error (w_bos w) q = Some y /\ b_parent y = Some p)).
  { apply step_fresh in Hj as [Hj|F]; [exists x; eauto|].
    destruct F as [| i b ? ? H [->| ->] | i b | i b m H [->|N] | i b | i ? b | i b]; simpl in Hp; try tauto; try discriminate;
      exists b; (split; [reflexivity|]); eauto.
    inversion Hp; subst. auto. }
  destruct K as (y & My & [Hy|(q & Hq & Py)]).
  - destruct (step_kept e w o _ _ Hy) as (y' & Hy' & _ & M). exists y'. split; auto. rewrite M; auto.
  - destruct (T _ _ _ Hq Py) as (bp & Hbp & M0). destruct (step_kept e w o _ _ Hbp) as (y' & Hy' & _ & M).
    exists y'. split; auto. rewrite M; auto. congruence.
Qed.

Lemma run_app e w ops o : run e w (ops ++ [o]) = fst (step e (run e w ops) o).
Proof. unfold run. rewrite fold_left_app. reflexivity. Qed.

Lemma run_ind (P : world -> Prop) (Q : op -> Prop) e w ops :
  P w -> (forall w o, P w -> Q o -> P (fst (step e w o))) -> Forall Q ops -> P (run e w ops).
Proof.
  intros H0 Hs. revert w H0. induction ops; intros w H0 F; simpl; auto.
  inversion F; subst. apply IHops; auto.
Qed.

Lemma all_bos_init P : all_bos P init_world.
Proof. intros [|i] b H; discriminate. Qed.

Lemma Forall_True {A} (l : list A) : Forall (fun _ => True) l.
Proof. apply Forall_forall. auto. Qed.

Lemma reach_all (P : bo -> Prop) (Q : op -> Prop) e ops :
  (forall w o j x, Q o -> all_bos P w -> fresh e w o j x -> P x) -> Forall Q ops -> all_bos P (run e init_world ops).
Proof.
  intros S. apply (run_ind (all_bos P)); [apply all_bos_init|].
  intros w o A Ho. apply step_all; auto. intros j x. apply S; auto.
Qed.

Lemma reach_tree_ord e ops : tree_ord (w_bos (run e init_world ops)).
Proof.
  apply (run_ind (fun w => tree_ord (w_bos w)) (fun _ => True)); [| |apply Forall_True].
  - intros j b p H. destruct j; discriminate.
  - intros. apply step_tree_ord; auto.
Qed.

Lemma reach_keys e ops : all_bos keys_inv (run e init_world ops).
Proof.
  apply (reach_all keys_inv (fun _ => True)); [|apply Forall_True].
  intros w o j x _ A F. destruct F; try exact (A _ _ H).
  - intros n0 v0 [].
  - apply slept_keys. exact (A _ _ H0).
  - exact (A _ _ H1).
Qed.

Lemma reach_gen C L e ops : 0 <= C -> env_bound e L -> Forall (op_wf C) ops -> all_bos (gen_inv C L) (run e init_world ops).
Proof.
  intros HC HL W. apply (reach_all (gen_inv C L) (op_wf C)); auto.
  intros w o j x WF A F. destruct F.
  - apply zeroed_gen; auto.
  - apply copy_gen. exact (A _ _ H).
  - subst o. pose proof (A _ _ H0) as Ab. eapply slept_gen; eauto. eapply pick_fn_wf; eauto.
  - apply zeroed_gen; auto.
  - exact (A _ _ H).
  - apply merged_gen; eauto.
  - exact (A _ _ H).
Qed.

(* the ghost is the back-offer's own budget whenever ResetMaxSleep and merges are not mixed: without ResetMaxSleep a
   fork tree shares one budget (tree_max), so a merge joins the budget with itself *)
Definition hi_own (b : bo) : Prop := b_hi b = budget_hi (b_max b).

Lemma join_same x : join_hi x x = x.
Proof. destruct x; simpl; auto. rewrite Z.max_id. auto. Qed.

Lemma fresh_hi_own e w o j x : (not_merge o \/ tree_max (w_bos w)) -> all_bos hi_own w -> fresh e w o j x -> hi_own x.
Proof.
  intros M A F. destruct F; try reflexivity; try exact (A _ _ H).
  - exact (A _ _ H0).
  - subst o. destruct M as [M|T]; [simpl in M; tauto|].
    destruct (on_chain_max _ T _ _ _ _ H1 H2) as (bi & Hi & Em). assert (bi = b) by congruence. subst bi.
    unfold hi_own, merged; simpl. rewrite (A _ _ H1 : hi_own f). rewrite Em. apply join_same.
Qed.

Lemma reach_hi_own e ops : Forall not_merge ops \/ Forall not_resetmax ops -> all_bos hi_own (run e init_world ops).
Proof.
  intros [N|N].
  - apply (reach_all hi_own not_merge); auto. intros. eapply fresh_hi_own; eauto.
  - apply (run_ind (fun w => all_bos hi_own w /\ tree_max (w_bos w)) not_resetmax); auto.
    + split; [apply all_bos_init|intros [|j] b; discriminate].
    + intros w o [A TM] NR. split; [|apply step_tree_max; auto].
      apply step_all; auto. intros j x. apply fresh_hi_own; auto.
Qed.

(* with a positive budget the ghost then is that budget: C20_budget is C20_budget_general at h = b_max b *)
Lemma own_budget e ops i b : Forall not_merge ops \/ Forall not_resetmax ops ->
  nth_error (w_bos (run e init_world ops)) i = Some b -> 0 < b_max b -> b_hi b = Some (b_max b).
Proof.
  intros N Hn P. pose proof (reach_hi_own e ops N i b Hn) as Own.
  unfold hi_own, budget_hi in Own. apply Z.ltb_lt in P. rewrite P in Own. exact Own.
Qed.

Lemma step_bounds C L e w : all_bos (gen_inv C L) w -> forall i c maxms errid s w' r real, 0 <= c_cap c <= C ->
  step e w (OBackoff i c maxms errid s) = (w', r) ->
  (r = ROk real \/ exists sig, r = RKilled real sig) ->
  exists b f, nth_error (w_bos w) i = Some b /\ pick_fn e w b c = Some f /\
    sleep_ok f s = true /\ real = cut s maxms /\
    0 <= real <= s /\ s <= f_cap f /\ f_cap f <= C /\ (0 <= maxms -> real <= maxms) /\
    (1 <= f_jit f <= 3 -> s <= expo (f_base f) (f_cap f) (f_att f)) /\
    (0 < b_max b -> b_total b - b_excl b < b_max b).
Proof.
  intros G i c maxms errid s w' r real Hc E R. simpl in E.
  apply do_backoff_cases in E as [[_ [->|[->|(b & _ & _ & ->)]]]|(b & f & Hn & _ & _ & _ & Hx & Hf & Hs & _ & ->)].
  1-3: destruct R as [R|[sg R]]; discriminate.
  pose proof (pick_fn_wf _ _ _ _ _ _ _ (G i b Hn) Hc Hf) as Wf.
  destruct (sleep_ok_range _ _ _ Wf Hs) as [Rg Ex].
  destruct (cut_range s maxms ltac:(lia)) as [Hcut Hm]. destruct Wf as [Wc Wb].
  assert (real = cut s maxms).
  { unfold kill_res in R. destruct (kill_eff _ b =? 0); destruct R as [R|[sg R]]; congruence. }
  exists b, f. repeat split; auto; try lia.
  - intros P. apply Z.ltb_lt in P. rewrite P in Hx. simpl in Hx. unfold exceeded in Hx.
    apply orb_false_iff in Hx as [X _]. rewrite Z.geb_leb in X. apply Z.leb_gt in X. lia.
Qed.
