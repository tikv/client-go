(* Backoff/ProofsCount.v — what the check's oracles C20_accounting and C20_getters evaluate on the implementation, as theorems:
   exact accounting of one step, agreement of the counters (sum of backoffTimes = errorsNum = number of recorded configs),
   the errors ring, the statistics a snapshot accumulates *)
From Coq Require Import ZArith List Bool Lia ZifyBool.
From Verif Require Import Backoff.Model Backoff.ProofsBase Backoff.ProofsStep Backoff.ProofsInv Backoff.ProofsAcct.
Import ListNotations.
Open Scope Z_scope.
Ltac Zify.zify_post_hook ::= Z.div_mod_to_equations.

Lemma step_exact e w i c maxms errid s w' r :
  step e w (OBackoff i c maxms errid s) = (w', r) ->
  (w' = w /\ (forall real, r <> ROk real) /\ (forall real sg, r <> RKilled real sg)) \/
  (exists b b' real, nth_error (w_bos w) i = Some b /\ nth_error (w_bos w') i = Some b' /\
     (r = ROk real \/ exists sg, r = RKilled real sg) /\ real = cut s maxms /\
     b_total b' = b_total b + real /\
     b_excl b' = b_excl b + (if is_excl e (c_name c) then real else 0) /\
     zget (c_name c) (b_sleep b') = zget (c_name c) (b_sleep b) + real /\
     zget (c_name c) (b_times b') = zget (c_name c) (b_times b) + 1 /\
     (forall n, n <> c_name c -> zget n (b_sleep b') = zget n (b_sleep b) /\ zget n (b_times b') = zget n (b_times b)) /\
     b_errnum b' = b_errnum b + 1 /\ b_cfgs b' = b_cfgs b ++ [c] /\
     b_max b' = b_max b /\ b_parent b' = b_parent b /\ b_ctx b' = b_ctx b /\ b_vars b' = b_vars b /\
     (forall k, k <> i -> nth_error (w_bos w') k = nth_error (w_bos w) k) /\
     w_ctxs w' = w_ctxs w /\ w_vars w' = w_vars w /\ w_cerr w' = w_cerr w).
Proof.
  intros E. simpl in E.
  apply do_backoff_cases in E as [[-> R]|(b & f & Hn & _ & _ & _ & _ & _ & _ & -> & ->)].
  - left. split; auto. destruct R as [->|[->|(b0 & _ & _ & ->)]]; split; intros; discriminate.
  - right. exists b, (slept_bo e b c f s maxms errid), (cut s maxms).
    split; auto. split; [simpl; apply nth_upd_same; eapply nth_lt; eauto|].
    split. { unfold kill_res. destruct (_ =? 0); eauto. }
    split; auto. cbn [slept_bo b_total b_excl b_sleep b_times b_errnum b_cfgs b_max b_parent b_ctx b_vars push_err snd].
    split; auto. split. { destruct (is_excl e (c_name c)); lia. }
    split; [apply zget_zadd_same|]. split; [apply zget_zadd_same|].
    split. { intros n N. split; apply zget_zadd_other; congruence. }
    repeat split; auto. intros k N. simpl. apply nth_upd_other. auto.
Qed.

Lemma sum_all_zadd k d l : sum_all (zadd k d l) = sum_all l + d.
Proof.
  unfold zadd, zget, sum_all. induction l as [|[k' v'] r]; simpl.
  - lia.
  - destruct (k =? k') eqn:E; simpl; [lia|]. rewrite IHr. lia.
Qed.

Definition count_inv (b : bo) : Prop :=
  sum_all (b_times b) = b_errnum b /\ b_errnum b = Z.of_nat (length (b_cfgs b)) /\ length (b_errs b) = 3%nat.

Lemma reach_count e ops : all_bos count_inv (run e init_world ops).
Proof.
  apply (reach_all count_inv (fun _ => True)); [|apply Forall_True].
  intros w o j x _ A F. destruct F; try exact (A _ _ H).
  - unfold count_inv, empty_bo, sum_all; simpl. auto.
  - destruct (A _ _ H0) as (A1 & A2 & A3).
    unfold count_inv, slept_bo, push_err; simpl. rewrite sum_all_zadd, app_length, length_upd. simpl. repeat split; auto; lia.
  - exact (A _ _ H1).
Qed.

(* the errors ring: latestErrors = the last (at most 3) recorded errors, oldest first *)
Definition last3 (l : list Z) : list Z := skipn (length l - 3) l.

Lemma ring_push e b : count_inv b -> forall c f s maxms errid,
  latest_errs (slept_bo e b c f s maxms errid) = last3 (latest_errs b ++ [errid]) /\
  Z.of_nat (length (latest_errs b)) = Z.min 3 (b_errnum b).
Proof.
  intros (_ & P & L) c f s maxms errid. destruct (b_errs b) as [|x [|y [|z [|]]]] eqn:Eb; try discriminate. clear L.
  unfold latest_errs, slept_bo, push_err; cbn [b_errs b_errnum fst snd]. rewrite Eb.
  set (n := b_errnum b) in *.
  assert (C : n = 0 \/ n = 1 \/ n = 2 \/ n = 3 \/ 3 < n) by lia.
  destruct C as [->|[->|[->|[->|G]]]]; try (split; reflexivity).
  assert (Lt : (n <=? 3) = false) by lia. assert (Lt' : (n + 1 <=? 3) = false) by lia. rewrite Lt, Lt'.
  assert (M : n mod 3 = 0 \/ n mod 3 = 1 \/ n mod 3 = 2) by lia.
  destruct M as [M|[M|M]].
  - assert (M' : (n + 1) mod 3 = 1) by lia. rewrite M, M'. split; [reflexivity|simpl; lia].
  - assert (M' : (n + 1) mod 3 = 2) by lia. rewrite M, M'. split; [reflexivity|simpl; lia].
  - assert (M' : (n + 1) mod 3 = 0) by lia. rewrite M, M'. split; [reflexivity|simpl; lia].
Qed.

(* KVSnapshot.recordBackoffInfo: after every Get / BatchGet the per-kind maps of that call's back-offer are added to the
   statistics of the snapshot, unless the back-offer's total sleep is 0 *)
Definition madd (m add : list (Z * Z)) : list (Z * Z) := fold_left (fun acc nv => zadd (fst nv) (snd nv) acc) add m.
Definition record (st : list (Z * Z) * list (Z * Z)) (b : bo) : list (Z * Z) * list (Z * Z) :=
  if b_total b =? 0 then st else (madd (fst st) (b_sleep b), madd (snd st) (b_times b)).
Definition record_all (bs : list bo) : list (Z * Z) * list (Z * Z) := fold_left record bs ([], []).

Definition counted (b : bo) : bool := negb (b_total b =? 0).

(* the maps of a back-offer never hold a key twice, so adding a map entry by entry adds its lookup *)
Fixpoint keys_unique (l : list (Z * Z)) : Prop :=
  match l with [] => True | (k, _) :: r => aget k r = None /\ keys_unique r end.

Lemma zget_madd n add : keys_unique add -> forall m, zget n (madd m add) = zget n m + zget n add.
Proof.
  unfold madd. induction add as [|[k v] r]; intros U m; simpl; [unfold zget at 3; simpl; lia|].
  destruct U as [N U]. rewrite (IHr U). unfold zget at 4. simpl. destruct (Z.eqb_spec n k) as [->|E].
  - rewrite zget_zadd_same. unfold zget at 2. rewrite N. lia.
  - rewrite zget_zadd_other by congruence. reflexivity.
Qed.

Lemma keys_unique_aset k v l : keys_unique l -> keys_unique (aset k v l).
Proof.
  induction l as [|[k' v'] r]; simpl; auto. intros [N U]. destruct (Z.eqb_spec k k') as [->|E]; simpl; auto.
  split; auto. rewrite aget_aset_other; auto.
Qed.

Definition uniq_inv (b : bo) : Prop := keys_unique (b_sleep b) /\ keys_unique (b_times b).

Lemma reach_uniq e ops : all_bos uniq_inv (run e init_world ops).
Proof.
  apply (reach_all uniq_inv (fun _ => True)); [|apply Forall_True].
  intros w o j x _ A F. destruct F; try exact (A _ _ H).
  - split; simpl; auto.
  - destruct (A _ _ H0). split; simpl; apply keys_unique_aset; auto.
  - exact (A _ _ H1).
Qed.

Lemma stats_accumulate n : forall bs st, Forall uniq_inv bs ->
  zget n (fst (fold_left record bs st)) = zget n (fst st) + fold_right (fun b a => (if counted b then zget n (b_sleep b) else 0) + a) 0 bs /\
  zget n (snd (fold_left record bs st)) = zget n (snd st) + fold_right (fun b a => (if counted b then zget n (b_times b) else 0) + a) 0 bs.
Proof.
  induction bs as [|b r]; intros st U; simpl; [lia|]. inversion U as [|? ? [U1 U2] Ur]; subst.
  destruct (IHr (record st b) Ur) as [A B]. rewrite A, B. unfold record, counted.
  destruct (b_total b =? 0); simpl; [lia|]. rewrite !zget_madd by auto. lia.
Qed.
