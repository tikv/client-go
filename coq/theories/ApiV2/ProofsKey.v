(* ApiV2/ProofsKey.v — prefix / end key arithmetic, key round trip, order, isolation *)
From Verif Require Import ApiV2.Model Codec.ProofsBytes Codec.ProofsNum.
From Coq Require Import ZifyNat ZifyN ZifyBool.
Open Scope N_scope.

Lemma has_prefix_app p r : has_prefix p (p ++ r) = true.
Proof. induction p as [|x p IH]; cbn [has_prefix app]; [reflexivity|]. rewrite N.eqb_refl. exact IH. Qed.

Lemma has_prefix_inv p : forall k, has_prefix p k = true -> k = p ++ skipn (length p) k.
Proof.
  induction p as [|x p IH]; intros k H; [reflexivity|].
  destruct k as [|y k]; cbn [has_prefix] in H; [discriminate|].
  apply andb_true_iff in H as [H1 H2]. apply N.eqb_eq in H1; subst y.
  cbn [length skipn app]. f_equal. apply IH; exact H2.
Qed.

Lemma has_prefix_eqlen p q r : length p = length q -> has_prefix p (q ++ r) = true -> p = q.
Proof.
  intros Hl H. apply has_prefix_inv in H. apply (f_equal (firstn (length p))) in H.
  rewrite (firstn_app_exact q), (firstn_app_exact p) in H by congruence. symmetry; exact H.
Qed.

Lemma no_prefix_position p : forall x, has_prefix p x = false -> lex_lt x p \/ forall k, lex_lt (p ++ k) x.
Proof.
  unfold lex_lt. induction p as [|a p IH]; intros [|b x] H; try discriminate; [left; reflexivity|].
  cbn [has_prefix] in H. cbn [app lex_cmp]. rewrite (N.compare_antisym a b).
  destruct (N.compare_spec a b) as [E|L|G]; cbn [CompOpp]; [|right; reflexivity|left; reflexivity].
  subst. rewrite N.eqb_refl in H. exact (IH x H).
Qed.

Lemma nilb_true l : nilb l = true <-> l = [].
Proof. destruct l; cbn; split; congruence. Qed.
Lemma nilb_false l : nilb l = false <-> l <> [].
Proof. destruct l; cbn; split; congruence. Qed.

Lemma pow256_3 : pow256 3 = two24. Proof. reflexivity. Qed.
Lemma pow256_4 : pow256 4 = two32. Proof. reflexivity. Qed.

(* the prefix read as a four-byte number; the end key is that number plus one (end_key_be) *)
Definition pval (c : ks) : N := of_be (prefix c).

Lemma mode_byte_lt m : mode_byte m <= 120.
Proof. destruct m; cbn; lia. Qed.

Lemma prefix_length c : length (prefix c) = 4%nat.
Proof. unfold prefix. cbn [length]. rewrite be_length. reflexivity. Qed.

Lemma prefix_ne c : prefix c <> [].
Proof. unfold prefix; discriminate. Qed.

Lemma prefix_wf c : wf_bytes (prefix c).
Proof.
  unfold prefix. constructor; [|apply be_wf].
  unfold wf_byte. pose proof (mode_byte_lt (ks_mode c)). lia.
Qed.

Lemma pval_eq c : pval c = mode_byte (ks_mode c) * two24 + of_be (be 3 (ks_id c)).
Proof. unfold pval, prefix. rewrite of_be_cons, be_length, pow256_3. reflexivity. Qed.

Lemma pval_bound c : pval c + 1 < two32.
Proof.
  rewrite pval_eq. pose proof (mode_byte_lt (ks_mode c)).
  pose proof (of_be_bound (be 3 (ks_id c)) (be_wf 3 (ks_id c))) as Hb.
  rewrite be_length, pow256_3 in Hb. unfold two24, two32 in *. lia.
Qed.

Lemma pval_ok c : ks_ok c -> pval c = mode_byte (ks_mode c) * two24 + ks_id c.
Proof. intros H. rewrite pval_eq, of_be_be; [reflexivity|]. rewrite pow256_3. exact H. Qed.

Lemma prefix_be c : prefix c = be 4 (pval c).
Proof. unfold pval. rewrite <- (prefix_length c). symmetry. apply be_of_be. apply prefix_wf. Qed.

Lemma end_key_be c : end_key c = be 4 (pval c + 1).
Proof. unfold end_key. fold (pval c). rewrite N.mod_small; [reflexivity|apply pval_bound]. Qed.

Lemma end_key_ne c : end_key c <> [].
Proof. unfold end_key. discriminate. Qed.

Lemma cmp_be4 a b x y : a < two32 -> b < two32 ->
  lex_cmp (be 4 a ++ x) (be 4 b ++ y) = match N.compare a b with Eq => lex_cmp x y | r => r end.
Proof.
  intros Ha Hb. rewrite lex_cmp_app_eqlen by (rewrite !be_length; reflexivity).
  rewrite be_order by (rewrite pow256_4; assumption). reflexivity.
Qed.

(* where a string whose first four bytes spell the number w lies: below the keyspace, in it, or at or above its end key *)
Lemma head_position c w x : w < two32 ->
  (w < pval c -> lex_lt (be 4 w ++ x) (prefix c)) /\
  (w = pval c -> be 4 w ++ x = encode_key c x) /\
  (pval c < w -> lex_le (end_key c) (be 4 w ++ x)).
Proof.
  intros Hw. pose proof (pval_bound c) as Hb. unfold lex_lt, lex_le, encode_key. rewrite prefix_be, end_key_be. repeat split.
  - intros H. rewrite <- (app_nil_r (be 4 (pval c))), cmp_be4 by lia.
    rewrite (proj2 (N.compare_lt_iff _ _) H). reflexivity.
  - intros ->. reflexivity.
  - intros H. rewrite <- (app_nil_r (be 4 (pval c + 1))), cmp_be4 by lia.
    destruct (N.compare_spec (pval c + 1) w) as [E|L|G]; [apply lex_cmp_nil_l|discriminate|lia].
Qed.

Lemma enc_lt_end c k : lex_lt (encode_key c k) (end_key c).
Proof.
  pose proof (pval_bound c) as Hb. unfold lex_lt, encode_key.
  rewrite prefix_be, end_key_be, <- (app_nil_r (be 4 (pval c + 1))), cmp_be4 by lia.
  rewrite (proj2 (N.compare_lt_iff (pval c) (pval c + 1))) by lia. reflexivity.
Qed.

Lemma prefix_le_enc c k : lex_le (prefix c) (encode_key c k).
Proof. apply lex_le_app. Qed.

Lemma nilb_enc c k : nilb (encode_key c k) = false.
Proof. reflexivity. Qed.
Lemma has_prefix_own c k : has_prefix (prefix c) (encode_key c k) = true.
Proof. apply has_prefix_app. Qed.
Lemma skipn_enc c k : skipn (length (prefix c)) (encode_key c k) = k.
Proof. apply skipn_app_exact. reflexivity. Qed.
Lemma encode_key_ne c k : encode_key c k <> [].
Proof. discriminate. Qed.

Lemma decode_encode_key c k : decode_key c (encode_key c k) = Some k.
Proof.
  unfold decode_key. rewrite nilb_enc, has_prefix_own, skipn_enc. reflexivity.
Qed.

Lemma has_prefix_enc c x : has_prefix (prefix c) x = true -> x = encode_key c (skipn (length (prefix c)) x).
Proof. apply has_prefix_inv. Qed.

Lemma decode_key_inv c e k : e <> [] -> decode_key c e = Some k -> e = encode_key c k.
Proof.
  intros Hne. unfold decode_key. apply nilb_false in Hne. rewrite Hne.
  destruct (has_prefix (prefix c) e) eqn:H; [|discriminate].
  intros [= <-]. apply has_prefix_enc; exact H.
Qed.

Lemma encode_key_inj c a b : encode_key c a = encode_key c b -> a = b.
Proof. unfold encode_key. apply app_inv_head. Qed.

Lemma encode_key_cmp c a b : lex_cmp (encode_key c a) (encode_key c b) = lex_cmp a b.
Proof. apply lex_cmp_app_same. Qed.
Lemma lex_lt_enc c a b : lex_lt (encode_key c a) (encode_key c b) <-> lex_lt a b.
Proof. unfold lex_lt. rewrite encode_key_cmp. tauto. Qed.
Lemma lex_le_enc c a b : lex_le (encode_key c a) (encode_key c b) <-> lex_le a b.
Proof. unfold lex_le. rewrite encode_key_cmp. tauto. Qed.
Lemma lex_ltb_enc c a b : lex_ltb (encode_key c a) (encode_key c b) = lex_ltb a b.
Proof. unfold lex_ltb. rewrite encode_key_cmp. reflexivity. Qed.
Lemma lex_leb_enc c a b : lex_leb (encode_key c a) (encode_key c b) = lex_leb a b.
Proof. unfold lex_leb. rewrite encode_key_cmp. reflexivity. Qed.
Lemma bytes_eqb_enc c a b : bytes_eqb (encode_key c a) (encode_key c b) = bytes_eqb a b.
Proof. unfold bytes_eqb. rewrite encode_key_cmp. reflexivity. Qed.

Lemma in_rangeb_spec s e k : in_rangeb s e k = true <-> in_range s e k.
Proof.
  unfold in_rangeb, in_range. rewrite andb_true_iff, orb_true_iff, lex_leb_le, nilb_true, lex_ltb_lt. tauto.
Qed.

Lemma enc_end_ne c e : nilb (enc_end c e) = false.
Proof.
  unfold enc_end. destruct (nilb e).
  - apply nilb_false, end_key_ne.
  - apply nilb_enc.
Qed.

Lemma enc_end_le_end c e : lex_le (enc_end c e) (end_key c).
Proof. unfold enc_end. destruct (nilb e); [apply lex_le_refl|]. apply lex_le_cases. left. apply enc_lt_end. Qed.

Lemma in_rangeb_enc c s e k :
  in_rangeb (encode_key c s) (enc_end c e) (encode_key c k) = in_rangeb s e k.
Proof.
  unfold in_rangeb. rewrite enc_end_ne, lex_leb_enc. cbn [orb]. f_equal.
  unfold enc_end. destruct (nilb e) eqn:He; cbn [orb]; [apply lex_ltb_lt, enc_lt_end|apply lex_ltb_enc].
Qed.

Lemma order_fwd c s e k :
  in_range s e k <-> in_range (fst (encode_range c false s e)) (snd (encode_range c false s e)) (encode_key c k).
Proof. cbn [encode_range fst snd]. rewrite <- !in_rangeb_spec, in_rangeb_enc. tauto. Qed.

(* reverse scan: the request's start key is the (exclusive) upper bound and its end key the lower bound *)
Lemma order_rev c s e k :
  in_range e s k <-> in_range (snd (encode_range c true s e)) (fst (encode_range c true s e)) (encode_key c k).
Proof. cbn [encode_range fst snd]. rewrite <- !in_rangeb_spec, in_rangeb_enc. tauto. Qed.

Lemma encode_range_end_ne c s e : snd (encode_range c false s e) <> [] /\ fst (encode_range c true s e) <> [].
Proof. cbn [encode_range fst snd]. split; apply nilb_false, enc_end_ne. Qed.

Lemma pval_inj c1 c2 : ks_ok c1 -> ks_ok c2 -> pval c1 = pval c2 -> c1 = c2.
Proof.
  intros H1 H2. rewrite !pval_ok by assumption. unfold ks_ok, two24 in *.
  destruct c1 as [m1 i1], c2 as [m2 i2]; cbn [ks_mode ks_id] in *.
  destruct m1, m2; cbn [mode_byte]; intros E; try lia; f_equal; lia.
Qed.

Lemma foreign_no_prefix c1 c2 k : ks_ok c1 -> ks_ok c2 -> c1 <> c2 ->
  has_prefix (prefix c1) (encode_key c2 k) = false.
Proof.
  intros H1 H2 Hne. destruct (has_prefix (prefix c1) (encode_key c2 k)) eqn:H; [|reflexivity].
  exfalso. apply Hne, pval_inj; try assumption. unfold pval. f_equal.
  eapply has_prefix_eqlen; [|exact H]. rewrite !prefix_length. reflexivity.
Qed.

Lemma decode_foreign c1 c2 k : ks_ok c1 -> ks_ok c2 -> c1 <> c2 -> decode_key c1 (encode_key c2 k) = None.
Proof.
  intros H1 H2 Hne. unfold decode_key. rewrite nilb_enc, foreign_no_prefix by assumption. reflexivity.
Qed.

Lemma images_disjoint c1 c2 k1 k2 : ks_ok c1 -> ks_ok c2 -> c1 <> c2 -> encode_key c1 k1 <> encode_key c2 k2.
Proof.
  intros H1 H2 Hne E. pose proof (decode_encode_key c1 k1) as D. rewrite E in D.
  rewrite decode_foreign in D by assumption. discriminate.
Qed.

(* a foreign key is outside [prefix, endKey), hence outside every physical range the client can send *)
Lemma foreign_outside c1 c2 k : ks_ok c1 -> ks_ok c2 -> c1 <> c2 ->
  lex_lt (encode_key c2 k) (prefix c1) \/ lex_le (end_key c1) (encode_key c2 k).
Proof.
  intros H1 H2 Hne. pose proof (pval_bound c2) as Hb.
  assert (Hv : pval c2 <> pval c1) by (intros E; apply Hne; symmetry; apply pval_inj; assumption).
  unfold encode_key at 1 2. rewrite (prefix_be c2).
  destruct (head_position c1 (pval c2) k ltac:(lia)) as (Below & _ & Above).
  destruct (N.lt_total (pval c2) (pval c1)) as [L|[E|G]]; [left; exact (Below L)|contradiction|right; exact (Above G)].
Qed.

Lemma foreign_not_in_range c1 c2 s e k : ks_ok c1 -> ks_ok c2 -> c1 <> c2 ->
  in_rangeb (encode_key c1 s) (enc_end c1 e) (encode_key c2 k) = false.
Proof.
  intros H1 H2 Hne. destruct (in_rangeb _ _ _) eqn:R; [|reflexivity]. exfalso.
  apply in_rangeb_spec in R as [Rl Ru].
  destruct (foreign_outside c1 c2 k H1 H2 Hne) as [L|G].
  - (* below the prefix, but >= enc s >= prefix *)
    exact (proj1 (lex_lt_not_le _ _) (lex_lt_le_trans _ _ _ L (prefix_le_enc c1 s)) Rl).
  - (* >= endKey, but < enc_end <= endKey *)
    destruct Ru as [Ru|Ru]; [apply nilb_true in Ru; rewrite enc_end_ne in Ru; discriminate|].
    exact (proj1 (lex_lt_not_le _ _) (lex_lt_le_trans _ _ _ Ru (enc_end_le_end c1 e)) G).
Qed.

Lemma in_bounds_has_prefix c x : wf_bytes x -> (4 <= length x)%nat ->
  (lex_le (prefix c) x /\ lex_lt x (end_key c)) <-> has_prefix (prefix c) x = true.
Proof.
  intros Hwf Hlen. split.
  - intros [Hl Hu]. destruct (wf_head_be 4 x Hwf Hlen) as [Ex Bd]. rewrite pow256_4 in Bd. rewrite Ex in Hl, Hu |- *.
    destruct (head_position c _ (skipn 4 x) Bd) as (Below & Inside & Above).
    destruct (N.lt_total (of_be (firstn 4 x)) (pval c)) as [L|[E|G]].
    + exfalso. exact (proj1 (lex_lt_not_le _ _) (Below L) Hl).
    + rewrite (Inside E). apply has_prefix_own.
    + exfalso. exact (proj1 (lex_lt_not_le _ _) Hu (Above G)).
  - intros H. apply has_prefix_enc in H. rewrite H. split; [apply prefix_le_enc|apply enc_lt_end].
Qed.
