(* ApiV2/ProofsProgram.v — transparency for programs of transmissions: retransmissions, lost answers, region errors *)
From Verif Require Import ApiV2.Model ApiV2.ProofsKey ApiV2.ProofsRegion ApiV2.ProofsStore ApiV2.ProofsPD.
Open Scope N_scope.

(* a refused transmission's region descriptions are given as the memcomparable form of a physical layout *)
Definition wf_event (ev : event) : Prop :=
  ks_ok (fst (fst (fst ev))) /\
  match snd ev with Refused regs => exists phys, regs = map menc_region phys | _ => True end.

(* the logical layout a keyspace sees of a physical one: each region's share of the keyspace, in order *)
Definition layout (c : ks) (regs : list (list N * list N)) : list (list N * list N) :=
  match decode_scan c regs with Some l => l | None => [] end.

Lemma layout_phys c phys : layout c (map menc_region phys) = flat_map (clip_region c) phys.
Proof. unfold layout. rewrite scan_decodes. reflexivity. Qed.

Lemma transmit_sim c o n out st : wf_event (c, o, n, out) -> store_ok st ->
  ltransmit (layout c) (o, out) (view c st) = (view c (fst (transmit (c, o, n, out) st)), snd (transmit (c, o, n, out) st)) /\
  (forall c', ks_ok c' -> c' <> c -> view c' (fst (transmit (c, o, n, out) st)) = view c' st) /\
  store_ok (fst (transmit (c, o, n, out) st)).
Proof.
  intros [Hc Hr] Hst. cbn [fst snd] in Hc, Hr.
  destruct (client_step_sim c o st Hc Hst) as (S1 & S2 & S3). unfold client_step in S1, S2, S3.
  destruct out as [regs| |]; cbn [transmit ltransmit].
  - destruct Hr as (phys & ->). cbn [fst snd]. rewrite layout_phys, scan_decodes. auto.
  - rewrite nth_wire_first. destruct (step (enc_op c o) st) as [st' r]. cbn [fst snd] in *.
    rewrite S1. cbn [fst]. auto.
  - rewrite nth_wire_first. destruct (step (enc_op c o) st) as [st' r]. cbn [fst snd] in *.
    rewrite S1. auto.
Qed.

Lemma trun_transparent c : ks_ok c -> forall tr st, store_ok st -> Forall wf_event tr ->
  proj_obs c (trun tr st) = ltrun (layout c) (proj_events c tr) (view c st) /\
  view c (trun_store tr st) = ltrun_store (layout c) (proj_events c tr) (view c st) /\
  store_ok (trun_store tr st).
Proof.
  intros Hc. induction tr as [|[[[c0 o] n] out] t IH]; intros st Hst Hall; [cbn; auto|].
  inversion Hall as [|? ? Hev Ht]; subst.
  destruct (transmit_sim c0 o n out st Hev Hst) as (S1 & S2 & S3).
  cbn [trun trun_store]. destruct (transmit (c0, o, n, out) st) as [st' ob] eqn:T. cbn [fst snd] in *.
  unfold proj_obs, proj_events. cbn [filter fst snd]. destruct (ks_eqb_spec c0 c) as [->|Hne].
  - cbn [map snd fst ltrun ltrun_store]. rewrite S1. cbn [fst].
    destruct (IH st' S3 Ht) as (I1 & I2 & I3). fold (proj_obs c (trun t st')). fold (proj_events c t).
    rewrite I1. auto.
  - rewrite <- (S2 c Hc (not_eq_sym Hne)). apply IH; assumption.
Qed.
