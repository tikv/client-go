(* ApiV2/ProofsRegion.v — DecodeRange / DecodeRegionRange clip a physical region to the keyspace *)
From Verif Require Import ApiV2.Model ApiV2.ProofsKey Codec.ProofsNum Codec.ProofsBytes.
Open Scope N_scope.

Lemma lex_le_not_lt a b : lex_le a b -> ~ lex_lt b a.
Proof. intros H L. exact (proj1 (lex_lt_not_le _ _) L H). Qed.

Lemma prefix_is_enc c : prefix c = encode_key c [].
Proof. unfold encode_key. rewrite app_nil_r. reflexivity. Qed.

(* a bound is a key of the keyspace, or lies below the prefix, or above every key of the keyspace *)
Lemma key_position c x :
  (exists k, x = encode_key c k) \/
  (has_prefix (prefix c) x = false /\ (lex_lt x (prefix c) \/ forall k, lex_lt (encode_key c k) x)).
Proof.
  destruct (has_prefix (prefix c) x) eqn:H; [left; eexists; apply has_prefix_enc; exact H|].
  right. split; [reflexivity|]. apply no_prefix_position. exact H.
Qed.

Lemma end_key_no_prefix c k : lex_le (end_key c) k -> has_prefix (prefix c) k = false.
Proof.
  intros H. destruct (has_prefix (prefix c) k) eqn:Hp; [|reflexivity]. exfalso.
  apply has_prefix_enc in Hp. rewrite Hp in H. exact (proj1 (lex_lt_not_le _ _) (enc_lt_end c _) H).
Qed.

Lemma strip_enc c k : strip_or_empty c (encode_key c k) = k.
Proof. unfold strip_or_empty. rewrite has_prefix_own, skipn_enc. reflexivity. Qed.

Lemma strip_no_prefix c x : has_prefix (prefix c) x = false -> strip_or_empty c x = [].
Proof. unfold strip_or_empty. intros ->. reflexivity. Qed.

(* the one class of start keys on which DecodeRange needs its second out-of-bound test (decode_range_gen false is
   wrong exactly there): strictly between prefix and endKey without carrying the prefix; only strings shorter than
   four bytes, see short_start_is_short *)
Definition short_start (c : ks) (s : list N) : Prop :=
  has_prefix (prefix c) s = false /\ lex_lt (prefix c) s /\ lex_lt s (end_key c).

Definition clip_spec (c : ks) (s e : list N) (r : range_res) : Prop :=
  match r with
  | ROk s' e' => forall k, in_range s' e' k <-> in_range s e (encode_key c k)
  | ROutOfBound => forall k, ~ in_range s e (encode_key c k)
  | RDecodeErr => False
  end.

Lemma short_start_is_short c s : wf_bytes s -> short_start c s -> (length s < 4)%nat.
Proof.
  intros Hwf (Hp & Hl & Hu). destruct (Nat.ltb (length s) 4) eqn:L; [apply Nat.ltb_lt; exact L|].
  apply Nat.ltb_ge in L. exfalso.
  assert (H : has_prefix (prefix c) s = true).
  { apply in_bounds_has_prefix; [assumption|lia|]. split; [|exact Hu]. unfold lex_le, lex_lt in *. congruence. }
  congruence.
Qed.

Lemma lower_bound_clip c s k : ~ short_start c s -> lex_lt s (end_key c) ->
  (lex_le (strip_or_empty c s) k <-> lex_le s (encode_key c k)).
Proof.
  intros Hns Hu. destruct (key_position c s) as [[k0 ->]|[Hp [L|G]]].
  - rewrite strip_enc, lex_le_enc. tauto.
  - (* below the prefix, hence below every key of the keyspace *)
    rewrite strip_no_prefix by exact Hp. split; intros _; [|apply lex_cmp_nil_l].
    apply lex_le_cases. left. exact (lex_lt_le_trans _ _ _ L (prefix_le_enc c k)).
  - exfalso. apply Hns. split; [exact Hp|]. split; [rewrite prefix_is_enc; apply G|exact Hu].
Qed.

Lemma upper_bound_clip c e k : ~ (e <> [] /\ lex_le e (prefix c)) ->
  ((strip_or_empty c e = [] \/ lex_lt k (strip_or_empty c e)) <-> (e = [] \/ lex_lt (encode_key c k) e)).
Proof.
  intros Hn. destruct (key_position c e) as [[k0 ->]|[Hp [L|G]]].
  - rewrite strip_enc, lex_lt_enc.
    assert (k0 <> []) by (intros ->; apply Hn; rewrite <- prefix_is_enc; split; [apply prefix_ne|apply lex_le_refl]).
    pose proof (encode_key_ne c k0).
    tauto.
  - rewrite strip_no_prefix by exact Hp. destruct e as [|b e]; [tauto|].
    exfalso. apply Hn. split; [discriminate|]. apply lex_le_cases. left. exact L.
  - rewrite strip_no_prefix by exact Hp. split; intros _; [right; apply G|left; reflexivity].
Qed.

Lemma decode_range_gen_clip fixed c s e : (fixed = true \/ ~ short_start c s) ->
  clip_spec c s e (decode_range_gen fixed c s e).
Proof.
  intros Hns. unfold decode_range_gen.
  destruct (lex_leb (end_key c) s) eqn:H1; cbn [orb].
  - (* start at or above the end key *)
    intros k [Hl _]. apply lex_leb_le in H1.
    exact (proj1 (lex_lt_not_le _ _) (lex_lt_le_trans _ _ _ (enc_lt_end c k) H1) Hl).
  - apply lex_leb_false in H1.
    destruct (negb (nilb e) && lex_leb e (prefix c)) eqn:H2.
    + (* end at or below the prefix *)
      apply andb_true_iff in H2 as [Hne Hle]. apply negb_true_iff, nilb_false in Hne. apply lex_leb_le in Hle.
      intros k [_ [Hu|Hu]]; [contradiction|].
      exact (proj1 (lex_lt_not_le _ _) (lex_lt_le_trans _ _ _ Hu Hle) (prefix_le_enc c k)).
    + assert (Hn : ~ (e <> [] /\ lex_le e (prefix c))).
      { intros [A B]. apply nilb_false in A. apply lex_leb_le in B. rewrite A, B in H2. discriminate. }
      destruct (fixed && negb (has_prefix (prefix c) s) && lex_ltb (prefix c) s) eqn:H3.
      * (* start above every key of the keyspace *)
        apply andb_true_iff in H3 as [H3 Hl]. apply andb_true_iff in H3 as [_ Hp].
        apply negb_true_iff in Hp. apply lex_ltb_lt in Hl.
        destruct (no_prefix_position _ _ Hp) as [L|G]; [exfalso; exact (lex_lt_irrefl _ (lex_cmp_lt_trans _ _ _ L Hl))|].
        intros k [Hk _]. exact (proj1 (lex_lt_not_le _ _) (G k) Hk).
      * assert (Hns' : ~ short_start c s).
        { destruct Hns as [->|Hns]; [|exact Hns]. intros (Hp & Hl & _).
          apply lex_ltb_lt in Hl. rewrite Hp, Hl in H3. discriminate. }
        intros k. unfold in_range. rewrite (lower_bound_clip c s k Hns' H1), (upper_bound_clip c e k Hn). tauto.
Qed.

(* what an accepted range passed: the results are the stripped bounds; the start is below the end key and is a
   key of the keyspace or below the prefix; the end is unbounded or above the prefix *)
Lemma decode_range_ok_inv c s e s' e' : decode_range c s e = ROk s' e' ->
  s' = strip_or_empty c s /\ e' = strip_or_empty c e /\ lex_lt s (end_key c) /\
  (e = [] \/ lex_lt (prefix c) e) /\
  ((exists k, s = encode_key c k) \/ (has_prefix (prefix c) s = false /\ lex_lt s (prefix c))).
Proof.
  unfold decode_range, decode_range_gen. cbn [andb].
  destruct (lex_leb (end_key c) s) eqn:T1; [discriminate|]. cbn [orb].
  destruct (negb (nilb e) && lex_leb e (prefix c)) eqn:T2; [discriminate|].
  destruct (negb (has_prefix (prefix c) s) && lex_ltb (prefix c) s) eqn:T3; [discriminate|].
  intros [= <- <-]. apply lex_leb_false in T1. repeat split; try exact T1.
  - destruct e as [|b e]; [left; reflexivity|right]. apply lex_leb_false. exact T2.
  - destruct (key_position c s) as [K|[Hp [L|G]]]; [left; exact K|right; split; [exact Hp|exact L]|exfalso].
    rewrite Hp in T3. cbn [negb andb] in T3. specialize (G []). rewrite <- prefix_is_enc in G.
    apply lex_ltb_lt in G. congruence.
Qed.

Lemma decode_range_clip c s e : clip_spec c s e (decode_range c s e).
Proof. apply decode_range_gen_clip. left; reflexivity. Qed.

(* regression witness: without the second out-of-bound test (the code before f1823af) the formula is wrong for
   keyspace 255 (raw) and the region [72 00 01, 72 00 01 00 05), which lies above the whole keyspace but decodes to
   the whole keyspace *)
Lemma decode_range_prefix_refuted : ~ (forall c s e, ks_ok c -> clip_spec c s e (decode_range_gen false c s e)).
Proof.
  intros H. specialize (H (mkks Raw 255) [114;0;1] [114;0;1;0;5]).
  assert (Hok : ks_ok (mkks Raw 255)) by (unfold ks_ok; cbn; reflexivity).
  specialize (H Hok). vm_compute in H. destruct (H []) as [H1 _].
  assert (A : in_range [] [] []) by (split; [unfold lex_le; cbn; discriminate|left; reflexivity]).
  destruct (H1 A) as [B _]. apply B. reflexivity.
Qed.

(* a region bound as PD holds it: memcomparable, the empty (unbounded) bound left empty *)
Definition mem_enc (x : list N) : list N := if nilb x then [] else encode_bytes x.

Lemma mem_enc_ne x : nilb x = false -> mem_enc x = encode_bytes x.
Proof. unfold mem_enc. intros ->. reflexivity. Qed.

Lemma mem_enc_nil x : mem_enc x = [] <-> x = [].
Proof.
  unfold mem_enc. destruct x as [|b x]; [tauto|]. cbn [nilb].
  split; [intros E; destruct (encode_bytes_not_nil _ E)|discriminate].
Qed.

Lemma mem_decode_enc x : mem_decode_opt (mem_enc x) = Some x.
Proof.
  unfold mem_decode_opt. destruct (nilb (mem_enc x)) eqn:Hx.
  - apply nilb_true in Hx. apply (proj1 (mem_enc_nil x)) in Hx. subst. reflexivity.
  - rewrite mem_enc_ne by (apply nilb_false; intros ->; discriminate).
    unfold mem_decode. rewrite decode_encode_bytes_nil. reflexivity.
Qed.

Lemma decode_region_range_enc c s e : decode_region_range c (mem_enc s) (mem_enc e) = decode_range c s e.
Proof. unfold decode_region_range. rewrite !mem_decode_enc. reflexivity. Qed.

Lemma region_clip c s e : clip_spec c s e (decode_region_range c (mem_enc s) (mem_enc e)).
Proof. rewrite decode_region_range_enc. apply decode_range_clip. Qed.

(* a bound DecodeRegionRange accepts is empty or starts with a canonical memcomparable string; what follows it is
   dropped, as memComparableCodec.decodeKey does *)
Lemma mem_decode_opt_strict b k : mem_decode_opt b = Some k -> b <> [] -> exists r, b = encode_bytes k ++ r.
Proof.
  unfold mem_decode_opt, mem_decode. intros H Hne. apply nilb_false in Hne. rewrite Hne in H.
  destruct (decode_bytes b) as [[r k']|] eqn:D; [|discriminate]. injection H as <-.
  exists r. apply decode_bytes_strict. exact D.
Qed.

Lemma region_range_strict c s e : decode_region_range c s e <> RDecodeErr ->
  exists ps pe, decode_region_range c s e = decode_range c ps pe /\
    (s <> [] -> exists r, s = encode_bytes ps ++ r) /\ (e <> [] -> exists r, e = encode_bytes pe ++ r) /\
    (s = [] -> ps = []) /\ (e = [] -> pe = []).
Proof.
  unfold decode_region_range. intros H.
  destruct (mem_decode_opt s) as [ps|] eqn:Ds; [|congruence].
  destruct (mem_decode_opt e) as [pe|] eqn:De; [|congruence].
  exists ps, pe. split; [reflexivity|]. repeat split.
  - apply mem_decode_opt_strict; exact Ds.
  - apply mem_decode_opt_strict; exact De.
  - intros ->. cbn in Ds. congruence.
  - intros ->. cbn in De. congruence.
Qed.

Lemma region_key_cmp c a b : lex_cmp (encode_region_key c a) (encode_region_key c b) = lex_cmp a b.
Proof. unfold encode_region_key. rewrite encode_bytes_order. apply encode_key_cmp. Qed.

Lemma region_key_roundtrip c k : decode_region_key c (encode_region_key c k) = KOk k.
Proof.
  unfold decode_region_key, encode_region_key, mem_decode.
  rewrite decode_encode_bytes_nil, decode_encode_key. reflexivity.
Qed.

Lemma strip_enc_end c e : strip_or_empty c (enc_end c e) = e.
Proof.
  unfold enc_end. destruct (nilb e) eqn:Ne; [|apply strip_enc].
  apply nilb_true in Ne. subst e. apply strip_no_prefix, end_key_no_prefix, lex_le_refl.
Qed.

Lemma prefix_lt_enc_end c e : lex_lt (prefix c) (enc_end c e).
Proof.
  unfold enc_end. rewrite prefix_is_enc. destruct (nilb e) eqn:Ne; [apply enc_lt_end|].
  apply lex_lt_enc. destruct e; [discriminate|reflexivity].
Qed.

Lemma decode_range_enc c s e : decode_range c (encode_key c s) (enc_end c e) = ROk s e.
Proof.
  unfold decode_range, decode_range_gen.
  rewrite (proj2 (lex_leb_false _ _) (enc_lt_end c s)), (proj2 (lex_leb_false _ _) (prefix_lt_enc_end c e)), andb_false_r.
  rewrite has_prefix_own, strip_enc, strip_enc_end. reflexivity.
Qed.

Lemma region_range_roundtrip c s e :
  let '(a, b) := encode_region_range c s e in
  decode_region_range c a b = ROk s e.
Proof.
  unfold encode_region_range. cbn [encode_range].
  rewrite <- (mem_enc_ne (encode_key c s)) by apply nilb_enc.
  rewrite <- (mem_enc_ne (enc_end c e)) by apply enc_end_ne.
  rewrite decode_region_range_enc. apply decode_range_enc.
Qed.
