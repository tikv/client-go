(* ApiV2/Props.v — property C15: the API v2 (keyspace) codec is transparent to a keyspace-bound client, isolates
   keyspaces from each other, and is complete over all commands (the last as a finite check, see the end).
   Each theorem is closed by [exact <lemma>] and followed by Print Assumptions. *)
From Verif Require Import ApiV2.Model ApiV2.ProofsKey ApiV2.ProofsRegion ApiV2.ProofsStore ApiV2.ProofsPD ApiV2.ProofsProgram ApiV2.Pool ApiV2.ProofsPool ApiV2.PoolFail ApiV2.Catalogue.
Open Scope N_scope.

Theorem C15_key_roundtrip : forall c k, decode_key c (encode_key c k) = Some k.
Proof. exact decode_encode_key. Qed.
Print Assumptions C15_key_roundtrip.

(* whatever DecodeKey accepts (other than the empty key, which passes through) is the image of its result *)
Theorem C15_key_strict : forall c e k, e <> [] -> decode_key c e = Some k -> e = encode_key c k.
Proof. exact decode_key_inv. Qed.
Print Assumptions C15_key_strict.

(* --- order: prefixing preserves the lexicographic order, so a logical range maps exactly to the
       physical range, including the empty (= unbounded) end and reversed bounds --- *)
Theorem C15_order_cmp : forall c a b, lex_cmp (encode_key c a) (encode_key c b) = lex_cmp a b.
Proof. exact encode_key_cmp. Qed.
Print Assumptions C15_order_cmp.

Theorem C15_order : forall c s e k,
  in_range s e k <->
  in_range (fst (encode_range c false s e)) (snd (encode_range c false s e)) (encode_key c k).
Proof. exact order_fwd. Qed.
Print Assumptions C15_order.

Theorem C15_order_reverse : forall c s e k,
  in_range e s k <->
  in_range (snd (encode_range c true s e)) (fst (encode_range c true s e)) (encode_key c k).
Proof. exact order_rev. Qed.
Print Assumptions C15_order_reverse.

(* the physical upper bound is never the empty (= unbounded) key: a scan cannot run past the keyspace *)
Theorem C15_order_bounded : forall c s e,
  snd (encode_range c false s e) <> [] /\ fst (encode_range c true s e) <> [].
Proof. exact encode_range_end_ne. Qed.
Print Assumptions C15_order_bounded.

Theorem C15_isolation : forall c1 c2 k1 k2, ks_ok c1 -> ks_ok c2 -> c1 <> c2 ->
  encode_key c1 k1 <> encode_key c2 k2.
Proof. exact images_disjoint. Qed.
Print Assumptions C15_isolation.

Theorem C15_isolation_decode : forall c1 c2 k, ks_ok c1 -> ks_ok c2 -> c1 <> c2 ->
  decode_key c1 (encode_key c2 k) = None.
Proof. exact decode_foreign. Qed.
Print Assumptions C15_isolation_decode.

(* no range a client of c1 can put on the wire contains a key of c2 *)
Theorem C15_isolation_range : forall c1 c2 s e k, ks_ok c1 -> ks_ok c2 -> c1 <> c2 ->
  in_rangeb (encode_key c1 s) (enc_end c1 e) (encode_key c2 k) = false.
Proof. exact foreign_not_in_range. Qed.
Print Assumptions C15_isolation_range.

(* a well-formed key of >= 4 bytes is in [prefix, endKey) iff it carries the prefix (and then decodes) *)
Theorem C15_isolation_bounds : forall c x, wf_bytes x -> (4 <= length x)%nat ->
  (lex_le (prefix c) x /\ lex_lt x (end_key c)) <-> has_prefix (prefix c) x = true.
Proof. exact in_bounds_has_prefix. Qed.
Print Assumptions C15_isolation_bounds.

(* DecodeRegionRange on the memcomparable bounds of a physical region [s, e) ([] = unbounded):
   ROk s' e' describes exactly the region's intersection with the keyspace in logical keys,
   ROutOfBound means the intersection is empty; for every keyspace and every pair of bounds. *)
Theorem C15_region_clip : forall c s e,
  clip_spec c s e (decode_region_range c (mem_enc s) (mem_enc e)).
Proof. exact region_clip. Qed.
Print Assumptions C15_region_clip.

Theorem C15_range_clip : forall c s e, clip_spec c s e (decode_range c s e).
Proof. exact decode_range_clip. Qed.
Print Assumptions C15_range_clip.

(* regression witness: the formula before repair f1823af (no test for a start key above the prefix that
   lacks the prefix) is refuted: keyspace 255 raw, region [72 00 01, 72 00 01 00 05) *)
Theorem C15_region_clip_prefix_formula_refuted :
  ~ (forall c s e, ks_ok c -> clip_spec c s e (decode_range_gen false c s e)).
Proof. exact decode_range_prefix_refuted. Qed.
Print Assumptions C15_region_clip_prefix_formula_refuted.

(* the strings on which the two formulas differ are shorter than four bytes *)
Theorem C15_region_clip_short_class : forall c s, wf_bytes s -> short_start c s -> (length s < 4)%nat.
Proof. exact short_start_is_short. Qed.
Print Assumptions C15_region_clip_short_class.

Theorem C15_region_strict : forall c s e, decode_region_range c s e <> RDecodeErr ->
  exists ps pe, decode_region_range c s e = decode_range c ps pe /\
    (s <> [] -> exists r, s = encode_bytes ps ++ r) /\ (e <> [] -> exists r, e = encode_bytes pe ++ r) /\
    (s = [] -> ps = []) /\ (e = [] -> pe = []).
Proof. exact region_range_strict. Qed.
Print Assumptions C15_region_strict.

Theorem C15_region_key_order : forall c a b,
  lex_cmp (encode_region_key c a) (encode_region_key c b) = lex_cmp a b.
Proof. exact region_key_cmp. Qed.
Print Assumptions C15_region_key_order.

Theorem C15_region_roundtrip : forall c s e,
  let '(a, b) := encode_region_range c s e in decode_region_range c a b = ROk s e.
Proof. exact region_range_roundtrip. Qed.
Print Assumptions C15_region_roundtrip.

(* --- PD side (CodecPDClient under API v2) --- *)
(* GetRegion / GetPrevRegion / ScanRegions: the region PD selects by comparing EncodeRegionKey(k) with the
   memcomparable bounds decodes to a logical region that contains k and is exactly the physical region's
   share of the keyspace *)
Theorem C15_pd_locate : forall c s e k, in_range (mem_enc s) (mem_enc e) (encode_region_key c k) ->
  exists s' e', decode_region_range c (mem_enc s) (mem_enc e) = ROk s' e' /\ in_range s' e' k /\
                (forall k', in_range s' e' k' <-> in_range s e (encode_key c k')).
Proof. exact pd_locate. Qed.
Print Assumptions C15_pd_locate.

(* GetRegionByID / a scan result: a proper region without any key of the keyspace is an error, never a region *)
Theorem C15_pd_outside_error : forall c s e, (e = [] \/ lex_lt s e) ->
  (forall k, ~ in_range s e (encode_key c k)) -> decode_range c s e = ROutOfBound.
Proof. exact region_outside_error. Qed.
Print Assumptions C15_pd_outside_error.

(* ScanRegions / BatchScanRegions: neighbouring regions stay neighbours after decoding *)
Theorem C15_pd_contiguous : forall c s m e s1 e1 s2 e2,
  decode_range c s m = ROk s1 e1 -> decode_range c m e = ROk s2 e2 -> e1 = s2.
Proof. exact pd_contiguous. Qed.
Print Assumptions C15_pd_contiguous.

(* DecodeBucketKeys: the non-empty logical boundaries are exactly the stripped in-keyspace boundaries; two
   logical keys fall into different buckets iff their images do *)
Theorem C15_bucket_separators : forall c keys ks out, map_opt mem_decode_opt keys = Some ks ->
  decode_bucket_keys c keys = Some out ->
  forall x, x <> [] -> (In x out <-> In (encode_key c x) ks).
Proof. exact bucket_separators. Qed.
Print Assumptions C15_bucket_separators.

Theorem C15_bucket_same_bucket : forall c keys ks out, map_opt mem_decode_opt keys = Some ks ->
  decode_bucket_keys c keys = Some out ->
  forall x y, (exists l, In l out /\ l <> [] /\ lex_lt x l /\ lex_le l y) <->
              (exists b, In b ks /\ lex_lt (encode_key c x) b /\ lex_le b (encode_key c y)).
Proof. exact bucket_same_bucket. Qed.
Print Assumptions C15_bucket_same_bucket.

(* the bucket list starts at the decoded region start and ends at the decoded region end *)
Theorem C15_bucket_first : forall c k0 rest kn s e, rest <> [] -> decode_range c k0 kn = ROk s e ->
  exists t, dbk c true [] (k0 :: rest) = s :: t.
Proof. exact (fun c k0 rest kn s e _ => bucket_first c k0 rest kn s e). Qed.
Print Assumptions C15_bucket_first.

Theorem C15_bucket_last : forall c rest f out k0 s e, rest <> [] ->
  decode_range c k0 (last rest []) = ROk s e ->
  last (dbk c f out rest) [0] = e.
Proof. exact bucket_last. Qed.
Print Assumptions C15_bucket_last.

(* ScanRegions / BatchScanRegions (decodeScannedRegions): the decoded answer is, in order, the clipped form of exactly
   the regions of PD's answer that decode; for a proper region "decodes" = "holds a key of the keyspace"; a region
   lying between two keys of the keyspace holds one (so in a chain the kept regions are consecutive and the decoded
   answer is contiguous by C15_pd_contiguous) *)
Theorem C15_pd_scan : forall c phys,
  decode_scan c (map menc_region phys) = Some (flat_map (clip_region c) phys) /\
  flat_map (clip_region c) phys = flat_map (clip_region c) (filter (holds_key c) phys).
Proof. exact (fun c phys => conj (scan_decodes c phys) (clip_kept c phys)). Qed.
Print Assumptions C15_pd_scan.

Theorem C15_pd_scan_kept : forall c s e, (e = [] \/ lex_lt s e) ->
  (holds_key c (s, e) = true <-> exists k, in_range s e (encode_key c k)).
Proof. exact holds_key_spec. Qed.
Print Assumptions C15_pd_scan_kept.

Theorem C15_pd_scan_convex : forall c s e k1 k2,
  lex_le (encode_key c k1) s -> lex_lt s e -> lex_le e (encode_key c k2) ->
  exists x, s = encode_key c x /\ in_range s e (encode_key c x).
Proof. exact between_holds. Qed.
Print Assumptions C15_pd_scan_convex.

(* decodeRegionError: the region error of any response, built from a physical layout, comes out as the logical one:
   KeyNotInRegion with the logical key and the region's share of the keyspace (which contains the key), EpochNotMatch
   with the logical layout (foreign regions dropped), BucketVersionNotMatch with the clipped bucket list *)
Theorem C15_region_error : forall c k s e phys bs ks,
  in_range s e (encode_key c k) -> map_opt mem_decode_opt bs = Some ks ->
  exists s' e', decode_range c s e = ROk s' e' /\ in_range s' e' k /\
    decode_region_error c (mkre (Some (encode_key c k, mem_enc s, mem_enc e)) (Some (map menc_region phys)) (Some bs))
    = Some (mkre (Some (k, s', e')) (Some (flat_map (clip_region c) phys)) (Some (dbk c true [] ks))).
Proof. exact region_error_decode. Qed.
Print Assumptions C15_region_error.

Theorem C15_region_error_foreign : forall c c2 k s e ep bv, ks_ok c -> ks_ok c2 -> c <> c2 ->
  decode_region_error c (mkre (Some (encode_key c2 k, s, e)) ep bv) = None.
Proof. exact region_error_foreign. Qed.
Print Assumptions C15_region_error_foreign.

(* a whole response, as the list of its key-bearing fields: decoded field by field, or refused as a whole *)
Theorem C15_response_fields : forall c ks, decode_fields c (map (encode_key c) ks) = Some ks.
Proof. exact decode_fields_own. Qed.
Print Assumptions C15_response_fields.

Theorem C15_response_fields_foreign : forall c c2 k fs, ks_ok c -> ks_ok c2 -> c <> c2 ->
  In (encode_key c2 k) fs -> decode_fields c fs = None.
Proof. exact decode_fields_foreign. Qed.
Print Assumptions C15_response_fields_foreign.

(* the free function apicodec.DecodeKey(encoded, V2) *)
Theorem C15_split_key : forall c k, split_v2_key (encode_key c k) = Some (prefix c, k).
Proof. exact split_encode. Qed.
Print Assumptions C15_split_key.

(* ParseKeyspaceID *)
Theorem C15_parse_keyspace_id : forall c k, ks_ok c -> parse_keyspace_id (encode_key c k) = Some (ks_id c).
Proof. exact parse_encode. Qed.
Print Assumptions C15_parse_keyspace_id.

Theorem C15_parse_keyspace_id_strict : forall b id, wf_bytes b -> parse_keyspace_id b = Some id ->
  exists c k, ks_ok c /\ ks_id c = id /\ b = encode_key c k.
Proof. exact parse_strict. Qed.
Print Assumptions C15_parse_keyspace_id_strict.

(* --- transparency over an abstract ordered-map store --- *)
(* one step of a keyspace-bound client on a shared store = the same step of an unprefixed client on
   the logical view; no other keyspace's view changes; the store stays admissible *)
Theorem C15_transparent_step : forall c o st, ks_ok c -> store_ok st ->
  step o (view c st) = (view c (fst (client_step c o st)), snd (client_step c o st)) /\
  (forall c', ks_ok c' -> c' <> c -> view c' (fst (client_step c o st)) = view c' st) /\
  store_ok (fst (client_step c o st)).
Proof. exact client_step_sim. Qed.
Print Assumptions C15_transparent_step.

(* any interleaving of any number of keyspace-bound clients: what client c observes, and the final
   contents of its keyspace, are those of c's own operations run unprefixed on its initial view *)
Theorem C15_transparent : forall c, ks_ok c -> forall tr st, store_ok st ->
  Forall (fun co => ks_ok (fst co)) tr ->
  proj_res c (run tr st) = lrun (proj_ops c tr) (view c st) /\
  view c (run_store tr st) = lrun_store (proj_ops c tr) (view c st) /\
  store_ok (run_store tr st).
Proof. exact run_transparent. Qed.
Print Assumptions C15_transparent.

(* --- retransmissions: the client encodes the caller's request, never an already encoded one --- *)
(* C15_retransmit is definitional (both branches of nth_wire's loop return enc_op): it only names the shape of the
   sequential model's send loop. The content - that the real plumbing (request pool, cloning, AttachContext) behaves like
   that for every schedule and pool behaviour - is C15_pool_safety / C15_pool_safety_failures and the refuted variants below. *)
Theorem C15_retransmit : forall c o n, nth_wire false c o n = enc_op c o.
Proof. exact nth_wire_first. Qed.
Print Assumptions C15_retransmit.

Theorem C15_retransmit_transparent : forall c o n st, ks_ok c -> store_ok st ->
  let '(st', r) := step (nth_wire false c o n) st in
  step o (view c st) = (view c st', dec_res c r) /\
  (forall c', ks_ok c' -> c' <> c -> view c' st' = view c' st).
Proof. exact retransmit_transparent. Qed.
Print Assumptions C15_retransmit_transparent.

Theorem C15_encode_not_idempotent : forall c k, encode_key c (encode_key c k) <> encode_key c k.
Proof. exact encode_key_not_idempotent. Qed.
Print Assumptions C15_encode_not_idempotent.

(* a send loop that re-encodes the previous transmission is refuted: the acknowledged write is lost to its author *)
Theorem C15_reencoding_client_refuted : exists c k v,
  ks_ok c /\ nth_wire true c (OPut k v) 1 <> enc_op c (OPut k v) /\
  lookup k (view c (fst (step (nth_wire true c (OPut k v) 1) []))) = None /\
  lookup k (view c (fst (step (nth_wire false c (OPut k v) 1) []))) = Some v.
Proof. exact reencode_refuted. Qed.
Print Assumptions C15_reencoding_client_refuted.

(* --- the codec plumbing at object level: request pool, cloning, AttachContext, order of the calls (Pool.v) --- *)
(* callers own the request objects below br and the messages below bm. For ANY schedule of transmissions of the callers'
   requests (the same object any number of times, callers in any order) and ANY behaviour of the pool (hands out any
   pooled object or a new one), every transmission reaches the wire with each key prefixed exactly once and a context
   carrying api version + keyspace, and the invariant is kept: pooled objects are never the callers', the callers'
   request objects and the keys of their messages stay unchanged *)
Theorem C15_pool_safety : forall c br bm h0 sch h ws h', inv br bm h0 h -> Forall (fun ai => (fst ai < br)%nat) sch ->
  sends real c sch h = (ws, h') ->
  inv br bm h0 h' /\ ws = map (fun ai => wire_spec c h0 (fst ai)) sch.
Proof. exact sends_real. Qed.
Print Assumptions C15_pool_safety.

Theorem C15_pool_callers_untouched : forall br bm h0 h, inv br bm h0 h ->
  forall a, (a < br)%nat -> rh h a = rh h0 a /\ m_keys (mh h (r_inner (rh h a))) = m_keys (mh h0 (r_inner (rh h0 a))).
Proof. exact callers_untouched. Qed.
Print Assumptions C15_pool_callers_untouched.

(* the same with transmissions that fail below the codec (connection error, timeout): SendRequest returns before
   DecodeResponse, the encoded request is not recycled, the caller re-sends the same object *)
Theorem C15_pool_safety_failures : forall c br bm h0 sch h ws h', inv br bm h0 h ->
  Forall (fun x => (fst (fst x) < br)%nat) sch -> sendsx real c sch h = (ws, h') ->
  inv br bm h0 h' /\ ws = map (fun x => wire_spec c h0 (fst (fst x))) sch.
Proof. exact sendsx_real. Qed.
Print Assumptions C15_pool_safety_failures.

(* each deviation flag of Pool.v (a change to the plumbing that breaks it) is refuted by a schedule of two or three
   transmissions *)
Theorem C15_pool_decode_caller_refuted :
  fst (sends (mkflags true false false false) demo_ks [(0, 0); (0, 0); (0, 0)]%nat demo_heap)
  = [([[120; 0; 1; 2; 7]], Some true); ([[120; 0; 1; 2; 7]], Some true); ([[120; 0; 1; 2; 120; 0; 1; 2; 7]], Some true)].
Proof. exact decode_caller_refuted. Qed.
Print Assumptions C15_pool_decode_caller_refuted.

Theorem C15_pool_in_place_refuted :
  let '(ws, h) := sends (mkflags false true false false) demo_ks [(0, 0); (0, 0)]%nat demo_heap in
  ws = [([[120; 0; 1; 2; 7]], Some true); ([[120; 0; 1; 2; 120; 0; 1; 2; 7]], Some true)] /\
  m_keys (mh h 0%nat) = [[120; 0; 1; 2; 120; 0; 1; 2; 7]].
Proof. exact in_place_refuted. Qed.
Print Assumptions C15_pool_in_place_refuted.

Theorem C15_pool_return_caller_refuted :
  fst (sends (mkflags false false true false) demo_ks [(1, 0); (2, 0); (1, 0)]%nat demo_heap)
  = [([], Some true); ([[120; 0; 1; 2; 9]], Some true); ([[120; 0; 1; 2; 120; 0; 1; 2; 9]], Some true)].
Proof. exact return_caller_refuted. Qed.
Print Assumptions C15_pool_return_caller_refuted.

Theorem C15_pool_attach_first_refuted :
  let '(ws, h) := sends (mkflags false false false true) demo_ks [(0, 0); (0, 0)]%nat demo_heap in
  ws = [([[120; 0; 1; 2; 7]], Some false); ([[120; 0; 1; 2; 7]], Some false)] /\ r_inner (rh h 0%nat) <> 0%nat.
Proof. exact attach_first_refuted. Qed.
Print Assumptions C15_pool_attach_first_refuted.

(* --- programs of transmissions: retransmissions, lost answers and region errors, any interleaving of clients --- *)
(* every event is one transmission (the (n+1)-th of its request) that the store refuses with a region error describing
   a physical layout, executes without the answer arriving, or executes and answers. What client c learns - results,
   and the decoded region descriptions of region errors - and the final contents of its keyspace are those of an
   unprefixed client going through the same schedule on c's logical view, whose region errors show the logical layout
   (each physical region's share of the keyspace, in order: C15_pd_scan) *)
Theorem C15_transparency : forall c, ks_ok c -> forall tr st, store_ok st -> Forall wf_event tr ->
  proj_obs c (trun tr st) = ltrun (layout c) (proj_events c tr) (view c st) /\
  view c (trun_store tr st) = ltrun_store (layout c) (proj_events c tr) (view c st) /\
  store_ok (trun_store tr st).
Proof. exact trun_transparent. Qed.
Print Assumptions C15_transparency.

Theorem C15_transparency_layout : forall c phys, layout c (map menc_region phys) = flat_map (clip_region c) phys.
Proof. exact layout_phys. Qed.
Print Assumptions C15_transparency_layout.

(* the command catalogue: this only unfolds the boolean [catalogue_ok] (Catalogue.v) row by row. What a run establishes
   is that the Go reflection driver reported a complete row for every command / field of this tree's finite table and
   that Coq re-checked the table (vm_compute in build/apiv2/Gen_Catalogue.v); nothing is proved here about
   EncodeRequest / DecodeResponse for all inputs. *)
Theorem C15_catalogue_meaning : forall fields cmds, catalogue_ok fields cmds = true ->
  (forall f, In f fields -> f_obs f = expected f /\ f_foreign_rejected f = true) /\
  (forall x, In x cmds ->
     x_enc_ok x = true /\
     (x_has_ctx x = true -> x_attach x = true /\ x_ctx_set x = true) /\
     (x_resp_rerr x = true -> x_genre x = true /\ x_readback x = true) /\
     (x_resp_rerr x = true -> x_clip x = true) /\
     (x_batch x = true -> x_batch_rt x = true)).
Proof. exact catalogue_ok_meaning. Qed.
Print Assumptions C15_catalogue_meaning.

Example ex_prefix : prefix (mkks Txn 258) = [120; 0; 1; 2] /\ end_key (mkks Txn 258) = [120; 0; 1; 3].
Proof. vm_compute. auto. Qed.
Example ex_carry : prefix (mkks Raw 65535) = [114; 0; 255; 255] /\ end_key (mkks Raw 65535) = [114; 1; 0; 0].
Proof. vm_compute. auto. Qed.
Example ex_max : end_key (mkks Txn 16777215) = [121; 0; 0; 0] /\ ks_ok (mkks Txn 16777215).
Proof. split; vm_compute; auto. Qed.
Example ex_range_rev : encode_range (mkks Raw 1) true [] [5] = ([114; 0; 0; 2], [114; 0; 0; 1; 5]).
Proof. vm_compute. reflexivity. Qed.
Example ex_clip : decode_range (mkks Raw 1) [114; 0; 0; 0; 9] [114; 0; 0; 1; 7] = ROk [] [7]
  /\ decode_range (mkks Raw 1) [114; 0; 0; 2] [] = ROutOfBound
  /\ decode_range (mkks Raw 255) [114; 0; 1] [114; 0; 1; 0; 5] = ROutOfBound
  /\ decode_range_gen false (mkks Raw 255) [114; 0; 1] [114; 0; 1; 0; 5] = ROk [] [].
Proof. repeat split; vm_compute; reflexivity. Qed.
(* end of the id space: id 0xFFFFFF carries into the mode byte; isolation and clipping instances there *)
Example ex_last_id : prefix (mkks Raw 16777215) = [114; 255; 255; 255] /\ end_key (mkks Raw 16777215) = [115; 0; 0; 0]
  /\ ks_ok (mkks Raw 16777215) /\ mkks Raw 16777215 <> mkks Txn 16777215
  /\ decode_key (mkks Txn 16777215) (encode_key (mkks Raw 16777215) [1]) = None
  /\ decode_key (mkks Raw 0) (encode_key (mkks Raw 16777215) [1]) = None
  /\ in_rangeb (encode_key (mkks Raw 16777215) []) (enc_end (mkks Raw 16777215) []) (encode_key (mkks Txn 0) []) = false
  /\ decode_range (mkks Raw 16777215) [115] [] = ROutOfBound
  /\ decode_range (mkks Raw 16777215) [114; 255; 255; 254; 9] [115; 0] = ROk [] []
  /\ decode_range (mkks Raw 16777215) [114; 255; 255; 255; 7] [114; 255; 255; 255; 9] = ROk [7] [9].
Proof. repeat split; try (vm_compute; reflexivity); try (vm_compute; congruence). Qed.
Example ex_isolation_modes : forall id k1 k2, id < two24 -> encode_key (mkks Raw id) k1 <> encode_key (mkks Txn id) k2.
Proof. intros id k1 k2 H. apply C15_isolation; try exact H. congruence. Qed.
(* regression examples for the repairs bbcfa45 (bucket end) and 163e34b (scan skips foreign regions) *)
Example ex_bucket_last_before_repair :
  decode_range (mkks Raw 255) [114;0;0;255;97] [114;0;1] = ROk [97] [] /\
  dbk_gen false (mkks Raw 255) true [] [[114;0;0;255;97]; [114;0;0;255;109]; [114;0;1]] = [[97]; [109]] /\
  dbk (mkks Raw 255) true [] [[114;0;0;255;97]; [114;0;0;255;109]; [114;0;1]] = [[97]; [109]; []].
Proof. exact bucket_last_before_repair. Qed.
Example ex_scan_short_region :
  decode_scan (mkks Raw 255) (map menc_region [([], [114;0;0;255;109]); ([114;0;0;255;109], [114;0;1]); ([114;0;1], [114;0;1;0]); ([114;0;1;0], [])])
  = Some [([], [109]); ([109], [])].
Proof. vm_compute. reflexivity. Qed.
Example ex_buckets :
  decode_bucket_keys (mkks Raw 1) [[]; encode_bytes [114;0;0;1]; encode_bytes [114;0;0;1;5]; encode_bytes [114;0;0;2;1]]
    = Some [[]; [5]; []]
  /\ parse_keyspace_id [120; 0; 1; 2; 9] = Some 258 /\ parse_keyspace_id [109; 0; 1; 2] = None /\ parse_keyspace_id [120; 0; 1] = None.
Proof. repeat split; vm_compute; reflexivity. Qed.
Example ex_region_error :
  decode_region_error (mkks Raw 255)
    (mkre (Some ([114;0;0;255;113], mem_enc [114;0;0;255;109], mem_enc [114;0;1]))
          (Some (map menc_region [([], [114;0;0;255;109]); ([114;0;0;255;109], [114;0;1]); ([114;0;1], [114;0;1;0])]))
          (Some [mem_enc [114;0;0;255;109]; mem_enc [114;0;0;255;112]; mem_enc [114;0;1]]))
  = Some (mkre (Some ([113], [109], [])) (Some [([], [109]); ([109], [])]) (Some [[109]; [112]; []]))
  /\ split_v2_key [120; 0; 1; 2; 9] = Some ([120; 0; 1; 2], [9]) /\ split_v2_key [109; 0; 1; 2; 9] = None.
Proof. repeat split; vm_compute; reflexivity. Qed.
Example ex_pool : inv 3%nat 3%nat demo_heap demo_heap /\
  fst (sends real demo_ks [(0, 0); (1, 0); (0, 0); (2, 5); (1, 1); (0, 0)]%nat demo_heap)
  = [([[120; 0; 1; 2; 7]], Some true); ([], Some true); ([[120; 0; 1; 2; 7]], Some true); ([[120; 0; 1; 2; 9]], Some true); ([], Some true); ([[120; 0; 1; 2; 7]], Some true)].
Proof. split; [exact demo_inv|exact demo_real]. Qed.
Example ex_pool_failures :
  let '(ws, h) := sendsx real demo_ks [(0, 0, false); (0, 0, false); (0, 0, true); (1, 0, false); (0, 0, true)]%nat demo_heap in
  ws = [([[120; 0; 1; 2; 7]], Some true); ([[120; 0; 1; 2; 7]], Some true); ([[120; 0; 1; 2; 7]], Some true); ([], Some true); ([[120; 0; 1; 2; 7]], Some true)]
  /\ pool h = [6]%nat /\ next_r h = 7%nat.
Proof. exact demo_fail. Qed.
Example ex_program_with_retries :
  let a := mkks Raw 255 in let b := mkks Raw 256 in
  let phys := [([], [114;0;0;255;109]); ([114;0;0;255;109], [114;0;1]); ([114;0;1], [114;0;1;0]); ([114;0;1;0], [])] in
  Forall wf_event [(a, OPut [1] [10], 0%nat, Refused (map menc_region phys)); (a, OPut [1] [10], 1%nat, Lost); (b, OPut [1] [20], 0%nat, Answered);
                   (a, OPut [1] [10], 2%nat, Answered); (a, OScan true [] [] 5, 0%nat, Answered)] /\
  trun [(a, OPut [1] [10], 0%nat, Refused (map menc_region phys)); (a, OPut [1] [10], 1%nat, Lost); (b, OPut [1] [20], 0%nat, Answered);
        (a, OPut [1] [10], 2%nat, Answered); (a, OScan true [] [] 5, 0%nat, Answered)] []
  = [(a, ORegions (Some [([], [109]); ([109], [])])); (a, ONothing); (b, OResult RUnit); (a, OResult RUnit); (a, OResult (RPairs [([1], [10])]))].
Proof.
  split; [|vm_compute; reflexivity].
  repeat constructor; try (unfold ks_ok; cbn; reflexivity); cbn [snd]; eexists; reflexivity.
Qed.
Example ex_two_clients :
  let a := mkks Raw 1 in let b := mkks Raw 2 in
  run [(a, OPut [1] [10]); (b, OPut [1] [20]); (b, ODelRange [] []); (a, OScan false [] [] 5); (b, OScan true [] [] 5)] []
  = [(a, RUnit); (b, RUnit); (b, RUnit); (a, RPairs [([1], [10])]); (b, RPairs [])].
Proof. vm_compute. reflexivity. Qed.
