(* ApiV2/PoolFail.v — the codec plumbing on the error path: a transmission that fails below the codec (connection
   error, timeout, cancelled context) returns before DecodeResponse, so the encoded request is NOT given back to the
   pool; the caller then re-sends the same request object. Schedules mixing answered and failed transmissions. *)
From Verif Require Import ApiV2.Model ApiV2.ProofsKey ApiV2.Pool ApiV2.ProofsPool.
From Coq Require Import Lia.
Open Scope nat_scope.

(* encode, attach, put on the wire; no decode *)
Definition send_core (fl : flags) (c : ks) (a : addr) (i : nat) (h : heap) : wire * addr * heap :=
  let h0 := if f_attach_first fl then attach a h else h in
  let '(r, h1) := encode fl c a i h0 in
  let h2 := if f_attach_first fl then h1 else attach r h1 in
  let m := mh h2 (r_inner (rh h2 r)) in
  ((m_keys m, m_ctx m), r, h2).

Definition give_back (fl : flags) (a r : addr) (h : heap) : heap :=
  mkheap (rh h) (mh h) (next_r h) (next_m h) ((if f_decode_caller fl then a else r) :: pool h).

(* one transmission: answered (the response is decoded, the request recycled) or failed below the codec *)
Definition sendx (fl : flags) (c : ks) (a : addr) (i : nat) (answered : bool) (h : heap) : wire * heap :=
  let '(w, r, h2) := send_core fl c a i h in
  (w, if answered then give_back fl a r h2 else h2).

Fixpoint sendsx (fl : flags) (c : ks) (sch : list (addr * nat * bool)) (h : heap) : list wire * heap :=
  match sch with
  | [] => ([], h)
  | (a, i, ok) :: t => let '(w, h1) := sendx fl c a i ok h in let '(ws, h2) := sendsx fl c t h1 in (w :: ws, h2)
  end.

Lemma sendx_real c br bm h0 h a i ok w h' : inv br bm h0 h -> a < br -> sendx real c a i ok h = (w, h') ->
  inv br bm h0 h' /\ w = wire_spec c h0 a.
Proof.
  intros I Ha. unfold sendx, send_core, give_back. cbn [real f_attach_first f_decode_caller].
  destruct (encode real c a i h) as [r h1] eqn:E. destruct (encode_attach_real _ _ _ _ _ _ _ _ _ I Ha E) as (I2 & Hr & Hw).
  intros [= <- <-]. split; [|exact Hw]. destruct ok; [apply give_back_inv; assumption|exact I2].
Qed.

(* any schedule of answered and failed transmissions, any behaviour of the pool *)
Lemma sendsx_real c br bm h0 : forall sch h ws h', inv br bm h0 h -> Forall (fun x => fst (fst x) < br) sch ->
  sendsx real c sch h = (ws, h') ->
  inv br bm h0 h' /\ ws = map (fun x => wire_spec c h0 (fst (fst x))) sch.
Proof.
  induction sch as [|[[a i] ok] t IH]; intros h ws h' I Hall; cbn [sendsx map fst].
  - intros [= <- <-]. auto.
  - inversion Hall as [|? ? Ha Ht]; subst. cbn [fst] in Ha.
    destruct (sendx real c a i ok h) as [w h1] eqn:S. destruct (sendx_real _ _ _ _ _ _ _ _ _ _ I Ha S) as (I1 & ->).
    destruct (sendsx real c t h1) as [ws2 h2] eqn:SS. destruct (IH _ _ _ I1 Ht SS) as (I2 & ->).
    intros [= <- <-]. auto.
Qed.

(* a schedule without failures is a schedule all of whose transmissions are answered *)
Lemma send_sendx fl c a i h : send fl c a i h = sendx fl c a i true h.
Proof. unfold send, sendx, send_core, give_back. destruct (encode fl c a i _) as [r h1]. reflexivity. Qed.

Lemma sends_sendsx fl c : forall sch h, sends fl c sch h = sendsx fl c (map (fun ai => (ai, true)) sch) h.
Proof.
  induction sch as [|[a i] t IH]; intros h; cbn [sends sendsx map]; [reflexivity|].
  rewrite send_sendx. destruct (sendx fl c a i true h) as [w h1]. rewrite IH. reflexivity.
Qed.

Lemma sends_real c br bm h0 sch h ws h' : inv br bm h0 h -> Forall (fun ai => fst ai < br) sch ->
  sends real c sch h = (ws, h') ->
  inv br bm h0 h' /\ ws = map (fun ai => wire_spec c h0 (fst ai)) sch.
Proof.
  intros I Hall. rewrite sends_sendsx. intros E.
  apply (sendsx_real c br bm h0 _ _ _ _ I) in E; [rewrite map_map in E; exact E|apply Forall_map; exact Hall].
Qed.

(* a failed transmission followed by retransmissions of the same object: nothing was recycled, the pool stays empty
   until the first answer *)
Lemma demo_fail :
  let '(ws, h) := sendsx real demo_ks [(0, 0, false); (0, 0, false); (0, 0, true); (1, 0, false); (0, 0, true)] demo_heap in
  ws = [([[120; 0; 1; 2; 7]], Some true); ([[120; 0; 1; 2; 7]], Some true); ([[120; 0; 1; 2; 7]], Some true); ([], Some true); ([[120; 0; 1; 2; 7]], Some true)]%N
  /\ pool h = [6] /\ next_r h = 7.
Proof. vm_compute. auto. Qed.
