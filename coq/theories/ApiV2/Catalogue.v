(* ApiV2/Catalogue.v — schema and completeness predicate for the command catalogue that the Go driver
   observes by reflection on every run (translation + finite check: the generated file
   build/apiv2/Gen_Catalogue.v instantiates [fields]/[cmds] and proves [catalogue_ok] by vm_compute). *)
From Coq Require Import List NArith Bool.
Import ListNotations.
Open Scope N_scope.

Inductive side := Req | Resp.
(* classification of a []byte location by the documented name rule (docs/C15.md) *)
Inductive fclass := FKey | FRangeStart | FRangeEnd | FRegion | FBucket | FValue.
(* what the codec did to the sentinel placed there *)
Inductive fobs := OPrefixed | OEndKey | OStripped | OUnchanged | OOther.
(* request variants: 0 = all sentinels non-empty; 1 = range ends empty (forward);
   2 = reverse scan with empty start (only for requests with a Reverse flag) *)
Record frow := mkf {
  f_cmd : N; f_side : side; f_class : fclass; f_variant : N; f_obs : fobs;
  f_foreign_rejected : bool    (* response key fields: a key of another keyspace there makes DecodeResponse fail (true when n/a) *)
}.

Definition fobs_eqb (a b : fobs) : bool :=
  match a, b with
  | OPrefixed, OPrefixed | OEndKey, OEndKey | OStripped, OStripped | OUnchanged, OUnchanged | OOther, OOther => true
  | _, _ => false
  end.

Definition expected (f : frow) : fobs :=
  match f_side f, f_class f with
  | _, FValue => OUnchanged
  | Req, FRangeEnd => if f_variant f =? 1 then OEndKey else OPrefixed
  | Req, FRangeStart => if f_variant f =? 2 then OEndKey else OPrefixed
  | Req, _ => OPrefixed
  | Resp, _ => OStripped
  end.

(* every row has to be complete: there is no list of exempted rows *)
Definition field_ok (f : frow) : bool := fobs_eqb (f_obs f) (expected f) && f_foreign_rejected f.

Record xrow := mkx {
  x_cmd : N;
  x_enc_ok : bool;       (* EncodeRequest succeeded, returned a copy, left the caller's message untouched, set api version + keyspace id; DecodeResponse accepts an in-keyspace response *)
  x_has_ctx : bool;      (* the request message has a Context field *)
  x_attach : bool;       (* AttachContext returned true *)
  x_ctx_set : bool;      (* ... and the message now carries the context; a second attach does not write into the first message *)
  x_resp_rerr : bool;    (* the response message has a RegionError field *)
  x_genre : bool;        (* GenRegionErrorResp succeeded with a response of the command's response type *)
  x_readback : bool;     (* GetRegionError on it returns the same error *)
  x_clip : bool;         (* DecodeResponse: region error regions inside / outside / spanning the keyspace are kept+clipped / dropped *)
  x_batch : bool;        (* ToBatchCommandsRequest supports the command *)
  x_batch_rt : bool      (* the batch entry holds the very request; FromBatchCommandsResponse returns the very response *)
}.

Definition impb (a b : bool) : bool := negb a || b.

Definition cmd_ok (x : xrow) : bool :=
  x_enc_ok x
  && impb (x_has_ctx x) (x_attach x && x_ctx_set x)
  && impb (x_resp_rerr x) (x_genre x && x_readback x)
  && impb (x_resp_rerr x) (x_clip x)
  && impb (x_batch x) (x_batch_rt x).

Definition catalogue_ok (fields : list frow) (cmds : list xrow) : bool :=
  forallb field_ok fields && forallb cmd_ok cmds.

Lemma fobs_eqb_eq a b : fobs_eqb a b = true -> a = b.
Proof. destruct a, b; cbn; congruence. Qed.

Lemma impb_true a b : impb a b = true -> a = true -> b = true.
Proof. intros H ->. exact H. Qed.

(* what the finite check means, row by row *)
Lemma catalogue_ok_meaning fields cmds : catalogue_ok fields cmds = true ->
  (forall f, In f fields -> f_obs f = expected f /\ f_foreign_rejected f = true) /\
  (forall x, In x cmds ->
     x_enc_ok x = true /\
     (x_has_ctx x = true -> x_attach x = true /\ x_ctx_set x = true) /\
     (x_resp_rerr x = true -> x_genre x = true /\ x_readback x = true) /\
     (x_resp_rerr x = true -> x_clip x = true) /\
     (x_batch x = true -> x_batch_rt x = true)).
Proof.
  unfold catalogue_ok. rewrite andb_true_iff, !forallb_forall. intros [HF HX]. split.
  - intros f Hf. specialize (HF f Hf). apply andb_true_iff in HF as [H1 H2]. split; [apply fobs_eqb_eq; exact H1|exact H2].
  - intros x Hx. specialize (HX x Hx). unfold cmd_ok in HX. rewrite !andb_true_iff in HX.
    destruct HX as ((((H0 & H1) & H2) & H3) & H4).
    split; [exact H0|]. split; [|split; [|split]]; intros A.
    + apply andb_true_iff, (impb_true _ _ H1 A).
    + apply andb_true_iff, (impb_true _ _ H2 A).
    + exact (impb_true _ _ H3 A).
    + exact (impb_true _ _ H4 A).
Qed.
