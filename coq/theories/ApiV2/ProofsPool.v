(* ApiV2/ProofsPool.v — the codec plumbing never touches the callers' objects and puts every transmission on the wire
   prefixed exactly once; each seeded deviation is refuted by a concrete schedule *)
From Verif Require Import ApiV2.Model ApiV2.ProofsKey ApiV2.Pool.
From Coq Require Import Lia.
Open Scope nat_scope.

Lemma upd_eq {A} (f : addr -> A) a v : upd f a v a = v.
Proof. unfold upd. rewrite Nat.eqb_refl. reflexivity. Qed.
Lemma upd_neq {A} (f : addr -> A) a v x : x <> a -> upd f a v x = f x.
Proof. unfold upd. intros H. destruct (Nat.eqb_spec x a); [contradiction|reflexivity]. Qed.

(* callers own the requests below br and the messages below bm; everything the codec allocates lies above *)
Record inv (br bm : addr) (h0 h : heap) : Prop := mkinv {
  i_nr : br <= next_r h;
  i_nm : bm <= next_m h;
  i_pool : forall p, In p (pool h) -> br <= p < next_r h;
  i_rh : forall a, a < br -> rh h a = rh h0 a;
  i_keys : forall m, m < bm -> m_keys (mh h m) = m_keys (mh h0 m);
  i_inner : forall a, a < br -> r_inner (rh h0 a) < bm
}.

Lemma inv_init br bm h0 : br <= next_r h0 -> bm <= next_m h0 -> pool h0 = [] ->
  (forall a, a < br -> r_inner (rh h0 a) < bm) -> inv br bm h0 h0.
Proof. intros H1 H2 H3 H4. constructor; auto. rewrite H3. intros p []. Qed.

Lemma in_remove_nth {A} i (l : list A) x : In x (remove_nth i l) -> In x l.
Proof.
  unfold remove_nth. rewrite in_app_iff. intros [H|H].
  - rewrite <- (firstn_skipn i l). apply in_or_app. left. exact H.
  - rewrite <- (firstn_skipn (S i) l). apply in_or_app. right. exact H.
Qed.

(* the invariant survives any step that allocates upwards, keeps the pool among the codec's own objects and leaves
   the callers' requests and the keys of their messages alone *)
Lemma inv_update br bm h0 h rh' mh' nr nm pl :
  inv br bm h0 h -> next_r h <= nr -> next_m h <= nm ->
  (forall p, In p pl -> br <= p < nr) ->
  (forall a, a < br -> rh' a = rh h a) ->
  (forall m, m < bm -> m_keys (mh' m) = m_keys (mh h m)) ->
  inv br bm h0 (mkheap rh' mh' nr nm pl).
Proof.
  intros [A B C D E F] Hr Hm Hp Hrh Hk. constructor; cbn [rh mh next_r next_m pool]; try lia; try assumption.
  - intros a Ha. rewrite Hrh by exact Ha. apply D; exact Ha.
  - intros m Hm'. rewrite Hk by exact Hm'. apply E; exact Hm'.
Qed.

(* the codec's writes: one of its own requests, and messages so that the callers' keep their keys *)
Lemma inv_write br bm h0 h r ro mh' nm :
  inv br bm h0 h -> br <= r -> next_m h <= nm ->
  (forall m, m < bm -> m_keys (mh' m) = m_keys (mh h m)) ->
  inv br bm h0 (mkheap (upd (rh h) r ro) mh' (next_r h) nm (pool h)).
Proof.
  intros I Hr Hm Hk. apply (inv_update _ _ _ h); auto.
  - apply (i_pool _ _ _ _ I).
  - intros x Hx. apply upd_neq. lia.
Qed.

Lemma pool_get_spec br bm h0 h i r h1 : inv br bm h0 h -> pool_get h i = (r, h1) ->
  inv br bm h0 h1 /\ br <= r < next_r h1.
Proof.
  intros I. pose proof (i_nr _ _ _ _ I) as Hnr. pose proof (i_pool _ _ _ _ I) as Hp.
  unfold pool_get. destruct (nth_error (pool h) i) as [p|] eqn:E; intros [= <- <-]; cbn [next_r].
  - apply nth_error_In in E. split; [|auto]. apply (inv_update _ _ _ h); auto.
    intros q Hq. apply Hp. exact (in_remove_nth _ _ _ Hq).
  - split; [|lia]. apply (inv_update _ _ _ h); auto.
    intros q Hq. specialize (Hp q Hq). lia.
Qed.

(* EncodeRequest by the code as it is: the returned request is one of the codec's own, carries the api context and
   points to a message with the caller's keys prefixed (a clone), or to the caller's message when it holds no keys *)
Lemma encode_real c br bm h0 h a i r h1 : inv br bm h0 h -> a < br -> encode real c a i h = (r, h1) ->
  inv br bm h0 h1 /\ br <= r < next_r h1 /\ r_api (rh h1 r) = true /\
  m_keys (mh h1 (r_inner (rh h1 r))) = fst (wire_spec c h0 a).
Proof.
  intros I Ha. unfold encode, wire_spec. cbn [real f_return_caller f_in_place andb fst].
  destruct (pool_get h i) as [r0 hp] eqn:PG. destruct (pool_get_spec _ _ _ _ _ _ _ I PG) as (Ip & Hr).
  rewrite (i_rh _ _ _ _ Ip a Ha). pose proof (i_inner _ _ _ _ Ip a Ha) as Hin.
  rewrite (i_keys _ _ _ _ Ip _ Hin). pose proof (i_nm _ _ _ _ Ip) as Hnm.
  destruct (r_keyed (rh h0 a)); intros [= <- <-]; cbn [rh mh next_r]; rewrite !upd_eq; cbn [r_api r_inner m_keys].
  - (* the prefixed keys go into a clone of the message, allocated at next_m *)
    split; [|auto]. apply (inv_write _ _ _ hp); auto; try lia.
    intros m Hm. rewrite upd_neq by lia. reflexivity.
  - (* nothing to write: the request shares the caller's message *)
    split; [|rewrite (i_keys _ _ _ _ Ip _ Hin); auto]. apply (inv_write _ _ _ hp); auto; lia.
Qed.

(* AttachContext on one of the codec's own requests: in place the first time, on a clone later; either way the message
   that goes out has the keys the request pointed to and the request's context *)
Lemma attach_own br bm h0 h r : inv br bm h0 h -> br <= r ->
  let h2 := attach r h in
  inv br bm h0 h2 /\ next_r h2 = next_r h /\
  m_keys (mh h2 (r_inner (rh h2 r))) = m_keys (mh h (r_inner (rh h r))) /\
  m_ctx (mh h2 (r_inner (rh h2 r))) = Some (r_api (rh h r)).
Proof.
  intros I Hr. pose proof (i_nm _ _ _ _ I) as Hnm. unfold attach.
  destruct (r_rev (rh h r)) as [|n]; cbn [rh mh next_r]; rewrite !upd_eq; cbn [r_inner m_keys m_ctx].
  - (* in place: the message keeps its keys, whichever it is *)
    split; [|auto]. apply (inv_write _ _ _ h); auto.
    intros m Hm. unfold upd. destruct (Nat.eqb_spec m (r_inner (rh h r))) as [->|_]; reflexivity.
  - (* on a clone allocated at next_m *)
    split; [|auto]. apply (inv_write _ _ _ h); auto.
    intros m Hm. apply f_equal, upd_neq. lia.
Qed.

(* encode, then attach: what one transmission puts on the wire, before the request is given back *)
Lemma encode_attach_real c br bm h0 h a i r h1 : inv br bm h0 h -> a < br -> encode real c a i h = (r, h1) ->
  let h2 := attach r h1 in
  inv br bm h0 h2 /\ br <= r < next_r h2 /\ (m_keys (mh h2 (r_inner (rh h2 r))), m_ctx (mh h2 (r_inner (rh h2 r)))) = wire_spec c h0 a.
Proof.
  intros I Ha E. destruct (encode_real _ _ _ _ _ _ _ _ _ I Ha E) as (I1 & Hr & Hapi & Hk).
  destruct (attach_own _ _ _ _ r I1 (proj1 Hr)) as (I2 & Hnr & Hk2 & Hc). cbv zeta.
  rewrite Hnr, Hk2, Hc, Hapi, Hk. auto.
Qed.

Lemma give_back_inv br bm h0 h r : inv br bm h0 h -> br <= r < next_r h ->
  inv br bm h0 (mkheap (rh h) (mh h) (next_r h) (next_m h) (r :: pool h)).
Proof.
  intros I Hr. apply (inv_update _ _ _ h); auto.
  intros p [<-|Hp]; [exact Hr|exact (i_pool _ _ _ _ I p Hp)].
Qed.

Lemma callers_untouched br bm h0 h : inv br bm h0 h ->
  forall a, a < br -> rh h a = rh h0 a /\ m_keys (mh h (r_inner (rh h a))) = m_keys (mh h0 (r_inner (rh h0 a))).
Proof.
  intros I a Ha. rewrite (i_rh _ _ _ _ I a Ha). split; [reflexivity|]. apply (i_keys _ _ _ _ I). apply (i_inner _ _ _ _ I a Ha).
Qed.

Definition demo_heap : heap :=
  mkheap (fun a => match a with 0 => mkreq true 0 false 0 | 1 => mkreq false 1 false 0 | _ => mkreq true 2 false 0 end)
         (fun m => match m with 0 => mkmsg [[7%N]] None | 1 => mkmsg [] None | _ => mkmsg [[9%N]] None end) 3 3 [].
Definition demo_ks : ks := mkks Txn 258.

Lemma demo_inv : inv 3 3 demo_heap demo_heap.
Proof. apply inv_init; cbn; auto. intros [|[|[|a]]] H; cbn; lia. Qed.

(* decoding with the caller's request: the third transmission carries the prefix twice *)
Lemma decode_caller_refuted :
  fst (sends (mkflags true false false false) demo_ks [(0, 0); (0, 0); (0, 0)] demo_heap)
  = [([[120; 0; 1; 2; 7]], Some true); ([[120; 0; 1; 2; 7]], Some true); ([[120; 0; 1; 2; 120; 0; 1; 2; 7]], Some true)]%N.
Proof. vm_compute. reflexivity. Qed.

(* encoding in place: already the second transmission carries the prefix twice, and the caller's message is rewritten *)
Lemma in_place_refuted :
  let '(ws, h) := sends (mkflags false true false false) demo_ks [(0, 0); (0, 0)] demo_heap in
  ws = [([[120; 0; 1; 2; 7]], Some true); ([[120; 0; 1; 2; 120; 0; 1; 2; 7]], Some true)]%N /\
  m_keys (mh h 0) = [[120; 0; 1; 2; 120; 0; 1; 2; 7]]%N.
Proof. vm_compute. auto. Qed.

(* returning the caller's request for a message without keys: it ends up in the pool, the next request is copied over
   it, and its own next transmission sends the other request's message *)
Lemma return_caller_refuted :
  fst (sends (mkflags false false true false) demo_ks [(1, 0); (2, 0); (1, 0)] demo_heap)
  = [([], Some true); ([[120; 0; 1; 2; 9]], Some true); ([[120; 0; 1; 2; 120; 0; 1; 2; 9]], Some true)]%N.
Proof. vm_compute. reflexivity. Qed.

(* attaching the context before encoding: the wire carries a context without api version and keyspace, and the second
   transmission replaces the caller's message *)
Lemma attach_first_refuted :
  let '(ws, h) := sends (mkflags false false false true) demo_ks [(0, 0); (0, 0)] demo_heap in
  ws = [([[120; 0; 1; 2; 7]], Some false); ([[120; 0; 1; 2; 7]], Some false)]%N /\ r_inner (rh h 0) <> 0.
Proof. vm_compute. split; [reflexivity|discriminate]. Qed.

Lemma demo_real :
  fst (sends real demo_ks [(0, 0); (1, 0); (0, 0); (2, 5); (1, 1); (0, 0)] demo_heap)
  = [([[120; 0; 1; 2; 7]], Some true); ([], Some true); ([[120; 0; 1; 2; 7]], Some true); ([[120; 0; 1; 2; 9]], Some true); ([], Some true); ([[120; 0; 1; 2; 7]], Some true)]%N.
Proof. vm_compute. reflexivity. Qed.
