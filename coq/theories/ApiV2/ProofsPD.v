(* ApiV2/ProofsPD.v — PD-side paths: region lookup through memcomparable keys, regions outside the
   keyspace, bucket keys, scan answers; ParseKeyspaceID, region errors, the fields of a response *)
From Verif Require Import ApiV2.Model ApiV2.ProofsKey ApiV2.ProofsRegion Codec.ProofsNum Codec.ProofsBytes.
Open Scope N_scope.

Lemma mem_enc_le s k : lex_le (mem_enc s) (encode_bytes k) <-> lex_le s k.
Proof.
  unfold mem_enc. destruct (nilb s) eqn:Hs.
  - apply nilb_true in Hs; subst. unfold lex_le. split; intros _; apply lex_cmp_nil_l.
  - unfold lex_le. rewrite encode_bytes_order. tauto.
Qed.
Lemma mem_enc_upper e k : (mem_enc e = [] \/ lex_lt (encode_bytes k) (mem_enc e)) <-> (e = [] \/ lex_lt k e).
Proof.
  rewrite mem_enc_nil. destruct (nilb e) eqn:He; [apply nilb_true in He; tauto|].
  rewrite mem_enc_ne by exact He. unfold lex_lt. rewrite encode_bytes_order. tauto.
Qed.

(* PD finds the region by comparing EncodeRegionKey(k) with the region's memcomparable bounds: that is the
   region whose raw bounds contain the prefixed key *)
Lemma pd_in_region c s e k :
  in_range (mem_enc s) (mem_enc e) (encode_region_key c k) <-> in_range s e (encode_key c k).
Proof. unfold in_range, encode_region_key. rewrite mem_enc_le, mem_enc_upper. tauto. Qed.

(* ... and it decodes to a logical region that contains the logical key (GetRegion / GetPrevRegion / ScanRegions) *)
Lemma pd_locate c s e k : in_range (mem_enc s) (mem_enc e) (encode_region_key c k) ->
  exists s' e', decode_region_range c (mem_enc s) (mem_enc e) = ROk s' e' /\ in_range s' e' k /\
                (forall k', in_range s' e' k' <-> in_range s e (encode_key c k')).
Proof.
  intros H. apply pd_in_region in H. pose proof (region_clip c s e) as C.
  destruct (decode_region_range c (mem_enc s) (mem_enc e)) as [s' e'| |]; cbn [clip_spec] in C.
  - exists s', e'. split; [reflexivity|]. split; [apply C; exact H|exact C].
  - exfalso. exact (C k H).
  - contradiction.
Qed.

Lemma decode_range_no_decerr c s e : decode_range c s e <> RDecodeErr.
Proof. unfold decode_range, decode_range_gen. destruct (_ || _); [discriminate|]. destruct (_ && _); discriminate. Qed.

(* the share of a proper region (start < end or unbounded) is not empty: its own start is in it *)
Lemma ok_nonempty c s e s' e' : (e = [] \/ lex_lt s e) -> decode_range c s e = ROk s' e' -> in_range s' e' s'.
Proof.
  intros Hp D. pose proof (decode_range_clip c s e) as C. rewrite D in C. apply C.
  destruct (decode_range_ok_inv _ _ _ _ _ D) as (-> & _ & _ & He & [[k0 ->]|[Hs L]]).
  - rewrite strip_enc. split; [apply lex_le_refl|exact Hp].
  - rewrite strip_no_prefix, <- prefix_is_enc by exact Hs. split; [apply lex_le_cases; left; exact L|exact He].
Qed.

(* a proper region decodes exactly when it holds a key of the keyspace, and then its decoded start is such a key *)
Lemma proper_region_cases c s e : (e = [] \/ lex_lt s e) ->
  (exists s' e', decode_range c s e = ROk s' e' /\ in_range s e (encode_key c s')) \/
  (decode_range c s e = ROutOfBound /\ forall k, ~ in_range s e (encode_key c k)).
Proof.
  intros Hp. pose proof (decode_range_clip c s e) as C.
  destruct (decode_range c s e) as [s' e'| |] eqn:D; [left|right; split; [reflexivity|exact C]|contradiction].
  exists s', e'. split; [reflexivity|]. apply C. exact (ok_nonempty c s e s' e' Hp D).
Qed.

(* GetRegionByID of a foreign region, a foreign region in a scan result *)
Lemma region_outside_error c s e : (e = [] \/ lex_lt s e) ->
  (forall k, ~ in_range s e (encode_key c k)) -> decode_range c s e = ROutOfBound.
Proof.
  intros Hp Hout. destruct (proper_region_cases c s e Hp) as [(s' & _ & _ & H)|[E _]]; [destruct (Hout s' H)|exact E].
Qed.

(* neighbouring regions stay neighbours: the shared bound decodes to the same logical key on both sides *)
Lemma pd_contiguous c s m e s1 e1 s2 e2 :
  decode_range c s m = ROk s1 e1 -> decode_range c m e = ROk s2 e2 -> e1 = s2.
Proof.
  intros H1 H2. destruct (decode_range_ok_inv _ _ _ _ _ H1) as (_ & -> & _).
  destruct (decode_range_ok_inv _ _ _ _ _ H2) as (-> & _). reflexivity.
Qed.

(* one step of the loop, by where the key lies: a key of the keyspace is stripped and kept (an empty one only at the
   head); any other key adds at most the unbounded boundary *)
Lemma dbk_step_enc c f l out k : dbk_step c f l out (encode_key c k) = if nilb k && head_is_empty out then out else out ++ [k].
Proof.
  unfold dbk_step, dbk_step_gen.
  rewrite (proj2 (lex_ltb_false _ _) (prefix_le_enc c k)), (proj2 (lex_leb_false _ _) (enc_lt_end c k)).
  rewrite nilb_enc, has_prefix_own, skipn_enc.
  rewrite !andb_false_r. reflexivity.
Qed.

Lemma dbk_step_foreign c f l out k : has_prefix (prefix c) k = false ->
  dbk_step c f l out k = out \/ dbk_step c f l out k = out ++ [[]].
Proof.
  intros Hp. unfold dbk_step, dbk_step_gen. rewrite Hp.
  destruct (f && _); [right; reflexivity|]. destruct (l && _); [right|left]; reflexivity.
Qed.

Lemma dbk_step_first_below c l out k : lex_lt k (prefix c) -> dbk_step c true l out k = out ++ [[]].
Proof. intros H. unfold dbk_step, dbk_step_gen. rewrite (proj2 (lex_ltb_lt _ _) H). reflexivity. Qed.

(* the last key closes the list with the unbounded boundary when it is empty or above the keyspace; that includes a
   short key above the prefix but below endKey (repair bbcfa45) *)
Lemma dbk_step_last_open c f out k : has_prefix (prefix c) k = false -> k = [] \/ lex_lt (prefix c) k ->
  dbk_step c f true out k = out ++ [[]].
Proof.
  intros Hp Hk. unfold dbk_step, dbk_step_gen. destruct (f && _); [reflexivity|].
  replace (nilb k || lex_leb (end_key c) k || (true && negb (has_prefix (prefix c) k) && lex_ltb (prefix c) k)) with true; [reflexivity|].
  destruct Hk as [->|Hk]; [reflexivity|]. rewrite Hp, (proj2 (lex_ltb_lt _ _) Hk), !orb_true_r. reflexivity.
Qed.

Lemma dbk_step_In c f l out k x : x <> [] ->
  (In x (dbk_step c f l out k) <-> In x out \/ k = encode_key c x).
Proof.
  intros Hx.
  assert (Happ : forall y, In x (out ++ [y]) <-> In x out \/ y = x).
  { intros y. rewrite in_app_iff. cbn [In]. tauto. }
  destruct (key_position c k) as [[k0 ->]|[Hp _]].
  - rewrite dbk_step_enc. assert (Heq : encode_key c k0 = encode_key c x <-> k0 = x).
    { split; [apply encode_key_inj|intros ->; reflexivity]. }
    destruct (nilb k0 && head_is_empty out) eqn:B.
    + apply andb_true_iff in B as [B _]. apply nilb_true in B. rewrite Heq, B. intuition congruence.
    + rewrite Happ, Heq. tauto.
  - assert (Hne : k <> encode_key c x).
    { intros ->. rewrite has_prefix_own in Hp. discriminate. }
    destruct (dbk_step_foreign c f l out k Hp) as [-> | ->]; [tauto|]. rewrite Happ. intuition congruence.
Qed.

Lemma dbk_In c x : x <> [] -> forall rest f out,
  In x (dbk c f out rest) <-> In x out \/ In (encode_key c x) rest.
Proof.
  intros Hx. unfold dbk. induction rest as [|k r IH]; intros f out; cbn [dbk_gen In]; [tauto|]. fold (dbk_step c f (nilb_l r) out k).
  rewrite IH, (dbk_step_In c f (nilb_l r) out k x Hx). intuition congruence.
Qed.

(* every non-empty logical boundary in the result is the image of an input boundary and vice versa:
   boundaries inside the keyspace are kept and stripped, boundaries outside are dropped *)
Lemma bucket_separators c keys ks out : map_opt mem_decode_opt keys = Some ks ->
  decode_bucket_keys c keys = Some out ->
  forall x, x <> [] -> (In x out <-> In (encode_key c x) ks).
Proof.
  unfold decode_bucket_keys. intros -> [= <-] x Hx. rewrite (dbk_In c x Hx). cbn [In]. tauto.
Qed.

Lemma bucket_same_bucket c keys ks out : map_opt mem_decode_opt keys = Some ks ->
  decode_bucket_keys c keys = Some out ->
  forall x y, (exists l, In l out /\ l <> [] /\ lex_lt x l /\ lex_le l y) <->
              (exists b, In b ks /\ lex_lt (encode_key c x) b /\ lex_le b (encode_key c y)).
Proof.
  intros Hk Hd x y. split.
  - intros (l & Hl & Hne & H1 & H2). exists (encode_key c l). split; [apply (bucket_separators c keys ks out Hk Hd l Hne); exact Hl|].
    rewrite lex_lt_enc, lex_le_enc. auto.
  - intros (b & Hb & H1 & H2).
    (* a boundary between two keys of the keyspace is one itself *)
    destruct (key_position c b) as [[l ->]|[_ [L|G]]].
    + rewrite lex_lt_enc in H1. rewrite lex_le_enc in H2.
      assert (Hne : l <> []) by (intros ->; destruct x; cbn in H1; discriminate).
      exists l. split; [apply (bucket_separators c keys ks out Hk Hd l Hne); exact Hb|]. auto.
    + exfalso. exact (proj1 (lex_lt_not_le _ _) (lex_cmp_lt_trans _ _ _ H1 L) (prefix_le_enc c x)).
    + exfalso. exact (proj1 (lex_lt_not_le _ _) (G y) H2).
Qed.

Lemma dbk_step_keeps_head c f l k y t : exists t', dbk_step c f l (y :: t) k = y :: t'.
Proof.
  destruct (key_position c k) as [[k0 ->]|[Hp _]].
  - rewrite dbk_step_enc. destruct (_ && _); eexists; reflexivity.
  - destruct (dbk_step_foreign c f l (y :: t) k Hp) as [-> | ->]; eexists; reflexivity.
Qed.
Lemma dbk_keeps_head c : forall rest f y t, exists t', dbk c f (y :: t) rest = y :: t'.
Proof.
  unfold dbk. induction rest as [|k r IH]; intros f y t; cbn [dbk_gen]; [eexists; reflexivity|]. fold (dbk_step c f (nilb_l r) (y :: t) k).
  destruct (dbk_step_keeps_head c f (nilb_l r) k y t) as (t' & ->). apply IH.
Qed.

Lemma bucket_first c k0 rest kn s e : decode_range c k0 kn = ROk s e ->
  exists t, dbk c true [] (k0 :: rest) = s :: t.
Proof.
  intros D. unfold dbk. cbn [dbk_gen]. fold (dbk c). fold (dbk_step c true (nilb_l rest) [] k0).
  assert (S1 : dbk_step c true (nilb_l rest) [] k0 = [s]).
  { destruct (decode_range_ok_inv _ _ _ _ _ D) as (-> & _ & _ & _ & [[k ->]|[Hp L]]).
    - rewrite dbk_step_enc, strip_enc, andb_false_r. reflexivity.
    - rewrite dbk_step_first_below, strip_no_prefix by assumption. reflexivity. }
  rewrite S1. apply dbk_keeps_head.
Qed.

(* the last boundary of the result is the last key stripped, when that key is empty or above the prefix
   (which is what DecodeRange asks of a region end). The default [0] of the outer [last] plays no role: under this
   hypothesis the last step appends *)
Lemma dbk_last c : forall rest f out, rest <> [] ->
  last rest [] = [] \/ lex_lt (prefix c) (last rest []) ->
  last (dbk c f out rest) [0] = strip_or_empty c (last rest []).
Proof.
  unfold dbk. induction rest as [|k r IH]; intros f out Hr Hk; [congruence|].
  destruct r as [|k' r'].
  - cbn [last dbk_gen nilb_l] in *. fold (dbk_step c f true out k).
    destruct (key_position c k) as [[k1 ->]|[Hp _]].
    + (* a key of the keyspace above the prefix: not the empty one *)
      rewrite dbk_step_enc, strip_enc. destruct Hk as [Hk|Hk]; [destruct (encode_key_ne c k1 Hk)|].
      rewrite prefix_is_enc, lex_lt_enc in Hk.
      destruct k1; [discriminate|]. cbn [nilb andb]. apply last_last.
    + rewrite dbk_step_last_open, strip_no_prefix, last_last by assumption. reflexivity.
  - cbn [dbk_gen]. change (last (k :: k' :: r') []) with (last (k' :: r') []) in *.
    apply IH; [discriminate|exact Hk].
Qed.

(* ... hence the decoded region end *)
Lemma bucket_last c rest f out k0 s e : rest <> [] ->
  decode_range c k0 (last rest []) = ROk s e ->
  last (dbk c f out rest) [0] = e.
Proof.
  intros Hr D. destruct (decode_range_ok_inv _ _ _ _ _ D) as (_ & -> & _ & Hk & _). exact (dbk_last c rest f out Hr Hk).
Qed.

(* regression witness: without the short-key test on the last key (dbk_gen false, the loop before bbcfa45) the
   unbounded end is lost for keyspace 255 (raw) and the buckets [..a, ..m, 72 00 01] *)
Lemma bucket_last_before_repair :
  decode_range (mkks Raw 255) [114;0;0;255;97] [114;0;1] = ROk [97] [] /\
  dbk_gen false (mkks Raw 255) true [] [[114;0;0;255;97]; [114;0;0;255;109]; [114;0;1]] = [[97]; [109]] /\
  dbk (mkks Raw 255) true [] [[114;0;0;255;97]; [114;0;0;255;109]; [114;0;1]] = [[97]; [109]; []].
Proof. repeat split; vm_compute; reflexivity. Qed.

Definition holds_key (c : ks) (r : list N * list N) : bool :=
  match decode_range c (fst r) (snd r) with ROk _ _ => true | _ => false end.
Definition clip_region (c : ks) (r : list N * list N) : list (list N * list N) :=
  match decode_range c (fst r) (snd r) with ROk s' e' => [(s', e')] | _ => [] end.
Definition menc_region (r : list N * list N) := (mem_enc (fst r), mem_enc (snd r)).

(* the decoded scan answer is, in order, the clipped form of exactly the regions that decode (= hold a key) *)
Lemma scan_decodes c phys : decode_scan c (map menc_region phys) = Some (flat_map (clip_region c) phys).
Proof.
  induction phys as [|[s e] r IH]; [reflexivity|]. cbn [map flat_map decode_scan menc_region fst snd].
  rewrite decode_region_range_enc, IH. unfold clip_region. cbn [fst snd].
  pose proof (decode_range_no_decerr c s e). destruct (decode_range c s e); [reflexivity|reflexivity|contradiction].
Qed.

Lemma clip_kept c phys : flat_map (clip_region c) phys = flat_map (clip_region c) (filter (holds_key c) phys).
Proof.
  induction phys as [|r t IH]; [reflexivity|]. cbn [flat_map filter]. unfold holds_key at 1.
  destruct (decode_range c (fst r) (snd r)) eqn:D; cbn [flat_map]; [rewrite IH; reflexivity| |];
    unfold clip_region; rewrite D; exact IH.
Qed.

Lemma holds_key_spec c s e : (e = [] \/ lex_lt s e) ->
  (holds_key c (s, e) = true <-> exists k, in_range s e (encode_key c k)).
Proof.
  intros Hp. unfold holds_key. cbn [fst snd].
  destruct (proper_region_cases c s e Hp) as [(s' & e' & -> & H)|[-> H]]; split.
  - intros _. exists s'. exact H.
  - reflexivity.
  - discriminate.
  - intros (k & Hk). destruct (H k Hk).
Qed.

(* a proper region lying between two keys of the keyspace holds a key of the keyspace (its own start): in a chain of
   regions the kept ones are consecutive, so the decoded answer is contiguous by pd_contiguous *)
Lemma between_holds c s e k1 k2 : lex_le (encode_key c k1) s -> lex_lt s e -> lex_le e (encode_key c k2) ->
  exists x, s = encode_key c x /\ in_range s e (encode_key c x).
Proof.
  intros H1 H2 H3. destruct (key_position c s) as [[x ->]|[_ [L|G]]].
  - exists x. split; [reflexivity|]. split; [apply lex_le_refl|right; exact H2].
  - exfalso. exact (proj1 (lex_lt_not_le _ _) (lex_lt_le_trans _ _ _ L (prefix_le_enc c k1)) H1).
  - exfalso. exact (proj1 (lex_lt_not_le _ _) (lex_cmp_lt_trans _ _ _ (G k2) H2) H3).
Qed.

Lemma be3_bytes v : be 3 v = [v / 256 / 256 mod 256; v / 256 mod 256; v mod 256].
Proof. reflexivity. Qed.

Lemma mode_byte_ok m : (mode_byte m =? 114) || (mode_byte m =? 120) = true.
Proof. destruct m; reflexivity. Qed.

Lemma parse_encode c k : ks_ok c -> parse_keyspace_id (encode_key c k) = Some (ks_id c).
Proof.
  intros Hok. unfold encode_key, prefix. rewrite be3_bytes. cbn [app parse_keyspace_id]. rewrite mode_byte_ok, <- be3_bytes.
  f_equal. rewrite of_be_cons, of_be_be; [reflexivity|rewrite pow256_3; exact Hok].
Qed.

Lemma parse_strict b id : wf_bytes b -> parse_keyspace_id b = Some id ->
  exists c k, ks_ok c /\ ks_id c = id /\ b = encode_key c k.
Proof.
  intros Hwf. destruct b as [|m [|b1 [|b2 [|b3 k]]]]; cbn [parse_keyspace_id]; try discriminate.
  destruct ((m =? 114) || (m =? 120)) eqn:M; [|discriminate]. intros [= <-].
  inversion Hwf as [|? ? _ Ht]; subst. destruct (wf_head_be 3 _ Ht ltac:(cbn [length]; lia)) as [E Bd].
  cbn [firstn skipn] in E, Bd. rewrite pow256_3 in Bd.
  replace (of_be [0; b1; b2; b3]) with (of_be [b1; b2; b3]) by (rewrite (of_be_cons 0); cbn [length]; lia).
  exists (mkks (if m =? 114 then Raw else Txn) (of_be [b1; b2; b3])), k. split; [exact Bd|]. split; [reflexivity|].
  unfold encode_key, prefix. cbn [ks_id ks_mode app]. rewrite <- E. f_equal.
  apply orb_true_iff in M as [M|M]; rewrite ?M; apply N.eqb_eq in M; subst; reflexivity.
Qed.

Lemma region_error_decode c k s e phys bs ks :
  in_range s e (encode_key c k) -> map_opt mem_decode_opt bs = Some ks ->
  exists s' e', decode_range c s e = ROk s' e' /\ in_range s' e' k /\
    decode_region_error c (mkre (Some (encode_key c k, mem_enc s, mem_enc e)) (Some (map menc_region phys)) (Some bs))
    = Some (mkre (Some (k, s', e')) (Some (flat_map (clip_region c) phys)) (Some (dbk c true [] ks))).
Proof.
  intros Hin Hb. apply pd_in_region in Hin. destruct (pd_locate c s e k Hin) as (s' & e' & D & Hk & _).
  exists s', e'. rewrite decode_region_range_enc in D. split; [exact D|]. split; [exact Hk|].
  unfold decode_region_error. cbn [re_knir re_epoch re_buckets].
  rewrite decode_encode_key, decode_region_range_enc, D.
  unfold decode_bucket_keys. rewrite Hb. rewrite scan_decodes. reflexivity.
Qed.

Lemma region_error_foreign c c2 k s e ep bv : ks_ok c -> ks_ok c2 -> c <> c2 ->
  decode_region_error c (mkre (Some (encode_key c2 k, s, e)) ep bv) = None.
Proof.
  intros H1 H2 Hne. unfold decode_region_error. cbn [re_knir]. rewrite decode_foreign by assumption. reflexivity.
Qed.

Lemma split_encode c k : split_v2_key (encode_key c k) = Some (prefix c, k).
Proof.
  unfold encode_key, prefix. rewrite be3_bytes. cbn [app split_v2_key]. rewrite mode_byte_ok. reflexivity.
Qed.

Lemma map_opt_map {A B} (f : A -> option B) (g : B -> A) l : (forall y, f (g y) = Some y) -> map_opt f (map g l) = Some l.
Proof. intros H. induction l as [|y t IH]; [reflexivity|]. cbn [map map_opt]. rewrite H, IH. reflexivity. Qed.

Lemma map_opt_none {A B} (f : A -> option B) l x : In x l -> f x = None -> map_opt f l = None.
Proof.
  intros Hin Hx. induction l as [|y t IH]; [destruct Hin|]. cbn [map_opt]. destruct Hin as [->|Hin].
  - rewrite Hx. reflexivity.
  - rewrite (IH Hin). destruct (f y); reflexivity.
Qed.

Lemma decode_fields_own c ks : decode_fields c (map (encode_key c) ks) = Some ks.
Proof. apply map_opt_map, decode_encode_key. Qed.

(* one key of another keyspace anywhere in a response and nothing of it is handed to the caller *)
Lemma decode_fields_foreign c c2 k fs : ks_ok c -> ks_ok c2 -> c <> c2 -> In (encode_key c2 k) fs -> decode_fields c fs = None.
Proof. intros H1 H2 Hne Hin. apply (map_opt_none _ _ _ Hin), decode_foreign; assumption. Qed.
