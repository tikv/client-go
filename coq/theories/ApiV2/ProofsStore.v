(* ApiV2/ProofsStore.v — transparency and isolation of keyspace-bound clients over one shared store *)
From Verif Require Import ApiV2.Model ApiV2.ProofsKey.
Open Scope N_scope.

Definition hasp (c : ks) (kv : list N * list N) : bool := has_prefix (prefix c) (fst kv).
(* every stored key belongs to some keyspace (what an API v2 cluster admits) *)
Definition store_ok (st : store) : Prop :=
  Forall (fun kv => exists c k, ks_ok c /\ fst kv = encode_key c k) st.

Lemma filter_filter {A} (P Q : A -> bool) l : filter P (filter Q l) = filter (fun x => Q x && P x) l.
Proof.
  induction l as [|x l IH]; [reflexivity|]. cbn [filter]. destruct (Q x); cbn [filter andb]; rewrite IH; reflexivity.
Qed.
Lemma filter_comm {A} (P Q : A -> bool) l : filter P (filter Q l) = filter Q (filter P l).
Proof. rewrite !filter_filter. apply filter_ext. intros x. apply andb_comm. Qed.
Lemma filter_implied {A} (P Q : A -> bool) l :
  (forall x, In x l -> P x = true -> Q x = true) -> filter P l = filter P (filter Q l).
Proof.
  intros H. rewrite filter_filter. apply filter_ext_in. intros x Hx.
  destruct (P x) eqn:E; [rewrite (H x Hx E); reflexivity|symmetry; apply andb_false_r].
Qed.
Lemma map_filter_rel {A B} (f : A -> B) (P' : A -> bool) (P : B -> bool) l :
  (forall x, In x l -> P' x = P (f x)) -> map f (filter P' l) = filter P (map f l).
Proof.
  induction l as [|x l IH]; intros H; [reflexivity|]. cbn [filter map].
  rewrite <- (H x (or_introl eq_refl)). destruct (P' x); cbn [map]; rewrite IH; auto; intros y Hy; apply H; right; exact Hy.
Qed.
Lemma Forall_filter_self {A} (P : A -> bool) l : Forall (fun x => P x = true) (filter P l).
Proof. apply Forall_forall. intros x Hx. apply filter_In in Hx. tauto. Qed.
Lemma Forall_filter {A} (Q : A -> Prop) (P : A -> bool) l : Forall Q l -> Forall Q (filter P l).
Proof. apply incl_Forall, incl_filter. Qed.

Lemma Forall_ins (Q : list N * list N -> Prop) kv l : Q kv -> Forall Q l -> Forall Q (ins kv l).
Proof.
  intros Hk. induction 1 as [|h t Hh Ht IH]; cbn [ins]; [constructor; auto|].
  destruct (lex_ltb (fst kv) (fst h)); repeat constructor; auto.
Qed.
Lemma Forall_isort (Q : list N * list N -> Prop) l : Forall Q l -> Forall Q (isort l).
Proof. induction 1; cbn [isort fold_right]; [constructor|]. apply Forall_ins; assumption. Qed.
Lemma Forall_firstn' {A} (Q : A -> Prop) n l : Forall Q l -> Forall Q (firstn n l).
Proof. intros H. revert n. induction H; intros [|n]; cbn [firstn]; constructor; auto. Qed.

Lemma hasp_enc c kv : hasp c kv = true -> fst kv = encode_key c (fst (strip_kv c kv)).
Proof. unfold hasp, strip_kv, encode_key. cbn [fst]. apply has_prefix_inv. Qed.

Lemma hasp_own c k v : hasp c (encode_key c k, v) = true.
Proof. apply has_prefix_own. Qed.
Lemma strip_kv_enc c k v : strip_kv c (encode_key c k, v) = (k, v).
Proof. unfold strip_kv. cbn [fst snd]. rewrite skipn_enc. reflexivity. Qed.

Lemma ins_strip c kv l : hasp c kv = true -> Forall (fun x => hasp c x = true) l ->
  map (strip_kv c) (ins kv l) = ins (strip_kv c kv) (map (strip_kv c) l).
Proof.
  intros Hk. induction 1 as [|h t Hh Ht IH]; [reflexivity|]. cbn [ins map].
  rewrite (hasp_enc c kv Hk), (hasp_enc c h Hh), lex_ltb_enc.
  destruct (lex_ltb _ _); cbn [map]; [reflexivity|]. rewrite IH. reflexivity.
Qed.

Lemma isort_strip c l : Forall (fun x => hasp c x = true) l ->
  map (strip_kv c) (isort l) = isort (map (strip_kv c) l).
Proof.
  induction 1 as [|h t Hh Ht IH]; [reflexivity|]. cbn [isort fold_right map].
  fold (isort t). fold (isort (map (strip_kv c) t)). rewrite <- IH.
  apply ins_strip; [exact Hh|apply Forall_isort; exact Ht].
Qed.

Lemma dec_pairs_prefixed c l : Forall (fun x => hasp c x = true) l -> dec_pairs c l = Some (map (strip_kv c) l).
Proof.
  induction 1 as [|[k v] t Hh Ht IH]; [reflexivity|]. cbn [dec_pairs map]. rewrite IH.
  pose proof (hasp_enc c _ Hh) as E. cbn [fst strip_kv] in E. rewrite E at 1. rewrite decode_encode_key. reflexivity.
Qed.

Lemma view_lookup c k st : lookup (encode_key c k) st = lookup k (view c st).
Proof.
  induction st as [|[k' v] r IH]; [reflexivity|]. unfold view. cbn [lookup filter]. fold (hasp c (k', v)).
  destruct (hasp c (k', v)) eqn:Hp.
  - cbn [map lookup strip_kv fst snd]. pose proof (hasp_enc c _ Hp) as E. cbn [fst strip_kv] in E.
    rewrite E at 1. rewrite bytes_eqb_enc. destruct (bytes_eqb k _); [reflexivity|exact IH].
  - destruct (bytes_eqb (encode_key c k) k') eqn:E; [|exact IH].
    apply bytes_eqb_eq in E. subst k'. rewrite hasp_own in Hp. discriminate.
Qed.

Lemma view_cons c kv st : view c (kv :: st) = if hasp c kv then strip_kv c kv :: view c st else view c st.
Proof. unfold view, hasp. cbn [filter]. destruct (has_prefix (prefix c) (fst kv)); reflexivity. Qed.

Lemma view_filter c (P' P : list N * list N -> bool) st :
  (forall x, hasp c x = true -> P' x = P (strip_kv c x)) ->
  view c (filter P' st) = filter P (view c st).
Proof.
  intros H. unfold view. fold (hasp c). rewrite filter_comm. apply map_filter_rel.
  intros x Hx. apply filter_In in Hx. apply H. tauto.
Qed.

Lemma view_remove c k st : view c (remove (encode_key c k) st) = remove k (view c st).
Proof.
  unfold remove. apply view_filter. intros x Hx. rewrite (hasp_enc c x Hx), bytes_eqb_enc.
  unfold strip_kv. cbn [fst]. reflexivity.
Qed.

Lemma view_other_filter c' (P : list N * list N -> bool) st :
  (forall x, hasp c' x = true -> P x = true) -> view c' (filter P st) = view c' st.
Proof.
  intros H. unfold view. fold (hasp c'). f_equal. symmetry. apply filter_implied. intros x _. apply H.
Qed.

Lemma hasp_foreign c c' k v : ks_ok c -> ks_ok c' -> c' <> c -> hasp c' (encode_key c k, v) = false.
Proof. intros. unfold hasp. cbn [fst]. apply foreign_no_prefix; assumption. Qed.

Lemma view_other_remove c c' k st : ks_ok c -> ks_ok c' -> c' <> c ->
  view c' (remove (encode_key c k) st) = view c' st.
Proof.
  intros H1 H2 Hne. unfold remove. apply view_other_filter. intros x Hx.
  apply negb_true_iff. destruct (bytes_eqb _ _) eqn:E; [|reflexivity].
  apply bytes_eqb_eq in E. destruct x as [k' v]. cbn [fst] in E. subst k'.
  rewrite hasp_foreign in Hx by assumption. discriminate.
Qed.

Lemma view_other_delrange c c' s e st : ks_ok c -> ks_ok c' -> c' <> c ->
  view c' (filter (fun kv => negb (in_rangeb (encode_key c s) (enc_end c e) (fst kv))) st) = view c' st.
Proof.
  intros H1 H2 Hne. apply view_other_filter. intros x Hx. apply negb_true_iff.
  rewrite (hasp_enc c' x Hx). apply foreign_not_in_range; auto.
Qed.

Lemma ks_eqb_eq a b : ks_eqb a b = true <-> a = b.
Proof.
  unfold ks_eqb. destruct a as [m1 i1], b as [m2 i2]; cbn [ks_mode ks_id]. rewrite andb_true_iff, N.eqb_eq.
  split.
  - intros [Hm ->]. destruct m1, m2; cbn in Hm; congruence.
  - intros [= -> ->]. split; [destruct m2; reflexivity|reflexivity].
Qed.
Lemma ks_eqb_spec a b : reflect (a = b) (ks_eqb a b).
Proof. apply iff_reflect. symmetry. apply ks_eqb_eq. Qed.

(* whatever a physical range of keyspace c selects from an admissible store carries c's prefix *)
Lemma range_selects_own c lo hi st : ks_ok c -> store_ok st ->
  filter (fun kv => in_rangeb (encode_key c lo) (enc_end c hi) (fst kv)) st =
  filter (fun kv => in_rangeb (encode_key c lo) (enc_end c hi) (fst kv)) (filter (hasp c) st).
Proof.
  intros Hc Hst. apply filter_implied. intros x Hx Hr.
  unfold store_ok in Hst. rewrite Forall_forall in Hst. destruct (Hst x Hx) as (c2 & k2 & Hc2 & E).
  destruct (ks_eqb_spec c2 c) as [->|Hne].
  - unfold hasp. rewrite E. apply has_prefix_own.
  - rewrite E, foreign_not_in_range in Hr by auto. discriminate.
Qed.

Lemma scan_sim c (rev : bool) lo hi lim st : ks_ok c -> store_ok st ->
  let phys := isort (filter (fun kv => in_rangeb (encode_key c lo) (enc_end c hi) (fst kv)) st) in
  let logi := isort (filter (fun kv => in_rangeb lo hi (fst kv)) (view c st)) in
  dec_pairs c (firstn lim (if rev then List.rev phys else phys)) =
  Some (firstn lim (if rev then List.rev logi else logi)).
Proof.
  intros Hc Hst phys logi.
  assert (Hall : Forall (fun x => hasp c x = true) phys).
  { unfold phys. rewrite range_selects_own by assumption. apply Forall_isort, Forall_filter, Forall_filter_self. }
  assert (Hmap : map (strip_kv c) phys = logi).
  { unfold phys, logi. rewrite range_selects_own by assumption.
    rewrite isort_strip by (apply Forall_filter, Forall_filter_self). f_equal.
    unfold view. fold (hasp c). apply map_filter_rel. intros x Hx. apply filter_In in Hx as [_ Hx].
    rewrite (hasp_enc c x Hx) at 1. rewrite in_rangeb_enc. reflexivity. }
  rewrite dec_pairs_prefixed.
  - f_equal. rewrite <- firstn_map. f_equal. destruct rev; [rewrite map_rev|]; rewrite Hmap; reflexivity.
  - apply Forall_firstn'. destruct rev; [apply Forall_rev|]; exact Hall.
Qed.

Lemma store_ok_filter P st : store_ok st -> store_ok (filter P st).
Proof. apply Forall_filter. Qed.

Lemma client_step_sim c o st : ks_ok c -> store_ok st ->
  step o (view c st) = (view c (fst (client_step c o st)), snd (client_step c o st)) /\
  (forall c', ks_ok c' -> c' <> c -> view c' (fst (client_step c o st)) = view c' st) /\
  store_ok (fst (client_step c o st)).
Proof.
  intros Hc Hst. destruct o as [k|k v|k|rev s e lim|s e]; unfold client_step; cbn [enc_op].
  - cbn [step fst snd dec_res]. rewrite view_lookup. auto.
  - cbn [step fst snd dec_res]. repeat split.
    + rewrite view_cons, hasp_own, strip_kv_enc, view_remove. reflexivity.
    + intros c' Hc' Hne. rewrite view_cons, hasp_foreign by assumption.
      apply view_other_remove; assumption.
    + constructor; [exists c, k; auto|apply store_ok_filter; exact Hst].
  - cbn [step fst snd dec_res]. repeat split.
    + rewrite view_remove. reflexivity.
    + intros c' Hc' Hne. apply view_other_remove; assumption.
    + apply store_ok_filter; exact Hst.
  - pose proof (scan_sim c rev (if rev then e else s) (if rev then s else e) lim st Hc Hst) as S. cbn zeta in S.
    destruct rev; cbn [encode_range step fst snd dec_res]; unfold scan_list; rewrite S; auto.
  - cbn [encode_range step fst snd dec_res]. repeat split.
    + f_equal. symmetry. apply view_filter. intros x Hx. rewrite (hasp_enc c x Hx) at 1. rewrite in_rangeb_enc. reflexivity.
    + intros c' Hc' Hne. apply view_other_delrange; assumption.
    + apply store_ok_filter; exact Hst.
Qed.

Lemma run_transparent c : ks_ok c -> forall tr st, store_ok st -> Forall (fun co => ks_ok (fst co)) tr ->
  proj_res c (run tr st) = lrun (proj_ops c tr) (view c st) /\
  view c (run_store tr st) = lrun_store (proj_ops c tr) (view c st) /\
  store_ok (run_store tr st).
Proof.
  intros Hc. induction tr as [|[c0 o] t IH]; intros st Hst Hall; [cbn; auto|].
  inversion Hall as [|? ? Hc0 Ht]; subst. cbn [fst] in Hc0.
  destruct (client_step_sim c0 o st Hc0 Hst) as (S1 & S2 & S3).
  cbn [run run_store]. destruct (client_step c0 o st) as [st' r] eqn:CS. cbn [fst snd] in *.
  unfold proj_res, proj_ops. cbn [filter fst]. destruct (ks_eqb_spec c0 c) as [->|Hne].
  - cbn [map snd lrun lrun_store]. rewrite S1. cbn [fst].
    destruct (IH st' S3 Ht) as (I1 & I2 & I3). fold (proj_res c (run t st')). fold (proj_ops c t).
    rewrite I1. auto.
  - rewrite <- (S2 c Hc (not_eq_sym Hne)). apply IH; assumption.
Qed.

Lemma nth_wire_first c o n : nth_wire false c o n = enc_op c o.
Proof. destruct n; reflexivity. Qed.

(* every transmission has the effect and the answer of the first: transparent, other keyspaces untouched *)
Lemma retransmit_transparent c o n st : ks_ok c -> store_ok st ->
  let '(st', r) := step (nth_wire false c o n) st in
  step o (view c st) = (view c st', dec_res c r) /\
  (forall c', ks_ok c' -> c' <> c -> view c' st' = view c' st).
Proof.
  intros Hc Hst. rewrite nth_wire_first.
  destruct (client_step_sim c o st Hc Hst) as (S1 & S2 & _). unfold client_step in *.
  destruct (step (enc_op c o) st) as [st' r]. cbn [fst snd] in *. split; assumption.
Qed.

Lemma encode_key_not_idempotent c k : encode_key c (encode_key c k) <> encode_key c k.
Proof.
  intros E. apply (f_equal (@length N)) in E. unfold encode_key in E. rewrite !app_length, prefix_length in E. lia.
Qed.

(* a client that re-encodes what the previous transmission left behind writes outside its own keyspace: the second
   transmission of a put stores a key the client cannot read *)
Lemma reencode_refuted : exists c k v,
  ks_ok c /\ nth_wire true c (OPut k v) 1 <> enc_op c (OPut k v) /\
  lookup k (view c (fst (step (nth_wire true c (OPut k v) 1) []))) = None /\
  lookup k (view c (fst (step (nth_wire false c (OPut k v) 1) []))) = Some v.
Proof.
  exists (mkks Txn 258), [7], [9]. split; [unfold ks_ok; cbn; reflexivity|].
  split; [vm_compute; congruence|]. split; vm_compute; reflexivity.
Qed.
