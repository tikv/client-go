(* SendReq/ProofsFlags.v — what the handlers and the selector do to the flags of the request: a write command never leaves
   flagged as a read.  Also the two kinds of answer that the statement about the provenance of results (ProofsResult) names. *)
From Coq Require Import List Bool Arith NArith Lia.
Import ListNotations.
From Verif Require Import SendReq.Model SendReq.ProofsBound SendReq.ProofsSelect SendReq.ProofsLoop.

Section Gen.
Variable fixed : bool.

Definition is_region_err (o : outcome) : bool := match o with OSuccess | ORpcErr _ | ODeadline _ => false | _ => true end.
(* region errors the handler turns into an error for the caller *)
Definition is_fatal (o : outcome) : bool :=
  match o with OFlashback | OFlashbackNotPrepared | ORaftTooLarge | OInvalidMaxTs => true | _ => false end.

(* neither a handler nor the selector touches the retry marker or flags a write *)
Lemma handled_q c s h x : handled fixed c s h x ->
  match x with HRetry s' _ => q_retry s' = q_retry s /\ (plain c s -> plain c s') | HDone _ _ _ => True end.
Proof.
  intros [|s' [_ _ R P]|k s0 sl s' [_ _ R P] _ [_ (W1 & W2 & W3)]|lim k s' _ _ [_ _ [= _ _ _ _ R1 R2 R3]]]; auto.
  - split; [congruence|]. intros P0. apply (plain_same c s0); auto.
  - split; [exact R3|now apply plain_same].
Qed.

Lemma selected_q c s x : selected c s x ->
  match x with
  | SSent s' _ _ => q_retry s' = q_retry s /\ (plain c s -> plain c s')
  | SDone _ r _ => r = RPseudo \/ r = RError
  end.
Proof.
  intros [|s' t p []|s0 sl s' t p [] _ [_ (W1 & W2 & W3)]]; auto.
  split; [congruence|]. intros P. apply (plain_same c s0); auto.
Qed.

(* the flags an attempt leaves with: the retry marker is set from the second turn on and never cleared *)
Lemma turn_q c s prev i x : turn_of fixed c s prev i = x ->
  match x with Stop _ _ => True | Sent _ s2 _ => q_retry s2 = (0 <? i) || q_retry s /\ (plain c s -> plain c s2) end.
Proof.
  intros <-. unfold turn_of. pose proof (handled_q c s _ _ (pre_cases fixed c s prev i)) as P.
  destruct (pre fixed c s prev i) as [s1 evs1|]; [|exact I]. destruct P as (P1 & P2).
  pose proof (selected_q c _ _ (sel_phase_cases c (mark i s1))) as Q. destruct (sel_phase c (mark i s1)) as [s2 t evs2|]; [|exact I].
  destruct Q as [Q1 Q2]. split; [rewrite Q1; unfold mark; destruct (0 <? i); [reflexivity|exact P1]|].
  intros P. apply Q2, (plain_same c s1); auto; unfold mark; now destruct (0 <? i).
Qed.

Definition unflagged (e : event) : Prop := match e with EAtt _ rr st _ => rr = false /\ st = false | _ => True end.

Lemma noatt_all (Q : event -> Prop) evs : (forall e, is_att e = false -> Q e) -> n_attempts evs = 0 -> Forall Q evs.
Proof.
  intros HQ. induction evs as [|e evs IH]; [constructor|]. unfold n_attempts. cbn [filter].
  destruct (is_att e) eqn:E; [discriminate|]. constructor; auto.
Qed.

Lemma loop_write c script s prev i : c_read c = false -> c_stale c = false -> plain c s ->
  Forall unflagged (fst (loop_gen fixed c script s prev i)).
Proof.
  intros R ST. revert script s prev i.
  assert (N : forall evs, n_attempts evs = 0 -> Forall unflagged evs) by (intros evs; apply noatt_all; now intros []).
  apply (loop_ind fixed c (fun _ s _ _ evs _ => plain c s -> Forall unflagged evs)).
  - intros _ s prev i evs r T _. apply turn_spec in T. apply N, T.
  - intros _ s prev i evs s2 t T _ P. pose proof (turn_spec _ _ _ _ _ _ T) as H. apply turn_q in T as [_ Q].
    apply Forall_app. split; [apply N, H|]. constructor; [|constructor]. now apply Q.
  - intros _ _ s prev i evs s2 t evs' r T _ _ IH P. pose proof (turn_spec _ _ _ _ _ _ T) as H. apply turn_q in T as [_ Q].
    destruct (flown_frame c i s2 t) as (_ & F1 & F2 & _).
    apply Forall_app. split; [apply N, H|]. constructor; [now apply Q|]. apply IH, (plain_same c s2); auto.
Qed.

Lemma run_write c script rands sleeps : c_read c = false -> c_stale c = false ->
  Forall unflagged (fst (run_gen fixed c script rands sleeps)).
Proof.
  intros R ST. unfold run_gen, validation_refuses. rewrite R. apply (loop_write c script _ None 0 R ST). intros _ _. cbn. now rewrite R.
Qed.

Lemma run_refused c script rands sleeps : c_read c = true -> c_val c = false -> c_store_tp c <> TpTiDB ->
  run_gen fixed c script rands sleeps = ([], RError).
Proof. intros R V T. unfold run_gen. now rewrite (proj2 (validation_refuses_iff c)). Qed.

End Gen.
