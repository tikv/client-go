(* SendReq/Props.v — property C10: the theorems (each closed by [exact <lemma>]; the proofs are in the Proofs*.v files) and the non-vacuity examples, nothing else.
   Model: SendReq/Model.v ([run cfg script rands sleeps] = the attempts/back-offs of one SendReqCtx call and its result).
   Quantification: ALL configurations (any number of replicas, any initial replica/store state), ALL fault scripts,
   ALL oracle inputs (random tie-breaks, jittered sleep lengths). *)
From Coq Require Import List Bool Arith NArith Lia.
Import ListNotations.
From Verif Require Import SendReq.Model SendReq.ProofsBound SendReq.ProofsSelect SendReq.ProofsLoop
  SendReq.ProofsFlags SendReq.ProofsResult SendReq.ProofsLasso SendReq.ProofsBudget SendReq.Cache SendReq.ProofsCancel SendReq.ProofsAsync SendReq.ProofsTop.

(* --- boundedness --------------------------------------------------------------------------------------------- *)
(* Every attempt uses up one of the maxReplicaAttempt (10) attempts of some replica; attempts are only ever given back by
   replica.onUpdateLeader(maxRearm), i.e. by a NotLeader answer whose leader hint names an exhausted replica (a "re-arm",
   event ERearm), and each replica is re-armed at most maxRearm = replicas - 1 times (fix cb7d671 of finding F10).
   Hence, for ALL scripts, budgets and oracle inputs, and from ANY initial cache state — [c_reps] (attempt counters, flags, liveness,
   slow marks, stale epochs of every replica), the cached leader [c_leader0], a proxy memoised by an earlier call [c_proxy0] —
   i.e. for every call of a sequence of calls on the same cached region, without any hypothesis: *)
Theorem C10_bounded : forall c script rands sleeps,
  n_attempts (fst (run c script rands sleeps)) <=
  max_replica_attempt * length (c_reps c) + length (c_reps c) * (length (c_reps c) - 1).
Proof. exact run_bounded. Qed.
Print Assumptions C10_bounded.

(* the finer accounting: attempts <= 10 * replicas + re-arms actually made *)
Theorem C10_bounded_general : forall c script rands sleeps,
  n_attempts (fst (run c script rands sleeps)) <=
  max_replica_attempt * length (c_reps c) + n_rearms (fst (run c script rands sleeps)).
Proof. exact (run_bound true). Qed.
Print Assumptions C10_bounded_general.

(* ... and re-arms need NotLeader-with-hint outcomes: a script with h of them allows at most h re-arms *)
Theorem C10_bounded_by_hints : forall c script rands sleeps,
  n_attempts (fst (run c script rands sleeps)) <= max_replica_attempt * length (c_reps c) + n_hints script.
Proof. exact (run_bound_hints true). Qed.
Print Assumptions C10_bounded_by_hints.

(* Why the re-arm limit is needed (finding F10, repaired): with the rule before the fix ([run_before_fix]: every hint re-arms an
   exhausted replica) no bound exists — for the leader read of a healthy 3-replica region and the lasso
   (N1 N0)^10 N1 (N0 N1)^k  of NotLeader answers whose hint alternates between replicas 0 and 1, ONE call made 22 + 2k attempts
   and never backed off.  The same lasso is a directed regression case of the check (see ex_lasso_terminates). *)
Theorem C10_unbounded_before_fix :
  ~ (exists B, forall c script rands sleeps,
       length (c_reps c) = 3 -> n_attempts (fst (run_before_fix c script rands sleeps)) <= B) /\
  (forall k, n_attempts (fst (run_before_fix c0 (lasso k) [] [])) = 22 + 2 * k /\
             n_backoffs (fst (run_before_fix c0 (lasso k) [] [])) = 0 /\
             forallb is_hint (lasso k) = true).
Proof. exact (conj unbounded_before_fix lasso_attempts). Qed.
Print Assumptions C10_unbounded_before_fix.

(* --- flag discipline ----------------------------------------------------------------------------------------- *)
(* (a) a write command (which enters without the stale flag) never leaves flagged as replica read or stale read;
   (b) the first attempt does not carry the retry marker, every later attempt of the same call does;
   (c) a read whose timestamp failed validation is never sent, whatever engine serves it (req.StoreTp TiKV or TiFlash);
       only requests served by a TiDB node are exempt from the validation. *)
Theorem C10_flags : forall c script rands sleeps,
  (c_read c = false -> c_stale c = false ->
     Forall (fun e => match e with EAtt _ rr st _ => rr = false /\ st = false | _ => True end) (fst (run c script rands sleeps))) /\
  (match retry_flags (fst (run c script rands sleeps)) with
   | [] => True
   | first :: later => first = false /\ Forall (fun d => d = true) later
   end) /\
  (c_read c = true -> c_val c = false -> c_store_tp c <> TpTiDB -> run c script rands sleeps = ([], RError)).
Proof.
  exact (fun c script rands sleeps =>
           conj (run_write true c script rands sleeps) (conj (run_retry true c script rands sleeps) (run_refused true c script rands sleeps))).
Qed.
Print Assumptions C10_flags.

(* --- no fabrication ------------------------------------------------------------------------------------------ *)
(* A success is the answer to the LAST attempt and that answer is a success of the script (explicit, or the default
   beyond the end of the script); a region error handed to the caller is the region error answered to the last
   attempt; an error made of a store's answer ([RFatal]: flashback in progress / not prepared, RaftEntryTooLarge,
   "invalid max_ts update") is made of the LAST attempt's answer and that answer is such a region error; otherwise the
   result is the client-made "no replica available" pseudo error or an error ([RError], see C10_error_only_when_spent). *)
Theorem C10_no_fabrication : forall c script rands sleeps evs r,
  run c script rands sleeps = (evs, r) ->
  match r with
  | RSuccess j => j + 1 = n_attempts evs /\ nth j script OSuccess = OSuccess
  | RRegionErr j => j + 1 = n_attempts evs /\ j < length script /\ is_region_err (nth j script OSuccess) = true
  | RFatal j => j + 1 = n_attempts evs /\ j < length script /\ is_fatal (nth j script OSuccess) = true
  | RPseudo | RError => True
  end.
Proof. exact (run_result true). Qed.
Print Assumptions C10_no_fabrication.

(* --- when is an error returned ------------------------------------------------------------------------------- *)
(* With C10_no_fabrication this characterises the three kinds of result: a response = the answer to the last attempt; a region
   error = that of the last attempt or the client-made "no replica / region gone" pseudo error; an ERROR only if the read
   timestamp failed validation (nothing sent) or a back-off was refused because the budget is spent: the non-excluded sleep
   (total - tikvServerBusy sleep) has reached maxSleep, or the excluded tikvServerBusy sleep has reached both its 600 000 ms
   cap and maxSleep; or the caller cancelled the context / set the kill flag ([c_cancel], [c_kill]: before the call, while an
   attempt is in flight, during a back-off sleep). *)
Theorem C10_error_only_when_spent : forall c script rands sleeps evs,
  run c script rands sleeps = (evs, RError) ->
  (c_read c = true /\ c_val c = false /\ c_store_tp c <> TpTiDB) \/
  ((0 < c_max_sleep c)%N /\
   ((c_max_sleep c <= tot evs - exc evs)%N \/ ((excl_limit <= exc evs)%N /\ (c_max_sleep c <= exc evs)%N))) \/
  c_cancel c <> TNever \/ c_kill c <> TNever.
Proof. exact (run_error true). Qed.
Print Assumptions C10_error_only_when_spent.

(* --- how many back-offs a budget admits ------------------------------------------------------------------------ *)
(* Every back-off of the trace was admitted by the budget test and sleeps at least its minimal step (2 ms for the plain
   kinds, 1000 ms for tikvServerBusy), hence for maxSleep > 0:  #plain <= (maxSleep+1)/2  and
   #tikvServerBusy <= (max(600000, maxSleep)+999)/1000. *)
Theorem C10_backoffs_bounded : forall c script rands sleeps,
  (0 < c_max_sleep c)%N ->
  (2 * n_plain (fst (run c script rands sleeps)) <= c_max_sleep c + 1)%N /\
  (1000 * n_excl (fst (run c script rands sleeps)) <= N.max excl_limit (c_max_sleep c) + 999)%N.
Proof. exact (run_backoffs true). Qed.
Print Assumptions C10_backoffs_bounded.

(* --- caller cancellation stops the call ----------------------------------------------------------------------------- *)
(* A context cancelled before the call lets at most ONE attempt reach a client; a context cancelled while attempt k is in flight
   (attempts 0..k were made) lets at most one more (it is answered with the context error, and an RPC-level answer under a dead
   context ends the call).  Not covered by this theorem: a cancellation raised during a back-off sleep (TBo), where the attempt
   index at which it strikes depends on the run. *)
Theorem C10_cancel_stops : forall c script rands sleeps,
  (c_cancel c = TPre -> n_attempts (fst (run c script rands sleeps)) <= 1) /\
  (forall k, c_cancel c = TAtt k -> n_attempts (fst (run c script rands sleeps)) <= k + 2).
Proof. exact (run_cancel true). Qed.
Print Assumptions C10_cancel_stops.

(* --- the async path -------------------------------------------------------------------------------------------------- *)
(* SendReqAsync (first attempt by initForAsyncRequest + handleAsyncResponse, then next()) is the same [run] as SendReq, unless an
   interruptible request was already killed when the call started: initForAsyncRequest does not look at the kill flag, so the
   async path still sends its first attempt (ex_async_killed_before).  Structural proof: no step function reads [c_async]. *)
Theorem C10_async_same_run : forall c script rands sleeps,
  c_kill c <> TPre \/ c_interruptible c = false ->
  run (with_async c true) script rands sleeps = run (with_async c false) script rands sleeps.
Proof. exact (run_async_same true). Qed.
Print Assumptions C10_async_same_run.

(* --- sequences of calls on the same cached region ----------------------------------------------------------------- *)
(* [run_st] = [run] that also PREDICTS the cache state the call leaves (cached leader, memoised proxy, per-store liveness / slow
   mark / epoch staleness / load estimate; a region invalidated by the call is loaded again from PD): the check compares this
   prediction with the state observed before the next call.  It is the same run: *)
Theorem C10_cache_same_run : forall c script rands sleeps pd,
  fst (run_st c script rands sleeps pd) = run c script rands sleeps.
Proof. exact run_st_fst. Qed.
Print Assumptions C10_cache_same_run.

(* [run_seq]: each call starts from the cache state its predecessor left.  Every call of every sequence is bounded (by the
   replica count of the state it starts from), whatever the scripts, from any initial cache state.  This is a COROLLARY:
   C10_bounded (which quantifies over every initial cache state) mapped over the list of calls; what a sequence adds is the
   cache-state prediction ([run_st] / [end_cache]) that the check compares with the implementation. *)
Theorem C10_bounded_seq : forall calls c pd,
  Forall (fun cx => n_attempts (fst (snd cx)) <=
                    max_replica_attempt * length (c_reps (fst cx)) + length (c_reps (fst cx)) * (length (c_reps (fst cx)) - 1))
         (run_seq c calls pd).
Proof. exact (run_seq_each _ run_bounded). Qed.
Print Assumptions C10_bounded_seq.

(* --- non-vacuity --------------------------------------------------------------------------------------------- *)
(* stale read: DataIsNotReady on the first replica, ServerIsBusy on the leader, RPC error on the last replica *)
Example ex_stale_read :
  run c_stale_read [ODataIsNotReady; OBusy false; ORpcErr Reachable] [0; 0] [55; 1057]%N =
  ([EAtt 0 false true false; EAtt 1 true false true; EAtt 2 true false true; EBo BoRPC 55; EBo BoBusy 1057], RPseudo).
Proof. vm_compute. reflexivity. Qed.
(* without a re-arm: 10 RPC errors on the leader, then one try per follower *)
Example ex_no_rearm : n_rearms (fst (run c0 (repeat (ORpcErr Reachable) 40) [] [])) = 0 /\
  n_attempts (fst (run c0 (repeat (ORpcErr Reachable) 40) [] [])) = 12.
Proof. vm_compute. auto. Qed.
Example ex_budget : snd (run (mkCfg RTLeader false true false false false false 120%N true (c_reps c0) false TpTiKV TNever TNever true 0 None false) (repeat (ORpcErr Reachable) 40) [] [73; 105]%N) = RError.
Proof. vm_compute. reflexivity. Qed.
Example ex_write : fst (run (mkCfg RTFollower false false false false false false 100000%N true (c_reps c0) false TpTiKV TNever TNever true 0 None false) [OStaleCommand] [1] []) =
  [EAtt 2 false false false; EAtt 1 false false true].
Proof. vm_compute. reflexivity. Qed.
(* regression for F10: under the code as it is the lasso terminates — 4 re-arms (2 per ping-pong replica), then no replica is left *)
Example ex_lasso_terminates : n_attempts (fst (run c0 (lasso 1000) [] [])) = 25 /\ n_rearms (fst (run c0 (lasso 1000) [] [])) = 4 /\
  snd (run c0 (lasso 1000) [] []) = RPseudo.
Proof. vm_compute. auto. Qed.

(* forwarding: leader store unreachable from the client, the request goes through replica 1 (ForwardedHost = leader) *)
Example ex_forward : run c_fwd [] [] [] = ([EProxy 1; EAtt 0 false false false], RSuccess 0).
Proof. vm_compute. reflexivity. Qed.
(* budget of 120 ms: the third RPC back-off is refused *)
Example ex_spent : let r := run (mkCfg RTLeader false true false false false false 120%N true (c_reps c0) false TpTiKV TNever TNever true 0 None false) (repeat (ORpcErr Reachable) 40) [] [73; 105]%N in
  snd r = RError /\ tot (fst r) = 178%N /\ n_plain (fst r) = 2%N.
Proof. vm_compute. auto. Qed.

(* validation gate: a TiFlash-served read with a failing timestamp is refused, a TiDB-served one is exempt by design *)
Example ex_validate_tp :
  run (mkCfg RTLeader false true false false false false 100000%N false (c_reps c0) false TpTiFlash TNever TNever true 0 None false) [] [] [] = ([], RError) /\
  snd (run (mkCfg RTLeader false true false false false false 100000%N false (c_reps c0) false TpTiDB TNever TNever true 0 None false) [] [] []) = RSuccess 0.
Proof. vm_compute. auto. Qed.

(* caller cancellation and kill: the call ends with an error, at most one more attempt reaches a client after the cancellation
   (it is answered with the context error), none after an interruptible request saw the kill flag; never a fabricated success *)
Example ex_cancel :
  run (c_cancelled TPre) [] [] [] = ([EAtt 0 false false false], RError) /\
  run (c_cancelled (TAtt 0)) [ONotLeaderHint 1; OSuccess] [] [] = ([EAtt 0 false false false; EAtt 1 false false true], RError) /\
  run (c_cancelled (TAtt 0)) [] [] [] = ([EAtt 0 false false false], RSuccess 0) /\
  run (c_cancelled (TBo 0)) (repeat (ORpcErr Reachable) 5) [] [51]%N = ([EAtt 0 false false false; EBo BoRPC 51; EAtt 0 false false true], RError).
Proof. vm_compute. auto. Qed.
Example ex_kill :
  run (c_killed TPre true) [] [] [] = ([], RError) /\
  run (c_killed (TAtt 0) true) (repeat (ORpcErr Reachable) 5) [] [] = ([EAtt 0 false false false], RError) /\
  run (c_killed (TAtt 0) false) (repeat (ORpcErr Reachable) 5) [] [52]%N = ([EAtt 0 false false false; EBo BoRPC 52], RError) /\
  run (c_killed (TBo 0) true) (repeat (ORpcErr Reachable) 5) [] [98]%N = ([EAtt 0 false false false; EBo BoRPC 98], RError).
Proof. vm_compute. auto. Qed.

(* a later call on a region whose cache remembers proxy 1 (memoised by an earlier call) while the leader store stays unreachable and
   every forwarded attempt gets StaleCommand: the memoised proxy is used once (it must still be a candidate), then replica 2,
   then the selector gives up — 2 attempts, pseudo region error *)
Example ex_memoised_proxy :
  run c_later_call (repeat OStaleCommand 40) [] [] =
  ([EProxy 1; EAtt 0 false false false; EProxy 2; EAtt 0 false false true], RPseudo).
Proof. vm_compute. reflexivity. Qed.

(* two calls on the same cached region, forwarding on: call 1 finds the leader's store unreachable and succeeds through replica 1,
   which is memoised; call 2 (leader still unreachable, StaleCommand for ever) uses the memoised proxy once, then replica 2, gives up *)
Example ex_two_calls :
  map snd (run_seq c_fw_ok [([ORpcErr Unreachable], [], [55%N]); (repeat OStaleCommand 40, [], [])] 0) =
  [([EAtt 0 false false false; EBo BoRPC 55; EProxy 1; EAtt 0 false false true], RSuccess 1);
   ([EProxy 1; EAtt 0 false false false; EProxy 2; EAtt 0 false false true], RPseudo)] /\
  map (fun cx => (c_leader0 (fst cx), c_proxy0 (fst cx), map live (c_reps (fst cx))))
      (run_seq c_fw_ok [([ORpcErr Unreachable], [], [55%N]); (repeat OStaleCommand 40, [], [])] 0) =
  [(0, None, [Reachable; Reachable; Reachable]); (0, Some 1, [Unreachable; Reachable; Reachable])].
Proof. vm_compute. auto. Qed.

(* the hypothesis of C10_async_same_run is needed: killed before the call, the sync path sends nothing, the async path one attempt *)
Example ex_async_killed_before :
  run (with_async (c_killed TPre true) false) [] [] [] = ([], RError) /\
  run (with_async (c_killed TPre true) true) [] [] [] = ([EAtt 0 false false false], RSuccess 0) /\
  run (with_async (c_killed (TAtt 0) true) true) (repeat (ORpcErr Reachable) 5) [] [] = run (with_async (c_killed (TAtt 0) true) false) (repeat (ORpcErr Reachable) 5) [] [].
Proof. vm_compute. auto. Qed.

(* rarely produced answers: RecoveryInProgress = invalidate, back off, hand the region error to the caller; flashback in progress
   on a replica read that hit a follower = retry on the leader, otherwise an error; RegionNotInitialized = back off and retry *)
Example ex_rare_answers :
  run c0 [ORecovery] [] [50]%N = ([EAtt 0 false false false; EBo BoRecovery 50], RRegionErr 0) /\
  run c0 [OFlashback] [] [] = ([EAtt 0 false false false], RFatal 0) /\
  run (mkCfg RTFollower false true false false false false 100000%N true (c_reps c0) false TpTiKV TNever TNever true 0 None false)
      [OFlashback; OStaleCommand] [0] [] = ([EAtt 1 true false false; EAtt 0 false false true; EAtt 0 false false true], RSuccess 2) /\
  run c0 [ONotInitialized; OReadIndexNotReady; OMerging] [] [2; 2; 4]%N =
    ([EAtt 0 false false false; EBo BoNotInit 2; EAtt 0 false false true; EBo BoRegionScheduling 2; EAtt 0 false false true;
      EBo BoRegionScheduling 4; EAtt 0 false false true], RSuccess 3).
Proof. vm_compute. auto. Qed.
