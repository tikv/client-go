(* SendReq/ProofsBound.v — every attempt uses up one of the maxReplicaAttempt units of some replica;
   only replica.onUpdateLeader (NotLeader with a leader hint naming an exhausted replica) gives units back.
   [backoff_cases] and [handle_cases] list what a back-off and an outcome handler can do; the bound, the flag discipline,
   the budget and the cancellation proofs read those lists and do not unfold the handlers. *)
From Coq Require Import List Bool Arith NArith Lia.
Import ListNotations.
From Verif Require Import SendReq.Model.

Definition atts (s : state) : list nat := map attempts (reps s).
Fixpoint room_l (l : list nat) : nat := match l with [] => 0 | a :: t => (max_replica_attempt - a) + room_l t end.
Definition room (s : state) : nat := room_l (atts s).
Definition att_at (s : state) (t : nat) : nat := nth t (atts s) max_replica_attempt.

Lemma att_at_rep s t : attempts (rep_at s t) = att_at s t.
Proof. unfold rep_at, att_at, atts. change max_replica_attempt with (attempts dummy_rep). now rewrite map_nth. Qed.

Lemma map_upd_same {A} (g : A -> nat) f i (l : list A) : (forall r, g (f r) = g r) -> map g (upd i f l) = map g l.
Proof. intros H. revert i; induction l; intros [|i]; simpl; auto; now rewrite ?H, ?IHl. Qed.

Lemma atts_upd_same i f s : (forall r, attempts (f r) = attempts r) -> atts (upd_rep i f s) = atts s.
Proof. intros H. unfold atts, upd_rep; simpl. now apply map_upd_same. Qed.

Lemma room_eq s s' : atts s' = atts s -> room s' = room s.
Proof. unfold room. now intros ->. Qed.

Definition charge (r : rep) : rep := set_attempts (S (attempts r)) r.

Lemma room_charge s t : att_at s t < max_replica_attempt -> room (upd_rep t charge s) + 1 = room s.
Proof.
  unfold room, att_at, atts, upd_rep. cbn [reps set_reps]. generalize (reps s) as l.
  intros l; revert t; induction l as [|a l IHl]; intros [|j] H;
    cbn [map upd nth room_l attempts charge set_attempts] in *; unfold max_replica_attempt in *; try lia.
  specialize (IHl j H). lia.
Qed.

Lemma room_charge_le s t : room (upd_rep t charge s) <= room s.
Proof.
  unfold room, atts, upd_rep. cbn [reps set_reps]. generalize (reps s) as l.
  intros l; revert t; induction l as [|a l IHl]; intros [|j];
    cbn [map upd nth room_l attempts charge set_attempts] in *; unfold max_replica_attempt in *; try lia.
  specialize (IHl j). lia.
Qed.

Lemma room_rearm s i f : (forall r, attempts (f r) = max_replica_attempt - 1) -> room (upd_rep i f s) <= room s + 1.
Proof.
  intros H. unfold room, atts, upd_rep. cbn [reps set_reps]. generalize (reps s) as l.
  intros l; revert i; induction l as [|a l IHl]; intros [|j]; cbn [map upd nth room_l]; try lia.
  - rewrite H. unfold max_replica_attempt. lia.
  - specialize (IHl j). lia.
Qed.

Lemma att_at_upd_other s i j f : i <> j -> att_at (upd_rep i f s) j = att_at s j.
Proof.
  unfold att_at, atts, upd_rep. cbn [reps set_reps]. generalize (reps s) as l.
  intros l; revert i j; induction l as [|a l IH]; intros [|i] [|j] H; cbn [map upd nth]; auto; congruence.
Qed.

Lemma validation_refuses_iff c :
  validation_refuses c = true <-> c_read c = true /\ c_val c = false /\ c_store_tp c <> TpTiDB.
Proof. unfold validation_refuses. destruct (c_read c), (c_val c), (c_store_tp c); cbn; intuition congruence. Qed.

Lemma n_attempts_app a b : n_attempts (a ++ b) = n_attempts a + n_attempts b.
Proof. unfold n_attempts. now rewrite filter_app, app_length. Qed.
Lemma n_rearms_app a b : n_rearms (a ++ b) = n_rearms a + n_rearms b.
Proof. unfold n_rearms. now rewrite filter_app, app_length. Qed.
Lemma n_backoffs_app a b : n_backoffs (a ++ b) = n_backoffs a + n_backoffs b.
Proof. unfold n_backoffs. now rewrite filter_app, app_length. Qed.

Definition quiet (evs : list event) : Prop := n_attempts evs = 0 /\ n_rearms evs = 0.
Lemma quiet_nil : quiet []. Proof. split; reflexivity. Qed.
#[export] Hint Resolve quiet_nil : core.
Lemma quiet_bo k sl : quiet [EBo k sl]. Proof. split; reflexivity. Qed.
#[export] Hint Resolve quiet_bo : core.

Lemma atts_set_leader v s : atts (set_leader v s) = atts s. Proof. reflexivity. Qed.
Lemma atts_set_valid v s : atts (set_valid v s) = atts s. Proof. reflexivity. Qed.
Lemma atts_set_rt v s : atts (set_rt v s) = atts s. Proof. reflexivity. Qed.
Lemma atts_set_sel_attempts v s : atts (set_sel_attempts v s) = atts s. Proof. reflexivity. Qed.
Lemma atts_set_inv_retry v s : atts (set_inv_retry v s) = atts s. Proof. reflexivity. Qed.
Lemma atts_set_busy_thr v s : atts (set_busy_thr v s) = atts s. Proof. reflexivity. Qed.
Lemma atts_set_lb_count v s : atts (set_lb_count v s) = atts s. Proof. reflexivity. Qed.
Lemma atts_set_lb_peer v s : atts (set_lb_peer v s) = atts s. Proof. reflexivity. Qed.
Lemma atts_set_lb_probed v s : atts (set_lb_probed v s) = atts s. Proof. reflexivity. Qed.
Lemma atts_set_q_rt v s : atts (set_q_rt v s) = atts s. Proof. reflexivity. Qed.
Lemma atts_set_q_rr v s : atts (set_q_rr v s) = atts s. Proof. reflexivity. Qed.
Lemma atts_set_q_stale v s : atts (set_q_stale v s) = atts s. Proof. reflexivity. Qed.
Lemma atts_set_q_retry v s : atts (set_q_retry v s) = atts s. Proof. reflexivity. Qed.
Lemma atts_set_bo_total v s : atts (set_bo_total v s) = atts s. Proof. reflexivity. Qed.
Lemma atts_set_bo_excl v s : atts (set_bo_excl v s) = atts s. Proof. reflexivity. Qed.
Lemma atts_set_orc_r v s : atts (set_orc_r v s) = atts s. Proof. reflexivity. Qed.
Lemma atts_set_orc_s v s : atts (set_orc_s v s) = atts s. Proof. reflexivity. Qed.
Lemma atts_set_proxy v s : atts (set_proxy v s) = atts s. Proof. reflexivity. Qed.
Lemma atts_set_rearmed_v v s : atts (set_rearmed_v v s) = atts s. Proof. reflexivity. Qed.
Lemma atts_set_pidx v s : atts (set_pidx v s) = atts s. Proof. reflexivity. Qed.
Lemma atts_unset_if c s : atts (unset_if c s) = atts s. Proof. unfold unset_if. destruct (_ && _); reflexivity. Qed.
#[export] Hint Rewrite atts_set_leader atts_set_valid atts_set_rt atts_set_sel_attempts atts_set_inv_retry atts_set_busy_thr atts_set_lb_count atts_set_lb_peer atts_set_lb_probed atts_set_q_rt atts_set_q_rr atts_set_q_stale atts_set_q_retry atts_set_bo_total atts_set_bo_excl atts_set_orc_r atts_set_orc_s atts_set_proxy atts_set_rearmed_v atts_set_pidx atts_unset_if : atts_db.
(* [att_same]: a tower of setters other than [set_attempts] keeps [attempts]; [atts_norm]: so [atts] sees through such towers *)
Ltac att_same := intros ?r; unfold inval_store; repeat match goal with |- context [if ?b then _ else _] => destruct b end; reflexivity.
Ltac atts_norm := repeat (first [ progress autorewrite with atts_db | rewrite atts_upd_same by att_same ]).

(* Backoffer.BackoffWithCfgAndMaxSleep refuses (returns the error) iff *)
Definition refuse (c : cfg) (k : bo_kind) (T E : N) : bool :=
  ((0 <? c_max_sleep c) && ((c_max_sleep c <=? T - E) || (excluded k && (excl_limit <=? E) && (c_max_sleep c <=? E))))%N.

Definition granted (c : cfg) (k : bo_kind) (s : state) (sl : N) : Prop :=
  dead s = false /\ refuse c k (bo_total s) (bo_excl s) = false /\ (min_step k <= sl)%N.

(* what a sleep changes: the two sums, and the flags the caller may raise meanwhile *)
Record woke (c : cfg) (k : bo_kind) (sl : N) (s s' : state) : Prop := {
  w_atts : atts s' = atts s;
  w_q : q_rr s' = q_rr s /\ q_stale s' = q_stale s /\ q_retry s' = q_retry s;
  w_rearmed : rearmed_v s' = rearmed_v s;
  w_total : bo_total s' = (bo_total s + sl)%N;
  w_excl : bo_excl s' = (bo_excl s + (if excluded k then sl else 0))%N;
  w_dead : dead s' = trig_bo (c_cancel c) (n_bo s);
  w_killed : killed s' = false }.

Definition refused (c : cfg) (k : bo_kind) (s : state) : Prop := dead s = true \/ refuse c k (bo_total s) (bo_excl s) = true.
Definition kill_seen (c : cfg) (s : state) : Prop := killed s || trig_bo (c_kill c) (n_bo s) = true.

Variant backoff_view (c : cfg) (k : bo_kind) (s : state) : bres -> Prop :=
| bv_ok sl s' : granted c k s sl -> woke c k sl s s' -> backoff_view c k s (BoOk s' (EBo k sl))
| bv_refused : refused c k s -> backoff_view c k s BoRefused
| bv_killed sl : granted c k s sl -> kill_seen c s -> backoff_view c k s (BoKilled (EBo k sl)).

Lemma backoff_cases c k s : backoff_view c k s (backoff c k s).
Proof.
  unfold backoff. destruct (dead s) eqn:D; [constructor; now left|].
  change ((0 <? c_max_sleep c)%N && budget_exceeded c k s) with (refuse c k (bo_total s) (bo_excl s)).
  destruct (refuse c k _ _) eqn:R; [constructor; now right|]. destruct (pop 0%N (orc_s s)) as [sl0 rest]. cbv zeta.
  assert (A : granted c k s (N.max sl0 (min_step k))) by (repeat split; auto; apply N.le_max_r).
  match goal with |- context [if killed ?x then _ else _] =>
    replace (killed x) with (killed s || trig_bo (c_kill c) (n_bo s)) by (now destruct (excluded k)) end.
  destruct (killed s || _) eqn:K; constructor; auto. destruct (excluded k) eqn:X; constructor; rewrite ?X; cbn; rewrite ?N.add_0_r; auto.
Qed.

Definition aux (s : state) := (rearmed_v s, bo_total s, bo_excl s, dead s, killed s).

(* a write that entered without the stale flag carries neither read flag *)
Definition plain (c : cfg) (s : state) : Prop := c_read c = false -> c_stale c = false -> q_rr s = false /\ q_stale s = false.

Lemma plain_same c s s' : q_rr s' = q_rr s -> q_stale s' = q_stale s -> plain c s -> plain c s'.
Proof. unfold plain. intros -> ->. auto. Qed.

(* what the handlers leave alone when they mark replicas, switch strategy or invalidate the region (the stale flag; the
   replica-read flag is at most cleared) *)
Record kept (c : cfg) (s s' : state) : Prop := {
  k_atts : atts s' = atts s;
  k_aux : aux s' = aux s;
  k_retry : q_retry s' = q_retry s;
  k_plain : plain c s -> plain c s' }.

Lemma kept_trans c s s1 s2 : kept c s s1 -> kept c s1 s2 -> kept c s s2.
Proof. intros [A B C D] [E F G H]. constructor; auto; congruence. Qed.

(* for [kept c s x] where x is s under setters that are guarded by tests; the last step is for [plain] when x clears a read flag *)
Ltac keeps := repeat match goal with |- context [if ?b then _ else _] => destruct b end; constructor; atts_norm; auto;
  intros P R ST; destruct (P R ST); now split.

(* the re-arm of replica [k] by a leader hint: one unit of room at most, one unit of the re-arm allowance [lim] if there is one *)
Record rearmed (lim : option nat) (k : nat) (s s' : state) : Prop := {
  ra_room : room s' <= room s + 1;
  ra_count : match lim with
             | Some m => nth k (rearmed_v s) m < m /\ rearmed_v s' = upd k S (rearmed_v s)
             | None => rearmed_v s' = rearmed_v s
             end;
  ra_same : (bo_total s', bo_excl s', dead s', killed s', q_rr s', q_stale s', q_retry s') =
            (bo_total s, bo_excl s, dead s, killed s, q_rr s, q_stale s, q_retry s) }.

(* How a step ends the call: with what it made of the answer, at once or after the back-off the answer asks for; with the error,
   because the caller gave up; or with whatever it holds ready for that, because the back-off was refused or the kill flag was
   seen after it. *)
Variant ended (c : cfg) (s : state) : list event -> result -> Prop :=
| en_done r : r <> RError -> ended c s [] r
| en_flagged : dead s = true \/ killed s = true -> ended c s [] RError
| en_slept k s0 sl r : aux s0 = aux s -> granted c k s0 sl -> r <> RError -> ended c s [EBo k sl] r
| en_refused k s0 r : aux s0 = aux s -> refused c k s0 -> ended c s [] r
| en_killed k s0 sl r : aux s0 = aux s -> granted c k s0 sl -> kill_seen c s0 -> ended c s [EBo k sl] r.

Lemma ended_quiet c s evs r : ended c s evs r -> quiet evs.
Proof. intros []; auto. Qed.

(* All a handler ever does: end the call; go on after marking replicas; back off from such a state and go on; re-arm the
   hinted replica. *)
Variant handled (fixed : bool) (c : cfg) (s : state) (hint : bool) : hres -> Prop :=
| hd_end sd r evs : ended c s evs r -> handled fixed c s hint (HDone sd r evs)
| hd_retry s' : kept c s s' -> handled fixed c s hint (HRetry s' [])
| hd_slept k s0 sl s' : kept c s s0 -> granted c k s0 sl -> woke c k sl s0 s' -> handled fixed c s hint (HRetry s' [EBo k sl])
| hd_rearm lim k s' : hint = true -> (fixed = true -> lim = Some (length (c_reps c) - 1)) -> rearmed lim k s s' ->
    handled fixed c s hint (HRetry s' [ERearm k]).

Lemma with_backoff_cases fixed c h k s s0 r0 : kept c s s0 -> handled fixed c s h (with_backoff c k s0 r0).
Proof.
  intros K. pose proof (k_aux _ _ _ K). unfold with_backoff.
  destruct (backoff_cases c k s0); [eapply hd_slept|apply hd_end; eapply en_refused|apply hd_end; eapply en_killed]; eassumption.
Qed.

Lemma btr_cases fixed c h k s i : handled fixed c s h (backoff_then_region_err c k s i).
Proof.
  assert (A : aux (set_valid false s) = aux s) by reflexivity. unfold backoff_then_region_err.
  destruct (backoff_cases c k (set_valid false s)); apply hd_end; econstructor; try eassumption; discriminate.
Qed.

Lemma on_send_fail_cases fixed c h s t d l : handled fixed c s h (on_send_fail c s t d l).
Proof.
  unfold on_send_fail. destruct (dead s) eqn:D; [apply hd_end, en_flagged; now left|]. destruct (d && c_short_to c && c_read c).
  - apply hd_retry. keeps.
  - apply with_backoff_cases. cbv zeta. keeps.
Qed.

Lemma on_busy_cases fixed c h s t w : handled fixed c s h (on_busy c s t w).
Proof.
  unfold on_busy. match goal with |- context [can_fast_retry ?x] => set (s1 := x) end.
  assert (K : kept c s s1) by (subst s1; keeps).
  destruct (can_fast_retry s1); [|now apply with_backoff_cases].
  apply hd_retry, (kept_trans c s s1 _ K). keeps.
Qed.

Lemma hint_cases fixed c s t k lim : (fixed = true -> lim = Some (length (c_reps c) - 1)) ->
  handled fixed c s true (on_not_leader_hint lim s t k).
Proof.
  intros HL. unfold on_not_leader_hint. cbv zeta.
  set (s1 := upd_rep t (set_f_notleader true) s). assert (K1 : kept c s s1) by (subst s1; keeps).
  destruct (length (reps s1) <=? k); [apply hd_retry, (kept_trans c s s1 _ K1); keeps|].
  destruct (negb (is_reachable (live (rep_at s1 k)))); [now apply hd_retry|].
  set (w := exhausted (rep_at s1 k) max_replica_attempt && match lim with Some m => nth k (rearmed_v s1) m <? m | None => true end).
  destruct w eqn:W.
  2: { apply hd_retry, (kept_trans c s s1 _ K1). cbv iota. destruct lim; keeps. }
  apply (hd_rearm fixed c s true lim k _ eq_refl HL). constructor.
  - destruct K1 as [K1 _ _ _]. rewrite <- (room_eq _ _ K1).
    set (f := fun r : rep => set_f_suspect false (set_f_notleader false (set_attempts (max_replica_attempt - 1) r))).
    transitivity (room (upd_rep k f s1)).
    + apply Nat.eq_le_incl, room_eq. destruct (leader_candidate _), lim; atts_norm; reflexivity.
    + now apply room_rearm.
  - subst w. destruct lim as [m|]; [|now destruct (leader_candidate _)].
    apply andb_prop in W as [_ W]. apply Nat.ltb_lt in W. split; [exact W|]. now destruct (leader_candidate _).
  - now destruct (leader_candidate _), lim.
Qed.

Lemma handle_cases fixed c s t o i :
  handled fixed c s (match o with ONotLeaderHint _ => true | _ => false end) (handle fixed c s t o i).
Proof.
  destruct o; cbn [handle]; repeat match goal with |- handled _ _ _ _ (if ?b then _ else _) => destruct b end;
    lazymatch goal with
    | |- handled _ _ _ _ (on_send_fail _ _ _ _ _) => apply on_send_fail_cases
    | |- handled _ _ _ _ (on_busy _ _ _ _) => apply on_busy_cases
    | |- handled _ _ _ _ (backoff_then_region_err _ _ _ _) => apply btr_cases
    | |- handled _ _ _ _ (on_not_leader_hint _ _ _ _) => apply hint_cases; now intros ->
    | |- handled _ _ _ _ (with_backoff _ _ _ _) => apply with_backoff_cases; keeps
    | |- handled _ _ _ _ (HDone _ _ _) => apply hd_end, en_done; discriminate
    | |- handled _ _ _ _ (HRetry _ _) => apply hd_retry; keeps
    end.
Qed.

(* handling an answer makes no attempt, and gives back room only by a re-arm *)
Lemma handled_spec fixed c s h x : handled fixed c s h x ->
  match x with
  | HRetry s' evs => room s' <= room s + n_rearms evs /\ n_attempts evs = 0 /\ n_rearms evs <= Nat.b2n h
  | HDone _ _ evs => quiet evs
  end.
Proof.
  intros [sd r evs E|s' K|k s0 sl s' K _ W|lim k s' -> _ R].
  - eapply ended_quiet, E.
  - rewrite (room_eq _ _ (k_atts _ _ _ K)). cbn. repeat split; lia.
  - rewrite (room_eq _ _ (w_atts _ _ _ _ _ W)), (room_eq _ _ (k_atts _ _ _ K)). cbn. repeat split; lia.
  - destruct R as [R _ _]. cbn. repeat split; lia.
Qed.
