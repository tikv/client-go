(* SendReq/Model.v — executable model of RegionRequestSender.SendReqCtx + replicaSelector
   (internal/locate/region_request.go, replica_selector.go, config/retry/backoff.go) AS THE CODE IS NOW,
   for one TiKV region with n replicas (with and without forwarding through a proxy), without TiFlash.
   One outcome of the fault script is consumed per RPC attempt; random tie-breaks (randIntn) and the
   jittered sleep lengths are oracle inputs.  Not modelled: wall-clock (attemptedTime, region TTL,
   decay of the estimated wait), health-check goroutines, store re-resolution.  The call starts from ANY cache
   state: per-replica/store state [c_reps] (liveness, slow, stale epoch, ...), the cached leader [c_leader0] and the proxy memoised
   by an earlier call [c_proxy0] (proxyTiKVIdx is set by onSendSuccess, i.e. when a call ends).
   [fixed = true] is the code as it is ([run]): replica.onUpdateLeader(maxRearm = len(replicas) - 1) re-arms an exhausted replica
   only while its counter [rearmed] is below maxRearm (fix cb7d671 of finding F10).  [fixed = false] is the rule before that
   fix (re-arm on every hint), kept only to state why the fix is needed ([run_before_fix]). *)
From Coq Require Import List Bool Arith NArith Lia.
Import ListNotations.

Inductive read_type := RTLeader | RTFollower | RTMixed | RTLearner | RTPreferLeader.
Inductive liveness := Reachable | Unreachable | Unknown.
(* tikvrpc.Request.StoreTp: which kind of node serves the request (zero value: TiKV) *)
Inductive store_tp := TpTiKV | TpTiFlash | TpTiDB.
Definition is_tidb (t : store_tp) : bool := match t with TpTiDB => true | _ => false end.
(* when the caller cancels the context / the kill flag is set: never, before the call, while attempt i is in flight
   (the answer of attempt i still arrives), or during the j-th back-off sleep of the call *)
Inductive trigger := TNever | TPre | TAtt (i : nat) | TBo (j : nat).
Definition trig_pre (t : trigger) : bool := match t with TPre => true | _ => false end.
Definition trig_att (t : trigger) (i : nat) : bool := match t with TAtt k => k =? i | _ => false end.
Definition trig_bo (t : trigger) (j : nat) : bool := match t with TBo k => k =? j | _ => false end.

Definition rt_eqb (a b : read_type) : bool :=
  match a, b with
  | RTLeader, RTLeader | RTFollower, RTFollower | RTMixed, RTMixed | RTLearner, RTLearner | RTPreferLeader, RTPreferLeader => true
  | _, _ => false
  end.
Definition is_reachable (l : liveness) : bool := match l with Reachable => true | _ => false end.
Definition is_unreachable (l : liveness) : bool := match l with Unreachable => true | _ => false end.

(* what a store (or the network) answers to one attempt *)
Inductive outcome :=
| ORpcErr (l : liveness)        (* RPC error; the liveness probe of the accessed store then answers l *)
| ODeadline (l : liveness)      (* RPC error = context deadline exceeded *)
| ONotLeader                    (* NotLeader without leader hint *)
| ONotLeaderHint (k : nat)      (* NotLeader, hint = peer of replica k (k >= n: a peer that is not in the cached region) *)
| OEpochNoRegions               (* EpochNotMatch without current regions *)
| OEpochBehind                  (* EpochNotMatch, the store's epoch is behind the cached one *)
| OEpochNewer                   (* EpochNotMatch carrying newer regions *)
| ORegionNotFound
| OBusy (wait : bool)           (* ServerIsBusy, EstimatedWaitMs = 0 / large *)
| OBusyDeadline                 (* ServerIsBusy, reason "deadline is exceeded" *)
| OStaleCommand | OStoreNotMatch | ODataIsNotReady | OMaxTsNotSynced | ODiskFull
| OUnknown                      (* a region error of no known kind *)
(* rarely produced answers *)
| OUndetermined                 (* UndeterminedResult: for the caller *)
| ORecovery | OWitness          (* RecoveryInProgress / IsWitness: invalidate, back off, hand the region error to the caller *)
| OFlashback | OFlashbackNotPrepared
| OKeyNotInRegion | OBucketVersion | OMismatchPeer
| ORaftTooLarge                 (* RaftEntryTooLarge *)
| ONotInitialized | OReadIndexNotReady | OMerging   (* RegionNotInitialized / ReadIndexNotReady / ProposalInMergingMode *)
| OInvalidMaxTs                 (* message "invalid max_ts update" *)
| ODeadlineMsg                  (* region error whose message says "Deadline is exceeded" *)
| OSuccess.

Inductive bo_kind := BoRPC | BoRegionMiss | BoRegionScheduling | BoBusy | BoDiskFull | BoMaxTs | BoRecovery | BoWitness | BoNotInit.

(* lower bound of one sleep of each kind (config/retry/config.go: base/2 for EqualJitter, base for NoJitter) *)
Definition min_step (k : bo_kind) : N :=
  match k with BoRPC => 50 | BoBusy => 1000 | BoDiskFull => 500 | BoRecovery => 50 | BoWitness => 500 | _ => 2 end%N.
Definition excluded (k : bo_kind) : bool := match k with BoBusy => true | _ => false end.
Definition excl_limit : N := 600000%N.      (* isSleepExcluded[tikvServerBusy] *)
Definition max_replica_attempt : nat := 10.  (* maxReplicaAttempt *)

Inductive event :=
| EAtt (idx : nat) (replica_read stale_read is_retry : bool)   (* one RPC attempt and the flags it carries *)
| EBo (k : bo_kind) (sleep : N)                                (* one back-off *)
| ERearm (idx : nat)                                           (* onUpdateLeader re-armed an exhausted replica *)
| EProxy (idx : nat).                                          (* the attempt that follows is forwarded through replica idx (ForwardedHost = target) *)

Inductive result :=
| RSuccess (i : nat)      (* the response of attempt i *)
| RRegionErr (i : nat)    (* the region error answered to attempt i, handed to the caller *)
| RPseudo                 (* the client-made EpochNotMatch: "no replica available" *)
| RError                  (* an error: validation, budget, cancellation / kill *)
| RFatal (i : nat).       (* the error the handler makes of attempt i's answer (flashback, RaftEntryTooLarge, invalid max_ts update) *)

Record rep := mkRep {
  attempts : nat;
  f_deadline : bool;
  f_dnr : bool;
  f_notleader : bool;
  f_busy : bool;
  f_suspect : bool;
  stale : bool;
  live : liveness;
  slow : bool;
  stat_init : bool;
  busy_est : bool;
  label_ok : bool;
  learner : bool;
  pending : bool;
  rstale : bool }.
Definition set_attempts (v : nat) (r : rep) : rep := mkRep (v) (f_deadline r) (f_dnr r) (f_notleader r) (f_busy r) (f_suspect r) (stale r) (live r) (slow r) (stat_init r) (busy_est r) (label_ok r) (learner r) (pending r) (rstale r).
Definition set_f_deadline (v : bool) (r : rep) : rep := mkRep (attempts r) (v) (f_dnr r) (f_notleader r) (f_busy r) (f_suspect r) (stale r) (live r) (slow r) (stat_init r) (busy_est r) (label_ok r) (learner r) (pending r) (rstale r).
Definition set_f_dnr (v : bool) (r : rep) : rep := mkRep (attempts r) (f_deadline r) (v) (f_notleader r) (f_busy r) (f_suspect r) (stale r) (live r) (slow r) (stat_init r) (busy_est r) (label_ok r) (learner r) (pending r) (rstale r).
Definition set_f_notleader (v : bool) (r : rep) : rep := mkRep (attempts r) (f_deadline r) (f_dnr r) (v) (f_busy r) (f_suspect r) (stale r) (live r) (slow r) (stat_init r) (busy_est r) (label_ok r) (learner r) (pending r) (rstale r).
Definition set_f_busy (v : bool) (r : rep) : rep := mkRep (attempts r) (f_deadline r) (f_dnr r) (f_notleader r) (v) (f_suspect r) (stale r) (live r) (slow r) (stat_init r) (busy_est r) (label_ok r) (learner r) (pending r) (rstale r).
Definition set_f_suspect (v : bool) (r : rep) : rep := mkRep (attempts r) (f_deadline r) (f_dnr r) (f_notleader r) (f_busy r) (v) (stale r) (live r) (slow r) (stat_init r) (busy_est r) (label_ok r) (learner r) (pending r) (rstale r).
Definition set_stale (v : bool) (r : rep) : rep := mkRep (attempts r) (f_deadline r) (f_dnr r) (f_notleader r) (f_busy r) (f_suspect r) (v) (live r) (slow r) (stat_init r) (busy_est r) (label_ok r) (learner r) (pending r) (rstale r).
Definition set_live (v : liveness) (r : rep) : rep := mkRep (attempts r) (f_deadline r) (f_dnr r) (f_notleader r) (f_busy r) (f_suspect r) (stale r) (v) (slow r) (stat_init r) (busy_est r) (label_ok r) (learner r) (pending r) (rstale r).
Definition set_slow (v : bool) (r : rep) : rep := mkRep (attempts r) (f_deadline r) (f_dnr r) (f_notleader r) (f_busy r) (f_suspect r) (stale r) (live r) (v) (stat_init r) (busy_est r) (label_ok r) (learner r) (pending r) (rstale r).
Definition set_stat_init (v : bool) (r : rep) : rep := mkRep (attempts r) (f_deadline r) (f_dnr r) (f_notleader r) (f_busy r) (f_suspect r) (stale r) (live r) (slow r) (v) (busy_est r) (label_ok r) (learner r) (pending r) (rstale r).
Definition set_busy_est (v : bool) (r : rep) : rep := mkRep (attempts r) (f_deadline r) (f_dnr r) (f_notleader r) (f_busy r) (f_suspect r) (stale r) (live r) (slow r) (stat_init r) (v) (label_ok r) (learner r) (pending r) (rstale r).
Definition set_label_ok (v : bool) (r : rep) : rep := mkRep (attempts r) (f_deadline r) (f_dnr r) (f_notleader r) (f_busy r) (f_suspect r) (stale r) (live r) (slow r) (stat_init r) (busy_est r) (v) (learner r) (pending r) (rstale r).
Definition set_learner (v : bool) (r : rep) : rep := mkRep (attempts r) (f_deadline r) (f_dnr r) (f_notleader r) (f_busy r) (f_suspect r) (stale r) (live r) (slow r) (stat_init r) (busy_est r) (label_ok r) (v) (pending r) (rstale r).
Definition set_pending (v : bool) (r : rep) : rep := mkRep (attempts r) (f_deadline r) (f_dnr r) (f_notleader r) (f_busy r) (f_suspect r) (stale r) (live r) (slow r) (stat_init r) (busy_est r) (label_ok r) (learner r) (v) (rstale r).
Definition set_rstale (v : bool) (r : rep) : rep := mkRep (attempts r) (f_deadline r) (f_dnr r) (f_notleader r) (f_busy r) (f_suspect r) (stale r) (live r) (slow r) (stat_init r) (busy_est r) (label_ok r) (learner r) (pending r) (v).

Record state := mkState {
  reps : list rep;
  leader : nat;
  valid : bool;
  rt : read_type;
  sel_attempts : nat;
  inv_retry : bool;
  busy_thr : bool;
  lb_count : nat;
  lb_peer : option nat;
  lb_probed : bool;
  q_rt : read_type;
  q_rr : bool;
  q_stale : bool;
  q_retry : bool;
  bo_total : N;
  bo_excl : N;
  orc_r : list nat;
  orc_s : list N;
  proxy : option nat;
  rearmed_v : list nat;
  dead : bool;
  killed : bool;
  n_bo : nat;
  pidx : option nat }.
Definition set_reps (v : list rep) (s : state) : state := mkState (v) (leader s) (valid s) (rt s) (sel_attempts s) (inv_retry s) (busy_thr s) (lb_count s) (lb_peer s) (lb_probed s) (q_rt s) (q_rr s) (q_stale s) (q_retry s) (bo_total s) (bo_excl s) (orc_r s) (orc_s s) (proxy s) (rearmed_v s) (dead s) (killed s) (n_bo s) (pidx s).
Definition set_leader (v : nat) (s : state) : state := mkState (reps s) (v) (valid s) (rt s) (sel_attempts s) (inv_retry s) (busy_thr s) (lb_count s) (lb_peer s) (lb_probed s) (q_rt s) (q_rr s) (q_stale s) (q_retry s) (bo_total s) (bo_excl s) (orc_r s) (orc_s s) (proxy s) (rearmed_v s) (dead s) (killed s) (n_bo s) (pidx s).
Definition set_valid (v : bool) (s : state) : state := mkState (reps s) (leader s) (v) (rt s) (sel_attempts s) (inv_retry s) (busy_thr s) (lb_count s) (lb_peer s) (lb_probed s) (q_rt s) (q_rr s) (q_stale s) (q_retry s) (bo_total s) (bo_excl s) (orc_r s) (orc_s s) (proxy s) (rearmed_v s) (dead s) (killed s) (n_bo s) (pidx s).
Definition set_rt (v : read_type) (s : state) : state := mkState (reps s) (leader s) (valid s) (v) (sel_attempts s) (inv_retry s) (busy_thr s) (lb_count s) (lb_peer s) (lb_probed s) (q_rt s) (q_rr s) (q_stale s) (q_retry s) (bo_total s) (bo_excl s) (orc_r s) (orc_s s) (proxy s) (rearmed_v s) (dead s) (killed s) (n_bo s) (pidx s).
Definition set_sel_attempts (v : nat) (s : state) : state := mkState (reps s) (leader s) (valid s) (rt s) (v) (inv_retry s) (busy_thr s) (lb_count s) (lb_peer s) (lb_probed s) (q_rt s) (q_rr s) (q_stale s) (q_retry s) (bo_total s) (bo_excl s) (orc_r s) (orc_s s) (proxy s) (rearmed_v s) (dead s) (killed s) (n_bo s) (pidx s).
Definition set_inv_retry (v : bool) (s : state) : state := mkState (reps s) (leader s) (valid s) (rt s) (sel_attempts s) (v) (busy_thr s) (lb_count s) (lb_peer s) (lb_probed s) (q_rt s) (q_rr s) (q_stale s) (q_retry s) (bo_total s) (bo_excl s) (orc_r s) (orc_s s) (proxy s) (rearmed_v s) (dead s) (killed s) (n_bo s) (pidx s).
Definition set_busy_thr (v : bool) (s : state) : state := mkState (reps s) (leader s) (valid s) (rt s) (sel_attempts s) (inv_retry s) (v) (lb_count s) (lb_peer s) (lb_probed s) (q_rt s) (q_rr s) (q_stale s) (q_retry s) (bo_total s) (bo_excl s) (orc_r s) (orc_s s) (proxy s) (rearmed_v s) (dead s) (killed s) (n_bo s) (pidx s).
Definition set_lb_count (v : nat) (s : state) : state := mkState (reps s) (leader s) (valid s) (rt s) (sel_attempts s) (inv_retry s) (busy_thr s) (v) (lb_peer s) (lb_probed s) (q_rt s) (q_rr s) (q_stale s) (q_retry s) (bo_total s) (bo_excl s) (orc_r s) (orc_s s) (proxy s) (rearmed_v s) (dead s) (killed s) (n_bo s) (pidx s).
Definition set_lb_peer (v : option nat) (s : state) : state := mkState (reps s) (leader s) (valid s) (rt s) (sel_attempts s) (inv_retry s) (busy_thr s) (lb_count s) (v) (lb_probed s) (q_rt s) (q_rr s) (q_stale s) (q_retry s) (bo_total s) (bo_excl s) (orc_r s) (orc_s s) (proxy s) (rearmed_v s) (dead s) (killed s) (n_bo s) (pidx s).
Definition set_lb_probed (v : bool) (s : state) : state := mkState (reps s) (leader s) (valid s) (rt s) (sel_attempts s) (inv_retry s) (busy_thr s) (lb_count s) (lb_peer s) (v) (q_rt s) (q_rr s) (q_stale s) (q_retry s) (bo_total s) (bo_excl s) (orc_r s) (orc_s s) (proxy s) (rearmed_v s) (dead s) (killed s) (n_bo s) (pidx s).
Definition set_q_rt (v : read_type) (s : state) : state := mkState (reps s) (leader s) (valid s) (rt s) (sel_attempts s) (inv_retry s) (busy_thr s) (lb_count s) (lb_peer s) (lb_probed s) (v) (q_rr s) (q_stale s) (q_retry s) (bo_total s) (bo_excl s) (orc_r s) (orc_s s) (proxy s) (rearmed_v s) (dead s) (killed s) (n_bo s) (pidx s).
Definition set_q_rr (v : bool) (s : state) : state := mkState (reps s) (leader s) (valid s) (rt s) (sel_attempts s) (inv_retry s) (busy_thr s) (lb_count s) (lb_peer s) (lb_probed s) (q_rt s) (v) (q_stale s) (q_retry s) (bo_total s) (bo_excl s) (orc_r s) (orc_s s) (proxy s) (rearmed_v s) (dead s) (killed s) (n_bo s) (pidx s).
Definition set_q_stale (v : bool) (s : state) : state := mkState (reps s) (leader s) (valid s) (rt s) (sel_attempts s) (inv_retry s) (busy_thr s) (lb_count s) (lb_peer s) (lb_probed s) (q_rt s) (q_rr s) (v) (q_retry s) (bo_total s) (bo_excl s) (orc_r s) (orc_s s) (proxy s) (rearmed_v s) (dead s) (killed s) (n_bo s) (pidx s).
Definition set_q_retry (v : bool) (s : state) : state := mkState (reps s) (leader s) (valid s) (rt s) (sel_attempts s) (inv_retry s) (busy_thr s) (lb_count s) (lb_peer s) (lb_probed s) (q_rt s) (q_rr s) (q_stale s) (v) (bo_total s) (bo_excl s) (orc_r s) (orc_s s) (proxy s) (rearmed_v s) (dead s) (killed s) (n_bo s) (pidx s).
Definition set_bo_total (v : N) (s : state) : state := mkState (reps s) (leader s) (valid s) (rt s) (sel_attempts s) (inv_retry s) (busy_thr s) (lb_count s) (lb_peer s) (lb_probed s) (q_rt s) (q_rr s) (q_stale s) (q_retry s) (v) (bo_excl s) (orc_r s) (orc_s s) (proxy s) (rearmed_v s) (dead s) (killed s) (n_bo s) (pidx s).
Definition set_bo_excl (v : N) (s : state) : state := mkState (reps s) (leader s) (valid s) (rt s) (sel_attempts s) (inv_retry s) (busy_thr s) (lb_count s) (lb_peer s) (lb_probed s) (q_rt s) (q_rr s) (q_stale s) (q_retry s) (bo_total s) (v) (orc_r s) (orc_s s) (proxy s) (rearmed_v s) (dead s) (killed s) (n_bo s) (pidx s).
Definition set_orc_r (v : list nat) (s : state) : state := mkState (reps s) (leader s) (valid s) (rt s) (sel_attempts s) (inv_retry s) (busy_thr s) (lb_count s) (lb_peer s) (lb_probed s) (q_rt s) (q_rr s) (q_stale s) (q_retry s) (bo_total s) (bo_excl s) (v) (orc_s s) (proxy s) (rearmed_v s) (dead s) (killed s) (n_bo s) (pidx s).
Definition set_orc_s (v : list N) (s : state) : state := mkState (reps s) (leader s) (valid s) (rt s) (sel_attempts s) (inv_retry s) (busy_thr s) (lb_count s) (lb_peer s) (lb_probed s) (q_rt s) (q_rr s) (q_stale s) (q_retry s) (bo_total s) (bo_excl s) (orc_r s) (v) (proxy s) (rearmed_v s) (dead s) (killed s) (n_bo s) (pidx s).
Definition set_proxy (v : option nat) (s : state) : state := mkState (reps s) (leader s) (valid s) (rt s) (sel_attempts s) (inv_retry s) (busy_thr s) (lb_count s) (lb_peer s) (lb_probed s) (q_rt s) (q_rr s) (q_stale s) (q_retry s) (bo_total s) (bo_excl s) (orc_r s) (orc_s s) (v) (rearmed_v s) (dead s) (killed s) (n_bo s) (pidx s).
Definition set_rearmed_v (v : list nat) (s : state) : state := mkState (reps s) (leader s) (valid s) (rt s) (sel_attempts s) (inv_retry s) (busy_thr s) (lb_count s) (lb_peer s) (lb_probed s) (q_rt s) (q_rr s) (q_stale s) (q_retry s) (bo_total s) (bo_excl s) (orc_r s) (orc_s s) (proxy s) (v) (dead s) (killed s) (n_bo s) (pidx s).
Definition set_dead (v : bool) (s : state) : state := mkState (reps s) (leader s) (valid s) (rt s) (sel_attempts s) (inv_retry s) (busy_thr s) (lb_count s) (lb_peer s) (lb_probed s) (q_rt s) (q_rr s) (q_stale s) (q_retry s) (bo_total s) (bo_excl s) (orc_r s) (orc_s s) (proxy s) (rearmed_v s) (v) (killed s) (n_bo s) (pidx s).
Definition set_killed (v : bool) (s : state) : state := mkState (reps s) (leader s) (valid s) (rt s) (sel_attempts s) (inv_retry s) (busy_thr s) (lb_count s) (lb_peer s) (lb_probed s) (q_rt s) (q_rr s) (q_stale s) (q_retry s) (bo_total s) (bo_excl s) (orc_r s) (orc_s s) (proxy s) (rearmed_v s) (dead s) (v) (n_bo s) (pidx s).
Definition set_n_bo (v : nat) (s : state) : state := mkState (reps s) (leader s) (valid s) (rt s) (sel_attempts s) (inv_retry s) (busy_thr s) (lb_count s) (lb_peer s) (lb_probed s) (q_rt s) (q_rr s) (q_stale s) (q_retry s) (bo_total s) (bo_excl s) (orc_r s) (orc_s s) (proxy s) (rearmed_v s) (dead s) (killed s) (v) (pidx s).
Definition set_pidx (v : option nat) (s : state) : state := mkState (reps s) (leader s) (valid s) (rt s) (sel_attempts s) (inv_retry s) (busy_thr s) (lb_count s) (lb_peer s) (lb_probed s) (q_rt s) (q_rr s) (q_stale s) (q_retry s) (bo_total s) (bo_excl s) (orc_r s) (orc_s s) (proxy s) (rearmed_v s) (dead s) (killed s) (n_bo s) (v).


Record cfg := mkCfg {
  c_rt : read_type; c_stale : bool; c_read : bool; c_has_labels : bool; c_leader_only : bool;
  c_thr : bool; c_short_to : bool; c_max_sleep : N; c_val : bool; c_reps : list rep;
  c_fw : bool (* RegionCache.enableForwarding *);
  c_store_tp : store_tp (* req.StoreTp; only the validation gate depends on it: the retry loop below is the TiKV one *);
  c_cancel : trigger (* the caller's context is cancelled *);
  c_kill : trigger (* kv.Variables.Killed is set *);
  c_interruptible : bool (* req.IsInterruptible(): all commands but Commit, BatchRollback, PessimisticRollback *);
  c_leader0 : nat (* the cached region's leader index when the call starts (RegionStore.workTiKVIdx) *);
  c_proxy0 : option nat (* the proxy memoised in the cached region by an earlier call (RegionStore.proxyTiKVIdx) *);
  c_async : bool (* the call goes through SendReqAsync: the first attempt is prepared by initForAsyncRequest, which does not
                    look at the kill flag; everything else is the same state machine (handleAsyncResponse, then next()) *) }.

Definition dummy_rep : rep := mkRep max_replica_attempt false false false false false true Unreachable false false false false false false true.
Definition rep_at (s : state) (i : nat) : rep := nth i (reps s) dummy_rep.

Fixpoint upd {A} (i : nat) (f : A -> A) (l : list A) : list A :=
  match l, i with
  | [], _ => []
  | x :: t, O => f x :: t
  | x :: t, S j => x :: upd j f t
  end.
Definition upd_rep (i : nat) (f : rep -> rep) (s : state) : state := set_reps (upd i f (reps s)) s.

Definition pop {A} (d : A) (l : list A) : A * list A := match l with [] => (d, []) | x :: t => (x, t) end.

(* ---------------- back-off (Backoffer.BackoffWithCfgAndMaxSleep) ---------------- *)
Definition budget_exceeded (c : cfg) (k : bo_kind) (s : state) : bool :=
  ((c_max_sleep c <=? bo_total s - bo_excl s) ||
   (excluded k && (excl_limit <=? bo_excl s) && (c_max_sleep c <=? bo_excl s)))%N.

(* BoRefused: Backoff returned an error without sleeping (context done, or budget spent);
   BoKilled: it slept and then found the kill flag set (CheckKilled after the sleep) *)
Inductive bres := BoOk (s : state) (e : event) | BoRefused | BoKilled (e : event).

Definition backoff (c : cfg) (k : bo_kind) (s : state) : bres :=
  if dead s then BoRefused
  else if (0 <? c_max_sleep c)%N && budget_exceeded c k s then BoRefused
  else let '(sl0, rest) := pop 0%N (orc_s s) in
       let sl := N.max sl0 (min_step k) in
       let s1 := set_orc_s rest (set_bo_total (bo_total s + sl)%N s) in
       let s2 := if excluded k then set_bo_excl (bo_excl s1 + sl)%N s1 else s1 in
       (* the flags may be raised during this sleep *)
       let s3 := set_n_bo (S (n_bo s)) (set_killed (killed s || trig_bo (c_kill c) (n_bo s))
                   (set_dead (trig_bo (c_cancel c) (n_bo s)) s2)) in
       if killed s3 then BoKilled (EBo k sl) else BoOk s3 (EBo k sl).

(* ---------------- replica predicates ---------------- *)
Definition exhausted (r : rep) (m : nat) : bool := m <=? attempts r.

(* isLeaderCandidate *)
Definition leader_candidate (r : rep) : bool :=
  is_reachable (live r) && negb (exhausted r max_replica_attempt) && negb (f_deadline r) && negb (f_notleader r) && negb (stale r).

Record mixed := mkMixed { m_try_leader : bool; m_prefer_leader : bool; m_leader_only : bool; m_learner_only : bool; m_labels : bool; m_thr : bool }.

(* ReplicaSelectMixedStrategy.isCandidate *)
Definition is_cand (p : mixed) (lead i : nat) (r : rep) : bool :=
  let isl := i =? lead in
  negb (stale r) && negb (is_unreachable (live r)) &&
  negb (exhausted r (if f_dnr r && negb isl then 2 else 1)) &&
  negb (m_leader_only p && negb isl) &&
  negb (m_thr p && (busy_est r || f_busy r || isl)) &&
  negb (m_prefer_leader p && slow r && negb isl).

(* ReplicaSelectMixedStrategy.calculateScore *)
Definition score (p : mixed) (lead i : nat) (r : rep) : nat :=
  let isl := i =? lead in
  (if negb (m_labels p) || label_ok r then 8 else 0) +
  (if isl then
     (if m_prefer_leader p then (if negb (slow r) then 4 else 2)
      else if m_try_leader p then (if m_labels p then 4 else 2) else 0)
   else (if m_learner_only p then (if learner r then 2 else 0) else 2)) +
  (if negb (slow r) then 16 else 0) +
  (if attempts r =? 0 then 1 else 0).

Definition has_deadline (l : list rep) : bool := existsb f_deadline l.

Definition cand_idx (p : mixed) (s : state) : list nat :=
  filter (fun i => is_cand p (leader s) i (rep_at s i)) (seq 0 (length (reps s))).
Definition best_score (p : mixed) (s : state) (l : list nat) : nat :=
  fold_right (fun i m => Nat.max (score p (leader s) i (rep_at s i)) m) 0 l.
Definition ties (p : mixed) (s : state) : list nat :=
  let cs := cand_idx p s in
  let b := best_score p s cs in
  filter (fun i => score p (leader s) i (rep_at s i) =? b) cs.

(* ReplicaSelectMixedStrategy.next *)
Definition mixed_next (p : mixed) (s : state) : option nat * state :=
  match ties p s with
  | [i] => (Some i, s)
  | i :: j :: t =>
      let '(r, rest) := pop 0 (orc_r s) in
      (Some (nth (r mod length (i :: j :: t)) (i :: j :: t) i), set_orc_r rest s)
  | [] =>
      if m_thr p then (None, s)
      else
        let ld := rep_at s (leader s) in
        let s1 := if f_suspect ld then upd_rep (leader s) (set_f_suspect false) s else s in
        if f_suspect ld && leader_candidate (rep_at s1 (leader s)) then (Some (leader s), s1)
        else if has_deadline (reps s1) then (None, s1) else (None, set_valid false s1)
  end.

(* ReplicaSelectLeaderStrategy.next *)
Definition leader_next (s : state) : option nat :=
  let ld := rep_at s (leader s) in
  if leader_candidate ld && negb (f_suspect ld) then Some (leader s) else None.

(* baseReplicaSelector.invalidateReplicaStore *)
(* [stale]: the selector's snapshot replica.epoch differs from the store's epoch; [rstale]: the cached region's
   storeEpochs entry differs from it (what the NEXT call's selector will start from) *)
Definition inval_store (r : rep) : rep := if stale r then r else set_rstale true (set_slow true (set_stale true r)).

(* ReplicaSelectLeaderWithProxyStrategy.isCandidate / next (proxyTiKVIdx = [pidx]) *)
Definition proxy_cand (lead i : nat) (r : rep) : bool :=
  negb (i =? lead) && negb (exhausted r 1) && is_reachable (live r) && negb (stale r).
Inductive proxy_choice := PxLeaderOnly | PxVia (p : nat) | PxNone.
(* the leader is usable directly: no proxy, and the memoised proxy is forgotten (unsetProxyStoreIfNeeded) *)
Definition proxy_unneeded (s : state) : bool :=
  let ld := rep_at s (leader s) in is_reachable (live ld) || f_notleader ld.
Definition proxy_next (s : state) : proxy_choice :=
  if proxy_unneeded s then PxLeaderOnly
  else
    let scan := match find (fun i => proxy_cand (leader s) i (rep_at s i)) (seq 0 (length (reps s))) with
                | Some p => PxVia p
                | None => PxNone
                end in
    (* the memoised proxy first — but only if it is still a candidate (not tried in this call, reachable, fresh) *)
    match pidx s with
    | Some q => if (q <? length (reps s)) && proxy_cand (leader s) q (rep_at s q) then PxVia q else scan
    | None => scan
    end.
Definition unset_if (c : cfg) (s : state) : state :=
  if rt_eqb (rt s) RTLeader && c_fw c && proxy_unneeded s then set_pidx None s else s.

(* replicaSelector.nextForReplicaReadLeader without the proxy strategy *)
Definition next_leader (c : cfg) (s : state) : option nat * state :=
  let ld := rep_at s (leader s) in
  let '(t1, s1) :=
    match leader_next s with
    | Some l =>
        if busy_thr s && c_read c && (busy_est ld || f_busy ld) then
          match mixed_next (mkMixed false false false false false true) s with
          | (Some i, s') => (Some i, set_q_rr true s')
          | (None, s') => (Some l, set_q_rr false (set_busy_thr false s'))
          end
        else (Some l, s)
    | None => (None, s)
    end in
  match t1 with
  | Some _ => (t1, s1)
  | None =>
      match mixed_next (mkMixed false false (c_leader_only c) false false false) s1 with
      | (Some i, s2) =>
          if c_read c && f_deadline (rep_at s2 (leader s2)) then (Some i, set_q_stale false (set_q_rr true s2))
          else (Some i, s2)
      | (None, s2) => (None, s2)
      end
  end.

(* ReplicaSelectMixedStrategy.canSendReplicaRead *)
Definition can_send_replica_read (s : state) : bool :=
  let ld := rep_at s (leader s) in
  negb ((attempts ld =? 0) || f_deadline ld || f_busy ld).

Definition is_tryleader (t : read_type) : bool := match t with RTMixed | RTPreferLeader => true | _ => false end.

(* replicaSelector.nextForReplicaReadMixed *)
Definition next_mixed (c : cfg) (s : state) : option nat * state :=
  let early :=
    if c_stale c && (sel_attempts s =? 2) then
      match leader_next s with
      | Some l => if negb (exhausted (rep_at s l) 1) then Some l else None
      | None => None
      end
    else None in
  match early with
  | Some l => (Some l, set_q_rr false (set_q_stale false s))
  | None =>
      let p := mkMixed (is_tryleader (q_rt s)) (rt_eqb (c_rt c) RTPreferLeader) (c_leader_only c)
                       (rt_eqb (q_rt s) RTLearner) (c_has_labels c) false in
      match mixed_next p s with
      | (None, s1) => (None, s1)
      | (Some i, s1) =>
          let tr := rep_at s1 i in
          let is_l := i =? leader s1 in
          if c_stale c then
            let keep_stale :=
              if negb (sel_attempts s1 =? 1) || (negb (negb (c_has_labels c) || label_ok tr) && negb is_l)
              then negb (can_send_replica_read s1) else true in
            if keep_stale then (Some i, set_q_rr false (set_q_stale true s1))
            else (Some i, set_q_rr true (set_q_stale false s1))
          else (Some i, set_q_rr (c_read c && negb is_l) (set_q_stale false s1))
      end
  end.

(* ---------------- handling the previous attempt's outcome ---------------- *)
(* HDone / SDone carry the state the call ends in (only the cached-region / store part of it matters: [end_cache]) *)
Inductive hres := HRetry (s : state) (evs : list event) | HDone (sd : state) (r : result) (evs : list event).

Definition with_backoff (c : cfg) (k : bo_kind) (s : state) (on_fail : result) : hres :=
  match backoff c k s with
  | BoOk s' e => HRetry s' [e]
  | BoRefused => HDone s on_fail []
  | BoKilled e => HDone s on_fail [e]
  end.

(* RegionRequestSender.onSendFail + replicaSelector.onSendFailure *)
Definition on_send_fail (c : cfg) (s : state) (t : nat) (deadline : bool) (l : liveness) : hres :=
  (* sendReqState.send: an RPC error while the caller's context is cancelled ends the call at once *)
  if dead s then HDone s RError [] else
  if deadline && c_short_to c && c_read c then HRetry (upd_rep t (set_f_deadline true) s) []
  else
    let a := match proxy s with Some p => p | None => t end in   (* the accessed store: the proxy if there is one *)
    let s1 := if is_reachable l then s
              else upd_rep a (fun r => if is_reachable (live r) then set_live l r else r) s in
    (* "just return to use proxy": leader unreachable, forwarding on, no proxy used yet *)
    let use_proxy_next := rt_eqb (rt s) RTLeader && match proxy s with None => true | Some _ => false end && (t =? leader s) &&
                          is_unreachable l && (1 <? length (reps s)) && c_fw c in
    let s2 := if is_reachable l || use_proxy_next then s1 else upd_rep a inval_store s1 in
    with_backoff c BoRPC s2 RError.

(* replicaSelector.onNotLeader with a leader hint (baseReplicaSelector.updateLeader, replica.onUpdateLeader) *)
Definition on_not_leader_hint (lim : option nat) (s : state) (t k : nat) : hres :=
  let s1 := upd_rep t (set_f_notleader true) s in
  if length (reps s1) <=? k then HRetry (set_valid false s1) []
  else if negb (is_reachable (live (rep_at s1 k))) then HRetry s1 []
  else
    (* replica.onUpdateLeader(maxRearm): [rearmed_v] = the per-replica counters replica.rearmed; lim = Some maxRearm *)
    let was_exhausted := exhausted (rep_at s1 k) max_replica_attempt &&
                         match lim with Some m => nth k (rearmed_v s1) m <? m | None => true end in
    (* Region.switchWorkLeaderToPeer refreshes the region's epoch snapshot of the new leader's store (when the leader changes) *)
    let s2 := upd_rep k (fun r => (if k =? leader s1 then r else set_rstale false r))
             (upd_rep k (fun r => set_f_suspect false (set_f_notleader false
                                   (if was_exhausted then set_attempts (max_replica_attempt - 1) r else r)))
                (match lim with
                 | Some _ => if was_exhausted then set_rearmed_v (upd k S (rearmed_v s1)) s1 else s1
                 | None => s1
                 end)) in
    let s3 := set_leader k s2 in
    let s4 := if leader_candidate (rep_at s3 k) then set_rt RTLeader s3 else s3 in
    HRetry s4 (if was_exhausted then [ERearm k] else []).

(* invalidate the region, back off, then hand the region error of attempt i to the caller (RecoveryInProgress, IsWitness) *)
Definition backoff_then_region_err (c : cfg) (k : bo_kind) (s : state) (i : nat) : hres :=
  match backoff c k (set_valid false s) with
  | BoOk s' e => HDone s' (RRegionErr i) [e]
  | BoRefused => HDone (set_valid false s) RError []
  | BoKilled e => HDone (set_valid false s) RError [e]
  end.

(* replicaSelector.canFastRetry *)
Definition can_fast_retry (s : state) : bool :=
  if rt_eqb (rt s) RTLeader then
    let ld := rep_at s (leader s) in negb (leader_candidate ld && negb (f_busy ld))
  else true.

Definition opt_nat_eqb (a : option nat) (b : nat) : bool := match a with Some x => x =? b | None => false end.

(* replicaSelector.onServerIsBusy *)
Definition on_busy (c : cfg) (s : state) (t : nat) (wait : bool) : hres :=
  let s1 :=
    if wait then
      let s' := upd_rep t (set_busy_est true) s in
      if busy_thr s' && c_read c then upd_rep t (set_f_busy true) s' else s'
    else
      let s' := upd_rep t (set_slow true) s in
      if rt_eqb (rt s') RTLeader && negb (c_stale c) && negb (c_leader_only c) && (t =? leader s') && negb (lb_probed s') then
        let s'' := if opt_nat_eqb (lb_peer s') (leader s') then s' else set_lb_count 0 (set_lb_peer (Some (leader s')) s') in
        let s3 := set_lb_count (S (lb_count s'')) s'' in
        if 2 <=? lb_count s3 then set_lb_probed true (upd_rep t (set_f_suspect true) s3) else s3
      else s' in
  if can_fast_retry s1 then HRetry (upd_rep t (fun r => set_f_busy true (set_pending true r)) s1) []
  else with_backoff c BoBusy s1 RError.

(* RegionRequestSender.onRegionError / onSendFail, for the outcome o of attempt number i sent to replica t *)
Definition handle (fixed : bool) (c : cfg) (s : state) (t : nat) (o : outcome) (i : nat) : hres :=
  match o with
  | OSuccess => HDone s (RSuccess i) []
  | ORpcErr l => on_send_fail c s t false l
  | ODeadline l => on_send_fail c s t true l
  | ONotLeader => with_backoff c BoRegionScheduling (upd_rep t (set_f_notleader true) s) RError
  | ONotLeaderHint k => on_not_leader_hint (if fixed then Some (length (c_reps c) - 1) else None) s t k
  | OEpochNoRegions | OEpochNewer | OStoreNotMatch => HDone (set_valid false s) (RRegionErr i) []
  | OEpochBehind => with_backoff c BoRegionMiss s RError
  | ORegionNotFound =>
      if negb (exhausted (rep_at s (leader s)) 1) then
        HRetry (set_valid false (set_inv_retry true (set_rt RTLeader (set_q_rt RTLeader (set_q_rr false s))))) []
      else HDone (set_valid false s) (RRegionErr i) []
  | OBusy w => on_busy c s t w
  | OBusyDeadline =>
      if c_short_to c && c_read c then HRetry (upd_rep t (set_f_deadline true) s) [] else on_busy c s t false
  | OStaleCommand | OUnknown => HRetry s []
  | ODataIsNotReady => HRetry (upd_rep t (set_f_dnr true) s) []
  | OMaxTsNotSynced => with_backoff c BoMaxTs s RError
  | ODiskFull => with_backoff c BoDiskFull s (RRegionErr i)
  | OUndetermined | OBucketVersion => HDone s (RRegionErr i) []
  | ORecovery => backoff_then_region_err c BoRecovery s i
  | OWitness => backoff_then_region_err c BoWitness s i
  | OFlashback =>
      (* replicaSelector.onFlashbackInProgress: a replica read that hit a follower is retried on the leader *)
      if q_rr s && negb (t =? leader s)
      then HRetry (set_q_rr false (set_q_rt RTLeader (set_rt RTLeader (set_busy_thr false s)))) []
      else HDone s (RFatal i) []
  | OFlashbackNotPrepared | ORaftTooLarge | OInvalidMaxTs => HDone s (RFatal i) []
  | OKeyNotInRegion | OMismatchPeer => HDone (set_valid false s) (RRegionErr i) []
  | ONotInitialized => with_backoff c BoNotInit s RError
  | OReadIndexNotReady | OMerging => with_backoff c BoRegionScheduling s RError
  | ODeadlineMsg => if c_short_to c && c_read c then HRetry (upd_rep t (set_f_deadline true) s) [] else HRetry s []
  end.

(* ---------------- choosing the next replica and sending ---------------- *)
Inductive sres := SSent (s : state) (t : nat) (evs : list event) | SDone (sd : state) (r : result) (evs : list event).

Definition any_pending (s : state) : bool := existsb pending (reps s).

(* rpcCtx == nil: backoffOnNoCandidate, then the pseudo EpochNotMatch *)
Definition no_candidate (c : cfg) (s : state) : sres :=
  if any_pending s then
    match backoff c BoBusy s with
    | BoOk _ e => SDone s RPseudo [e]
    | BoRefused => SDone s RError []
    | BoKilled e => SDone s RError [e]
    end
  else SDone s RPseudo [].

Definition sat3 (n : nat) : nat := if 3 <=? n then 3 else n.   (* selector.attempts is only compared with 1 and 2 *)

(* replicaSelector.next + buildRPCContext + backoffOnRetry *)
Definition sel_phase (c : cfg) (s : state) : sres :=
  let go :=
    if inv_retry s then Some (set_inv_retry false s)
    else if valid s then Some s else None in
  match go with
  | None => no_candidate c s
  | Some s0 =>
      let s1 := set_proxy None (set_sel_attempts (sat3 (S (sel_attempts s0))) (unset_if c s0)) in
      match (if rt_eqb (rt s1) RTLeader && c_fw c then proxy_next s1 else PxLeaderOnly) with
      | PxNone =>
          (* all followers are tried as proxy: invalidate the leader's store, reload on access *)
          no_candidate c (set_valid false (upd_rep (leader s1) inval_store s1))
      | PxVia p =>
          let t := leader s1 in
          if stale (rep_at s1 t) || stale (rep_at s1 p) then no_candidate c (set_valid false s1)
          else
            let s3 := upd_rep p (fun r => set_attempts (S (attempts r)) r)
                        (upd_rep t (fun r => set_attempts (S (attempts r)) r) (set_proxy (Some p) s1)) in
            if pending (rep_at s3 t) then
              match backoff c BoBusy (upd_rep t (set_pending false) s3) with
              | BoOk s4 e => SSent s4 t [e; EProxy p]
              | BoRefused => SDone s3 RError []
              | BoKilled e => SDone s3 RError [e]
              end
            else SSent s3 t [EProxy p]
      | PxLeaderOnly =>
      let '(tg, s2) := if rt_eqb (rt s1) RTLeader then next_leader c s1 else next_mixed c s1 in
      match tg with
      | None => no_candidate c s2
      | Some t =>
          if stale (rep_at s2 t) then no_candidate c (set_valid false s2)
          else
            let s3 := upd_rep t (fun r => set_attempts (S (attempts r)) r) s2 in
            if pending (rep_at s3 t) then
              match backoff c BoBusy (upd_rep t (set_pending false) s3) with
              | BoOk s4 e => SSent s4 t [e]
              | BoRefused => SDone s3 RError []
              | BoKilled e => SDone s3 RError [e]
              end
            else SSent s3 t []
      end
      end
  end.

(* sendReqState.send: the client-side slow score statistics of a prefer-leader request *)
Definition after_send (s : state) (t : nat) : state :=
  if rt_eqb (q_rt s) RTPreferLeader then
    upd_rep t (fun r => if stat_init r then r else set_stat_init true (set_slow false r)) s
  else s.

Definition raise_att (c : cfg) (i : nat) (s : state) : state :=
  set_killed (killed s || trig_att (c_kill c) i) (set_dead (dead s || trig_att (c_cancel c) i) s).

(* the retry loop of SendReqCtx: [prev] is the replica and the outcome of attempt i-1 *)
Fixpoint loop_gen (fixed : bool) (c : cfg) (script : list outcome) (s : state) (prev : option (nat * outcome)) (i : nat) : list event * result :=
  match (if c_interruptible c && killed s && negb (c_async c && (i =? 0))
         then HDone s RError []   (* next(): bo.CheckKilled() for interruptible requests *)
         else match prev with None => HRetry s [] | Some (t, o) => handle fixed c s t o (pred i) end) with
  | HDone _ r evs => (evs, r)
  | HRetry s1 evs1 =>
      let s1' := if 0 <? i then set_q_retry true s1 else s1 in
      match sel_phase c s1' with
      | SDone _ r evs2 => (evs1 ++ evs2, r)
      | SSent s2 t evs2 =>
          let ev := EAtt t (q_rr s2) (q_stale s2) (q_retry s2) in
          (* a client handed a cancelled context answers with the context error whatever the store would say;
             otherwise the flags may be raised while the attempt is in flight *)
          let s3 := raise_att c i (after_send s2 t) in
          match script with
          | [] => (evs1 ++ evs2 ++ [ev], if dead s2 then RError else RSuccess i)
          | OSuccess :: _ => (evs1 ++ evs2 ++ [ev], if dead s2 then RError else RSuccess i)
          | o :: rest =>
              let '(evs, r) := loop_gen fixed c rest s3 (Some (t, if dead s2 then ORpcErr Reachable else o)) (S i) in
              (evs1 ++ evs2 ++ ev :: evs, r)
          end
      end
  end.

Definition init_state (c : cfg) (rands : list nat) (sleeps : list N) : state :=
  mkState (c_reps c) (c_leader0 c) true (c_rt c) 0 false (c_thr c) 0 None false
          (c_rt c) (c_read c && negb (c_stale c) && negb (rt_eqb (c_rt c) RTLeader)) (c_read c && c_stale c) false
          0%N 0%N rands sleeps None (map (fun _ => 0) (c_reps c)) (trig_pre (c_cancel c)) (trig_pre (c_kill c)) 0 (c_proxy0 c).

(* RegionRequestSender.validateReadTS: requests served by a TiDB node are exempt, every other read (TiKV, TiFlash) is validated *)
Definition validation_refuses (c : cfg) : bool := c_read c && negb (c_val c) && negb (is_tidb (c_store_tp c)).

(* SendReqCtx: validateReadTS first (reads only), then the loop *)
Definition run_gen (fixed : bool) (c : cfg) (script : list outcome) (rands : list nat) (sleeps : list N) : list event * result :=
  if validation_refuses c then ([], RError)
  else loop_gen fixed c script (init_state c rands sleeps) None 0.
(* the code as it is *)
Definition run := run_gen true.
(* the re-arm rule before fix cb7d671 (finding F10): every hint re-arms an exhausted replica *)
Definition run_before_fix := run_gen false.

(* observables *)
Definition is_att (e : event) : bool := match e with EAtt _ _ _ _ => true | _ => false end.
Definition is_rearm (e : event) : bool := match e with ERearm _ => true | _ => false end.
Definition is_bo (e : event) : bool := match e with EBo _ _ => true | _ => false end.
Definition n_attempts (evs : list event) : nat := length (filter is_att evs).
Definition n_rearms (evs : list event) : nat := length (filter is_rearm evs).
Definition n_backoffs (evs : list event) : nat := length (filter is_bo evs).
Definition fresh_rep (lv : liveness) (sl lbl lrn : bool) : rep := mkRep 0 false false false false false false lv sl false false lbl lrn false false.
