(* SendReq/ProofsCancel.v — after the caller's context was cancelled, at most one more attempt reaches a client. *)
From Coq Require Import List Bool Arith NArith Lia.
Import ListNotations.
From Verif Require Import SendReq.Model SendReq.ProofsBound SendReq.ProofsSelect SendReq.ProofsLoop.

Section C.
Variable fixed : bool.
Variable c : cfg.

(* Up to the next attempt the context's state changes only in a back-off sleep, and a back-off is refused under a dead
   context: once dead it stays dead. *)
Definition dead_step (s s' : state) : Prop := dead s' = dead s \/ (dead s = false /\ exists j, dead s' = trig_bo (c_cancel c) j).

Lemma aux_dead (a b : state) : aux a = aux b -> dead a = dead b.
Proof. now intros [= _ _ _ ? _]. Qed.

Lemma woke_dead k sl s0 s' s : aux s0 = aux s -> granted c k s0 sl -> woke c k sl s0 s' -> dead_step s s'.
Proof. intros A (D & _) W. right. rewrite <- (aux_dead _ _ A). eauto using w_dead. Qed.

Lemma handled_dead s h x : handled fixed c s h x -> match x with HRetry s' _ => dead_step s s' | HDone _ _ _ => True end.
Proof.
  intros [|s' []|k s0 sl s' [] G W|lim k s' _ _ [_ _ [= _ _ D _ _ _ _]]]; auto;
    [left; auto using aux_dead|eapply woke_dead; eassumption|now left].
Qed.

Lemma selected_dead s x : selected c s x -> match x with SSent s' _ _ => dead_step s s' | SDone _ _ _ => True end.
Proof. intros [|s' t p []|s0 sl s' t p [] G W]; auto; [left; auto using aux_dead|eapply woke_dead; eassumption]. Qed.

Lemma dead_step_trans s s1 s2 : dead_step s s1 -> dead_step s1 s2 -> dead_step s s2.
Proof.
  intros [A|[A [j B]]] [C|[C D]]; [left; congruence|right; split; [congruence|exact D]|right; rewrite C; eauto|right; eauto].
Qed.

Lemma turn_dead s prev i x : turn_of fixed c s prev i = x ->
  match x with Sent _ s2 _ => dead_step s s2 | Stop _ _ => True end.
Proof.
  intros <-. unfold turn_of. pose proof (handled_dead s _ _ (pre_cases fixed c s prev i)) as P.
  destruct (pre fixed c s prev i) as [s1 evs1|]; [|exact I].
  pose proof (selected_dead _ _ (sel_phase_cases c (mark i s1))) as Q. destruct (sel_phase c (mark i s1)); [|exact I].
  apply (dead_step_trans s s1 _ P). unfold mark in Q. now destruct (0 <? i).
Qed.

(* once the context is dead, an RPC-level answer ends the call without another attempt *)
Lemma loop_after_dead script s t l i : dead s = true ->
  n_attempts (fst (loop_gen fixed c script s (Some (t, ORpcErr l)) i)) = 0.
Proof.
  intros D. rewrite loop_unfold. unfold turn_of, pre. destruct (c_interruptible c && killed s && _); [reflexivity|].
  cbn [handle]. unfold on_send_fail. rewrite D. reflexivity.
Qed.

(* ... hence at most one more attempt from a state whose context is dead *)
Lemma loop_dead script s prev i : dead s = true -> n_attempts (fst (loop_gen fixed c script s prev i)) <= 1.
Proof.
  intros D. rewrite loop_unfold. pose proof (turn_spec fixed c s prev i _ eq_refl) as A. pose proof (turn_dead s prev i _ eq_refl) as B.
  destruct (turn_of fixed c s prev i) as [evs r|evs s2 t]; [cbn [fst]; lia|]. destruct B as [B|[B _]]; [|congruence]. rewrite D in B.
  destruct (more script) as [[o rest]|]; [|cbn [fst]; rewrite n_attempts_app; cbn; lia].
  pose proof (loop_after_dead rest (flown c i s2 t) t Reachable (S i)) as L. unfold heard. rewrite B.
  destruct (loop_gen _ _ _ _ _ _). cbn [fst] in *. rewrite n_attempts_app, n_attempts_cons_att, L; [lia|].
  destruct (flown_frame c i s2 t) as (_ & _ & _ & _ & _ & _ & F & _). now rewrite F, B.
Qed.

(* cancellation while attempt k is in flight: attempts 0..k, and at most one more *)
Lemma loop_cancel_att k script s prev i : c_cancel c = TAtt k -> dead s = false -> i <= k ->
  n_attempts (fst (loop_gen fixed c script s prev i)) + i <= k + 2.
Proof.
  intros CK. revert script s prev i.
  apply (loop_ind fixed c (fun _ s _ i evs _ => dead s = false -> i <= k -> n_attempts evs + i <= k + 2)).
  - intros _ s prev i evs r T _ Hi. apply turn_spec in T. lia.
  - intros _ s prev i evs s2 t T _ _ Hi. apply turn_spec in T.
    rewrite n_attempts_app. cbn. lia.
  - intros o rest s prev i evs s2 t evs' r T _ L IH D Hi. pose proof (turn_spec _ _ _ _ _ _ T) as (_ & A & _). apply turn_dead in T as B.
    assert (D2 : dead s2 = false) by (destruct B as [B|[_ [j B]]]; [congruence|now rewrite B, CK]).
    assert (D3 : dead (flown c i s2 t) = (k =? i)) by (destruct (flown_frame c i s2 t) as (_ & _ & _ & _ & _ & _ & F & _); now rewrite F, D2, CK).
    rewrite n_attempts_app, n_attempts_cons_att.
    destruct (Nat.eqb_spec k i) as [->|NE].
    + pose proof (loop_dead rest _ (Some (t, heard s2 o)) (S i) D3) as LD. rewrite L in LD. cbn [fst] in LD. lia.
    + specialize (IH D3). lia.
Qed.
End C.

Lemma run_cancel_att fixed c k script rands sleeps : c_cancel c = TAtt k ->
  n_attempts (fst (run_gen fixed c script rands sleeps)) <= k + 2.
Proof.
  intros CK. unfold run_gen. destruct (validation_refuses c); [cbn; lia|].
  pose proof (loop_cancel_att fixed c k script (init_state c rands sleeps) None 0 CK) as L.
  assert (D : dead (init_state c rands sleeps) = false) by (unfold init_state; cbn; rewrite CK; reflexivity).
  specialize (L D ltac:(lia)). lia.
Qed.

Lemma run_cancel_pre fixed c script rands sleeps : c_cancel c = TPre ->
  n_attempts (fst (run_gen fixed c script rands sleeps)) <= 1.
Proof.
  intros CK. unfold run_gen. destruct (validation_refuses c); [cbn; lia|].
  apply loop_dead. unfold init_state; cbn. rewrite CK. reflexivity.
Qed.

Lemma run_cancel fixed c script rands sleeps :
  (c_cancel c = TPre -> n_attempts (fst (run_gen fixed c script rands sleeps)) <= 1) /\
  (forall k, c_cancel c = TAtt k -> n_attempts (fst (run_gen fixed c script rands sleeps)) <= k + 2).
Proof. split; [apply run_cancel_pre|intros k; apply run_cancel_att]. Qed.
