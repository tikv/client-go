(* SendReq/ProofsTop.v — the configurations of the non-vacuity examples in Props.v. *)
From Coq Require Import List NArith.
Import ListNotations.
From Verif Require Import SendReq.Model SendReq.ProofsLasso.

Definition c_stale_read : cfg := mkCfg RTMixed true true false false false false 100000%N true
  [fresh_rep Reachable false false false; fresh_rep Reachable false false false; fresh_rep Reachable false false false] false TpTiKV TNever TNever true 0 None false.
Definition c_fwd : cfg := mkCfg RTLeader false true false false false false 100000%N true
  [fresh_rep Unreachable false false false; fresh_rep Reachable false false false; fresh_rep Reachable false false false] true TpTiKV TNever TNever true 0 None false.
Definition c_cancelled (t : trigger) : cfg := mkCfg RTLeader false true false false false false 100000%N true (c_reps c0) false TpTiKV t TNever true 0 None false.
Definition c_killed (t : trigger) (ir : bool) : cfg := mkCfg RTLeader false true false false false false 100000%N true (c_reps c0) false TpTiKV TNever t ir 0 None false.
Definition c_later_call : cfg := mkCfg RTLeader false true false false false false 100000%N true
  [fresh_rep Unreachable false false false; fresh_rep Reachable false false false; fresh_rep Reachable false false false]
  true TpTiKV TNever TNever true 0 (Some 1) false.
Definition c_fw_ok : cfg := mkCfg RTLeader false true false false false false 100000%N true (c_reps c0) true TpTiKV TNever TNever true 0 None false.
