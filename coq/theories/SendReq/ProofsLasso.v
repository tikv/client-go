(* SendReq/ProofsLasso.v — finding F10: NotLeader answers whose leader hint alternates between two replicas
   re-arm each exhausted replica (replica.onUpdateLeader) before every send: the number of attempts of ONE
   SendReq call grows with the length of the script and not a single back-off happens. *)
From Coq Require Import List Bool Arith NArith Lia.
Import ListNotations.
From Verif Require Import SendReq.Model SendReq.ProofsBound SendReq.ProofsSelect SendReq.ProofsLoop.

(* twin of [loop_gen false] for a script prefix of leader hints that is used up: events up to and including the last send, the state
   after that send and its target *)
Fixpoint loop_pre (c : cfg) (script : list outcome) (s : state) (prev : option (nat * outcome)) (i : nat) : option (list event * state * nat) :=
  match turn_of false c s prev i with
  | Stop _ _ => None
  | Sent evs s2 t =>
      if dead s2 then None else
      match script with
      | [] => Some (evs ++ [att_ev s2 t], flown c i s2 t, t)
      | o :: rest =>
          if is_hint o then
            match loop_pre c rest (flown c i s2 t) (Some (t, o)) (S i) with
            | Some (evs', x, t') => Some (evs ++ att_ev s2 t :: evs', x, t')
            | None => None
            end
          else None
      end
  end.

Lemma hint_more o rest : is_hint o = true -> more (o :: rest) = Some (o, rest).
Proof. now destruct o. Qed.

Lemma loop_split c pr : forall s prev i evs x t o rest,
  loop_pre c pr s prev i = Some (evs, x, t) -> is_hint o = true ->
  fst (loop_gen false c (pr ++ o :: rest) s prev i) = evs ++ fst (loop_gen false c rest x (Some (t, o)) (S (i + length pr))).
Proof.
  induction pr as [|p pr IH]; intros s prev i evs x t o rest H Ho; rewrite loop_unfold; cbn [loop_pre] in H;
    destruct (turn_of false c s prev i) as [|evs0 s2 t2]; try discriminate; unfold heard; destruct (dead s2); try discriminate.
  - injection H as <- <- <-. cbn [app length]. rewrite Nat.add_0_r, (hint_more o rest Ho).
    destruct (loop_gen false c rest _ _ _) as [e r]. cbn [fst]. now rewrite <- app_assoc.
  - destruct (is_hint p) eqn:Hp; [|discriminate]. cbn [app length]. rewrite (hint_more p _ Hp).
    destruct (loop_pre c pr _ _ _) as [[[evs1 x1] t1]|] eqn:E; [|discriminate]. injection H as <- <- <-.
    specialize (IH _ _ _ _ _ _ o rest E Ho). rewrite <- Nat.add_succ_comm.
    destruct (loop_gen false c (pr ++ o :: rest) _ _ _) as [e r]. cbn [fst] in *. now rewrite IH, <- app_assoc.
Qed.

(* leader read of a 3-replica region, everything healthy, a generous budget *)
Definition c0 : cfg := mkCfg RTLeader false true false false false false 100000%N true
  [fresh_rep Reachable false false false; fresh_rep Reachable false false false; fresh_rep Reachable false false false] false TpTiKV TNever TNever true 0 None false.

Definition N0 := ONotLeaderHint 0.
Definition N1 := ONotLeaderHint 1.
Fixpoint cyc (k : nat) : list outcome := match k with O => [] | S k' => N1 :: N0 :: cyc k' end.   (* replica 0 says 1, replica 1 says 0 *)
Fixpoint cyc' (k : nat) : list outcome := match k with O => [] | S k' => N0 :: N1 :: cyc' k' end.
Definition lasso (k : nat) : list outcome := cyc 10 ++ N1 :: cyc' k.

(* the state on the cycle: both replicas 0 and 1 have used all 10 attempts *)
Definition X : state :=
  Eval vm_compute in match loop_pre c0 (cyc 10) (init_state c0 [] []) None 0 with Some (_, x, _) => x | None => init_state c0 [] [] end.
Definition E_prefix : list event :=
  Eval vm_compute in match loop_pre c0 (cyc 10) (init_state c0 [] []) None 0 with Some (e, _, _) => e | None => [] end.
Definition E_cycle : list event := [ERearm 1; EAtt 1 false false true; ERearm 0; EAtt 0 false false true].

Example X_exhausted : map attempts (reps X) = [10; 10; 0] /\ bo_total X = 0%N.
Proof. vm_compute. auto. Qed.

Lemma prefix_pre : loop_pre c0 (cyc 10) (init_state c0 [] []) None 0 = Some (E_prefix, X, 0).
Proof. vm_compute. reflexivity. Qed.

Lemma cycle_pre i : loop_pre c0 [N0] X (Some (0, N1)) (S i) = Some (E_cycle, X, 0).
Proof. vm_compute. reflexivity. Qed.

Lemma cyc'_attempts k : forall i,
  n_attempts (fst (loop_gen false c0 (cyc' k) X (Some (0, N1)) (S i))) = 2 * k + 1 /\
  n_backoffs (fst (loop_gen false c0 (cyc' k) X (Some (0, N1)) (S i))) = 0.
Proof.
  induction k as [|k IH]; intros i.
  - vm_compute. split; reflexivity.
  - change (cyc' (S k)) with ([N0] ++ N1 :: cyc' k). rewrite (loop_split _ _ _ _ _ _ _ _ N1 _ (cycle_pre i) eq_refl).
    cbn [length]. replace (S (S i + 1)) with (S (S (S i))) by lia. destruct (IH (S (S i))) as [A B].
    rewrite n_attempts_app, n_backoffs_app, A, B. split; [cbn; lia|reflexivity].
Qed.

Lemma lasso_only_hints k : forallb is_hint (lasso k) = true.
Proof.
  unfold lasso. rewrite forallb_app. cbn [forallb N1 is_hint andb]. replace (forallb _ (cyc 10)) with true by reflexivity.
  induction k; cbn [cyc' forallb N0 N1 is_hint andb]; auto.
Qed.

Lemma lasso_attempts k :
  n_attempts (fst (run_before_fix c0 (lasso k) [] [])) = 22 + 2 * k /\ n_backoffs (fst (run_before_fix c0 (lasso k) [] [])) = 0 /\
  forallb is_hint (lasso k) = true.
Proof.
  unfold run_before_fix, run_gen. change (validation_refuses c0) with false. cbv iota. unfold lasso at 1 2.
  rewrite (loop_split _ _ _ _ _ _ _ _ N1 _ prefix_pre eq_refl). change (S (0 + length (cyc 10))) with 21.
  destruct (cyc'_attempts k 20) as [A B]. rewrite n_attempts_app, n_backoffs_app, A, B. repeat split; [cbn; lia|apply lasso_only_hints].
Qed.

Lemma unbounded_before_fix :
  ~ exists B, forall c script rands sleeps,
      length (c_reps c) = 3 -> n_attempts (fst (run_before_fix c script rands sleeps)) <= B.
Proof. intros [B H]. specialize (H c0 (lasso B) [] [] eq_refl). destruct (lasso_attempts B) as [A _]. lia. Qed.
