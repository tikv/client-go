(* SendReq/ProofsResult.v — the result of a send is what the handler made of the answer to its last attempt (no fabrication),
   and the first attempt does not carry the retry marker. *)
From Coq Require Import List Bool Arith NArith Lia.
Import ListNotations.
From Verif Require Import SendReq.Model SendReq.ProofsBound SendReq.ProofsSelect SendReq.ProofsLoop SendReq.ProofsFlags.

Section Gen.
Variable fixed : bool.

(* the attempt a result names and the kind of answer it is made of *)
Definition names (r : result) : option (nat * (outcome -> bool)) :=
  match r with
  | RSuccess j => Some (j, is_success) | RRegionErr j => Some (j, is_region_err) | RFatal j => Some (j, is_fatal)
  | RPseudo | RError => None
  end.

Lemma handle_result c s t o i :
  match handle fixed c s t o i with
  | HRetry _ _ => True
  | HDone _ r _ => match names r with Some (j, P) => j = i /\ P o = true | None => True end
  end.
Proof.
  destruct o; cbn [handle]; unfold on_send_fail, on_busy, on_not_leader_hint, with_backoff, backoff_then_region_err; cbv zeta; auto;
    repeat match goal with |- context [if ?b then _ else _] => destruct b end; cbn; auto; destruct (backoff _ _ _); cbn; auto.
Qed.

(* seen from turn [i], the answer to attempt [j] is of kind [P]: it is the answer just handled, or it stands in the script
   (beyond the end of the script the answer is a success) *)
Definition answered (P : outcome -> bool) (script : list outcome) (prev : option (nat * outcome)) (i j : nat) : Prop :=
  (j + 1 = i /\ exists t o, prev = Some (t, o) /\ P o = true) \/ (i <= j /\ P (nth (j - i) script OSuccess) = true).

Definition result_ok (script : list outcome) (prev : option (nat * outcome)) (i : nat) (evs : list event) (r : result) : Prop :=
  match names r with Some (j, P) => j + 1 = i + n_attempts evs /\ answered P script prev i j | None => True end.

Lemma answered_next P o rest prev i s2 t j : P (ORpcErr Reachable) = false ->
  answered P rest (Some (t, heard s2 o)) (S i) j -> answered P (o :: rest) prev i j.
Proof.
  intros N [(L & t' & o' & [= <- <-] & L')|(L1 & L2)]; right.
  - unfold heard in L'. destruct (dead s2); [congruence|]. replace (j - i) with 0 by lia. split; [lia|exact L'].
  - replace (j - i) with (S (j - S i)) by lia. split; [lia|exact L2].
Qed.

(* a call that stops before an attempt hands out what the handler made of the previous answer *)
Lemma turn_result c s prev i x : (prev <> None -> 0 < i) -> turn_of fixed c s prev i = x ->
  match x with
  | Sent _ _ _ => True
  | Stop _ r => match names r with Some (j, P) => j + 1 = i /\ exists t o, prev = Some (t, o) /\ P o = true | None => True end
  end.
Proof.
  intros OK <-. unfold turn_of, pre. destruct (c_interruptible c && killed s && _); [exact I|].
  assert (S : forall s1, match sel_phase c (mark i s1) with SDone _ r _ => names r = None | SSent _ _ _ => True end).
  { intros s1. pose proof (selected_q c _ _ (sel_phase_cases c (mark i s1))) as Q. destruct (sel_phase c (mark i s1)); [exact I|].
    now destruct Q as [-> | ->]. }
  destruct prev as [[t o]|].
  - pose proof (handle_result c s t o (pred i)) as HQ. destruct (handle fixed c s t o (pred i)) as [s1 evs1|sd r e].
    + specialize (S s1). destruct (sel_phase c (mark i s1)); [exact I|]. now rewrite S.
    + destruct (names r) as [[j P]|]; [|exact I]. destruct HQ as [-> HQ]. split; [specialize (OK ltac:(discriminate)); lia|eauto].
  - specialize (S s). destruct (sel_phase c (mark i s)); [exact I|]. now rewrite S.
Qed.

Lemma loop_result c script s prev i : (prev <> None -> 0 < i) ->
  result_ok script prev i (fst (loop_gen fixed c script s prev i)) (snd (loop_gen fixed c script s prev i)).
Proof.
  revert script s prev i.
  apply (loop_ind fixed c (fun script _ prev i evs r => (prev <> None -> 0 < i) -> result_ok script prev i evs r)); unfold result_ok.
  - intros script s prev i evs r T OK. generalize (turn_result c s prev i _ OK T). apply turn_spec in T as [A _].
    destruct (names r) as [[j P]|]; [intros [H1 H2]|exact (fun _ => I)]. split; [lia|now left].
  - intros script s prev i evs s2 t T E _. apply turn_spec in T as A.
    unfold last_result. destruct (dead s2); [exact I|]. cbn [names]. rewrite n_attempts_app. split; [cbn; lia|right].
    now rewrite Nat.sub_diag, E.
  - intros o rest s prev i evs s2 t evs' r T No _ IH _. apply turn_spec in T as A. specialize (IH ltac:(lia)).
    rewrite n_attempts_app, n_attempts_cons_att.
    destruct r; cbn [names] in *; auto; destruct IH as [L1 L2]; (split; [lia|now apply (answered_next _ _ _ _ _ s2 t)]).
Qed.

Lemma nth_kind P j (script : list outcome) : P OSuccess = false -> P (nth j script OSuccess) = true -> j < length script.
Proof. intros N H. destruct (Nat.lt_ge_cases j (length script)) as [L|L]; [exact L|]. rewrite (nth_overflow _ _ L) in H. congruence. Qed.

Lemma run_result c script rands sleeps evs r : run_gen fixed c script rands sleeps = (evs, r) ->
  match r with
  | RSuccess j => j + 1 = n_attempts evs /\ nth j script OSuccess = OSuccess
  | RRegionErr j => j + 1 = n_attempts evs /\ j < length script /\ is_region_err (nth j script OSuccess) = true
  | RFatal j => j + 1 = n_attempts evs /\ j < length script /\ is_fatal (nth j script OSuccess) = true
  | _ => True
  end.
Proof.
  unfold run_gen. destruct (validation_refuses c); [now intros [= <- <-]|].
  intros H. pose proof (loop_result c script (init_state c rands sleeps) None 0 ltac:(congruence)) as L. rewrite H in L.
  unfold result_ok in L. destruct r as [j|j| | |j]; cbn [names fst snd] in L; auto;
    destruct L as (A & [(_ & t & o & E & _) | (_ & B)]); try discriminate; rewrite Nat.sub_0_r in B; (split; [exact A|]).
  - now destruct (nth j script OSuccess).
  - split; [now apply (nth_kind is_region_err)|exact B].
  - split; [now apply (nth_kind is_fatal)|exact B].
Qed.

(* retry marker: absent on the first attempt, present on every later one *)
Definition retry_flags (evs : list event) : list bool :=
  flat_map (fun e => match e with EAtt _ _ _ d => [d] | _ => [] end) evs.
Lemma retry_flags_app a b : retry_flags (a ++ b) = retry_flags a ++ retry_flags b.
Proof. unfold retry_flags. now rewrite flat_map_app. Qed.
Lemma retry_flags_cons_att s t evs : retry_flags (att_ev s t :: evs) = q_retry s :: retry_flags evs.
Proof. reflexivity. Qed.
Lemma retry_flags_noatt evs : n_attempts evs = 0 -> retry_flags evs = [].
Proof. induction evs as [|e evs IH]; auto. destruct e; cbn; auto. discriminate. Qed.
(* the first attempt of a call that starts at turn [i] carries the marker iff it is not the first turn (or the marker is
   already set), every later one carries it *)
Lemma loop_retry c script s prev i :
  match retry_flags (fst (loop_gen fixed c script s prev i)) with
  | [] => True
  | d :: rest => d = (0 <? i) || q_retry s /\ Forall (fun x => x = true) rest
  end.
Proof.
  revert script s prev i.
  apply (loop_ind fixed c (fun _ s _ i evs _ =>
    match retry_flags evs with [] => True | d :: rest => d = (0 <? i) || q_retry s /\ Forall (fun x => x = true) rest end)).
  - intros _ s prev i evs r T. apply turn_spec in T as [A _]. now rewrite retry_flags_noatt.
  - intros _ s prev i evs s2 t T _. pose proof (turn_spec _ _ _ _ _ _ T) as A. apply turn_q in T as Q.
    rewrite retry_flags_app, retry_flags_noatt by apply A. cbn. split; [apply Q|constructor].
  - intros _ _ s prev i evs s2 t evs' r T _ _ IH. pose proof (turn_spec _ _ _ _ _ _ T) as A. apply turn_q in T as Q.
    rewrite retry_flags_app, retry_flags_noatt, retry_flags_cons_att by apply A. split; [apply Q|].
    destruct (retry_flags evs'); constructor; tauto.
Qed.

Lemma run_retry c script rands sleeps :
  match retry_flags (fst (run_gen fixed c script rands sleeps)) with
  | [] => True
  | d :: rest => d = false /\ Forall (fun x => x = true) rest
  end.
Proof. unfold run_gen. destruct (validation_refuses c); [exact I|apply loop_retry]. Qed.

End Gen.
