(* SendReq/ProofsLoop.v — the retry loop as a sequence of turns, induction over the turns, the attempt bound;
   re-arms need leader hints.  At the end: the state-returning loop of Cache.v is the same loop, so every call of a
   sequence is a [run]. *)
From Coq Require Import List Bool Arith NArith Lia.
Import ListNotations.
From Verif Require Import SendReq.Model SendReq.Cache SendReq.ProofsBound SendReq.ProofsSelect.

(* One turn of the retry loop, up to the moment an attempt leaves: what the handler of the previous answer and the
   selector emitted, and either the result the call ends with or the state and target of the attempt. *)
Inductive turn := Stop (evs : list event) (r : result) | Sent (evs : list event) (s : state) (t : nat).

Definition mark (i : nat) (s : state) : state := if 0 <? i then set_q_retry true s else s.
Definition att_ev (s : state) (t : nat) : event := EAtt t (q_rr s) (q_stale s) (q_retry s).
Definition flown (c : cfg) (i : nat) (s : state) (t : nat) : state := raise_att c i (after_send s t).
Definition heard (s : state) (o : outcome) : outcome := if dead s then ORpcErr Reachable else o.
Definition last_result (s : state) (i : nat) : result := if dead s then RError else RSuccess i.

(* the answer the next attempt gets, if the script holds one that is not a success *)
Definition is_success (o : outcome) : bool := match o with OSuccess => true | _ => false end.
Definition more (script : list outcome) : option (outcome * list outcome) :=
  match script with [] => None | o :: rest => if is_success o then None else Some (o, rest) end.

Lemma outcome_match {A} (o : outcome) (a b : A) : match o with OSuccess => a | _ => b end = if is_success o then a else b.
Proof. now destruct o. Qed.

Lemma more_some script o rest : more script = Some (o, rest) -> script = o :: rest /\ o <> OSuccess.
Proof. destruct script as [|o' ?]; [discriminate|]. cbn. destruct (is_success o') eqn:E; intros [= <- <-]. now split; [|intros ->]. Qed.
Lemma more_none script : more script = None -> nth 0 script OSuccess = OSuccess.
Proof. destruct script as [|[] ?]; try discriminate; reflexivity. Qed.

Section Gen.
Variable fixed : bool.

Definition pre (c : cfg) (s : state) (prev : option (nat * outcome)) (i : nat) : hres :=
  if c_interruptible c && killed s && negb (c_async c && (i =? 0)) then HDone s RError []
  else match prev with None => HRetry s [] | Some (t, o) => handle fixed c s t o (pred i) end.

Definition turn_of (c : cfg) (s : state) (prev : option (nat * outcome)) (i : nat) : turn :=
  match pre c s prev i with
  | HDone _ r evs => Stop evs r
  | HRetry s1 evs1 =>
      match sel_phase c (mark i s1) with
      | SDone _ r evs2 => Stop (evs1 ++ evs2) r
      | SSent s2 t evs2 => Sent (evs1 ++ evs2) s2 t
      end
  end.

Lemma loop_unfold c script s prev i :
  loop_gen fixed c script s prev i =
  match turn_of c s prev i with
  | Stop evs r => (evs, r)
  | Sent evs s2 t =>
      match more script with
      | None => (evs ++ [att_ev s2 t], last_result s2 i)
      | Some (o, rest) =>
          let '(evs', r) := loop_gen fixed c rest (flown c i s2 t) (Some (t, heard s2 o)) (S i) in
          (evs ++ att_ev s2 t :: evs', r)
      end
  end.
Proof.
  unfold turn_of. destruct script as [|o rest]; cbn [loop_gen more]; fold (pre c s prev i);
    (destruct (pre c s prev i) as [s1 evs1|]; [|reflexivity]); cbv zeta; fold (mark i s1);
    (destruct (sel_phase c (mark i s1)); [|reflexivity]); rewrite ?outcome_match; [now rewrite app_assoc|].
  destruct (is_success o); [now rewrite app_assoc|]. fold (flown c i s0 t). destruct (loop_gen _ _ _ _ _ _). now rewrite app_assoc.
Qed.

(* Induction over the turns of a call: it stops before an attempt, or its last attempt is answered by a success (or by nothing:
   the script is used up), or the attempt is answered by [o] and the loop goes on. *)
Lemma loop_ind c (P : list outcome -> state -> option (nat * outcome) -> nat -> list event -> result -> Prop) :
  (forall script s prev i evs r, turn_of c s prev i = Stop evs r -> P script s prev i evs r) ->
  (forall script s prev i evs s2 t, turn_of c s prev i = Sent evs s2 t -> nth 0 script OSuccess = OSuccess ->
     P script s prev i (evs ++ [att_ev s2 t]) (last_result s2 i)) ->
  (forall o rest s prev i evs s2 t evs' r, turn_of c s prev i = Sent evs s2 t -> o <> OSuccess ->
     loop_gen fixed c rest (flown c i s2 t) (Some (t, heard s2 o)) (S i) = (evs', r) ->
     P rest (flown c i s2 t) (Some (t, heard s2 o)) (S i) evs' r ->
     P (o :: rest) s prev i (evs ++ att_ev s2 t :: evs') r) ->
  forall script s prev i,
    P script s prev i (fst (loop_gen fixed c script s prev i)) (snd (loop_gen fixed c script s prev i)).
Proof.
  intros HS HL HM. induction script as [|o rest IH]; intros s prev i; rewrite loop_unfold;
    destruct (turn_of c s prev i) as [evs r|evs s2 t] eqn:T; try (now apply HS);
    destruct (more _) as [[o' rest']|] eqn:M; try (apply HL; [exact T|now apply more_none]); [discriminate|].
  apply more_some in M as [[= <- <-] No]. specialize (IH (flown c i s2 t) (Some (t, heard s2 o)) (S i)).
  destruct (loop_gen _ _ _ _ _ _) eqn:L. now apply HM.
Qed.

(* a re-arm is only ever produced by a NotLeader answer with a leader hint *)
Definition is_hint (o : outcome) : bool := match o with ONotLeaderHint _ => true | _ => false end.
Definition n_hints (script : list outcome) : nat := length (filter is_hint script).
Definition hint_before (prev : option (nat * outcome)) : bool :=
  match prev with Some (_, o) => is_hint o | None => false end.

Lemma pre_cases c s prev i : handled fixed c s (hint_before prev) (pre c s prev i).
Proof.
  unfold pre. destruct (c_interruptible c && killed s && _) eqn:K.
  - apply hd_end, en_flagged. right. now destruct (killed s); [|rewrite andb_false_r in K].
  - destruct prev as [[t o]|]; [apply handle_cases|apply hd_retry; now constructor].
Qed.

(* an attempt in flight changes the slow-score statistics of its target, and the caller may raise its flags meanwhile *)
Lemma flown_frame c i s t :
  atts (flown c i s t) = atts s /\ q_rr (flown c i s t) = q_rr s /\ q_stale (flown c i s t) = q_stale s /\
  bo_total (flown c i s t) = bo_total s /\ bo_excl (flown c i s t) = bo_excl s /\ rearmed_v (flown c i s t) = rearmed_v s /\
  dead (flown c i s t) = dead s || trig_att (c_cancel c) i /\ killed (flown c i s t) = killed s || trig_att (c_kill c) i.
Proof. unfold flown, after_send. destruct (rt_eqb _ _); repeat split; auto. apply atts_upd_same; att_same. Qed.

Lemma n_attempts_cons_att s t evs : n_attempts (att_ev s t :: evs) = S (n_attempts evs).
Proof. reflexivity. Qed.
Lemma n_rearms_cons_att s t evs : n_rearms (att_ev s t :: evs) = n_rearms evs.
Proof. reflexivity. Qed.

(* no attempt before the one that leaves, and that one uses up a unit of room; a re-arm needs a leader hint *)
Lemma turn_spec c s prev i x : turn_of c s prev i = x ->
  match x with
  | Stop evs _ => n_attempts evs = 0 /\ n_rearms evs <= Nat.b2n (hint_before prev)
  | Sent evs s2 _ => room s2 + 1 <= room s + n_rearms evs /\ n_attempts evs = 0 /\ n_rearms evs <= Nat.b2n (hint_before prev)
  end.
Proof.
  intros <-. unfold turn_of. pose proof (handled_spec _ _ _ _ _ (pre_cases c s prev i)) as P.
  destruct (pre c s prev i) as [s1 evs1|sd r evs1]; [|destruct P as [-> ->]; split; [reflexivity|apply Nat.le_0_l]].
  pose proof (sel_phase_spec c (mark i s1)) as Q.
  assert (R : room (mark i s1) = room s1) by (unfold mark; destruct (0 <? i); reflexivity).
  destruct (sel_phase c (mark i s1)); rewrite n_attempts_app, n_rearms_app; lia.
Qed.

Lemma loop_bound c script s prev i :
  n_attempts (fst (loop_gen fixed c script s prev i)) <= room s + n_rearms (fst (loop_gen fixed c script s prev i)).
Proof.
  revert script s prev i. apply (loop_ind c (fun _ s _ _ evs _ => n_attempts evs <= room s + n_rearms evs)).
  - intros _ s prev i evs r T. apply turn_spec in T. lia.
  - intros _ s prev i evs s2 t T _. apply turn_spec in T.
    rewrite n_attempts_app, n_rearms_app, n_attempts_cons_att, n_rearms_cons_att. cbn. lia.
  - intros _ _ s prev i evs s2 t evs' r T _ _ IH. apply turn_spec in T.
    rewrite (room_eq _ _ (proj1 (flown_frame c i s2 t))) in IH.
    rewrite n_attempts_app, n_rearms_app, n_attempts_cons_att, n_rearms_cons_att. lia.
Qed.

Lemma room_init c rands sleeps : room (init_state c rands sleeps) <= max_replica_attempt * length (c_reps c).
Proof.
  change (room_l (map attempts (c_reps c)) <= max_replica_attempt * length (c_reps c)).
  induction (c_reps c); cbn [map room_l length]; unfold max_replica_attempt in *; lia.
Qed.

Lemma run_bound c script rands sleeps :
  n_attempts (fst (run_gen fixed c script rands sleeps)) <=
  max_replica_attempt * length (c_reps c) + n_rearms (fst (run_gen fixed c script rands sleeps)).
Proof.
  unfold run_gen. destruct (validation_refuses c); [cbn; lia|].
  pose proof (loop_bound c script (init_state c rands sleeps) None 0). pose proof (room_init c rands sleeps). lia.
Qed.

Lemma loop_rearms c script s prev i :
  n_rearms (fst (loop_gen fixed c script s prev i)) <= Nat.b2n (hint_before prev) + n_hints script.
Proof.
  revert script s prev i. apply (loop_ind c (fun script _ prev _ evs _ => n_rearms evs <= Nat.b2n (hint_before prev) + n_hints script)).
  - intros script s prev i evs r T. apply turn_spec in T. lia.
  - intros script s prev i evs s2 t T _. apply turn_spec in T.
    rewrite n_rearms_app. cbn. lia.
  - intros o rest s prev i evs s2 t evs' r T _ _ IH. apply turn_spec in T.
    assert (Nat.b2n (hint_before (Some (t, heard s2 o))) + n_hints rest <= n_hints (o :: rest))
      by (unfold heard, n_hints; cbn [hint_before filter]; destruct (dead s2), (is_hint o); cbn; lia).
    rewrite n_rearms_app, n_rearms_cons_att. lia.
Qed.

Lemma run_rearms c script rands sleeps : n_rearms (fst (run_gen fixed c script rands sleeps)) <= n_hints script.
Proof. unfold run_gen. destruct (validation_refuses c); [apply Nat.le_0_l|apply (loop_rearms c script _ None 0)]. Qed.

Lemma run_bound_hints c script rands sleeps :
  n_attempts (fst (run_gen fixed c script rands sleeps)) <= max_replica_attempt * length (c_reps c) + n_hints script.
Proof. pose proof (run_bound c script rands sleeps). pose proof (run_rearms c script rands sleeps). lia. Qed.

End Gen.

Lemma loop_st_fst fixed c script : forall s prev i,
  fst (loop_st fixed c script s prev i) = loop_gen fixed c script s prev i.
Proof.
  induction script as [|o rest IH]; intros s prev i; rewrite loop_unfold; unfold turn_of; cbn [loop_st more];
    fold (pre fixed c s prev i); (destruct (pre fixed c s prev i) as [s1 evs1|]; [|reflexivity]); cbv zeta; fold (mark i s1);
    (destruct (sel_phase c (mark i s1)) as [s2 t evs2|]; [|reflexivity]); rewrite ?outcome_match; [now rewrite app_assoc|].
  destruct (is_success o); [now rewrite app_assoc|]. fold (flown c i s2 t). rewrite <- IH. unfold heard.
  destruct (loop_st fixed c rest _ _ (S i)) as [[evs r] sf]. cbn [fst]. now rewrite app_assoc.
Qed.

Lemma run_st_fst c script rands sleeps pd : fst (run_st c script rands sleeps pd) = run c script rands sleeps.
Proof.
  unfold run_st, run, run_gen. destruct (validation_refuses c); [reflexivity|].
  rewrite <- loop_st_fst. destruct (loop_st true c script _ None 0) as [x sf]. reflexivity.
Qed.

Lemma run_seq_each (Q : cfg * (list event * result) -> Prop) :
  (forall c sc rs sl, Q (c, run c sc rs sl)) -> forall calls c pd, Forall Q (run_seq c calls pd).
Proof.
  intros H calls. induction calls as [|[[sc rs] sl] rest IH]; intros c pd; cbn [run_seq]; [constructor|].
  pose proof (run_st_fst c sc rs sl pd) as E. destruct (run_st c sc rs sl pd) as [x k]. cbn [fst] in E. subst x.
  constructor; [apply H|apply IH].
Qed.
