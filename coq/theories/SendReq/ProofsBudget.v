(* SendReq/ProofsBudget.v — the back-off budget along the trace (every back-off was admitted by the budget test and sleeps at
   least its minimal step), an error only when a back-off was refused, and the re-arms counted against the allowance of maxRearm per replica (the code
   as it is, fixed = true). *)
From Coq Require Import List Bool Arith NArith Lia.
Import ListNotations.
From Verif Require Import SendReq.Model SendReq.ProofsBound SendReq.ProofsSelect SendReq.ProofsLoop.
Local Open Scope N_scope.

Definition spent (c : cfg) (T E : N) : Prop := exists k, refuse c k T E = true.

Fixpoint tot (evs : list event) : N := match evs with [] => 0 | EBo _ sl :: r => sl + tot r | _ :: r => tot r end.
Fixpoint exc (evs : list event) : N :=
  match evs with [] => 0 | EBo k sl :: r => (if excluded k then sl else 0) + exc r | _ :: r => exc r end.
Fixpoint bo_ok (c : cfg) (T E : N) (evs : list event) : Prop :=
  match evs with
  | [] => True
  | EBo k sl :: r => refuse c k T E = false /\ min_step k <= sl /\ bo_ok c (T + sl) (E + (if excluded k then sl else 0)) r
  | _ :: r => bo_ok c T E r
  end.

Lemma tot_app a b : tot (a ++ b) = tot a + tot b.
Proof. induction a as [|e a IH]; cbn [app tot]; [lia|]. destruct e; lia. Qed.
Lemma exc_app a b : exc (a ++ b) = exc a + exc b.
Proof. induction a as [|e a IH]; cbn [app exc]; [lia|]. destruct e; lia. Qed.
Lemma bo_ok_app c a : forall T E b, bo_ok c T E a -> bo_ok c (T + tot a) (E + exc a) b -> bo_ok c T E (a ++ b).
Proof.
  induction a as [|e a IH]; intros T E b Ha Hb; cbn [app tot exc bo_ok] in *.
  - now rewrite !N.add_0_r in Hb.
  - destruct e; try (apply IH; assumption). destruct Ha as (A1 & A2 & A3). repeat split; auto.
    apply IH; auto. now rewrite <- !N.add_assoc.
Qed.

(* what the re-arm counters still allow: sum over the replicas of (maxRearm - rearmed), maxRearm = replicas - 1 *)
Fixpoint slack (L : nat) (v : list nat) : nat := match v with [] => 0 | x :: r => (L - x) + slack L r end.
Definition unarmed (c : cfg) (s : state) : nat := slack (length (c_reps c) - 1) (rearmed_v s).
(* nobody cancels or kills: then an error can only come from the budget *)
Definition calm (c : cfg) (s : state) : Prop := c_cancel c = TNever /\ c_kill c = TNever /\ dead s = false /\ killed s = false.

Lemma calm_aux c s s' : aux s' = aux s -> calm c s -> calm c s'.
Proof. unfold aux, calm. intros H; injection H as _ _ _ -> ->. auto. Qed.

(* what is claimed of a call that goes on from [s] to [s'] having emitted [evs]: the sums advance by the sleeps, each of which
   was admitted; nobody cancels or kills meanwhile unless somebody does at all; the re-arms come out of the allowance *)
Definition step_ok (fixed : bool) (c : cfg) (s s' : state) (evs : list event) : Prop :=
  bo_total s' = bo_total s + tot evs /\ bo_excl s' = bo_excl s + exc evs /\ bo_ok c (bo_total s) (bo_excl s) evs /\
  (calm c s -> calm c s') /\ (fixed = true -> (unarmed c s' + n_rearms evs <= unarmed c s)%nat).

Lemma step_ok_proxy fixed c s s' p : aux s' = aux s -> step_ok fixed c s s' (proxy_evs p).
Proof.
  intros H. pose proof (calm_aux c s s' H). unfold step_ok, unarmed. injection H as -> -> -> _ _.
  destruct p; cbn; rewrite !N.add_0_r; intuition lia.
Qed.

Lemma step_ok_nil fixed c s s' : aux s' = aux s -> step_ok fixed c s s' [].
Proof. exact (step_ok_proxy fixed c s s' None). Qed.

Lemma step_ok_app fixed c s s1 s2 a b : step_ok fixed c s s1 a -> step_ok fixed c s1 s2 b -> step_ok fixed c s s2 (a ++ b).
Proof.
  intros (T1 & E1 & B1 & C1 & U) (T2 & E2 & B2 & C2 & V). rewrite T1, E1 in *. unfold step_ok. rewrite tot_app, exc_app, n_rearms_app.
  split; [lia|]. split; [lia|]. split; [now apply bo_ok_app|]. split; [auto|]. intros F. specialize (U F). specialize (V F). lia.
Qed.

(* what a refusal means when nobody cancels or kills *)
Definition why (c : cfg) (s : state) (r : result) (evs : list event) : Prop :=
  calm c s -> r = RError -> evs = [] /\ spent c (bo_total s) (bo_excl s).

Lemma why_not c s r evs : r <> RError -> why c s r evs.
Proof. intros R _ E. contradiction. Qed.

Lemma granted_ok c k s s0 sl : aux s0 = aux s -> granted c k s0 sl -> bo_ok c (bo_total s) (bo_excl s) [EBo k sl].
Proof. unfold granted. intros [= _ -> -> _ _] (_ & R & M). cbn. auto. Qed.

Lemma refused_why c k s s0 r : aux s0 = aux s -> refused c k s0 -> why c s r [].
Proof.
  unfold refused. intros [= _ -> -> -> _] [D|R] (_ & _ & D' & _) _; [congruence|]. split; [reflexivity|now exists k].
Qed.

Lemma killed_why c s s0 r evs : aux s0 = aux s -> kill_seen c s0 -> why c s r evs.
Proof. unfold kill_seen. intros [= _ _ _ _ ->] K (_ & C & _ & C') _. rewrite C, C' in K. discriminate. Qed.

Lemma woke_step fixed c k sl s s0 s' : aux s0 = aux s -> granted c k s0 sl -> woke c k sl s0 s' -> step_ok fixed c s s' [EBo k sl].
Proof.
  intros A G [_ _ V T E D K]. pose proof (granted_ok c k s s0 sl A G) as B. injection A as V0 T0 E0 _ _.
  rewrite V0 in V. rewrite T0 in T. rewrite E0 in E. unfold step_ok, unarmed. cbn [tot exc]. rewrite T, E, V, !N.add_0_r.
  split; [reflexivity|]. split; [reflexivity|]. split; [exact B|]. split; [|cbn; lia].
  intros (C1 & C2 & _). repeat split; auto. now rewrite D, C1.
Qed.

Lemma slack_upd L k (v : list nat) : (nth k v L < L -> slack L (upd k S v) + 1 = slack L v)%nat.
Proof.
  revert k; induction v as [|x v IH]; intros [|k] H; cbn [nth upd slack] in *; try lia.
  specialize (IH k H). lia.
Qed.

(* what is claimed of a call that ends with [x], whatever it does in between *)
Definition loop_ok (fixed : bool) (c : cfg) (s : state) (x : list event * result) : Prop :=
  bo_ok c (bo_total s) (bo_excl s) (fst x) /\
  (calm c s -> snd x = RError -> spent c (bo_total s + tot (fst x)) (bo_excl s + exc (fst x))) /\
  (fixed = true -> (n_rearms (fst x) <= unarmed c s)%nat).

Lemma done_ok fixed c s r evs :
  bo_ok c (bo_total s) (bo_excl s) evs -> n_rearms evs = 0%nat -> why c s r evs -> loop_ok fixed c s (evs, r).
Proof.
  intros B R W. repeat split; cbn [fst snd]; [exact B| |lia].
  intros C E. destruct (W C E) as [-> S]. cbn. now rewrite !N.add_0_r.
Qed.

Lemma loop_ok_step fixed c s s' a evs r : step_ok fixed c s s' a -> loop_ok fixed c s' (evs, r) -> loop_ok fixed c s (a ++ evs, r).
Proof.
  intros (T & E & B & C & U) (L1 & L2 & L3). cbn [fst snd] in *. rewrite T, E in *. unfold loop_ok. cbn [fst snd].
  rewrite tot_app, exc_app, n_rearms_app, !N.add_assoc. split; [now apply bo_ok_app|]. split; [auto|].
  intros F. specialize (U F). specialize (L3 F). lia.
Qed.

Lemma ended_bo fixed c s evs r : ended c s evs r -> loop_ok fixed c s (evs, r).
Proof.
  intros [r' R|F|k s0 sl r' A G R|k s0 r' A R|k s0 sl r' A G K].
  - apply done_ok; [exact I|reflexivity|now apply why_not].
  - apply done_ok; [exact I|reflexivity|]. intros (_ & _ & D & K) _. destruct F; congruence.
  - apply done_ok; [eapply granted_ok; eassumption|reflexivity|now apply why_not].
  - apply done_ok; [exact I|reflexivity|]. eapply refused_why; eassumption.
  - apply done_ok; [eapply granted_ok; eassumption|reflexivity|]. eapply killed_why; eassumption.
Qed.

Lemma handled_bo fixed c s h x : handled fixed c s h x ->
  match x with HRetry s' evs => step_ok fixed c s s' evs | HDone _ r evs => loop_ok fixed c s (evs, r) end.
Proof.
  intros [sd r evs E|s' [_ K _ _]|k s0 sl s' [_ K _ _] G W|lim k s' _ HL [_ V [= T E D KD _ _ _]]].
  - now apply ended_bo.
  - now apply step_ok_nil.
  - now apply (woke_step fixed c k sl s s0).
  - unfold step_ok, calm. rewrite T, E, D, KD. cbn. rewrite !N.add_0_r. repeat split; try tauto.
    intros F. rewrite (HL F) in V. destruct V as [L V]. unfold unarmed. rewrite V. pose proof (slack_upd _ _ _ L). lia.
Qed.

Lemma selected_bo fixed c s x : selected c s x ->
  match x with SSent s' _ evs => step_ok fixed c s s' evs | SDone _ r evs => loop_ok fixed c s (evs, r) end.
Proof.
  intros [sd r evs E _|s' t p [_ A _ _]|s0 sl s' t p [_ A _ _] G W].
  - now apply ended_bo.
  - now apply step_ok_proxy.
  - apply (step_ok_app fixed c s s' s' [EBo BoBusy sl]); [now apply (woke_step fixed c BoBusy sl s s0)|now apply step_ok_proxy].
Qed.

Lemma turn_of_bo fixed c s prev i x : turn_of fixed c s prev i = x ->
  match x with
  | Stop evs r => loop_ok fixed c s (evs, r)
  | Sent evs s2 _ => step_ok fixed c s s2 evs
  end.
Proof.
  intros <-. unfold turn_of. pose proof (handled_bo fixed c s _ _ (pre_cases fixed c s prev i)) as P.
  destruct (pre fixed c s prev i) as [s1 evs1|sd r evs1]; [|exact P].
  assert (M : step_ok fixed c s1 (mark i s1) []) by (apply step_ok_nil; unfold mark; now destruct (0 <? i)%nat).
  pose proof (step_ok_app _ _ _ _ _ _ _ P M) as P'. rewrite app_nil_r in P'.
  pose proof (selected_bo fixed c _ _ (sel_phase_cases c (mark i s1))) as Q.
  destruct (sel_phase c (mark i s1)); [now apply (step_ok_app fixed c s (mark i s1))|now apply (loop_ok_step fixed c s (mark i s1))].
Qed.

(* an attempt in flight is a step like the others *)
Lemma flown_step fixed c i s t : step_ok fixed c s (flown c i s t) [att_ev s t].
Proof.
  destruct (flown_frame c i s t) as (_ & _ & _ & F1 & F2 & F3 & D & K). unfold step_ok, unarmed, calm. rewrite F1, F2, F3, D, K. cbn. rewrite !N.add_0_r.
  split; [reflexivity|]. split; [reflexivity|]. split; [exact I|]. split; [|intros _; lia]. intros (-> & -> & -> & ->). auto.
Qed.

Lemma loop_bo fixed c script s prev i : loop_ok fixed c s (loop_gen fixed c script s prev i).
Proof.
  revert script s prev i. apply (loop_ind fixed c (fun _ s _ _ evs r => loop_ok fixed c s (evs, r))).
  - intros _ s prev i evs r T. now apply turn_of_bo in T.
  - intros _ s prev i evs s2 t T _. apply turn_of_bo in T. apply (loop_ok_step fixed c s s2 _ _ _ T), done_ok; [exact I|reflexivity|].
    intros (_ & _ & D & _). unfold last_result. rewrite D. discriminate.
  - intros _ _ s prev i evs s2 t evs' r T _ _ IH. apply turn_of_bo in T.
    apply (loop_ok_step fixed c s s2 _ _ _ T), (loop_ok_step fixed c s2 (flown c i s2 t) [att_ev s2 t]); [apply flown_step|exact IH].
Qed.

(* how many back-offs a budget admits: consequences of [bo_ok] alone *)
Definition is_bo_excl (e : event) : bool := match e with EBo k _ => excluded k | _ => false end.
Definition is_bo_plain (e : event) : bool := match e with EBo k _ => negb (excluded k) | _ => false end.
Definition n_plain (evs : list event) : N := N.of_nat (length (filter is_bo_plain evs)).
Definition n_excl (evs : list event) : N := N.of_nat (length (filter is_bo_excl evs)).

Lemma min_step_plain k : excluded k = false -> 2 <= min_step k.
Proof. destruct k; cbn; intros; try discriminate; lia. Qed.

Lemma bo_ok_plain c evs : 0 < c_max_sleep c -> forall T E, E <= T -> bo_ok c T E evs ->
  n_plain evs = 0 \/ 2 * n_plain evs + (T - E) <= c_max_sleep c + 1.
Proof.
  intros M. unfold n_plain. induction evs as [|e evs IH]; intros T E LE H; [now left|].
  destruct e as [| k sl | |]; cbn [bo_ok filter is_bo_plain] in *; try (apply IH in H; [exact H|exact LE]).
  destruct H as (R & S & H). unfold refuse in R.
  apply andb_false_iff in R as [R|R]; [apply N.ltb_ge in R; lia|]. apply orb_false_iff in R as [R _]. apply N.leb_gt in R.
  destruct (excluded k) eqn:X; rewrite ?X in *; cbn [negb length]; (apply IH in H; [|lia]).
  - destruct H as [H|H]; [now left|right]. lia.
  - right. pose proof (min_step_plain k X). rewrite Nat2N.inj_succ. destruct H as [H|H]; lia.
Qed.

Lemma bo_ok_excl c evs : 0 < c_max_sleep c -> forall T E, bo_ok c T E evs ->
  n_excl evs = 0 \/ 1000 * n_excl evs + E <= N.max excl_limit (c_max_sleep c) + 999.
Proof.
  intros M. unfold n_excl. induction evs as [|e evs IH]; intros T E H; [now left|].
  destruct e as [| k sl | |]; cbn [bo_ok filter is_bo_excl] in *; try (apply IH in H; exact H).
  destruct H as (R & S & H). apply IH in H. unfold refuse in R.
  apply andb_false_iff in R as [R|R]; [apply N.ltb_ge in R; lia|]. apply orb_false_iff in R as [_ R].
  destruct (excluded k) eqn:X; rewrite ?X in *; cbn [length].
  - right. destruct k; try discriminate. cbn [min_step andb] in *. rewrite Nat2N.inj_succ.
    apply andb_false_iff in R. assert (E < N.max excl_limit (c_max_sleep c)) by (destruct R as [R|R]; apply N.leb_gt in R; lia).
    destruct H as [H|H]; lia.
  - rewrite N.add_0_r in H. exact H.
Qed.

Lemma slack_zeros {A} L (l : list A) : slack L (map (fun _ => 0%nat) l) = (length l * L)%nat.
Proof. induction l; cbn [map slack length]; lia. Qed.
Lemma unarmed_init c rands sleeps : unarmed c (init_state c rands sleeps) = (length (c_reps c) * (length (c_reps c) - 1))%nat.
Proof. unfold unarmed, init_state. cbn [rearmed_v]. apply slack_zeros. Qed.

Lemma run_ok fixed c script rands sleeps :
  validation_refuses c = false -> loop_ok fixed c (init_state c rands sleeps) (run_gen fixed c script rands sleeps).
Proof. intros V. unfold run_gen. rewrite V. apply loop_bo. Qed.

Lemma spent_explicit c T E : spent c T E ->
  0 < c_max_sleep c /\ (c_max_sleep c <= T - E \/ (excl_limit <= E /\ c_max_sleep c <= E)).
Proof.
  intros [k R]. unfold refuse in R. apply andb_prop in R as [R1 R2]. apply N.ltb_lt in R1. split; [assumption|].
  apply orb_prop in R2 as [R2|R2]; [left; now apply N.leb_le|right].
  apply andb_prop in R2 as [R2 R3]. apply andb_prop in R2 as [_ R2]. split; now apply N.leb_le.
Qed.

Lemma run_error fixed c script rands sleeps evs : run_gen fixed c script rands sleeps = (evs, RError) ->
  (c_read c = true /\ c_val c = false /\ c_store_tp c <> TpTiDB) \/
  (0 < c_max_sleep c /\ (c_max_sleep c <= tot evs - exc evs \/ (excl_limit <= exc evs /\ c_max_sleep c <= exc evs))) \/
  c_cancel c <> TNever \/ c_kill c <> TNever.
Proof.
  intros H. destruct (validation_refuses c) eqn:V.
  - left. now apply validation_refuses_iff.
  - right. destruct (c_cancel c) eqn:CC; try (right; left; discriminate). destruct (c_kill c) eqn:CK; try (right; right; discriminate).
    left. pose proof (run_ok fixed c script rands sleeps V) as (_ & L & _). rewrite H in L. cbn [fst snd] in L.
    assert (C : calm c (init_state c rands sleeps)) by (unfold calm, init_state; cbn; rewrite CC, CK; auto).
    specialize (L C eq_refl). apply spent_explicit in L. exact L.
Qed.

Lemma run_backoffs fixed c script rands sleeps : 0 < c_max_sleep c ->
  2 * n_plain (fst (run_gen fixed c script rands sleeps)) <= c_max_sleep c + 1 /\
  1000 * n_excl (fst (run_gen fixed c script rands sleeps)) <= N.max excl_limit (c_max_sleep c) + 999.
Proof.
  intros M. destruct (validation_refuses c) eqn:V.
  - unfold run_gen. rewrite V. cbn. lia.
  - pose proof (run_ok fixed c script rands sleeps V) as (L & _ & _). cbn [init_state bo_total bo_excl] in L.
    pose proof (bo_ok_plain c _ M 0 0 ltac:(lia) L). pose proof (bo_ok_excl c _ M 0 0 L). lia.
Qed.

(* the code as it is, from any state: what the attempt counters and the re-arm counters still allow *)
Lemma loop_bounded c script s prev i : (n_attempts (fst (loop_gen true c script s prev i)) <= room s + unarmed c s)%nat.
Proof.
  pose proof (loop_bound true c script s prev i). destruct (loop_bo true c script s prev i) as (_ & _ & L). specialize (L eq_refl). lia.
Qed.

Lemma run_bounded c script rands sleeps :
  (n_attempts (fst (run c script rands sleeps)) <=
   max_replica_attempt * length (c_reps c) + length (c_reps c) * (length (c_reps c) - 1))%nat.
Proof.
  unfold run, run_gen. destruct (validation_refuses c); [cbn; lia|].
  pose proof (loop_bounded c script (init_state c rands sleeps) None 0) as H. rewrite unarmed_init in H.
  pose proof (room_init c rands sleeps). lia.
Qed.
