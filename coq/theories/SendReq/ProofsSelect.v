(* SendReq/ProofsSelect.v — whatever strategy chooses a replica, the chosen one still has an attempt left,
   and choosing does not change any attempt counter; one send uses up exactly one unit of room.
   [sel_phase_cases] lists what the selector's turn can do; the other proofs read that list. *)
From Coq Require Import List Bool Arith NArith Lia.
Import ListNotations.
From Verif Require Import SendReq.Model SendReq.ProofsBound.

Definition sel_ok (s : state) (o : option nat) (s' : state) : Prop :=
  atts s' = atts s /\ forall t, o = Some t -> att_at s t < max_replica_attempt.

Lemma is_cand_att p l i r : is_cand p l i r = true -> attempts r < 2.
Proof.
  unfold is_cand, exhausted. intros H. repeat (apply andb_prop in H as [H ?]).
  match goal with X : negb (_ <=? attempts r) = true |- _ => apply negb_true_iff, Nat.leb_gt in X;
    destruct (f_dnr r && negb (i =? l)); lia end.
Qed.

Lemma ties_cand p s i : In i (ties p s) -> is_cand p (leader s) i (rep_at s i) = true.
Proof. unfold ties, cand_idx. intros H. apply filter_In in H as [H _]. now apply filter_In in H as [_ H]. Qed.

Lemma leader_candidate_att r : leader_candidate r = true -> attempts r < max_replica_attempt.
Proof.
  unfold leader_candidate, exhausted. intros H. repeat (apply andb_prop in H as [H ?]).
  match goal with X : negb (_ <=? attempts r) = true |- _ => apply negb_true_iff, Nat.leb_gt in X; lia end.
Qed.

Lemma att_at_eq s s' t : atts s' = atts s -> att_at s' t = att_at s t.
Proof. unfold att_at. now intros ->. Qed.

(* choosing [o] is a step that keeps what the handlers keep, and [o] has an attempt left *)
Record chose (c : cfg) (s : state) (o : option nat) (s' : state) : Prop := {
  ch_ok : sel_ok s o s';
  ch_kept : kept c s s' }.

Lemma sel_ok_trans s s1 s2 o : atts s1 = atts s -> sel_ok s1 o s2 -> sel_ok s o s2.
Proof. intros E [A B]. split; [congruence|]. intros t Ht. rewrite <- (att_at_eq _ _ _ E). auto. Qed.

Lemma chose_none c s s' : kept c s s' -> chose c s None s'.
Proof. intros K. split; [split; [apply K|discriminate]|exact K]. Qed.

Lemma chose_some c s l s' : att_at s l < max_replica_attempt -> kept c s s' -> chose c s (Some l) s'.
Proof. intros A K. split; [split; [apply K|now intros t [= <-]]|exact K]. Qed.

Lemma chose_after c s s1 o s2 : kept c s s1 -> chose c s1 o s2 -> chose c s o s2.
Proof. intros K [A B]. split; [apply (sel_ok_trans s s1); [apply K|exact A]|now apply (kept_trans c s s1)]. Qed.

Lemma chose_then c s o s1 s2 : chose c s o s1 -> kept c s1 s2 -> chose c s o s2.
Proof. intros [[A B] K] K2. split; [split; [rewrite <- A; apply K2|exact B]|now apply (kept_trans c s s1)]. Qed.

Lemma mixed_next_ok c p s o s' : mixed_next p s = (o, s') -> chose c s o s'.
Proof.
  unfold mixed_next.
  assert (C : forall i, In i (ties p s) -> att_at s i < max_replica_attempt).
  { intros i H. apply ties_cand, is_cand_att in H. rewrite att_at_rep in H. unfold max_replica_attempt. lia. }
  destruct (ties p s) as [|i [|j l]] eqn:T.
  - destruct (m_thr p). { intros [= <- <-]. apply chose_none; now constructor. }
    cbv zeta.
    set (s1 := if f_suspect (rep_at s (leader s)) then upd_rep (leader s) (set_f_suspect false) s else s).
    assert (H1 : kept c s s1) by (subst s1; keeps).
    destruct (f_suspect (rep_at s (leader s)) && leader_candidate (rep_at s1 (leader s))) eqn:E.
    + intros [= <- <-]. apply chose_some; [|exact H1].
      apply andb_prop in E as [_ E]. apply leader_candidate_att in E. rewrite att_at_rep in E.
      now rewrite (att_at_eq _ _ _ (k_atts _ _ _ H1)) in E.
    + destruct (has_deadline (reps s1)); intros [= <- <-]; apply chose_none; [exact H1|apply (kept_trans c s s1 _ H1); now constructor].
  - intros [= <- <-]. apply chose_some; [apply C; now left|now constructor].
  - destruct (pop 0 (orc_r s)) as [r rest].
    assert (B : r mod length (i :: j :: l) < length (i :: j :: l)) by (apply Nat.mod_upper_bound; discriminate).
    remember (r mod length (i :: j :: l)) as m eqn:Hm. clear Hm. remember (i :: j :: l) as L eqn:HL. clear HL T.
    intros [= <- <-]. apply chose_some; [apply C; now apply nth_In|now constructor].
Qed.

Lemma leader_next_ok s l : leader_next s = Some l -> att_at s l < max_replica_attempt.
Proof.
  unfold leader_next. cbv zeta. destruct (leader_candidate (rep_at s (leader s)) && _) eqn:E; [|discriminate].
  intros H; inversion H; subst. apply andb_prop in E as [E _]. apply leader_candidate_att in E. now rewrite att_at_rep in E.
Qed.

Lemma next_leader_ok c s o s' : next_leader c s = (o, s') -> chose c s o s'.
Proof.
  unfold next_leader. cbv zeta.
  destruct (leader_next s) as [l|] eqn:L.
  - apply leader_next_ok in L. destruct (busy_thr s && c_read c && _) eqn:G.
    + assert (R : c_read c = true) by (apply andb_prop in G as [G _]; now apply andb_prop in G).
      assert (P : forall x, plain c x) by (unfold plain; congruence).
      destruct (mixed_next _ s) as [[i|] s1] eqn:M; apply (mixed_next_ok c) in M; intros [= <- <-].
      * apply (chose_then c s (Some i) s1 _ M); constructor; auto.
      * apply chose_some; [exact L|]. apply (kept_trans c s s1 _ (ch_kept _ _ _ _ M)); constructor; auto.
    + intros [= <- <-]. apply chose_some; [exact L|now constructor].
  - destruct (mixed_next _ s) as [[i|] s2] eqn:M; apply (mixed_next_ok c) in M; [|now intros [= <- <-]].
    destruct (c_read c && _) eqn:G; intros [= <- <-]; [|exact M].
    apply (chose_then c s (Some i) s2 _ M); constructor; auto. intros _ R. now rewrite R in G.
Qed.

Lemma next_mixed_ok c s o s' : next_mixed c s = (o, s') -> chose c s o s'.
Proof.
  unfold next_mixed. cbv zeta.
  match goal with |- context [match ?e with Some _ => _ | None => _ end = _] => destruct e as [l|] eqn:EE end.
  - intros [= <- <-]. apply chose_some; [|constructor; auto; intros _ _ _; auto].
    destruct (c_stale c && (sel_attempts s =? 2)); [|discriminate].
    destruct (leader_next s) as [l'|] eqn:L; [|discriminate]. destruct (negb _); inversion EE; subst.
    now apply leader_next_ok.
  - clear EE. destruct (mixed_next _ s) as [[i|] s1] eqn:M; apply (mixed_next_ok c) in M; [|now intros [= <- <-]].
    destruct (c_stale c) eqn:ST.
    + repeat match goal with |- context [if ?b then _ else _] => destruct b end; intros [= <- <-];
        (apply (chose_then c s (Some i) s1 _ M); constructor; auto; unfold plain; congruence).
    + intros [= <- <-]. apply (chose_then c s (Some i) s1 _ M); constructor; auto. intros _ -> _. auto.
Qed.

Lemma proxy_cand_facts s p : proxy_cand (leader s) p (rep_at s p) = true -> p <> leader s /\ att_at s p < 1.
Proof.
  intros F. unfold proxy_cand, exhausted in F. repeat (apply andb_prop in F as [F ?]).
  split.
  - intros ->. rewrite Nat.eqb_refl in F. discriminate.
  - match goal with X : negb (1 <=? _) = true |- _ => apply negb_true_iff, Nat.leb_gt in X; now rewrite att_at_rep in X end.
Qed.

Lemma proxy_next_via s p : proxy_next s = PxVia p -> p <> leader s /\ att_at s p < 1.
Proof.
  unfold proxy_next. cbv zeta. destruct (proxy_unneeded s); [discriminate|].
  assert (SC : match find (fun i => proxy_cand (leader s) i (rep_at s i)) (seq 0 (length (reps s))) with Some q => PxVia q | None => PxNone end = PxVia p ->
               p <> leader s /\ att_at s p < 1).
  { destruct (find _ _) as [q|] eqn:F; [|discriminate]. intros H; injection H as <-. apply find_some in F as [_ F]. now apply proxy_cand_facts. }
  destruct (pidx s) as [q|]; [|exact SC].
  destruct ((q <? length (reps s)) && proxy_cand (leader s) q (rep_at s q)) eqn:Q; [|exact SC].
  intros H; injection H as <-. apply andb_prop in Q as [_ Q]. now apply proxy_cand_facts.
Qed.

Definition proxy_evs (p : option nat) : list event := match p with Some p => [EProxy p] | None => [] end.

(* a replica was chosen and charged one attempt *)
Record chosen (c : cfg) (s s' : state) : Prop := {
  cn_room : room s' + 1 <= room s;
  cn_aux : aux s' = aux s;
  cn_retry : q_retry s' = q_retry s;
  cn_plain : plain c s -> plain c s' }.

Lemma chosen_charge c s s2 t : room s2 <= room s -> att_at s2 t < max_replica_attempt -> aux s2 = aux s -> q_retry s2 = q_retry s ->
  (plain c s -> plain c s2) -> chosen c s (upd_rep t charge s2).
Proof. intros R A X Q P. constructor; auto. pose proof (room_charge s2 t A). lia. Qed.

Lemma chose_charge c s t s2 : chose c s (Some t) s2 -> chosen c s (upd_rep t charge s2).
Proof.
  intros [[E A] [_ X Q P]]. apply chosen_charge; auto; [apply Nat.eq_le_incl, room_eq, E|rewrite (att_at_eq _ _ _ E); now apply A].
Qed.

(* All the selector ever does: end the call with the pseudo region error, after the back-off a pending ServerIsBusy asks for if
   there is one; or send to the replica it chose, after such a back-off if that replica answered ServerIsBusy. *)
Variant selected (c : cfg) (s : state) : sres -> Prop :=
| sv_end sd r evs : ended c s evs r -> r = RPseudo \/ r = RError -> selected c s (SDone sd r evs)
| sv_sent s' t p : chosen c s s' -> selected c s (SSent s' t (proxy_evs p))
| sv_sent_slept s0 sl s' t p : chosen c s s0 -> granted c BoBusy s0 sl -> woke c BoBusy sl s0 s' ->
    selected c s (SSent s' t (EBo BoBusy sl :: proxy_evs p)).

Lemma no_candidate_cases c s s0 : aux s0 = aux s -> selected c s (no_candidate c s0).
Proof.
  intros A. unfold no_candidate. destruct (any_pending s0); [|apply sv_end; [apply en_done; discriminate|now left]].
  destruct (backoff_cases c BoBusy s0); apply sv_end; auto; econstructor; try eassumption; discriminate.
Qed.

Lemma send_cases c s s3 t p : chosen c s s3 ->
  selected c s (if pending (rep_at s3 t) then
                  match backoff c BoBusy (upd_rep t (set_pending false) s3) with
                  | BoOk s4 e => SSent s4 t (e :: proxy_evs p)
                  | BoRefused => SDone s3 RError []
                  | BoKilled e => SDone s3 RError [e]
                  end
                else SSent s3 t (proxy_evs p)).
Proof.
  intros [R A Q P]. destruct (pending _); [|now constructor].
  assert (C : chosen c s (upd_rep t (set_pending false) s3)) by (constructor; auto; unfold room; now atts_norm).
  destruct (backoff_cases c BoBusy (upd_rep t (set_pending false) s3));
    [eapply sv_sent_slept|apply sv_end; [eapply en_refused|]|apply sv_end; [eapply en_killed|]]; try eassumption; auto.
Qed.

Lemma sel_phase_cases c s : selected c s (sel_phase c s).
Proof.
  unfold sel_phase. cbv zeta.
  match goal with |- context [match ?e with Some _ => _ | None => _ end] => destruct e as [s0|] eqn:G end;
    [|now apply no_candidate_cases].
  set (s1 := set_proxy None (set_sel_attempts (sat3 (S (sel_attempts s0))) (unset_if c s0))).
  assert (F1 : kept c s s1).
  { subst s1. unfold unset_if. destruct (_ && _), (inv_retry s); try (destruct (valid s)); inversion G; now constructor. }
  destruct (if rt_eqb (rt s1) RTLeader && c_fw c then proxy_next s1 else PxLeaderOnly) as [|p|] eqn:PX;
    [| |apply no_candidate_cases, (k_aux _ _ _ F1)].
  - destruct (if rt_eqb (rt s1) RTLeader then next_leader c s1 else next_mixed c s1) as [tg s2] eqn:N.
    assert (OK : chose c s tg s2)
      by (apply (chose_after c s s1 _ _ F1); destruct (rt_eqb (rt s1) RTLeader); [now apply next_leader_ok|now apply next_mixed_ok]).
    destruct tg as [t|]; [|apply no_candidate_cases, (ch_kept _ _ _ _ OK)].
    destruct (stale (rep_at s2 t)); [apply no_candidate_cases, (ch_kept _ _ _ _ OK)|].
    apply (send_cases c s _ t None), chose_charge, OK.
  - assert (PV : proxy_next s1 = PxVia p) by (destruct (rt_eqb (rt s1) RTLeader && c_fw c); [assumption|discriminate]).
    apply proxy_next_via in PV as [Pne Patt]. destruct F1 as [E1 A1 Q1 P1].
    destruct (stale (rep_at s1 (leader s1)) || stale (rep_at s1 p)); [now apply no_candidate_cases|].
    apply (send_cases c s _ (leader s1) (Some p)), chosen_charge; auto.
    + rewrite <- (room_eq _ _ E1). apply (room_charge_le (set_proxy (Some p) s1)).
    + rewrite (att_at_upd_other _ _ _ _ (not_eq_sym Pne)). change (att_at s1 p < max_replica_attempt). unfold max_replica_attempt. lia.
Qed.

Lemma sel_phase_spec c s :
  match sel_phase c s with
  | SSent s' t evs => room s' + 1 <= room s /\ n_attempts evs = 0 /\ n_rearms evs = 0
  | SDone _ _ evs => n_attempts evs = 0 /\ n_rearms evs = 0
  end.
Proof.
  destruct (sel_phase_cases c s) as [sd r evs E _|s' t p C|s0 sl s' t p C _ W].
  - eapply ended_quiet, E.
  - destruct C. now destruct p.
  - destruct C. rewrite (room_eq _ _ (w_atts _ _ _ _ _ W)). now destruct p.
Qed.
