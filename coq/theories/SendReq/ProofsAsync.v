(* SendReq/ProofsAsync.v — SendReqAsync is the same state machine as SendReq: the only difference the model knows of is that the
   first attempt (initForAsyncRequest) does not look at the kill flag.  Proved structurally: every step function is shown to
   depend on the configuration only through the fields it reads (none of them reads [c_async]). *)
From Coq Require Import List Bool Arith NArith Lia.
Import ListNotations.
From Verif Require Import SendReq.Model SendReq.ProofsBound SendReq.ProofsSelect SendReq.ProofsLoop.

Definition with_async (c : cfg) (b : bool) : cfg :=
  mkCfg (c_rt c) (c_stale c) (c_read c) (c_has_labels c) (c_leader_only c) (c_thr c) (c_short_to c) (c_max_sleep c) (c_val c)
        (c_reps c) (c_fw c) (c_store_tp c) (c_cancel c) (c_kill c) (c_interruptible c) (c_leader0 c) (c_proxy0 c) b.

(* two configurations that the step functions cannot tell apart *)
Record same_steps (fixed : bool) (c1 c2 : cfg) : Prop := {
  ss_handle : forall s t o i, handle fixed c1 s t o i = handle fixed c2 s t o i;
  ss_sel : forall s, sel_phase c1 s = sel_phase c2 s;
  ss_raise : forall i s, raise_att c1 i s = raise_att c2 i s;
  ss_int : c_interruptible c1 = c_interruptible c2 }.

Lemma sel_phase_agree c1 c2 s :
  c_fw c1 = c_fw c2 -> (forall x, unset_if c1 x = unset_if c2 x) -> (forall x, no_candidate c1 x = no_candidate c2 x) ->
  (forall x, next_leader c1 x = next_leader c2 x) -> (forall x, next_mixed c1 x = next_mixed c2 x) ->
  (forall k x, backoff c1 k x = backoff c2 k x) ->
  sel_phase c1 s = sel_phase c2 s.
Proof.
  intros Hfw Hun Hnc Hnl Hnm Hbo. unfold sel_phase. cbv zeta.
  destruct (if inv_retry s then Some (set_inv_retry false s) else if valid s then Some s else None) as [s0|]; [|apply Hnc].
  rewrite Hun, Hfw.
  destruct (if rt_eqb _ RTLeader && c_fw c2 then proxy_next _ else PxLeaderOnly) as [|p|].
  - rewrite Hnl, Hnm. destruct (if rt_eqb _ RTLeader then next_leader c2 _ else next_mixed c2 _) as [tg s2].
    destruct tg as [t|]; [|apply Hnc]. destruct (stale _); [apply Hnc|]. destruct (pending _); [rewrite Hbo|]; reflexivity.
  - destruct (stale _ || stale _); [apply Hnc|]. destruct (pending _); [rewrite Hbo|]; reflexivity.
  - apply Hnc.
Qed.

Lemma with_async_same_steps fixed c : same_steps fixed (with_async c true) (with_async c false).
Proof.
  constructor.
  - intros s t o i. destruct o; reflexivity.
  - intros s. apply sel_phase_agree; try reflexivity; intros; reflexivity.
  - intros i s. reflexivity.
  - reflexivity.
Qed.

(* they take the same turns, except possibly the first one, where only the kill check tells them apart *)
Lemma turn_same fixed c1 c2 (H : same_steps fixed c1 c2) s prev i :
  i <> 0 \/ c_interruptible c2 && killed s = false -> turn_of fixed c1 s prev i = turn_of fixed c2 s prev i.
Proof.
  destruct H as [Hh Hs _ Hi]. intros K. unfold turn_of, pre. rewrite Hi.
  assert (E : c_interruptible c2 && killed s && negb (c_async c1 && (i =? 0)) =
              c_interruptible c2 && killed s && negb (c_async c2 && (i =? 0))).
  { destruct K as [K| ->]; [|reflexivity]. apply Nat.eqb_neq in K. now rewrite K, !andb_false_r. }
  rewrite E. clear E. destruct (c_interruptible c2 && killed s && _); [reflexivity|]. destruct prev as [[t o]|]; rewrite ?Hh;
    [destruct (handle fixed c2 s t o (pred i)); [|reflexivity]|]; now rewrite Hs.
Qed.

Lemma loop_same fixed c1 c2 (H : same_steps fixed c1 c2) script : forall s prev i,
  i <> 0 \/ c_interruptible c2 && killed s = false ->
  loop_gen fixed c1 script s prev i = loop_gen fixed c2 script s prev i.
Proof.
  induction script as [|o rest IH]; intros s prev i K; rewrite !loop_unfold, (turn_same fixed c1 c2 H s prev i K);
    destruct (turn_of fixed c2 s prev i) as [|evs s2 t]; try reflexivity.
  destruct (more (o :: rest)) as [[o' rest']|] eqn:M; [|reflexivity]. apply more_some in M as [[= <- <-] _].
  unfold flown. now rewrite (ss_raise _ _ _ H), IH by now left.
Qed.

(* the async path = the sync path, unless an interruptible request was already killed when the call started
   (then the async path still sends its first attempt) *)
Lemma run_async_same fixed c script rands sleeps :
  c_kill c <> TPre \/ c_interruptible c = false ->
  run_gen fixed (with_async c true) script rands sleeps = run_gen fixed (with_async c false) script rands sleeps.
Proof.
  intros HK. unfold run_gen. change (validation_refuses (with_async c true)) with (validation_refuses (with_async c false)).
  destruct (validation_refuses (with_async c false)); [reflexivity|].
  apply (loop_same fixed _ _ (with_async_same_steps fixed c)). right.
  unfold init_state. cbn [killed c_kill c_interruptible with_async]. destruct HK as [HK| ->]; [|reflexivity].
  destruct (c_kill c); try contradiction; apply andb_false_r.
Qed.
