(* MemBuf/ProofsArtSeek.v — baseIter.seek positions a bounded iteration at the first key >= the bound:
   seek_rank = the number of keys of the tree that are smaller than the bound *)
From Verif Require Import Base.Lex MemBuf.KMap MemBuf.ProofsKMap MemBuf.Art MemBuf.ProofsArt MemBuf.ProofsArtIns
  MemBuf.ProofsArtIns2.
From Coq Require Import Arith.
Local Open Scope nat_scope.

Definition below (k : key) (l : list key) : nat := length (filter (fun k' => lex_ltb k' k) l).

Lemma below_app k a b : below k (a ++ b) = below k a + below k b.
Proof. unfold below. rewrite filter_app, app_length. reflexivity. Qed.

Lemma below_none k l : (forall k', In k' l -> lex_ltb k' k = false) -> below k l = 0.
Proof. intros H. unfold below. rewrite filter_none by exact H. reflexivity. Qed.

Lemma below_all k l : (forall k', In k' l -> lex_ltb k' k = true) -> below k l = length l.
Proof. intros H. unfold below. rewrite filter_all by exact H. reflexivity. Qed.

Lemma size_inorder_both :
  (forall t, size t = length (inorder t)) /\ (forall c, size_ch c = length (inorder_ch c)).
Proof.
  apply art_children_ind.
  - reflexivity.
  - intros plen pfx ipl ch IH. cbn [size inorder]. rewrite app_length, IH. destruct ipl; reflexivity.
  - reflexivity.
  - intros b t IHt r IHr. cbn [size_ch inorder_ch]. rewrite app_length, IHt, IHr. reflexivity.
Qed.

Lemma seek_rank_spec_both :
  (forall t path x, wf path t -> seek_rank (path ++ x) (length path) t = below (path ++ x) (inorder t)) /\
  (forall c q b x, wf_ch q c -> seek_rank_ch (q ++ b :: x) (length q) b c = below (q ++ b :: x) (inorder_ch c)).
Proof.
  apply art_children_ind.
  - intros k' path x (r & ->). cbn [seek_rank inorder]. unfold below. cbn [filter].
    rewrite valid_at, gt_is_ltb, ltb_app_same.
    destruct x as [|a x]; [rewrite ltb_nil_r; reflexivity|]. destruct (lex_ltb r (a :: x)); reflexivity.
  - intros plen pfx ipl ch IH path x (P & HP & Hpfx & Hi & Hc & Hcl). subst plen. cbn [seek_rank].
    assert (Hkeys : forall k, In k (inorder (Node (length P) pfx ipl ch)) -> exists y, k = path ++ P ++ y).
    { intros k. apply (node_keys_ext path P (length P) pfx ipl ch k Hi Hc). }
    destruct (match_deep_node path x P pfx ipl ch Hpfx Hi Hc Hcl)
      as [Hml [(-> & C & c & Pt & xr & -> & -> & -> & Hd)|(-> & x' & ->)]].
    + (* the bound leaves the node's path segment: everything below is on one side *)
      assert (Eb : prefix_byte (length path) (length C) pfx (Node (length (C ++ c :: Pt)) pfx ipl ch) = c).
      { unfold prefix_byte. destruct (Nat.ltb_spec (length C) max_in_node) as [H20|H20].
        - subst pfx. rewrite nth_firstn_lt by exact H20. apply nth_middle.
        - destruct (Hml ltac:(rewrite app_length; cbn [length]; lia)) as (y & ->).
          rewrite skipn_app_len, <- app_assoc. apply nth_middle. }
      rewrite Eb, app_length, byte_at_app. destruct xr as [|a xt].
      * (* the bound ends inside the segment: it is a proper prefix of every key below *)
        rewrite app_nil_r, (Nat.add_comm (length C)), Nat.eqb_refl. symmetry. apply below_none.
        intros k Hk. destruct (Hkeys k Hk) as (y & ->).
        rewrite ltb_app_same, <- app_assoc. apply lex_ltb_false, lex_le_app.
      * rewrite nth_middle.
        destruct (Nat.eqb_spec (length C + length path) (length path + length (C ++ a :: xt))) as [E|_];
          [rewrite app_length in E; cbn [length] in E; lia|]. cbn [orb].
        destruct (N.ltb_spec a c) as [Hb|Hb].
        -- symmetry. apply below_none. intros k Hk. destruct (Hkeys k Hk) as (y & ->).
           rewrite ltb_app_same, <- app_assoc, ltb_app_same. apply ltb_cons_gt. exact Hb.
        -- rewrite (proj1 size_inorder_both). symmetry. apply below_all. intros k Hk. destruct (Hkeys k Hk) as (y & ->).
           rewrite ltb_app_same, <- app_assoc, ltb_app_same. apply ltb_cons_lt. lia.
    + (* the whole segment matches *)
      rewrite app_assoc, <- app_length, valid_at. cbn [inorder]. rewrite below_app. destruct x' as [|b x''].
      * (* the bound is exactly the node's path: the in-place leaf (if any) is the position *)
        rewrite app_nil_r.
        rewrite (below_none (path ++ P) (inorder_ch ch)).
        -- destruct ipl as [k0|]; [|reflexivity]. subst k0. unfold below. cbn [filter]. rewrite ltb_irrefl. reflexivity.
        -- intros k Hk. destruct (proj2 wf_ext_both _ _ _ Hc Hk) as (b & r & ->). apply lex_ltb_false, lex_le_app.
      * unfold byte_at. rewrite nth_middle, (IH (path ++ P) b x'' Hc). f_equal.
        destruct ipl as [k0|]; [|reflexivity]. subst k0. unfold below. cbn [filter].
        rewrite <- (app_nil_r (path ++ P)) at 1. rewrite ltb_app_same. reflexivity.
  - intros q b x _. reflexivity.
  - intros b' t IHt r IHr q b x (Ht & Hr & Hl). cbn [seek_rank_ch inorder_ch]. rewrite below_app.
    destruct (N.ltb_spec b' b) as [Hlt|Hge].
    + (* the whole child lies to the left *)
      rewrite (IHr q b x Hr). f_equal. rewrite (proj1 size_inorder_both). symmetry. apply below_all.
      intros k' Hk. destruct (proj1 wf_ext_both _ _ _ Ht Hk) as (y & ->). rewrite <- app_assoc. cbn [app].
      rewrite ltb_app_same. apply ltb_cons_lt. exact Hlt.
    + assert (Hrest : below (q ++ b :: x) (inorder_ch r) = 0).
      { apply below_none. intros k' Hk. destruct (ch_keys_above _ _ _ _ Hr Hl Hk) as (b2 & y & -> & Hb2).
        rewrite ltb_app_same. apply ltb_cons_gt. lia. }
      rewrite Hrest, Nat.add_0_r. destruct (N.eqb_spec b' b) as [->|Hne].
      * rewrite snoc_app, <- (last_length q b). apply IHt. exact Ht.
      * symmetry. apply below_none. intros k' Hk. destruct (proj1 wf_ext_both _ _ _ Ht Hk) as (y & ->).
        rewrite <- app_assoc. cbn [app]. rewrite ltb_app_same. apply ltb_cons_gt. lia.
Qed.

Lemma not_below_tail k x l : Forall (lex_lt x) l -> lex_ltb x k = false -> forall y, In y l -> lex_ltb y k = false.
Proof.
  intros F E y Hy. rewrite Forall_forall in F. destruct (lex_ltb y k) eqn:Ey; [|reflexivity].
  apply lex_ltb_lt in Ey. apply lex_ltb_false in E. destruct (lex_lt_asym _ _ (F y Hy) (lex_lt_le_trans _ _ _ Ey E)).
Qed.

Lemma sorted_rank k l : lsorted l -> nth_error l (below k l) = find (fun k' => lex_leb k k') l.
Proof.
  induction l as [|x l IH]; intros S; [reflexivity|]. destruct S as [F S]. unfold below in *. cbn [filter find].
  rewrite ltb_not_leb. destruct (lex_leb k x) eqn:E; cbn [negb].
  - rewrite (filter_none _ l); [reflexivity|]. apply (not_below_tail k x l F). rewrite ltb_not_leb, E. reflexivity.
  - cbn [length nth_error]. apply IH. exact S.
Qed.

Theorem seek_first_spec o lo : wf_root o -> seek_first lo o = find (fun k => lex_leb lo k) (keys_of_tree o).
Proof.
  destruct o as [t|]; intros W; [|reflexivity]. cbn [seek_first keys_of_tree].
  change 0 with (@length N []). change lo with ([] ++ lo) at 1. rewrite (proj1 seek_rank_spec_both t [] lo W).
  cbn [app]. apply sorted_rank. exact (proj1 inorder_sorted_both t [] W).
Qed.
