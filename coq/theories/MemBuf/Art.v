(* MemBuf/Art.v — L2, the shape of the adaptive radix tree (internal/unionstore/art/art.go:
   search, recursiveInsert, expandLeafIfNeeded, expandNode; art_node.go: nodeBase, match/matchDeep,
   findChild/addChild, minimumLeafNode).  A tree is a leaf holding its full key, or an inner node with
   the length of its compressed path (prefixLen), the stored part of that path (at most 20 bytes,
   maxInNodePrefixLen), an optional in-place leaf (a key that ends exactly at this node) and its children
   sorted by their key byte.  The node kind (node4/16/48/256) is a function of the number of children:
   nodes only grow (nothing is ever removed from this tree, a deleted key keeps its leaf).
   Values are not part of the shape: a leaf is identified by its key (L1's key table holds the rest). *)
From Verif Require Import Base.Lex MemBuf.KMap.
From Coq Require Import Arith.
Local Open Scope nat_scope.

Definition max_in_node : nat := 20.

Inductive art :=
| Leaf (k : key)
| Node (plen : nat) (pfx : list N) (ipl : option key) (ch : children)
with children :=
| CNil
| CCons (b : N) (t : art) (r : children).

Definition empty_root : art := Node 0 [] None CNil.

(* longestCommonPrefix *)
Fixpoint lcp (a b : list N) : nat :=
  match a, b with
  | x :: a', y :: b' => if N.eqb x y then S (lcp a' b') else 0
  | _, _ => 0
  end.

(* minimumLeafNode: the in-place leaf, else the minimum of the first child *)
Fixpoint min_leaf (t : art) : key :=
  match t with
  | Leaf k => k
  | Node _ _ (Some k) _ => k
  | Node _ _ None ch => min_leaf_ch ch
  end
with min_leaf_ch (c : children) : key :=
  match c with
  | CNil => []
  | CCons _ t _ => min_leaf t
  end.

Definition byte_at (k : key) (d : nat) : N := nth d k 0%N.   (* artKey.charAt *)
Definition valid (k : key) (d : nat) : bool := Nat.ltb d (length k).

(* ART.search; the result is the key of the leaf reached (always k itself) *)
Fixpoint search (k : key) (d : nat) (t : art) : option key :=
  match t with
  | Leaf k' => if bytes_eqb k k' then Some k' else None
  | Node plen pfx ipl ch =>
      if Nat.ltb (lcp (skipn d k) pfx) (Nat.min plen max_in_node) then None
      else
        let d' := d + plen in
        if valid k d' then search_ch k d' (byte_at k d') ch
        else match ipl with
             | Some lk => if bytes_eqb k lk then Some lk else None
             | None => None
             end
  end
with search_ch (k : key) (d' : nat) (b : N) (c : children) : option key :=
  match c with
  | CNil => None
  | CCons b' t r => if N.eqb b b' then search k (S d') t else search_ch k d' b r
  end.

(* nodeBase.matchDeep *)
Definition match_deep (k : key) (d : nat) (plen : nat) (pfx : list N) (t : art) : nat :=
  let m := lcp (skipn d k) pfx in
  if Nat.ltb m max_in_node || Nat.leb plen max_in_node then m
  else lcp (skipn (d + max_in_node) (min_leaf t)) (skipn (d + max_in_node) k) + max_in_node.

(* addChild: the children stay sorted by their byte *)
Definition add_sorted (b : N) (t : art) (c : children) : children :=
  (fix go (c : children) : children :=
     match c with
     | CNil => CCons b t CNil
     | CCons b' t' r => if N.ltb b b' then CCons b t c else CCons b' t' (go r)
     end) c.

(* expandLeafIfNeeded: a fresh node4 over two subtrees that diverge at depth d2 (each either a child at its byte or,
   when its key ends at d2, the in-place leaf) *)
Definition expand_leaf (k1 k : key) (d : nat) : art :=
  let l := lcp (skipn d k1) (skipn d k) in
  let d2 := d + l in
  let pfx := firstn (Nat.min l max_in_node) (skipn d k) in
  let ipl := if valid k1 d2 then (if valid k d2 then None else Some k) else Some k1 in
  let c1 := if valid k1 d2 then add_sorted (byte_at k1 d2) (Leaf k1) CNil else CNil in
  let c2 := if valid k d2 then add_sorted (byte_at k d2) (Leaf k) c1 else c1 in
  Node l pfx ipl c2.

(* expandNode: the node's path is split at mismatch index mi *)
Definition expand_node (k : key) (d mi : nat) (plen : nat) (pfx : list N) (ipl : option key) (ch : children) : art :=
  let whole := if Nat.leb plen max_in_node then pfx else firstn plen (skipn d (min_leaf (Node plen pfx ipl ch))) in
  let c := nth mi whole 0%N in
  let old' := Node (plen - mi - 1) (firstn (Nat.min (plen - mi - 1) max_in_node) (skipn (S mi) whole)) ipl ch in
  let npfx := firstn (Nat.min mi max_in_node) (skipn d k) in
  let base := add_sorted c old' CNil in
  if valid k (d + mi) then Node mi npfx None (add_sorted (byte_at k (d + mi)) (Leaf k) base)
  else Node mi npfx (Some k) base.

(* recursiveInsert *)
Fixpoint insert (k : key) (d : nat) (t : art) : art :=
  match t with
  | Leaf k1 => if bytes_eqb k1 k then t else expand_leaf k1 k d
  | Node plen pfx ipl ch =>
      let mi := match_deep k d plen pfx t in
      if Nat.ltb mi plen then expand_node k d mi plen pfx ipl ch
      else
        let d' := d + plen in
        if valid k d' then Node plen pfx ipl (insert_ch k d' (byte_at k d') ch)
        else match ipl with
             | Some _ => t
             | None => Node plen pfx (Some k) ch
             end
  end
with insert_ch (k : key) (d' : nat) (b : N) (c : children) : children :=
  match c with
  | CNil => CCons b (Leaf k) CNil
  | CCons b' t r =>
      if N.eqb b b' then CCons b' (insert k (S d') t) r
      else if N.ltb b b' then CCons b (Leaf k) c
      else CCons b' t (insert_ch k d' b r)
  end.

Definition insert_root (k : key) (o : option art) : option art :=
  Some (insert k 0 (match o with Some t => t | None => empty_root end)).

Definition lookup (k : key) (o : option art) : bool :=
  match o with Some t => match search k 0 t with Some _ => true | None => false end | None => false end.

(* in-order traversal: the in-place leaf first, then the children by ascending byte *)
Fixpoint inorder (t : art) : list key :=
  match t with
  | Leaf k => [k]
  | Node _ _ ipl ch => (match ipl with Some k => [k] | None => [] end) ++ inorder_ch ch
  end
with inorder_ch (c : children) : list key :=
  match c with
  | CNil => []
  | CCons _ t r => inorder t ++ inorder_ch r
  end.
Definition keys_of_tree (o : option art) : list key := match o with Some t => inorder t | None => [] end.

Fixpoint nchildren (c : children) : nat := match c with CNil => 0 | CCons _ _ r => S (nchildren r) end.
(* node4 / node16 / node48 / node256: nodes only grow, so the kind is determined by the fan-out *)
Definition kind_of (n : nat) : nat := if Nat.leb n 4 then 4 else if Nat.leb n 16 then 16 else if Nat.leb n 48 then 48 else 256.

(* lower-bound seek: the first key (in order) that is >= lo, found by descending the structure *)
Fixpoint seek_ge (lo : key) (t : art) : option key :=
  match t with
  | Leaf k => if lex_leb lo k then Some k else None
  | Node _ _ ipl ch =>
      match ipl with
      | Some k => if lex_leb lo k then Some k else seek_ge_ch lo ch
      | None => seek_ge_ch lo ch
      end
  end
with seek_ge_ch (lo : key) (c : children) : option key :=
  match c with
  | CNil => None
  | CCons _ t r => match seek_ge lo t with Some k => Some k | None => seek_ge_ch lo r end
  end.

(* ---------- baseIter.seek (art_iterator.go): where a bounded iteration starts ----------
   The real seek builds a stack of (node, index) pairs; what it decides is how many leaves lie to the left of the
   position.  seek_rank follows the same branches: matchDeep against the node's path segment; on a mismatch inside the
   segment either everything below the node is to the right (the bound ends there, or its next byte is smaller) or
   everything is to the left; otherwise skip the segment, step over the in-place leaf and the children with a
   smaller byte (seekToIdx), descend into the child with the same byte; at a leaf compare the whole keys. *)
Fixpoint size (t : art) : nat :=
  match t with
  | Leaf _ => 1
  | Node _ _ ipl ch => (match ipl with Some _ => 1 | None => 0 end) + size_ch ch
  end
with size_ch (c : children) : nat :=
  match c with CNil => 0 | CCons _ t r => size t + size_ch r end.

(* the byte of the node's path segment at the mismatch index: from the stored prefix or from the minimum leaf *)
Definition prefix_byte (d mi : nat) (pfx : list N) (t : art) : N :=
  if Nat.ltb mi max_in_node then nth mi pfx 0%N else nth mi (skipn d (min_leaf t)) 0%N.

Fixpoint seek_rank (k : key) (d : nat) (t : art) : nat :=
  match t with
  | Leaf k' => if valid k d && match lex_cmp k k' with Gt => true | _ => false end then 1 else 0
  | Node plen pfx ipl ch =>
      let mi := match_deep k d plen pfx t in
      if Nat.ltb mi plen then
        if Nat.eqb (mi + d) (length k) || N.ltb (byte_at k (d + mi)) (prefix_byte d mi pfx t) then 0 else size t
      else
        let d' := d + plen in
        if valid k d' then (match ipl with Some _ => 1 | None => 0 end) + seek_rank_ch k d' (byte_at k d') ch
        else 0
  end
with seek_rank_ch (k : key) (d' : nat) (b : N) (c : children) : nat :=
  match c with
  | CNil => 0
  | CCons b' t r =>
      if N.ltb b' b then size t + seek_rank_ch k d' b r
      else if N.eqb b' b then seek_rank k (S d') t
      else 0
  end.

(* the leaf a forward iteration from lower bound lo starts at *)
Definition seek_first (lo : key) (o : option art) : option key :=
  match o with Some t => nth_error (inorder t) (seek_rank lo 0 t) | None => None end.

(* Iterator.init: a bounded iteration walks the leaves from the seek position of the lower bound (or the first leaf)
   up to, not including, the seek position of the upper bound (or the end); nothing when the positions coincide or
   cross.  IterReverse walks the same leaves backwards. *)
Definition art_range (t : art) (lo hi : key) : list key :=
  let rl := match lo with [] => 0 | _ => seek_rank lo 0 t end in
  let rh := match hi with [] => size t | _ => seek_rank hi 0 t end in
  firstn (rh - rl) (skipn rl (inorder t)).
Definition range_leaves (o : option art) (rv : bool) (lo hi : key) : list key :=
  match o with
  | Some t => if rv then rev (art_range t lo hi) else art_range t lo hi
  | None => []
  end.
