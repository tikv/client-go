(* MemBuf/Props.v — theorems of property C08 (ART ≡ RBT ≡ reference model).
   L0 = Staged.v (reference: stack of staging levels over an ordered map),
   L1 = VLog.v (key table + append-only value log with old links: the mechanism shared by ART and RBT). *)
From Verif Require Import MemBuf.Model MemBuf.Art MemBuf.ProofsArt MemBuf.ProofsArtIns MemBuf.ProofsArtIns2
  MemBuf.ProofsArtMap MemBuf.ProofsArtL1 MemBuf.ProofsArtSeek MemBuf.ProofsArtRange MemBuf.Batched MemBuf.ProofsBatched MemBuf.ProofsBatchedL0 MemBuf.ProofsSeq MemBuf.BatchedUse MemBuf.FlagPreds MemBuf.ProofsFlagDom MemBuf.ProofsKMap MemBuf.ProofsLog MemBuf.ProofsSim MemBuf.ProofsObs
  MemBuf.ProofsSet MemBuf.ProofsRevert MemBuf.ProofsStep MemBuf.ProofsProps MemBuf.ProofsRevertCp MemBuf.ProofsTop.

(* 1. Refinement.  Over ALL operation sequences — mutators and observers, valid and invalid handles /
   tokens, reverts to ANY live checkpoint (taken inside or outside staging levels, older than a released
   level, revert / overwrite / revert again) — every result of L1 equals the result of L0: values,
   tombstones, flags, Len/Size/Dirty, iteration, snapshot reads, InspectStage, SelectValueHistory, handles
   returned by Staging, tokens returned by Checkpoint, errors; and the final states are related by the
   abstraction Sim (journals = the log cut at the stage positions, kf = the non-deleted table entries,
   Len/Size counters = the computed ones, lastCheckpoint = the reference's latest checkpoint point,
   saved copies = the log prefixes below the token positions).
   No hypothesis on the sequence: L1 is the code with fix 6b4091a (a value written before the latest checkpoint
   is never overwritten in place); without that rule F03/F03b is a counterexample. *)
Theorem C08_L1_refines_L0 :
  forall ops : list op,
    run1 init1 ops = run0 init0 ops /\ Sim (exec1 init1 ops) (exec0 init0 ops).
Proof. exact (fun ops => run_refines ops init1 init0 sim_init). Qed.
Print Assumptions C08_L1_refines_L0.

(* one step, from any related pair of states *)
Theorem C08_step_commutes :
  forall s1 s0 o, Sim s1 s0 ->
    Sim (fst (step1 s1 o)) (fst (step0 s0 o)) /\ snd (step1 s1 o) = snd (step0 s0 o).
Proof. exact step_sim. Qed.
Print Assumptions C08_step_commutes.

(* 2. RevertToCheckpoint, stated about the revert itself (on L1, the model of the code; a corollary of the refinement
   and of the reference model's undo): after ANY operation sequence take a checkpoint, do any writes (values,
   tombstones, flags, same-length overwrites of older values included) and reads, revert to that checkpoint: every
   Get, snapshot Get, SelectValueHistory and bounded iteration in both directions answers what it answered when
   the checkpoint was taken.  (Flags are deliberately not restored — undo0 — so GetFlags/Len/Size are not claimed;
   reverts across staging operations are covered by C08_L1_refines_L0, not by this corollary.)
   Before fix 6b4091a the code refuted this (F03/F03b). *)
Theorem C08_revert_checkpoint :
  forall pre writes, forallb plain_op writes = true ->
    let s := exec1 init1 pre in
    let i := length (reg1 s) in
    let s' := exec1 init1 (pre ++ OCheckpoint :: writes ++ [ORevert i]) in
    (forall k, obs1 (OGet k) s' = obs1 (OGet k) s) /\
    (forall k, obs1 (OSnapGet k) s' = obs1 (OSnapGet k) s) /\
    (forall k p, obs1 (OHist k p) s' = obs1 (OHist k p) s) /\
    (forall rv lo hi, obs1 (OIter rv lo hi) s' = obs1 (OIter rv lo hi) s).
Proof. exact revert_checkpoint_restores. Qed.
Print Assumptions C08_revert_checkpoint.

Example revert_checkpoint_nonvacuous :
  forallb plain_op [OSet [120] [98; 98] []; OSet [121] [1] [SetKeyLocked]; OFlags [122] [SetPresumeKeyNotExists]; OGet [120]] = true.
Proof. reflexivity. Qed.

(* the F03b witness: the revert undoes the same-length overwrite, also inside a stage *)
Example f03b_fixed : run1 init1 f03b_witness = [RUnit; RNat 0; RUnit; RUnit; RVal (Some [97; 97])].
Proof. vm_compute. reflexivity. Qed.
Example f03b_fixed_in_stage :
  run1 init1 (OStaging :: f03b_witness) = [RNat 1; RUnit; RNat 0; RUnit; RUnit; RVal (Some [97; 97])].
Proof. vm_compute. reflexivity. Qed.
(* the protection is exactly lastCheckpoint: without a checkpoint the overwrite is still done in place *)
Example inplace_without_checkpoint :
  run1 init1 [OSet [120] [97; 97] []; OSet [120] [98; 98] []; OHist [120] PAny; OHist [120] (PLenLe 0)] =
    [RUnit; RUnit; RVal (Some [98; 98]); RNil].
Proof. vm_compute. reflexivity. Qed.

(* 3. Snapshot reads ignore staged data: while at least one stage stays open no operation changes the
   base level, hence no snapshot Get; the snapshot iteration returns exactly the base level's pairs. *)
Theorem C08_snapshot_ignores_staged :
  forall s o, (0 < depth0 s)%nat -> (0 < depth0 (fst (step0 s o)))%nat ->
    base0 (fst (step0 s o)) = base0 s /\
    (forall k, obs0 (OSnapGet k) (fst (step0 s o)) = obs0 (OSnapGet k) s).
Proof.
  exact (fun s o H H' => let E := step0_base 0 s o H H' in conj E (fun k => f_equal (fun b => RVal (kfind k b)) E)).
Qed.
Print Assumptions C08_snapshot_ignores_staged.

Theorem C08_snapshot_iter_is_base :
  forall ops lo hi k v,
    let s0 := exec0 init0 ops in
    In (k, v) (iter_list (base0 s0) lo hi (kf0 s0)) <-> (kfind k (base0 s0) = Some v /\ in_bounds lo hi k = true).
Proof. exact (fun ops lo hi k v => iter_list_in _ _ _ lo hi k v (sim_reachable ops) (covered_base _)). Qed.
Print Assumptions C08_snapshot_iter_is_base.

(* 4. Bounded iteration, both directions, over ALL sequences: the forward result
   is strictly ascending, inside [lo,hi) (empty bound = unbounded), and contains exactly the table's
   keys that have a value; the reverse result is its mirror image.
   The first conjunct — reverse = mirror image of forward — is DEFINITIONAL in L0, L1 and L2; that the code's
   reverse iterators return the mirror image is established by the differential: iter 1 / siter 1 / iterf 1 against the
   models, ART vs RBT, and rangel 1 on the raw leaves. *)
Theorem C08_iter_bounds :
  forall ops rev lo hi,
    let s := exec1 init1 ops in
    let fwd := iter1 (cur_val s) lo hi (keys1 s) in
    obs1 (OIter rev lo hi) s = RKVs (if rev then List.rev fwd else fwd) /\
    ksorted fwd /\
    (forall k v, In (k, v) fwd <->
       exists ent, In (k, ent) (keys1 s) /\ cur_val s ent = Some v /\ in_bounds lo hi k = true).
Proof.
  exact (fun ops rev lo hi => let valof (_ : key) := cur_val (exec1 init1 ops) in
    conj eq_refl (conj (iter_gen_sorted valof lo hi _ (reachable_sorted ops)) (iter_gen_in valof lo hi _))).
Qed.
Print Assumptions C08_iter_bounds.

(* what "inside the bounds" means — DEFINITIONAL: it only unfolds in_bounds into the two comparisons; kept as a
   readable specification of the bounds, not as a claim about the code *)
Theorem C08_in_bounds_spec : forall lo hi k,
  in_bounds lo hi k = true <-> (lo = [] \/ lex_cmp lo k <> Gt) /\ (hi = [] \/ lex_cmp k hi = Lt).
Proof. exact in_bounds_spec. Qed.
Print Assumptions C08_in_bounds_spec.

(* 5. Limits: rejected exactly at the limit; a key or an entry that is too large changes nothing (not even
   the write sequence number); a write that makes the buffer too large IS applied and answered with
   ErrTxnTooLarge. *)
Theorem C08_limits :
  forall s k v fops,
    ((max_key_len < blen k)%N -> set1 k v fops s = (s, RErr EKeyTooLarge) /\ updflags1 k fops s = (s, RUnit)) /\
    ((blen k <= max_key_len)%N -> (elimit1 s < blen k + blen v)%N -> set1 k v fops s = (s, RErr EEntryTooLarge)) /\
    ((blen k <= max_key_len)%N -> (blen k + blen v <= elimit1 s)%N ->
       let s2 := setvalue1 k v (touch1 k (apply_flag_ops (flags_of1 k s) (DelNeedConstraintCheckInPrewrite :: fops)) s) in
       set1 k v fops s = (s2, if (blimit1 s <? size1 s2)%N then RErr ETxnTooLarge else RUnit) /\
       wseq1 s2 = (wseq1 s + 1)%N).
Proof. exact set1_limits. Qed.
Print Assumptions C08_limits.

(* 6. Stack discipline (on the reference model; carried to L1 by C08_L1_refines_L0).
   Cleanup: whatever happens inside a staging level — including nested levels, checkpoints and reverts —
   as long as the level stays open, cleaning it up gives back the journals (hence every value, snapshot
   value and value history) of the moment Staging was called.  Flags are deliberately not restored (undo0). *)
Theorem C08_cleanup_restores :
  forall s ops,
    let s1 := fst (staging0 s) in
    stays_above (depth0 s) s1 ops = true ->
    depth0 (exec0 s1 ops) = S (depth0 s) ->
    let s3 := fst (cleanup0 (S (depth0 s)) (exec0 s1 ops)) in
    stages0 s3 = stages0 s /\ base0 s3 = base0 s /\ all0 s3 = all0 s /\
    (forall k p, obs0 (OGet k) s3 = obs0 (OGet k) s /\ obs0 (OSnapGet k) s3 = obs0 (OSnapGet k) s /\
                 (kfind k (all0 s) <> None -> obs0 (OHist k p) s3 = obs0 (OHist k p) s)).
Proof. exact cleanup_restores. Qed.
Print Assumptions C08_cleanup_restores.

(* Release: merging the top level into the one below changes no value, flag, count, size, iteration or history *)
Theorem C08_release_keeps :
  forall s h o,
    match o with
    | OGet _ | OGetFlags _ | OLen | OSize | OIter _ _ _ | OIterFlags _ _ _ | OHist _ _ =>
        obs0 o (fst (release0 h s)) = obs0 o s
    | _ => True
    end.
Proof. exact (fun s h o => obs0_values_ext o s _ (proj1 (release0_keeps h s)) (proj2 (release0_keeps h s))). Qed.
Print Assumptions C08_release_keeps.

(* 7. L2, the shape of the radix tree (Art.v; compared node by node with the real tree on every run).
   wf = every leaf below a node extends the node's path (path compression with at most 20 stored bytes, in-place
   leaf = the key that ends at the node, children sorted by byte).  For EVERY well-formed tree — any key set,
   any fan-out, prefixes longer than the stored 20 bytes, keys that are prefixes of others, the empty key: *)
(* search never returns a wrong leaf (no hypothesis at all) *)
Theorem C08_L2_search_sound :
  forall t k d k', search k d t = Some k' -> k' = k /\ In k (inorder t).
Proof. exact (proj1 search_sound_both). Qed.
Print Assumptions C08_L2_search_sound.

(* search finds every key stored in a well-formed tree: lookup = membership in the in-order traversal *)
Theorem C08_L2_lookup_is_membership :
  forall o k, wf_root o -> (lookup k o = true <-> In k (keys_of_tree o)).
Proof. exact lookup_membership. Qed.
Print Assumptions C08_L2_lookup_is_membership.

(* the in-order traversal (in-place leaf first, then the children by byte) is strictly ascending in bytes.Compare
   order: it IS the sorted key table that L1 uses *)
Theorem C08_L2_inorder_sorted :
  forall o, wf_root o -> lsorted (keys_of_tree o).
Proof. exact keys_of_tree_sorted. Qed.
Print Assumptions C08_L2_inorder_sorted.

(* the lower-bound seek returns the first key of the in-order traversal that is >= the bound (with
   C08_L2_inorder_sorted: the smallest such key) *)
Theorem C08_L2_seek_lower_bound :
  forall lo t, seek_ge lo t = find (fun k => lex_leb lo k) (inorder t).
Proof. exact (fun lo => proj1 (seek_ge_spec_both lo)). Qed.
Print Assumptions C08_L2_seek_lower_bound.

(* baseIter.seek (the descent that positions every bounded iterator: matchDeep against the path segment, "all
   children larger / all smaller" on a mismatch inside the segment, step over the in-place leaf and the smaller
   children, descend into the equal child, whole-key compare at a leaf): the number of leaves it leaves on the left is
   the number of keys smaller than the bound, hence the walk starts at the first key >= the bound — for every
   well-formed tree and every bound, incl. bounds that are prefixes of keys, diverge inside a long prefix, or are
   longer than every key *)
Theorem C08_L2_seek_rank_counts_smaller_keys :
  forall t lo, wf [] t -> seek_rank lo 0 t = length (filter (fun k => lex_ltb k lo) (inorder t)).
Proof. exact (fun t lo W => proj1 seek_rank_spec_both t [] lo W). Qed.
Print Assumptions C08_L2_seek_rank_counts_smaller_keys.

Theorem C08_L2_seek_starts_at_lower_bound :
  forall o lo, wf_root o -> seek_first lo o = find (fun k => lex_leb lo k) (keys_of_tree o).
Proof. exact seek_first_spec. Qed.
Print Assumptions C08_L2_seek_starts_at_lower_bound.

(* Iterator.init: the leaves a bounded iteration walks — from the seek position of the lower bound up to the seek
   position of the upper bound — are exactly the keys inside [lo, hi) (empty bound = unbounded; nothing when the
   positions coincide or cross, e.g. no key >= lo); together with C08_L2_indexes_L1: exactly the in-bounds part of
   the key column L1 iterates *)
Theorem C08_L2_bounded_walk_is_the_bounds :
  forall t lo hi, wf [] t -> art_range t lo hi = filter (in_bounds lo hi) (inorder t).
Proof. exact art_range_spec. Qed.
Print Assumptions C08_L2_bounded_walk_is_the_bounds.

Example bounded_walk_no_key_above_lower :
  range_leaves (build [[1%N]; [2%N]; [3%N]]) true [9%N] [] = [] /\
  range_leaves (build [[1%N]; [2%N]; [3%N]]) true [2%N] [] = [[3%N]; [2%N]] /\
  range_leaves (build [[1%N]; [2%N]; [3%N]]) false [] [3%N] = [[1%N]; [2%N]].
Proof. vm_compute. repeat split. Qed.

(* insert = recursiveInsert with expandLeafIfNeeded (leaf -> node4 over the common prefix, the exhausted key as
   in-place leaf), expandNode (prefix split, the old node re-prefixed from its stored bytes or its minimum leaf),
   matchDeep through the minimum leaf for prefixes longer than 20 bytes, sorted child insertion: it keeps the tree
   well-formed and the abstraction (in-order traversal) gets exactly the new key — for ALL trees and keys *)
Theorem C08_L2_insert_preserves_wf :
  forall o k, wf_root o ->
    wf_root (insert_root k o) /\
    forall k', In k' (keys_of_tree (insert_root k o)) <-> k' = k \/ In k' (keys_of_tree o).
Proof. exact insert_root_ok. Qed.
Print Assumptions C08_L2_insert_preserves_wf.

(* the tree built by ANY sequence of inserts is an ordered map: well-formed, in-order traversal = the key column
   of the sorted association list built by kupsert from the same bindings (the index of L1), lookup = membership *)
Theorem C08_L2_is_map :
  forall (A : Type) (vs : list (key * A)),
    let t := build (map fst vs) in
    wf_root t /\
    keys_of_tree t = map fst (fold_left (fun m kv => kupsert (fst kv) (snd kv) m) vs []) /\
    forall k, lookup k t = true <-> In k (map fst vs).
Proof.
  exact (fun A vs => let (W, M) := build_ok (map fst vs) in
    conj W (conj (tree_is_table vs) (fun k => iff_trans (lookup_membership _ k W) (M k)))).
Qed.
Print Assumptions C08_L2_is_map.

(* L2 indexes L1: after ANY operation sequence the key column of L1's table (which L1 searches and iterates) is
   the in-order traversal of the radix tree built from the keys that Set / UpdateFlags passed to
   traverse(insert) — the keys rejected by the size checks never reach the tree, undone keys keep their leaf *)
Theorem C08_L2_indexes_L1 :
  forall ops, map fst (keys1 (exec1 init1 ops)) = keys_of_tree (build (inserted init1 ops)).
Proof. exact tree_indexes_table. Qed.
Print Assumptions C08_L2_indexes_L1.

Example l2_wf_nonvacuous : wf_root l2_ex_tree.
Proof. exact (proj1 (build_ok [[1%N; 2%N]; [1%N]; [1%N; 3%N]])). Qed.
Example l2_long_prefix : keys_of_tree (build [long_p ++ [1%N]; long_p ++ [0%N]; firstn 21 long_p]) =
                         [firstn 21 long_p; long_p ++ [0%N]; long_p ++ [1%N]].
Proof. vm_compute. reflexivity. Qed.

(* 8. The batched snapshot iterator (GetSnapshot().BatchedSnapshotIter: a fresh plain iterator per batch of 32, 64,
   ... 4096 entries, resumed from lastKey ++ [0x00] forward and from the exclusive upper bound lastKey in reverse,
   ending at the empty key) returns exactly the plain snapshot iteration, for EVERY sorted snapshot, every pair of
   bounds (empty = unbounded) and both directions. *)
Theorem C08_batched_iter_equals_plain :
  forall snap rv lo hi, ksorted snap -> batched (S (length snap)) snap rv lo hi = plain snap rv lo hi.
Proof. exact batched_ok. Qed.
Print Assumptions C08_batched_iter_equals_plain.

(* ... in particular over the snapshot of the reference model after ANY operation sequence: the batched iterator
   yields what OSnapIter yields *)
Theorem C08_batched_snapshot_iter :
  forall ops rv lo hi,
    let s0 := exec0 init0 ops in
    RKVs (batched (S (length (snapshot0 s0))) (snapshot0 s0) rv lo hi) = obs0 (OSnapIter rv lo hi) s0.
Proof. exact (fun ops rv lo hi => f_equal RKVs (batched_snapshot_ok _ _ rv lo hi (sim_reachable ops))). Qed.
Print Assumptions C08_batched_snapshot_iter.

(* why lastKey ++ [0x00]: it is the immediate successor of lastKey in bytes.Compare order *)
Theorem C08_resume_key_is_successor : forall a k, lex_leb (a ++ [0%N]) k = lex_ltb a k.
Proof. exact succ_key. Qed.
Print Assumptions C08_resume_key_is_successor.

(* batches really happen: 40 keys (more than the first batch of 32) incl. the empty key and a key that is a prefix
   of its successor *)
Example batch_snap_sorted : ksorted batch_snap.
Proof. apply ascending_sorted. reflexivity. Qed.
Example batched_two_batches_fwd : fwd 41 batch_snap [] [] 32 = batch_snap /\ length batch_snap = 40%nat.
Proof. vm_compute. split; reflexivity. Qed.
Example batched_reverse_ends_at_empty_key : bwd 41 batch_snap [] [] 32 = rev batch_snap.
Proof. vm_compute. reflexivity. Qed.

(* 9. The sequence numbers guard the iterators ("an iterator used after a write fails loudly" — and otherwise it is
   still right).  ART panics in an iterator whose WriteSeqNo is stale and invalidates a snapshot whose
   SnapshotSeqNo is stale; these two theorems are the other half: if the number did NOT move, nothing an iterator /
   a snapshot can return has changed. *)
(* any state, any operation: WriteSeqNo unchanged => log and key table unchanged => Get/GetFlags/Iter/IterWithFlags/
   SelectValueHistory unchanged *)
Theorem C08_write_seq_guards_iterators :
  forall s o o', wseq1 (fst (step1 s o)) = wseq1 s ->
    match o' with
    | OGet _ | OGetFlags _ | OIter _ _ _ | OIterFlags _ _ _ | OHist _ _ => obs1 o' (fst (step1 s o)) = obs1 o' s
    | _ => True
    end.
Proof. exact (fun s o o' H => obs1_ext s _ o' (proj1 (step1_wseq_same s o H)) (proj2 (step1_wseq_same s o H))). Qed.
Print Assumptions C08_write_seq_guards_iterators.

(* every reachable state, any operation (staged writes, nested stages, checkpoints, reverts inside a stage ...):
   SnapshotSeqNo unchanged => every snapshot Get and every bounded snapshot iteration unchanged *)
Theorem C08_snapshot_seq_guards_snapshots :
  forall ops o,
    let s := exec1 init1 ops in
    sseq1 (fst (step1 s o)) = sseq1 s ->
    (forall rv lo hi, obs1 (OSnapIter rv lo hi) (fst (step1 s o)) = obs1 (OSnapIter rv lo hi) s) /\
    (forall k, obs1 (OSnapGet k) (fst (step1 s o)) = obs1 (OSnapGet k) s).
Proof. exact (fun ops o H => snapshot_obs_same _ _ o (sim_reachable ops) H). Qed.
Print Assumptions C08_snapshot_seq_guards_snapshots.

(* hence a batched snapshot iterator opened before such an operation is the iterator one would open after it:
   reads and (staged) writes may interleave *)
Theorem C08_batched_iterator_survives_writes :
  forall ops o rv lo hi,
    let s := exec1 init1 ops in
    sseq1 (fst (step1 s o)) = sseq1 s ->
    bopen1 (fst (step1 s o)) rv lo hi = bopen1 s rv lo hi.
Proof.
  exact (fun ops o rv lo hi H =>
    bopen1_ext _ _ rv lo hi H (proj1 (snapshot_obs_same _ _ o (sim_reachable ops) H) rv lo hi)).
Qed.
Print Assumptions C08_batched_iterator_survives_writes.

(* both hypotheses are satisfiable by state-changing operations, and both numbers do move on real writes *)
Example seq_nonvacuous :
  let s := exec1 init1 [OSet [1%N] [5%N] []; OStaging] in
  sseq1 (fst (step1 s (OSet [1%N] [6%N; 6%N] []))) = sseq1 s /\
  wseq1 (fst (step1 s (OSet [1%N] [6%N; 6%N] []))) <> wseq1 s /\
  wseq1 (fst (step1 s OCheckpoint)) = wseq1 s /\
  sseq1 (fst (step1 s (ORelease 1%nat))) <> sseq1 s.
Proof. vm_compute. repeat split; discriminate. Qed.

(* 10. Key flags: the readers KeyFlags.HasXxx (what 2PC, the lock path and the assertions consume) against the
   writers FlagsOp.  The domain is the 14-bit words; it is closed, and every word the buffer ever stores is in it
   (so the word can share a uint16 with ART's bit 15 and RBT's bits 14/15). *)
Theorem C08_flags_domain_closed :
  forall f o, (f < flag_limit)%N -> (apply_flag_op f o < flag_limit)%N /\ (and_persistent f < flag_limit)%N.
Proof. exact (fun f o H => conj (apply_op_closed f o H) (and_persistent_closed f H)). Qed.
Print Assumptions C08_flags_domain_closed.

Theorem C08_flags_stored_in_domain :
  forall ops k f, kfind k (kf0 (exec0 init0 ops)) = Some f -> (f < flag_limit)%N.
Proof. exact (fun ops k f => dom_find k f _ (exec0_dom ops init0 (Forall_nil _))). Qed.
Print Assumptions C08_flags_stored_in_domain.

(* every Set makes its reader true, every Del / opposite Set makes it false (all 22 ops, every word); for
   DelPresumeKeyNotExists "it" is the PresumeKNE bit: the reader HasPresumeKeyNotExists also tests PreviousPresumeKNE,
   which no op clears *)
Theorem C08_flags_set_del_laws : forall f, (f < flag_limit)%N -> set_del_b f = true.
Proof. exact (fun f _ => set_del_law f). Qed.
Print Assumptions C08_flags_set_del_laws.

(* which flags survive an undo: the four lock readers keep their value, every other reader is false afterwards *)
Theorem C08_flags_persistent_readers : forall f, (f < flag_limit)%N -> persistent_b f = true.
Proof. exact (fun f _ => persistent_law f). Qed.
Print Assumptions C08_flags_persistent_readers.

(* an op changes nothing outside its own group of bits *)
Theorem C08_flags_frame :
  forall f o, (f < flag_limit)%N -> N.ldiff (apply_flag_op f o) (group o) = N.ldiff f (group o).
Proof. exact (fun f o _ => frame_law f o). Qed.
Print Assumptions C08_flags_frame.

Example flags_readers_example :
  let f := apply_flag_ops 0 [SetKeyLocked; SetKeyLockedInShareMode; SetPresumeKeyNotExists; SetAssertExist] in
  HasLocked f = true /\ HasPresumeKeyNotExists f = true /\ HasAssertExist f = true /\
  HasLocked (and_persistent f) = true /\ HasLockedInShareMode (and_persistent f) = true /\
  HasPresumeKeyNotExists (and_persistent f) = false /\ HasAssertExist (and_persistent f) = false.
Proof. vm_compute. repeat split. Qed.

(* ---- non-vacuity ---- *)
(* a sequence with stages, checkpoints, reverts, tombstones, flags *)
Example nv_outputs :
  run0 init0 nv_ops =
    [RUnit; RNat 1; RNat 0; RUnit; RUnit; RUnit; RNat 1; RUnit; RUnit; RVal (Some []); RUnit;
     RVal (Some [97; 97]); RVal (Some [97; 97]); RKFVs [([1], 2%N, Some [97; 97]); ([3], 17%N, None)];
     RUnit; RNum 2; RNum 4].
Proof. vm_compute. reflexivity. Qed.
(* the limits bite: *)
Example nv_limits :
  run1 init1 [OSetLimits 3 4; OSet [1] [7; 7; 7] []; OSet [1] [7; 7] []; OSet [2] [8; 8] []; OLen; OSize] =
    [RUnit; RErr EEntryTooLarge; RUnit; RErr ETxnTooLarge; RNum 2; RNum 6].
Proof. vm_compute. reflexivity. Qed.
(* cleanup_restores has instances *)
Example nv_cleanup :
  stays_above 0 (fst (staging0 init0)) [OSet [1] [5] []; OStaging; OSet [1] [6] []; ORelease 2%nat] = true.
Proof. vm_compute. reflexivity. Qed.
