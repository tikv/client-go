(* MemBuf/ProofsArtMap.v — the radix tree built by any sequence of inserts is the sorted key table of L1 *)
From Verif Require Import Base.Lex MemBuf.KMap MemBuf.ProofsKMap MemBuf.Art MemBuf.ProofsArt
  MemBuf.ProofsArtIns2.
From Coq Require Import Arith.
Local Open Scope nat_scope.

Lemma keys_upsert {A} k' a (m : kmap A) k : In k (map fst (kupsert k' a m)) <-> k = k' \/ In k (map fst m).
Proof.
  induction m as [|[k2 a2] r IH]; cbn [kupsert map fst In].
  - clear. intuition congruence.
  - destruct (lex_cmp k' k2) eqn:E; cbn [map fst In].
    + apply lex_cmp_eq in E. subst k2. clear. intuition congruence.
    + clear. intuition congruence.
    + rewrite IH. clear. intuition congruence.
Qed.

Lemma insert_root_ok o k :
  wf_root o ->
  wf_root (insert_root k o) /\ forall k', In k' (keys_of_tree (insert_root k o)) <-> k' = k \/ In k' (keys_of_tree o).
Proof.
  intros H. unfold insert_root. cbn [wf_root keys_of_tree].
  assert (W : wf [] (match o with Some t => t | None => empty_root end)).
  { destruct o as [t|]; [exact H|]. exists []. repeat split. right. right. split; reflexivity. }
  destruct (proj1 insert_ok_both _ [] k W) as (W' & M). cbn [app length] in W', M.
  split; [exact W'|]. intros k'. rewrite M. destruct o; cbn; tauto.
Qed.

Lemma build_app ks k : build (ks ++ [k]) = insert_root k (build ks).
Proof. unfold build. rewrite fold_left_app. reflexivity. Qed.

Lemma build_ok ks : wf_root (build ks) /\ forall k, In k (keys_of_tree (build ks)) <-> In k ks.
Proof.
  induction ks as [|k ks IH] using rev_ind; [split; [exact I|intros k; cbn; tauto]|].
  destruct IH as [W M]. rewrite build_app. destruct (insert_root_ok _ k W) as [W' M'].
  split; [exact W'|]. intros k'. rewrite M', M, in_app_iff. cbn. clear. intuition congruence.
Qed.

(* the same keys upserted into L1's sorted table (any attached values) *)
Lemma table_keys {A} (vs : list (key * A)) :
  let m := fold_left (fun m kv => kupsert (fst kv) (snd kv) m) vs [] in
  ksorted m /\ forall k, In k (map fst m) <-> In k (map fst vs).
Proof.
  induction vs as [|[k a] vs IH] using rev_ind; [split; [exact I|intros k; cbn; tauto]|].
  cbn zeta in *. rewrite fold_left_app. cbn [fold_left fst snd]. destruct IH as [S M].
  split; [apply ksorted_upsert; exact S|]. intros k'. rewrite keys_upsert, M, map_app, in_app_iff. cbn. clear. intuition congruence.
Qed.

Theorem tree_is_table {A} (vs : list (key * A)) :
  keys_of_tree (build (map fst vs)) = map fst (fold_left (fun m kv => kupsert (fst kv) (snd kv) m) vs []).
Proof.
  destruct (build_ok (map fst vs)) as [W M]. destruct (table_keys vs) as [S M2].
  apply (asc_ext (fun k => k)); [apply lsorted_asc, keys_of_tree_sorted; exact W|apply asc_map, ksorted_asc; exact S|].
  intros k. rewrite M, M2. clear. tauto.
Qed.
