(* MemBuf/ProofsArtIns2.v — insert keeps the radix tree well-formed and adds exactly its key *)
From Verif Require Import Base.Lex MemBuf.ProofsKMap MemBuf.Art MemBuf.ProofsArt MemBuf.ProofsArtIns.
From Coq Require Import Arith.
Local Open Scope nat_scope.

Lemma byte_at_app path r l : byte_at (path ++ r) (length path + l) = nth l r 0%N.
Proof. apply app_nth2_plus. Qed.

Lemma stored_prefix C (r : list N) : firstn (Nat.min (length C) max_in_node) (C ++ r) = firstn max_in_node C.
Proof.
  transitivity (firstn max_in_node (firstn (length C) (C ++ r))); [|rewrite firstn_app_len; reflexivity].
  rewrite firstn_firstn. f_equal. apply Nat.min_comm.
Qed.

Lemma ext_snoc q b (r : list N) : ext (q ++ [b]) (q ++ b :: r).
Proof. exists r. apply snoc_app. Qed.

Lemma node_keys_ext path P plen pfx ipl ch k :
  match ipl with Some k0 => k0 = path ++ P | None => True end -> wf_ch (path ++ P) ch ->
  In k (inorder (Node plen pfx ipl ch)) -> exists y, k = path ++ P ++ y.
Proof.
  intros Hi Hc Hin. cbn [inorder] in Hin. apply in_app_or in Hin. destruct Hin as [Hin|Hin].
  - destruct ipl as [k0|]; [|contradiction]. destruct Hin as [<-|[]]. exists []. rewrite app_nil_r. exact Hi.
  - destruct (proj2 wf_ext_both _ _ _ Hc Hin) as (b & r & ->). exists (b :: r). rewrite app_assoc. reflexivity.
Qed.

(* matchDeep at a well-formed node: the key leaves the node's path segment P after their common part C, at the true
   mismatch index length C, or the whole segment matches *)
Lemma match_deep_node path x P pfx ipl ch :
  pfx = firstn max_in_node P -> match ipl with Some k0 => k0 = path ++ P | None => True end -> wf_ch (path ++ P) ch ->
  (ipl <> None \/ ch <> CNil \/ (path = [] /\ length P = 0)) ->
  let t := Node (length P) pfx ipl ch in
  let mi := match_deep (path ++ x) (length path) (length P) pfx t in
  (max_in_node < length P -> exists y, min_leaf t = path ++ P ++ y) /\
  ((Nat.ltb mi (length P) = true /\
    exists C c Pt xr, P = C ++ c :: Pt /\ x = C ++ xr /\ mi = length C /\ match xr with a :: _ => a <> c | [] => True end) \/
   (Nat.ltb mi (length P) = false /\ exists x', x = P ++ x')).
Proof.
  intros Hpfx Hi Hc Hcl t mi.
  assert (Hml : max_in_node < length P -> exists y, min_leaf t = path ++ P ++ y).
  { intros Hlong. apply (node_keys_ext path P (length P) pfx ipl ch _ Hi Hc). apply (proj1 min_leaf_in_both _ path).
    - exists P. repeat split; assumption.
    - destruct Hcl as [H|[H|[_ H]]]; [left; exact H|right; exact H|unfold max_in_node in Hlong; lia]. }
  split; [exact Hml|].
  destruct (lcp_spec x P) as (C & xr & Pr & Ex & EP & _ & Hd). subst x P.
  destruct (match_deep_spec path C xr Pr pfx t Hpfx Hd Hml) as (e & Emi & E0). fold mi in Emi. destruct Pr as [|c Pt].
  - right. rewrite app_nil_r. split; [apply Nat.ltb_ge; lia|]. exists xr. reflexivity.
  - left. rewrite Emi, (E0 ltac:(discriminate)), Nat.add_0_r.
    split; [apply Nat.ltb_lt; rewrite app_length; cbn [length]; lia|]. exists C, c, Pt, xr. repeat split. destruct xr; exact Hd.
Qed.

Lemma expand_leaf_ok path r1 x :
  r1 <> x ->
  let t' := expand_leaf (path ++ r1) (path ++ x) (length path) in
  wf path t' /\ forall k', In k' (inorder t') <-> k' = path ++ x \/ k' = path ++ r1.
Proof.
  intros Hne. unfold expand_leaf. rewrite !skipn_app_len.
  destruct (lcp_spec r1 x) as (C & ra & rb & -> & -> & -> & Hd). cbv zeta.
  rewrite stored_prefix, !(app_assoc path C), <- app_length, !valid_at. unfold byte_at.
  destruct ra as [|a ra], rb as [|b rb]; [destruct (Hne eq_refl)| | |]; rewrite ?nth_middle.
  - (* the old key ends at the node: it is the in-place leaf *)
    split.
    + exists C. refine (conj eq_refl (conj eq_refl (conj (app_nil_r _) (conj _ _)))); [|left; discriminate].
      cbn [add_sorted wf_ch wf ch_lb]. exact (conj (ext_snoc _ b rb) (conj I I)).
    + intros k'. cbn [inorder add_sorted inorder_ch app In]. clear. intuition congruence.
  - (* the new key ends at the node *)
    split.
    + exists C. refine (conj eq_refl (conj eq_refl (conj (app_nil_r _) (conj _ _)))); [|left; discriminate].
      cbn [add_sorted wf_ch wf ch_lb]. exact (conj (ext_snoc _ a ra) (conj I I)).
    + intros k'. cbn [inorder add_sorted inorder_ch app In]. clear. intuition congruence.
  - (* both keys continue: two children *)
    assert (W1 : wf_ch (path ++ C) (CCons a (Leaf ((path ++ C) ++ a :: ra)) CNil)) by exact (conj (ext_snoc _ a ra) (conj I I)).
    destruct (add_sorted_ok (path ++ C) b (Leaf ((path ++ C) ++ b :: rb)) _ (ext_snoc _ b rb) W1 (conj (not_eq_sym Hd) I))
      as (W & _ & M).
    split.
    + exists C. refine (conj eq_refl (conj eq_refl (conj I (conj W _)))). right. left.
      cbn [add_sorted]. destruct (N.ltb _ _); discriminate.
    + intros k'. cbn [inorder app]. rewrite M. cbn [inorder inorder_ch app In]. clear. intuition congruence.
Qed.

(* the key path ++ C ++ xr leaves the segment P = C ++ c :: Pt after C: it ends there or goes on with another byte *)
Lemma expand_node_ok path C c Pt xr pfx ipl ch :
  let P := C ++ c :: Pt in
  pfx = firstn max_in_node P ->
  match ipl with Some k => k = path ++ P | None => True end ->
  wf_ch (path ++ P) ch ->
  (ipl <> None \/ ch <> CNil) ->
  (max_in_node < length P -> exists y, min_leaf (Node (length P) pfx ipl ch) = path ++ P ++ y) ->
  match xr with a :: _ => a <> c | [] => True end ->
  let t' := expand_node (path ++ C ++ xr) (length path) (length C) (length P) pfx ipl ch in
  wf path t' /\ forall k', In k' (inorder t') <-> k' = path ++ C ++ xr \/ In k' (inorder (Node (length P) pfx ipl ch)).
Proof.
  intros P Hpfx Hi Hc Hn Hml Hd. unfold expand_node.
  (* the whole path segment is recovered from the stored bytes or from the minimum leaf *)
  assert (Ew : (if Nat.leb (length P) max_in_node then pfx
                else firstn (length P) (skipn (length path) (min_leaf (Node (length P) pfx ipl ch)))) = P).
  { destruct (Nat.leb_spec (length P) max_in_node) as [H|H].
    - subst pfx. apply firstn_all2. exact H.
    - destruct (Hml H) as (y & ->). rewrite skipn_app_len. apply firstn_app_len. }
  rewrite Ew. clear Ew. cbv zeta.
  assert (E2 : skipn (S (length C)) P = Pt) by (unfold P; rewrite snoc_app, <- (last_length C c); apply skipn_app_len).
  assert (E3 : length P - length C - 1 = length Pt) by (unfold P; rewrite app_length; cbn [length]; lia).
  rewrite (nth_middle C Pt c 0%N : nth (length C) P 0%N = c), E2, E3, skipn_app_len, stored_prefix, (app_assoc path C xr), <- app_length, valid_at.
  (* the old node below its new parent *)
  assert (Wold : wf ((path ++ C) ++ [c]) (Node (length Pt) (firstn (Nat.min (length Pt) max_in_node) Pt) ipl ch)).
  { exists Pt. refine (conj eq_refl (conj (firstn_min_len _ _) (conj _ (conj _ _)))).
    - destruct ipl as [k0|]; [|exact I]. rewrite <- snoc_app, <- app_assoc. exact Hi.
    - rewrite <- snoc_app, <- app_assoc. exact Hc.
    - destruct Hn as [Hn|Hn]; [left|right; left]; exact Hn. }
  assert (Wbase : wf_ch (path ++ C) (add_sorted c (Node (length Pt) (firstn (Nat.min (length Pt) max_in_node) Pt) ipl ch) CNil))
    by exact (conj Wold (conj I I)).
  destruct xr as [|a xt].
  - rewrite app_nil_r. split.
    + exists C. refine (conj eq_refl (conj eq_refl (conj eq_refl (conj Wbase _)))). left. discriminate.
    + intros k'. cbn [add_sorted inorder inorder_ch app In]. rewrite app_nil_r. clear. intuition congruence.
  - unfold byte_at. rewrite nth_middle.
    destruct (add_sorted_ok (path ++ C) a (Leaf ((path ++ C) ++ a :: xt)) _ (ext_snoc _ a xt) Wbase (conj Hd I)) as (W & _ & M).
    split.
    + exists C. refine (conj eq_refl (conj eq_refl (conj I (conj W _)))). right. left.
      cbn [add_sorted]. destruct (N.ltb _ _); discriminate.
    + intros k'. cbn [inorder app]. rewrite M. cbn [add_sorted inorder inorder_ch In]. rewrite app_nil_r. clear. intuition congruence.
Qed.

Lemma insert_ok_both :
  (forall t path x, wf path t ->
     wf path (insert (path ++ x) (length path) t) /\
     forall k', In k' (inorder (insert (path ++ x) (length path) t)) <-> k' = path ++ x \/ In k' (inorder t)) /\
  (forall c q b x, wf_ch q c ->
     wf_ch q (insert_ch (q ++ b :: x) (length q) b c) /\ insert_ch (q ++ b :: x) (length q) b c <> CNil /\
     (forall b0, (b0 < b)%N -> ch_lb b0 c -> ch_lb b0 (insert_ch (q ++ b :: x) (length q) b c)) /\
     forall k', In k' (inorder_ch (insert_ch (q ++ b :: x) (length q) b c)) <-> k' = q ++ b :: x \/ In k' (inorder_ch c)).
Proof.
  apply art_children_ind.
  - intros k1 path x (r1 & ->). cbn [insert]. destruct (bytes_eqb (path ++ r1) (path ++ x)) eqn:E.
    + apply bytes_eqb_eq in E. split; [exists r1; reflexivity|].
      intros k'. cbn [inorder In]. rewrite E. clear. intuition congruence.
    + assert (Hne : r1 <> x) by (intros ->; rewrite bytes_eqb_refl in E; discriminate).
      destruct (expand_leaf_ok path r1 x Hne) as (W & M). split; [exact W|].
      intros k'. rewrite M. cbn [inorder In]. clear. intuition congruence.
  - intros plen pfx ipl ch IH path x (P & HP & Hpfx & Hi & Hc & Hcl). subst plen. cbn [insert].
    destruct (match_deep_node path x P pfx ipl ch Hpfx Hi Hc Hcl)
      as [Hml [(-> & C & c & Pt & xr & -> & -> & -> & Hd)|(-> & x' & ->)]].
    + (* the key leaves the path inside the node's segment: split the node *)
      apply (expand_node_ok path C c Pt xr pfx ipl ch Hpfx Hi Hc); [|exact Hml|exact Hd].
      destruct Hcl as [H|[H|[_ H]]]; [left; exact H|right; exact H|]. rewrite app_length in H. cbn [length] in H. lia.
    + (* the whole segment matches: descend *)
      rewrite app_assoc, <- app_length, valid_at. destruct x' as [|b x''].
      * (* the key ends exactly at this node *)
        rewrite app_nil_r. destruct ipl as [k0|].
        -- split; [exists P; repeat split; assumption|].
           intros k'. cbn [inorder app In]. rewrite Hi. clear. intuition congruence.
        -- split; [exists P; refine (conj eq_refl (conj Hpfx (conj eq_refl (conj Hc _)))); left; discriminate|].
           intros k'. cbn [inorder app In]. clear. intuition congruence.
      * (* continue below the child for byte b *)
        unfold byte_at. rewrite nth_middle.
        destruct (IH (path ++ P) b x'' Hc) as (W & Nn & _ & M).
        split; [exists P; refine (conj eq_refl (conj Hpfx (conj Hi (conj W _)))); right; left; exact Nn|].
        intros k'. cbn [inorder]. rewrite !in_app_iff, M. clear. tauto.
  - (* no child yet *)
    intros q b x _. cbn [insert_ch wf_ch wf ch_lb inorder_ch inorder app In]. split; [|split; [discriminate|split]].
    + split; [exists x; rewrite <- app_assoc; reflexivity|split; exact I].
    + intros b0 Hb0 _. split; [exact Hb0|exact I].
    + intros k'. clear. intuition congruence.
  - intros b' t IHt r IHr q b x (Ht & Hr & Hl). cbn [insert_ch].
    destruct (N.eqb_spec b b') as [->|Hne].
    + rewrite snoc_app, <- (last_length q b'). destruct (IHt (q ++ [b']) x Ht) as (W & M).
      split; [exact (conj W (conj Hr Hl))|]. split; [discriminate|]. split.
      * intros b0 _ H. exact H.
      * intros k'. cbn [inorder_ch]. rewrite !in_app_iff, M. clear. tauto.
    + destruct (N.ltb_spec b b') as [Hlt|Hge].
      * split; [|split; [discriminate|split]].
        -- cbn [wf_ch wf ch_lb]. split; [exists x; rewrite <- app_assoc; reflexivity|].
           split; [exact (conj Ht (conj Hr Hl))|]. split; [exact Hlt|]. eapply ch_lb_weaken; eassumption.
        -- intros b0 Hb0 H. cbn [ch_lb]. split; [exact Hb0|exact H].
        -- intros k'. cbn [inorder_ch inorder app In]. clear. intuition congruence.
      * assert (Hlt : (b' < b)%N) by lia.
        destruct (IHr q b x Hr) as (W & _ & L & M).
        split; [exact (conj Ht (conj W (L b' Hlt Hl)))|]. split; [discriminate|]. split.
        -- intros b0 Hb0 [H1 H2]. split; [exact H1|]. apply L; assumption.
        -- intros k'. cbn [inorder_ch]. rewrite !in_app_iff, M. clear. tauto.
Qed.
