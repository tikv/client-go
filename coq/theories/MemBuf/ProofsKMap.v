(* MemBuf/ProofsKMap.v — the order of byte strings, list facts the area shares, and the sorted association lists *)
From Verif Require Import Base.Lex MemBuf.KMap.
From Coq Require Import Arith.

Lemma skipn_app_len {A} (p x : list A) : skipn (length p) (p ++ x) = x.
Proof. induction p; cbn; auto. Qed.

Lemma firstn_app_len {A} (p x : list A) : firstn (length p) (p ++ x) = p.
Proof. induction p; cbn; [destruct x; reflexivity|]. f_equal. assumption. Qed.

Lemma find_app {A} (f : A -> bool) a b : find f (a ++ b) = match find f a with Some x => Some x | None => find f b end.
Proof. induction a as [|x a IH]; [reflexivity|]. cbn. destruct (f x); [reflexivity|exact IH]. Qed.

Lemma filter_none {A} (f : A -> bool) l : (forall x, In x l -> f x = false) -> filter f l = [].
Proof. induction l as [|x l IH]; intros H; [reflexivity|]. cbn. rewrite (H x (or_introl eq_refl)). apply IH. intros y Hy. apply H. right. exact Hy. Qed.

Lemma filter_all {A} (f : A -> bool) l : (forall x, In x l -> f x = true) -> filter f l = l.
Proof. induction l as [|x l IH]; intros H; [reflexivity|]. cbn. rewrite (H x (or_introl eq_refl)). f_equal. apply IH. intros y Hy. apply H. right. exact Hy. Qed.

Lemma filter_filter {A} (f g : A -> bool) l : filter f (filter g l) = filter (fun x => g x && f x) l.
Proof. induction l as [|x l IH]; [reflexivity|]. cbn. destruct (g x); cbn; [destruct (f x); rewrite IH; reflexivity|exact IH]. Qed.

Lemma filter_len_le {A} (f : A -> bool) l : (length (filter f l) <= length l)%nat.
Proof. induction l as [|x l IH]; [cbn; lia|]. cbn. destruct (f x); cbn; lia. Qed.

Lemma flat_map_ext_in {A B} (f g : A -> list B) l : (forall x, In x l -> f x = g x) -> flat_map f l = flat_map g l.
Proof.
  induction l as [|a l IH]; intros H; [reflexivity|]. cbn [flat_map].
  rewrite (H a (or_introl eq_refl)), IH; [reflexivity|]. intros x Hx. apply H. right. exact Hx.
Qed.

Lemma bytes_eqb_refl a : bytes_eqb a a = true.
Proof. unfold bytes_eqb. rewrite lex_cmp_refl. reflexivity. Qed.

Lemma bytes_eqb_sym a b : bytes_eqb a b = bytes_eqb b a.
Proof. unfold bytes_eqb. rewrite (lex_cmp_antisym a b). destruct (lex_cmp a b); reflexivity. Qed.

Lemma bytes_eqb_neq a b : a <> b -> bytes_eqb a b = false.
Proof. intros H. destruct (bytes_eqb a b) eqn:E; [|reflexivity]. apply bytes_eqb_eq in E. contradiction. Qed.

Lemma bytes_eqb_false a b : bytes_eqb a b = false -> a <> b.
Proof. intros H E. subst. rewrite bytes_eqb_refl in H. discriminate. Qed.

Lemma bytes_eqb_dec (a b : list N) : {a = b} + {a <> b}.
Proof. destruct (bytes_eqb a b) eqn:E; [left; apply bytes_eqb_eq; exact E | right; apply bytes_eqb_false; exact E]. Qed.

Lemma lex_lt_neq a b : lex_lt a b -> a <> b.
Proof. intros H ->. exact (lex_lt_irrefl _ H). Qed.

Lemma lex_lt_asym a b : lex_lt a b -> lex_lt b a -> False.
Proof. intros H1 H2. apply (lex_lt_irrefl a). eapply lex_cmp_lt_trans; eassumption. Qed.

Lemma gt_is_ltb a b : match lex_cmp a b with Gt => true | _ => false end = lex_ltb b a.
Proof. unfold lex_ltb. rewrite (lex_cmp_antisym a b). destruct (lex_cmp a b); reflexivity. Qed.

Lemma ltb_not_leb a b : lex_ltb a b = negb (lex_leb b a).
Proof. unfold lex_ltb, lex_leb. rewrite (lex_cmp_antisym a b). destruct (lex_cmp a b); reflexivity. Qed.

Lemma ltb_irrefl a : lex_ltb a a = false.
Proof. apply lex_ltb_false, lex_le_refl. Qed.

Lemma ltb_asym a b : lex_lt a b -> lex_ltb b a = false.
Proof. intros H. apply lex_ltb_false, lex_le_cases. left. exact H. Qed.

Lemma ltb_app_same p a b : lex_ltb (p ++ a) (p ++ b) = lex_ltb a b.
Proof. unfold lex_ltb. rewrite lex_cmp_app_same. reflexivity. Qed.

Lemma ltb_nil_r a : lex_ltb a [] = false.
Proof. unfold lex_ltb. destruct a; reflexivity. Qed.

Lemma ltb_cons_lt b b' r r' : (b < b')%N -> lex_ltb (b :: r) (b' :: r') = true.
Proof. intros H. unfold lex_ltb. cbn [lex_cmp]. apply N.compare_lt_iff in H. rewrite H. reflexivity. Qed.

Lemma ltb_cons_gt b b' r r' : (b' < b)%N -> lex_ltb (b :: r) (b' :: r') = false.
Proof. intros H. unfold lex_ltb. cbn [lex_cmp]. apply N.compare_gt_iff in H. rewrite H. reflexivity. Qed.

Lemma lex_prefix_lt q b r : lex_lt q (q ++ b :: r).
Proof. unfold lex_lt. rewrite <- (app_nil_r q) at 1. rewrite lex_cmp_app_same. reflexivity. Qed.

Lemma lex_branch_lt q b b' r r' : (b < b')%N -> lex_lt (q ++ b :: r) (q ++ b' :: r').
Proof. intros H. apply lex_ltb_lt. rewrite ltb_app_same. apply ltb_cons_lt. exact H. Qed.

(* a ++ [0] is the immediate successor of a: k >= a ++ [0]  <->  k > a *)
Lemma succ_key a k : lex_leb (a ++ [0%N]) k = lex_ltb a k.
Proof.
  unfold lex_leb, lex_ltb. revert k. induction a as [|x a IH]; intros [|y k]; cbn [app lex_cmp]; try reflexivity.
  - destruct (N.compare_spec 0 y) as [E|E|E]; [|reflexivity|lia]. destruct k; reflexivity.
  - destruct (N.compare x y); [apply IH|reflexivity|reflexivity].
Qed.

(* strictly ascending under a key projection: ksorted is the case of fst *)
Section Asc.
Context {B : Type} (f : B -> key).

Fixpoint asc (l : list B) : Prop :=
  match l with [] => True | x :: r => Forall (fun y => lex_lt (f x) (f y)) r /\ asc r end.

Lemma asc_ext (a : list B) : forall b, asc a -> asc b -> (forall p, In p a <-> In p b) -> a = b.
Proof.
  induction a as [|x a IH]; intros [|y b] Sa Sb H.
  - reflexivity.
  - exfalso. apply (proj2 (H y)). left. reflexivity.
  - exfalso. apply (proj1 (H x)). left. reflexivity.
  - destruct Sa as [La Sa]. destruct Sb as [Lb Sb]. rewrite Forall_forall in La, Lb.
    assert (E : x = y).
    { destruct (proj1 (H x) (or_introl eq_refl)) as [E|Hx]; [symmetry; exact E|].
      destruct (proj2 (H y) (or_introl eq_refl)) as [E|Hy]; [exact E|].
      exfalso. exact (lex_lt_asym _ _ (La _ Hy) (Lb _ Hx)). }
    subst y. f_equal. apply IH; [exact Sa|exact Sb|]. intros p. split; intros Hp.
    + destruct (proj1 (H p) (or_intror Hp)) as [E'|Hp']; [|exact Hp']. subst p. exfalso. exact (lex_lt_irrefl _ (La _ Hp)).
    + destruct (proj2 (H p) (or_intror Hp)) as [E'|Hp']; [|exact Hp']. subst p. exfalso. exact (lex_lt_irrefl _ (Lb _ Hp)).
Qed.
End Asc.

Lemma asc_map {B} (f : B -> key) l : asc f l -> asc (fun k => k) (map f l).
Proof. induction l as [|x r IH]; [exact (fun H => H)|]. intros [H S]. split; [apply Forall_map; exact H|exact (IH S)]. Qed.

Section S.
Context {A : Type}.
Implicit Types t : kmap A.

Lemma klb_trans k k' t : lex_lt k k' -> klb k' t -> klb k t.
Proof.
  unfold klb. intros H F. eapply Forall_impl; [|exact F]. intros p Hp. eapply lex_cmp_lt_trans; eassumption.
Qed.

Lemma klb_find k t : klb k t -> kfind k t = None.
Proof.
  induction t as [|[k' a] r IH]; intros H; cbn [kfind]; [reflexivity|].
  inversion H; subst. cbn in H2. rewrite (bytes_eqb_neq _ _ (lex_lt_neq _ _ H2)). apply IH; assumption.
Qed.

Lemma kfind_Some_In k a t : kfind k t = Some a -> In (k, a) t.
Proof.
  induction t as [|[k' a'] r IH]; cbn [kfind]; [discriminate|].
  destruct (bytes_eqb k k') eqn:E.
  - intros H; inversion H; subst. apply bytes_eqb_eq in E. subst. left. reflexivity.
  - intros H. right. apply IH. exact H.
Qed.

Lemma In_kfind k a t : ksorted t -> In (k, a) t -> kfind k t = Some a.
Proof.
  induction t as [|[k' a'] r IH]; intros S H; [contradiction|].
  destruct S as [Sl Sr]. cbn [kfind]. destruct H as [H|H].
  - inversion H; subst. rewrite bytes_eqb_refl. reflexivity.
  - destruct (bytes_eqb k k') eqn:E; [|apply IH; assumption].
    apply bytes_eqb_eq in E. subst k'. exfalso.
    unfold klb in Sl. rewrite Forall_forall in Sl. exact (lex_lt_irrefl _ (Sl _ H)).
Qed.

Lemma klb_upsert k a t : klb k t -> kupsert k a t = (k, a) :: t.
Proof.
  destruct t as [|[k' a'] r]; intros H; cbn [kupsert]; [reflexivity|].
  inversion H; subst. cbn in H2. unfold lex_lt in H2. rewrite H2. reflexivity.
Qed.

Lemma klb_remove k t : klb k t -> kremove k t = t.
Proof.
  induction t as [|[k' a] r IH]; intros H; cbn [kremove]; [reflexivity|].
  inversion H; subst. cbn in H2. rewrite (bytes_eqb_neq _ _ (lex_lt_neq _ _ H2)). f_equal. apply IH; assumption.
Qed.

Lemma kfind_upsert_same k a t : kfind k (kupsert k a t) = Some a.
Proof.
  induction t as [|[k' a'] r IH]; cbn [kupsert kfind].
  - rewrite bytes_eqb_refl. reflexivity.
  - destruct (lex_cmp k k') eqn:E; cbn [kfind].
    + rewrite bytes_eqb_refl. reflexivity.
    + rewrite bytes_eqb_refl. reflexivity.
    + unfold bytes_eqb at 1. rewrite E. exact IH.
Qed.

Lemma kfind_upsert_other k k' a t : k <> k' -> kfind k' (kupsert k a t) = kfind k' t.
Proof.
  intros N. induction t as [|[k2 a2] r IH]; cbn [kupsert kfind].
  - rewrite (bytes_eqb_neq k' k); [reflexivity|congruence].
  - destruct (lex_cmp k k2) eqn:E; cbn [kfind].
    + apply lex_cmp_eq in E. subst k2. rewrite (bytes_eqb_neq k' k); [reflexivity|congruence].
    + rewrite (bytes_eqb_neq k' k); [reflexivity|congruence].
    + rewrite IH. reflexivity.
Qed.

Lemma Forall_kupsert (P : key * A -> Prop) k a t : P (k, a) -> Forall P t -> Forall P (kupsert k a t).
Proof.
  intros Pa. induction t as [|[k' a'] r IH]; intros H; cbn [kupsert]; [constructor; [exact Pa|constructor]|].
  inversion H; subst. destruct (lex_cmp k k'); constructor; try assumption. apply IH; assumption.
Qed.

Lemma Forall_kremove (P : key * A -> Prop) k t : Forall P t -> Forall P (kremove k t).
Proof.
  induction t as [|[k' a'] r IH]; intros H; cbn [kremove]; [constructor|].
  inversion H; subst. destruct (bytes_eqb k k'); [assumption|]. constructor; [assumption|apply IH; assumption].
Qed.

Lemma ksorted_upsert k a t : ksorted t -> ksorted (kupsert k a t).
Proof.
  induction t as [|[k' a'] r IH]; intros H; cbn [kupsert].
  - cbn. split; [constructor|exact I].
  - destruct H as [Hl Hs]. destruct (lex_cmp k k') eqn:E.
    + apply lex_cmp_eq in E. subst. cbn. split; assumption.
    + cbn. split; [|split; assumption]. constructor; [exact E|]. eapply klb_trans; eassumption.
    + cbn. split; [|apply IH; exact Hs]. apply Forall_kupsert; [|exact Hl]. apply lex_lt_not_le. intros H. exact (H E).
Qed.

Lemma ksorted_remove k t : ksorted t -> ksorted (kremove k t).
Proof.
  induction t as [|[k' a'] r IH]; intros H; cbn [kremove]; [exact I|].
  destruct H as [Hl Hs]. destruct (bytes_eqb k k'); [exact Hs|]. cbn. split; [apply Forall_kremove; exact Hl|apply IH; exact Hs].
Qed.

Lemma kfind_remove_other k k' t : k <> k' -> kfind k' (kremove k t) = kfind k' t.
Proof.
  intros N. induction t as [|[k2 a2] r IH]; cbn [kremove kfind]; [reflexivity|].
  destruct (bytes_eqb k k2) eqn:E.
  - apply bytes_eqb_eq in E. subst k2. rewrite (bytes_eqb_neq k' k); [reflexivity|congruence].
  - cbn [kfind]. rewrite IH. reflexivity.
Qed.

Lemma kfind_remove_same k t : ksorted t -> kfind k (kremove k t) = None.
Proof.
  induction t as [|[k2 a2] r IH]; intros H; cbn [kremove kfind]; [reflexivity|].
  destruct H as [Hl Hs]. destruct (bytes_eqb k k2) eqn:E.
  - apply bytes_eqb_eq in E. subst k2. apply klb_find. exact Hl.
  - cbn [kfind]. rewrite E. apply IH. exact Hs.
Qed.

Lemma kfind_none_remove k t : kfind k t = None -> kremove k t = t.
Proof.
  induction t as [|[k2 a2] r IH]; cbn [kremove kfind]; [reflexivity|].
  destruct (bytes_eqb k k2); [discriminate|]. intros H. f_equal. apply IH. exact H.
Qed.

(* adjacent keys ascend: a test that decides ksorted on a concrete table *)
Fixpoint ascending t : bool :=
  match t with
  | (k, _) :: ((k', _) :: _) as r => lex_ltb k k' && ascending r
  | _ => true
  end.

Lemma ascending_sorted t : ascending t = true -> ksorted t.
Proof.
  induction t as [|[k a] r IH]; [intros _; exact I|]. destruct r as [|[k' a'] r']; [intros _; split; constructor|].
  cbn [ascending]. intros H. apply andb_true_iff in H. destruct H as [H1 H2]. apply lex_ltb_lt in H1.
  specialize (IH H2). split; [|exact IH]. constructor; [exact H1|]. eapply klb_trans; [exact H1|apply IH].
Qed.

Lemma ksorted_asc t : ksorted t -> asc fst t.
Proof. induction t as [|[k a] r IH]; [exact (fun H => H)|]. intros [Hl Hs]. exact (conj Hl (IH Hs)). Qed.
End S.

Section FM.
Context {A B : Type} (f : A -> option B).

Definition kfmap (t : kmap A) : kmap B :=
  flat_map (fun p => match f (snd p) with Some b => [(fst p, b)] | None => [] end) t.

Lemma kfmap_cons k a t :
  kfmap ((k, a) :: t) = match f a with Some b => (k, b) :: kfmap t | None => kfmap t end.
Proof. unfold kfmap. cbn [flat_map fst snd]. destruct (f a); reflexivity. Qed.

Lemma klb_kfmap k t : klb k t -> klb k (kfmap t).
Proof.
  induction t as [|[k' a] r IH]; intros H; [constructor|].
  inversion H; subst. rewrite kfmap_cons. destruct (f a); [constructor; [assumption|]|]; apply IH; assumption.
Qed.

Lemma ksorted_kfmap t : ksorted t -> ksorted (kfmap t).
Proof.
  induction t as [|[k' a] r IH]; intros H; [exact I|].
  destruct H as [Hl Hs]. rewrite kfmap_cons. destruct (f a); [cbn; split; [apply klb_kfmap; exact Hl|]|]; apply IH; exact Hs.
Qed.

Lemma kfind_kfmap k t :
  ksorted t -> kfind k (kfmap t) = match kfind k t with Some a => f a | None => None end.
Proof.
  induction t as [|[k' a] r IH]; intros H; [reflexivity|].
  destruct H as [Hl Hs]. rewrite kfmap_cons. cbn [kfind]. destruct (bytes_eqb k k') eqn:E.
  - destruct (f a) eqn:F.
    + cbn [kfind]. rewrite E. reflexivity.
    + apply bytes_eqb_eq in E. subst k'. apply klb_find. apply klb_kfmap. exact Hl.
  - destruct (f a) eqn:F; [cbn [kfind]; rewrite E|]; apply IH; exact Hs.
Qed.

Lemma kfmap_upsert k a t :
  ksorted t ->
  kfmap (kupsert k a t) = match f a with Some b => kupsert k b (kfmap t) | None => kremove k (kfmap t) end.
Proof.
  induction t as [|[k' a'] r IH]; intros H.
  - cbn [kupsert]. rewrite kfmap_cons. destruct (f a); reflexivity.
  - destruct H as [Hl Hs]. cbn [kupsert]. destruct (lex_cmp k k') eqn:E.
    + apply lex_cmp_eq in E. subst k'. rewrite !kfmap_cons.
      pose proof (klb_kfmap _ _ Hl) as Hl'.
      destruct (f a) eqn:Fa; destruct (f a') eqn:Fa'.
      * cbn [kupsert]. rewrite lex_cmp_refl. reflexivity.
      * rewrite klb_upsert by exact Hl'. reflexivity.
      * cbn [kremove]. rewrite bytes_eqb_refl. reflexivity.
      * rewrite klb_remove by exact Hl'. reflexivity.
    + assert (Hk : klb k ((k', a') :: r)) by (constructor; [exact E|eapply klb_trans; eassumption]).
      pose proof (klb_kfmap _ _ Hk) as Hk'.
      rewrite kfmap_cons. destruct (f a) eqn:Fa.
      * rewrite klb_upsert by exact Hk'. reflexivity.
      * rewrite klb_remove by exact Hk'. reflexivity.
    + rewrite !kfmap_cons. rewrite IH by exact Hs.
      assert (Hne : bytes_eqb k k' = false) by (unfold bytes_eqb; rewrite E; reflexivity).
      destruct (f a) eqn:Fa; destruct (f a') eqn:Fa'; try reflexivity.
      * cbn [kupsert]. rewrite E. reflexivity.
      * cbn [kremove]. rewrite Hne. reflexivity.
Qed.
End FM.

Definition hi_ok (hi k : key) : bool := match hi with [] => true | _ => lex_ltb k hi end.
Definition lo_ok (lo k : key) : bool := match lo with [] => true | _ => lex_leb lo k end.
Lemma in_bounds_split lo hi k : in_bounds lo hi k = lo_ok lo k && hi_ok hi k.
Proof. reflexivity. Qed.

Lemma in_bounds_spec lo hi k :
  in_bounds lo hi k = true <-> (lo = [] \/ lex_cmp lo k <> Gt) /\ (hi = [] \/ lex_cmp k hi = Lt).
Proof.
  unfold in_bounds. rewrite andb_true_iff. fold (lex_le lo k) (lex_lt k hi).
  destruct lo, hi; rewrite ?lex_leb_le, ?lex_ltb_lt; intuition congruence.
Qed.
