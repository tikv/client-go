(* MemBuf/ProofsObs.v — the simulation relation Sim; under it every observer returns the same result *)
From Verif Require Import Base.Lex MemBuf.KMap MemBuf.Ops MemBuf.Staged MemBuf.VLog MemBuf.ProofsKMap
  MemBuf.ProofsLog MemBuf.ProofsSim.
From Coq Require Import Arith.
Local Open Scope nat_scope.

Record Sim (s1 : st1) (s0 : st0) : Prop := mkSim {
  sim_chain : chain_ok (log1 s1);
  sim_keys : keys_ok (keys1 s1) (log1 s1);
  sim_sorted : ksorted (keys1 s1);
  sim_lev : Rlev (log1 s1) (stages1 s1) (stages0 s0) (base0 s0) (lastcp1 s1) (regs1 s1) (regs0 s0);
  sim_lastcp : lastcp0 s0 = lastcp1 s1;
  sim_kf : kf0 s0 = live (keys1 s1);
  sim_dirty : dirty0 s0 = dirty1 s1;
  sim_el : elimit0 s0 = elimit1 s1;
  sim_bl : blimit0 s0 = blimit1 s1;
  sim_len : len1 s1 = N.of_nat (length (live (keys1 s1)));
  sim_size : size1 s1 = size_of (jof (log1 s1)) (live (keys1 s1))
}.

(* one goal per field of Sim, with the projections of record literals reduced *)
Ltac sim_fields :=
  constructor; cbn [log1 keys1 stages1 len1 size1 dirty1 elimit1 blimit1 regs1 lastcp1
                    base0 stages0 kf0 dirty0 elimit0 blimit0 regs0 lastcp0].

Lemma flat_map_kfmap {A B C} (f : A -> option B) (F : key * B -> list C) t :
  flat_map F (kfmap f t) = flat_map (fun p => match f (snd p) with Some b => F (fst p, b) | None => [] end) t.
Proof.
  induction t as [|[k a] r IH]; [reflexivity|].
  rewrite kfmap_cons. cbn [flat_map fst snd]. destruct (f a); cbn [flat_map]; rewrite IH; reflexivity.
Qed.

Section Obs.
Variables (s1 : st1) (s0 : st0).
Hypothesis HS : Sim s1 s0.

Lemma all_jof : all0 s0 = jof (log1 s1).
Proof. unfold all0. eapply Rlev_all. apply (sim_lev _ _ HS). Qed.

Lemma depth_eq : depth0 s0 = depth1 s1.
Proof. unfold depth0, depth1. symmetry. eapply Rlev_len. apply (sim_lev _ _ HS). Qed.

Lemma ent_head k ent : kfind k (keys1 s1) = Some ent -> k_head ent = head_of k (log1 s1).
Proof. intros H. pose proof (sim_keys _ _ HS k) as K. rewrite H in K. apply K. Qed.

Lemma ent_del k ent : kfind k (keys1 s1) = Some ent -> k_del ent = true -> k_head ent = None /\ k_flags ent = 0%N.
Proof. intros H. pose proof (sim_keys _ _ HS k) as K. rewrite H in K. apply K. Qed.

Lemma cur_val_ok k ent : kfind k (keys1 s1) = Some ent -> cur_val s1 ent = kfind k (all0 s0).
Proof.
  intros H. unfold cur_val. rewrite (ent_head _ _ H), all_jof, <- cur_spec.
  destruct (head_of k (log1 s1)); reflexivity.
Qed.

Lemma absent_ok k : kfind k (keys1 s1) = None -> kfind k (all0 s0) = None.
Proof.
  intros H. pose proof (sim_keys _ _ HS k) as K. rewrite H in K. rewrite all_jof. apply head_of_none_find. exact K.
Qed.

Lemma snap_split : exists pre rest, log1 s1 = pre ++ rest /\ base0 s0 = jof rest /\ length rest = snap_pos s1.
Proof.
  destruct (Rlev_base _ _ _ _ _ _ _ (sim_lev _ _ HS)) as (pre & rest & E & B & L).
  exists pre, rest. repeat split; assumption.
Qed.

Lemma snap_val_ok k ent : kfind k (keys1 s1) = Some ent -> snap_val s1 ent = kfind k (base0 s0).
Proof.
  intros H. destruct snap_split as (pre & rest & E & B & L). unfold snap_val. rewrite (ent_head _ _ H).
  pose proof (walk_spec (fun a' _ => Nat.leb a' (snap_pos s1)) k (log1 s1) (sim_chain _ _ HS)) as W.
  rewrite B. destruct (head_of k (log1 s1)) as [a|] eqn:Hh.
  - cbn [walk_opt] in W. rewrite W, E, <- L. apply hist_find_below.
  - apply head_of_none_find in Hh. rewrite E, jof_app, kfind_app in Hh.
    destruct (kfind k (jof pre)); [discriminate|]. symmetry. exact Hh.
Qed.

Lemma snap_absent_ok k : kfind k (keys1 s1) = None -> kfind k (base0 s0) = None.
Proof.
  intros H. destruct snap_split as (pre & rest & E & B & L). pose proof (absent_ok _ H) as A.
  rewrite all_jof, E, jof_app, kfind_app in A. rewrite B. destruct (kfind k (jof pre)); [discriminate|exact A].
Qed.

Lemma iter_ok (valof : kent -> option val) (src : journal) lo hi :
  (forall k ent, kfind k (keys1 s1) = Some ent -> valof ent = kfind k src) ->
  (forall k ent, kfind k (keys1 s1) = Some ent -> k_del ent = true -> valof ent = None) ->
  iter1 valof lo hi (keys1 s1) = iter_list src lo hi (kf0 s0).
Proof.
  intros Hv Hd. unfold iter1, iter_list. rewrite (sim_kf _ _ HS). unfold live. rewrite flat_map_kfmap.
  apply flat_map_ext_in. intros [k ent] Hin. cbn [fst snd].
  pose proof (In_kfind _ _ _ (sim_sorted _ _ HS) Hin) as Hf.
  unfold live_ent. destruct (k_del ent) eqn:D.
  - rewrite (Hd _ _ Hf D). destruct (in_bounds lo hi k); reflexivity.
  - cbn [fst]. rewrite (Hv _ _ Hf). reflexivity.
Qed.

Lemma flags_of_eq k : flags_of0 k s0 = flags_of1 k s1.
Proof.
  unfold flags_of0, flags_of1. rewrite (sim_kf _ _ HS). unfold live. rewrite kfind_kfmap by apply (sim_sorted _ _ HS).
  destruct (kfind k (keys1 s1)) as [ent|] eqn:H; [|reflexivity].
  unfold live_ent. destruct (k_del ent) eqn:D; [|reflexivity].
  destruct (ent_del _ _ H D) as [_ F]. symmetry. exact F.
Qed.

Lemma inspect_spec pre lj rest seen :
  log1 s1 = pre ++ lj ++ rest ->
  (forall k, existsb (bytes_eqb k) seen = true <-> head_of k pre <> None) ->
  inspect_n (keys1 s1) (length rest) (length (lj ++ rest)) (lj ++ rest) =
    map (fun p => (fst p, flags_of0 (fst p) s0, Some (snd p))) (first_occ seen (jof lj)).
Proof.
  revert pre seen. induction lj as [|e lj IH]; intros pre seen E Hs.
  - cbn [app jof map first_occ]. destruct rest as [|e r]; [reflexivity|]. cbn [inspect_n length]. rewrite Nat.eqb_refl. reflexivity.
  - cbn [app length inspect_n]. destruct (Nat.eqb_spec (S (length (lj ++ rest))) (length rest)) as [Hn|_].
    { rewrite app_length in Hn. lia. }
    cbn [jof map first_occ]. fold (jof lj).
    set (k := e_key e).
    pose proof (sim_keys _ _ HS k) as K. rewrite E, head_of_app in K. cbn [app head_of] in K. fold k in K.
    rewrite bytes_eqb_refl in K. cbn [length] in K.
    assert (E' : log1 s1 = (pre ++ [e]) ++ lj ++ rest) by (rewrite E, <- app_assoc; reflexivity).
    destruct (kfind k (keys1 s1)) as [ent|] eqn:Hf; [|destruct (head_of k pre); discriminate].
    destruct K as [Kh Kd].
    destruct (head_of k pre) as [x|] eqn:Hp.
    + assert (Hseen : existsb (bytes_eqb k) seen = true) by (apply Hs; rewrite Hp; discriminate).
      rewrite Hseen, Kh. pose proof (head_of_bound _ _ _ Hp).
      destruct (Nat.eqb_spec (x + S (length (lj ++ rest))) (S (length (lj ++ rest)))); [lia|]. cbn [app].
      apply (IH (pre ++ [e]) seen E').
      intros k'. rewrite Hs, head_of_app. cbn [head_of]. fold k.
      destruct (head_of k' pre) eqn:H'; [split; intros; discriminate|].
      destruct (bytes_eqb k' k) eqn:Ek; [|tauto].
      apply bytes_eqb_eq in Ek. subst k'. congruence.
    + assert (Hseen : existsb (bytes_eqb k) seen = false).
      { destruct (existsb (bytes_eqb k) seen) eqn:X; [|reflexivity]. apply Hs in X. congruence. }
      rewrite Hseen, Kh, Nat.eqb_refl. cbn [app map fst snd]. f_equal.
      * f_equal. f_equal. rewrite flags_of_eq. unfold flags_of1. rewrite Hf. reflexivity.
      * apply (IH (pre ++ [e]) (k :: seen) E').
        intros k'. cbn [existsb]. rewrite head_of_app. cbn [head_of]. fold k.
        destruct (bytes_eqb k' k) eqn:Ek.
        -- cbn [orb]. destruct (head_of k' pre); split; intros; try reflexivity; discriminate.
        -- cbn [orb]. rewrite Hs. destruct (head_of k' pre); split; intros; congruence.
Qed.

Theorem obs_eq o : is_mutator o = false -> obs1 o s1 = obs0 o s0.
Proof.
  destruct o; cbn [is_mutator]; try discriminate; intros _; cbn [obs1 obs0].
  - f_equal. destruct (kfind k (keys1 s1)) as [ent|] eqn:H; [apply cur_val_ok; exact H|symmetry; apply absent_ok; exact H].
  - f_equal. rewrite (sim_kf _ _ HS). unfold live. rewrite kfind_kfmap by apply (sim_sorted _ _ HS).
    destruct (kfind k (keys1 s1)); reflexivity.
  - rewrite (sim_len _ _ HS), (sim_kf _ _ HS). reflexivity.
  - rewrite (sim_size _ _ HS). unfold size0. rewrite all_jof, (sim_kf _ _ HS). reflexivity.
  - rewrite (sim_dirty _ _ HS). reflexivity.
  - f_equal. f_equal. apply iter_ok.
    + intros k ent H. apply cur_val_ok. exact H.
    + intros k ent H D. unfold cur_val. destruct (ent_del _ _ H D) as [-> _]. reflexivity.
  - f_equal. f_equal. rewrite (sim_kf _ _ HS). unfold live. rewrite flat_map_kfmap.
    apply flat_map_ext_in. intros [k ent] Hin. cbn [fst snd].
    pose proof (In_kfind _ _ _ (sim_sorted _ _ HS) Hin) as Hf.
    unfold live_ent. destruct (k_del ent); [rewrite andb_false_r; reflexivity|].
    rewrite andb_true_r. cbn [fst snd]. rewrite (cur_val_ok _ _ Hf). reflexivity.
  - f_equal. destruct (kfind k (keys1 s1)) as [ent|] eqn:H; [apply snap_val_ok; exact H|symmetry; apply snap_absent_ok; exact H].
  - f_equal. f_equal. apply iter_ok.
    + intros k ent H. apply snap_val_ok. exact H.
    + intros k ent H D. unfold snap_val. destruct (ent_del _ _ H D) as [-> _]. reflexivity.
  - rewrite depth_eq. destruct (Nat.eqb h 0 || Nat.ltb (depth1 s1) h) eqn:G; [reflexivity|].
    apply orb_false_elim in G. destruct G as [G1 G2]. apply Nat.eqb_neq in G1. apply Nat.ltb_ge in G2.
    destruct (Rlev_upto _ _ _ _ _ _ _ (depth1 s1 - h) (sim_lev _ _ HS)) as (li & rest & E & L & C).
    { unfold depth1 in *. lia. }
    f_equal. rewrite <- L, E, C.
    apply (inspect_spec [] li rest []); [exact E|].
    intros k'. cbn. split; [discriminate|congruence].
  - destruct (kfind k (keys1 s1)) as [ent|] eqn:H.
    + rewrite (ent_head _ _ H). pose proof (walk_spec (fun _ v => hpred_holds p v) k (log1 s1) (sim_chain _ _ HS)) as W.
      rewrite all_jof. destruct (head_of k (log1 s1)) as [a|] eqn:Hh.
      * cbn [walk_opt] in W. rewrite W, hist_find_vals.
        destruct (history k (jof (log1 s1))) eqn:Hy.
        { apply history_nil_find in Hy. apply head_of_none_find in Hy. congruence. }
        rewrite <- Hy. reflexivity.
      * apply head_of_none_find in Hh. apply history_nil_find in Hh. rewrite Hh. reflexivity.
    + pose proof (absent_ok _ H) as A. rewrite all_jof in A. apply history_nil_find in A. rewrite all_jof, A. reflexivity.
Qed.
End Obs.

(* two related pairs: what the reference models answer alike, the value logs answer alike *)
Lemma obs_transfer s1 s0 s1' s0' o :
  Sim s1 s0 -> Sim s1' s0' -> is_mutator o = false -> obs0 o s0' = obs0 o s0 -> obs1 o s1' = obs1 o s1.
Proof. intros HS HS' M E. rewrite (obs_eq _ _ HS' o M), (obs_eq _ _ HS o M). exact E. Qed.
