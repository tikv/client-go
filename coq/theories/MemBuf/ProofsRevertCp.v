(* MemBuf/ProofsRevertCp.v — RevertToCheckpoint gives back the values of the moment the checkpoint was taken *)
From Verif Require Import MemBuf.Model MemBuf.ProofsSim MemBuf.ProofsObs MemBuf.ProofsStep MemBuf.ProofsProps.

(* operations that write (values, flags) or only read: they neither open/close a level nor touch the tokens *)
Definition plain_op (o : op) : bool :=
  match o with
  | OStaging | ORelease _ | OCleanup _ | OCheckpoint | ORevert _ | OSetLimits _ _ => false
  | _ => true
  end.

(* everything but the current level's journal: the levels below it (None when no stage is open and the base level
   itself is current) and the token registers *)
Definition frame0 (s : st0) : option (list journal * journal) * list (list journal) :=
  (match stages0 s with _ :: js => Some (js, base0 s) | [] => None end, regs0 s).

Lemma with_top0_frame s j : frame0 (with_top0 s j) = frame0 s.
Proof. unfold frame0, with_top0. destruct (stages0 s); reflexivity. Qed.

Lemma write0_frame k v s : frame0 (write0 k v s) = frame0 s.
Proof. unfold write0. destruct (kfind k (top0 s)); [destruct (_ && _)|]; apply with_top0_frame. Qed.

Lemma plain_step_frame s o : plain_op o = true -> frame0 (fst (step0 s o)) = frame0 s.
Proof.
  destruct o; cbn [plain_op]; try discriminate; intros _; cbn [step0 fst]; try reflexivity.
  - unfold set0. destruct (_ <? _)%N; [reflexivity|]. destruct (_ <? _)%N; [reflexivity|]. exact (write0_frame k v _).
  - unfold updflags0. destruct (_ <? _)%N; reflexivity.
Qed.

Lemma plain_exec_frame ops : forall s, forallb plain_op ops = true -> frame0 (exec0 s ops) = frame0 s.
Proof.
  induction ops as [|o r IH]; intros s H; [reflexivity|]. cbn [forallb] in H. apply andb_true_iff in H. destruct H as [H1 H2].
  cbn [exec0]. rewrite (IH _ H2). apply plain_step_frame. exact H1.
Qed.

(* L0: checkpoint, any writes, revert to that token: the journals are those of the checkpoint *)
Lemma revert0_restores s writes :
  forallb plain_op writes = true ->
  let i := length (reg0 s) in
  let s3 := fst (revert0 i (exec0 (fst (checkpoint0 s)) writes)) in
  stages0 s3 = stages0 s /\ base0 s3 = base0 s.
Proof.
  intros Hw i s3. set (sc := fst (checkpoint0 s)). set (s2 := exec0 sc writes) in *.
  pose proof (plain_exec_frame writes sc Hw) as F. fold s2 in F.
  assert (Ereg : nth_error (reg0 s2) i = Some (top0 s)).
  { unfold reg0. rewrite (f_equal snd F : regs0 s2 = regs0 sc). unfold sc, checkpoint0. cbn [fst with_lastcp0 with_regs0 regs0 hd]. unfold i, reg0.
    rewrite nth_error_app2, PeanoNat.Nat.sub_diag by apply le_n. reflexivity. }
  subst s3. unfold revert0. fold sc. fold s2. rewrite Ereg. cbn [fst with_lastcp0 with_regs0 with_kf0 stages0 base0].
  rewrite with_top0_eq. cbn [stages0 base0].
  assert (Esc : stages0 sc = stages0 s /\ base0 sc = base0 s) by (unfold sc, checkpoint0; cbn; split; reflexivity).
  destruct Esc as [E1 E2]. unfold frame0 in F. unfold top0.
  destruct (stages0 s2) as [|j2 js2]; destruct (stages0 sc) as [|jc jsc] eqn:Ec; try discriminate.
  - cbn [setTopJ setTopB]. rewrite <- E1. split; reflexivity.
  - cbn [setTopJ setTopB]. inversion F; subst. rewrite <- E1. split; reflexivity.
Qed.

Lemma exec0_app a b : forall s, exec0 s (a ++ b) = exec0 (exec0 s a) b.
Proof. induction a as [|o a IH]; intros s; [reflexivity|]. cbn [app exec0]. apply IH. Qed.
Lemma exec1_app a b : forall s, exec1 s (a ++ b) = exec1 (exec1 s a) b.
Proof. induction a as [|o a IH]; intros s; [reflexivity|]. cbn [app exec1]. apply IH. Qed.

Lemma reg_length_eq s1 s0 : Sim s1 s0 -> length (reg1 s1) = length (reg0 s0).
Proof.
  intros HS. destruct (Rlev_top _ _ _ _ _ _ _ (sim_lev _ _ HS)) as (lj & rest & _ & _ & _ & _ & (F & _ & _) & _).
  unfold reg1, reg0. exact (Forall2_len _ _ _ F).
Qed.

Lemma revert_checkpoint_restores :
  forall pre writes, forallb plain_op writes = true ->
    let s := exec1 init1 pre in
    let i := length (reg1 s) in
    let s' := exec1 init1 (pre ++ OCheckpoint :: writes ++ [ORevert i]) in
    (forall k, obs1 (OGet k) s' = obs1 (OGet k) s) /\
    (forall k, obs1 (OSnapGet k) s' = obs1 (OSnapGet k) s) /\
    (forall k p, obs1 (OHist k p) s' = obs1 (OHist k p) s) /\
    (forall rv lo hi, obs1 (OIter rv lo hi) s' = obs1 (OIter rv lo hi) s).
Proof.
  intros pre writes Hw s i s'.
  pose proof (sim_reachable pre) as HS. pose proof (sim_reachable (pre ++ OCheckpoint :: writes ++ [ORevert i])) as HS'.
  fold s in HS. fold s' in HS'.
  destruct (revert0_restores (exec0 init0 pre) writes Hw) as [Es Eb]. rewrite <- (reg_length_eq _ _ HS) in Es, Eb. fold i in Es, Eb.
  set (s0' := exec0 init0 (pre ++ OCheckpoint :: writes ++ [ORevert i])) in *.
  assert (E0 : s0' = fst (revert0 i (exec0 (fst (checkpoint0 (exec0 init0 pre))) writes))).
  { unfold s0'. rewrite exec0_app. cbn [exec0 step0]. rewrite exec0_app. reflexivity. }
  rewrite <- E0 in Es, Eb.
  assert (Ea : all0 s0' = all0 (exec0 init0 pre)) by (unfold all0; rewrite Es, Eb; reflexivity).
  destruct (cur_obs_same _ _ _ _ HS HS' Ea) as (G & H & I). destruct (snap_obs_same _ _ _ _ HS HS' Eb) as [_ S].
  exact (conj G (conj S (conj H I))).
Qed.
