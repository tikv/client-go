(* MemBuf/ProofsAcct.v — Len/Size bookkeeping: where an upsert or a removal changes the table, and what that does to
   its length and to size_of *)
From Verif Require Import Base.Lex MemBuf.Flags MemBuf.KMap MemBuf.Ops MemBuf.Staged MemBuf.ProofsKMap.

Lemma kupsert_old {A} k (a a0 : A) t :
  ksorted t -> kfind k t = Some a0 -> exists pre post, t = pre ++ (k, a0) :: post /\ kupsert k a t = pre ++ (k, a) :: post.
Proof.
  induction t as [|[k' a'] r IH]; intros S H; [discriminate|].
  destruct S as [Sl Sr]. cbn [kfind] in H. cbn [kupsert]. unfold bytes_eqb in H. destruct (lex_cmp k k') eqn:E.
  - apply lex_cmp_eq in E. subst k'. inversion H; subst. exists [], r. split; reflexivity.
  - exfalso. assert (K : klb k r) by (eapply klb_trans; eassumption). rewrite (klb_find _ _ K) in H. discriminate.
  - destruct (IH Sr H) as (pre & post & -> & ->). exists ((k', a') :: pre), post. split; reflexivity.
Qed.

Lemma kupsert_new {A} k (a : A) t :
  kfind k t = None -> exists pre post, t = pre ++ post /\ kupsert k a t = pre ++ (k, a) :: post.
Proof.
  induction t as [|[k' a'] r IH]; intros H; [exists [], []; split; reflexivity|].
  cbn [kfind] in H. cbn [kupsert]. unfold bytes_eqb in H. destruct (lex_cmp k k'); try discriminate.
  - exists [], ((k', a') :: r). split; reflexivity.
  - destruct (IH H) as (pre & post & -> & ->). exists ((k', a') :: pre), post. split; reflexivity.
Qed.

Lemma kremove_old {A} k (a0 : A) t :
  kfind k t = Some a0 -> exists pre post, t = pre ++ (k, a0) :: post /\ kremove k t = pre ++ post.
Proof.
  induction t as [|[k' a'] r IH]; intros H; [discriminate|].
  cbn [kfind] in H. cbn [kremove]. destruct (bytes_eqb k k') eqn:E.
  - apply bytes_eqb_eq in E. subst k'. inversion H; subst. exists [], r. split; reflexivity.
  - destruct (IH H) as (pre & post & -> & ->). exists ((k', a') :: pre), post. split; reflexivity.
Qed.

Lemma kupsert_same {A} k (a : A) t : ksorted t -> kfind k t = Some a -> kupsert k a t = t.
Proof. intros S H. destruct (kupsert_old k a a t S H) as (pre & post & E & ->). symmetry. exact E. Qed.

Lemma kupsert_length_old {A} k (a a0 : A) t : ksorted t -> kfind k t = Some a0 -> length (kupsert k a t) = length t.
Proof. intros S H. destruct (kupsert_old k a a0 t S H) as (pre & post & -> & ->). rewrite !app_length. reflexivity. Qed.

Lemma kupsert_length_new {A} k (a : A) t : kfind k t = None -> length (kupsert k a t) = S (length t).
Proof. intros H. destruct (kupsert_new k a t H) as (pre & post & -> & ->). rewrite !app_length. apply Nat.add_succ_r. Qed.

Lemma kremove_length {A} k (a0 : A) t : kfind k t = Some a0 -> S (length (kremove k t)) = length t.
Proof. intros H. destruct (kremove_old k a0 t H) as (pre & post & -> & ->). rewrite !app_length. symmetry. apply Nat.add_succ_r. Qed.

Section SZ.
Implicit Types (src : journal) (kf : kmap flags).

Lemma size_of_cons src k f kf : size_of src ((k, f) :: kf) = blen k + vlen (kfind k src) + size_of src kf.
Proof. reflexivity. Qed.

Lemma size_of_ext src src' kf :
  (forall k f, In (k, f) kf -> vlen (kfind k src) = vlen (kfind k src')) -> size_of src kf = size_of src' kf.
Proof.
  induction kf as [|[k f] r IH]; intros H; [reflexivity|].
  rewrite !size_of_cons. rewrite (H k f (or_introl eq_refl)). rewrite IH; [reflexivity|].
  intros k' f' Hin. apply (H k' f'). right. exact Hin.
Qed.

Lemma size_of_app src kf kf' : size_of src (kf ++ kf') = size_of src kf + size_of src kf'.
Proof. induction kf as [|[k f] r IH]; [reflexivity|]. cbn [app]. rewrite !size_of_cons, IH. lia. Qed.

Lemma size_of_remove src k f kf :
  kfind k kf = Some f -> size_of src kf = blen k + vlen (kfind k src) + size_of src (kremove k kf).
Proof. intros H. destruct (kremove_old k f kf H) as (pre & post & -> & ->). rewrite !size_of_app, size_of_cons. lia. Qed.

Lemma size_of_upsert_old src k f f0 kf :
  ksorted kf -> kfind k kf = Some f0 -> size_of src (kupsert k f kf) = size_of src kf.
Proof. intros S H. destruct (kupsert_old k f f0 kf S H) as (pre & post & -> & ->). rewrite !size_of_app, !size_of_cons. reflexivity. Qed.

Lemma size_of_upsert_new src k f kf :
  kfind k kf = None -> size_of src (kupsert k f kf) = blen k + vlen (kfind k src) + size_of src kf.
Proof. intros H. destruct (kupsert_new k f kf H) as (pre & post & -> & ->). rewrite !size_of_app, size_of_cons. lia. Qed.

(* a change of the source at key k only *)
Lemma size_of_change src src' k f kf :
  ksorted kf -> kfind k kf = Some f ->
  (forall k', k' <> k -> kfind k' src' = kfind k' src) ->
  size_of src' kf + vlen (kfind k src) = size_of src kf + vlen (kfind k src').
Proof.
  intros S H Hext. rewrite (size_of_remove src _ _ _ H), (size_of_remove src' _ _ _ H).
  rewrite (size_of_ext src' src (kremove k kf)); [lia|].
  intros k' f' Hin. rewrite Hext; [reflexivity|].
  intros ->. pose proof (kfind_remove_same k kf S) as N. rewrite (In_kfind _ _ _ (ksorted_remove k kf S) Hin) in N. discriminate.
Qed.
End SZ.
