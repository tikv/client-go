(* MemBuf/ProofsArt.v — the radix tree shape L2 is an ordered map: well-formedness, search, in-order *)
From Verif Require Import Base.Lex MemBuf.KMap MemBuf.ProofsKMap MemBuf.Art.
From Coq Require Import Arith.
Local Open Scope nat_scope.

Scheme art_mind := Induction for art Sort Prop
  with children_mind := Induction for children Sort Prop.
Combined Scheme art_children_ind from art_mind, children_mind.

(* well-formedness: every leaf below a node extends the node's path *)
Definition ext (p k : list N) : Prop := exists r, k = p ++ r.

Fixpoint ch_lb (b : N) (c : children) : Prop :=
  match c with CNil => True | CCons b' _ r => (b < b')%N /\ ch_lb b r end.

Fixpoint wf (path : list N) (t : art) : Prop :=
  match t with
  | Leaf k => ext path k
  | Node plen pfx ipl ch =>
      exists P, length P = plen /\ pfx = firstn max_in_node P /\
        match ipl with Some k => k = path ++ P | None => True end /\
        wf_ch (path ++ P) ch /\
        (ipl <> None \/ ch <> CNil \/ (path = [] /\ plen = 0))
  end
with wf_ch (path : list N) (c : children) : Prop :=
  match c with
  | CNil => True
  | CCons b t r => wf (path ++ [b]) t /\ wf_ch path r /\ ch_lb b r
  end.

Definition wf_root (o : option art) : Prop := match o with Some t => wf [] t | None => True end.

Lemma valid_at q x : valid (q ++ x) (length q) = match x with [] => false | _ => true end.
Proof. unfold valid. rewrite app_length. destruct x; cbn [length]; [apply Nat.ltb_ge|apply Nat.ltb_lt]; lia. Qed.

Lemma snoc_app (q : list N) b x : q ++ b :: x = (q ++ [b]) ++ x.
Proof. rewrite <- app_assoc. reflexivity. Qed.

Lemma skipn_app_add {A} (p r : list A) n : skipn (length p + n) (p ++ r) = skipn n r.
Proof. induction p; cbn; auto. Qed.

Lemma firstn_min_len (a : list N) n : firstn (Nat.min (length a) n) a = firstn n a.
Proof.
  destruct (Nat.le_ge_cases (length a) n).
  - rewrite Nat.min_l by lia. rewrite firstn_all, firstn_all2 by lia. reflexivity.
  - rewrite Nat.min_r by lia. reflexivity.
Qed.

Lemma nth_firstn_lt (l : list N) i n : i < n -> nth i (firstn n l) 0%N = nth i l 0%N.
Proof.
  revert i n. induction l as [|x l IH]; intros i n H; [rewrite firstn_nil; reflexivity|].
  destruct n; [lia|]. destruct i; [reflexivity|]. cbn. apply IH. lia.
Qed.

Lemma ext_trans p q k : ext (p ++ q) k -> ext p k.
Proof. intros (r & ->). exists (q ++ r). rewrite app_assoc. reflexivity. Qed.

Lemma lcp_app_same C a b : lcp (C ++ a) (C ++ b) = length C + lcp a b.
Proof. induction C as [|x C IH]; [reflexivity|]. cbn [app lcp length]. rewrite N.eqb_refl, IH. reflexivity. Qed.

Lemma lcp_firstn_r a P n : lcp a (firstn n P) = Nat.min (lcp a P) n.
Proof.
  revert a n. induction P as [|y P IH]; intros a n.
  - rewrite firstn_nil. destruct a; cbn; lia.
  - destruct n as [|n]; [cbn; destruct a; cbn; lia|]. destruct a as [|x a]; [reflexivity|].
    cbn [firstn lcp]. destruct (N.eqb x y); [rewrite IH|]; cbn; lia.
Qed.

Lemma search_sound_both :
  (forall t k d k', search k d t = Some k' -> k' = k /\ In k (inorder t)) /\
  (forall c k d b k', search_ch k d b c = Some k' -> k' = k /\ In k (inorder_ch c)).
Proof.
  apply art_children_ind.
  - intros k0 k d k'. cbn [search inorder]. destruct (bytes_eqb k k0) eqn:E; [|discriminate].
    apply bytes_eqb_eq in E. subst. intros H; inversion H. split; [reflexivity|left; reflexivity].
  - intros plen pfx ipl ch IH k d k'. cbn [search inorder].
    destruct (_ <? _); [discriminate|]. destruct (valid k (d + plen)).
    + intros H. destruct (IH _ _ _ _ H) as [E I]. split; [exact E|]. apply in_or_app. right. exact I.
    + destruct ipl as [lk|]; [|discriminate]. destruct (bytes_eqb k lk) eqn:E; [|discriminate].
      apply bytes_eqb_eq in E. subst. intros H; inversion H. split; [reflexivity|]. apply in_or_app. left. left. reflexivity.
  - intros k d b k'. discriminate.
  - intros b t IHt r IHr k d b0 k'. cbn [search_ch inorder_ch]. destruct (N.eqb b0 b).
    + intros H. destruct (IHt _ _ _ H) as [E I]. split; [exact E|]. apply in_or_app. left. exact I.
    + intros H. destruct (IHr _ _ _ _ H) as [E I]. split; [exact E|]. apply in_or_app. right. exact I.
Qed.

Definition below_byte (q : list N) (b : N) (k : key) : Prop := exists b' r, k = q ++ b' :: r /\ (b < b')%N.

Lemma ch_lb_weaken b b' c : (b < b')%N -> ch_lb b' c -> ch_lb b c.
Proof. intros H. induction c as [|b2 t r IH]; cbn; [auto|]. intros [H1 H2]. split; [lia|auto]. Qed.

Lemma wf_ext_both :
  (forall t path k, wf path t -> In k (inorder t) -> ext path k) /\
  (forall c q k, wf_ch q c -> In k (inorder_ch c) -> exists b r, k = q ++ b :: r) .
Proof.
  apply art_children_ind.
  - intros k0 path k H [<-|[]]. exact H.
  - intros plen pfx ipl ch IH path k (P & _ & _ & Hi & Hc & _) Hin. cbn [inorder] in Hin.
    apply in_app_or in Hin. destruct Hin as [Hin|Hin].
    + destruct ipl as [lk|]; [|contradiction]. destruct Hin as [<-|[]]. subst lk. exists P. reflexivity.
    + destruct (IH _ _ Hc Hin) as (b & r & ->). exists (P ++ b :: r). rewrite app_assoc. reflexivity.
  - intros q k _ [].
  - intros b t IHt r IHr q k (Ht & Hr & _) Hin. cbn [inorder_ch] in Hin. apply in_app_or in Hin. destruct Hin as [Hin|Hin].
    + destruct (IHt _ _ Ht Hin) as (x & ->). exists b, x. rewrite <- app_assoc. reflexivity.
    + exact (IHr _ _ Hr Hin).
Qed.

Lemma ch_keys_above c : forall q b k, wf_ch q c -> ch_lb b c -> In k (inorder_ch c) -> below_byte q b k.
Proof.
  induction c as [|b' t r IH].
  - intros q b k _ _ [].
  - intros q b k (Ht & Hr & Hl) [Hb Hlb] Hin. cbn [inorder_ch] in Hin. apply in_app_or in Hin. destruct Hin as [Hin|Hin].
    + destruct (proj1 wf_ext_both _ _ _ Ht Hin) as (x & ->). exists b', x. rewrite <- app_assoc. split; [reflexivity|exact Hb].
    + apply (IH q b k Hr); [|exact Hin]. exact Hlb.
Qed.

Fixpoint lsorted (l : list key) : Prop :=
  match l with [] => True | x :: r => Forall (lex_lt x) r /\ lsorted r end.

Lemma lsorted_asc l : lsorted l -> asc (fun k => k) l.
Proof. exact (fun H => H). Qed.

Lemma lsorted_app a b : lsorted a -> lsorted b -> (forall x y, In x a -> In y b -> lex_lt x y) -> lsorted (a ++ b).
Proof.
  induction a as [|x a IH]; intros Sa Sb H; [exact Sb|]. destruct Sa as [Fa Sa]. cbn. split.
  - apply Forall_app. split; [exact Fa|]. apply Forall_forall. intros y Hy. apply H; [left; reflexivity|exact Hy].
  - apply IH; [exact Sa|exact Sb|]. intros x' y Hx Hy. apply H; [right; exact Hx|exact Hy].
Qed.

Lemma inorder_sorted_both :
  (forall t path, wf path t -> lsorted (inorder t)) /\
  (forall c q, wf_ch q c -> lsorted (inorder_ch c)).
Proof.
  apply art_children_ind.
  - intros k path _. cbn. split; [constructor|exact I].
  - intros plen pfx ipl ch IH path (P & _ & _ & Hi & Hc & _). cbn [inorder].
    apply lsorted_app; [destruct ipl; cbn; [split; [constructor|exact I]|exact I]|exact (IH _ Hc)|].
    intros x y Hx Hy. destruct ipl as [lk|]; [|contradiction]. destruct Hx as [<-|[]]. subst lk.
    destruct (proj2 wf_ext_both _ _ _ Hc Hy) as (b & r & ->). apply lex_prefix_lt.
  - intros q _. exact I.
  - intros b t IHt r IHr q (Ht & Hr & Hl). cbn [inorder_ch].
    apply lsorted_app; [exact (IHt _ Ht)|exact (IHr _ Hr)|].
    intros x y Hx Hy. destruct (proj1 wf_ext_both _ _ _ Ht Hx) as (rx & ->).
    destruct (ch_keys_above _ _ _ _ Hr Hl Hy) as (b' & ry & -> & Hlt). rewrite <- app_assoc. apply lex_branch_lt. exact Hlt.
Qed.

Lemma keys_of_tree_sorted o : wf_root o -> lsorted (keys_of_tree o).
Proof. destruct o as [t|]; intros H; [exact (proj1 inorder_sorted_both t [] H)|exact I]. Qed.

Lemma lcp_prefix_ok P r n : Nat.ltb (lcp (P ++ r) (firstn n P)) (Nat.min (length P) n) = false.
Proof. rewrite lcp_firstn_r. rewrite <- (app_nil_r P) at 2. rewrite lcp_app_same. apply Nat.ltb_ge. lia. Qed.

Lemma search_complete_both :
  (forall t path k, wf path t -> In k (inorder t) -> search k (length path) t = Some k) /\
  (forall c q k, wf_ch q c -> In k (inorder_ch c) -> search_ch k (length q) (byte_at k (length q)) c = Some k).
Proof.
  apply art_children_ind.
  - intros k0 path k _ [<-|[]]. cbn [search]. rewrite bytes_eqb_refl. reflexivity.
  - intros plen pfx ipl ch IH path k (P & HP & Hpfx & Hi & Hc & _) Hin. cbn [search inorder] in *.
    apply in_app_or in Hin. subst plen pfx. destruct Hin as [Hin|Hin].
    + destruct ipl as [lk|]; [|contradiction]. destruct Hin as [<-|[]]. subst lk.
      rewrite skipn_app_len. rewrite <- (app_nil_r P) at 1. rewrite lcp_prefix_ok.
      unfold valid. rewrite app_length, Nat.ltb_irrefl, bytes_eqb_refl. reflexivity.
    + destruct (proj2 wf_ext_both _ _ _ Hc Hin) as (b & r & ->).
      rewrite <- (app_assoc path P) at 1. rewrite skipn_app_len, lcp_prefix_ok, <- app_length, valid_at. exact (IH _ _ Hc Hin).
  - intros q k _ [].
  - intros b t IHt r IHr q k (Ht & Hr & Hl) Hin. cbn [search_ch inorder_ch] in *. apply in_app_or in Hin. destruct Hin as [Hin|Hin].
    + destruct (proj1 wf_ext_both _ _ _ Ht Hin) as (x & Ek).
      assert (Eb : byte_at k (length q) = b) by (unfold byte_at; rewrite Ek, <- app_assoc; apply nth_middle).
      rewrite Eb, N.eqb_refl, <- (last_length q b). exact (IHt _ _ Ht Hin).
    + destruct (ch_keys_above _ _ _ _ Hr Hl Hin) as (b' & ry & Ek & Hlt).
      assert (Eb : byte_at k (length q) = b') by (unfold byte_at; rewrite Ek; apply nth_middle).
      rewrite Eb. destruct (N.eqb_spec b' b); [lia|]. rewrite <- Eb. exact (IHr _ _ Hr Hin).
Qed.

Lemma lookup_membership o k : wf_root o -> (lookup k o = true <-> In k (keys_of_tree o)).
Proof.
  destruct o as [t|]; intros H; cbn [lookup keys_of_tree]; [|split; [discriminate|contradiction]]. split.
  - destruct (search k 0 t) eqn:E; [|discriminate]. intros _. exact (proj2 (proj1 search_sound_both _ _ _ _ E)).
  - intros Hin. change 0%nat with (@length N []). rewrite (proj1 search_complete_both t [] k H Hin). reflexivity.
Qed.

Lemma seek_ge_spec_both lo :
  (forall t, seek_ge lo t = find (fun k => lex_leb lo k) (inorder t)) /\
  (forall c, seek_ge_ch lo c = find (fun k => lex_leb lo k) (inorder_ch c)).
Proof.
  apply art_children_ind.
  - intros k. cbn. destruct (lex_leb lo k); reflexivity.
  - intros plen pfx ipl ch IH. cbn [seek_ge inorder]. rewrite find_app. destruct ipl as [k|]; cbn [find].
    + destruct (lex_leb lo k); [reflexivity|exact IH].
    + exact IH.
  - reflexivity.
  - intros b t IHt r IHr. cbn [seek_ge_ch inorder_ch]. rewrite find_app, IHt, IHr. reflexivity.
Qed.

Definition build (ks : list key) : option art := fold_left (fun o k => insert_root k o) ks None.
Definition long_p : list N := repeat 7%N 22.
