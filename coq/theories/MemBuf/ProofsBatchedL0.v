(* MemBuf/ProofsBatchedL0.v — the batched iterator over the snapshot of the reference model *)
From Verif Require Import Base.Lex MemBuf.Flags MemBuf.KMap MemBuf.Staged MemBuf.ProofsKMap MemBuf.ProofsObs
  MemBuf.ProofsProps MemBuf.Batched MemBuf.ProofsBatched.

(* the snapshot as a sorted list: the keys of kf0 that have a value in the base level *)
Definition snapshot0 (s : st0) : kmap val := iter_list (base0 s) [] [] (kf0 s).

Lemma sel_iter_list src lo hi (kf : kmap flags) : sel (iter_list src [] [] kf) lo hi = iter_list src lo hi kf.
Proof.
  unfold sel, iter_list. induction kf as [|[k f] r IH]; [reflexivity|].
  cbn [flat_map fst]. change (in_bounds [] [] k) with true. rewrite filter_app, IH.
  destruct (kfind k src); cbn [filter fst app]; destruct (in_bounds lo hi k); reflexivity.
Qed.

Theorem batched_snapshot_ok s1 s0 rv lo hi :
  Sim s1 s0 ->
  batched (S (length (snapshot0 s0))) (snapshot0 s0) rv lo hi = maybe_rev rv (iter_list (base0 s0) lo hi (kf0 s0)).
Proof.
  intros HS. rewrite batched_ok.
  - unfold plain, snapshot0. rewrite sel_iter_list. destruct rv; reflexivity.
  - exact (iter_list_sorted _ _ _ [] [] HS).
Qed.
