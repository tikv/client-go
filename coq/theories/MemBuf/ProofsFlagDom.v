(* MemBuf/ProofsFlagDom.v — every flag word the buffer ever stores has 14 bits *)
From Verif Require Import Base.Lex MemBuf.Flags MemBuf.KMap MemBuf.ProofsKMap MemBuf.Staged MemBuf.FlagPreds.

Definition dom_ok (kf : kmap flags) : Prop := Forall (fun p => (snd p < flag_limit)%N) kf.

Lemma dom_find k f kf : dom_ok kf -> kfind k kf = Some f -> (f < flag_limit)%N.
Proof. intros D H. exact (proj1 (Forall_forall _ _) D _ (kfind_Some_In _ _ _ H)). Qed.

Lemma dom_demote k kf : dom_ok kf -> dom_ok (demote k kf).
Proof.
  intros D. unfold demote. destruct (kfind k kf) as [f|] eqn:E; [|exact D].
  destruct (fzero (and_persistent f)); [apply Forall_kremove; exact D|].
  apply Forall_kupsert; [|exact D]. apply and_persistent_closed. eapply dom_find; eassumption.
Qed.

Lemma dom_undo dropped remaining kf : dom_ok kf -> dom_ok (undo0 dropped remaining kf).
Proof.
  revert kf. induction dropped as [|[k v] d IH]; intros kf D; [exact D|]. cbn [undo0]. apply IH.
  destruct (kfind k (d ++ remaining)); [exact D|apply dom_demote; exact D].
Qed.

Lemma flags_of0_dom k s : dom_ok (kf0 s) -> (flags_of0 k s < flag_limit)%N.
Proof. intros D. unfold flags_of0. destruct (kfind k (kf0 s)) eqn:E; [eapply dom_find; eassumption|reflexivity]. Qed.

Lemma write0_kf k v s : kf0 (write0 k v s) = kf0 s.
Proof.
  unfold write0, with_top0. destruct (kfind k (top0 s)); [destruct (_ && _)|]; destruct (stages0 s); reflexivity.
Qed.

Lemma step0_dom s o : dom_ok (kf0 s) -> dom_ok (kf0 (fst (step0 s o))).
Proof.
  intros D. destruct o; cbn [step0 fst]; try exact D.
  - unfold set0. destruct (_ <? _)%N; [exact D|]. destruct (_ <? _)%N; [exact D|]. cbn [fst]. rewrite write0_kf.
    cbn [touch0 with_kf0 kf0]. apply Forall_kupsert; [|exact D]. apply apply_ops_closed. apply flags_of0_dom. exact D.
  - unfold updflags0. destruct (_ <? _)%N; [exact D|]. cbn [fst touch0 with_kf0 kf0].
    apply Forall_kupsert; [|exact D]. apply apply_ops_closed. apply flags_of0_dom. exact D.
  - unfold release0. destruct h; [exact D|]. destruct (negb _); [exact D|]. destruct (stages0 s) as [|j [|j2 r]]; exact D.
  - unfold cleanup0. destruct h; [exact D|]. destruct (_ <? _)%nat; [exact D|]. destruct (_ <? _)%nat; [exact D|].
    destruct (stages0 s); [exact D|]. cbn [fst kf0]. apply dom_undo. exact D.
  - unfold revert0. destruct (nth_error _ _); [|exact D]. cbn [fst with_lastcp0 with_regs0 with_kf0 kf0]. apply dom_undo. exact D.
Qed.

Lemma exec0_dom ops : forall s, dom_ok (kf0 s) -> dom_ok (kf0 (exec0 s ops)).
Proof. induction ops as [|o r IH]; intros s D; [exact D|]. cbn [exec0]. apply IH. apply step0_dom. exact D. Qed.
