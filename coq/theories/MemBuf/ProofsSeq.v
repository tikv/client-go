(* MemBuf/ProofsSeq.v — the sequence numbers guard the iterators: an operation that leaves WriteSeqNo alone
   leaves every iteration result alone; one that leaves SnapshotSeqNo alone leaves every snapshot read alone *)
From Verif Require Import Base.Lex MemBuf.Ops MemBuf.Staged MemBuf.VLog MemBuf.BatchedUse MemBuf.ProofsObs MemBuf.ProofsStep
  MemBuf.ProofsProps.

Lemma N_succ_neq (n : N) : (n + 1)%N <> n.
Proof. lia. Qed.

(* what an operation does to the two sequence numbers (s' is the state after it): nothing at all; bookkeeping that
   leaves both alone (opening a stage, taking a checkpoint, setting the limits); or a write, which bumps WriteSeqNo,
   and bumps SnapshotSeqNo unless it happens inside staging (before and after) *)
Inductive step_kind (s : st1) (o : op) (s' : st1) : Prop :=
| KSame : s' = s -> step_kind s o s'
| KBook : (o = OStaging \/ o = OCheckpoint \/ exists e b, o = OSetLimits e b) -> step_kind s o s'
| KWrite : wseq1 s' = (wseq1 s + 1)%N -> (sseq1 s' = (sseq1 s + 1)%N \/ (stages1 s <> [] /\ stages1 s' <> [])) -> step_kind s o s'.

Lemma step1_kind s o : step_kind s o (fst (step1 s o)).
Proof.
  destruct o; cbn [step1 fst]; try (apply KSame; reflexivity).
  - unfold set1. destruct (_ <? _)%N; [apply KSame; reflexivity|]. destruct (_ <? _)%N; [apply KSame; reflexivity|].
    cbn [fst]. set (t := touch1 _ _ s). destruct (setvalue1_shape k v t) as (l & ks & sz & ->).
    apply KWrite; [reflexivity|]. cbn [sseq1 stages1]. unfold t. cbn [touch1 sseq1 stages1]. unfold no_stage.
    destruct (stages1 s); [left; reflexivity|right; split; discriminate].
  - unfold updflags1. destruct (_ <? _)%N; [apply KSame; reflexivity|].
    apply KWrite; [reflexivity|]. cbn [fst touch1 sseq1 stages1]. unfold no_stage.
    destruct (stages1 s); [left; reflexivity|right; split; discriminate].
  - apply KBook. left. reflexivity.
  - unfold release1. destruct h as [|h]; [apply KSame; reflexivity|].
    destruct (Nat.eqb_spec (S h) (depth1 s)) as [Eh|]; cbn [negb]; [|apply KSame; reflexivity].
    unfold depth1 in Eh. destruct (stages1 s) as [|p ps] eqn:E; [apply KSame; reflexivity|].
    apply KWrite; [reflexivity|]. cbn [fst sseq1 stages1].
    destruct (Nat.eqb_spec (S h) 1) as [|E1]; [left; reflexivity|right]. split; [rewrite E; discriminate|].
    destruct ps; [cbn in Eh; lia|discriminate].
  - unfold cleanup1. destruct h as [|h]; [apply KSame; reflexivity|].
    destruct (Nat.ltb_spec (depth1 s) (S h)) as [|E1]; [apply KSame; reflexivity|].
    destruct (Nat.ltb_spec (S h) (depth1 s)) as [|E2]; [apply KSame; reflexivity|].
    unfold depth1 in E1, E2. destruct (stages1 s) as [|p ps] eqn:E; [apply KSame; reflexivity|].
    destruct (revert_to p s) as [l' [[ks ln] sz]]. apply KWrite; [reflexivity|]. cbn [fst sseq1 stages1].
    destruct (Nat.eqb_spec (S h) 1) as [|E3]; [left; reflexivity|right]. split; [rewrite E; discriminate|].
    destruct ps; [cbn in E1, E2; lia|discriminate].
  - apply KBook. right. left. reflexivity.
  - unfold revert1. destruct (nth_error (reg1 s) i) as [c|]; [|apply KSame; reflexivity].
    destruct (revert_to c s) as [l' [[ks ln] sz]]. apply KWrite; [reflexivity|]. cbn [fst sseq1 stages1]. unfold no_stage.
    destruct (stages1 s); [left; reflexivity|right; split; discriminate].
  - apply KBook. right. right. eauto.
Qed.

Lemma step1_wseq_same s o :
  wseq1 (fst (step1 s o)) = wseq1 s -> log1 (fst (step1 s o)) = log1 s /\ keys1 (fst (step1 s o)) = keys1 s.
Proof.
  intros H. destruct (step1_kind s o) as [E|B|W _].
  - rewrite E. split; reflexivity.
  - destruct B as [->|[->|(e & b & ->)]]; split; reflexivity.
  - rewrite W in H. destruct (N_succ_neq _ H).
Qed.

Lemma obs1_ext s s' o :
  log1 s' = log1 s -> keys1 s' = keys1 s ->
  match o with OGet _ | OGetFlags _ | OIter _ _ _ | OIterFlags _ _ _ | OHist _ _ => obs1 o s' = obs1 o s | _ => True end.
Proof.
  intros E1 E2. destruct o; try exact I; cbn [obs1]; unfold cur_val; rewrite ?E1, ?E2; reflexivity.
Qed.

Lemma snapshot_obs_same s1 s0 o :
  Sim s1 s0 -> sseq1 (fst (step1 s1 o)) = sseq1 s1 ->
  (forall rv lo hi, obs1 (OSnapIter rv lo hi) (fst (step1 s1 o)) = obs1 (OSnapIter rv lo hi) s1) /\
  (forall k, obs1 (OSnapGet k) (fst (step1 s1 o)) = obs1 (OSnapGet k) s1).
Proof.
  intros HS H. destruct (step_sim s1 s0 o HS) as [HS' _].
  pose proof (snap_obs_same _ _ _ _ HS HS') as G.
  destruct (step1_kind s1 o) as [E|B|_ [W|[Q1 Q2]]].
  - rewrite E. split; reflexivity.
  - apply G. destruct B as [->|[->|(e & b & ->)]]; reflexivity.
  - rewrite W in H. destruct (N_succ_neq _ H).
  - (* inside staging before and after: the base level is frozen *)
    apply G.
    assert (D : (0 < depth0 s0)%nat) by (rewrite (depth_eq _ _ HS); unfold depth1; destruct (stages1 s1); [contradiction|cbn; lia]).
    assert (D' : (0 < depth0 (fst (step0 s0 o)))%nat).
    { rewrite (depth_eq _ _ HS'). unfold depth1. destruct (stages1 (fst (step1 s1 o))); [contradiction|cbn; lia]. }
    exact (step0_base 0 s0 o D D').
Qed.

(* a batched iterator is the sequence number and the snapshot iteration it was opened on *)
Lemma bopen1_ext s s' rv lo hi :
  sseq1 s' = sseq1 s -> obs1 (OSnapIter rv lo hi) s' = obs1 (OSnapIter rv lo hi) s -> bopen1 s' rv lo hi = bopen1 s rv lo hi.
Proof. intros H HI. cbn [obs1] in HI. injection HI as HI. unfold bopen1, snap_list1. rewrite H, HI. reflexivity. Qed.
