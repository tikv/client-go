(* MemBuf/ProofsTop.v — the data of the Examples of Props.v *)
From Verif Require Import MemBuf.Model MemBuf.Art MemBuf.ProofsArt.

Definition f03b_witness : list op :=
  [OSet [120] [97; 97] []; OCheckpoint; OSet [120] [98; 98] []; ORevert 0%nat; OGet [120]].
Definition l2_ex_tree : option art := Eval vm_compute in build [[1%N; 2%N]; [1%N]; [1%N; 3%N]].
Definition batch_snap : kmap val :=
  ([], [1%N]) :: ([0%N], [2%N]) :: ([0%N; 0%N], [3%N]) :: map (fun i => ([N.of_nat i], [9%N])) (seq 1 37).
Definition nv_ops : list op :=
  [OSet [1] [97; 97] [SetKeyLocked]; OStaging; OCheckpoint; OSet [1] [98; 98; 98] []; OSet [2] [] [];
   OFlags [3] [SetPresumeKeyNotExists]; OCheckpoint; OSet [2] [99] []; ORevert 1%nat; OGet [2]; ORevert 0%nat;
   OGet [1]; OSnapGet [1]; OIterFlags false [] []; OCleanup 1%nat; OLen; OSize].
