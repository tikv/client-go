(* MemBuf/ProofsRevert.v — walking the log backwards (RevertToCheckpoint / Cleanup) equals undo0 *)
From Verif Require Import Base.Lex MemBuf.Flags MemBuf.KMap MemBuf.Ops MemBuf.Staged MemBuf.VLog
  MemBuf.ProofsKMap MemBuf.ProofsLog MemBuf.ProofsSim MemBuf.ProofsAcct MemBuf.ProofsSet.
From Coq Require Import Arith.

Fixpoint revert_list (lj rest : vlog) (st : acct) : acct :=
  match lj with
  | [] => st
  | e :: lj' => revert_list lj' rest (revert_entry e (length (lj' ++ rest)) (lj' ++ rest) st)
  end.

Lemma revert_n_spec lj rest st :
  revert_n (length rest) (length (lj ++ rest)) (lj ++ rest) st = (rest, revert_list lj rest st).
Proof.
  revert st. induction lj as [|e lj IH]; intros st.
  - cbn [app revert_list]. destruct rest as [|e r]; [reflexivity|]. cbn [revert_n length]. rewrite Nat.eqb_refl. reflexivity.
  - cbn [app length revert_n revert_list].
    destruct (Nat.eqb_spec (S (length (lj ++ rest))) (length rest)) as [H|_]; [rewrite app_length in H; lia|].
    apply IH.
Qed.

(* bundle of the L1-internal facts about (keys, len, size) over a log *)
Definition AInv (st : acct) (l : vlog) : Prop :=
  let '(keys, len, size) := st in
  chain_ok l /\ keys_ok keys l /\ ksorted keys /\
  len = N.of_nat (length (live keys)) /\ size = size_of (jof l) (live keys).

Definition keys_of (st : acct) : kmap kent := fst (fst st).

Lemma revert_entry_ok e r st :
  AInv st (e :: r) ->
  AInv (revert_entry e (length r) r st) r /\
  live (keys_of (revert_entry e (length r) r st)) =
    match kfind (e_key e) (jof r) with Some _ => live (keys_of st) | None => demote (e_key e) (live (keys_of st)) end.
Proof.
  destruct st as [[keys len] size]. intros (Ch & K & So & Hl & Hs). destruct Ch as [Co Cr].
  set (k := e_key e) in *. unfold keys_of. cbn [fst].
  pose proof (K k) as Kk. cbn [head_of] in Kk. fold k in Kk. rewrite bytes_eqb_refl in Kk.
  unfold revert_entry. fold k.
  destruct (kfind k keys) as [ent|] eqn:Hf; [|discriminate].
  destruct Kk as [Kh Kd].
  assert (Hnd : k_del ent = false).
  { destruct (k_del ent) eqn:D; [|reflexivity]. destruct (Kd eq_refl) as [X _]. congruence. }
  pose proof (ksorted_kfmap live_ent _ So) as SoL. fold (live keys) in SoL.
  assert (Hlive : kfind k (live keys) = Some (k_flags ent)).
  { rewrite live_find by exact So. rewrite Hf. unfold live_ent. rewrite Hnd. reflexivity. }
  assert (Kr : forall ent', k_head ent' = head_of k r -> (k_del ent' = true -> k_head ent' = None /\ k_flags ent' = 0%N) ->
               keys_ok (kupsert k ent' keys) r).
  { intros ent' H1 H2. apply (keys_ok_upsert _ _ _ (e :: r)); [exact K| |exact H1|exact H2].
    intros k' N. symmetry. apply head_of_cons_other. exact N. }
  assert (E1 : kfind k (jof (e :: r)) = Some (e_val e)).
  { cbn [jof map kfind]. fold k. rewrite bytes_eqb_refl. reflexivity. }
  (* the size equation between the two sources *)
  assert (C : (size_of (jof r) (live keys) + blen (e_val e) = size + vlen (kfind k (jof r)))%N).
  { pose proof (size_of_change (jof (e :: r)) (jof r) k _ (live keys) SoL Hlive) as C.
    assert (Hx : forall k', k' <> k -> kfind k' (jof r) = kfind k' (jof (e :: r))).
    { intros k' N. cbn [jof map kfind]. fold k. rewrite (bytes_eqb_neq k' k N). reflexivity. }
    specialize (C Hx). rewrite E1 in C. cbn [vlen] in C. rewrite <- Hs in C. exact C. }
  assert (R0 : (blen (e_val e) <= size)%N).
  { pose proof (size_of_remove (jof (e :: r)) k _ _ Hlive) as R. rewrite E1 in R. cbn [vlen] in R. rewrite <- Hs in R. lia. }
  destruct (e_old e) as [a'|] eqn:Ho.
  - (* an older value exists *)
    symmetry in Co. pose proof (value_at_head _ _ _ Co) as Hv. rewrite Hv. cbn [fst].
    rewrite Hv in C. cbn [vlen] in C.
    assert (Hsame : live (kupsert k (mkK (Some a') (k_flags ent) (k_del ent)) keys) = live keys).
    { rewrite live_upsert by exact So. cbn [k_del k_flags]. rewrite Hnd. apply kupsert_same; assumption. }
    split; [|exact Hsame].
    unfold AInv. rewrite Hsame. refine (conj Cr (conj _ (conj (ksorted_upsert _ _ _ So) (conj Hl _)))).
    + apply Kr; [cbn; congruence|cbn; rewrite Hnd; discriminate].
    + unfold value_at, entry_at in C. destruct (entry_at_n a' (length r) r); cbv beta iota in C |- *; lia.
  - (* the first value of the key is undone *)
    symmetry in Co. pose proof (proj1 (head_of_none_find _ _) Co) as Hn. rewrite Hn in C |- *. cbn [vlen] in C.
    unfold demote. rewrite Hlive.
    destruct (fzero (and_persistent (k_flags ent))) eqn:Z; cbn [fst].
    + assert (Hrem : live (kupsert k (mkK None 0 true) keys) = kremove k (live keys)).
      { rewrite live_upsert by exact So. reflexivity. }
      split; [|exact Hrem].
      unfold AInv. rewrite Hrem. refine (conj Cr (conj _ (conj (ksorted_upsert _ _ _ So) (conj _ _)))).
      * apply Kr; [cbn; congruence|cbn; intros _; split; reflexivity].
      * pose proof (kremove_length k _ _ Hlive). lia.
      * pose proof (size_of_remove (jof r) k _ _ Hlive) as R. rewrite Hn in R. cbn [vlen] in R. lia.
    + assert (Hup : live (kupsert k (mkK None (and_persistent (k_flags ent)) false) keys) = kupsert k (and_persistent (k_flags ent)) (live keys)).
      { rewrite live_upsert by exact So. reflexivity. }
      split; [|exact Hup].
      unfold AInv. rewrite Hup. refine (conj Cr (conj _ (conj (ksorted_upsert _ _ _ So) (conj _ _)))).
      * apply Kr; [cbn; congruence|cbn; discriminate].
      * erewrite kupsert_length_old; [exact Hl|exact SoL|exact Hlive].
      * erewrite size_of_upsert_old; [|exact SoL|exact Hlive]. lia.
Qed.

Lemma revert_list_ok lj rest st :
  AInv st (lj ++ rest) ->
  AInv (revert_list lj rest st) rest /\
  live (keys_of (revert_list lj rest st)) = undo0 (jof lj) (jof rest) (live (keys_of st)).
Proof.
  revert st. induction lj as [|e lj IH]; intros st H.
  - cbn [app revert_list jof map undo0]. split; [exact H|reflexivity].
  - cbn [app revert_list] in *. destruct (revert_entry_ok e (lj ++ rest) st H) as [H1 H2].
    destruct (IH _ H1) as [H3 H4]. split; [exact H3|].
    rewrite H4, H2. cbn [jof map undo0]. fold (jof lj). rewrite <- jof_app. reflexivity.
Qed.
