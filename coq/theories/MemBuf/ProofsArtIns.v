(* MemBuf/ProofsArtIns.v — insert (recursiveInsert / expandLeafIfNeeded / expandNode) keeps the radix tree
   well-formed and adds exactly its key: lemmas on lcp, add_sorted, minimumLeafNode and matchDeep *)
From Verif Require Import Base.Lex MemBuf.ProofsKMap MemBuf.Art MemBuf.ProofsArt.
From Coq Require Import Arith.
Local Open Scope nat_scope.

Lemma lcp_le_l a b : lcp a b <= length a.
Proof. revert b. induction a as [|x a IH]; intros [|y b]; cbn; try lia. destruct (N.eqb x y); [specialize (IH b)|]; lia. Qed.

Lemma lcp_comm a b : lcp a b = lcp b a.
Proof.
  revert b. induction a as [|x a IH]; intros [|y b]; cbn; try reflexivity.
  rewrite (N.eqb_sym y x). destruct (N.eqb x y); [rewrite IH|]; reflexivity.
Qed.

Lemma lcp_le_r a b : lcp a b <= length b.
Proof. rewrite lcp_comm. apply lcp_le_l. Qed.

(* two strings split at their longest common prefix: the rests differ in their first byte, or one of them is empty *)
Lemma lcp_spec a b : exists C ra rb, a = C ++ ra /\ b = C ++ rb /\ lcp a b = length C /\
  match ra, rb with x :: _, y :: _ => x <> y | _, _ => True end.
Proof.
  revert b. induction a as [|x a IH]; intros b; [exists [], [], b; repeat split|].
  destruct b as [|y b]; [exists [], (x :: a), []; repeat split|]. cbn [lcp].
  destruct (N.eqb_spec x y) as [<-|N].
  - destruct (IH b) as (C & ra & rb & -> & -> & L & D). exists (x :: C), ra, rb. cbn [length]. rewrite L. repeat split. exact D.
  - exists [], (x :: a), (y :: b). repeat split. exact N.
Qed.

Fixpoint ch_fresh (b : N) (c : children) : Prop :=
  match c with CNil => True | CCons b' _ r => b <> b' /\ ch_fresh b r end.

Lemma add_sorted_cons b t b' t' r :
  add_sorted b t (CCons b' t' r) = if N.ltb b b' then CCons b t (CCons b' t' r) else CCons b' t' (add_sorted b t r).
Proof. reflexivity. Qed.

Lemma add_sorted_ok q b t c :
  wf (q ++ [b]) t -> wf_ch q c -> ch_fresh b c ->
  wf_ch q (add_sorted b t c) /\ (forall b0, (b0 < b)%N -> ch_lb b0 c -> ch_lb b0 (add_sorted b t c)) /\
  (forall k, In k (inorder_ch (add_sorted b t c)) <-> In k (inorder t) \/ In k (inorder_ch c)).
Proof.
  intros Ht. induction c as [|b' t' r IH]; intros Hc Hf.
  - cbn [add_sorted wf_ch ch_lb inorder_ch]. split; [|split].
    + split; [exact Ht|split; exact I].
    + intros b0 Hb0 _. split; [exact Hb0|exact I].
    + intros k. rewrite app_nil_r. cbn. clear. tauto.
  - destruct Hc as (Ht' & Hr & Hl). destruct Hf as [Hne Hf]. rewrite add_sorted_cons.
    destruct (IH Hr Hf) as (W & L & M).
    destruct (N.ltb_spec b b') as [Hlt|Hge].
    + cbn [wf_ch ch_lb inorder_ch]. split; [|split].
      * split; [exact Ht|]. split; [split; [exact Ht'|split; [exact Hr|exact Hl]]|].
        split; [exact Hlt|]. eapply ch_lb_weaken; eassumption.
      * intros b0 Hb0 [H1 H2]. split; [exact Hb0|]. split; [exact H1|exact H2].
      * intros k. rewrite !in_app_iff. clear. tauto.
    + assert (Hlt : (b' < b)%N) by lia.
      cbn [wf_ch ch_lb inorder_ch]. split; [|split].
      * split; [exact Ht'|]. split; [exact W|]. apply L; assumption.
      * intros b0 Hb0 [H1 H2]. split; [exact H1|]. apply L; assumption.
      * intros k. rewrite !in_app_iff, M. clear. tauto.
Qed.

Definition nonempty (t : art) : Prop :=
  match t with Leaf _ => True | Node _ _ ipl ch => ipl <> None \/ ch <> CNil end.

Lemma wf_nonempty path t : wf path t -> path <> [] -> nonempty t.
Proof.
  destruct t as [k|plen pfx ipl ch]; [intros; exact I|].
  intros (P & _ & _ & _ & _ & [H|[H|[H _]]]) Hp; cbn; auto; try contradiction.
Qed.

Lemma min_leaf_in_both :
  (forall t path, wf path t -> nonempty t -> In (min_leaf t) (inorder t)) /\
  (forall c q, wf_ch q c -> c <> CNil -> In (min_leaf_ch c) (inorder_ch c)).
Proof.
  apply art_children_ind.
  - intros k path _ _. left. reflexivity.
  - intros plen pfx ipl ch IH path (P & _ & _ & _ & Hc & _) Hn. cbn [min_leaf inorder].
    destruct ipl as [k|]; [left; reflexivity|]. cbn [app]. apply (IH _ Hc). destruct Hn as [Hn|Hn]; [contradiction|exact Hn].
  - intros q _ H. contradiction.
  - intros b t IHt r _ q (Ht & _ & _) _. cbn [min_leaf_ch inorder_ch]. apply in_or_app. left.
    apply (IHt _ Ht). apply (wf_nonempty _ _ Ht). destruct q; discriminate.
Qed.

(* matchDeep on a key path ++ C ++ xr against the path segment C ++ Pr of a node, where xr and Pr start with different
   bytes unless one of them is empty: the mismatch index is length C, also when it lies beyond the stored 20 bytes and
   is found through the minimum leaf; when the whole segment matches (Pr = []) the index may run on into that leaf *)
Lemma match_deep_spec path C xr Pr pfx t :
  pfx = firstn max_in_node (C ++ Pr) ->
  match xr, Pr with a :: _, c :: _ => a <> c | _, _ => True end ->
  (max_in_node < length (C ++ Pr) -> exists y, min_leaf t = path ++ (C ++ Pr) ++ y) ->
  exists e, match_deep (path ++ C ++ xr) (length path) (length (C ++ Pr)) pfx t = length C + e /\ (Pr <> [] -> e = 0).
Proof.
  intros -> Hd Hml. unfold match_deep. rewrite skipn_app_len, lcp_firstn_r, lcp_app_same.
  assert (L0 : lcp xr Pr = 0).
  { destruct xr as [|a xr], Pr as [|c Pr]; try reflexivity. cbn [lcp]. destruct (N.eqb_spec a c); [contradiction|reflexivity]. }
  rewrite L0, Nat.add_0_r. unfold max_in_node in *.
  destruct (Nat.ltb_spec (Nat.min (length C) 20) 20) as [H1|H1]; cbn [orb].
  - exists 0. split; [lia|reflexivity].
  - destruct (Nat.leb_spec (length (C ++ Pr)) 20) as [H2|H2]; cbv beta iota.
    + exists 0. rewrite app_length in H2. split; [lia|reflexivity].
    + destruct (Hml H2) as (y & ->). rewrite !skipn_app_add, <- app_assoc, (skipn_app 20 C (Pr ++ y)), (skipn_app 20 C xr).
      replace (20 - length C) with 0 by lia. rewrite !skipn_O, lcp_app_same, skipn_length.
      exists (lcp (Pr ++ y) xr). split; [lia|]. intros HP.
      destruct Pr as [|c Pr]; [contradiction|]. destruct xr as [|a xr]; [reflexivity|]. cbn [app lcp].
      destruct (N.eqb_spec c a); [subst; contradiction|reflexivity].
Qed.
