(* MemBuf/ProofsArtL1.v — L2 indexes L1: the key column of L1's table is the in-order traversal of the radix
   tree built from the keys that Set / UpdateFlags hand to traverse(insert) *)
From Verif Require Import Base.Lex MemBuf.KMap MemBuf.Ops MemBuf.Staged MemBuf.VLog MemBuf.ProofsKMap
  MemBuf.ProofsRevert MemBuf.ProofsStep MemBuf.Art MemBuf.ProofsArt MemBuf.ProofsArtMap.

(* the keys an operation inserts into the tree (ART.Set checks the key and entry size before traverse) *)
Definition touched (s : st1) (o : op) : list key :=
  match o with
  | OSet k v _ => if (max_key_len <? blen k)%N then [] else if (elimit1 s <? blen k + blen v)%N then [] else [k]
  | OFlags k _ => if (max_key_len <? blen k)%N then [] else [k]
  | _ => []
  end.

Fixpoint inserted (s : st1) (ops : list op) : list key :=
  match ops with
  | [] => []
  | o :: r => touched s o ++ inserted (fst (step1 s o)) r
  end.

Definition col (m : kmap kent) : list key := map fst m.

Lemma col_present k a0 (m : kmap kent) : kfind k m = Some a0 -> In k (col m).
Proof. intros H. apply kfind_Some_In in H. apply (in_map fst) in H. exact H. Qed.

Lemma col_upsert_present k a a0 (m : kmap kent) k' :
  kfind k m = Some a0 -> (In k' (col (kupsert k a m)) <-> In k' (col m)).
Proof.
  intros H. unfold col. rewrite keys_upsert. split; [intros [->|Hin]; [exact (col_present _ _ _ H)|exact Hin]|auto].
Qed.

Lemma revert_entry_col e n r st k' : In k' (col (keys_of (revert_entry e n r st))) <-> In k' (col (keys_of st)).
Proof.
  destruct st as [[keys len] size]. unfold keys_of, revert_entry. cbn [fst].
  destruct (kfind (e_key e) keys) as [ent|] eqn:Hf; [|cbn [fst]; tauto].
  destruct (e_old e); [cbn [fst]; apply (col_upsert_present _ _ _ _ _ Hf)|].
  destruct (fzero _); cbn [fst]; apply (col_upsert_present _ _ _ _ _ Hf).
Qed.

Lemma revert_n_col p n l st k' : In k' (col (keys_of (snd (revert_n p n l st)))) <-> In k' (col (keys_of st)).
Proof.
  revert n st. induction l as [|e r IH]; intros n st; [destruct n; cbn; tauto|].
  destruct n as [|n]; [cbn; tauto|]. cbn [revert_n]. destruct (Nat.eqb (S n) p); [cbn; tauto|].
  rewrite IH. apply revert_entry_col.
Qed.

Lemma revert_to_col p s k' : In k' (col (keys_of (snd (revert_to p s)))) <-> In k' (col (keys1 s)).
Proof. apply revert_n_col. Qed.

Lemma step1_col s o k' :
  In k' (col (keys1 (fst (step1 s o)))) <-> In k' (col (keys1 s)) \/ In k' (touched s o).
Proof.
  destruct o; cbn [step1 fst touched]; try (cbn; tauto).
  - unfold set1. destruct (_ <? _)%N; [cbn; tauto|]. destruct (_ <? _)%N; [cbn; tauto|]. cbn [fst].
    unfold setvalue1. set (t := touch1 _ _ s).
    assert (Ht : In k' (col (keys1 t)) <-> In k' (col (keys1 s)) \/ In k' [k]).
    { unfold t, touch1. cbn [keys1]. unfold col. rewrite keys_upsert. cbn. clear. intuition congruence. }
    destruct (kfind k (keys1 t)) as [ent|] eqn:Hf; [|exact Ht].
    destruct (k_head ent).
    + destruct (_ && _); cbn [keys1]; [exact Ht|]. rewrite (col_upsert_present _ _ _ _ _ Hf). exact Ht.
    + cbn [keys1]. rewrite (col_upsert_present _ _ _ _ _ Hf). exact Ht.
  - unfold updflags1. destruct (_ <? _)%N; [cbn; tauto|]. cbn [fst touch1 keys1]. unfold col. rewrite keys_upsert. cbn. clear. intuition congruence.
  - unfold release1. destruct h; [cbn; tauto|]. destruct (negb _); [cbn; tauto|]. destruct (stages1 s); cbn; tauto.
  - unfold cleanup1. destruct h; [cbn; tauto|]. destruct (_ <? _)%nat; [cbn; tauto|]. destruct (_ <? _)%nat; [cbn; tauto|].
    destruct (stages1 s); [cbn; tauto|]. pose proof (revert_to_col n s k') as Q.
    destruct (revert_to n s) as [l' [[ks ln] sz]]. cbn [fst keys1]. rewrite <- Q. cbn. clear. tauto.
  - unfold revert1. destruct (nth_error _ _) as [c|]; [|cbn; tauto]. pose proof (revert_to_col c s k') as Q.
    destruct (revert_to c s) as [l' [[ks ln] sz]]. cbn [fst keys1]. rewrite <- Q. cbn. clear. tauto.
Qed.

Lemma exec1_col ops : forall s k', In k' (col (keys1 (exec1 s ops))) <-> In k' (col (keys1 s)) \/ In k' (inserted s ops).
Proof.
  induction ops as [|o r IH]; intros s k'; [cbn; tauto|].
  cbn [exec1 inserted]. rewrite IH, step1_col, in_app_iff. clear. tauto.
Qed.

Theorem tree_indexes_table ops :
  col (keys1 (exec1 init1 ops)) = keys_of_tree (build (inserted init1 ops)).
Proof.
  destruct (build_ok (inserted init1 ops)) as [W M].
  apply (asc_ext (fun k => k)); [apply asc_map, ksorted_asc, reachable_sorted|apply lsorted_asc, keys_of_tree_sorted; exact W|].
  intros k. rewrite exec1_col, M. cbn. clear. tauto.
Qed.
