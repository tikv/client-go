(* MemBuf/ProofsArtRange.v — a bounded iteration of the radix tree visits exactly the keys inside the bounds:
   the leaves between the seek position of the lower bound and the seek position of the upper bound *)
From Verif Require Import Base.Lex MemBuf.KMap MemBuf.ProofsKMap MemBuf.Art MemBuf.ProofsArt MemBuf.ProofsArtSeek.
From Coq Require Import Arith.
Local Open Scope nat_scope.

Lemma below_cons k x l : below k (x :: l) = (if lex_ltb x k then 1 else 0) + below k l.
Proof. unfold below. cbn [filter]. destruct (lex_ltb x k); reflexivity. Qed.

Lemma sorted_tail_not_below k x l : Forall (lex_lt x) l -> lex_ltb x k = false -> below k l = 0.
Proof. intros F E. apply below_none. exact (not_below_tail k x l F E). Qed.

Lemma sorted_prefix k l : lsorted l -> filter (fun k' => lex_ltb k' k) l = firstn (below k l) l.
Proof.
  induction l as [|x l IH]; intros S; [reflexivity|]. destruct S as [F S]. rewrite below_cons. cbn [filter].
  destruct (lex_ltb x k) eqn:E; [cbn [plus firstn]; f_equal; apply IH; exact S|].
  rewrite (sorted_tail_not_below k x l F E). cbn [plus firstn]. apply filter_none. exact (not_below_tail k x l F E).
Qed.

Lemma sorted_suffix k l : lsorted l -> filter (fun k' => negb (lex_ltb k' k)) l = skipn (below k l) l.
Proof.
  induction l as [|x l IH]; intros S; [reflexivity|]. destruct S as [F S]. rewrite below_cons. cbn [filter].
  destruct (lex_ltb x k) eqn:E; cbn [negb plus skipn]; [apply IH; exact S|].
  rewrite (sorted_tail_not_below k x l F E). cbn [skipn]. f_equal.
  apply filter_all. intros y Hy. rewrite (not_below_tail k x l F E y Hy). reflexivity.
Qed.

Lemma below_skipn k l : lsorted l -> forall r, below k (skipn r l) = below k l - r.
Proof.
  induction l as [|x l IH]; intros S r; [destruct r; reflexivity|]. destruct S as [F S].
  destruct r as [|r]; [cbn [skipn]; lia|]. cbn [skipn]. rewrite (IH S r), below_cons.
  destruct (lex_ltb x k) eqn:E; [lia|]. rewrite (sorted_tail_not_below k x l F E). lia.
Qed.

Lemma lsorted_skipn l : lsorted l -> forall r, lsorted (skipn r l).
Proof. induction l as [|x l IH]; intros S r; [destruct r; exact I|]. destruct r; [exact S|]. apply IH. apply S. Qed.

Definition rank_lo (lo : key) (l : list key) : nat := match lo with [] => 0 | _ => below lo l end.
Definition rank_hi (hi : key) (l : list key) : nat := match hi with [] => length l | _ => below hi l end.

Lemma rank_interval lo hi l : lsorted l ->
  firstn (rank_hi hi l - rank_lo lo l) (skipn (rank_lo lo l) l) = filter (in_bounds lo hi) l.
Proof.
  intros S.
  assert (Elo : skipn (rank_lo lo l) l = filter (lo_ok lo) l).
  { destruct lo as [|a lo]; [cbn [rank_lo skipn lo_ok]; symmetry; apply filter_all; intros; reflexivity|].
    cbn [rank_lo]. rewrite <- (sorted_suffix (a :: lo) l S). apply filter_ext. intros k. cbn [lo_ok]. rewrite ltb_not_leb, negb_involutive. reflexivity. }
  assert (Ef : filter (in_bounds lo hi) l = filter (hi_ok hi) (filter (lo_ok lo) l)).
  { rewrite filter_filter. apply filter_ext. intros k. apply in_bounds_split. }
  rewrite Ef, <- Elo. set (r := rank_lo lo l). pose proof (lsorted_skipn l S r) as Sr.
  destruct hi as [|b hi].
  - cbn [rank_hi hi_ok]. rewrite filter_all by (intros; reflexivity). apply firstn_all2. rewrite skipn_length. lia.
  - cbn [rank_hi]. rewrite <- (below_skipn (b :: hi) l S r). rewrite <- (sorted_prefix (b :: hi) _ Sr). reflexivity.
Qed.

Theorem art_range_spec t lo hi : wf [] t -> art_range t lo hi = filter (in_bounds lo hi) (inorder t).
Proof.
  intros W. unfold art_range. rewrite <- (rank_interval lo hi (inorder t) (proj1 inorder_sorted_both t [] W)).
  assert (El : (match lo with [] => 0 | _ => seek_rank lo 0 t end) = rank_lo lo (inorder t)).
  { destruct lo as [|a lo]; [reflexivity|]. exact (proj1 seek_rank_spec_both t [] (a :: lo) W). }
  assert (Eh : (match hi with [] => size t | _ => seek_rank hi 0 t end) = rank_hi hi (inorder t)).
  { destruct hi as [|b hi]; [exact (proj1 size_inorder_both t)|]. exact (proj1 seek_rank_spec_both t [] (b :: hi) W). }
  rewrite El, Eh. reflexivity.
Qed.
