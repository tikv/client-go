(* MemBuf/ProofsStep.v — every operation preserves the simulation and returns the same result *)
From Verif Require Import Base.Lex MemBuf.Flags MemBuf.KMap MemBuf.Ops MemBuf.Staged MemBuf.VLog
  MemBuf.ProofsKMap MemBuf.ProofsLog MemBuf.ProofsSim MemBuf.ProofsObs MemBuf.ProofsSet MemBuf.ProofsRevert.
From Coq Require Import Arith.

Definition StepOk (r1 : st1 * out) (r0 : st0 * out) : Prop :=
  Sim (fst r1) (fst r0) /\ snd r1 = snd r0.

Lemma size_eq s1 s0 : Sim s1 s0 -> size0 s0 = size1 s1.
Proof. intros HS. unfold size0. rewrite (all_jof _ _ HS), (sim_kf _ _ HS), (sim_size _ _ HS). reflexivity. Qed.

(* walking the log back to the end of `rest`: the table invariants hold over `rest`, and the live flags are those of undo0 *)
Lemma revert_to_ok s1 s0 lj rest :
  Sim s1 s0 -> log1 s1 = lj ++ rest ->
  exists keys len size,
    revert_to (length rest) s1 = (rest, (keys, len, size)) /\ AInv (keys, len, size) rest /\
    live keys = undo0 (jof lj) (jof rest) (live (keys1 s1)).
Proof.
  intros HS El.
  assert (A : AInv (keys1 s1, len1 s1, size1 s1) (lj ++ rest)).
  { rewrite <- El. exact (conj (sim_chain _ _ HS) (conj (sim_keys _ _ HS) (conj (sim_sorted _ _ HS) (conj (sim_len _ _ HS) (sim_size _ _ HS))))). }
  unfold revert_to. rewrite El, revert_n_spec. destruct (revert_list_ok lj rest _ A) as [A' Hlive].
  destruct (revert_list lj rest (keys1 s1, len1 s1, size1 s1)) as [[keys len] size]. exists keys, len, size.
  split; [reflexivity|]. split; [exact A'|exact Hlive].
Qed.

Lemma step_set s1 s0 k v fops : Sim s1 s0 -> StepOk (set1 k v fops s1) (set0 k v fops s0).
Proof.
  intros HS. unfold set1, set0, StepOk. rewrite (sim_el _ _ HS), (flags_of_eq _ _ HS).
  destruct (max_key_len <? blen k)%N; [split; [exact HS|reflexivity]|].
  destruct (elimit1 s1 <? blen k + blen v)%N; [split; [exact HS|reflexivity]|].
  set (f1 := apply_flag_ops (flags_of1 k s1) (DelNeedConstraintCheckInPrewrite :: fops)).
  pose proof (sim_touch _ _ k f1 HS) as HT.
  assert (Hf : exists ent, kfind k (keys1 (touch1 k f1 s1)) = Some ent /\ k_del ent = false).
  { unfold touch1. cbn [keys1]. rewrite kfind_upsert_same. eexists. split; reflexivity. }
  destruct Hf as (ent & Hf & Hd).
  pose proof (sim_setvalue _ _ k v ent HT Hf Hd) as H2.
  cbn [fst snd]. split; [exact H2|].
  rewrite (sim_bl _ _ H2), (size_eq _ _ H2). reflexivity.
Qed.

Lemma step_flags s1 s0 k fops : Sim s1 s0 -> StepOk (updflags1 k fops s1) (updflags0 k fops s0).
Proof.
  intros HS. unfold updflags1, updflags0, StepOk. rewrite (flags_of_eq _ _ HS).
  destruct (max_key_len <? blen k)%N; cbn [fst snd]; [split; [exact HS|reflexivity]|].
  split; [apply sim_touch; exact HS|reflexivity].
Qed.

Local Open Scope nat_scope.

Lemma step_staging s1 s0 : Sim s1 s0 -> StepOk (staging1 s1) (staging0 s0).
Proof.
  intros HS. unfold staging1, staging0, StepOk. cbn [fst snd]. rewrite (depth_eq _ _ HS). split; [|reflexivity].
  sim_fields; try apply HS.
  cbn [Rlev]. exists [], (log1 s1). cbn [hd tl].
  refine (conj eq_refl (conj eq_refl (conj eq_refl (conj (Rreg_nil _ _ _) (sim_lev _ _ HS))))).
Qed.

Lemma step_limits s1 s0 e b : Sim s1 s0 ->
  Sim (mk1 (log1 s1) (keys1 s1) (stages1 s1) (len1 s1) (size1 s1) (dirty1 s1) e b (wseq1 s1) (sseq1 s1) (regs1 s1) (lastcp1 s1))
      (mk0 (base0 s0) (stages0 s0) (kf0 s0) (dirty0 s0) e b (regs0 s0) (lastcp0 s0)).
Proof. intros HS. sim_fields; try apply HS; reflexivity. Qed.

Lemma jof_nil_iff lj : (match jof lj with [] => true | _ => false end) = Nat.eqb (length lj) 0.
Proof. destruct lj; reflexivity. Qed.

Lemma mono_app (a b : list nat) : mono a -> mono b -> (forall x y, In x a -> In y b -> x <= y) -> mono (a ++ b).
Proof.
  intros Ma Mb Hab i j ci cj Hij Hi Hj.
  destruct (Nat.lt_ge_cases j (length a)) as [Hj1|Hj1].
  - rewrite nth_error_app1 in Hi by lia. rewrite nth_error_app1 in Hj by lia. exact (Ma i j ci cj Hij Hi Hj).
  - rewrite nth_error_app2 in Hj by lia. destruct (Nat.lt_ge_cases i (length a)) as [Hi1|Hi1].
    + rewrite nth_error_app1 in Hi by lia. apply Hab; eapply nth_error_In; eassumption.
    + rewrite nth_error_app2 in Hi by lia. apply (Mb (i - length a) (j - length a)); [lia|assumption|assumption].
Qed.

Lemma mono_single x : mono [x].
Proof.
  intros i j ci cj _ Hi Hj. destruct i as [|i]; [|destruct i; discriminate]. destruct j as [|j]; [|destruct j; discriminate].
  cbn in Hi, Hj. inversion Hi; inversion Hj; subst. lia.
Qed.

Lemma Forall2_map_r {A B C} (R : A -> C -> Prop) (f : B -> C) l1 l2 :
  Forall2 (fun a b => R a (f b)) l1 l2 -> Forall2 R l1 (map f l2).
Proof. intros F. induction F; cbn; constructor; auto. Qed.

(* Release: the tokens of the released level become tokens of the level below *)
Lemma Rreg_merge lj lj2 p p2 lc ro so ri si :
  p = p2 + length lj2 ->
  Rreg lj2 p2 lc ro so -> Rreg lj p lc ri si ->
  Rreg (lj ++ lj2) p2 lc (ro ++ ri) (so ++ map (fun sv => sv ++ jof lj2) si).
Proof.
  intros Ep (Fo & Mo & Lo) (Fi & Mi & Li). split; [|split].
  - apply Forall2_app.
    + eapply Forall2_imp; [|exact Fo]. intros c sv (n & o & -> & Hc & Hs). exists (lj ++ n), o. rewrite app_assoc. repeat split; assumption.
    + apply Forall2_map_r. eapply Forall2_imp; [|exact Fi].
      intros c sv (n & o & -> & Hc & Hs). exists n, (o ++ lj2). rewrite <- app_assoc, app_length, jof_app, Hs.
      repeat split. lia.
  - apply mono_app; [exact Mo|exact Mi|]. intros x y Hx Hy.
    destruct (Forall2_In_l _ _ _ _ Fo Hx) as (sx & Tx). apply tok_bound in Tx.
    destruct (Forall2_In_l _ _ _ _ Fi Hy) as (sy & (n & o & _ & Hc & _)). lia.
  - intros c Hc. apply in_app_or in Hc. destruct Hc; auto.
Qed.

Lemma step_release s1 s0 h : Sim s1 s0 -> StepOk (release1 h s1) (release0 h s0).
Proof.
  intros HS. unfold release1, release0, StepOk. destruct h as [|h]; [split; [exact HS|reflexivity]|].
  rewrite (depth_eq _ _ HS). destruct (Nat.eqb_spec (S h) (depth1 s1)) as [Hd|Hd]; cbn [negb]; [|split; [exact HS|reflexivity]].
  pose proof (sim_lev _ _ HS) as L. unfold depth1 in Hd.
  destruct (stages1 s1) as [|p ps] eqn:E1; destruct (stages0 s0) as [|j js] eqn:E0; cbn [Rlev] in L; try contradiction;
    [split; [exact HS|reflexivity]|].
  destruct L as (lj & rest & El & Lr & Ej & Hreg & L). cbn [length] in Hd.
  destruct js as [|j2 js].
  - (* releasing the only stage into the base level *)
    destruct ps as [|p2 ps]; cbn [Rlev] in L; try contradiction. destruct L as [Eb Hreg0].
    cbn [fst snd]. split; [|reflexivity].
    assert (Hh : h = 0) by (cbn [length] in Hd; lia). subst h. cbn [Nat.eqb andb].
    unfold merge_regs0. sim_fields; try apply HS.
    + cbn [Rlev hd]. split.
      * rewrite El, jof_app, Ej, Eb. reflexivity.
      * rewrite El, Eb. apply (Rreg_merge lj rest p 0); [lia|exact Hreg0|exact Hreg].
    + rewrite (sim_dirty _ _ HS). f_equal. rewrite Ej, jof_nil_iff. f_equal.
      rewrite El, app_length, <- Lr. destruct (Nat.eqb_spec (length lj) 0); destruct (Nat.eqb_spec (length rest) (length lj + length rest)); try reflexivity; lia.
  - (* merging into the stage below *)
    destruct ps as [|p2 ps]; cbn [Rlev] in L; try contradiction.
    destruct L as (lj2 & rest2 & El2 & Lr2 & Ej2 & Hreg2 & L).
    cbn [fst snd]. split; [|reflexivity].
    assert (Hone : Nat.eqb (S h) 1 = false) by (apply Nat.eqb_neq; cbn [length] in Hd; lia). rewrite Hone. cbn [andb].
    unfold merge_regs0. sim_fields; try apply HS.
    + cbn [Rlev hd tl]. exists (lj ++ lj2), rest2.
      refine (conj _ (conj Lr2 (conj _ (conj _ L)))).
      * rewrite El, El2, app_assoc. reflexivity.
      * rewrite jof_app, Ej, Ej2. reflexivity.
      * rewrite Ej2. apply (Rreg_merge lj lj2 p p2); [rewrite <- Lr, El2, app_length; lia|exact Hreg2|exact Hreg].
    + rewrite (sim_dirty _ _ HS), orb_false_r. reflexivity.
Qed.

Lemma step_cleanup s1 s0 h : Sim s1 s0 -> StepOk (cleanup1 h s1) (cleanup0 h s0).
Proof.
  intros HS. unfold cleanup1, cleanup0, StepOk. destruct h as [|h]; [split; [exact HS|reflexivity]|].
  rewrite (depth_eq _ _ HS).
  destruct (Nat.ltb (depth1 s1) (S h)); [split; [exact HS|reflexivity]|].
  destruct (Nat.ltb (S h) (depth1 s1)); [split; [exact HS|reflexivity]|].
  pose proof (sim_lev _ _ HS) as L.
  destruct (stages1 s1) as [|p ps] eqn:E1; destruct (stages0 s0) as [|j js] eqn:E0; cbn [Rlev] in L; try contradiction;
    [split; [exact HS|reflexivity]|].
  destruct L as (lj & rest & El & Lr & Ej & Hreg & L).
  rewrite <- Lr. destruct (revert_to_ok _ _ lj rest HS El) as (keys' & len' & size' & -> & (Ch & K & So & Hl & Hs) & Hlive).
  cbn [fst snd]. split; [|reflexivity].
  sim_fields; try assumption; try apply HS.
  - (* the levels below, under the clamped lastCheckpoint *)
    eapply Rlev_lc; [exact L|]. intros c Hc (cl & Ecl & Hle). rewrite Ecl. exists (Nat.min cl (length rest)). split; [reflexivity|lia].
  - rewrite (sim_lastcp _ _ HS), (Rlev_all _ _ _ _ _ _ _ L), jof_length. reflexivity.
  - rewrite Hlive, Ej, (Rlev_all _ _ _ _ _ _ _ L), (sim_kf _ _ HS). reflexivity.
Qed.

Lemma setTop_id js b j : topJ js b = j -> setTopJ js j = js /\ setTopB js b j = b.
Proof. destruct js; cbn; intros <-; split; reflexivity. Qed.

Lemma step_checkpoint s1 s0 : Sim s1 s0 -> StepOk (checkpoint1 s1) (checkpoint0 s0).
Proof.
  intros HS. unfold checkpoint1, checkpoint0, StepOk. cbn [fst snd].
  destruct (Rlev_top _ _ _ _ _ _ _ (sim_lev _ _ HS)) as (lj & rest & El & Lr & Etop & Elow & Hreg & Rebuild).
  destruct Hreg as (F & M & Lc). unfold reg1, reg0. split; [|rewrite (Forall2_len _ _ _ F); reflexivity].
  unfold with_lastcp0, with_regs0.
  assert (Hlen : length (log1 s1) = top_pos (stages1 s1) + length lj) by (rewrite El, app_length; lia).
  sim_fields; try apply HS.
  - destruct (setTop_id _ _ _ Etop) as [E1 E2].
    rewrite <- E1 at 1. rewrite <- E2 at 1. rewrite El at 1.
    apply Rebuild; [|reflexivity|reflexivity|].
    + cbn [hd]. rewrite top0_topJ, Etop. split; [|split].
      * apply Forall2_app; [exact F|]. constructor; [|constructor]. exists [], lj. repeat split. exact Hlen.
      * apply mono_app; [exact M| |].
        -- apply mono_single.
        -- intros x y Hx [<-|[]]. destruct (Forall2_In_l _ _ _ _ F Hx) as (sx & Tx). apply tok_bound in Tx. lia.
      * intros c Hc. exists (length (log1 s1)). split; [reflexivity|]. apply in_app_or in Hc. destruct Hc as [Hc|[<-|[]]]; [|lia].
        destruct (Forall2_In_l _ _ _ _ F Hc) as (sx & Tx). apply tok_bound in Tx. lia.
    + intros c Hc _. exists (length (log1 s1)). split; [reflexivity|]. rewrite El, app_length. lia.
  - rewrite (all_jof _ _ HS), jof_length. reflexivity.
Qed.

Lemma Forall2_firstn_idx {A B} (R R' : A -> B -> Prop) l1 l2 n :
  Forall2 R l1 l2 ->
  (forall j a b, j < n -> nth_error l1 j = Some a -> nth_error l2 j = Some b -> R a b -> R' a b) ->
  Forall2 R' (firstn n l1) (firstn n l2).
Proof.
  intros F. revert n. induction F as [|a b l1 l2 H F IH]; intros n Hn.
  - rewrite !firstn_nil. constructor.
  - destruct n as [|n]; [constructor|]. cbn [firstn]. constructor.
    + apply (Hn 0 a b); [lia|reflexivity|reflexivity|exact H].
    + apply IH. intros j a' b' Hj Ha Hb. apply (Hn (S j)); [lia|exact Ha|exact Hb].
Qed.

Lemma step_revert s1 s0 i : Sim s1 s0 -> StepOk (revert1 i s1) (revert0 i s0).
Proof.
  intros HS. unfold revert1, revert0, StepOk.
  destruct (Rlev_top _ _ _ _ _ _ _ (sim_lev _ _ HS)) as (lj & rest & El & Lr & Etop & Elow & Hreg & Rebuild).
  destruct Hreg as (F & M & Lc). pose proof (Forall2_nth_error _ _ _ i F) as Q. unfold reg1, reg0 in *.
  destruct (nth_error (hd [] (regs1 s1)) i) as [c|] eqn:N1; destruct (nth_error (hd [] (regs0 s0)) i) as [saved|] eqn:N0;
    try contradiction; [|split; [exact HS|reflexivity]].
  destruct Q as (newer & older & Elj & Ec & Hs).
  assert (El' : log1 s1 = newer ++ (older ++ rest)) by (rewrite El, Elj, app_assoc; reflexivity).
  assert (Lc' : length (older ++ rest) = c) by (rewrite app_length, Lr; lia).
  rewrite <- Lc'. destruct (revert_to_ok _ _ newer (older ++ rest) HS El') as (keys' & len' & size' & -> & (Ch & K & So & Hl & Hsz) & Hlive).
  cbn [fst snd]. split; [|reflexivity].
  assert (Edrop : firstn (length (top0 s0) - length saved) (top0 s0) = jof newer).
  { rewrite top0_topJ, Etop, Elj, Hs, jof_app, app_length, !jof_length.
    replace (length newer + length older - length older) with (length (jof newer)) by (rewrite jof_length; lia).
    apply firstn_app_len. }
  rewrite Edrop.
  unfold with_lastcp0, with_regs0, with_kf0.
  sim_fields; rewrite ?with_top0_eq; cbn [base0 stages0 kf0 dirty0 elimit0 blimit0 regs0 lastcp0]; try assumption; try apply HS.
  - rewrite Hs. apply Rebuild; [|reflexivity|reflexivity|].
    + cbn [hd]. split; [|split].
      * eapply Forall2_firstn_idx; [exact F|].
        intros j cj sj Hj Hn1 Hn0 (nj & oj & Ej & Ecj & Hsj).
        assert (Hle : cj <= c) by (apply (M j i cj c); [lia|exact Hn1|exact N1]).
        assert (Hlo : length oj <= length older) by lia.
        rewrite Elj in Ej. destruct (app_suffix _ _ _ _ Ej Hlo) as (x & Ex).
        exists x, oj. repeat split; assumption.
      * intros a b ca cb Hab Ha Hb. rewrite nth_error_firstn in Ha, Hb.
        destruct (a <? S i); [|discriminate]. destruct (b <? S i); [|discriminate]. exact (M a b ca cb Hab Ha Hb).
      * intros c' Hc'. exists (length (older ++ rest)). split; [reflexivity|]. rewrite Lc'.
        apply In_nth_error in Hc'. destruct Hc' as (j & Hj). rewrite nth_error_firstn in Hj.
        destruct (Nat.ltb_spec j (S i)); [|discriminate]. apply (M j i c' c); [lia|exact Hj|exact N1].
    + intros c' Hc' _. exists (length (older ++ rest)). split; [reflexivity|]. rewrite app_length. lia.
  - rewrite Hs, lower0_lowerJ, Elow, <- jof_app, jof_length. reflexivity.
  - rewrite Hlive, (sim_kf _ _ HS), Hs, lower0_lowerJ, Elow, <- jof_app. reflexivity.
Qed.

Theorem step_sim s1 s0 o :
  Sim s1 s0 -> Sim (fst (step1 s1 o)) (fst (step0 s0 o)) /\ snd (step1 s1 o) = snd (step0 s0 o).
Proof.
  intros HS. destruct o; cbn [step1 step0];
    try (cbn [fst snd]; split; [exact HS|apply obs_eq; [exact HS|reflexivity]]).
  - apply step_set; exact HS.
  - apply step_flags; exact HS.
  - apply step_staging; exact HS.
  - apply step_release; exact HS.
  - apply step_cleanup; exact HS.
  - apply step_checkpoint; exact HS.
  - apply step_revert; assumption.
  - cbn [fst snd]. split; [apply step_limits; exact HS|reflexivity].
Qed.

Lemma sim_init : Sim init1 init0.
Proof.
  constructor; cbn; try reflexivity; try exact I.
  - intros k. reflexivity.
  - split; [reflexivity|]. apply Rreg_nil.
Qed.

Theorem run_refines ops : forall s1 s0, Sim s1 s0 ->
  run1 s1 ops = run0 s0 ops /\ Sim (exec1 s1 ops) (exec0 s0 ops).
Proof.
  induction ops as [|o ops IH]; intros s1 s0 HS; [split; [reflexivity|exact HS]|].
  destruct (step_sim _ _ o HS) as [HS' Ho]. cbn [run1 run0 exec1 exec0].
  destruct (step1 s1 o) as [s1' x1]. destruct (step0 s0 o) as [s0' x0]. cbn [fst snd] in *.
  destruct (IH _ _ HS') as [Hr He]. split; [rewrite Ho, Hr; reflexivity|exact He].
Qed.

Lemma sim_reachable ops : Sim (exec1 init1 ops) (exec0 init0 ops).
Proof. exact (proj2 (run_refines ops init1 init0 sim_init)). Qed.

Lemma reachable_sorted ops : ksorted (keys1 (exec1 init1 ops)).
Proof. exact (sim_sorted _ _ (sim_reachable ops)). Qed.
