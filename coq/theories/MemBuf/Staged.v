(* MemBuf/Staged.v — L0, the reference model of a transaction write buffer (C08).

   A buffer is a stack of staging levels over a base level.  Every level is the journal of the
   value writes made in it (newest first; the empty value is the tombstone).  Reading a key finds
   its newest write in the whole stack; the snapshot reads the base level only.  Key flags live in
   one ordered map [kf] that also defines which keys exist (a key can exist with flags and no
   value).  Flags are NOT rolled back, except: when the first-ever value of a key is undone the
   key keeps only its persistent flags and disappears if none is left.

   Two writes coalesce: writing a non-empty value of the same length as the key's newest value,
   when that newest value was written in the current level AND after the latest checkpoint / revert
   point ([lastcp0] = number of writes in the buffer at that moment, lowered by a Cleanup that cuts
   below it), replaces it (observable only through SelectValueHistory / InspectStage order).
   A checkpoint is a saved copy of the current level; reverting restores the copy; the tokens of a
   released level stay valid in the level below.  No addresses, no log positions, no counters: Len/Size are computed from the map. *)
From Verif Require Import Base.Lex MemBuf.Flags MemBuf.KMap MemBuf.Ops.

Definition journal := list (key * val).     (* newest first *)

Record st0 := mk0 {
  base0   : journal;
  stages0 : list journal;              (* innermost (top) level first *)
  kf0     : kmap flags;                (* existing keys with their flags, ascending *)
  dirty0  : bool;
  elimit0 : N;                         (* entry size limit *)
  blimit0 : N;                         (* buffer size limit *)
  regs0   : list (list journal);       (* checkpoint registers, one per level, top first; oldest token first *)
  lastcp0 : option nat                 (* number of writes in the buffer at the latest Checkpoint / RevertToCheckpoint *)
}.

Definition init0 : st0 := mk0 [] [] [] false unlimited unlimited [[]] None.

Definition top0 (s : st0) : journal := match stages0 s with j :: _ => j | [] => base0 s end.
Definition lower0 (s : st0) : journal := match stages0 s with _ :: js => concat js ++ base0 s | [] => [] end.
Definition all0 (s : st0) : journal := concat (stages0 s) ++ base0 s.

Definition with_top0 (s : st0) (j : journal) : st0 :=
  match stages0 s with
  | _ :: js => mk0 (base0 s) (j :: js) (kf0 s) (dirty0 s) (elimit0 s) (blimit0 s) (regs0 s) (lastcp0 s)
  | [] => mk0 j [] (kf0 s) (dirty0 s) (elimit0 s) (blimit0 s) (regs0 s) (lastcp0 s)
  end.
Definition with_kf0 (s : st0) (kf : kmap flags) (d : bool) : st0 :=
  mk0 (base0 s) (stages0 s) kf d (elimit0 s) (blimit0 s) (regs0 s) (lastcp0 s).
Definition with_regs0 (s : st0) (r : list (list journal)) : st0 :=
  mk0 (base0 s) (stages0 s) (kf0 s) (dirty0 s) (elimit0 s) (blimit0 s) r (lastcp0 s).
Definition with_lastcp0 (s : st0) (c : option nat) : st0 :=
  mk0 (base0 s) (stages0 s) (kf0 s) (dirty0 s) (elimit0 s) (blimit0 s) (regs0 s) c.

Fixpoint jreplace (k : key) (v : val) (j : journal) : journal :=
  match j with
  | [] => []
  | (k', v') :: r => if bytes_eqb k k' then (k', v) :: r else (k', v') :: jreplace k v r
  end.

Definition nonempty (v : val) : bool := match v with [] => false | _ => true end.
Definition coalesces (v0 v : val) : bool := nonempty v0 && Nat.eqb (length v0) (length v).

(* the position of the newest write of k, counted from the oldest write of j as 1 (what L1 calls its address); 0 if none *)
Fixpoint kpos (k : key) (j : journal) : nat :=
  match j with
  | [] => O
  | (k', _) :: r => if bytes_eqb k k' then length j else kpos k r
  end.
(* the newest write of k was made after the latest checkpoint / revert point *)
Definition unprotected0 (k : key) (s : st0) : bool :=
  match lastcp0 s with None => true | Some c => Nat.ltb c (kpos k (concat (stages0 s) ++ base0 s)) end.

(* a value write into the current level *)
Definition write0 (k : key) (v : val) (s : st0) : st0 :=
  let t := top0 s in
  match kfind k t with
  | Some v0 => if coalesces v0 v && unprotected0 k s then with_top0 s (jreplace k v t) else with_top0 s ((k, v) :: t)
  | None => with_top0 s ((k, v) :: t)
  end.

Definition vlen (o : option val) : N := match o with Some v => blen v | None => 0 end.
Definition size_of (src : journal) (kf : kmap flags) : N :=
  fold_right (fun p acc => blen (fst p) + vlen (kfind (fst p) src) + acc) 0 kf.
Definition size0 (s : st0) : N := size_of (all0 s) (kf0 s).

Definition fzero (f : flags) : bool := N.eqb f 0.

(* flags part shared by Set and UpdateFlags *)
Definition touch0 (k : key) (f1 : flags) (s : st0) : st0 :=
  with_kf0 s (kupsert k f1 (kf0 s))
    (dirty0 s || match stages0 s with [] => true | _ => false end || negb (fzero (and_persistent f1))).

Definition flags_of0 (k : key) (s : st0) : flags := match kfind k (kf0 s) with Some f => f | None => 0 end.

Definition set0 (k : key) (v : val) (fops : list flag_op) (s : st0) : st0 * out :=
  if max_key_len <? blen k then (s, RErr EKeyTooLarge)
  else if elimit0 s <? blen k + blen v then (s, RErr EEntryTooLarge)
  else
    let f1 := apply_flag_ops (flags_of0 k s) (DelNeedConstraintCheckInPrewrite :: fops) in
    let s2 := write0 k v (touch0 k f1 s) in
    (s2, if blimit0 s2 <? size0 s2 then RErr ETxnTooLarge else RUnit).

Definition updflags0 (k : key) (fops : list flag_op) (s : st0) : st0 * out :=
  if max_key_len <? blen k then (s, RUnit)
  else (touch0 k (apply_flag_ops (flags_of0 k s) fops) s, RUnit).

(* the key lost its first-ever value *)
Definition demote (k : key) (kf : kmap flags) : kmap flags :=
  match kfind k kf with
  | Some f => let f' := and_persistent f in if fzero f' then kremove k kf else kupsert k f' kf
  | None => kf
  end.

(* undo the writes [dropped] (newest first); [remaining] is everything older *)
Fixpoint undo0 (dropped remaining : journal) (kf : kmap flags) : kmap flags :=
  match dropped with
  | [] => kf
  | (k, _) :: d =>
      undo0 d remaining (match kfind k (d ++ remaining) with Some _ => kf | None => demote k kf end)
  end.

Definition depth0 (s : st0) : nat := length (stages0 s).

Definition staging0 (s : st0) : st0 * out :=
  (mk0 (base0 s) ([] :: stages0 s) (kf0 s) (dirty0 s) (elimit0 s) (blimit0 s) ([] :: regs0 s) (lastcp0 s),
   RNat (S (depth0 s))).

(* Release: the tokens of the released level stay valid in the level below (their saved copy grows by that level) *)
Definition merge_regs0 (below : journal) (regs : list (list journal)) : list (list journal) :=
  (hd [] (tl regs) ++ map (fun sv => sv ++ below) (hd [] regs)) :: tl (tl regs).

Definition release0 (h : nat) (s : st0) : st0 * out :=
  match h with
  | O => (s, RUnit)
  | _ =>
    if negb (Nat.eqb h (depth0 s)) then (s, RPanic) else
    match stages0 s with
    | [] => (s, RPanic)
    | j :: [] => (mk0 (j ++ base0 s) [] (kf0 s) (dirty0 s || negb (match j with [] => true | _ => false end))
                      (elimit0 s) (blimit0 s) (merge_regs0 (base0 s) (regs0 s)) (lastcp0 s), RUnit)
    | j :: j2 :: r => (mk0 (base0 s) ((j ++ j2) :: r) (kf0 s) (dirty0 s) (elimit0 s) (blimit0 s)
                           (merge_regs0 j2 (regs0 s)) (lastcp0 s), RUnit)
    end
  end.

Definition cleanup0 (h : nat) (s : st0) : st0 * out :=
  match h with
  | O => (s, RUnit)
  | _ =>
    if Nat.ltb (depth0 s) h then (s, RUnit)
    else if Nat.ltb h (depth0 s) then (s, RPanic)
    else match stages0 s with
         | [] => (s, RUnit)
         | j :: js => (mk0 (base0 s) js (undo0 j (concat js ++ base0 s) (kf0 s)) (dirty0 s)
                           (elimit0 s) (blimit0 s) (tl (regs0 s))
                           (match lastcp0 s with Some c => Some (Nat.min c (length (concat js ++ base0 s))) | None => None end), RUnit)
         end
  end.

Definition reg0 (s : st0) : list journal := hd [] (regs0 s).

Definition checkpoint0 (s : st0) : st0 * out :=
  (with_lastcp0 (with_regs0 s ((reg0 s ++ [top0 s]) :: tl (regs0 s))) (Some (length (all0 s))), RNat (length (reg0 s))).

Definition revert0 (i : nat) (s : st0) : st0 * out :=
  match nth_error (reg0 s) i with
  | None => (s, RMisuse)
  | Some saved =>
      let t := top0 s in
      let dropped := firstn (length t - length saved) t in
      let s1 := with_top0 s saved in
      let s2 := with_kf0 s1 (undo0 dropped (saved ++ lower0 s) (kf0 s)) (dirty0 s) in
      (with_lastcp0 (with_regs0 s2 (firstn (S i) (reg0 s) :: tl (regs0 s))) (Some (length (saved ++ lower0 s))), RUnit)
  end.

(* ---- observers ---- *)
Definition iter_list (src : journal) (lo hi : key) (kf : kmap flags) : list (key * val) :=
  flat_map (fun p => if in_bounds lo hi (fst p)
                     then match kfind (fst p) src with Some v => [(fst p, v)] | None => [] end
                     else []) kf.
Definition maybe_rev {A} (r : bool) (l : list A) : list A := if r then rev l else l.

Fixpoint first_occ (seen : list key) (j : journal) : journal :=
  match j with
  | [] => []
  | (k, v) :: r => if existsb (bytes_eqb k) seen then first_occ seen r else (k, v) :: first_occ (k :: seen) r
  end.

Definition history (k : key) (j : journal) : list val :=
  flat_map (fun p => if bytes_eqb k (fst p) then [snd p] else []) j.

Definition obs0 (o : op) (s : st0) : out :=
  match o with
  | OGet k => RVal (kfind k (all0 s))
  | OGetFlags k => RFlagsOf (kfind k (kf0 s))
  | OLen => RNum (N.of_nat (length (kf0 s)))
  | OSize => RNum (size0 s)
  | ODirty => RBool (dirty0 s)
  | OIter r lo hi => RKVs (maybe_rev r (iter_list (all0 s) lo hi (kf0 s)))
  | OIterFlags r lo hi =>
      RKFVs (maybe_rev r (flat_map (fun p => if in_bounds lo hi (fst p) then [(fst p, snd p, kfind (fst p) (all0 s))] else []) (kf0 s)))
  | OSnapGet k => RVal (kfind k (base0 s))
  | OSnapIter r lo hi => RKVs (maybe_rev r (iter_list (base0 s) lo hi (kf0 s)))
  | OInspect h =>
      if Nat.eqb h O || Nat.ltb (depth0 s) h then RPanic
      else RKFVs (map (fun p => (fst p, flags_of0 (fst p) s, Some (snd p)))
                      (first_occ [] (concat (firstn (S (depth0 s - h)) (stages0 s)))))
  | OHist k p =>
      match history k (all0 s) with
      | [] => RVal None
      | h => match find (hpred_holds p) h with Some v => RVal (Some v) | None => RNil end
      end
  | _ => RUnit
  end.

Definition step0 (s : st0) (o : op) : st0 * out :=
  match o with
  | OSet k v fops => set0 k v fops s
  | OFlags k fops => updflags0 k fops s
  | OStaging => staging0 s
  | ORelease h => release0 h s
  | OCleanup h => cleanup0 h s
  | OCheckpoint => checkpoint0 s
  | ORevert i => revert0 i s
  | OSetLimits e b => (mk0 (base0 s) (stages0 s) (kf0 s) (dirty0 s) e b (regs0 s) (lastcp0 s), RUnit)
  | _ => (s, obs0 o s)
  end.

Fixpoint run0 (s : st0) (ops : list op) : list out :=
  match ops with
  | [] => []
  | o :: r => let '(s', x) := step0 s o in x :: run0 s' r
  end.
Fixpoint exec0 (s : st0) (ops : list op) : st0 :=
  match ops with [] => s | o :: r => exec0 (fst (step0 s o)) r end.
