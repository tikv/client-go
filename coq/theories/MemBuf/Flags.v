(* MemBuf/Flags.v — key flags of the transaction write buffer (mirror of /repo/kv/keyflags.go).
   A flag word is an N (14 bits used); FlagsOp values are an enumeration (the code switches on
   the op value, ops are never or-ed together). *)
From Verif Require Import Base.Lex.

Definition flags := N.

Definition fPresumeKNE            : N := 1.      (* 1 << 0 *)
Definition fKeyLocked             : N := 2.
Definition fNeedLocked            : N := 4.
Definition fKeyLockedValExist     : N := 8.
Definition fNeedCheckExists       : N := 16.
Definition fPrewriteOnly          : N := 32.
Definition fIgnoredIn2PC          : N := 64.
Definition fReadable              : N := 128.
Definition fNewlyInserted         : N := 256.
Definition fAssertExist           : N := 512.
Definition fAssertNotExist        : N := 1024.
Definition fNeedConstraintCheck   : N := 2048.   (* flagNeedConstraintCheckInPrewrite *)
Definition fPreviousPresumeKNE    : N := 4096.
Definition fKeyLockedInShareMode  : N := 8192.

(* persistentFlags = flagKeyLocked | flagKeyLockedValExist | flagNeedConstraintCheckInPrewrite | flagKeyLockedInShareMode *)
Definition persistent_mask : N := 10250.
Definition and_persistent (f : flags) : flags := N.land f persistent_mask.

Inductive flag_op :=
| SetPresumeKeyNotExists | DelPresumeKeyNotExists | SetKeyLocked | DelKeyLocked
| SetNeedLocked | DelNeedLocked | SetKeyLockedValueExists | SetKeyLockedValueNotExists
| DelNeedCheckExists | SetPrewriteOnly | SetIgnoredIn2PC | SetReadable | SetNewlyInserted
| SetAssertExist | SetAssertNotExist | SetAssertUnknown | SetAssertNone
| SetNeedConstraintCheckInPrewrite | DelNeedConstraintCheckInPrewrite
| SetPreviousPresumeKNE | SetKeyLockedInShareMode | SetKeyLockedInExclusiveMode.

Definition fset (f m : N) : N := N.lor f m.
Definition fclr (f m : N) : N := N.ldiff f m.

(* one case of the switch in kv.ApplyFlagsOps *)
Definition apply_flag_op (f : flags) (o : flag_op) : flags :=
  match o with
  | SetPresumeKeyNotExists => fset f (N.lor fPresumeKNE fNeedCheckExists)
  | DelPresumeKeyNotExists => fclr f (N.lor fPresumeKNE fNeedCheckExists)
  | SetKeyLocked => fset f fKeyLocked
  | DelKeyLocked => fclr f fKeyLocked
  | SetNeedLocked => fset f fNeedLocked
  | DelNeedLocked => fclr f fNeedLocked
  | SetKeyLockedValueExists => fclr (fset f fKeyLockedValExist) fNeedConstraintCheck
  | DelNeedCheckExists => fclr f fNeedCheckExists
  | SetKeyLockedValueNotExists => fclr (fclr f fKeyLockedValExist) fNeedConstraintCheck
  | SetPrewriteOnly => fset f fPrewriteOnly
  | SetIgnoredIn2PC => fset f fIgnoredIn2PC
  | SetReadable => fset f fReadable
  | SetNewlyInserted => fset f fNewlyInserted
  | SetAssertExist => fset (fclr f fAssertNotExist) fAssertExist
  | SetAssertNotExist => fset (fclr f fAssertExist) fAssertNotExist
  | SetAssertUnknown => fset (fset f fAssertNotExist) fAssertExist
  | SetAssertNone => fclr (fclr f fAssertExist) fAssertNotExist
  | SetNeedConstraintCheckInPrewrite => fset f fNeedConstraintCheck
  | DelNeedConstraintCheckInPrewrite => fclr f fNeedConstraintCheck
  | SetPreviousPresumeKNE => fset f fPreviousPresumeKNE
  | SetKeyLockedInShareMode => fset f fKeyLockedInShareMode
  | SetKeyLockedInExclusiveMode => fclr f fKeyLockedInShareMode
  end.

Definition apply_flag_ops (f : flags) (ops : list flag_op) : flags := fold_left apply_flag_op ops f.

(* the code's op numbering: FlagsOp = 1 << index; the drivers exchange the index *)
Definition flag_op_of_index (i : N) : option flag_op :=
  match i with
  | 0 => Some SetPresumeKeyNotExists | 1 => Some DelPresumeKeyNotExists | 2 => Some SetKeyLocked
  | 3 => Some DelKeyLocked | 4 => Some SetNeedLocked | 5 => Some DelNeedLocked
  | 6 => Some SetKeyLockedValueExists | 7 => Some SetKeyLockedValueNotExists
  | 8 => Some DelNeedCheckExists | 9 => Some SetPrewriteOnly | 10 => Some SetIgnoredIn2PC
  | 11 => Some SetReadable | 12 => Some SetNewlyInserted | 13 => Some SetAssertExist
  | 14 => Some SetAssertNotExist | 15 => Some SetAssertUnknown | 16 => Some SetAssertNone
  | 17 => Some SetNeedConstraintCheckInPrewrite | 18 => Some DelNeedConstraintCheckInPrewrite
  | 19 => Some SetPreviousPresumeKNE | 20 => Some SetKeyLockedInShareMode
  | 21 => Some SetKeyLockedInExclusiveMode
  | _ => None
  end.

Lemma and_persistent_idem f : and_persistent (and_persistent f) = and_persistent f.
Proof. unfold and_persistent. rewrite <- N.land_assoc, N.land_diag. reflexivity. Qed.

(* Every case of the switch clears a fixed set of bits and then sets a fixed set of bits; all laws of the
   operations (closure of the 14-bit domain, what a reader sees afterwards, the frame) follow from this form. *)
Definition op_clr (o : flag_op) : N :=
  match o with
  | DelPresumeKeyNotExists => N.lor fPresumeKNE fNeedCheckExists
  | DelKeyLocked => fKeyLocked
  | DelNeedLocked => fNeedLocked
  | SetKeyLockedValueExists | DelNeedConstraintCheckInPrewrite => fNeedConstraintCheck
  | SetKeyLockedValueNotExists => N.lor fKeyLockedValExist fNeedConstraintCheck
  | DelNeedCheckExists => fNeedCheckExists
  | SetAssertExist => fAssertNotExist
  | SetAssertNotExist => fAssertExist
  | SetAssertNone => N.lor fAssertExist fAssertNotExist
  | SetKeyLockedInExclusiveMode => fKeyLockedInShareMode
  | _ => 0
  end.
Definition op_set (o : flag_op) : N :=
  match o with
  | SetPresumeKeyNotExists => N.lor fPresumeKNE fNeedCheckExists
  | SetKeyLocked => fKeyLocked
  | SetNeedLocked => fNeedLocked
  | SetKeyLockedValueExists => fKeyLockedValExist
  | SetPrewriteOnly => fPrewriteOnly
  | SetIgnoredIn2PC => fIgnoredIn2PC
  | SetReadable => fReadable
  | SetNewlyInserted => fNewlyInserted
  | SetAssertExist => fAssertExist
  | SetAssertNotExist => fAssertNotExist
  | SetAssertUnknown => N.lor fAssertNotExist fAssertExist
  | SetNeedConstraintCheckInPrewrite => fNeedConstraintCheck
  | SetPreviousPresumeKNE => fPreviousPresumeKNE
  | SetKeyLockedInShareMode => fKeyLockedInShareMode
  | _ => 0
  end.

Lemma fclr_fset_swap f s c : N.land s c = 0 -> fclr (fset f s) c = fset (fclr f c) s.
Proof.
  intros D. apply N.bits_inj. intros n. unfold fclr, fset.
  apply (f_equal (fun x => N.testbit x n)) in D. rewrite N.land_spec, N.bits_0 in D.
  rewrite N.ldiff_spec, !N.lor_spec, N.ldiff_spec.
  destruct (N.testbit f n), (N.testbit s n), (N.testbit c n); try reflexivity; discriminate D.
Qed.

Lemma apply_flag_op_clr_set f o : apply_flag_op f o = fset (fclr f (op_clr o)) (op_set o).
Proof.
  destruct o; cbn [apply_flag_op op_clr op_set]; unfold fset, fclr;
    rewrite ?N.ldiff_0_r, ?N.lor_0_r, ?N.ldiff_ldiff_l, <- ?N.lor_assoc; try reflexivity.
  apply (fclr_fset_swap f fKeyLockedValExist fNeedConstraintCheck). reflexivity.
Qed.
