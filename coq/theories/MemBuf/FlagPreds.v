(* MemBuf/FlagPreds.v — the readers of a flag word (kv/keyflags.go: KeyFlags.HasXxx) and their laws.
   The laws hold for every word, because an operation is "clear these bits, then set those" (apply_flag_op_clr_set)
   and a reader tests a mask: has_apply says what any reader sees after any operation.  14 bits is the whole domain:
   apply_flag_op and and_persistent never leave it (closure), which is also why the word never collides with the node
   bits the trees keep in the same uint16 (ART: bit 15, RBT: bits 14 and 15). *)
From Verif Require Import Base.Lex MemBuf.Flags.

Definition has (m : N) (f : flags) : bool := negb (N.eqb (N.land f m) 0).

Definition HasAssertExist f := has fAssertExist f && negb (has fAssertNotExist f).
Definition HasAssertNotExist f := has fAssertNotExist f && negb (has fAssertExist f).
Definition HasAssertUnknown f := has fAssertExist f && has fAssertNotExist f.
Definition HasAssertionFlags f := has fAssertExist f || has fAssertNotExist f.
Definition HasPresumeKeyNotExists f := has (N.lor fPresumeKNE fPreviousPresumeKNE) f.
Definition HasLocked f := has fKeyLocked f.
Definition HasLockedInShareMode f := has fKeyLockedInShareMode f.
Definition HasNeedLocked f := has fNeedLocked f.
Definition HasLockedValueExists f := has fKeyLockedValExist f.
Definition HasNeedCheckExists f := has fNeedCheckExists f.
Definition HasPrewriteOnly f := has fPrewriteOnly f.
Definition HasIgnoredIn2PC f := has fIgnoredIn2PC f.
Definition HasReadable f := has fReadable f.
Definition HasNeedConstraintCheckInPrewrite f := has fNeedConstraintCheck f.
Definition HasNewlyInserted f := has fNewlyInserted f.

(* all readers as one bit vector, in the order above (what the driver prints) *)
Definition preds (f : flags) : list bool :=
  [HasAssertExist f; HasAssertNotExist f; HasAssertUnknown f; HasAssertionFlags f; HasPresumeKeyNotExists f;
   HasLocked f; HasLockedInShareMode f; HasNeedLocked f; HasLockedValueExists f; HasNeedCheckExists f;
   HasPrewriteOnly f; HasIgnoredIn2PC f; HasReadable f; HasNeedConstraintCheckInPrewrite f; HasNewlyInserted f].
Fixpoint bits_to_N (l : list bool) : N :=
  match l with [] => 0 | b :: r => (if b then 1 else 0) + 2 * bits_to_N r end.
Definition preds_word (f : flags) : N := bits_to_N (preds f).

Definition flag_limit : N := 16384.      (* 1 << 14 *)

Lemma below_shiftr a n : (a < 2 ^ n)%N <-> N.shiftr a n = 0.
Proof. rewrite N.shiftr_div_pow2. symmetry. apply N.div_small_iff. apply N.pow_nonzero. discriminate. Qed.

Lemma clr_set_below n f c s : (f < 2 ^ n)%N -> (s < 2 ^ n)%N -> (fset (fclr f c) s < 2 ^ n)%N.
Proof.
  rewrite !below_shiftr. intros Hf Hs. unfold fset, fclr.
  rewrite N.shiftr_lor, N.shiftr_ldiff, Hf, Hs. reflexivity.
Qed.

Lemma land_below n f m : (f < 2 ^ n)%N -> (N.land f m < 2 ^ n)%N.
Proof. rewrite !below_shiftr. intros Hf. rewrite N.shiftr_land, Hf. reflexivity. Qed.

Lemma apply_op_closed f o : (f < flag_limit)%N -> (apply_flag_op f o < flag_limit)%N.
Proof. intros H. rewrite apply_flag_op_clr_set. apply (clr_set_below 14); [exact H|]. destruct o; reflexivity. Qed.
Lemma and_persistent_closed f : (f < flag_limit)%N -> (and_persistent f < flag_limit)%N.
Proof. apply (land_below 14). Qed.
Lemma apply_ops_closed ops : forall f, (f < flag_limit)%N -> (apply_flag_ops f ops < flag_limit)%N.
Proof. unfold apply_flag_ops. induction ops as [|o r IH]; intros f H; [exact H|]. cbn. apply IH. apply apply_op_closed. exact H. Qed.

Lemma has_0 f : has 0 f = false.
Proof. unfold has. rewrite N.land_0_r. reflexivity. Qed.

Lemma has_land m f p : has m (N.land f p) = has (N.land p m) f.
Proof. unfold has. rewrite N.land_assoc. reflexivity. Qed.

Lemma has_fclr m f c : has m (fclr f c) = has (N.ldiff m c) f.
Proof.
  unfold has, fclr. f_equal. f_equal. apply N.bits_inj. intros n.
  rewrite !N.land_spec, !N.ldiff_spec. destruct (N.testbit f n), (N.testbit m n), (N.testbit c n); reflexivity.
Qed.

Lemma has_fset m f s : has m (fset f s) = has m s || has m f.
Proof. unfold has, fset. rewrite N.land_lor_distr_l. destruct (N.land f m), (N.land s m); reflexivity. Qed.

Lemma has_apply m f o :
  has m (apply_flag_op f o) = if has m (op_set o) then true else has (N.ldiff m (op_clr o)) f.
Proof. rewrite apply_flag_op_clr_set, has_fset, has_fclr. reflexivity. Qed.

Lemma has_and_persistent m f : has m (and_persistent f) = has (N.land persistent_mask m) f.
Proof. apply has_land. Qed.

(* a Set makes its reader true, the matching Del / opposite makes it false (DelPresumeKeyNotExists: the PresumeKNE
   bit, since HasPresumeKeyNotExists also tests PreviousPresumeKNE) *)
Definition set_del_b (f : N) : bool :=
  HasPresumeKeyNotExists (apply_flag_op f SetPresumeKeyNotExists) && HasNeedCheckExists (apply_flag_op f SetPresumeKeyNotExists) &&
  negb (has fPresumeKNE (apply_flag_op f DelPresumeKeyNotExists)) && negb (HasNeedCheckExists (apply_flag_op f DelPresumeKeyNotExists)) &&
  HasLocked (apply_flag_op f SetKeyLocked) && negb (HasLocked (apply_flag_op f DelKeyLocked)) &&
  HasNeedLocked (apply_flag_op f SetNeedLocked) && negb (HasNeedLocked (apply_flag_op f DelNeedLocked)) &&
  HasLockedValueExists (apply_flag_op f SetKeyLockedValueExists) && negb (HasLockedValueExists (apply_flag_op f SetKeyLockedValueNotExists)) &&
  negb (HasNeedConstraintCheckInPrewrite (apply_flag_op f SetKeyLockedValueExists)) &&
  negb (HasNeedConstraintCheckInPrewrite (apply_flag_op f SetKeyLockedValueNotExists)) &&
  negb (HasNeedCheckExists (apply_flag_op f DelNeedCheckExists)) &&
  HasPrewriteOnly (apply_flag_op f SetPrewriteOnly) && HasIgnoredIn2PC (apply_flag_op f SetIgnoredIn2PC) &&
  HasReadable (apply_flag_op f SetReadable) && HasNewlyInserted (apply_flag_op f SetNewlyInserted) &&
  HasAssertExist (apply_flag_op f SetAssertExist) && HasAssertNotExist (apply_flag_op f SetAssertNotExist) &&
  HasAssertUnknown (apply_flag_op f SetAssertUnknown) && negb (HasAssertionFlags (apply_flag_op f SetAssertNone)) &&
  HasNeedConstraintCheckInPrewrite (apply_flag_op f SetNeedConstraintCheckInPrewrite) &&
  negb (HasNeedConstraintCheckInPrewrite (apply_flag_op f DelNeedConstraintCheckInPrewrite)) &&
  HasPresumeKeyNotExists (apply_flag_op f SetPreviousPresumeKNE) &&
  HasLockedInShareMode (apply_flag_op f SetKeyLockedInShareMode) && negb (HasLockedInShareMode (apply_flag_op f SetKeyLockedInExclusiveMode)).

(* cbn may evaluate a reader of a constant word, never one of a variable *)
Local Arguments has !m !f /.
Ltac unfold_readers :=
  unfold HasAssertExist, HasAssertNotExist, HasAssertUnknown, HasAssertionFlags, HasPresumeKeyNotExists,
    HasLocked, HasLockedInShareMode, HasNeedLocked, HasLockedValueExists, HasNeedCheckExists, HasPrewriteOnly,
    HasIgnoredIn2PC, HasReadable, HasNeedConstraintCheckInPrewrite, HasNewlyInserted.

(* has_apply turns each conjunct into `true` (the op sets a bit of the mask) or into a reader of the empty mask
   (the op clears the whole mask) *)
Lemma set_del_law f : set_del_b f = true.
Proof. unfold set_del_b. unfold_readers. rewrite !has_apply. cbn. rewrite !has_0. reflexivity. Qed.

(* what an undo keeps: exactly the four lock readers; every other reader is false afterwards *)
Definition persistent_b (f : N) : bool :=
  let g := and_persistent f in
  Bool.eqb (HasLocked g) (HasLocked f) && Bool.eqb (HasLockedValueExists g) (HasLockedValueExists f) &&
  Bool.eqb (HasNeedConstraintCheckInPrewrite g) (HasNeedConstraintCheckInPrewrite f) &&
  Bool.eqb (HasLockedInShareMode g) (HasLockedInShareMode f) &&
  negb (HasAssertionFlags g) && negb (HasPresumeKeyNotExists g) && negb (HasNeedLocked g) && negb (HasNeedCheckExists g) &&
  negb (HasPrewriteOnly g) && negb (HasIgnoredIn2PC g) && negb (HasReadable g) && negb (HasNewlyInserted g) &&
  N.eqb (and_persistent g) g.
Lemma persistent_law f : persistent_b f = true.
Proof.
  unfold persistent_b. unfold_readers. rewrite and_persistent_idem, N.eqb_refl, !has_and_persistent. cbn.
  rewrite !has_0, !Bool.eqb_reflx. reflexivity.
Qed.

(* frame: an operation changes no reader outside its own group
   (groups: presume/need-check, locked, need-locked, value-exists/constraint-check, prewrite-only, ignored, readable,
   newly-inserted, assertion, previous-presume, share-mode) *)
Definition group (o : flag_op) : N :=
  match o with
  | SetPresumeKeyNotExists | DelPresumeKeyNotExists | DelNeedCheckExists => N.lor fPresumeKNE fNeedCheckExists
  | SetKeyLocked | DelKeyLocked => fKeyLocked
  | SetNeedLocked | DelNeedLocked => fNeedLocked
  | SetKeyLockedValueExists | SetKeyLockedValueNotExists => N.lor fKeyLockedValExist fNeedConstraintCheck
  | SetPrewriteOnly => fPrewriteOnly | SetIgnoredIn2PC => fIgnoredIn2PC | SetReadable => fReadable
  | SetNewlyInserted => fNewlyInserted
  | SetAssertExist | SetAssertNotExist | SetAssertUnknown | SetAssertNone => N.lor fAssertExist fAssertNotExist
  | SetNeedConstraintCheckInPrewrite | DelNeedConstraintCheckInPrewrite => fNeedConstraintCheck
  | SetPreviousPresumeKNE => fPreviousPresumeKNE
  | SetKeyLockedInShareMode | SetKeyLockedInExclusiveMode => fKeyLockedInShareMode
  end.

Lemma clr_set_frame f c s g : N.ldiff c g = 0 -> N.ldiff s g = 0 -> N.ldiff (fset (fclr f c) s) g = N.ldiff f g.
Proof.
  intros Hc Hs. apply N.bits_inj. intros n. unfold fset, fclr.
  apply (f_equal (fun x => N.testbit x n)) in Hc, Hs. rewrite N.ldiff_spec, N.bits_0 in Hc, Hs.
  rewrite !N.ldiff_spec, N.lor_spec, N.ldiff_spec.
  destruct (N.testbit f n), (N.testbit g n), (N.testbit c n), (N.testbit s n); try reflexivity; discriminate.
Qed.

Lemma frame_law f o : N.ldiff (apply_flag_op f o) (group o) = N.ldiff f (group o).
Proof. rewrite apply_flag_op_clr_set. apply clr_set_frame; destruct o; reflexivity. Qed.
