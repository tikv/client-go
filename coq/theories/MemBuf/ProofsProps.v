(* MemBuf/ProofsProps.v — iteration, limits, stack discipline, snapshot *)
From Verif Require Import Base.Lex MemBuf.Flags MemBuf.KMap MemBuf.Ops MemBuf.Staged MemBuf.VLog
  MemBuf.ProofsKMap MemBuf.ProofsLog MemBuf.ProofsSim MemBuf.ProofsObs MemBuf.ProofsSet MemBuf.ProofsRevert.
From Coq Require Import Arith.

Section Iter.
Context {A : Type} (valof : key -> A -> option val) (lo hi : key).

Definition iter_gen (t : kmap A) : list (key * val) :=
  flat_map (fun p => if in_bounds lo hi (fst p)
                     then match valof (fst p) (snd p) with Some v => [(fst p, v)] | None => [] end
                     else []) t.

Lemma iter_gen_cons k a t :
  iter_gen ((k, a) :: t) =
    (if in_bounds lo hi k then match valof k a with Some v => [(k, v)] | None => [] end else []) ++ iter_gen t.
Proof. reflexivity. Qed.

Lemma iter_gen_in t k v :
  In (k, v) (iter_gen t) <-> exists a, In (k, a) t /\ valof k a = Some v /\ in_bounds lo hi k = true.
Proof.
  induction t as [|[k' a'] r IH]; [cbn; split; [contradiction|intros (a & [] & _)]|].
  rewrite iter_gen_cons, in_app_iff, IH. split.
  - intros [H|(a & Hin & Hv & Hb)].
    + destruct (in_bounds lo hi k') eqn:B; [|contradiction]. destruct (valof k' a') eqn:V; [|contradiction].
      destruct H as [H|[]]. inversion H; subst. exists a'. repeat split; [left; reflexivity|assumption|assumption].
    + exists a. repeat split; [right; exact Hin|assumption|assumption].
  - intros (a & [Hin|Hin] & Hv & Hb).
    + inversion Hin; subst. left. rewrite Hb, Hv. left. reflexivity.
    + right. exists a. repeat split; assumption.
Qed.

Lemma iter_gen_klb k t : klb k t -> klb k (iter_gen t).
Proof.
  unfold klb. rewrite !Forall_forall. intros H [k' v] Hin. apply iter_gen_in in Hin. destruct Hin as (a & Hin & _). exact (H _ Hin).
Qed.

Lemma iter_gen_sorted t : ksorted t -> ksorted (iter_gen t).
Proof.
  induction t as [|[k a] r IH]; intros H; [exact I|].
  destruct H as [Hl Hs]. rewrite iter_gen_cons.
  destruct (in_bounds lo hi k); [destruct (valof k a)|]; cbn [app]; try (apply IH; assumption).
  cbn. split; [apply iter_gen_klb; exact Hl|apply IH; exact Hs].
Qed.
End Iter.

Lemma iter_list_gen src lo hi kf : iter_list src lo hi kf = iter_gen (fun k (_ : flags) => kfind k src) lo hi kf.
Proof. reflexivity. Qed.

(* every key with a value in src has one in the buffer: the base level, or the whole buffer *)
Definition covered (src : journal) (s0 : st0) : Prop := forall k, kfind k src <> None -> kfind k (all0 s0) <> None.

Lemma covered_all s0 : covered (all0 s0) s0.
Proof. intros k H. exact H. Qed.

Lemma covered_base s0 : covered (base0 s0) s0.
Proof. intros k H. unfold all0. rewrite kfind_app. destruct (kfind k (concat (stages0 s0))); [discriminate|exact H]. Qed.

Lemma valued_key_live s1 s0 k : Sim s1 s0 -> kfind k (all0 s0) <> None -> exists f, In (k, f) (kf0 s0).
Proof.
  intros HS Hall. rewrite (all_jof _ _ HS) in Hall. pose proof (sim_keys _ _ HS k) as K.
  destruct (kfind k (keys1 s1)) as [ent|] eqn:Hf; [|apply head_of_none_find in K; contradiction].
  destruct K as [Kh Kd].
  assert (Hnd : k_del ent = false).
  { destruct (k_del ent) eqn:D; [|reflexivity]. destruct (Kd eq_refl) as [X _]. rewrite X in Kh. symmetry in Kh.
    apply head_of_none_find in Kh. contradiction. }
  exists (k_flags ent). apply kfind_Some_In.
  rewrite (sim_kf _ _ HS), live_find by apply (sim_sorted _ _ HS). rewrite Hf. unfold live_ent. rewrite Hnd. reflexivity.
Qed.

Lemma iter_list_in s1 s0 src lo hi k v :
  Sim s1 s0 -> covered src s0 ->
  (In (k, v) (iter_list src lo hi (kf0 s0)) <-> kfind k src = Some v /\ in_bounds lo hi k = true).
Proof.
  intros HS C. rewrite iter_list_gen, iter_gen_in. split.
  - intros (f & _ & Hv & Hb). split; assumption.
  - intros [Hv Hb]. destruct (valued_key_live _ _ k HS) as (f & Hf); [apply C; rewrite Hv; discriminate|].
    exists f. repeat split; assumption.
Qed.

Lemma iter_list_sorted s1 s0 src lo hi : Sim s1 s0 -> ksorted (iter_list src lo hi (kf0 s0)).
Proof.
  intros HS. rewrite iter_list_gen. apply iter_gen_sorted. rewrite (sim_kf _ _ HS). apply ksorted_kfmap. apply (sim_sorted _ _ HS).
Qed.

(* two flag maps may differ in keys without a value in src: the iteration does not see those *)
Lemma iter_list_same_src s1 s0 s1' s0' src lo hi :
  Sim s1 s0 -> Sim s1' s0' -> covered src s0 -> covered src s0' ->
  iter_list src lo hi (kf0 s0') = iter_list src lo hi (kf0 s0).
Proof.
  intros HS HS' C C'. apply (asc_ext fst); [exact (ksorted_asc _ (iter_list_sorted _ _ src lo hi HS'))|exact (ksorted_asc _ (iter_list_sorted _ _ src lo hi HS))|].
  intros [k v]. rewrite (iter_list_in _ _ src lo hi k v HS' C'), (iter_list_in _ _ src lo hi k v HS C). reflexivity.
Qed.

(* the observers see the journals only: equal base levels give equal snapshot reads, equal merged journals equal reads *)
Lemma snap_obs_same s1 s0 s1' s0' :
  Sim s1 s0 -> Sim s1' s0' -> base0 s0' = base0 s0 ->
  (forall rv lo hi, obs1 (OSnapIter rv lo hi) s1' = obs1 (OSnapIter rv lo hi) s1) /\
  (forall k, obs1 (OSnapGet k) s1' = obs1 (OSnapGet k) s1).
Proof.
  intros HS HS' Eb. split; intros; (eapply obs_transfer; [exact HS|exact HS'|reflexivity|]); cbn [obs0]; rewrite Eb; [|reflexivity].
  f_equal. f_equal. apply (iter_list_same_src _ _ _ _ _ lo hi HS HS'); [apply covered_base|rewrite <- Eb; apply covered_base].
Qed.

Lemma cur_obs_same s1 s0 s1' s0' :
  Sim s1 s0 -> Sim s1' s0' -> all0 s0' = all0 s0 ->
  (forall k, obs1 (OGet k) s1' = obs1 (OGet k) s1) /\
  (forall k p, obs1 (OHist k p) s1' = obs1 (OHist k p) s1) /\
  (forall rv lo hi, obs1 (OIter rv lo hi) s1' = obs1 (OIter rv lo hi) s1).
Proof.
  intros HS HS' Ea. repeat split; intros; (eapply obs_transfer; [exact HS|exact HS'|reflexivity|]); cbn [obs0]; rewrite Ea; try reflexivity.
  f_equal. f_equal. apply (iter_list_same_src _ _ _ _ _ lo hi HS HS'); [apply covered_all|rewrite <- Ea; apply covered_all].
Qed.

(* setValue writes the log, the key table and the size, nothing else *)
Lemma setvalue1_shape k v s :
  exists l ks sz, setvalue1 k v s = mk1 l ks (stages1 s) (len1 s) sz (dirty1 s) (elimit1 s) (blimit1 s) (wseq1 s) (sseq1 s)
                                        (regs1 s) (lastcp1 s).
Proof.
  unfold setvalue1. destruct (kfind k (keys1 s)) as [ent|]; [|destruct s; do 3 eexists; reflexivity].
  destruct (k_head ent); [destruct (_ && _)|]; do 3 eexists; reflexivity.
Qed.

Lemma set1_limits s k v fops :
  ((max_key_len < blen k)%N -> set1 k v fops s = (s, RErr EKeyTooLarge) /\ updflags1 k fops s = (s, RUnit)) /\
  ((blen k <= max_key_len)%N -> (elimit1 s < blen k + blen v)%N -> set1 k v fops s = (s, RErr EEntryTooLarge)) /\
  ((blen k <= max_key_len)%N -> (blen k + blen v <= elimit1 s)%N ->
     let s2 := setvalue1 k v (touch1 k (apply_flag_ops (flags_of1 k s) (DelNeedConstraintCheckInPrewrite :: fops)) s) in
     set1 k v fops s = (s2, if (blimit1 s <? size1 s2)%N then RErr ETxnTooLarge else RUnit) /\
     wseq1 s2 = (wseq1 s + 1)%N).
Proof.
  unfold set1, updflags1. split; [|split].
  - intros H. apply N.ltb_lt in H. rewrite H. split; reflexivity.
  - intros H1 H2. apply N.ltb_ge in H1. apply N.ltb_lt in H2. rewrite H1, H2. reflexivity.
  - intros H1 H2. apply N.ltb_ge in H1. apply N.ltb_ge in H2. rewrite H1, H2.
    destruct (setvalue1_shape k v (touch1 k (apply_flag_ops (flags_of1 k s) (DelNeedConstraintCheckInPrewrite :: fops)) s))
      as (l & ks & sz & ->).
    split; reflexivity.
Qed.

Local Open Scope nat_scope.
Definition levels_below (n : nat) (s : st0) : list journal * journal := (skipn (depth0 s - n) (stages0 s), base0 s).

Lemma with_top0_below n s j : n < depth0 s -> levels_below n (with_top0 s j) = levels_below n s.
Proof.
  unfold levels_below, depth0, with_top0. destruct (stages0 s) as [|j0 js]; cbn [length stages0 base0]; intros H; [lia|].
  destruct (S (length js) - n) eqn:E; [lia|]. reflexivity.
Qed.

Lemma write0_below n k v s : n < depth0 s -> levels_below n (write0 k v s) = levels_below n s.
Proof.
  intros H. unfold write0. destruct (kfind k (top0 s)); [destruct (coalesces v0 v && unprotected0 k s)|]; apply with_top0_below; exact H.
Qed.

Lemma depth_with_top0 s j : depth0 (with_top0 s j) = depth0 s.
Proof. unfold depth0, with_top0. destruct (stages0 s); reflexivity. Qed.

Lemma step0_frozen n s o :
  n < depth0 s -> n < depth0 (fst (step0 s o)) -> levels_below n (fst (step0 s o)) = levels_below n s.
Proof.
  intros H H'. destruct o; cbn [step0 fst] in *; try reflexivity.
  - unfold set0 in *. destruct (_ <? _)%N; [reflexivity|]. destruct (_ <? _)%N; [reflexivity|]. cbn [fst] in *.
    rewrite write0_below; [reflexivity|exact H].
  - unfold updflags0. destruct (_ <? _)%N; reflexivity.
  - unfold levels_below, depth0. cbn [staging0 fst stages0 base0 length]. destruct (S (length (stages0 s)) - n) eqn:E; [unfold depth0 in H; lia|].
    replace (length (stages0 s) - n) with n0 by lia. reflexivity.
  - unfold release0 in *. destruct h; [reflexivity|]. destruct (negb _); [reflexivity|].
    unfold levels_below, depth0 in *. destruct (stages0 s) as [|j [|j2 r]]; cbn [fst stages0 base0 length] in *; try reflexivity; try lia.
    destruct (S (length r) - n) eqn:E; [lia|]. destruct (S (S (length r)) - n) eqn:E2; [lia|].
    destruct n1; [lia|]. cbn [skipn]. replace n0 with n1 by lia. reflexivity.
  - unfold cleanup0 in *. destruct h; [reflexivity|]. destruct (_ <? _); [reflexivity|]. destruct (_ <? _); [reflexivity|].
    unfold levels_below, depth0 in *. destruct (stages0 s) as [|j js]; cbn [fst stages0 base0 length] in *; [lia|].
    destruct (S (length js) - n) eqn:E; [lia|]. cbn [skipn]. replace (length js - n) with n0 by lia. reflexivity.
  - unfold revert0 in *. destruct (nth_error _ _); [|reflexivity]. cbn [fst] in *.
    exact (with_top0_below n s _ H).
Qed.

Lemma step0_base n s o : n < depth0 s -> n < depth0 (fst (step0 s o)) -> base0 (fst (step0 s o)) = base0 s.
Proof. intros H H'. exact (f_equal snd (step0_frozen n s o H H')). Qed.

Lemma release0_keeps h s :
  all0 (fst (release0 h s)) = all0 s /\ kf0 (fst (release0 h s)) = kf0 s.
Proof.
  unfold release0. destruct h; [split; reflexivity|]. destruct (negb _); [split; reflexivity|].
  unfold all0. destruct (stages0 s) as [|j [|j2 r]] eqn:E; cbn [fst stages0 base0 kf0 concat]; rewrite ?E; split; try reflexivity;
    cbn [app concat]; rewrite ?app_nil_r, <- ?app_assoc; reflexivity.
Qed.

(* observers that read only the merged journal and the flag map *)
Lemma obs0_values_ext o s s' :
  all0 s' = all0 s -> kf0 s' = kf0 s ->
  match o with OGet _ | OGetFlags _ | OLen | OSize | OIter _ _ _ | OIterFlags _ _ _ | OHist _ _ => obs0 o s' = obs0 o s | _ => True end.
Proof.
  intros Ea Ek. destruct o; try exact I; cbn [obs0]; unfold size0, flags_of0; rewrite ?Ea, ?Ek; reflexivity.
Qed.

Fixpoint stays_above (n : nat) (s : st0) (ops : list op) : bool :=
  match ops with
  | [] => true
  | o :: r => Nat.ltb n (depth0 (fst (step0 s o))) && stays_above n (fst (step0 s o)) r
  end.

Lemma exec0_frozen n ops s : n < depth0 s -> stays_above n s ops = true -> levels_below n (exec0 s ops) = levels_below n s.
Proof.
  revert s. induction ops as [|o r IH]; intros s H Hs; [reflexivity|].
  cbn [stays_above] in Hs. apply andb_true_iff in Hs. destruct Hs as [H1 H2]. apply Nat.ltb_lt in H1.
  cbn [exec0]. rewrite (IH _ H1 H2). apply step0_frozen; assumption.
Qed.

Lemma cleanup_restores s ops :
  let s1 := fst (staging0 s) in
  stays_above (depth0 s) s1 ops = true ->
  depth0 (exec0 s1 ops) = S (depth0 s) ->
  let s3 := fst (cleanup0 (S (depth0 s)) (exec0 s1 ops)) in
  stages0 s3 = stages0 s /\ base0 s3 = base0 s /\ all0 s3 = all0 s /\
  (forall k p, obs0 (OGet k) s3 = obs0 (OGet k) s /\ obs0 (OSnapGet k) s3 = obs0 (OSnapGet k) s /\
               (kfind k (all0 s) <> None -> obs0 (OHist k p) s3 = obs0 (OHist k p) s)).
Proof.
  intros s1 Hs Hd. set (s2 := exec0 s1 ops) in *.
  assert (H1 : depth0 s < depth0 s1) by (unfold s1, depth0; cbn; lia).
  pose proof (exec0_frozen _ _ _ H1 Hs) as F. fold s2 in F.
  assert (B1 : levels_below (depth0 s) s1 = (stages0 s, base0 s)).
  { unfold levels_below, s1, depth0. cbn [staging0 fst stages0 base0 length].
    replace (S (length (stages0 s)) - length (stages0 s)) with 1 by lia. reflexivity. }
  rewrite B1 in F. unfold levels_below in F. rewrite Hd in F. replace (S (depth0 s) - depth0 s) with 1 in F by lia.
  inversion F as [[F1 F2]]. intros s3. unfold s3, cleanup0. rewrite Hd, Nat.ltb_irrefl.
  destruct (stages0 s2) as [|j js] eqn:E; cbn [skipn] in F1; cbn [fst].
  - unfold depth0 in Hd. rewrite E in Hd. discriminate.
  - cbn [stages0 base0 obs0]. unfold all0. cbn [stages0 base0]. subst js. rewrite F2. repeat split.
Qed.
