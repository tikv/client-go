(* MemBuf/ProofsSet.v — Set / UpdateFlags preserve the simulation *)
From Verif Require Import Base.Lex MemBuf.KMap MemBuf.Ops MemBuf.Staged MemBuf.VLog MemBuf.ProofsKMap
  MemBuf.ProofsLog MemBuf.ProofsSim MemBuf.ProofsObs MemBuf.ProofsAcct.
From Coq Require Import Arith.

Lemma live_upsert k ent keys :
  ksorted keys ->
  live (kupsert k ent keys) = if k_del ent then kremove k (live keys) else kupsert k (k_flags ent) (live keys).
Proof. intros S. unfold live. rewrite kfmap_upsert by exact S. unfold live_ent. destruct (k_del ent); reflexivity. Qed.

Lemma live_find k keys :
  ksorted keys -> kfind k (live keys) = match kfind k keys with Some e => live_ent e | None => None end.
Proof. intros S. unfold live. apply kfind_kfmap. exact S. Qed.

Lemma head_of_cons_other k e r : k <> e_key e -> head_of k (e :: r) = head_of k r.
Proof. intros N. cbn [head_of]. rewrite (bytes_eqb_neq k (e_key e) N). reflexivity. Qed.

(* the table after an upsert at k may be read against another log, as long as the heads of the other keys agree *)
Lemma keys_ok_upsert k ent keys l l' :
  keys_ok keys l -> (forall k', k' <> k -> head_of k' l' = head_of k' l) ->
  k_head ent = head_of k l' -> (k_del ent = true -> k_head ent = None /\ k_flags ent = 0%N) ->
  keys_ok (kupsert k ent keys) l'.
Proof.
  intros K O H D k'. destruct (bytes_eqb_dec k k') as [<-|N].
  - rewrite kfind_upsert_same. split; assumption.
  - rewrite kfind_upsert_other by exact N. rewrite O by congruence. apply K.
Qed.

Lemma stages_nil_iff s1 s0 : Sim s1 s0 -> (match stages0 s0 with [] => true | _ => false end) = no_stage s1.
Proof.
  intros HS. pose proof (Rlev_len _ _ _ _ _ _ _ (sim_lev _ _ HS)) as L. unfold no_stage.
  destruct (stages0 s0); destruct (stages1 s1); cbn in L; try discriminate; reflexivity.
Qed.

Lemma N_of_nat_S n : N.of_nat (S n) = (N.of_nat n + 1)%N.
Proof. lia. Qed.

Lemma sim_touch s1 s0 k f1 : Sim s1 s0 -> Sim (touch1 k f1 s1) (touch0 k f1 s0).
Proof.
  intros HS. pose proof (sim_sorted _ _ HS) as So. pose proof (sim_keys _ _ HS k) as Kk.
  unfold touch1, touch0, with_kf0.
  set (ent := match kfind k (keys1 s1) with Some e => e | None => mkK None 0 true end).
  assert (Hh : k_head ent = head_of k (log1 s1)).
  { subst ent. destruct (kfind k (keys1 s1)); [apply Kk|symmetry; exact Kk]. }
  assert (Hlive : kfind k (live (keys1 s1)) = if k_del ent then None else Some (k_flags ent)).
  { rewrite live_find by exact So. subst ent. destruct (kfind k (keys1 s1)) as [e|]; [reflexivity|reflexivity]. }
  assert (Hdel : k_del ent = true -> kfind k (jof (log1 s1)) = None).
  { intros D. apply head_of_none_find. rewrite <- Hh. subst ent.
    destruct (kfind k (keys1 s1)) as [e|]; [apply Kk; exact D|reflexivity]. }
  pose proof (live_upsert k (mkK (k_head ent) f1 false) _ So) as Hup. cbn [k_del k_flags] in Hup.
  sim_fields; try apply HS.
  - apply (keys_ok_upsert _ _ _ (log1 s1)); [apply (sim_keys _ _ HS)|reflexivity|exact Hh|discriminate].
  - apply ksorted_upsert. exact So.
  - rewrite Hup, (sim_kf _ _ HS). reflexivity.
  - rewrite (sim_dirty _ _ HS), (stages_nil_iff _ _ HS). reflexivity.
  - rewrite Hup, (sim_len _ _ HS).
    destruct (k_del ent).
    + rewrite kupsert_length_new by exact Hlive. lia.
    + erewrite kupsert_length_old; [reflexivity|apply ksorted_kfmap; exact So|exact Hlive].
  - rewrite Hup, (sim_size _ _ HS).
    destruct (k_del ent) eqn:D.
    + rewrite size_of_upsert_new by exact Hlive. rewrite (Hdel eq_refl). cbn [vlen]. lia.
    + erewrite size_of_upsert_old; [reflexivity|apply ksorted_kfmap; exact So|exact Hlive].
Qed.

Lemma top0_topJ s : top0 s = topJ (stages0 s) (base0 s).
Proof. reflexivity. Qed.
Lemma lower0_lowerJ s : lower0 s = lowerJ (stages0 s) (base0 s).
Proof. reflexivity. Qed.

Local Open Scope nat_scope.

Definition lc_allows (lc : option nat) (a : nat) : bool := match lc with None => true | Some c => Nat.ltb c a end.

Lemma can_modify_pos s a : 1 <= a -> can_modify s a = Nat.ltb (top_pos (stages1 s)) a && lc_allows (lastcp1 s) a.
Proof.
  intros H. unfold can_modify, top_pos, lc_allows. f_equal. destruct (stages1 s); cbn [hd]; [|reflexivity].
  symmetry. apply Nat.ltb_lt. lia.
Qed.

Lemma kpos_head k l a : head_of k l = Some a -> kpos k (jof l) = a.
Proof.
  induction l as [|e r IH]; cbn [head_of jof map kpos]; [discriminate|]. fold (jof r).
  destruct (bytes_eqb k (e_key e)).
  - intros H. inversion H. cbn [length]. rewrite jof_length. reflexivity.
  - exact IH.
Qed.

(* an in-place overwrite above every token of the level leaves the saved copies intact *)
Lemma Rreg_inplace lj p lc r1 r0 x v :
  1 <= x -> Rreg lj p lc r1 r0 -> (forall c, In c r1 -> c < x + p) -> Rreg (set_at x v lj) p lc r1 r0.
Proof.
  intros Hx (F & M & L) Hlt. refine (conj _ (conj M L)).
  clear M L. induction F as [|c saved r1 r0 H F IH]; [constructor|]. constructor.
  - destruct H as (newer & older & -> & Hc & Hs).
    assert (Hc' : c < x + p) by (apply Hlt; left; reflexivity).
    replace x with (x - length older + length older) by lia. rewrite set_at_app by lia.
    exists (set_at (x - length older) v newer), older. repeat split; assumption.
  - apply IH. intros c' Hin. apply Hlt. right. exact Hin.
Qed.

Lemma kfind_prefix k lj rest w x :
  kfind k (jof (lj ++ rest)) = Some w -> head_of k lj = Some x -> kfind k (jof lj) = Some w.
Proof.
  intros H Hx. rewrite jof_app, kfind_app in H. destruct (kfind k (jof lj)) eqn:Q; [exact H|].
  apply head_of_none_find in Q. congruence.
Qed.

Lemma vlen_jreplace k k' v v0 j :
  kfind k j = Some v0 -> length v0 = length v -> vlen (kfind k' j) = vlen (kfind k' (jreplace k v j)).
Proof.
  intros Hv Co. induction j as [|[k2 v2] r IH]; [reflexivity|]. cbn [jreplace kfind] in *.
  destruct (bytes_eqb k k2) eqn:E.
  - inversion Hv; subst v2. cbn [kfind]. apply bytes_eqb_eq in E. subst k2.
    destruct (bytes_eqb k' k); [cbn [vlen]; unfold blen; rewrite Co; reflexivity|reflexivity].
  - cbn [kfind]. destruct (bytes_eqb k' k2); [reflexivity|apply IH; exact Hv].
Qed.

Lemma sim_setvalue s1 s0 k v ent :
  Sim s1 s0 -> kfind k (keys1 s1) = Some ent -> k_del ent = false -> Sim (setvalue1 k v s1) (write0 k v s0).
Proof.
  intros HS Hf Hd.
  pose proof (sim_sorted _ _ HS) as So. pose proof (sim_chain _ _ HS) as Ch.
  pose proof (ent_head _ _ HS _ _ Hf) as Hh.
  destruct (Rlev_top _ _ _ _ _ _ _ (sim_lev _ _ HS)) as (lj & rest & El & Lr & Etop & Elow & Hreg & Rebuild).
  assert (Hlive : kfind k (live (keys1 s1)) = Some (k_flags ent)).
  { rewrite live_find by exact So. rewrite Hf. unfold live_ent. rewrite Hd. reflexivity. }
  assert (Hsame : forall h, live (kupsert k (mkK h (k_flags ent) (k_del ent)) (keys1 s1)) = live (keys1 s1)).
  { intros h. rewrite live_upsert by exact So. cbn [k_del k_flags]. rewrite Hd.
    apply kupsert_same; [apply ksorted_kfmap; exact So|exact Hlive]. }
  (* the append case, shared *)
  assert (Append : forall oldlen : N,
     vlen (kfind k (jof (log1 s1))) = oldlen ->
     Sim (mk1 (mkE k (k_head ent) v :: log1 s1)
              (kupsert k (mkK (Some (S (length (log1 s1)))) (k_flags ent) (k_del ent)) (keys1 s1))
              (stages1 s1) (len1 s1) (size1 s1 + blen v - oldlen) (dirty1 s1) (elimit1 s1) (blimit1 s1)
              (wseq1 s1) (sseq1 s1) (regs1 s1) (lastcp1 s1))
         (with_top0 s0 ((k, v) :: jof lj))).
  { intros oldlen Hold.
    rewrite with_top0_eq. sim_fields; try apply HS.
    - cbn [chain_ok e_old e_key]. split; [exact Hh|exact Ch].
    - rewrite Hd. apply (keys_ok_upsert _ _ _ (log1 s1)); [apply (sim_keys _ _ HS)|intros k' N; apply head_of_cons_other; exact N| |discriminate].
      cbn [k_head head_of e_key length]. rewrite bytes_eqb_refl. reflexivity.
    - apply ksorted_upsert. exact So.
    - change ((k, v) :: jof lj) with (jof (mkE k (k_head ent) v :: lj)).
      rewrite El. change (mkE k (k_head ent) v :: lj ++ rest) with ((mkE k (k_head ent) v :: lj) ++ rest).
      apply Rebuild; [exact (Rreg_grow _ _ _ _ _ [_] Hreg)|reflexivity|reflexivity|auto].
    - rewrite Hsame. apply (sim_kf _ _ HS).
    - rewrite Hsame. apply (sim_len _ _ HS).
    - rewrite Hsame. cbn [jof map e_key e_val]. fold (jof (log1 s1)).
      pose proof (size_of_change (jof (log1 s1)) ((k, v) :: jof (log1 s1)) k _ (live (keys1 s1))
                    (ksorted_kfmap _ _ So) Hlive) as C.
      rewrite (sim_size _ _ HS), <- Hold.
      assert (Hx : forall k', k' <> k -> kfind k' ((k, v) :: jof (log1 s1)) = kfind k' (jof (log1 s1))).
      { intros k' N. cbn [kfind]. rewrite (bytes_eqb_neq k' k N). reflexivity. }
      specialize (C Hx). cbn [kfind] in C. rewrite bytes_eqb_refl in C. cbn [vlen] in C.
      clear -C. lia. }
  unfold setvalue1. rewrite Hf. unfold write0.
  destruct (k_head ent) as [a|] eqn:Ha.
  - (* the key has a value at address a *)
    symmetry in Hh. pose proof (head_of_bound _ _ _ Hh) as Hb.
    pose proof (value_at_head _ _ _ Hh) as Hv.
    rewrite (can_modify_pos _ _ (proj1 Hb)).
    assert (Hsplit : head_of k (log1 s1) = match head_of k lj with Some x => Some (x + length rest) | None => head_of k rest end).
    { rewrite El. apply head_of_app. }
    rewrite top0_topJ, Etop.
    destruct (head_of k lj) as [x|] eqn:Hx.
    + (* newest value lies in the current level *)
      assert (Ea : a = x + top_pos (stages1 s1)) by (rewrite <- Lr; congruence). subst a.
      pose proof (head_of_bound _ _ _ Hx) as Hbx.
      assert (Hlt : Nat.ltb (top_pos (stages1 s1)) (x + top_pos (stages1 s1)) = true) by (apply Nat.ltb_lt; lia).
      rewrite Hlt. cbn [andb].
      assert (Hvj : kfind k (jof lj) = Some (value_at (x + top_pos (stages1 s1)) (log1 s1))).
      { apply (kfind_prefix k lj rest _ x); [rewrite <- El; exact Hv|exact Hx]. }
      assert (Hun : unprotected0 k s0 = lc_allows (lastcp1 s1) (x + top_pos (stages1 s1))).
      { unfold unprotected0, lc_allows. rewrite (sim_lastcp _ _ HS). change (concat (stages0 s0) ++ base0 s0) with (all0 s0).
        rewrite (all_jof _ _ HS), (kpos_head _ _ _ Hh). reflexivity. }
      rewrite Hvj, Hun.
      destruct (coalesces (value_at (x + top_pos (stages1 s1)) (log1 s1)) v) eqn:Co;
        destruct (lc_allows (lastcp1 s1) (x + top_pos (stages1 s1))) eqn:La; cbn [andb];
        try (apply Append; rewrite Hv; reflexivity).
      * (* in place *)
        assert (Eset : set_at (x + top_pos (stages1 s1)) v (log1 s1) = set_at x v lj ++ rest).
        { rewrite El, <- Lr. apply set_at_app. lia. }
        rewrite with_top0_eq. sim_fields; try apply HS.
        -- apply set_at_chain. exact Ch.
        -- intros k'. rewrite set_at_head_of. apply (sim_keys _ _ HS).
        -- rewrite Eset. rewrite <- (set_at_jof k v lj x Hx).
           apply Rebuild; [|reflexivity|reflexivity|auto].
           apply Rreg_inplace; [lia|exact Hreg|].
           intros c Hc. destruct Hreg as (_ & _ & L). destruct (L c Hc) as (cl & Ecl & Hle).
           unfold lc_allows in La. rewrite Ecl in La. apply Nat.ltb_lt in La. lia.
        -- rewrite (sim_size _ _ HS). apply size_of_ext. intros k' f' _.
           rewrite (set_at_jof k v (log1 s1) _ Hh).
           unfold coalesces in Co. apply andb_true_iff in Co. destruct Co as [_ Co]. apply Nat.eqb_eq in Co.
           eapply vlen_jreplace; eassumption.
    + (* newest value lies below the current level: CanModify is false *)
      assert (Hr : head_of k rest = Some a) by congruence.
      pose proof (head_of_bound _ _ _ Hr) as Hb2. rewrite Lr in Hb2.
      assert (Hlt : Nat.ltb (top_pos (stages1 s1)) a = false) by (apply Nat.ltb_ge; lia).
      rewrite Hlt. cbn [andb].
      assert (Hnj : kfind k (jof lj) = None) by (apply head_of_none_find; exact Hx).
      rewrite Hnj. apply Append. rewrite Hv. reflexivity.
  - (* no value yet *)
    symmetry in Hh. pose proof (proj1 (head_of_none_find _ _) Hh) as Hn.
    assert (Hnj : kfind k (jof lj) = None).
    { rewrite El, jof_app, kfind_app in Hn. destruct (kfind k (jof lj)); [discriminate|reflexivity]. }
    rewrite top0_topJ, Etop, Hnj.
    apply (Append 0%N). rewrite Hn. reflexivity.
Qed.
