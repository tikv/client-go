(* MemBuf/ProofsBatched.v — the batched snapshot iterator returns exactly what the plain one returns *)
From Verif Require Import Base.Lex MemBuf.KMap MemBuf.ProofsKMap MemBuf.Batched.
From Coq Require Import Arith.
Local Open Scope nat_scope.

Lemma lo_ok_succ a k : lo_ok (a ++ [0%N]) k = lex_ltb a k.
Proof. unfold lo_ok. destruct (a ++ [0%N]) eqn:E; [destruct a; discriminate|]. rewrite <- E. apply succ_key. Qed.

Lemma lo_ok_trans lo a k : lo_ok lo a = true -> lex_lt a k -> lo_ok lo k = true.
Proof.
  unfold lo_ok. destruct lo; [reflexivity|]. rewrite !lex_leb_le, !lex_le_cases.
  intros [H| <-] H2; left; [exact (lex_cmp_lt_trans _ _ _ H H2)|exact H2].
Qed.

Lemma hi_ok_trans hi a k : hi_ok hi a = true -> lex_lt k a -> hi_ok hi k = true.
Proof. unfold hi_ok. destruct hi; [reflexivity|]. rewrite !lex_ltb_lt. intros H1 H2. exact (lex_cmp_lt_trans _ _ _ H2 H1). Qed.

Section L.
Context {A : Type}.
Implicit Types t : kmap A.

Lemma klb_filter k (f : key * A -> bool) t : klb k t -> klb k (filter f t).
Proof. unfold klb. intros H. rewrite Forall_forall in *. intros p Hp. apply filter_In in Hp. apply H. tauto. Qed.

Lemma ksorted_filter (f : key * A -> bool) t : ksorted t -> ksorted (filter f t).
Proof.
  induction t as [|[k a] r IH]; intros S; [exact I|]. destruct S as [Sl Sr]. cbn [filter].
  destruct (f (k, a)); [cbn; split; [apply klb_filter; exact Sl|]|]; apply IH; exact Sr.
Qed.

Lemma ksorted_app_inv (C D : kmap A) : ksorted (C ++ D) ->
  ksorted C /\ ksorted D /\ forall c d, In c C -> In d D -> lex_lt (fst c) (fst d).
Proof.
  induction C as [|[k a] C IH]; intros S; [cbn in S; repeat split; [exact S|intros c d []]|].
  cbn [app] in S. destruct S as [Sl Sr]. destruct (IH Sr) as (S1 & S2 & S3).
  unfold klb in Sl. rewrite Forall_forall in Sl.
  split; [cbn; split; [|exact S1]|split; [exact S2|]].
  - unfold klb. rewrite Forall_forall. intros p Hp. apply Sl. apply in_or_app. left. exact Hp.
  - intros c d [<-|Hc] Hd; [cbn; apply Sl; apply in_or_app; right; exact Hd|apply S3; assumption].
Qed.

Lemma split_sorted (C : kmap A) p D : ksorted (C ++ p :: D) ->
  filter (fun q => lex_ltb (fst p) (fst q)) (C ++ p :: D) = D /\
  filter (fun q => lex_ltb (fst q) (fst p)) (C ++ p :: D) = C.
Proof.
  intros S. destruct (ksorted_app_inv _ _ S) as (SC & SD & Hcd). destruct p as [k a]. destruct SD as [Dl SD].
  unfold klb in Dl. rewrite Forall_forall in Dl. cbn [fst] in *.
  rewrite !filter_app. cbn [filter fst]. rewrite ltb_irrefl. split.
  - rewrite filter_none, filter_all; [reflexivity| |].
    + intros q Hq. apply lex_ltb_lt. apply Dl. exact Hq.
    + intros q Hq. apply ltb_asym. apply (Hcd q (k, a) Hq). left. reflexivity.
  - rewrite filter_all, filter_none; [apply app_nil_r| |].
    + intros q Hq. apply ltb_asym. apply Dl. exact Hq.
    + intros q Hq. apply lex_ltb_lt. apply (Hcd q (k, a) Hq). left. reflexivity.
Qed.
End L.

Lemma batch_split (M : list (key * val)) bs lk : last_key (firstn bs M) = Some lk ->
  exists b0 p, fst p = lk /\ M = b0 ++ p :: skipn bs M.
Proof.
  unfold last_key. destruct (rev (firstn bs M)) as [|p r] eqn:E; [discriminate|]. intros H. inversion H. exists (rev r), p.
  split; [reflexivity|]. rewrite <- (firstn_skipn bs M) at 1. rewrite <- (rev_involutive (firstn bs M)), E. cbn [rev].
  rewrite <- app_assoc. reflexivity.
Qed.

Lemma last_key_none (b : list (key * val)) : last_key b = None -> b = [].
Proof. unfold last_key. destruct (rev b) eqn:E; [|discriminate]. intros _. rewrite <- (rev_involutive b), E. reflexivity. Qed.

(* the resume bounds select the rest of the selection *)
Lemma sel_resume_fwd snap lo hi lk :
  in_bounds lo hi lk = true ->
  sel snap (lk ++ [0%N]) hi = filter (fun q => lex_ltb lk (fst q)) (sel snap lo hi).
Proof.
  intros Hb. unfold sel. rewrite filter_filter. apply filter_ext. intros [k v]. cbn [fst].
  rewrite !in_bounds_split, lo_ok_succ. rewrite in_bounds_split in Hb. apply andb_true_iff in Hb. destruct Hb as [Hl _].
  destruct (lex_ltb lk k) eqn:E; [|rewrite andb_false_r; reflexivity].
  apply lex_ltb_lt in E. rewrite (lo_ok_trans lo lk k Hl E). rewrite andb_true_r. reflexivity.
Qed.

Lemma sel_resume_bwd snap lo hi lk :
  lk <> [] -> in_bounds lo hi lk = true ->
  sel snap lo lk = filter (fun q => lex_ltb (fst q) lk) (sel snap lo hi).
Proof.
  intros Hne Hb. unfold sel. rewrite filter_filter. apply filter_ext. intros [k v]. cbn [fst].
  rewrite !in_bounds_split. rewrite in_bounds_split in Hb. apply andb_true_iff in Hb. destruct Hb as [_ Hh].
  assert (Eh : hi_ok lk k = lex_ltb k lk) by (unfold hi_ok; destruct lk; [contradiction|reflexivity]). rewrite Eh.
  destruct (lex_ltb k lk) eqn:E; [|rewrite !andb_false_r; reflexivity].
  apply lex_ltb_lt in E. rewrite (hi_ok_trans hi lk k Hh E). rewrite !andb_true_r. reflexivity.
Qed.

Lemma sel_in_bounds snap lo hi p : In p (sel snap lo hi) -> in_bounds lo hi (fst p) = true.
Proof. unfold sel. intros H. apply filter_In in H. tauto. Qed.

Lemma next_size_pos bs : 1 <= bs -> 1 <= next_size bs.
Proof. unfold next_size. lia. Qed.

Lemma fwd_ok snap hi : ksorted snap ->
  forall fuel lo bs, 1 <= bs -> length (sel snap lo hi) < fuel -> fwd fuel snap lo hi bs = sel snap lo hi.
Proof.
  intros S. induction fuel as [|f IH]; intros lo bs Hbs Hlen; [lia|]. cbn [fwd].
  set (L := sel snap lo hi) in *.
  destruct (last_key (firstn bs L)) as [lk|] eqn:E.
  - destruct (batch_split _ _ _ E) as (b0 & p & Ep & EL).
    assert (SL : ksorted L) by (apply ksorted_filter; exact S).
    assert (Hin : In p L) by (rewrite EL; apply in_or_app; right; left; reflexivity).
    pose proof (sel_in_bounds _ _ _ _ Hin) as Hb. rewrite Ep in Hb.
    rewrite EL in SL. destruct (split_sorted _ _ _ SL) as [F1 _]. rewrite Ep, <- EL in F1.
    rewrite IH; [|apply next_size_pos; exact Hbs|].
    + rewrite (sel_resume_fwd snap lo hi lk Hb). fold L. rewrite F1. apply firstn_skipn.
    + rewrite (sel_resume_fwd snap lo hi lk Hb). fold L. rewrite F1, skipn_length.
      assert (length L <> 0) by (rewrite EL, app_length; cbn; lia). lia.
  - apply last_key_none in E. destruct L as [|q L']; [reflexivity|]. destruct bs; [lia|discriminate].
Qed.

Lemma bwd_ok snap lo : ksorted snap ->
  forall fuel hi bs, 1 <= bs -> length (sel snap lo hi) < fuel -> bwd fuel snap lo hi bs = rev (sel snap lo hi).
Proof.
  intros S. induction fuel as [|f IH]; intros hi bs Hbs Hlen; [lia|]. cbn [bwd].
  set (L := sel snap lo hi) in *. set (R := rev L) in *.
  destruct (last_key (firstn bs R)) as [lk|] eqn:E.
  - destruct (batch_split _ _ _ E) as (b0 & p & Ep & ER).
    assert (EL : L = rev (skipn bs R) ++ p :: rev b0).
    { rewrite <- (rev_involutive L). fold R. rewrite ER at 1. rewrite rev_app_distr. cbn [rev]. rewrite <- app_assoc. reflexivity. }
    assert (SL : ksorted L) by (apply ksorted_filter; exact S).
    assert (Hin : In p L) by (rewrite EL; apply in_or_app; right; left; reflexivity).
    pose proof (sel_in_bounds _ _ _ _ Hin) as Hb. rewrite Ep in Hb.
    rewrite EL in SL. destruct (split_sorted _ _ _ SL) as [_ F2]. rewrite Ep, <- EL in F2.
    assert (Erest : lk <> [] -> rev (sel snap lo lk) = skipn bs R).
    { intros Hne. rewrite (sel_resume_bwd snap lo hi lk Hne Hb). fold L. rewrite F2. apply rev_involutive. }
    destruct lk as [|x lk'].
    + (* the scan reached the empty key: nothing sorts below it *)
      assert (Hnil : skipn bs R = []).
      { rewrite <- (rev_involutive (skipn bs R)), <- F2, filter_none; [reflexivity|]. intros q _. apply ltb_nil_r. }
      rewrite <- (firstn_skipn bs R) at 2. rewrite Hnil, app_nil_r. reflexivity.
    + rewrite IH; [|apply next_size_pos; exact Hbs|].
      * rewrite Erest by discriminate. apply firstn_skipn.
      * rewrite <- (rev_length (sel snap lo (x :: lk'))), Erest by discriminate. rewrite skipn_length.
        assert (length R <> 0) by (rewrite ER, app_length; cbn; lia). unfold R in *. rewrite rev_length in *. lia.
  - apply last_key_none in E. destruct R as [|q R'] eqn:ER; [reflexivity|]. destruct bs; [lia|discriminate].
Qed.

Theorem batched_ok snap rv lo hi : ksorted snap -> batched (S (length snap)) snap rv lo hi = plain snap rv lo hi.
Proof.
  intros HS. assert (Hl : length (sel snap lo hi) < S (length snap)).
  { unfold sel. pose proof (filter_len_le (fun p => in_bounds lo hi (fst p)) snap). lia. }
  unfold batched, plain. destruct rv; [apply bwd_ok|apply fwd_ok]; try assumption; lia.
Qed.
