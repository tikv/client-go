(* MemBuf/ProofsLog.v — the value log read through its links equals the journal view *)
From Verif Require Import Base.Lex MemBuf.KMap MemBuf.Staged MemBuf.VLog.
From Coq Require Import Arith.
Local Open Scope nat_scope.

Fixpoint head_of (k : key) (l : vlog) : option nat :=
  match l with
  | [] => None
  | e :: r => if bytes_eqb k (e_key e) then Some (length l) else head_of k r
  end.

Fixpoint chain_ok (l : vlog) : Prop :=
  match l with
  | [] => True
  | e :: r => e_old e = head_of (e_key e) r /\ chain_ok r
  end.

Definition jof (l : vlog) : journal := map (fun e => (e_key e, e_val e)) l.

Fixpoint hist_find (p : nat -> val -> bool) (k : key) (l : vlog) : option val :=
  match l with
  | [] => None
  | e :: r => if bytes_eqb k (e_key e)
              then (if p (length l) (e_val e) then Some (e_val e) else hist_find p k r)
              else hist_find p k r
  end.

Lemma jof_app a b : jof (a ++ b) = jof a ++ jof b.
Proof. unfold jof. apply map_app. Qed.
Lemma jof_length l : length (jof l) = length l.
Proof. unfold jof. apply map_length. Qed.

Lemma entry_at_cons a e r :
  entry_at a (e :: r) = if Nat.eqb a (S (length r)) then Some e else entry_at a r.
Proof. reflexivity. Qed.

Lemma entry_at_big a l : length l < a -> entry_at a l = None.
Proof.
  induction l as [|e r IH]; intros H; [reflexivity|].
  rewrite entry_at_cons. cbn [length] in H. destruct (Nat.eqb_spec a (S (length r))); [lia|]. apply IH. lia.
Qed.

Lemma walk_cons p a e r :
  walk p a (e :: r) =
    if Nat.eqb a (S (length r)) then
      if p (S (length r)) (e_val e) then Some (e_val e)
      else match e_old e with Some a' => walk p a' r | None => None end
    else walk p a r.
Proof. reflexivity. Qed.

Lemma set_at_cons a v e r :
  set_at a v (e :: r) = if Nat.eqb a (S (length r)) then mkE (e_key e) (e_old e) v :: r else e :: set_at a v r.
Proof. reflexivity. Qed.

Lemma head_of_bound k l a : head_of k l = Some a -> 1 <= a <= length l.
Proof.
  induction l as [|e r IH]; cbn [head_of]; [discriminate|].
  destruct (bytes_eqb k (e_key e)).
  - intros H; inversion H; subst. cbn [length]. lia.
  - intros H. apply IH in H. cbn [length]. lia.
Qed.

Lemma head_of_app k a b :
  head_of k (a ++ b) = match head_of k a with Some x => Some (x + length b) | None => head_of k b end.
Proof.
  induction a as [|e r IH]; [reflexivity|].
  cbn [app head_of]. destruct (bytes_eqb k (e_key e)); [|exact IH].
  cbn [length]. rewrite app_length. reflexivity.
Qed.

Lemma head_of_none_find k l : head_of k l = None <-> kfind k (jof l) = None.
Proof.
  induction l as [|e r IH]; cbn [head_of jof map kfind]; [tauto|].
  destruct (bytes_eqb k (e_key e)); [split; discriminate|exact IH].
Qed.

(* the newest value of a key: by address = by search in the journal *)
Lemma cur_spec k l :
  option_map e_val (match head_of k l with Some a => entry_at a l | None => None end) = kfind k (jof l).
Proof.
  induction l as [|e r IH]; [reflexivity|].
  cbn [head_of jof map kfind]. destruct (bytes_eqb k (e_key e)) eqn:E.
  - rewrite entry_at_cons. cbn [length]. rewrite Nat.eqb_refl. reflexivity.
  - destruct (head_of k r) as [a|] eqn:H.
    + rewrite entry_at_cons. pose proof (head_of_bound _ _ _ H).
      destruct (Nat.eqb_spec a (S (length r))); [lia|]. exact IH.
    + exact IH.
Qed.

Definition walk_opt (p : nat -> val -> bool) (a : option nat) (l : vlog) : option val :=
  match a with Some a => walk p a l | None => None end.

Lemma walk_spec p k l : chain_ok l -> walk_opt p (head_of k l) l = hist_find p k l.
Proof.
  induction l as [|e r IH]; intros C; [reflexivity|].
  destruct C as [Co Cr]. cbn [head_of hist_find]. destruct (bytes_eqb k (e_key e)) eqn:E.
  - cbn [walk_opt length]. rewrite walk_cons, Nat.eqb_refl.
    destruct (p (S (length r)) (e_val e)); [reflexivity|].
    apply bytes_eqb_eq in E. subst k. rewrite Co. apply (IH Cr).
  - destruct (head_of k r) as [a|] eqn:H.
    + cbn [walk_opt]. rewrite walk_cons. pose proof (head_of_bound _ _ _ H).
      destruct (Nat.eqb_spec a (S (length r))); [lia|]. rewrite <- (IH Cr). reflexivity.
    + rewrite <- (IH Cr). reflexivity.
Qed.

Lemma hist_find_vals pr k l :
  hist_find (fun _ v => pr v) k l = find pr (history k (jof l)).
Proof.
  induction l as [|e r IH]; [reflexivity|].
  cbn [hist_find jof map history flat_map fst snd]. fold (jof r). fold (history k (jof r)).
  destruct (bytes_eqb k (e_key e)); cbn [app find]; [destruct (pr (e_val e)); [reflexivity|exact IH]|exact IH].
Qed.

Lemma history_nil_find k j : history k j = [] <-> kfind k j = None.
Proof.
  induction j as [|[k' v] r IH]; cbn [history flat_map kfind fst snd]; [tauto|].
  fold (history k r). destruct (bytes_eqb k k'); cbn [app]; [split; discriminate|exact IH].
Qed.

Lemma hist_find_all k l n : length l <= n -> hist_find (fun a _ => Nat.leb a n) k l = kfind k (jof l).
Proof.
  revert n. induction l as [|e r IH]; intros n Hn; [reflexivity|].
  cbn [hist_find jof map kfind]. cbn [length] in Hn.
  destruct (bytes_eqb k (e_key e)).
  - destruct (Nat.leb_spec (length (e :: r)) n); [reflexivity|cbn [length] in *; lia].
  - apply IH. lia.
Qed.

(* snapshot selection: entries above the position are skipped *)
Lemma hist_find_below k lj rest :
  hist_find (fun a _ => Nat.leb a (length rest)) k (lj ++ rest) = kfind k (jof rest).
Proof.
  induction lj as [|e r IH]; [apply hist_find_all; apply le_n|].
  cbn [app hist_find length]. rewrite app_length.
  destruct (Nat.leb_spec (S (length r + length rest)) (length rest)); [lia|].
  destruct (bytes_eqb k (e_key e)); exact IH.
Qed.

Lemma set_at_length a v l : length (set_at a v l) = length l.
Proof.
  induction l as [|e r IH]; [reflexivity|].
  rewrite set_at_cons. destruct (Nat.eqb a (S (length r))); cbn [length]; [reflexivity|]. rewrite IH. reflexivity.
Qed.

Lemma set_at_head_of a v k l : head_of k (set_at a v l) = head_of k l.
Proof.
  induction l as [|e r IH]; [reflexivity|].
  rewrite set_at_cons. destruct (Nat.eqb a (S (length r))); cbn [head_of e_key length].
  - reflexivity.
  - rewrite set_at_length, IH. reflexivity.
Qed.

Lemma set_at_chain a v l : chain_ok l -> chain_ok (set_at a v l).
Proof.
  induction l as [|e r IH]; intros C; [exact I|].
  destruct C as [Co Cr]. rewrite set_at_cons. destruct (Nat.eqb a (S (length r))); cbn [chain_ok e_key e_old].
  - split; assumption.
  - rewrite set_at_head_of. split; [assumption|apply IH; assumption].
Qed.

Lemma set_at_big a v l : length l < a -> set_at a v l = l.
Proof.
  induction l as [|e r IH]; intros H; [reflexivity|].
  rewrite set_at_cons. cbn [length] in H. destruct (Nat.eqb_spec a (S (length r))); [lia|]. rewrite IH by lia. reflexivity.
Qed.

Lemma set_at_jof k v l a : head_of k l = Some a -> jof (set_at a v l) = jreplace k v (jof l).
Proof.
  induction l as [|e r IH]; cbn [head_of]; [discriminate|].
  rewrite set_at_cons. cbn [jof map jreplace]. fold (jof r).
  destruct (bytes_eqb k (e_key e)) eqn:E.
  - intros H; inversion H; subst. cbn [length]. rewrite Nat.eqb_refl. reflexivity.
  - intros H. pose proof (head_of_bound _ _ _ H). destruct (Nat.eqb_spec a (S (length r))); [lia|].
    cbn [jof map]. fold (jof (set_at a v r)). rewrite (IH H). reflexivity.
Qed.

Lemma set_at_app a v lj rest :
  1 <= a -> set_at (a + length rest) v (lj ++ rest) = set_at a v lj ++ rest.
Proof.
  intros Ha. induction lj as [|e r IH].
  - cbn [app]. rewrite set_at_big by lia. reflexivity.
  - cbn [app]. rewrite !set_at_cons, app_length.
    destruct (Nat.eqb_spec a (S (length r))); destruct (Nat.eqb_spec (a + length rest) (S (length r + length rest))); try lia.
    + reflexivity.
    + cbn [app]. rewrite IH. reflexivity.
Qed.

Lemma value_at_head k l a : head_of k l = Some a -> kfind k (jof l) = Some (value_at a l).
Proof.
  intros H. pose proof (cur_spec k l) as C. rewrite H in C. unfold value_at.
  destruct (entry_at a l); cbn [option_map] in C.
  - symmetry. exact C.
  - symmetry in C. apply head_of_none_find in C. congruence.
Qed.

Lemma jreplace_app_found k v a b : kfind k a <> None -> jreplace k v (a ++ b) = jreplace k v a ++ b.
Proof.
  induction a as [|[k' v'] r IH]; cbn [kfind jreplace app]; [congruence|].
  destruct (bytes_eqb k k'); [reflexivity|]. intros H. rewrite (IH H). reflexivity.
Qed.

Lemma kfind_app k (a b : journal) : kfind k (a ++ b) = match kfind k a with Some v => Some v | None => kfind k b end.
Proof.
  induction a as [|[k' v'] r IH]; [reflexivity|]. cbn [app kfind]. destruct (bytes_eqb k k'); [reflexivity|exact IH].
Qed.
