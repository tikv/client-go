(* SI/Resolver.v — the lock resolver's status cache (LockResolver.resolved, saveResolved / getResolved):
   an answer of CheckTxnStatus that [determined] (= TxnStatus.StatusCacheable) accepts is FINAL in the store - the
   commit / rollback record of the transaction lies on its primary key, stays there (until GC passes its start ts),
   every later status check answers the same and changes nothing; so a resolver that skips the request because of a
   memoised answer produces the same store, the same committed history and the same oracle verdict. The client glue
   around the cache ([get_txn_status], [status_from_lock]) memoises exactly such answers ([loop_post]). *)
From Verif Require Import SI.Model SI.ProofsTrans SI.ProofsRead Mvcc.ProofsStore Mvcc.ProofsKey Mvcc.ProofsKstep
     Mvcc.ProofsStep Mvcc.ProofsLate Mvcc.ProofsMarker.

Lemma krec_intro ws s d w : In w ws -> w_start w = s ->
  match d with DCommitted c => is_rollback w = false /\ w_commit w = c | DRolledBack => is_rollback w = true end ->
  krec ws s d = true.
Proof.
  intros Hin Es Hd. unfold krec. apply existsb_exists. exists w. split; [exact Hin|]. rewrite Es, N.eqb_refl. cbn [andb].
  destruct d as [c|]; [destruct Hd as [H1 H2]; rewrite H1, H2, N.eqb_refl; reflexivity|exact Hd].
Qed.
Lemma krec_elim ws s d : krec ws s d = true -> exists w, In w ws /\ w_start w = s /\
  match d with DCommitted c => is_rollback w = false /\ w_commit w = c | DRolledBack => is_rollback w = true end.
Proof.
  unfold krec. rewrite existsb_exists. intros [w [Hin H]]. exists w. apply andb_true_iff in H. destruct H as [H1 H2].
  apply N.eqb_eq in H1. split; [exact Hin|]. split; [exact H1|]. destruct d as [c|]; [|exact H2].
  apply andb_true_iff in H2. destruct H2 as [H2 H3]. apply negb_true_iff in H2. apply N.eqb_eq in H3. split; assumption.
Qed.

(* on a well-formed key the record of s is what the store's own lookup finds, and s holds no lock there *)
Lemma krec_find W ks s d : wf_ks W ks -> krec (ks_writes ks) s d = true ->
  own_lock ks s = None /\ exists w, find_start s (ks_writes ks) = Some w /\ In w (ks_writes ks) /\
    match d with DCommitted c => is_rollback w = false /\ w_commit w = c | DRolledBack => is_rollback w = true end.
Proof.
  intros Hwf Hk. apply krec_elim in Hk. destruct Hk as [w [Hin [Es Hd]]].
  assert (Hs : In s (map w_start (ks_writes ks))) by (rewrite <- Es; apply in_map; exact Hin). split.
  - destruct (own_lock ks s) as [l|] eqn:Eo; [|reflexivity]. apply own_lock_some in Eo. destruct Eo as [El El2].
    destruct (wf_lock _ _ Hwf l El) as [_ Hn]. rewrite El2 in Hn. contradiction.
  - destruct (find_start s (ks_writes ks)) as [w1|] eqn:Ef; [|apply find_start_none in Ef; contradiction].
    apply find_start_some in Ef. destruct Ef as [Hin1 Es1].
    assert (w1 = w) by (eapply nodup_map_inj; [exact (wf_nodup _ _ Hwf)|exact Hin1|exact Hin|congruence]). subst w1. eauto.
Qed.

Lemma krec_unique W ks s d1 d2 : wf_ks W ks -> krec (ks_writes ks) s d1 = true -> krec (ks_writes ks) s d2 = true -> d1 = d2.
Proof.
  intros Hwf H1 H2. destruct (krec_find W ks s d1 Hwf H1) as [_ [w1 [F1 [_ D1]]]]. destruct (krec_find W ks s d2 Hwf H2) as [_ [w2 [F2 [_ D2]]]].
  rewrite F1 in F2. inversion F2; subst w2. destruct d1 as [c1|], d2 as [c2|]; try reflexivity.
  - destruct D1 as [_ D1]. destruct D2 as [_ D2]. congruence.
  - destruct D1 as [D1 _]. congruence.
  - destruct D2 as [D2 _]. congruence.
Qed.

Section Res.
  Variable W : world.
  Hypothesis HW : World_ok W.

  (* a determined answer comes with its record *)
  Lemma cts_determined_record ks k s caller cur rine rp o r d :
    wf_ks W ks -> (forall l, ks_lock ks = Some l -> 0 < l_ttl l) ->
    check_txn_status_key ks k s caller cur rine rp = (o, r) -> determined r = Some d ->
    krec (ks_writes (match o with Some x => x | None => ks end)) s d = true.
  Proof.
    intros Hwf Httl. unfold check_txn_status_key. destruct (own_lock ks s) as [l|] eqn:Eo.
    - apply own_lock_some in Eo. destruct Eo as [El Es]. specialize (Httl l El).
      assert (Halive : forall a, determined (RStatus (l_ttl l) 0 a) = Some d -> False).
      { intros a. cbn [determined]. unfold determined3. cbn. destruct (N.eqb_spec (l_ttl l) 0); [lia|]. cbn [andb]. discriminate. }
      destruct (ttl_expired l cur).
      + destruct (rp && is_pess l); intros E Hd; inversion E; subst; [cbn in Hd; discriminate|].
        cbn in Hd. inversion Hd; subst d. unfold rollback_lock. cbn [ks_writes].
        eapply krec_intro; [apply put_write_has|reflexivity|reflexivity].
      + (* a live lock: every answer carries its positive TTL *)
        intros E Hd. assert (Ha : exists a, r = RStatus (l_ttl l) 0 a).
        { destruct (caller =? max_ts); [|destruct (0 <? l_min_commit l); [destruct (l_min_commit l <? caller + 1)|]];
            inversion E; eauto. }
        destruct Ha as [a Ea]. subst r. destruct (Halive a Hd).
    - destruct (find_start s (ks_writes ks)) as [w|] eqn:Ef.
      + apply find_start_some in Ef. destruct Ef as [Hin Es].
        destruct (is_rollback w) eqn:Er; intros E Hd; inversion E; subst o r.
        * cbn in Hd. inversion Hd; subst d. eapply krec_intro; [exact Hin|exact Es|exact Er].
        * cbn [determined] in Hd. unfold determined3 in Hd.
          destruct (0 <? w_commit w) eqn:Ec; [inversion Hd; subst d; eapply krec_intro; [exact Hin|exact Es|split; [exact Er|reflexivity]]|].
          cbn in Hd. inversion Hd; subst d. exfalso.
          pose proof (wo_lt W HW _ _ (nonrb_pair W ks w Hwf Hin Er)). apply N.ltb_ge in Ec. lia.
      + destruct rine; [|intros E Hd; inversion E; subst; discriminate].
        destruct rp; intros E Hd; inversion E; subst; [cbn in Hd; discriminate|].
        cbn in Hd. inversion Hd; subst d. unfold write_rollback. cbn [ks_writes].
        eapply krec_intro; [apply put_write_has|reflexivity|reflexivity].
  Qed.

  (* with the record in place a status check is a pure lookup: no change, the determined answer *)
  Lemma cts_record_noop ks k s caller cur rine rp d : wf_ks W ks -> krec (ks_writes ks) s d = true ->
    exists r, check_txn_status_key ks k s caller cur rine rp = (None, r) /\ determined r = Some d.
  Proof.
    intros Hwf Hk. destruct (krec_find W ks s d Hwf Hk) as [Eo [w [Ef [Hin Hd]]]].
    unfold check_txn_status_key. rewrite Eo, Ef. destruct d as [c|].
    - destruct Hd as [Hr Hc]. rewrite Hr. eexists; split; [reflexivity|]. cbn [determined]. unfold determined3.
      pose proof (wo_lt W HW _ _ (nonrb_pair W ks w Hwf Hin Hr)). destruct (N.ltb_spec 0 (w_commit w)); [rewrite Hc; reflexivity|lia].
    - rewrite Hd. eexists; split; reflexivity.
  Qed.

  (* the record stays until GC passes the start ts (or the range is destroyed) *)
  Lemma ktrans_krec c k ks x s d : wf_ks W ks -> cmd_in W c -> ktrans c k ks x -> is_gc_over c s = false ->
    krec (ks_writes ks) s d = true -> krec (ks_writes x) s d = true.
  Proof.
    intros Hwf [Hcs Hcp] Ht Hgc Hk.
    destruct Ht as [| | | |l cm El Hp _|s0 lk Hs0 _| |s0 e sp Ec|s0 e Ec]; cbn [ks_writes]; try exact Hk.
    - (* commit of the lock holder: another record *)
      apply krec_elim in Hk. destruct Hk as [w [Hin [Es Hd]]]. eapply krec_intro; [|exact Es|exact Hd].
      apply put_write_keep; [exact Hin|]. cbn [w_commit]. intros Ec.
      eapply no_same_commit; [exact HW|exact Hwf|exact El|apply Hcp; exact Hp|exact Hin|exact Ec].
    - (* rollback record: the only record it can replace is the rollback record of the same transaction *)
      apply krec_elim in Hk. destruct Hk as [w [Hin [Es Hd]]].
      destruct (N.eq_dec (w_commit w) s0) as [Ec|Ec]; [|eapply krec_intro; [apply put_write_keep; [exact Hin|exact Ec]|exact Es|exact Hd]].
      pose proof (wf_wok _ _ Hwf) as Hok. rewrite Forall_forall in Hok. destruct (Hok _ Hin) as [_ Hp].
      destruct (is_rollback w) eqn:Er.
      + assert (Es0 : s0 = s) by congruence.
        destruct d as [c0|]; [destruct Hd as [Hd _]; congruence|].
        eapply krec_intro; [apply put_write_has|exact Es0|reflexivity].
      + exfalso. apply (wo_disj W HW _ _ s0 Hp); [apply Hcs; exact Hs0|exact Ec].
    - (* gc below the start ts *)
      subst c. cbn [is_gc_over] in Hgc. apply N.leb_gt in Hgc.
      apply krec_elim in Hk. destruct Hk as [w [Hin [Es Hd]]]. eapply krec_intro; [|exact Es|exact Hd].
      apply gc_writes_keep; [exact Hin|]. destruct (wf_no_start_bound W HW _ s Hwf w Hin Es) as [[_ H]|H]; lia.
    - subst c. discriminate.
  Qed.

  Lemma step_record st c k s d : wf_store W st -> cmd_in W c -> is_gc_over c s = false ->
    record_is st k s d = true -> record_is (fst (step st c)) k s d = true.
  Proof.
    intros [Hs Hk] Hc Hgc Hr. unfold record_is, writes_of in *. destruct (step_ktrans st c k Hs) as [E|Ht]; [rewrite E; exact Hr|].
    eapply ktrans_krec; [apply Hk|exact Hc|exact Ht|exact Hgc|exact Hr].
  Qed.

End Res.

Definition ttl_pos (ks : kstate) : Prop := forall l, ks_lock ks = Some l -> 0 < l_ttl l.

Lemma step_ttl_pos st c : keys_sorted st -> ttl_cmd_ok c = true -> (forall k, ttl_pos (get_ks st k)) ->
  forall k, ttl_pos (get_ks (fst (step st c)) k).
Proof.
  intros Hs Hok Hp k l' El'.
  destruct (step_lock st c k l' Hs El') as [l El _ _ _ Httl _|ms p s fu ttl mc ao m Ec _ _ _ _ Httl _|r Ec El].
  - specialize (Hp k l El). lia.
  - subst c. cbn [ttl_cmd_ok] in Hok. apply N.ltb_lt in Hok. lia.
  - subst c l'. cbn [ttl_cmd_ok] in Hok. apply N.ltb_lt in Hok. exact Hok.
Qed.

Lemma run_ttl_pos : forall b st, keys_sorted st -> (forall k, ttl_pos (get_ks st k)) -> forallb ttl_cmd_ok b = true ->
  forall k, ttl_pos (get_ks (run_from st b) k).
Proof.
  induction b as [|c r IH]; intros st Hs Hp Hok; cbn [run_from fold_left]; [exact Hp|].
  cbn [forallb] in Hok. apply andb_true_iff in Hok. destruct Hok as [H1 H2].
  apply IH; [apply (step_kstep st c Hs)|apply step_ttl_pos; assumption|exact H2].
Qed.

(* a cacheable answer is final: its record lies on the checked key (the primary) *)
Lemma cacheable_final cmds k s caller cur rine rp d :
  let c := CheckTxnStatus k s caller cur rine rp in
  oracle_ts (cmds ++ [c]) = true -> (forall l, lock_of (run cmds) k = Some l -> 0 < l_ttl l) ->
  determined (snd (step (run cmds) c)) = Some d -> record_is (run (cmds ++ [c])) k s d = true.
Proof.
  intros c Ho Httl Hd. destruct (oracle_app_wf cmds [c] Ho) as [HW [[Hs Hk] _]].
  rewrite run_app. cbn [run_from fold_left]. subst c. cbn [step] in *.
  destruct (check_txn_status_key (get_ks (run cmds) k) k s caller cur rine rp) as [o r] eqn:E. cbn [fst snd] in *.
  pose proof (cts_determined_record _ HW _ _ _ _ _ _ _ _ _ _ (Hk k) Httl E Hd) as H.
  unfold record_is, writes_of. rewrite get_apply_opt by exact Hs. rewrite N.eqb_refl. destruct o; exact H.
Qed.

(* the same from the sequence discipline "every lock is written with a positive TTL" *)
Lemma cacheable_final_disc cmds k s caller cur rine rp d :
  let c := CheckTxnStatus k s caller cur rine rp in
  oracle_ts (cmds ++ [c]) = true -> ttl_discipline cmds = true ->
  determined (snd (step (run cmds) c)) = Some d -> record_is (run (cmds ++ [c])) k s d = true.
Proof.
  intros c Ho Ht Hd. apply cacheable_final; [exact Ho| |exact Hd].
  apply (run_ttl_pos cmds [] keys_sorted_nil); [intros k0 l El; discriminate|exact Ht].
Qed.

(* the memoised answer stays the store's answer: whatever follows (no GC over the start ts, no destroyed range), a
   status check of that transaction on that key changes nothing and answers the same determined status *)
Lemma memo_agrees a b k s d caller cur rine rp :
  oracle_ts (a ++ b) = true -> record_is (run a) k s d = true -> (forall c, In c b -> is_gc_over c s = false) ->
  exists r, step (run (a ++ b)) (CheckTxnStatus k s caller cur rine rp) = (run (a ++ b), r) /\ determined r = Some d.
Proof.
  intros Ho Hr Hgc. destruct (oracle_app_wf a b Ho) as [HW [Hwf Hd]].
  destruct (oracle_suffix_inv (fun st r => (forall c, In c r -> is_gc_over c s = false) /\ record_is st k s d = true) a b Ho)
    as [_ Hr']; [|split; assumption|].
  { intros HW' st c r Hst _ Hc [Hg Hrec]. split; [intros c' Hc'; apply Hg; right; exact Hc'|].
    eapply step_record; [exact HW'|exact Hst|exact Hc|apply Hg; left; reflexivity|exact Hrec]. }
  pose proof (oracle_run_wf (a ++ b) Ho) as [Hs Hk].
  destruct (cts_record_noop _ HW (get_ks (run (a ++ b)) k) k s caller cur rine rp d (Hk k) Hr') as [r [E Hdet]].
  exists r. split; [|exact Hdet]. cbn [step]. rewrite E. reflexivity.
Qed.

(* skipping the request because of a memoised answer changes neither the store nor, hence, the committed history
   and the verdict of the history checker *)
Lemma memo_skip a b k s d caller cur rine rp obs :
  let c := CheckTxnStatus k s caller cur rine rp in
  oracle_ts (a ++ c :: b) = true -> record_is (run a) k s d = true ->
  determined (snd (step (run a) c)) = Some d /\ run (a ++ c :: b) = run (a ++ b) /\
  si_ok (full_history (run (a ++ c :: b))) obs = si_ok (full_history (run (a ++ b))) obs.
Proof.
  intros c Ho Hr. destruct (oracle_app_wf a (c :: b) Ho) as [HW [[Hs Hk] _]].
  destruct (cts_record_noop _ HW (get_ks (run a) k) k s caller cur rine rp d (Hk k) Hr) as [r [E Hdet]].
  assert (Est : step (run a) c = (run a, r)) by (subst c; cbn [step]; rewrite E; reflexivity).
  assert (Erun : run (a ++ c :: b) = run (a ++ b)).
  { rewrite !run_app. cbn [run_from fold_left]. rewrite Est. reflexivity. }
  split; [rewrite Est; exact Hdet|]. split; [exact Erun|rewrite Erun; reflexivity].
Qed.

Lemma cacheable_spec v : cacheable v = cs_committed v || cs_rolledback v.
Proof.
  destruct v as [[ttl c] a]. unfold cacheable, determined3, cs_committed, cs_rolledback.
  destruct (0 <? c) eqn:Ec; [reflexivity|]. apply N.ltb_ge in Ec. assert (c = 0) by lia. subst c. cbn [N.eqb orb].
  rewrite andb_true_r. destruct ((ttl =? 0) && rollback_action a); reflexivity.
Qed.

Lemma memo_get_cacheable cache txn v : Forall (fun e => cacheable (snd e) = true) cache -> memo_get cache txn = Some v -> cacheable v = true.
Proof.
  induction cache as [|[t0 v0] r IH]; intros Hc Em; [discriminate|]. inversion Hc; subst. cbn [memo_get] in Em.
  destruct (t0 =? txn); [inversion Em; subst; assumption|apply IH; assumption].
Qed.

(* every memoised status is cacheable; a hit returns the memoised status without a request; a miss sends one request and
   memoises its answer iff it is cacheable *)
Lemma get_txn_status_inv cache txn ans : Forall (fun e => cacheable (snd e) = true) cache ->
  let '(v, cache', sent) := get_txn_status cache txn ans in
  Forall (fun e => cacheable (snd e) = true) cache' /\
  (sent = false -> memo_get cache txn = Some v /\ cache' = cache /\ cacheable v = true) /\
  (sent = true -> memo_get cache txn = None /\ v = cview ans /\ memo_get cache' txn = (if cacheable v then Some v else None)).
Proof.
  intros Hc. unfold get_txn_status. destruct (memo_get cache txn) as [v|] eqn:Em.
  - split; [exact Hc|]. split; [|discriminate]. intros _. split; [reflexivity|]. split; [reflexivity|].
    eapply memo_get_cacheable; eassumption.
  - cbv zeta. destruct (cacheable (cview ans)) eqn:Ec.
    + split; [constructor; assumption|]. split; [discriminate|]. intros _. split; [reflexivity|]. split; [reflexivity|].
      cbn [memo_get]. rewrite N.eqb_refl. reflexivity.
    + split; [exact Hc|]. split; [discriminate|]. intros _. split; [reflexivity|]. split; [reflexivity|exact Em].
Qed.

(* what the loop guarantees, R being what a request with rollback_if_not_exist implies *)
Definition loop_post (cache : list (ts * cstatus)) (l : lockinfo) (R : Prop)
           (res : sres * list (ts * cstatus) * list sreq * list ans) : Prop :=
  let '(r, c', rqs, lft) := res in
  Forall (fun e => cacheable (snd e) = true) c' /\
  (forall rq, In rq rqs -> (rq_rine rq = true -> R) /\ rq_cur_max rq = (li_ttl l =? 0) /\ rq_pess rq = li_pess l) /\
  (forall v, r = SrStatus v -> cacheable v = true -> memo_get c' (li_txn l) = Some v) /\
  (forall v, r = SrStatus v -> cacheable v = false -> c' = cache).

Lemma post_none cache l R r c' lft : Forall (fun e => cacheable (snd e) = true) c' ->
  (forall v, r = SrStatus v -> cacheable v = true -> memo_get c' (li_txn l) = Some v) ->
  (forall v, r = SrStatus v -> cacheable v = false -> c' = cache) -> loop_post cache l R (r, c', [], lft).
Proof. intros H1 H3 H4. split; [exact H1|]. split; [intros rq []|split; assumption]. Qed.

Lemma post_ask cache l (R : Prop) rq r c' rqs lft :
  (rq_rine rq = true -> R) /\ rq_cur_max rq = (li_ttl l =? 0) /\ rq_pess rq = li_pess l ->
  loop_post cache l R (r, c', rqs, lft) -> loop_post cache l R (r, c', rq :: rqs, lft).
Proof. intros Hrq [H1 [H2 H34]]. split; [exact H1|]. split; [|exact H34]. intros rq0 [E|Hin]; [subst rq0; exact Hrq|apply H2; exact Hin]. Qed.

Lemma post_weaken cache l (R R' : Prop) res : (R -> R') -> loop_post cache l R res -> loop_post cache l R' res.
Proof.
  destruct res as [[[r c'] rqs] lft]. intros HR [H1 [H2 H34]]. split; [exact H1|]. split; [|exact H34].
  intros rq Hin. destruct (H2 rq Hin) as [J1 J2]. split; [intros E; apply HR, J1, E|exact J2].
Qed.

Lemma status_loop_spec l : forall fuel cache script rine, Forall (fun e => cacheable (snd e) = true) cache ->
  loop_post cache l (rine = true \/ li_expired l = true) (status_loop fuel cache l script rine).
Proof.
  induction fuel as [|fuel IH]; intros cache script rine Hc; cbn [status_loop]; cbv zeta.
  - apply post_none; [exact Hc|intros v E; discriminate..].
  - destruct (memo_get cache (li_txn l)) as [v0|] eqn:Em.
    + apply post_none; [exact Hc|intros v E _; inversion E; subst; exact Em|reflexivity].
    + set (rq := mkReq rine (li_ttl l =? 0) (li_pess l)).
      assert (Hrq : (rq_rine rq = true -> rine = true \/ li_expired l = true)
                    /\ rq_cur_max rq = (li_ttl l =? 0) /\ rq_pess rq = li_pess l) by (unfold rq; cbn; auto).
      destruct script as [|[a|] rest].
      * apply post_ask; [exact Hrq|]. apply post_none; [exact Hc|intros v E; discriminate..].
      * apply post_ask; [exact Hrq|]. destruct (cacheable (cview a)) eqn:Ec; apply post_none.
        -- constructor; assumption.
        -- intros v E _. inversion E; subst. cbn [memo_get]. rewrite N.eqb_refl. reflexivity.
        -- intros v E Hn. inversion E; subst. congruence.
        -- exact Hc.
        -- intros v E Hn. inversion E; subst. congruence.
        -- reflexivity.
      * destruct (li_expired l) eqn:Ee; [|destruct (li_pess l) eqn:Ep].
        -- specialize (IH cache rest true Hc). destruct (status_loop fuel cache l rest true) as [[[r c] rqs] lft].
           apply post_ask; [exact Hrq|]. apply (post_weaken _ _ _ _ _ (fun _ => or_intror eq_refl) IH).
        -- (* a live pessimistic lock is reported alive with its own TTL: never final *)
           apply post_ask; [rewrite Ep; exact Hrq|]. apply post_none; [exact Hc| |reflexivity].
           intros v E Hv. inversion E; subst v. exfalso. unfold li_expired in Ee. apply N.leb_gt in Ee.
           unfold cacheable, determined3 in Hv. cbn in Hv. destruct (N.eqb_spec (li_ttl l) 0); [lia|]. cbn in Hv. discriminate.
        -- specialize (IH cache rest rine Hc). destruct (status_loop fuel cache l rest rine) as [[[r c] rqs] lft].
           apply post_ask; [rewrite Ep; exact Hrq|exact IH].
Qed.

Lemma status_from_lock_spec cache l script : Forall (fun e => cacheable (snd e) = true) cache ->
  loop_post cache l (li_expired l = true) (status_from_lock cache l script).
Proof.
  intros Hc. eapply post_weaken; [|exact (status_loop_spec l (S (length script)) cache script false Hc)].
  intros [E|E]; [discriminate|exact E].
Qed.
