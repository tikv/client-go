(* SI/ProofsOracle.v — checking the observed reads against the FINAL committed history is sound. *)
From Verif Require Import SI.Model SI.ProofsRead SI.ProofsKeyed.

(* how an observation came about: either the reader's own buffered write, or a point get served by the store
   after the first n commands (batch get / scan items are point gets: C12_scan_is_gets), at a read ts other than
   the max-ts sentinel, with the stability predicate holding for the commands that followed *)
Inductive served (cmds : list cmd) (o : read_obs) : Prop :=
| sv_own w : ro_own o = Some w -> ro_val o = w -> served cmds o
| sv_store n rs v :
    ro_own o = None -> ro_ts o <> max_ts ->
    get (run (firstn n cmds)) (ro_key o) (ro_ts o) rs = RGet v -> ro_val o = option_map fst v ->
    stable_suffix (run (firstn n cmds)) (ro_key o) (ro_ts o) (skipn n cmds) = true ->
    served cmds o.

(* the same with the client / reader rules in place of the semantic predicate *)
Inductive served_by_rules (cmds : list cmd) (o : read_obs) : Prop :=
| sr_own w : ro_own o = Some w -> ro_val o = w -> served_by_rules cmds o
| sr_store n rs v :
    ro_own o = None -> ro_ts o <> max_ts ->
    get (run (firstn n cmds)) (ro_key o) (ro_ts o) rs = RGet v -> ro_val o = option_map fst v ->
    reader_rules (run (firstn n cmds)) (ro_key o) (ro_ts o) (skipn n cmds) = true ->
    served_by_rules cmds o.

Lemma optv_eqb_refl a : optv_eqb a a = true.
Proof. destruct a; cbn; [apply N.eqb_refl|reflexivity]. Qed.

(* a point get whose read does not change until the end is accepted against the final history *)
Lemma obs_from_stable a b o rs v : oracle_ts (a ++ b) = true -> ro_own o = None -> ro_ts o <> max_ts ->
  get (run a) (ro_key o) (ro_ts o) rs = RGet v -> ro_val o = option_map fst v ->
  read_at (run (a ++ b)) (ro_key o) (ro_ts o) = read_at (run a) (ro_key o) (ro_ts o) ->
  obs_ok (full_history (run (a ++ b))) o = true.
Proof.
  intros Ho Eo Hne Hget Ev Hrs. unfold obs_ok. rewrite Eo, Ev, hist_lookup_full.
  pose proof (snapshot_read a (ro_key o) (ro_ts o) rs) as Hsr. unfold snapshot_read_stmt in Hsr.
  rewrite Hget in Hsr. destruct Hsr as [Hv Heff]. rewrite (Heff Hne) in Hv.
  rewrite <- read_is_history, Hrs, read_is_history. unfold hist_read. rewrite Hv. apply optv_eqb_refl.
Qed.

Lemma served_obs_ok cmds o : oracle_ts cmds = true -> served cmds o -> obs_ok (full_history (run cmds)) o = true.
Proof.
  intros Ho [w Eo Ev|n rs v Eo Hne Hget Ev Hst].
  - unfold obs_ok. rewrite Eo, Ev. apply optv_eqb_refl.
  - rewrite <- (firstn_skipn n cmds) in Ho |- *. eapply obs_from_stable; try eassumption. apply read_stable; assumption.
Qed.

Lemma history_oracle_sound cmds obs : oracle_ts cmds = true -> Forall (served cmds) obs ->
  si_ok (full_history (run cmds)) obs = true.
Proof.
  intros Ho Hf. unfold si_ok. apply forallb_forall. intros o Hin. rewrite Forall_forall in Hf.
  apply served_obs_ok; [exact Ho|apply Hf; exact Hin].
Qed.

Lemma served_rules_served cmds o : oracle_ts cmds = true -> served_by_rules cmds o -> served cmds o.
Proof.
  intros Ho [w Eo Ev|n rs v Eo Hne Hget Ev Hr]; [eapply sv_own; eassumption|].
  eapply sv_store; try eassumption. apply rules_imply_stable; [|exact Hr]. rewrite firstn_skipn. exact Ho.
Qed.

Lemma history_oracle_sound_rules cmds obs : oracle_ts cmds = true -> Forall (served_by_rules cmds) obs ->
  si_ok (full_history (run cmds)) obs = true.
Proof.
  intros Ho Hf. apply history_oracle_sound; [exact Ho|]. rewrite Forall_forall in *. intros o Hin.
  apply served_rules_served; [exact Ho|apply Hf; exact Hin].
Qed.

Lemma pairs_eqb_eq : forall a b, pairs_eqb a b = true <-> a = b.
Proof.
  induction a as [|[k1 v1] r1 IH]; intros [|[k2 v2] r2]; cbn [pairs_eqb]; split; intros H; try reflexivity; try discriminate.
  - apply andb_true_iff in H. destruct H as [H H3]. apply andb_true_iff in H. destruct H as [H1 H2].
    apply N.eqb_eq in H1, H2. apply IH in H3. congruence.
  - inversion H; subst. rewrite !N.eqb_refl. cbn [andb]. apply IH. reflexivity.
Qed.

(* the scan checker accepts exactly the answers that list, in key order, the own-write-or-history read of every key of
   the range that has a value: none missing, none extra *)
Lemma scan_ok_exact H o : scan_ok H o = true <->
  so_res o = flat_map (fun k => match scan_expect H o k with Some v => [(k, v)] | None => [] end) (so_keys o).
Proof. unfold scan_ok, scan_want. rewrite pairs_eqb_eq. split; intros E; congruence. Qed.
