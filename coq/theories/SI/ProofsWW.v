(* SI/ProofsWW.v — write-write disjointness: committed records of two transactions on one key have
   disjoint [lock point, commit ts] intervals: nothing else commits on a key between the owner's lock point and
   its commit. Invariant [kinv] over (key state, ghost lock points). Only three kinds of transition matter to lock
   points ([kform]): a prewrite locking a free key, a pessimistic lock request, the lock holder's commit; the rest
   are [quiet]. *)
From Verif Require Import SI.Model SI.ProofsTrans SI.ProofsRead Mvcc.ProofsStore Mvcc.ProofsKey Mvcc.ProofsShape
     Mvcc.ProofsStep Mvcc.ProofsMarker.

Lemma pess_req_ok_spec P r : pess_req_ok P (PessLock r) = true ->
  p_force r = false /\ forall s c, In (s, c) P -> (s = p_start r -> p_for_update r < c) /\ c <> p_for_update r.
Proof.
  cbn [pess_req_ok]. intros H. apply andb_true_iff in H. destruct H as [Hf H]. split; [apply negb_true_iff; exact Hf|].
  intros s c Hin. rewrite forallb_forall in H. specialize (H _ Hin). cbn [fst snd] in H.
  apply andb_true_iff in H. destruct H as [H1 H2]. split; [|apply N.eqb_neq, negb_true_iff; exact H2].
  intros E. subst s. rewrite N.eqb_refl in H1. apply N.ltb_lt; exact H1.
Qed.

Section WW.
  Variable W : world.
  Hypothesis HW : World_ok W.

  (* the lock is gone, or is the lock held before up to fields the lock point does not depend on *)
  Definition lock_kept (old new : option lock) : Prop :=
    forall l', new = Some l' -> exists l, old = Some l /\ l_start l' = l_start l /\
      (is_pess l' = true -> is_pess l = true /\ l_for_update l' = l_for_update l).

  Lemma lock_kept_refl o : lock_kept o o.
  Proof. intros l' E. exists l'. auto. Qed.

  Lemma lock_kept_none o : lock_kept o None.
  Proof. intros l' E. discriminate. Qed.

  Lemma lock_kept_some l l' : l_start l' = l_start l ->
    (is_pess l' = true -> is_pess l = true /\ l_for_update l' = l_for_update l) -> lock_kept (Some l) (Some l').
  Proof. intros Es Hp l0 E. inversion E; subst l0. exists l. auto. Qed.

  (* a transition that takes no lock, adds no commit record and makes no absent value present *)
  Record quiet (ks x : kstate) : Prop := {
    q_lock : lock_kept (ks_lock ks) (ks_lock x);
    q_recs : forall w, In w (ks_writes x) -> is_rollback w = false -> In w (ks_writes ks);
    q_none : forall t, read_writes (ks_writes ks) t = None -> read_writes (ks_writes x) t = None }.

  Lemma quiet_refl ks : quiet ks ks.
  Proof. split; [apply lock_kept_refl|auto..]. Qed.

  (* the transitions in the form the lock-point invariants are proved over: a prewrite locks a free key, a
     pessimistic lock request locks, the lock holder commits; every other transition is quiet *)
  Inductive kform (c : cmd) (k : key) (ks : kstate) : kstate -> Prop :=
  | kf_prewrite ms p s fu ttl mc ao m v cf l' :
      c = Prewrite ms p s fu ttl mc ao -> In m ms -> m_key m = k -> ks_lock ks = None -> m_pess_check m = false ->
      ccv (mkCcv k s s false (m_assert m) false) false ao false (ks_writes ks) = COk v cf ->
      l_start l' = s -> is_pess l' = false -> In s (w_starts W) ->
      kform c k ks (mkKs (Some l') (ks_writes ks))
  | kf_pesslock r ne v cf :
      c = PessLock r -> In (k, ne) (p_keys r) ->
      ccv (mkCcv k (p_start r) (p_for_update r) true (if ne then AsNotExist else AsNone) (p_lock_only_if_exists r))
          true false (p_force r) (ks_writes ks) = COk v cf ->
      kform c k ks (mkKs (Some (pess_lock_of r)) (ks_writes ks))
  | kf_commit l cm :
      ks_lock ks = Some l -> In (l_start l, cm) (w_pairs W) ->
      kform c k ks (mkKs None (put_write (mkWrite (wkind_of_op (l_op l)) (l_start l) cm (l_value l)) (ks_writes ks)))
  | kf_quiet x : quiet ks x -> kform c k ks x.

  Lemma ktrans_kform c k ks x : wf_ks W ks -> cmd_in W c -> ktrans c k ks x -> kform c k ks x.
  Proof.
    intros Hwf [Hcs Hcp] Ht.
    destruct Ht as [ms p s fu ttl mc ao m v cf l' Ec Hin Ek El Hpc Hccv Es Ep _
                   |ms p s fu ttl mc ao m l l' _ _ _ El Esl Epl Es Ep _
                   |r ne v cf Ec Hin _ Hccv|l El _|l cm El Hp _|s lk Hs Hlk
                   |l l' El Es Eo Ef _ _|s e sp _|s e _].
    - eapply kf_prewrite; try eassumption. apply Hcs. rewrite Ec. left; reflexivity.
    - (* prewrite over the own pessimistic lock *)
      apply kf_quiet. split; [|auto..]. rewrite El. apply lock_kept_some; congruence.
    - eapply kf_pesslock; eassumption.
    - apply kf_quiet. split; [apply lock_kept_none|auto..].
    - apply kf_commit; [exact El|apply Hcp; exact Hp].
    - (* rollback record *)
      apply kf_quiet. split; cbn [ks_lock ks_writes].
      + destruct Hlk as [[E _]|E]; subst lk; [apply lock_kept_none|apply lock_kept_refl].
      + intros w Hin Hr. apply put_write_in in Hin. destruct Hin as [E|Hin]; [subst w; discriminate|exact Hin].
      + intros t Ht. rewrite (read_put_rollback W HW); [exact Ht|exact Hwf|apply Hcs; exact Hs].
    - (* lock fields other than start / op / for-update ts change *)
      apply kf_quiet. split; [|auto..]. rewrite El. apply lock_kept_some; [exact Es|]. intros Hp.
      split; [unfold is_pess in *; rewrite <- Eo; exact Hp|exact Ef].
    - apply kf_quiet. split; [apply lock_kept_refl| |]; cbn [ks_writes].
      + intros w Hw _. apply gc_writes_in in Hw. exact Hw.
      + intros t Ht. apply gc_none_stays; [exact (wf_desc _ _ Hwf)|exact Ht].
    - apply kf_quiet. split; [apply lock_kept_none|intros w []|reflexivity].
  Qed.

  Record kinv (ks : kstate) (gk : ts -> ts) : Prop := {
    ki_ww : forall w1 w2, In w1 (ks_writes ks) -> In w2 (ks_writes ks) ->
            is_rollback w1 = false -> is_rollback w2 = false -> w_start w1 <> w_start w2 ->
            w_commit w1 < w_commit w2 -> w_commit w1 < gk (w_start w2);
    ki_lock : forall l, ks_lock ks = Some l ->
              forall w, In w (ks_writes ks) -> is_rollback w = false -> w_commit w < gk (l_start l);
    ki_pt : forall l, ks_lock ks = Some l -> forall c, In (l_start l, c) (w_pairs W) -> gk (l_start l) < c;
    ki_pess : forall l, ks_lock ks = Some l -> is_pess l = true -> gk (l_start l) = l_for_update l }.

  Lemma kinv_ext ks gk gk' : (forall s, gk' s = gk s) -> kinv ks gk -> kinv ks gk'.
  Proof.
    intros E [H1 H2 H3 H4]. split; intros.
    - rewrite E. eapply H1; eassumption.
    - rewrite E. eapply H2; eassumption.
    - rewrite E. eapply H3; eassumption.
    - rewrite E. eapply H4; eassumption.
  Qed.

  Lemma kinv_empty gk : kinv empty_ks gk.
  Proof. split; cbn [empty_ks ks_writes ks_lock]; intros; try discriminate; contradiction. Qed.

  Lemma gk_upd_kept ks gk new s : kinv ks gk -> lock_kept (ks_lock ks) new -> gk_upd gk (ks_lock ks) new s = gk s.
  Proof.
    intros Hi Hl. destruct new as [l'|]; [|reflexivity]. destruct (Hl l' eq_refl) as [l [El [Es Hp]]]. rewrite El.
    unfold gk_upd. rewrite Es. destruct (N.eqb_spec (l_start l) s) as [E|E]; [|reflexivity].
    destruct (is_pess l') eqn:Ep; [|reflexivity]. destruct (Hp eq_refl) as [Epl Ef].
    rewrite Ef, <- E. symmetry. apply (ki_pess _ _ Hi l El Epl).
  Qed.

  (* a quiet transition keeps the invariant, lock points unmoved *)
  Lemma kinv_keep ks x gk : kinv ks gk -> quiet ks x -> kinv x (gk_upd gk (ks_lock ks) (ks_lock x)).
  Proof.
    intros Hi [Hl Hw _]. apply kinv_ext with (gk := gk); [intros s0; apply gk_upd_kept; assumption|].
    destruct Hi as [I1 I2 I3 I4]. split.
    - intros w1 w2 H1 H2 R1 R2. apply I1; auto.
    - intros l' El' w Hin Hr. destruct (Hl l' El') as [l [El [Es _]]]. rewrite Es. apply (I2 l El); auto.
    - intros l' El' cm Hp. destruct (Hl l' El') as [l [El [Es _]]]. rewrite Es in *. apply (I3 l El); auto.
    - intros l' El' Ep. destruct (Hl l' El') as [l [El [Es Hp]]]. destruct (Hp Ep) as [Epl Ef]. rewrite Es, Ef. apply (I4 l El Epl).
  Qed.

  (* a lock newly taken after a conflict check at p: every commit record lies below p, every commit ts of the
     owner above it; only the owner's lock point moves, to p *)
  Lemma kinv_lock ks l' gk p : kinv ks gk -> ~ In (l_start l') (map w_start (ks_writes ks)) ->
    gk_upd gk (ks_lock ks) (Some l') (l_start l') = p ->
    (forall w, In w (ks_writes ks) -> is_rollback w = false -> w_commit w < p) ->
    (forall c, In (l_start l', c) (w_pairs W) -> p < c) -> (is_pess l' = true -> p = l_for_update l') ->
    kinv (mkKs (Some l') (ks_writes ks)) (gk_upd gk (ks_lock ks) (Some l')).
  Proof.
    intros Hi Hnl Hself Hbelow Habove Hpess.
    assert (Hupd : forall s0, s0 <> l_start l' -> gk_upd gk (ks_lock ks) (Some l') s0 = gk s0).
    { intros s0 Hne. unfold gk_upd. destruct (N.eqb_spec (l_start l') s0); [congruence|reflexivity]. }
    split; cbn [ks_writes ks_lock].
    - intros w1 w2 H1 H2 R1 R2 Hne Hlt. rewrite Hupd; [eapply (ki_ww _ _ Hi); eassumption|].
      intros E. apply Hnl. rewrite <- E. apply in_map; exact H2.
    - intros l E w Hw Hr. inversion E; subst l. rewrite Hself. apply Hbelow; assumption.
    - intros l E cm Hp. inversion E; subst l. rewrite Hself. apply Habove; exact Hp.
    - intros l E Hp. inversion E; subst l. rewrite Hself. apply Hpess; exact Hp.
  Qed.

  Lemma kform_kinv c k ks x gk :
    wf_ks W ks -> wf_ks W x -> pess_req_ok (w_pairs W) c = true ->
    kform c k ks x -> kinv ks gk -> kinv x (gk_upd gk (ks_lock ks) (ks_lock x)).
  Proof.
    intros Hwf Hwx Hreq Hf Hi.
    destruct Hf as [ms p s fu ttl mc ao m v cf l' _ _ _ El _ Hccv Es Ep Hs|r ne v cf Ec _ Hccv|l cm El Hpw|x Hq].
    - (* fresh prewrite: conflict check at the start ts, which is nobody's commit ts *)
      apply (kinv_lock ks l' gk s Hi).
      + exact (proj2 (wf_lock _ _ Hwx l' eq_refl)).
      + unfold gk_upd. rewrite El, Es, N.eqb_refl, Ep. reflexivity.
      + intros w Hw Hr. pose proof (ccv_ok_below _ _ _ _ _ _ (wf_desc _ _ Hwf) Hccv w Hw) as Hle. cbn [c_for_update] in Hle.
        pose proof (nonrb_pair W ks w Hwf Hw Hr) as Hp. pose proof (wo_disj W HW _ _ s Hp Hs). lia.
      + intros cm Hp. rewrite Es in Hp. apply (wo_lt W HW _ _ Hp).
      + congruence.
    - (* pessimistic lock: conflict check at the for-update ts, which the discipline keeps apart from the commit ts *)
      subst c. destruct (pess_req_ok_spec _ _ Hreq) as [Hforce Hpairs]. rewrite Hforce in Hccv.
      apply (kinv_lock ks (pess_lock_of r) gk (p_for_update r) Hi).
      + exact (proj2 (wf_lock _ _ Hwx _ eq_refl)).
      + unfold gk_upd. cbn [l_start pess_lock_of is_pess l_op op_eqb l_for_update]. rewrite N.eqb_refl. reflexivity.
      + intros w Hw Hr. pose proof (ccv_ok_below _ _ _ _ _ _ (wf_desc _ _ Hwf) Hccv w Hw) as Hle. cbn [c_for_update] in Hle.
        destruct (Hpairs _ _ (nonrb_pair W ks w Hwf Hw Hr)) as [_ Hneq]. lia.
      + intros cm Hp. apply (Hpairs _ _ Hp). reflexivity.
      + reflexivity.
    - (* commit of the lock holder: its record is the newest one *)
      cbn [ks_lock]. apply kinv_ext with (gk := gk); [intros s0; reflexivity|].
      split; cbn [ks_writes ks_lock]; try (intros; discriminate).
      intros w1 w2 H1' H2' R1 R2 Hne Hlt.
      apply put_write_in in H1'. apply put_write_in in H2'.
      destruct H1' as [E1|H1'], H2' as [E2|H2'].
      + subst w1 w2. cbn [w_start] in Hne. congruence.
      + subst w1. cbn [w_commit] in *. pose proof (ki_lock _ _ Hi l El w2 H2' R2). pose proof (ki_pt _ _ Hi l El cm Hpw). lia.
      + subst w2. cbn [w_commit w_start] in *. apply (ki_lock _ _ Hi l El w1 H1' R1).
      + eapply (ki_ww _ _ Hi); eassumption.
    - apply kinv_keep; assumption.
  Qed.

  Definition ginv (st : store) (g : ghost) : Prop := forall k, kinv (get_ks st k) (g k).

  Lemma step_ginv st c g : wf_store W st -> wf_store W (fst (step st c)) -> cmd_in W c ->
    pess_req_ok (w_pairs W) c = true -> ginv st g -> ginv (fst (step st c)) (ghost_upd g st (fst (step st c))).
  Proof.
    intros [Hs Hk] [_ Hk'] Hc Hp Hg k. unfold ghost_upd, lock_of. destruct (step_ktrans st c k Hs) as [E|Ht].
    - rewrite E. apply kinv_keep; [apply Hg|apply quiet_refl].
    - eapply kform_kinv; [apply Hk|apply Hk'|exact Hp|apply (ktrans_kform c k _ _ (Hk k) Hc Ht)|apply Hg].
  Qed.
End WW.

(* the lock points of a disciplined sequence satisfy the invariant, together with every property J of (store, lock
   points, commands still to come) that a step carries over under it *)
Lemma lock_point_inv (J : store -> ghost -> list cmd -> Prop) cmds : oracle_ts cmds = true -> ww_discipline cmds = true ->
  (World_ok (world_of cmds) -> forall st g c r,
     wf_store (world_of cmds) st -> wf_store (world_of cmds) (fst (step st c)) -> cmd_in (world_of cmds) c ->
     pess_req_ok (w_pairs (world_of cmds)) c = true -> ginv (world_of cmds) st g ->
     J st g (c :: r) -> J (fst (step st c)) (ghost_upd g st (fst (step st c))) r) ->
  J [] ghost0 cmds -> ginv (world_of cmds) (run cmds) (lock_point cmds) /\ J (run cmds) (lock_point cmds) [].
Proof.
  intros Ho Hd Hstep H0.
  destruct (oracle_suffix_inv (fun st r => exists g, ginv (world_of cmds) st g /\ J st g r
                                 /\ forallb (pess_req_ok (w_pairs (world_of cmds))) r = true
                                 /\ ghost_run g st r = lock_point cmds) [] cmds Ho) as [g [Hg [Hj [_ Eg]]]].
  - intros HW st c r Hwf Hwf' Hc [g [Hg [Hj [Hp Eg]]]]. cbn [forallb] in Hp. apply andb_true_iff in Hp. destruct Hp as [Hp1 Hp].
    exists (ghost_upd g st (fst (step st c))). split; [apply step_ginv; assumption|]. split; [|split; [exact Hp|exact Eg]].
    apply Hstep; assumption.
  - exists ghost0. split; [intros k; apply kinv_empty|]. split; [exact H0|]. split; [exact Hd|reflexivity].
  - cbn [ghost_run] in Eg. subst g. split; assumption.
Qed.

Lemma lock_point_ginv cmds : oracle_ts cmds = true -> ww_discipline cmds = true -> ginv (world_of cmds) (run cmds) (lock_point cmds).
Proof. intros Ho Hd. apply (lock_point_inv (fun _ _ _ => True) cmds Ho Hd); auto. Qed.

(* a record of another transaction that is older than the owner's commit is older than the owner's lock point:
   nothing commits on the key in [lock point, owner's commit) *)
Lemma lock_excludes cmds : oracle_ts cmds = true -> ww_discipline cmds = true ->
  forall k w1 w2, In w1 (writes_of (run cmds) k) -> In w2 (writes_of (run cmds) k) ->
    is_rollback w1 = false -> is_rollback w2 = false -> w_start w1 <> w_start w2 -> w_commit w1 < w_commit w2 ->
    w_commit w1 < lock_point cmds k (w_start w2).
Proof. intros Ho Hd k. apply (ki_ww _ _ _ (lock_point_ginv cmds Ho Hd k)). Qed.

Definition ww_stmt (cmds : list cmd) : Prop :=
  forall k w1 w2, In w1 (writes_of (run cmds) k) -> In w2 (writes_of (run cmds) k) ->
    is_rollback w1 = false -> is_rollback w2 = false -> w_start w1 <> w_start w2 ->
    w_commit w1 < lock_point cmds k (w_start w2) \/ w_commit w2 < lock_point cmds k (w_start w1).

(* two transactions never share a commit ts, so one of the two records is the older one *)
Lemma ww_disjoint cmds : oracle_ts cmds = true -> ww_discipline cmds = true -> ww_stmt cmds.
Proof.
  intros Ho Hd k w1 w2 H1 H2 R1 R2 Hne.
  pose proof (oracle_run_wf cmds Ho) as [_ Hwf]. destruct (oracle_app_wf [] cmds Ho) as [Hw _].
  pose proof (nonrb_pair _ _ w1 (Hwf k) H1 R1) as P1. pose proof (nonrb_pair _ _ w2 (Hwf k) H2 R2) as P2.
  destruct (N.lt_total (w_commit w1) (w_commit w2)) as [Hlt|[E|Hgt]].
  - left. eapply lock_excludes; eassumption.
  - destruct Hne. apply (proj2 (wo_inj _ Hw _ _ _ _ P1 P2)). exact E.
  - right. eapply lock_excludes; try eassumption. intros E; apply Hne; symmetry; exact E.
Qed.

Definition no_pess_lock (st : store) : Prop := forall k l, lock_of st k = Some l -> is_pess l = false.

Lemma step_no_pess_lock st c : keys_sorted st -> (match c with PessLock _ => false | _ => true end) = true ->
  no_pess_lock st -> no_pess_lock (fst (step st c)).
Proof.
  intros Hs Hc Hn k l' El'.
  destruct (step_lock st c k l' Hs El') as [l El _ Eo _ _ _|ms p s fu ttl mc ao m _ _ _ _ Ep _ _|r Ec _].
  - unfold is_pess. rewrite Eo. apply (Hn k l El).
  - exact Ep.
  - subst c. discriminate.
Qed.

Lemma ghost_run_opt : forall b st g, sorted_store st -> no_pess b = true -> no_pess_lock st ->
  (forall k s, g k s = s) -> forall k s, ghost_run g st b k s = s.
Proof.
  induction b as [|c r IH]; intros st g Hs Hn Hl Hg k s; cbn [ghost_run]; [apply Hg|].
  cbn [no_pess forallb] in Hn. apply andb_true_iff in Hn. destruct Hn as [Hc Hn].
  apply IH; [apply step_sorted; exact Hs|exact Hn|apply step_no_pess_lock; [exact (proj1 Hs)|exact Hc|exact Hl]|].
  intros k0 s0. unfold ghost_upd, gk_upd.
  destruct (lock_of (fst (step st c)) k0) as [l'|] eqn:El; [|apply Hg].
  destruct (N.eqb_spec (l_start l') s0) as [E|E]; [|apply Hg].
  rewrite (step_no_pess_lock st c (proj1 Hs) Hc Hl k0 l' El).
  destruct (lock_of st k0) as [l|]; [|reflexivity]. destruct (l_start l =? s0); [apply Hg|reflexivity].
Qed.

Lemma lock_point_opt cmds k s : no_pess cmds = true -> lock_point cmds k s = s.
Proof.
  intros Hn. unfold lock_point. apply ghost_run_opt; [|exact Hn| |reflexivity].
  - split; [apply keys_sorted_nil|]. intros k0. constructor.
  - intros k0 l El. discriminate.
Qed.
