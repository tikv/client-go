(* SI/ProofsTrans.v — what one command can do to one key: the per-key transitions ([ktrans]) with the
   facts the C01 invariants need (which lock appears under which conflict check, which record is
   written for which (start, commit) pair, how a kept lock's TTL and min_commit_ts move). Derived from
   Mvcc's [kstep]. The invariants of this area are case analyses over [ktrans] (over [ktrans_lock] when
   only the lock matters, over ProofsWW's [kform] for the lock points), carried along a command sequence by
   [oracle_suffix_inv]. *)
From Verif Require Import SI.Model Mvcc.ProofsStore Mvcc.ProofsKey Mvcc.ProofsKstep Mvcc.ProofsStep
     Mvcc.ProofsMarker.

Definition pess_lock_of (r : pess_req) : lock :=
  mkLock (p_start r) (p_primary r) LPess 0 (p_ttl r) (p_for_update r) (p_min_commit r).

Inductive ktrans (c : cmd) (k : key) (ks : kstate) : kstate -> Prop :=
| kt_prewrite_fresh ms p s fu ttl mc ao m v cf l' :
    c = Prewrite ms p s fu ttl mc ao -> In m ms -> m_key m = k -> ks_lock ks = None -> m_pess_check m = false ->
    ccv (mkCcv k s s false (m_assert m) false) false ao false (ks_writes ks) = COk v cf ->
    l_start l' = s -> is_pess l' = false -> l_ttl l' = ttl ->
    ktrans c k ks (mkKs (Some l') (ks_writes ks))
| kt_prewrite_pess ms p s fu ttl mc ao m l l' :
    c = Prewrite ms p s fu ttl mc ao -> In m ms -> m_key m = k ->
    ks_lock ks = Some l -> l_start l = s -> is_pess l = true ->
    l_start l' = s -> is_pess l' = false -> ttl <= l_ttl l' ->
    ktrans c k ks (mkKs (Some l') (ks_writes ks))
| kt_pesslock r ne v cf :
    c = PessLock r -> In (k, ne) (p_keys r) ->
    (ks_lock ks = None \/ exists l, ks_lock ks = Some l /\ l_start l = p_start r /\ is_pess l = true) ->
    ccv (mkCcv k (p_start r) (p_for_update r) true (if ne then AsNotExist else AsNone) (p_lock_only_if_exists r))
        true false (p_force r) (ks_writes ks) = COk v cf ->
    ktrans c k ks (mkKs (Some (pess_lock_of r)) (ks_writes ks))
| kt_unlock l : ks_lock ks = Some l -> is_pess l = true -> ktrans c k ks (mkKs None (ks_writes ks))
| kt_commit l cm :
    ks_lock ks = Some l -> In (l_start l, cm) (cmd_pairs c) ->
    (forall ks0 s0 cm0, c = Commit ks0 s0 cm0 -> l_min_commit l <= cm0) ->
    ktrans c k ks (mkKs None (put_write (mkWrite (wkind_of_op (l_op l)) (l_start l) cm (l_value l)) (ks_writes ks)))
| kt_rollback s lk :
    In s (cmd_starts c) -> (lk = None /\ forall l, ks_lock ks = Some l -> l_start l = s) \/ lk = ks_lock ks ->
    ktrans c k ks (mkKs lk (put_write (rollback_write s) (ks_writes ks)))
| kt_relock l l' :
    ks_lock ks = Some l -> l_start l' = l_start l -> l_op l' = l_op l -> l_for_update l' = l_for_update l ->
    l_ttl l <= l_ttl l' -> l_min_commit l <= l_min_commit l' ->
    ktrans c k ks (mkKs (Some l') (ks_writes ks))
| kt_gc s e sp : c = GC s e sp -> ktrans c k ks (mkKs (ks_lock ks) (gc_writes sp true (ks_writes ks)))
| kt_delrange s e : c = DeleteRange s e -> ktrans c k ks empty_ks.

Lemma is_pess_mop o : op_eqb (mop_lock_op o) LPess = false.
Proof. destruct o; reflexivity. Qed.

Lemma prewrite_key_trans ms p s fu ttl mc ao m ks x :
  In m ms -> prewrite_key ks m s p ttl mc ao = KOk (Some x) ->
  ktrans (Prewrite ms p s fu ttl mc ao) (m_key m) ks x.
Proof.
  intros Hin. unfold prewrite_key. destruct (ks_lock ks) as [l|] eqn:El.
  - destruct (N.eqb_spec (l_start l) s) as [Es|Es]; cbn [negb]; [|discriminate].
    destruct (is_pess l) eqn:Ep; cbn [negb]; [|discriminate].
    destruct (ccv _ false ao false (ks_writes ks)); [discriminate|].
    intros E; inversion E; subst x.
    eapply kt_prewrite_pess; [reflexivity|exact Hin|reflexivity|exact El|exact Es|exact Ep|reflexivity|apply is_pess_mop|].
    cbn [l_ttl]. destruct (N.ltb_spec ttl (l_ttl l)); lia.
  - destruct (m_pess_check m) eqn:Epc; [discriminate|].
    destruct (ccv _ false ao false (ks_writes ks)) as [|v cf] eqn:Ec; [discriminate|].
    intros E; inversion E; subst x.
    eapply kt_prewrite_fresh; [reflexivity|exact Hin|reflexivity|exact El|exact Epc|exact Ec|reflexivity|apply is_pess_mop|reflexivity].
Qed.

(* a pessimistic lock request that passes on a key: the key is free or holds the requester's own
   pessimistic lock, the conflict check at the for-update ts passed, the answer (with return_values)
   is the checked value, and the lock written, if any, is the request's *)
Definition pess_passed (ks : kstate) (r : pess_req) (k : key) (ne : bool) (res : pres) (o : option kstate) : Prop :=
  exists v cf,
    ccv (mkCcv k (p_start r) (p_for_update r) true (if ne then AsNotExist else AsNone) (p_lock_only_if_exists r))
        true false (p_force r) (ks_writes ks) = COk v cf /\
    (p_return_values r = true ->
     res = match cf with Some (EWriteConflict _ _ cc _) => PRConflict v (is_some v) cc | _ => PRNormal v (is_some v) end) /\
    forall x, o = Some x -> x = mkKs (Some (pess_lock_of r)) (ks_writes ks).

Lemma pess_lock_key_ok ks r k ne res o : pess_lock_key ks r k ne = inr (res, o) ->
  (ks_lock ks = None \/ exists l, ks_lock ks = Some l /\ l_start l = p_start r /\ is_pess l = true) /\ pess_passed ks r k ne res o.
Proof.
  intros H. destruct (pess_lock_key_inr _ _ _ _ _ _ H) as [_ [Hown [ex [Hres Ho]]]]. split.
  - destruct (ks_lock ks) as [l|]; [right; exists l; destruct (Hown l eq_refl); auto|left; reflexivity].
  - unfold pess_res in Hres. destruct (ccv _ true false (p_force r) (ks_writes ks)) as [e|v cf] eqn:Ec; [discriminate|].
    exists v, cf. split; [exact Ec|]. split.
    + intros Hrv. rewrite Hrv in Hres. destruct cf as [[]|]; inversion Hres; reflexivity.
    + intros x E. subst o. apply pess_lock_write_some in E. exact E.
Qed.

Lemma pess_rollback_key_trans c k ks s fu x : pess_rollback_key ks s fu = Some x -> ktrans c k ks x.
Proof.
  unfold pess_rollback_key, pess_rollback_match. destruct (ks_lock ks) as [l|] eqn:El; [|discriminate].
  destruct (is_pess l) eqn:Ep; [|discriminate]. destruct (_ && _); [|discriminate].
  intros E; inversion E. eapply kt_unlock; [exact El|exact Ep].
Qed.

Lemma rollback_lock_trans c k ks s l : In s (cmd_starts c) -> own_lock ks s = Some l -> ktrans c k ks (rollback_lock ks s).
Proof.
  intros Hs Eo. apply own_lock_some in Eo. destruct Eo as [El Es].
  apply kt_rollback; [exact Hs|left; split; [reflexivity|intros l0 El0; congruence]].
Qed.

Lemma resolve_key_trans c k ks s cm x :
  (0 <? cm = true -> In (s, cm) (cmd_pairs c)) -> In s (cmd_starts c) -> (forall ks0 s0 cm0, c <> Commit ks0 s0 cm0) ->
  resolve_key s cm k ks = Some x -> ktrans c k ks x.
Proof.
  intros Hp Hs Hnc. unfold resolve_key. destruct (own_lock ks s) as [l|] eqn:Eo; [|discriminate].
  intros E; inversion E; subst x. destruct (0 <? cm) eqn:Ec; [|eapply rollback_lock_trans; eassumption].
  apply own_lock_some in Eo. destruct Eo as [El Es].
  unfold commit_lock. rewrite <- Es. apply kt_commit; [exact El|rewrite Es; apply Hp; reflexivity|].
  intros ks0 s0 cm0 Ecmd. destruct (Hnc _ _ _ Ecmd).
Qed.

Lemma rollback_key_trans c k ks s x : In s (cmd_starts c) -> rollback_key ks s = KOk (Some x) -> ktrans c k ks x.
Proof.
  intros Hs. unfold rollback_key. destruct (own_lock ks s) as [l|] eqn:Eo.
  - intros E; inversion E. eapply rollback_lock_trans; eassumption.
  - destruct (find_start s (ks_writes ks)) as [w|]; [destruct (is_rollback w); discriminate|].
    intros E; inversion E. unfold write_rollback. apply kt_rollback; [exact Hs|right; reflexivity].
Qed.

Theorem kstep_ktrans st c k x : kstep st c k x -> ktrans c k (get_ks st k) x.
Proof.
  destruct c; cbn [kstep]; intros H; try contradiction.
  - destruct H as [m [Hin [Ek H]]]. subst k. eapply prewrite_key_trans; eassumption.
  - destruct H as [ne [res [Hin H]]]. destruct (pess_lock_key_ok _ _ _ _ _ _ H) as [Hl [v [cf [Hc [_ Ho]]]]].
    rewrite (Ho x eq_refl). eapply kt_pesslock; [reflexivity|exact Hin|exact Hl|exact Hc].
  - eapply pess_rollback_key_trans; exact H.
  - unfold commit_key in H. destruct (own_lock (get_ks st k) start) as [l|] eqn:Eo.
    + apply own_lock_some in Eo. destruct Eo as [El Es]. destruct (N.ltb_spec commit (l_min_commit l)); [discriminate|].
      inversion H. unfold commit_lock. rewrite <- Es. apply kt_commit; [exact El|rewrite Es; left; reflexivity|].
      intros ks0 s0 cm0 E. inversion E; subst. assumption.
    + destruct (find_start start (ks_writes (get_ks st k))) as [w|]; [destruct (is_rollback w)|]; discriminate.
  - eapply rollback_key_trans; [|exact H]. left; reflexivity.
  - destruct H as [_ H]. apply cleanup_key_rollback in H. eapply rollback_key_trans; [left; reflexivity|exact H].
  - destruct H as [_ [r H]]. unfold check_txn_status_key in H.
    destruct (own_lock (get_ks st k) lock_ts) as [l|] eqn:Eo.
    + destruct (ttl_expired l current).
      * destruct (resolving_pess && is_pess l).
        -- inversion H as [[E1 E2]]. eapply pess_rollback_key_trans; exact E1.
        -- inversion H. eapply rollback_lock_trans; [left; reflexivity|exact Eo].
      * apply own_lock_some in Eo. destruct Eo as [El Es].
        destruct (caller =? max_ts); [discriminate|]. destruct (0 <? l_min_commit l); [|discriminate].
        destruct (N.ltb_spec (l_min_commit l) (caller + 1)); [|discriminate].
        inversion H. eapply kt_relock; [exact El|reflexivity..|apply N.le_refl|].
        cbn [l_min_commit]. destruct (N.ltb_spec (caller + 1) current); lia.
    + destruct (find_start lock_ts (ks_writes (get_ks st k))) as [w|]; [destruct (is_rollback w); discriminate|].
      destruct rollback_if_not_exist; [|discriminate]. destruct resolving_pess; [discriminate|].
      inversion H. unfold write_rollback. apply kt_rollback; [left; reflexivity|right; reflexivity].
  - destruct H as [_ [r H]]. unfold heartbeat_key in H.
    destruct (own_lock (get_ks st k) start) as [l|] eqn:Eo; [|discriminate].
    apply own_lock_some in Eo. destruct Eo as [El Es]. destruct (negb (l_primary l =? k)); [discriminate|].
    destruct (N.ltb_spec (l_ttl l) advise); [|discriminate]. inversion H.
    eapply kt_relock; [exact El|reflexivity..|cbn [l_ttl]; lia|apply N.le_refl].
  - destruct H as [_ H]. eapply resolve_key_trans; [| | |exact H].
    + intros Hc. cbn [cmd_pairs]. rewrite Hc. left; reflexivity.
    + left; reflexivity.
    + discriminate.
  - destruct H as [_ H]. unfold batch_resolve_key in H.
    destruct (ks_lock (get_ks st k)) as [l|] eqn:El; [|discriminate].
    destruct (assoc_ts (l_start l) infos) as [cm|] eqn:Ea; [|discriminate].
    apply assoc_ts_in in Ea. eapply resolve_key_trans; [| | |exact H].
    + intros Hc. cbn [cmd_pairs]. apply filter_In. split; [exact Ea|exact Hc].
    + cbn [cmd_starts]. apply in_map_iff. exists (l_start l, cm). split; [reflexivity|exact Ea].
    + discriminate.
  - destruct H as [_ H]. unfold gc_key in H. inversion H. eapply kt_gc; reflexivity.
  - destruct H as [_ H]. subst x. eapply kt_delrange; reflexivity.
Qed.

Lemma step_ktrans st c k : keys_sorted st ->
  get_ks (fst (step st c)) k = get_ks st k \/ ktrans c k (get_ks st k) (get_ks (fst (step st c)) k).
Proof.
  intros Hs. destruct (step_kstep st c Hs) as [_ Hr]. destruct (Hr k) as [E|H]; [left; exact E|right].
  apply kstep_ktrans; exact H.
Qed.

(* the lock a key holds after a transition: the lock it held, possibly with TTL / min_commit_ts raised;
   or the prewrite lock of a transaction that found the key free or under its own pessimistic lock;
   or a pessimistic lock *)
Inductive lock_from (c : cmd) (k : key) (old : option lock) (l' : lock) : Prop :=
| lf_kept l : old = Some l -> l_start l' = l_start l -> l_op l' = l_op l -> l_for_update l' = l_for_update l ->
    l_ttl l <= l_ttl l' -> l_min_commit l <= l_min_commit l' -> lock_from c k old l'
| lf_prewrite ms p s fu ttl mc ao m : c = Prewrite ms p s fu ttl mc ao -> In m ms -> m_key m = k ->
    l_start l' = s -> is_pess l' = false -> ttl <= l_ttl l' ->
    (forall l, old = Some l -> l_start l = s /\ is_pess l = true) -> lock_from c k old l'
| lf_pesslock r : c = PessLock r -> l' = pess_lock_of r -> lock_from c k old l'.

Lemma lock_from_same c k l : lock_from c k (Some l) l.
Proof. apply (lf_kept c k _ l l); auto using N.le_refl. Qed.

Lemma ktrans_lock c k ks x l' : ktrans c k ks x -> ks_lock x = Some l' -> lock_from c k (ks_lock ks) l'.
Proof.
  intros Ht El'. destruct Ht as [ms p s fu ttl mc ao m v cf l1 Ec Hin Ek El Hpc Hccv Es Ep Ettl
                               |ms p s fu ttl mc ao m l l1 Ec Hin Ek El Esl Epl Es Ep Httl
                               |r ne v cf Ec Hin Hl Hccv|l El Ep|l cm El Hp Hmc|s lk Hs Hlk
                               |l l1 El Es Eo Ef Httl Hmc|s e sp Ec|s e Ec]; cbn [ks_lock empty_ks] in El'; try discriminate.
  - inversion El'; subst l1. eapply lf_prewrite; try eassumption; [lia|congruence].
  - inversion El'; subst l1. eapply lf_prewrite; try eassumption. intros l0 E. split; congruence.
  - inversion El'. eapply lf_pesslock; [exact Ec|reflexivity].
  - destruct Hlk as [[E _]|E]; subst lk; [discriminate|]. rewrite El'. apply lock_from_same.
  - inversion El'; subst l1. eapply lf_kept; eassumption.
  - rewrite El'. apply lock_from_same.
Qed.

Lemma step_lock st c k l' : keys_sorted st -> lock_of (fst (step st c)) k = Some l' -> lock_from c k (lock_of st k) l'.
Proof.
  intros Hs El'. unfold lock_of in *. destruct (step_ktrans st c k Hs) as [E|Ht].
  - rewrite <- E, El'. apply lock_from_same.
  - eapply ktrans_lock; eassumption.
Qed.

(* an accepted conflict check (no forced locking): no record above the for-update ts *)
Lemma ccv_ok_below a gv ao ws v cf : desc ws -> ccv a gv ao false ws = COk v cf ->
  forall w, In w ws -> w_commit w <= c_for_update a.
Proof.
  intros Hd H w Hin. destruct ws as [|w0 r]; [destruct Hin|].
  unfold ccv in H. destruct (N.ltb_spec (c_for_update a) (w_commit w0)) as [Hlt|Hge]; [discriminate|].
  pose proof (desc_head_max _ _ _ Hd Hin). lia.
Qed.

(* a property of (store, commands still to come) that every step between well-formed stores carries
   over holds at the end of the sequence *)
Lemma oracle_suffix_inv (I : store -> list cmd -> Prop) a b : oracle_ts (a ++ b) = true ->
  (World_ok (world_of (a ++ b)) -> forall st c r,
     wf_store (world_of (a ++ b)) st -> wf_store (world_of (a ++ b)) (fst (step st c)) -> cmd_in (world_of (a ++ b)) c ->
     I st (c :: r) -> I (fst (step st c)) r) ->
  I (run a) b -> I (run (a ++ b)) [].
Proof.
  intros Ho Hstep. destruct (oracle_app_wf a b Ho) as [HW [Hwf Hd]]. specialize (Hstep HW). rewrite run_app.
  assert (Hin : forall c, In c b -> cmd_in (world_of (a ++ b)) c).
  { intros c Hc. apply cmd_in_world_of. apply in_or_app; right; exact Hc. }
  clear Ho. revert HW Hstep Hwf Hd Hin. generalize (world_of (a ++ b)) (run a). intros W st HW Hstep. revert st.
  induction b as [|c r IH]; intros st Hwf Hd Hin Hi; [exact Hi|].
  cbn [disciplined_from] in Hd. apply andb_true_iff in Hd. destruct Hd as [Hreq Hd].
  assert (Hc : cmd_in W c) by (apply Hin; left; reflexivity).
  assert (Hwf' : wf_store W (fst (step st c))) by (apply step_wf; assumption).
  apply (IH (fst (step st c)) Hwf' Hd); [intros c' Hc'; apply Hin; right; exact Hc'|].
  apply Hstep; assumption.
Qed.
