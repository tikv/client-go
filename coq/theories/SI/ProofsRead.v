(* SI/ProofsRead.v — reads as a function of the committed history; a safe step ([safe_step]) leaves a
   read unchanged; the client/reader rules imply the stability predicate [stable_suffix]. *)
From Verif Require Import SI.Model SI.ProofsTrans Mvcc.ProofsStore Mvcc.ProofsKey Mvcc.ProofsKstep
     Mvcc.ProofsShape Mvcc.ProofsStep Mvcc.ProofsRead Mvcc.ProofsMarker.

Lemma hist_newest_max h t :
  match hist_newest h t with
  | Some r => In r h /\ h_commit r <= t /\ forall x, In x h -> h_commit x <= t -> h_commit x <= h_commit r
  | None => forall x, In x h -> t < h_commit x
  end.
Proof.
  induction h as [|r rest IH]; cbn [hist_newest]; [intros x []|].
  destruct (hist_newest rest t) as [y|].
  - destruct IH as [Hy [Hv Hm]]. destruct ((h_commit r <=? t) && (h_commit y <? h_commit r)) eqn:E.
    + apply andb_true_iff in E. destruct E as [Hle Hlt]. apply N.leb_le in Hle. apply N.ltb_lt in Hlt.
      split; [left; reflexivity|]. split; [exact Hle|]. intros x [E|Hx] Hvx; [subst; lia|]. specialize (Hm x Hx Hvx). lia.
    + split; [right; exact Hy|]. split; [exact Hv|]. intros x [Ex|Hx] Hvx; [subst x|apply Hm; assumption].
      apply andb_false_iff in E. destruct E as [E|E]; [apply N.leb_gt in E|apply N.ltb_ge in E]; lia.
  - destruct (N.leb_spec (h_commit r) t) as [Hle|Hgt].
    + split; [left; reflexivity|]. split; [exact Hle|]. intros x [E|Hx] Hvx; [subst; lia|]. specialize (IH x Hx). lia.
    + intros x [E|Hx]; [subst; exact Hgt|apply IH; exact Hx].
Qed.

(* a record above all others is the one read as soon as it is visible *)
Lemma hist_read_full_cons x h t : (forall y, In y h -> h_commit y < h_commit x) ->
  hist_read_full (x :: h) t =
  if h_commit x <=? t then match h_val x with Some v => Some (v, h_commit x) | None => None end else hist_read_full h t.
Proof.
  intros Hb. unfold hist_read_full. cbn [hist_newest]. pose proof (hist_newest_max h t) as Hm.
  destruct (hist_newest h t) as [y|]; [|destruct (h_commit x <=? t); reflexivity].
  destruct Hm as [Hy _]. specialize (Hb y Hy). destruct (h_commit x <=? t); cbn [andb]; [|reflexivity].
  destruct (N.ltb_spec (h_commit y) (h_commit x)); [reflexivity|lia].
Qed.

Lemma hist_of_writes_in ws x : In x (hist_of_writes ws) -> exists w, In w ws /\ w_commit w = h_commit x.
Proof.
  unfold hist_of_writes. rewrite in_flat_map. intros [w [Hw Hx]]. exists w. split; [exact Hw|].
  unfold hrec_of in Hx. destruct (w_kind w); cbn [In] in Hx; try tauto; destruct Hx as [E|[]]; subst x; reflexivity.
Qed.

Lemma read_writes_cons w r t : read_writes (w :: r) t =
  if visible t w then match w_kind w with WPut => Some (w_value w, w_commit w) | _ => None end else read_writes r t.
Proof.
  unfold visible, is_data. cbn [read_writes]. destruct (w_kind w); cbn [andb]; try reflexivity; destruct (w_commit w <=? t); reflexivity.
Qed.

(* on the store's layout (descending commit ts) the model's read is the history read *)
Lemma read_writes_hist ws t : desc ws -> read_writes ws t = hist_read_full (hist_of_writes ws) t.
Proof.
  unfold desc. induction ws as [|w r IH]; intros Hd; [reflexivity|].
  inversion Hd as [|? ? Hr Hf]; subst. specialize (IH Hr). rewrite Forall_forall in Hf.
  assert (Hb : forall s v y, In y (hist_of_writes r) -> h_commit y < h_commit (w_commit w, s, v)).
  { intros s v y Hy. apply hist_of_writes_in in Hy. destruct Hy as [w' [Hw' Ec]]. specialize (Hf _ Hw'). cbn. lia. }
  rewrite read_writes_cons. change (hist_of_writes (w :: r)) with (hrec_of w ++ hist_of_writes r).
  unfold visible, is_data, hrec_of. destruct (w_kind w); cbn [app andb]; try exact IH;
    rewrite hist_read_full_cons by apply Hb; cbn [h_commit h_val fst snd]; rewrite IH; reflexivity.
Qed.

Lemma read_at_hist st k t : desc (writes_of st k) -> read_at st k t = hist_read (history st k) t.
Proof. intros Hd. unfold read_at, hist_read, history. rewrite read_writes_hist by exact Hd. reflexivity. Qed.

Lemma read_is_history cmds k t : read_at (run cmds) k t = hist_read (history (run cmds) k) t.
Proof. apply read_at_hist. apply (proj2 (run_sorted cmds)). Qed.

Lemma hist_lookup_full st k : hist_lookup (full_history st) k = history st k.
Proof.
  unfold history, writes_of. induction st as [|[k' v] r IH]; [reflexivity|].
  cbn [full_history map hist_lookup get_ks fst snd]. destruct (k' =? k); [reflexivity|]. destruct (k <? k'); [reflexivity|exact IH].
Qed.

Definition snapshot_read_stmt (st : store) (k : key) (t : ts) (rs : list ts) : Prop :=
  match get st k t rs with
  | RGet v => v = hist_read_full (history st k) (eff_ts st k t) /\ (t <> max_ts -> eff_ts st k t = t)
  | RErr (Some (ELocked k' l)) =>
    k' = k /\ lock_of st k = Some l /\ l_start l <= t /\ data_lock l = true /\ existsb (N.eqb (l_start l)) rs = false
  | _ => False
  end.

Lemma snapshot_read cmds k t rs : snapshot_read_stmt (run cmds) k t rs.
Proof.
  unfold snapshot_read_stmt. rewrite read_correct. unfold spec_get, spec_get_ks, eff_ts, lock_of, history, writes_of.
  pose proof (proj2 (run_sorted cmds) k) as Hd.
  destruct (ks_lock (get_ks (run cmds) k)) as [l|] eqn:El.
  - destruct (blocking l k t rs) eqn:Eb; cbn [rd_resp].
    + unfold blocking in Eb. repeat (apply andb_true_iff in Eb; destruct Eb as [Eb ?]).
      split; [reflexivity|]. split; [reflexivity|]. split; [apply N.leb_le; exact Eb|]. split; [assumption|].
      apply negb_true_iff; assumption.
    + destruct ((l_start l <=? t) && data_lock l && max_ts_exception l k t) eqn:Ex; cbn [rd_resp].
      * rewrite <- read_writes_spec by exact Hd. split; [apply read_writes_hist; exact Hd|].
        intros Hne. exfalso. apply andb_true_iff in Ex. destruct Ex as [_ Ex]. unfold max_ts_exception in Ex.
        apply andb_true_iff in Ex. destruct Ex as [Ex _]. apply N.eqb_eq in Ex. contradiction.
      * rewrite <- read_writes_spec by exact Hd. split; [apply read_writes_hist; exact Hd|reflexivity].
  - cbn [rd_resp]. rewrite <- read_writes_spec by exact Hd. split; [apply read_writes_hist; exact Hd|reflexivity].
Qed.

Lemma read_skip w r t : is_data w = false \/ t < w_commit w -> read_writes (w :: r) t = read_writes r t.
Proof.
  intros H. rewrite read_writes_cons. unfold visible.
  destruct H as [H|H]; [rewrite H; reflexivity|]. apply N.leb_gt in H. rewrite H, andb_false_r. reflexivity.
Qed.

Lemma read_put_inert w ws t :
  is_data w = false \/ t < w_commit w ->
  (forall x, In x ws -> w_commit x = w_commit w -> is_data x = false \/ t < w_commit x) ->
  read_writes (put_write w ws) t = read_writes ws t.
Proof.
  intros Hw. induction ws as [|y r IH]; intros Hx; cbn [put_write].
  - apply read_skip; exact Hw.
  - destruct (w_commit y <? w_commit w); [apply read_skip; exact Hw|].
    destruct (N.eqb_spec (w_commit y) (w_commit w)) as [E|E].
    + rewrite (read_skip w r t Hw). symmetry. apply read_skip. apply Hx; [left; reflexivity|exact E].
    + cbn [read_writes]. rewrite IH; [reflexivity|]. intros x Hin. apply Hx. right; exact Hin.
Qed.

Lemma gc_none_stays sp t : forall ws keep, desc ws -> read_writes ws t = None ->
  read_writes (gc_writes sp keep ws) t = None.
Proof.
  unfold desc. induction ws as [|w r IH]; intros keep Hd H; [reflexivity|].
  inversion Hd as [|? ? Hr Hf]; subst. rewrite Forall_forall in Hf. cbn [gc_writes].
  destruct (N.ltb_spec sp (w_commit w)) as [Hsp|Hsp].
  - cbn [read_writes] in *. destruct (w_kind w).
    + destruct (w_commit w <=? t); [discriminate|apply IH; assumption].
    + destruct (w_commit w <=? t); [reflexivity|apply IH; assumption].
    + apply IH; assumption.
    + apply IH; assumption.
  - cbn [read_writes] in H. destruct (w_kind w) eqn:Ek.
    + destruct (w_commit w <=? t) eqn:Et; [discriminate|]. destruct keep; [|apply IH; assumption].
      cbn [read_writes]. rewrite Ek, Et. apply IH; assumption.
    + rewrite gc_writes_all_old; [reflexivity|]. intros x Hx. specialize (Hf x Hx). lia.
    + apply IH; assumption.
    + apply IH; assumption.
Qed.

Lemma pairs_above_intro t s Q : (forall c, In (s, c) Q -> t < c) -> pairs_above t s Q = true.
Proof.
  intros H. unfold pairs_above. apply forallb_forall. intros [s0 c] Hin. cbn [fst snd].
  destruct (N.eqb_spec s0 s) as [E|E]; cbn [negb orb]; [|reflexivity]. subst s0. apply N.ltb_lt. apply H; exact Hin.
Qed.

Lemma pairs_above_elim t s Q c : pairs_above t s Q = true -> In (s, c) Q -> t < c.
Proof.
  unfold pairs_above. rewrite forallb_forall. intros H Hin. specialize (H _ Hin). cbn [fst snd] in H.
  rewrite N.eqb_refl in H. apply N.ltb_lt; exact H.
Qed.

Lemma pairs_above_incl t s P Q : incl Q P -> pairs_above t s P = true -> pairs_above t s Q = true.
Proof. intros Hi H. apply pairs_above_intro. intros c Hin. eapply pairs_above_elim; [exact H|apply Hi; exact Hin]. Qed.

Lemma nonrb_pair W ks w : wf_ks W ks -> In w (ks_writes ks) -> is_rollback w = false -> In (w_start w, w_commit w) (w_pairs W).
Proof.
  intros Hwf Hin Hr. pose proof (wf_wok _ _ Hwf) as Hok. rewrite Forall_forall in Hok.
  destruct (Hok _ Hin) as [_ H]. rewrite Hr in H. exact H.
Qed.

Section Stable.
  Variable W : world.
  Hypothesis HW : World_ok W.

  (* a record that shares its commit ts with the commit record of the lock holder cannot exist *)
  Lemma no_same_commit ks l cm x : wf_ks W ks -> ks_lock ks = Some l -> In (l_start l, cm) (w_pairs W) ->
    In x (ks_writes ks) -> w_commit x = cm -> False.
  Proof.
    intros Hwf El Hp Hx Ec. destruct (wf_lock _ _ Hwf l El) as [_ Hn].
    pose proof (wf_wok _ _ Hwf) as Hok. rewrite Forall_forall in Hok. destruct (Hok _ Hx) as [Hs Hr].
    destruct (is_rollback x).
    - apply (wo_disj W HW _ _ (w_start x) Hp Hs). congruence.
    - rewrite Ec in Hr. apply Hn. apply in_map_iff. exists x. split; [|exact Hx].
      apply (proj2 (wo_inj W HW _ _ _ _ Hr Hp)). reflexivity.
  Qed.
  (* a record whose commit ts is some transaction's start ts is a rollback record: no commit ts is a start ts *)
  Lemma same_commit_rollback ks s x : wf_ks W ks -> In s (w_starts W) -> In x (ks_writes ks) -> w_commit x = s ->
    is_data x = false.
  Proof.
    intros Hwf Hs Hx Ec. pose proof (wf_wok _ _ Hwf) as Hok. rewrite Forall_forall in Hok. destruct (Hok _ Hx) as [_ Hr].
    unfold is_rollback in Hr. unfold is_data. destruct (w_kind x); try reflexivity;
      exfalso; apply (wo_disj W HW _ _ s Hr Hs); exact Ec.
  Qed.

  Lemma read_put_rollback ks s t : wf_ks W ks -> In s (w_starts W) ->
    read_writes (put_write (rollback_write s) (ks_writes ks)) t = read_writes (ks_writes ks) t.
  Proof.
    intros Hwf Hs. apply read_put_inert; [left; reflexivity|]. intros x Hx Ec. left.
    eapply same_commit_rollback; [exact Hwf|exact Hs|exact Hx|exact Ec].
  Qed.

  Lemma ktrans_read_stable c k ks x t : wf_ks W ks -> cmd_in W c -> ktrans c k ks x ->
    gc_ok t c = true ->
    (forall l, ks_lock ks = Some l -> data_lock l = false \/ pairs_above t (l_start l) (cmd_pairs c) = true) ->
    read_writes (ks_writes x) t = read_writes (ks_writes ks) t.
  Proof.
    intros Hwf [Hcs Hcp] Ht Hgc Hl.
    destruct Ht as [| | | |l cm El Hp _|s lk Hs _| |s e sp Ec|s e Ec]; cbn [ks_writes]; try reflexivity.
    - (* commit *)
      apply read_put_inert; cbn [w_commit].
      + destruct (Hl l El) as [Hd|Ha].
        * left. unfold data_lock in Hd. unfold is_data. cbn [w_kind]. destruct (l_op l); cbn in Hd |- *; try discriminate; reflexivity.
        * right. eapply pairs_above_elim; eassumption.
      + intros x Hx Ec. exfalso. eapply no_same_commit; [exact Hwf|exact El|apply Hcp; exact Hp|exact Hx|exact Ec].
    - apply read_put_rollback; [exact Hwf|apply Hcs; exact Hs].
    - subst c. cbn [gc_ok] in Hgc. apply gc_writes_read; [exact (wf_desc _ _ Hwf)|apply N.leb_le; exact Hgc].
    - subst c. discriminate.
  Qed.

  Lemma step_read_stable st c k t : wf_store W st -> cmd_in W c -> safe_step st c k t = true ->
    read_at (fst (step st c)) k t = read_at st k t.
  Proof.
    intros [Hs Hk] Hc Hsafe. unfold read_at, writes_of. destruct (step_ktrans st c k Hs) as [E|Ht]; [rewrite E; reflexivity|].
    unfold safe_step in Hsafe. apply andb_true_iff in Hsafe. destruct Hsafe as [Hgc Hl].
    f_equal. eapply ktrans_read_stable; [apply Hk|exact Hc|exact Ht|exact Hgc|].
    intros l El. unfold lock_of in Hl. rewrite El in Hl. apply orb_true_iff in Hl. destruct Hl as [Hl|Hl]; [left|right; exact Hl].
    apply negb_true_iff; exact Hl.
  Qed.
End Stable.

Lemma mut_key_in ms m k : In m ms -> m_key m = k -> existsb (fun m0 => m_key m0 =? k) ms = true.
Proof. intros Hin Ek. apply existsb_exists. exists m. split; [exact Hin|apply N.eqb_eq; exact Ek]. Qed.

(* a read is unchanged by a suffix whose every step passes a test that implies the step leaves the read unchanged;
   the stability predicates of the model are such tests ([ok]) folded along the suffix ([suf]) *)
Lemma read_stable_under (ok : store -> cmd -> bool) (suf : store -> list cmd -> bool) a b k t :
  (forall st c r, suf st (c :: r) = ok st c && suf (fst (step st c)) r) ->
  (forall W st c, World_ok W -> wf_store W st -> cmd_in W c -> ok st c = true ->
     read_at (fst (step st c)) k t = read_at st k t) ->
  oracle_ts (a ++ b) = true -> suf (run a) b = true -> read_at (run (a ++ b)) k t = read_at (run a) k t.
Proof.
  intros Hsuf Hok Ho Hsf.
  apply (oracle_suffix_inv (fun st r => suf st r = true /\ read_at st k t = read_at (run a) k t) a b Ho);
    [|split; [exact Hsf|reflexivity]].
  intros HW st c r Hwf _ Hc [H E]. rewrite Hsuf in H. apply andb_true_iff in H. destruct H as [Hsafe H].
  split; [exact H|]. rewrite <- E. eapply Hok; eassumption.
Qed.

Section Rules.
  Variables (k : key) (t : ts) (P : list (ts * ts)).

  (* the lock on k, if it is a Put/Delete lock, belongs to a transaction that commits above t according to the
     pairs P, or is excused by E (a min_commit_ts recorded above t, a placement after t was issued, ...) *)
  Definition lock_good (E : ts -> Prop) (st : store) : Prop :=
    forall l, lock_of st k = Some l -> data_lock l = false \/ pairs_above t (l_start l) P = true \/ E (l_start l).

  Lemma lock_good_weaken (E E' : ts -> Prop) st : (forall s, E s -> E' s) -> lock_good E st -> lock_good E' st.
  Proof. intros H Hg l El. destruct (Hg l El) as [Hd|[Ha|He]]; auto. Qed.

  Lemma prewrite_rule_above ms p s fu ttl mc ao m :
    prewrite_rule k t P (Prewrite ms p s fu ttl mc ao) = true -> In m ms -> m_key m = k -> pairs_above t s P = true.
  Proof.
    unfold prewrite_rule, prewrites_key. intros H Hin Ek. rewrite (mut_key_in ms m k Hin Ek) in H.
    apply orb_true_iff in H. destruct H as [H|H]; [|exact H].
    apply andb_true_iff in H. destruct H as [Hmc Hall]. apply N.ltb_lt in Hmc.
    apply pairs_above_intro. intros c Hc. rewrite forallb_forall in Hall. specialize (Hall _ Hc). cbn [fst snd] in Hall.
    rewrite N.eqb_refl in Hall. apply N.leb_le in Hall. lia.
  Qed.

  (* a step keeps the lock good when the excuse of the lock holder carries over and a transaction whose
     prewrite newly locks k (it found k free or under its own pessimistic lock) commits above t or is excused *)
  Lemma lock_good_step (E E' : ts -> Prop) st c : keys_sorted st -> lock_good E st ->
    (forall l, lock_of st k = Some l -> E (l_start l) -> data_lock l = false \/ E' (l_start l)) ->
    (forall ms p s fu ttl mc ao m l', c = Prewrite ms p s fu ttl mc ao -> In m ms -> m_key m = k ->
       (forall l, lock_of st k = Some l -> l_start l = s /\ is_pess l = true) ->
       lock_of (fst (step st c)) k = Some l' -> l_start l' = s -> pairs_above t s P = true \/ E' s) ->
    lock_good E' (fst (step st c)).
  Proof.
    intros Hs Hg Hkeep Hpw l' El'.
    destruct (step_lock st c k l' Hs El') as [l El Es Eo _ _ _|ms p s fu ttl mc ao m Ec Hin Ek Es _ _ Hold|r _ El].
    - assert (Ed : data_lock l' = data_lock l) by (unfold data_lock; rewrite Eo; reflexivity).
      rewrite Es, Ed. destruct (Hg l El) as [H|[H|H]]; auto. destruct (Hkeep l El H); auto.
    - rewrite Es. destruct (Hpw _ _ _ _ _ _ _ m l' Ec Hin Ek Hold El' Es); auto.
    - left. subst l'. reflexivity.
  Qed.

  (* [safe_step] and [safe_step_k] with the pairs the command applies left open *)
  Definition safe_for (st : store) (c : cmd) (Q : list (ts * ts)) : bool :=
    gc_ok t c && match lock_of st k with Some l => negb (data_lock l) || pairs_above t (l_start l) Q | None => true end.

  Lemma lock_good_safe (E : ts -> Prop) st c Q : lock_good E st -> gc_ok t c = true -> incl Q P ->
    (forall l, lock_of st k = Some l -> E (l_start l) -> pairs_above t (l_start l) Q = true) -> safe_for st c Q = true.
  Proof.
    intros Hg Hgc Hi He. unfold safe_for. rewrite Hgc. cbn [andb].
    destruct (lock_of st k) as [l|] eqn:El; [|reflexivity]. apply orb_true_iff.
    destruct (Hg l El) as [H|[H|H]]; [left; rewrite H; reflexivity|right..].
    - eapply pairs_above_incl; eassumption.
    - apply (He l eq_refl H).
  Qed.

  (* the lock met at read time: not a Put/Delete lock, or started above t (then it commits above t), or
     covered by the pairs, or excused *)
  Lemma met_good W (E : ts -> Prop) st : World_ok W -> incl P (w_pairs W) ->
    (forall l, lock_of st k = Some l ->
       negb (data_lock l) || (t <? l_start l) || pairs_above t (l_start l) P = true \/ E (l_start l)) ->
    lock_good E st.
  Proof.
    intros HW Hi Hmet l El. destruct (Hmet l El) as [H|H]; [|auto].
    apply orb_true_iff in H. destruct H as [H|H]; [|auto].
    apply orb_true_iff in H. destruct H as [H|H]; [left; apply negb_true_iff; exact H|right; left].
    apply N.ltb_lt in H. apply pairs_above_intro. intros c Hc. pose proof (wo_lt _ HW _ _ (Hi _ Hc)). lia.
  Qed.

  Lemma met_rule_good W st : World_ok W -> incl P (w_pairs W) -> met_rule st k t P = true -> lock_good (fun _ => False) st.
  Proof.
    intros HW Hi Hmet. apply (met_good W _ st HW Hi). intros l El. left. unfold met_rule in Hmet. rewrite El in Hmet. exact Hmet.
  Qed.

  Lemma rules_stable : forall b st, keys_sorted st -> incl (flat_map cmd_pairs b) P ->
    forallb (gc_ok t) b = true -> forallb (prewrite_rule k t P) b = true -> lock_good (fun _ => False) st ->
    stable_suffix st k t b = true.
  Proof.
    induction b as [|c r IH]; intros st Hs Hi Hgc Hpw Hg; [reflexivity|].
    cbn [stable_suffix forallb flat_map] in *. apply andb_true_iff in Hgc. apply andb_true_iff in Hpw.
    destruct Hgc as [Hgc1 Hgc]. destruct Hpw as [Hpw1 Hpw]. apply incl_app_inv in Hi. destruct Hi as [Hi1 Hi].
    apply andb_true_iff; split.
    - apply (lock_good_safe _ st c (cmd_pairs c) Hg Hgc1 Hi1). intros l _ [].
    - apply IH; [apply (step_kstep st c Hs)|exact Hi|exact Hgc|exact Hpw|].
      apply (lock_good_step _ _ st c Hs Hg); [intros l _ []|].
      intros ms p s fu ttl mc ao m l' Ec Hin Ek _ _ _. left. subst c. eapply prewrite_rule_above; eassumption.
  Qed.
End Rules.

Lemma suffix_pairs_incl a b : incl (flat_map cmd_pairs b) (w_pairs (world_of (a ++ b))).
Proof. cbn [world_of w_pairs]. rewrite flat_map_app. apply incl_appr, incl_refl. Qed.

Lemma rules_imply_stable a b k t : oracle_ts (a ++ b) = true -> reader_rules (run a) k t b = true ->
  stable_suffix (run a) k t b = true.
Proof.
  intros Ho Hr. unfold reader_rules in Hr. cbv zeta in Hr.
  apply andb_true_iff in Hr. destruct Hr as [Hr Hmet]. apply andb_true_iff in Hr. destruct Hr as [Hgc Hpw].
  destruct (oracle_app_wf a b Ho) as [HW [Hwf Hd]].
  apply rules_stable with (P := flat_map cmd_pairs b); [exact (proj1 Hwf)|apply incl_refl|exact Hgc|exact Hpw|].
  eapply met_rule_good; [exact HW|apply suffix_pairs_incl|exact Hmet].
Qed.
