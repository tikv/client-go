(* SI/ProofsInsPoint.v — a committed insert, optimistic or pessimistic: in every reachable store the key has no value
   just below the insert's commit ts (the python oracle's "insert semantics" clause on the final history). *)
From Verif Require Import SI.Model SI.ProofsTrans SI.ProofsRead SI.ProofsWW SI.ProofsIns Mvcc.ProofsKey
     Mvcc.ProofsStep.

(* two read timestamps at or above every Put/Delete record read the same *)
Lemma read_top ws t t' : (forall w, In w ws -> is_data w = true -> w_commit w <= t) ->
  (forall w, In w ws -> is_data w = true -> w_commit w <= t') -> read_writes ws t = read_writes ws t'.
Proof.
  induction ws as [|w r IH]; intros H H'; [reflexivity|]. rewrite !read_writes_cons. unfold visible.
  destruct (is_data w) eqn:Ed; cbn [andb].
  - rewrite (proj2 (N.leb_le _ _) (H w (or_introl eq_refl) Ed)), (proj2 (N.leb_le _ _) (H' w (or_introl eq_refl) Ed)). reflexivity.
  - apply IH; intros x Hx; [apply H|apply H']; right; exact Hx.
Qed.

Section InsPoint.
  Variable W : world.
  Hypothesis HW : World_ok W.
  Variables (k : key) (s : ts).

  (* p = the lock point of s on k (ghost) *)
  Record iinv (ks : kstate) (p : ts) : Prop := {
    ii_lock : forall l, ks_lock ks = Some l -> l_start l = s -> read_writes (ks_writes ks) p = None;
    ii_rec : forall w, In w (ks_writes ks) -> w_start w = s -> w_kind w = WPut ->
             read_writes (ks_writes ks) (w_commit w - 1) = None }.

  Lemma iinv_empty p : iinv empty_ks p.
  Proof. split; cbn [empty_ks ks_lock ks_writes]; intros; try discriminate; contradiction. Qed.

  Lemma data_nonrb w : is_data w = true -> is_rollback w = false.
  Proof. unfold is_data, is_rollback. destruct (w_kind w); congruence. Qed.
  Lemma put_nonrb w : w_kind w = WPut -> is_rollback w = false.
  Proof. unfold is_rollback. intros E; rewrite E; reflexivity. Qed.

  (* a quiet transition keeps the invariant, the lock point being unmoved *)
  Lemma iinv_keep ks x gk : kinv W ks gk -> iinv ks (gk s) -> quiet ks x -> iinv x (gk_upd gk (ks_lock ks) (ks_lock x) s).
  Proof.
    intros Hk [I1 I2] [Hl Hw Hr]. rewrite (gk_upd_kept W _ _ _ s Hk Hl). split.
    - intros l' El' Es. destruct (Hl l' El') as [l [El [E _]]]. apply Hr. apply (I1 l El). congruence.
    - intros w Hin Es Ek. apply Hr. apply I2; [apply Hw; [exact Hin|apply put_nonrb; exact Ek]|exact Es|exact Ek].
  Qed.

  Lemma step_iinv st c g : wf_store W st -> cmd_in W c -> pess_req_ok (w_pairs W) c = true -> ginv W st g ->
    ins_cmd_ok k s c = true ->
    iinv (get_ks st k) (g k s) -> iinv (get_ks (fst (step st c)) k) (ghost_upd g st (fst (step st c)) k s).
  Proof.
    intros [Hs Hk] Hc Hpreq Hg Hins Hi.
    pose proof (Hk k) as Hwk. pose proof (Hg k) as Hkinv. unfold ghost_upd, lock_of.
    destruct (step_ktrans st c k Hs) as [E|Ht]; [rewrite E; apply iinv_keep; [exact Hkinv|exact Hi|apply quiet_refl]|].
    apply (ktrans_kform W HW c k _ _ Hwk Hc) in Ht.
    remember (get_ks (fst (step st c)) k) as x eqn:Ex. pose proof Hi as [I1 I2].
    destruct Ht as [ms p s0 fu ttl mc ao m v cf l' Ec Hin Ek El Hpc _ Es Ep _|r ne v cf Ec Hin Hccv|l cm El Hpw|x Hq].
    - (* fresh prewrite: an optimistic insert, checked by a read at the start ts *)
      subst c. split; cbn [ks_lock ks_writes]; [|exact I2].
      intros l E Esl. inversion E; subst l. assert (E0 : s0 = s) by congruence. rewrite E0 in *. clear E0.
      destruct (ins_prewrite_ok _ _ _ _ _ _ _ _ m Hins Hin Ek) as [Hop Hfu]. rewrite (Hfu Hpc) in *.
      unfold gk_upd. rewrite Esl, N.eqb_refl, Ep, El.
      eapply insert_locks_absent; [exact Hin|exact Hop|exact Ek|exact El|]. rewrite <- Ex. reflexivity.
    - (* pessimistic lock with the not-exist assertion, checked at the for-update ts *)
      subst c. split; cbn [ks_lock ks_writes]; [|exact I2].
      intros l E Esl. inversion E; subst l. cbn [l_start pess_lock_of] in Esl. rewrite <- Esl in Hins.
      rewrite (ins_pesslock_ok _ _ _ Hins Hin), (proj1 (pess_req_ok_spec _ _ Hpreq)) in Hccv.
      unfold gk_upd. cbn [l_start is_pess l_op op_eqb l_for_update pess_lock_of]. rewrite Esl, N.eqb_refl.
      eapply ccv_notexist_read; [exact (wf_desc _ _ Hwk)|apply N.le_refl|exact Hccv].
    - (* commit of the lock holder l at cm: its record is the newest, the reads below it are those at the lock point *)
      set (w0 := mkWrite (wkind_of_op (l_op l)) (l_start l) cm (l_value l)) in *.
      assert (Hinert : forall t, t < cm -> read_writes (put_write w0 (ks_writes (get_ks st k))) t = read_writes (ks_writes (get_ks st k)) t).
      { intros t Ht. apply read_put_inert; cbn [w_commit w0]; [right; exact Ht|]. intros y Hy Ec. right. lia. }
      pose proof (ki_pt _ _ _ Hkinv l El cm Hpw) as Hpt.
      split; cbn [ks_lock ks_writes]; try (intros; discriminate).
      intros w Hw Esw Ekw. apply put_write_in in Hw. destruct Hw as [E|Hw].
      + subst w. cbn [w_start w_commit w0] in *. rewrite Hinert by lia. rewrite Esw in *.
        rewrite (read_top _ (cm - 1) (g k s)); [apply (I1 l El Esw)| |];
          intros y Hy Hd; pose proof (ki_lock _ _ _ Hkinv l El y Hy (data_nonrb y Hd)); rewrite Esw in *; lia.
      + pose proof (ki_lock _ _ _ Hkinv l El w Hw (put_nonrb w Ekw)) as H1'.
        rewrite Hinert by lia. apply I2; assumption.
    - apply iinv_keep; assumption.
  Qed.
End InsPoint.

Lemma insert_commit_point cmds k s : oracle_ts cmds = true -> ww_discipline cmds = true -> ins_discipline cmds k s = true ->
  forall w, In w (writes_of (run cmds) k) -> w_start w = s -> w_kind w = WPut ->
    hist_read (history (run cmds) k) (w_commit w - 1) = None.
Proof.
  intros Ho Hd Hins w Hw Es Ek. rewrite <- read_is_history.
  destruct (lock_point_inv (fun st g r => forallb (ins_cmd_ok k s) r = true /\ iinv s (get_ks st k) (g k s)) cmds Ho Hd)
    as [_ [_ Hi]]; [|split; [exact Hins|apply iinv_empty]|].
  - intros HW st g c r Hwf _ Hc Hp Hg [Hr Hi]. cbn [forallb] in Hr. apply andb_true_iff in Hr. destruct Hr as [Hr1 Hr].
    split; [exact Hr|]. eapply step_iinv; eassumption.
  - unfold read_at, writes_of. rewrite (ii_rec _ _ _ Hi w Hw Es Ek). reflexivity.
Qed.
