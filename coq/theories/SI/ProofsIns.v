(* SI/ProofsIns.v — insert semantics: a prewrite with op Insert / CheckNotExists passes only if a
   snapshot read at the start ts finds no value (optimistic); a pessimistic lock request with the
   not-exist assertion passes only if there is no value at the for-update ts. *)
From Verif Require Import SI.Model SI.ProofsTrans Mvcc.ProofsKey Mvcc.ProofsShape Mvcc.ProofsRead Mvcc.ProofsLate.

Definition is_insert (m : mutation) : bool := match m_op m with MInsert | MCheckNotExists => true | _ => false end.

(* the insert discipline of transaction s on key k, spelled out for its prewrites and its lock requests *)
Lemma ins_prewrite_ok k s ms p fu ttl mc ao m : ins_cmd_ok k s (Prewrite ms p s fu ttl mc ao) = true -> In m ms -> m_key m = k ->
  is_insert m = true /\ (m_pess_check m = false -> fu = 0).
Proof.
  cbn [ins_cmd_ok]. rewrite N.eqb_refl. cbn [negb orb]. intros H Hin Ek. rewrite forallb_forall in H. specialize (H m Hin).
  rewrite Ek, N.eqb_refl in H. cbn [negb orb] in H. apply andb_true_iff in H. destruct H as [Hop Hfu]. split.
  - unfold is_insert. unfold is_ins_op in Hop. destruct (m_op m); try discriminate; reflexivity.
  - intros Hpc. rewrite Hpc, orb_false_r in Hfu. apply N.eqb_eq; exact Hfu.
Qed.

Lemma ins_pesslock_ok k r ne : ins_cmd_ok k (p_start r) (PessLock r) = true -> In (k, ne) (p_keys r) -> ne = true.
Proof.
  cbn [ins_cmd_ok]. rewrite N.eqb_refl. cbn [negb orb]. intros H Hin. rewrite forallb_forall in H. specialize (H _ Hin).
  cbn [fst snd] in H. rewrite N.eqb_refl in H. exact H.
Qed.

Lemma prewrite_all_err_in st primary s fu ttl mc ao m e : forall ms acc,
  In m ms -> prewrite_item st m primary s fu ttl mc ao = Some (KErr e) ->
  In (Some e) (snd (prewrite_all st acc ms primary s fu ttl mc ao)).
Proof.
  induction ms as [|m0 r IH]; intros acc Hin He; [destruct Hin|]. cbn [prewrite_all].
  destruct Hin as [E|Hin].
  - subst m0. rewrite He. destruct (prewrite_all st acc r primary s fu ttl mc ao). left; reflexivity.
  - destruct (prewrite_item st m0 primary s fu ttl mc ao) as [[e0|o]|].
    + specialize (IH acc Hin He). destruct (prewrite_all st acc r primary s fu ttl mc ao). right; exact IH.
    + specialize (IH (apply_opt acc (m_key m0) o) Hin He).
      destruct (prewrite_all st (apply_opt acc (m_key m0) o) r primary s fu ttl mc ao). right; exact IH.
    + apply IH; assumption.
Qed.

Lemma insert_exists_rejected st ms p s ttl mc ao m vc :
  In m ms -> is_insert m = true -> get st (m_key m) s [] = RGet (Some vc) ->
  exists es, step st (Prewrite ms p s 0 ttl mc ao) = (st, RErrs es)
             /\ In (Some (EAlreadyExist (m_key m))) es /\ has_err es = true.
Proof.
  intros Hin Hop Hget. rewrite get_unfold in Hget.
  assert (He : prewrite_item st m p s 0 ttl mc ao = Some (KErr (EAlreadyExist (m_key m)))).
  { unfold prewrite_item. unfold is_insert in Hop. rewrite N.eqb_refl.
    destruct (get_ks_value (get_ks st (m_key m)) (m_key m) s []) as [l|[vc'|]]; cbn [rd_resp] in Hget; try discriminate.
    destruct (m_op m); try discriminate; reflexivity. }
  pose proof (prewrite_all_err_in st p s 0 ttl mc ao m _ ms st Hin He) as H.
  cbn [step]. destruct (prewrite_all st st ms p s 0 ttl mc ao) as [acc es]. cbn [snd] in H.
  assert (Hh : has_err es = true). { unfold has_err. apply existsb_exists. eexists; split; [exact H|reflexivity]. }
  exists es. rewrite Hh. repeat split; assumption.
Qed.

Lemma insert_accepted_absent st ms p s ttl mc ao m es :
  In m ms -> is_insert m = true -> snd (step st (Prewrite ms p s 0 ttl mc ao)) = RErrs es -> has_err es = false ->
  get st (m_key m) s [] = RGet None \/ exists l, lock_of st (m_key m) = Some l /\ l_start l = s.
Proof.
  intros Hin Hop Hst Hes. rewrite get_unfold.
  assert (Hn : forall e, prewrite_item st m p s 0 ttl mc ao <> Some (KErr e)).
  { intros e He. pose proof (prewrite_all_err st p s 0 ttl mc ao m e ms st Hin He) as H.
    cbn [step] in Hst. destruct (prewrite_all st st ms p s 0 ttl mc ao) as [acc es']. cbn [snd] in *. inversion Hst; subst. congruence. }
  unfold prewrite_item in Hn. unfold is_insert in Hop. rewrite N.eqb_refl in Hn.
  unfold get_ks_value in *. unfold lock_of.
  destruct (ks_lock (get_ks st (m_key m))) as [l|] eqn:El.
  - destruct (lock_check l s (m_key m) []) as [t'|] eqn:Elc.
    + destruct (read_writes (ks_writes (get_ks st (m_key m))) t') as [vc|]; [|left; reflexivity].
      exfalso. destruct (m_op m); try discriminate; eapply Hn; reflexivity.
    + destruct (N.eqb_spec (l_start l) s) as [E|E]; [right; exists l; split; [reflexivity|exact E]|].
      exfalso. destruct (m_op m); try discriminate; eapply Hn; reflexivity.
  - destruct (read_writes (ks_writes (get_ks st (m_key m))) s) as [vc|]; [|left; reflexivity].
    exfalso. destruct (m_op m); try discriminate; eapply Hn; reflexivity.
Qed.

Lemma prewrite_step_cases st ms p s fu ttl mc ao :
  fst (step st (Prewrite ms p s fu ttl mc ao)) = st \/
  exists es, snd (step st (Prewrite ms p s fu ttl mc ao)) = RErrs es /\ has_err es = false.
Proof.
  cbn [step]. destruct (prewrite_all st st ms p s fu ttl mc ao) as [acc es]. cbn [fst snd].
  destruct (has_err es) eqn:E; [left; reflexivity|right; exists es; split; [reflexivity|exact E]].
Qed.

(* an optimistic insert that locks a free key found no value at its start ts *)
Lemma insert_locks_absent st ms p s ttl mc ao m k l' : In m ms -> is_insert m = true -> m_key m = k ->
  ks_lock (get_ks st k) = None -> ks_lock (get_ks (fst (step st (Prewrite ms p s 0 ttl mc ao))) k) = Some l' ->
  read_writes (ks_writes (get_ks st k)) s = None.
Proof.
  intros Hin Hop Ek El El'. subst k.
  destruct (prewrite_step_cases st ms p s 0 ttl mc ao) as [E|[es [Hsnd Hes]]]; [rewrite E in El'; congruence|].
  destruct (insert_accepted_absent st ms p s ttl mc ao m es Hin Hop Hsnd Hes) as [Hget|[l [El0 _]]]; [|unfold lock_of in El0; congruence].
  rewrite get_unfold in Hget. unfold get_ks_value in Hget. rewrite El in Hget. cbn [rd_resp] in Hget. inversion Hget; reflexivity.
Qed.

Lemma ccv_loop_notexist a ao t : forall ws ngv ncr ret r, (forall w, In w ws -> w_commit w <= t) ->
  ccv_loop a ao None ws true ngv ncr ret = inr r -> read_writes ws t = None.
Proof.
  induction ws as [|w rest IH]; intros ngv ncr ret r Hle H; [reflexivity|].
  cbn [ccv_loop] in H. cbv zeta in H.
  destruct (ncr && is_rollback w && (w_commit w =? c_start a)); [discriminate|].
  cbn [read_writes]. destruct (w_kind w) eqn:Ek.
  - discriminate.
  - destruct (N.leb_spec (w_commit w) t) as [_|Hgt]; [reflexivity|]. specialize (Hle w (or_introl eq_refl)). lia.
  - cbn [negb andb] in H. destruct rest as [|w' r']; [reflexivity|].
    eapply IH; [|exact H]. intros x Hx. apply Hle. right; exact Hx.
  - discriminate.
Qed.

Lemma ccv_notexist_read k0 s0 fu loie ws v cf t : desc ws -> fu <= t ->
  ccv (mkCcv k0 s0 fu true AsNotExist loie) true false false ws = COk v cf -> read_writes ws t = None.
Proof.
  intros Hd Ht Ec. pose proof (ccv_ok_below _ _ _ _ _ _ Hd Ec) as Hle. cbn [c_for_update] in Hle.
  unfold ccv in Ec. destruct ws as [|w0 rest]; [reflexivity|].
  cbn [c_for_update c_assert c_pess_op as_eqb andb] in Ec.
  destruct (fu <? w_commit w0); [discriminate|].
  destruct (ccv_loop _ false None (w0 :: rest) true true true None) as [e|ret] eqn:El; [discriminate|].
  eapply ccv_loop_notexist; [|exact El]. intros w Hw. specialize (Hle w Hw). lia.
Qed.

(* a pessimistic lock request that reports no error passed on every key; its results are the per-key results, in order *)
Lemma pess_lock_all_ok st r : forall keys acc a rs, pess_lock_all st acc r keys = (a, [], rs) ->
  (forall kb, In kb keys -> exists res o, pess_lock_key (get_ks st (fst kb)) r (fst kb) (snd kb) = inr (res, o)) /\
  rs = map (fun kb => match pess_lock_key (get_ks st (fst kb)) r (fst kb) (snd kb) with inr (res, _) => res | inl _ => PRFailed end) keys.
Proof.
  induction keys as [|[k0 ne0] rest IH]; intros acc a rs H; cbn [pess_lock_all] in H.
  - inversion H. split; [intros kb []|reflexivity].
  - cbn [map fst snd]. destruct (pess_lock_key (get_ks st k0) r k0 ne0) as [e|[res o]] eqn:E.
    + destruct (if p_no_wait r && match e with ELocked _ _ => true | _ => false end then (acc, [], [])
                else pess_lock_all st acc r rest) as [[a' es'] rs']. discriminate.
    + destruct (pess_lock_all st (apply_opt acc k0 o) r rest) as [[a' es'] rs'] eqn:Er. inversion H; subst.
      destruct (IH _ _ _ Er) as [IH1 IH2]. split; [|rewrite <- IH2; reflexivity].
      intros kb [Ekb|Hin]; [subst kb; eauto|apply IH1; exact Hin].
Qed.

Lemma pess_lock_resp st r rs : snd (step st (PessLock r)) = RPess [] rs ->
  exists acc rs0, pess_lock_all st st r (p_keys r) = (acc, [], rs0) /\ (p_return_values r = true -> rs = rs0).
Proof.
  cbn [step]. destruct (pess_lock_all st st r (p_keys r)) as [[acc es] rs0]. intros Hst. exists acc, rs0.
  destruct es as [|e es].
  - split; [reflexivity|]. intros Hrv. destruct (true && negb (Nat.eqb (length rs0) (length (p_keys r)))); cbn [snd] in Hst; [discriminate|].
    rewrite Hrv, orb_true_r in Hst. cbn [orb] in Hst. inversion Hst. reflexivity.
  - destruct (p_force r && negb (Nat.eqb (length rs0) (length (p_keys r)))); cbn [snd] in Hst; discriminate.
Qed.

Lemma pess_insert_absent cmds r k rs : p_force r = false -> In (k, true) (p_keys r) ->
  snd (step (run cmds) (PessLock r)) = RPess [] rs -> read_at (run cmds) k (p_for_update r) = None.
Proof.
  intros Hf Hin Hst. destruct (pess_lock_resp _ _ _ Hst) as [acc [rs0 [Ea _]]].
  destruct (proj1 (pess_lock_all_ok _ _ _ _ _ _ Ea) _ Hin) as [res [o Hk]].
  destruct (pess_lock_key_ok _ _ _ _ _ _ Hk) as [_ [v [cf [Hc _]]]]. rewrite Hf in Hc.
  unfold read_at, writes_of. erewrite ccv_notexist_read; [reflexivity|apply (proj2 (run_sorted cmds))|apply N.le_refl|exact Hc].
Qed.
