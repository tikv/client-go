(* SI/ProofsLockRead.v — locking reads: a pessimistic lock request with return_values answers, per key, the
   history read at its for-update ts (normal path) or the newest committed value together with the conflict
   ts (forced / fair-locking path); while the lock is held the owner's lock point is that for-update ts. *)
From Verif Require Import SI.Model SI.ProofsTrans SI.ProofsRead SI.ProofsIns Mvcc.ProofsKey Mvcc.ProofsShape
     Mvcc.ProofsMarker.

Lemma newest_data_cons w r : newest_data (w :: r) = if is_data w then Some w else newest_data r.
Proof. reflexivity. Qed.

(* what the loop returns when it does not fail: while it still looks for a value (ngv), the value of the newest
   Put/Delete record (an empty Put value reads as none); afterwards what it has found *)
Definition loop_ret (ngv : bool) (ws : list write) (ret : option value) : option value :=
  if ngv then match newest_data ws with Some w => data_val w | None => ret end else ret.

Lemma ccv_loop_ret a ao cf : forall ws nsne ngv ncr ret v, ccv_loop a ao cf ws nsne ngv ncr ret = inr v -> v = loop_ret ngv ws ret.
Proof.
  induction ws as [|w r IH]; intros nsne ngv ncr ret v H; cbn [ccv_loop] in H; [inversion H; destruct ngv; reflexivity|].
  destruct (ncr && is_rollback w && (w_commit w =? c_start a)); [discriminate|].
  (* after the head: stop (only once the value is found), end of the list, or the rest of the list *)
  assert (T : forall ns ngv' ncr' ret',
             (if negb ns && negb ngv' && negb ncr' then inr ret'
              else match r with
                   | [] => if as_eqb (c_assert a) AsExist && ao then inl (EAssertionFailed 0 0) else inr ret'
                   | _ :: _ => ccv_loop a ao cf r ns ngv' ncr' ret'
                   end) = inr v -> v = loop_ret ngv' r ret').
  { intros ns ngv' ncr' ret' E. destruct (negb ns && negb ngv' && negb ncr') eqn:Eb.
    - inversion E. destruct ngv'; [destruct ns; discriminate|reflexivity].
    - destruct r as [|w' r']; [|apply IH in E; exact E].
      destruct (as_eqb (c_assert a) AsExist && ao); [discriminate|]. inversion E. destruct ngv'; reflexivity. }
  unfold loop_ret at 1. rewrite newest_data_cons. unfold is_data, data_val.
  destruct (w_kind w) eqn:Ek.
  - destruct nsne; [discriminate|]. destruct (negb (as_eqb (c_assert a) AsNone) && negb (c_pess_op a) && ao && as_eqb (c_assert a) AsNotExist); [discriminate|].
    destruct ngv; cbv beta iota zeta in H; apply T in H; rewrite ?Ek; exact H.
  - destruct cf as [c|]; [destruct (c_lock_only_if_exists a); [discriminate|]|]; destruct ngv; cbv beta iota zeta in H; apply T in H; rewrite ?Ek; exact H.
  - cbv beta iota zeta in H. apply T in H. exact H.
  - destruct nsne; [discriminate|]. destruct (negb (as_eqb (c_assert a) AsNone) && negb (c_pess_op a) && ao && as_eqb (c_assert a) AsNotExist); [discriminate|].
    cbv beta iota zeta in H. apply T in H. exact H.
Qed.

(* when no record lies above t, the newest Put/Delete value is the read at t *)
Lemma read_newest ws t : (forall w, In w ws -> w_commit w <= t) -> nonempty (option_map fst (read_writes ws t)) = newest_val ws.
Proof.
  unfold newest_val. induction ws as [|w r IH]; intros Hle; [reflexivity|].
  rewrite newest_data_cons, read_writes_cons. unfold visible.
  rewrite (proj2 (N.leb_le _ _) (Hle w (or_introl eq_refl))), andb_true_r.
  destruct (is_data w) eqn:Ed; [|apply IH; intros x Hx; apply Hle; right; exact Hx].
  unfold data_val. unfold is_data in Ed. destruct (w_kind w); try discriminate; reflexivity.
Qed.

Definition lock_answer (ws : list write) (r : pess_req) : pres :=
  if p_for_update r <? head_commit ws
  then PRConflict (newest_val ws) (is_some (newest_val ws)) (head_commit ws)
  else PRNormal (nonempty (option_map fst (read_writes ws (p_for_update r)))) (is_some (nonempty (option_map fst (read_writes ws (p_for_update r))))).

(* an accepted conflict check reports the conflict with the newest record and, when asked for the value, returns the
   newest committed one *)
Lemma ccv_ok_answer a gv ao ac ws v cf : ccv a gv ao ac ws = COk v cf ->
  cf = match ws with
       | w :: _ => if c_for_update a <? w_commit w then Some (EWriteConflict (c_for_update a) (w_start w) (w_commit w) (c_key a)) else None
       | [] => None
       end /\ (gv = true -> v = newest_val ws).
Proof.
  unfold ccv, newest_val. destruct ws as [|w rest]; [destruct (_ && _); [discriminate|intros E; inversion E; split; reflexivity]|].
  destruct (c_for_update a <? w_commit w); [destruct ac; [|discriminate]|];
    (destruct (ccv_loop _ _ _ _ _ _ _ _) as [e|ret] eqn:El; [discriminate|]; intros E; inversion E; subst;
     (split; [reflexivity|]); intros Eg; subst gv; apply ccv_loop_ret in El; exact El).
Qed.

Lemma pess_lock_key_answer ks r k ne res o : desc (ks_writes ks) -> p_return_values r = true ->
  pess_lock_key ks r k ne = inr (res, o) -> res = lock_answer (ks_writes ks) r.
Proof.
  intros Hd Hrv H. destruct (pess_lock_key_ok _ _ _ _ _ _ H) as [_ [v [cf [Hc [Hres _]]]]]. rewrite (Hres Hrv).
  destruct (ccv_ok_answer _ _ _ _ _ _ _ Hc) as [Ecf Ev]. rewrite Ecf, (Ev eq_refl). unfold lock_answer. cbn [c_for_update c_key].
  destruct (ks_writes ks) as [|w0 rest]; cbn [head_commit].
  - destruct (N.ltb_spec (p_for_update r) 0); [lia|reflexivity].
  - destruct (N.ltb_spec (p_for_update r) (w_commit w0)) as [Hlt|Hge]; [reflexivity|].
    rewrite read_newest; [reflexivity|]. intros w Hw. pose proof (desc_head_max _ _ _ Hd Hw). lia.
Qed.

Definition locking_read_stmt (cmds : list cmd) (r : pess_req) (rs : list pres) : Prop :=
  rs = map (fun kb => lock_answer (writes_of (run cmds) (fst kb)) r) (p_keys r) /\
  (p_force r = false -> forall kb, In kb (p_keys r) ->
     lock_answer (writes_of (run cmds) (fst kb)) r =
     PRNormal (nonempty (hist_read (history (run cmds) (fst kb)) (p_for_update r)))
              (is_some (nonempty (hist_read (history (run cmds) (fst kb)) (p_for_update r))))).

Lemma locking_read cmds r rs : p_return_values r = true -> snd (step (run cmds) (PessLock r)) = RPess [] rs ->
  locking_read_stmt cmds r rs.
Proof.
  intros Hrv Hst. pose proof (proj2 (run_sorted cmds)) as Hd.
  destruct (pess_lock_resp _ _ _ Hst) as [acc [rs0 [Ea Ers]]]. rewrite (Ers Hrv).
  destruct (pess_lock_all_ok _ _ _ _ _ _ Ea) as [Hok Hrs]. split.
  - rewrite Hrs. apply map_ext_in. intros kb Hin. destruct (Hok kb Hin) as [res [o Hk]]. rewrite Hk.
    eapply pess_lock_key_answer; [apply Hd|exact Hrv|exact Hk].
  - (* not forced: an accepted request found no record above its for-update ts *)
    intros Hf kb Hin. destruct (Hok kb Hin) as [res [o Hk]].
    destruct (pess_lock_key_ok _ _ _ _ _ _ Hk) as [_ [v [cf [Hc _]]]]. rewrite Hf in Hc.
    pose proof (ccv_ok_below _ _ _ _ _ _ (Hd (fst kb)) Hc) as Hle. cbn [c_for_update] in Hle.
    unfold lock_answer, writes_of. rewrite <- read_is_history.
    assert (p_for_update r <? head_commit (ks_writes (get_ks (run cmds) (fst kb))) = false) as ->; [|reflexivity].
    apply N.ltb_ge. destruct (ks_writes (get_ks (run cmds) (fst kb))) as [|w0 r0]; cbn [head_commit]; [lia|]. apply Hle. left; reflexivity.
Qed.

Lemma ghost_run_app : forall x g st y, ghost_run g st (x ++ y) = ghost_run (ghost_run g st x) (run_from st x) y.
Proof. induction x as [|c r IH]; intros g st y; [reflexivity|]. cbn [app ghost_run run_from fold_left]. apply IH. Qed.

Lemma lock_point_pess cmds k l : lock_of (run cmds) k = Some l -> is_pess l = true ->
  lock_point cmds k (l_start l) = l_for_update l.
Proof.
  (* the empty store holds no lock; otherwise the last step has set the lock point *)
  induction cmds as [|c cmds _] using rev_ind; [discriminate|].
  intros El Hp. unfold lock_point. rewrite ghost_run_app. cbn [ghost_run]. unfold ghost_upd, gk_upd.
  change (run_from [] cmds) with (run cmds). rewrite run_app in El. cbn [run_from fold_left] in El.
  rewrite El, N.eqb_refl, Hp. reflexivity.
Qed.
