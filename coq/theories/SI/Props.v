(* SI/Props.v — theorems of property C01 (snapshot isolation and external consistency), over the MVCC store
   model Mvcc/Model.v ([step], [run]) for ALL command sequences obeying the timestamp discipline [oracle_ts]
   (Mvcc/Spec.v), plus an abstract event order for external consistency. Definitions: SI/Model.v. *)
From Verif Require Import SI.Model SI.ProofsTrans SI.ProofsRead SI.ProofsKeyed SI.AsyncStore SI.TwoPC SI.Committer SI.ProofsWW SI.ProofsIns SI.ProofsInsPoint SI.ProofsLockRead SI.Resolver SI.Push SI.ProofsExt SI.ProofsOracle.

(* ---- 1. reads are a function of the committed history restricted to commit ts <= read ts *)
(* a point get on any reachable store answers either the history read at its read ts (at [eff_ts], which is the
   read ts unless it is the max-ts sentinel) or Locked, and Locked only for a Put/Delete lock with start <= ts
   that is not in the resolved list *)
Theorem C01_snapshot_read : forall cmds k t rs,
  match get (run cmds) k t rs with
  | RGet v => v = hist_read_full (history (run cmds) k) (eff_ts (run cmds) k t) /\ (t <> max_ts -> eff_ts (run cmds) k t = t)
  | RErr (Some (ELocked k' l)) =>
    k' = k /\ lock_of (run cmds) k = Some l /\ l_start l <= t /\ data_lock l = true /\ existsb (N.eqb (l_start l)) rs = false
  | _ => False
  end.
Proof. exact snapshot_read. Qed.
Print Assumptions C01_snapshot_read.

Theorem C01_read_is_history : forall cmds k t, read_at (run cmds) k t = hist_read (history (run cmds) k) t.
Proof. exact read_is_history. Qed.
Print Assumptions C01_read_is_history.

(* [hist_read] is the value of the record of greatest commit ts <= t, independent of the order of the list *)
Theorem C01_hist_read_newest : forall h t,
  match hist_newest h t with
  | Some r => In r h /\ h_commit r <= t /\ forall x, In x h -> h_commit x <= t -> h_commit x <= h_commit r
  | None => forall x, In x h -> t < h_commit x
  end.
Proof. exact hist_newest_max. Qed.
Print Assumptions C01_hist_read_newest.

(* later commands that satisfy the stability predicate never change what a read of k at t sees *)
Theorem C01_read_stable : forall a b k t, oracle_ts (a ++ b) = true -> stable_suffix (run a) k t b = true ->
  read_at (run (a ++ b)) k t = read_at (run a) k t.
Proof. exact read_stable. Qed.
Print Assumptions C01_read_stable.

(* the stability predicate follows from the client / reader rules (no GC above t; a transaction prewriting k after
   the read commits above t - via min_commit_ts > t or directly; the Put/Delete lock the reader passed commits above t) *)
Theorem C01_stable_from_rules : forall a b k t, oracle_ts (a ++ b) = true -> reader_rules (run a) k t b = true ->
  stable_suffix (run a) k t b = true.
Proof. exact rules_imply_stable. Qed.
Print Assumptions C01_stable_from_rules.

(* per-key form: only the pairs a command applies to key k count (a commit of the lock holder on OTHER keys is free) *)
Theorem C01_read_stable_key : forall a b k t, oracle_ts (a ++ b) = true -> stable_suffix_k (run a) k t b = true ->
  read_at (run (a ++ b)) k t = read_at (run a) k t.
Proof. exact read_stable_k. Qed.
Print Assumptions C01_read_stable_key.

(* async commit / 1PC from the store's mechanics (SI/AsyncStore.v: max_ts, min_commit_ts = max(requested, max_ts + 1)
   recorded with the lock, commit / resolve refused below it, 1PC committing at it): after a read of k at t was served
   (max_ts >= t), no sequence of requests changes that read - with NO hypothesis on the async prewrites and 1PC
   requests; requests of the base protocol (2PC) keep the rules of C01_stable_from_rules *)
Theorem C01_async_read_stable : forall a b k t,
  oracle_ts (abase_run a0 a ++ abase_run (arun a) b) = true -> t <= a_max (arun a) ->
  forallb (gc_ok t) (abase_run (arun a) b) = true ->
  forallb (base_rule k t (flat_map cmd_pairs (abase_run (arun a) b))) b = true ->
  met_rule (a_st (arun a)) k t (flat_map cmd_pairs (abase_run (arun a) b)) = true ->
  a_st (arun (a ++ b)) = run (abase_run a0 a ++ abase_run (arun a) b) /\
  read_at (a_st (arun (a ++ b))) k t = read_at (a_st (arun a)) k t.
Proof. exact async_read_stable. Qed.
Print Assumptions C01_async_read_stable.

Theorem C01_async_served_read_bumps_max_ts : forall a k t rs, t <> max_ts -> t <= a_max (astep a (ABase (Get k t rs))).
Proof. exact served_get_max. Qed.
Print Assumptions C01_async_served_read_bumps_max_ts.

(* per-region max_ts: the store of C01_async_read_stable is ONE region; [ATransfer m] moves its leader (max_ts := whatever
   the new leader had seen, not synced: async prewrites / 1PC are refused, MaxTimestampNotSynced), [ARefresh f] installs a
   fresh oracle ts and re-enables them. C01_async_read_stable holds across any number of moves; its only demand on a
   refresh is t <= f ([base_rule]), which the joint-trace rules give (the refresh ts is the one just fetched): *)
Theorem C01_async_refresh_rule : forall t tr a T ret, jrules a T ret tr = true -> t <= T ->
  forallb (fun c => match c with ARefresh f => t <=? f | _ => true end) (reqs_of tr) = true.
Proof. exact jrules_refresh. Qed.
Print Assumptions C01_async_refresh_rule.

(* 2PC with no oracle-order hypothesis (SI/TwoPC.v): along a joint trace of oracle issues, store requests and
   acknowledgements the rules [trules] are checked - (T1) oracle strictly increasing, (T2) a commit ts carried by a commit /
   resolve request was issued after every prewrite of its transaction that placed a lock on k was executed, (T3) an
   acknowledged commit ts had been issued; the reader's ts was issued before the read was sent. Then the stability
   predicate holds and the read never changes. Left: GC safe point, the lock met at read time, oracle_ts. *)
Theorem C01_twopc_read_stable : forall A B k t,
  trules k [] 0 [] (A ++ B) = true -> t <= tlast 0 A ->
  oracle_ts (cmds_of A ++ cmds_of B) = true -> forallb (gc_ok t) (cmds_of B) = true ->
  met_rule (run (cmds_of A)) k t (flat_map cmd_pairs (cmds_of B)) = true ->
  stable_suffix (run (cmds_of A)) k t (cmds_of B) = true /\
  read_at (run (cmds_of A ++ cmds_of B)) k t = read_at (run (cmds_of A)) k t.
Proof. exact twopc_read_stable. Qed.
Print Assumptions C01_twopc_read_stable.

(* ---- 2. write-write: committed records of two transactions on one key have disjoint
   [lock point, commit ts] intervals; lock point = for-update ts of the pessimistic lock, else the start ts *)
Theorem C01_ww_disjoint : forall cmds, oracle_ts cmds = true -> ww_discipline cmds = true ->
  forall k w1 w2, In w1 (writes_of (run cmds) k) -> In w2 (writes_of (run cmds) k) ->
    is_rollback w1 = false -> is_rollback w2 = false -> w_start w1 <> w_start w2 ->
    w_commit w1 < lock_point cmds k (w_start w2) \/ w_commit w2 < lock_point cmds k (w_start w1).
Proof. exact ww_disjoint. Qed.
Print Assumptions C01_ww_disjoint.

Theorem C01_lock_point_optimistic : forall cmds k s, no_pess cmds = true -> lock_point cmds k s = s.
Proof. exact lock_point_opt. Qed.
Print Assumptions C01_lock_point_optimistic.

(* locking reads: a successful pessimistic lock request with return_values answers, key by key and in order,
   [lock_answer]: not forced - the history read at the for-update ts (an empty Put value reads as none) with its existence
   flag; forced (fair locking) with a record above the for-update ts - the newest committed value together with the
   conflict ts (the commit ts of the newest record, > for-update ts: LockedWithConflictTS) *)
Theorem C01_locking_read : forall cmds r rs,
  p_return_values r = true -> snd (step (run cmds) (PessLock r)) = RPess [] rs ->
  rs = map (fun kb => lock_answer (writes_of (run cmds) (fst kb)) r) (p_keys r) /\
  (p_force r = false -> forall kb, In kb (p_keys r) ->
     lock_answer (writes_of (run cmds) (fst kb)) r =
     PRNormal (nonempty (hist_read (history (run cmds) (fst kb)) (p_for_update r)))
              (is_some (nonempty (hist_read (history (run cmds) (fst kb)) (p_for_update r))))).
Proof. exact locking_read. Qed.
Print Assumptions C01_locking_read.

(* ... and the lock then excludes other commits: in every reachable store a record of another transaction that is older
   than the owner's commit is older than the owner's lock point - nothing else commits on the key in
   [lock point, owner's commit); while the pessimistic lock is held the lock point is its for-update ts *)
Theorem C01_lock_excludes_commits : forall cmds, oracle_ts cmds = true -> ww_discipline cmds = true ->
  forall k w1 w2, In w1 (writes_of (run cmds) k) -> In w2 (writes_of (run cmds) k) ->
    is_rollback w1 = false -> is_rollback w2 = false -> w_start w1 <> w_start w2 -> w_commit w1 < w_commit w2 ->
    w_commit w1 < lock_point cmds k (w_start w2).
Proof. exact lock_excludes. Qed.
Print Assumptions C01_lock_excludes_commits.

Theorem C01_lock_point_pessimistic : forall cmds c k l, lock_of (run (cmds ++ [c])) k = Some l -> is_pess l = true ->
  lock_point (cmds ++ [c]) k (l_start l) = l_for_update l.
Proof. exact (fun cmds c => lock_point_pess (cmds ++ [c])). Qed.
Print Assumptions C01_lock_point_pessimistic.

(* ---- 3. insert semantics *)
Theorem C01_insert_semantics :
  (forall st ms p s ttl mc ao m vc,
      In m ms -> is_insert m = true -> get st (m_key m) s [] = RGet (Some vc) ->
      exists es, step st (Prewrite ms p s 0 ttl mc ao) = (st, RErrs es)
                 /\ In (Some (EAlreadyExist (m_key m))) es /\ has_err es = true) /\
  (forall st ms p s ttl mc ao m es,
      In m ms -> is_insert m = true -> snd (step st (Prewrite ms p s 0 ttl mc ao)) = RErrs es -> has_err es = false ->
      get st (m_key m) s [] = RGet None \/ exists l, lock_of st (m_key m) = Some l /\ l_start l = s) /\
  (forall cmds r k rs,
      p_force r = false -> In (k, true) (p_keys r) -> snd (step (run cmds) (PessLock r)) = RPess [] rs ->
      read_at (run cmds) k (p_for_update r) = None).
Proof. exact (conj insert_exists_rejected (conj insert_accepted_absent pess_insert_absent)). Qed.
Print Assumptions C01_insert_semantics.

(* a committed insert, optimistic (checked by the prewrite at the start ts) or pessimistic (checked by the lock request
   at the for-update ts, the lock excluding other commits up to the commit): in every reachable store the key has no
   value just below the insert's commit ts (the history oracle's insert clause, evaluated on the final history) *)
Theorem C01_insert_commit_point : forall cmds k s,
  oracle_ts cmds = true -> ww_discipline cmds = true -> ins_discipline cmds k s = true ->
  forall w, In w (writes_of (run cmds) k) -> w_start w = s -> w_kind w = WPut ->
    hist_read (history (run cmds) k) (w_commit w - 1) = None.
Proof. exact insert_commit_point. Qed.
Print Assumptions C01_insert_commit_point.

(* ---- 4. external consistency: oracle strictly increasing, start ts fetched inside Begin, acknowledged commit
   ts at most d above a timestamp issued before the acknowledgement (d = 0: 2PC, d = 1: async commit / 1PC),
   every Begin call of y after the acknowledgement of x: then commit(x) < start(y) + d.
   This is the "rules => order" form over an abstract event list: [commit_rule d] is a hypothesis here; it is DERIVED from the
   committer model for 2PC (C01_committer_external_consistency) and from the store mechanics for async commit / 1PC
   (C01_async_external_consistency) *)
Theorem C01_external_consistency : forall tr d j x c r y s,
  oracle_monotonic tr = true -> begin_rule tr = true -> commit_rule d tr = true ->
  nth_error tr j = Some (EvAck x c) -> nth_error tr r = Some (EvBeginRet y s) -> begins_after tr j y = true ->
  c < s + d.
Proof. exact ext_consistent. Qed.
Print Assumptions C01_external_consistency.

(* 2PC, trace-rule form: "trace rule => order". [trules] CHECKS at TAck that the commit ts had been issued (c <= T) and at TTso
   that the oracle increases, so this statement is arithmetic on the rule the property demands of the client; the rule
   itself is derived from the committer model in C01_committer_trules / C01_committer_external_consistency below, and is
   checked on the implementation's traces by the txn harness (C04 acceptor: GetTs after the prewrite acks) *)
Theorem C01_twopc_external_consistency : forall k p c q s r,
  trules k [] 0 [] (p ++ TAck c :: q ++ TTso s :: r) = true -> c < s.
Proof. exact (fun k => twopc_external_consistency k [] 0 []). Qed.
Print Assumptions C01_twopc_external_consistency.

(* 2PC from the CLIENT MODEL (SI/Committer.v): [maccept] generates the joint traces of modelled committers - prewrites only
   before the commit ts is fetched, the commit ts IS the oracle's answer to the committer's own request, commit requests
   carry exactly it, success is acknowledged only after a commit request succeeded; everybody else's requests carry no
   commit ts. Every generated trace obeys the trace rules [trules] for every key (T2, T3 derived; T1 = the oracle is
   strictly increasing stays an assumption about PD, checked by the acceptor) ... *)
Theorem C01_committer_trules : forall tr k, maccept [] 0 [] tr = true -> trules k [] 0 [] (map to_tev tr) = true.
Proof. exact committer_trules. Qed.
Print Assumptions C01_committer_trules.

(* ... hence: every timestamp issued after a modelled 2PC committer returned success is above its commit ts ... *)
Theorem C01_committer_external_consistency : forall p x c q s r,
  maccept [] 0 [] (p ++ MAck x c :: q ++ MTso s :: r) = true -> c < s.
Proof. exact committer_external_consistency. Qed.
Print Assumptions C01_committer_external_consistency.

(* ... and reads are stable in every trace of modelled committers (left: GC safe point, the lock met, oracle_ts) *)
Theorem C01_committer_read_stable : forall A B k t,
  maccept [] 0 [] (A ++ B) = true -> t <= tlast 0 (map to_tev A) ->
  oracle_ts (cmds_of (map to_tev A) ++ cmds_of (map to_tev B)) = true -> forallb (gc_ok t) (cmds_of (map to_tev B)) = true ->
  met_rule (run (cmds_of (map to_tev A))) k t (flat_map cmd_pairs (cmds_of (map to_tev B))) = true ->
  read_at (run (cmds_of (map to_tev A) ++ cmds_of (map to_tev B))) k t = read_at (run (cmds_of (map to_tev A))) k t.
Proof. exact committer_read_stable. Qed.
Print Assumptions C01_committer_read_stable.

(* async commit / 1PC: commit_rule 1 is not assumed but derived from the store mechanics along a joint trace of oracle
   issues, store requests and acknowledgements ([jrules]: oracle increasing; request timestamps were issued earlier,
   requested min_commit_ts <= latest + 1; the acknowledged commit ts is a min_commit_ts the store returned):
   every timestamp issued after the acknowledgement - in particular a later Begin's start ts - is >= the commit ts *)
Theorem C01_async_external_consistency : forall p c q s r,
  jrules a0 0 [] (p ++ JAck c :: q ++ JTso s :: r) = true -> c <= s.
Proof. exact async_external_consistency. Qed.
Print Assumptions C01_async_external_consistency.

(* ---- 5. the history oracle is sound: observations produced by point gets on the intermediate stores (or by own
   writes) are accepted by the checker run on the FINAL committed history *)
Theorem C01_history_oracle_sound : forall cmds obs, oracle_ts cmds = true -> Forall (served cmds) obs ->
  si_ok (full_history (run cmds)) obs = true.
Proof. exact history_oracle_sound. Qed.
Print Assumptions C01_history_oracle_sound.

Theorem C01_history_oracle_sound_rules : forall cmds obs, oracle_ts cmds = true -> Forall (served_by_rules cmds) obs ->
  si_ok (full_history (run cmds)) obs = true.
Proof. exact history_oracle_sound_rules. Qed.
Print Assumptions C01_history_oracle_sound_rules.

(* range reads: the scan checker of the oracle differential accepts exactly the complete answers *)
Theorem C01_scan_ok_exact : forall H o, scan_ok H o = true <->
  so_res o = flat_map (fun k => match scan_expect H o k with Some v => [(k, v)] | None => [] end) (so_keys o).
Proof. exact scan_ok_exact. Qed.
Print Assumptions C01_scan_ok_exact.

(* ---- 6. the resolver's status cache ([determined] = TxnStatus.StatusCacheable / IsStatusDetermined) *)
(* (A) an answer the client may memoise is final in the store: the commit record with that commit ts, resp. the rollback
   record, lies on the checked key. Locks carry a positive TTL (client-go: >= 3 s; see ex_ttl0_not_final). *)
Theorem C01_status_cacheable_final : forall cmds k s caller cur rine rp d,
  oracle_ts (cmds ++ [CheckTxnStatus k s caller cur rine rp]) = true ->
  (forall l, lock_of (run cmds) k = Some l -> 0 < l_ttl l) ->
  determined (snd (step (run cmds) (CheckTxnStatus k s caller cur rine rp))) = Some d ->
  record_is (run (cmds ++ [CheckTxnStatus k s caller cur rine rp])) k s d = true.
Proof. exact cacheable_final. Qed.
Print Assumptions C01_status_cacheable_final.

(* (A') with the TTL hypothesis as a discipline on the command sequence: every prewrite / pessimistic lock request carries a
   positive TTL (invariant: every lock in the store has one) *)
Theorem C01_status_cacheable_final_disc : forall cmds k s caller cur rine rp d,
  oracle_ts (cmds ++ [CheckTxnStatus k s caller cur rine rp]) = true -> ttl_discipline cmds = true ->
  determined (snd (step (run cmds) (CheckTxnStatus k s caller cur rine rp))) = Some d ->
  record_is (run (cmds ++ [CheckTxnStatus k s caller cur rine rp])) k s d = true.
Proof. exact cacheable_final_disc. Qed.
Print Assumptions C01_status_cacheable_final_disc.

(* (B) the memoised answer remains the store's answer: after any further commands (no GC over the start ts, no destroyed
   range) a status check of that transaction changes nothing and answers the same determined status *)
Theorem C01_memo_agrees : forall a b k s d caller cur rine rp,
  oracle_ts (a ++ b) = true -> record_is (run a) k s d = true -> (forall c, In c b -> is_gc_over c s = false) ->
  exists r, step (run (a ++ b)) (CheckTxnStatus k s caller cur rine rp) = (run (a ++ b), r) /\ determined r = Some d.
Proof. exact memo_agrees. Qed.
Print Assumptions C01_memo_agrees.

(* (C) a resolver that skips the request because of a memoised final answer produces the same store, hence the same
   committed history and the same verdict of the history checker, as one that asks again *)
Theorem C01_memo_same_history : forall a b k s d caller cur rine rp obs,
  oracle_ts (a ++ CheckTxnStatus k s caller cur rine rp :: b) = true -> record_is (run a) k s d = true ->
  determined (snd (step (run a) (CheckTxnStatus k s caller cur rine rp))) = Some d /\
  run (a ++ CheckTxnStatus k s caller cur rine rp :: b) = run (a ++ b) /\
  si_ok (full_history (run (a ++ CheckTxnStatus k s caller cur rine rp :: b))) obs = si_ok (full_history (run (a ++ b))) obs.
Proof. exact memo_skip. Qed.
Print Assumptions C01_memo_same_history.

(* ---- 7. the (met) rule derived: a reader may pass a Put/Delete lock of s once CheckTxnStatus pushed the min_commit_ts of
   s's primary above its ts *)
(* the store side of the push: answer MinCommitTSPushed for caller ts t on a prewrite lock => primary's min_commit_ts > t *)
Theorem C01_cts_pushes : forall st kp s t cur rine rp ttl, Mvcc.ProofsStore.keys_sorted st -> t <> max_ts ->
  (forall lp, lock_of st kp = Some lp -> is_pess lp = false) ->
  snd (step st (CheckTxnStatus kp s t cur rine rp)) = RStatus ttl 0 AMinCommitTSPushed ->
  pushed (fst (step st (CheckTxnStatus kp s t cur rine rp))) kp s t = true.
Proof. exact cts_pushes. Qed.
Print Assumptions C01_cts_pushes.

(* joint trace as in C01_twopc_read_stable; the lock met on k may belong to s, whose primary kp is pushed above t on the
   store the read is served on. Rules for what follows: [trules] (T1-T3) and [prules]: a (start, commit) pair of s is
   carried only by a commit request naming the primary or once the primary holds that commit record (C04: secondaries are
   committed, and resolvers act, only after the primary is committed / on the status it reported), no GC over s. The
   store refuses a primary commit below min_commit_ts (a refused request is a no-op: [stable_suffix_e]), min_commit_ts never
   decreases while the lock is held, and one transaction has one commit ts: the read never changes. *)
Theorem C01_pushed_read_stable : forall A B k kp s t,
  trules k [] 0 [] (A ++ B) = true -> prules kp s (run (cmds_of A)) B = true -> t <= tlast 0 A ->
  oracle_ts (cmds_of A ++ cmds_of B) = true -> forallb (gc_ok t) (cmds_of B) = true ->
  pushed (run (cmds_of A)) kp s t = true -> met_rule_p (run (cmds_of A)) k s t (flat_map cmd_pairs (cmds_of B)) = true ->
  stable_suffix_e (run (cmds_of A)) k t (cmds_of B) = true /\
  read_at (run (cmds_of A ++ cmds_of B)) k t = read_at (run (cmds_of A)) k t.
Proof. exact pushed_read_stable. Qed.
Print Assumptions C01_pushed_read_stable.

Theorem C01_read_stable_noop : forall a b k t, oracle_ts (a ++ b) = true -> stable_suffix_e (run a) k t b = true ->
  read_at (run (a ++ b)) k t = read_at (run a) k t.
Proof. exact read_stable_e. Qed.
Print Assumptions C01_read_stable_noop.

(* the history oracle over ONE joint trace with many readers: every observation is an own write, or a point get served at
   some cut A | B of the trace under the rules of C01_twopc_read_stable, or of C01_pushed_read_stable; then the checker run
   on the FINAL committed history accepts them all - no stability predicate, no oracle-order hypothesis *)
Theorem C01_history_oracle_sound_trace : forall tr obs, oracle_ts (cmds_of tr) = true -> Forall (served_trace tr) obs ->
  si_ok (full_history (run (cmds_of tr))) obs = true.
Proof. exact history_oracle_sound_trace. Qed.
Print Assumptions C01_history_oracle_sound_trace.

(* the client glue (getTxnStatus, differentially tested against the code by driver `sistatus`): only cacheable statuses
   are ever memoised; a hit answers the memoised status without a request; a miss sends one and memoises iff cacheable;
   cacheable = committed or rolled back *)
Theorem C01_memo_glue : forall cache txn ans, Forall (fun e => cacheable (snd e) = true) cache ->
  let '(v, cache', sent) := get_txn_status cache txn ans in
  Forall (fun e => cacheable (snd e) = true) cache' /\
  (sent = false -> memo_get cache txn = Some v /\ cache' = cache /\ cacheable v = true) /\
  (sent = true -> memo_get cache txn = None /\ v = cview ans /\ memo_get cache' txn = (if cacheable v then Some v else None)).
Proof. exact get_txn_status_inv. Qed.
Print Assumptions C01_memo_glue.

Theorem C01_cacheable_spec : forall v, cacheable v = cs_committed v || cs_rolledback v.
Proof. exact cacheable_spec. Qed.
Print Assumptions C01_cacheable_spec.

(* the loop around it (getTxnStatusFromLock, driven by `sistatus` mode L), for ALL scripts of store answers: only cacheable
   statuses are memoised; rollback_if_not_exist is requested only for a lock whose TTL has expired (C04: "CheckTxnStatus with
   rollback_if_not_exist only if the lock's ttl elapsed"); current ts = max exactly for the TTL-0 protocol; a final result is
   the memoised one; a non-final result (alive, pushed, do-nothing, the synthetic "alive with the lock's own TTL" for a live
   pessimistic lock whose primary is not found) leaves the cache untouched *)
Theorem C01_status_from_lock : forall cache l script, Forall (fun e => cacheable (snd e) = true) cache ->
  let '(r, c', rqs, lft) := status_from_lock cache l script in
  Forall (fun e => cacheable (snd e) = true) c' /\
  (forall rq, In rq rqs -> (rq_rine rq = true -> li_expired l = true) /\ rq_cur_max rq = (li_ttl l =? 0) /\ rq_pess rq = li_pess l) /\
  (forall v, r = SrStatus v -> cacheable v = true -> memo_get c' (li_txn l) = Some v) /\
  (forall v, r = SrStatus v -> cacheable v = false -> c' = cache).
Proof. exact status_from_lock_spec. Qed.
Print Assumptions C01_status_from_lock.

(* ------------------------------------------------------------------ non-vacuity *)
Definition T (r : N) : N := r * 262144.
Definition ex_cmds : list cmd :=
  [ Prewrite [mkMut MPut 1 17 AsNone false] 1 (T 1) 0 1 0 false; Commit [1] (T 1) (T 3);       (* T1 writes k1, [1,3] *)
    Get 1 (T 5) [];                                                                              (* reader at 5 *)
    PessLock (mkPessReq [(1, false)] 1 (T 2) (T 6) 3 0 true false false false true);            (* T2 started at 2 < 3, locks at 6 *)
    Prewrite [mkMut MPut 1 33 AsNone true] 1 (T 2) (T 6) 1 0 false; Commit [1] (T 2) (T 8);
    Get 1 (T 5) []; Get 1 (T 9) [];
    Prewrite [mkMut MInsert 2 44 AsNone false] 2 (T 10) 0 1 0 false; Commit [2] (T 10) (T 11);   (* insert of an absent key *)
    Prewrite [mkMut MInsert 1 55 AsNone false] 1 (T 12) 0 1 0 false;                             (* insert of a present key *)
    PessLock (mkPessReq [(3, true)] 3 (T 13) (T 14) 3 0 false true false false true);            (* pessimistic insert of k3 *)
    Prewrite [mkMut MInsert 3 66 AsNone true] 3 (T 13) (T 14) 1 0 false; Commit [3] (T 13) (T 15) ].
Example ex_discipline : oracle_ts ex_cmds = true /\ ww_discipline ex_cmds = true.
Proof. vm_compute. split; reflexivity. Qed.
Example ex_read : get (run (firstn 2 ex_cmds)) 1 (T 5) [] = RGet (Some (17, T 3))
  /\ reader_rules (run (firstn 2 ex_cmds)) 1 (T 5) (skipn 2 ex_cmds) = true
  /\ stable_suffix (run (firstn 2 ex_cmds)) 1 (T 5) (skipn 2 ex_cmds) = true
  /\ hist_read (history (run ex_cmds) 1) (T 5) = Some 17 /\ hist_read (history (run ex_cmds) 1) (T 9) = Some 33.
Proof. vm_compute. repeat split. Qed.
Example ex_ww : writes_of (run ex_cmds) 1 = [mkWrite WPut (T 2) (T 8) 33; mkWrite WPut (T 1) (T 3) 17]
  /\ lock_point ex_cmds 1 (T 2) = T 6 /\ lock_point ex_cmds 1 (T 1) = T 1 /\ T 3 < T 6.
Proof. vm_compute. repeat split. Qed.
Example ex_locking_read :
  snd (step (run (firstn 3 ex_cmds)) (nth 3 ex_cmds (GC 0 0 0))) = RPess [] [PRNormal (Some 17) true]
  /\ snd (step (run (firstn 3 ex_cmds)) (PessLock (mkPessReq [(1, false); (2, false)] 1 (T 2) (T 2) 3 0 true false false true true)))
     = RPess [] [PRConflict (Some 17) true (T 3); PRNormal None false]                  (* forced: conflict ts 3 > for-update ts 2 *)
  /\ lock_point (firstn 4 ex_cmds) 1 (T 2) = T 6.
Proof. vm_compute. repeat split. Qed.
Example ex_insert : snd (step (run (firstn 8 ex_cmds)) (nth 8 ex_cmds (GC 0 0 0))) = RErrs [None]
  /\ step (run (firstn 10 ex_cmds)) (nth 10 ex_cmds (GC 0 0 0)) = (run (firstn 10 ex_cmds), RErrs [Some (EAlreadyExist 1)]).
Proof. vm_compute. split; reflexivity. Qed.
Example ex_insert_point_pess : ins_discipline ex_cmds 3 (T 13) = true /\ lock_point ex_cmds 3 (T 13) = T 14
  /\ writes_of (run ex_cmds) 3 = [mkWrite WPut (T 13) (T 15) 66] /\ hist_read (history (run ex_cmds) 3) (T 15 - 1) = None.
Proof. vm_compute. repeat split. Qed.
Example ex_insert_point : ins_discipline ex_cmds 2 (T 10) = true
  /\ writes_of (run ex_cmds) 2 = [mkWrite WPut (T 10) (T 11) 44] /\ hist_read (history (run ex_cmds) 2) (T 11 - 1) = None.
Proof. vm_compute. repeat split. Qed.
Definition ex_obs : list read_obs :=
  [ mkObs (T 5) 1 None (Some 17); mkObs (T 9) 1 None (Some 33); mkObs (T 2) 1 None None; mkObs (T 9) 1 (Some None) None;
    mkObs (T 12) 2 None (Some 44) ].
Example ex_si_ok : si_ok (full_history (run ex_cmds)) ex_obs = true
  /\ si_ok (full_history (run ex_cmds)) [mkObs (T 5) 1 None (Some 33)] = false      (* a stale / future read is refused *)
  /\ si_ok (full_history (run ex_cmds)) [mkObs (T 9) 1 None None] = false.
Proof. vm_compute. repeat split. Qed.
Example ex_scan_ok : scan_ok (full_history (run ex_cmds)) (mkScan (T 9) [1; 2; 3] [] [(1, 33)]) = true
  /\ scan_ok (full_history (run ex_cmds)) (mkScan (T 16) [1; 2; 3] [(2, None)] [(1, 33); (3, 66)]) = true
  /\ scan_ok (full_history (run ex_cmds)) (mkScan (T 16) [1; 2; 3] [] [(1, 33); (3, 66)]) = false.     (* k2 missing *)
Proof. vm_compute. repeat split. Qed.
Example ex_served : served_by_rules ex_cmds (mkObs (T 5) 1 None (Some 17)).
Proof. eapply (sr_store ex_cmds _ 2%nat [] (Some (17, T 3))); try reflexivity. vm_compute. discriminate. Qed.
(* the stability hypothesis is needed: a reader that passes a Put lock with start <= ts (here by listing it as
   resolved) and a commit below the read ts afterwards change the answer *)
Definition ex_unstable : list cmd :=
  [ Prewrite [mkMut MPut 1 17 AsNone false] 1 (T 1) 0 1 0 false; Get 1 (T 5) [T 1]; Commit [1] (T 1) (T 3) ].
Example ex_unstable_changes : oracle_ts ex_unstable = true
  /\ get (run (firstn 1 ex_unstable)) 1 (T 5) [T 1] = RGet None
  /\ stable_suffix (run (firstn 1 ex_unstable)) 1 (T 5) (skipn 1 ex_unstable) = false
  /\ read_at (run (firstn 1 ex_unstable)) 1 (T 5) = None /\ read_at (run ex_unstable) 1 (T 5) = Some 17.
Proof. vm_compute. repeat split. Qed.
(* async commit: reader at 5, then an async prewrite of k1 by the transaction started at 4: the store answers
   min_commit_ts = 5 + 1, refuses its commit at 4 + 1 and accepts it at 8; the read at 5 is unchanged *)
Definition ex_async : list acmd :=
  [ ABase (Prewrite [mkMut MPut 1 17 AsNone false] 1 (T 1) 0 1 0 false); ABase (Commit [1] (T 1) (T 3));
    ABase (Get 1 (T 5) []);
    AsyncPrewrite [mkMut MPut 1 33 AsNone false] 1 (T 4) 0 1 0 false;
    ABase (Commit [1] (T 4) (T 4 + 1)); ABase (Commit [1] (T 4) (T 8)) ].
Example ex_async_run : a_max (arun (firstn 3 ex_async)) = T 5
  /\ returned_mc (arun (firstn 3 ex_async)) (nth 3 ex_async (ACheckSecondary [] 0)) = [T 5 + 1]
  /\ abase (arun (firstn 4 ex_async)) (nth 4 ex_async (ACheckSecondary [] 0)) = []
  /\ oracle_ts (abase_run a0 (firstn 3 ex_async) ++ abase_run (arun (firstn 3 ex_async)) (skipn 3 ex_async)) = true
  /\ forallb (base_rule 1 (T 5) (flat_map cmd_pairs (abase_run (arun (firstn 3 ex_async)) (skipn 3 ex_async)))) (skipn 3 ex_async) = true
  /\ read_at (a_st (arun ex_async)) 1 (T 5) = Some 17 /\ read_at (a_st (arun ex_async)) 1 (T 8) = Some 33.
Proof. vm_compute. repeat split. Qed.
(* the same across a leader transfer: the new leader knows nothing (max_ts 0), refuses the async prewrite until it is
   refreshed with a timestamp issued after the read; then min_commit_ts = 7 + 1 *)
Definition ex_async_move : list acmd :=
  [ ABase (Prewrite [mkMut MPut 1 17 AsNone false] 1 (T 1) 0 1 0 false); ABase (Commit [1] (T 1) (T 3));
    ABase (Get 1 (T 5) []);
    ATransfer 0; AsyncPrewrite [mkMut MPut 1 33 AsNone false] 1 (T 4) 0 1 0 false;
    ARefresh (T 7); AsyncPrewrite [mkMut MPut 1 33 AsNone false] 1 (T 4) 0 1 0 false;
    ABase (Commit [1] (T 4) (T 5)); ABase (Commit [1] (T 4) (T 8)) ].
Example ex_async_move_run :
  abase (arun (firstn 4 ex_async_move)) (nth 4 ex_async_move (ACheckSecondary [] 0)) = []
  /\ returned_mc (arun (firstn 6 ex_async_move)) (nth 6 ex_async_move (ACheckSecondary [] 0)) = [T 7 + 1]
  /\ abase (arun (firstn 7 ex_async_move)) (nth 7 ex_async_move (ACheckSecondary [] 0)) = []
  /\ oracle_ts (abase_run a0 (firstn 3 ex_async_move) ++ abase_run (arun (firstn 3 ex_async_move)) (skipn 3 ex_async_move)) = true
  /\ forallb (base_rule 1 (T 5) (flat_map cmd_pairs (abase_run (arun (firstn 3 ex_async_move)) (skipn 3 ex_async_move)))) (skipn 3 ex_async_move) = true
  /\ read_at (a_st (arun ex_async_move)) 1 (T 5) = Some 17 /\ read_at (a_st (arun ex_async_move)) 1 (T 8) = Some 33.
Proof. vm_compute. repeat split. Qed.
(* without the sync guard the read breaks: a refresh below the read ts (rule violated) lets the commit at 5 through *)
Example ex_async_move_bad :
  let bad := firstn 5 ex_async_move ++ [ARefresh (T 2); AsyncPrewrite [mkMut MPut 1 33 AsNone false] 1 (T 4) 0 1 0 false; ABase (Commit [1] (T 4) (T 4 + 1))] in
  forallb (base_rule 1 (T 5) []) (skipn 3 bad) = false /\ read_at (a_st (arun bad)) 1 (T 5) = Some 33.
Proof. vm_compute. split; reflexivity. Qed.
Example ex_jrules : jrules a0 0 [] [JTso 10; JReq (AsyncPrewrite [mkMut MPut 1 33 AsNone false] 1 10 0 1 11 false); JAck 11; JTso 20] = true
  /\ jrules a0 0 [] [JTso 10; JReq (OnePC [mkMut MPut 1 33 AsNone false] 1 10 0 1 0 false); JAck 9; JTso 11] = false.
Proof. vm_compute. split; reflexivity. Qed.
(* 2PC joint trace: writer T1 commits at 3, reader takes 5 and reads, writer started at 6 prewrites, fetches 8, commits *)
Definition ex_trace_A : list tev :=
  [ TTso (T 1); TReq (Prewrite [mkMut MPut 1 17 AsNone false] 1 (T 1) 0 1 0 false); TTso (T 3); TReq (Commit [1] (T 1) (T 3)); TAck (T 3);
    TTso (T 5); TReq (Get 1 (T 5) []) ].
Definition ex_trace_B : list tev :=
  [ TTso (T 6); TReq (Prewrite [mkMut MPut 1 33 AsNone false] 1 (T 6) 0 1 0 false); TTso (T 8); TReq (Commit [1] (T 6) (T 8)); TAck (T 8) ].
Example ex_trules : trules 1 [] 0 [] (ex_trace_A ++ ex_trace_B) = true /\ tlast 0 ex_trace_A = T 5
  /\ oracle_ts (cmds_of ex_trace_A ++ cmds_of ex_trace_B) = true /\ forallb (gc_ok (T 5)) (cmds_of ex_trace_B) = true
  /\ met_rule (run (cmds_of ex_trace_A)) 1 (T 5) (flat_map cmd_pairs (cmds_of ex_trace_B)) = true
  /\ pl_run 1 [] 0 [] (ex_trace_A ++ ex_trace_B) = [(T 6, T 6); (T 1, T 1)].
Proof. vm_compute. repeat split. Qed.
(* the same history generated by the committer model; a committer that fetches its commit ts before prewriting is not one *)
Definition ex_mtrace : list mev :=
  [ MTso (T 1); MPrewrite (T 1) (Prewrite [mkMut MPut 1 17 AsNone false] 1 (T 1) 0 1 0 false); MGetTs (T 1) (T 3);
    MCommit (T 1) (Commit [1] (T 1) (T 3)); MAck (T 1) (T 3); MTso (T 5); MOther (Get 1 (T 5) []);
    MTso (T 6); MPrewrite (T 6) (Prewrite [mkMut MPut 1 33 AsNone false] 1 (T 6) 0 1 0 false); MGetTs (T 6) (T 8);
    MCommit (T 6) (Commit [1] (T 6) (T 8)); MAck (T 6) (T 8) ].
Example ex_committer : maccept [] 0 [] ex_mtrace = true /\ map to_tev ex_mtrace = ex_trace_A ++ ex_trace_B
  /\ maccept [] 0 [] [MTso (T 4); MGetTs (T 4) (T 4 + 1); MPrewrite (T 4) (Prewrite [mkMut MPut 1 33 AsNone false] 1 (T 4) 0 1 0 false)] = false
  /\ maccept [] 0 [] [MTso (T 4); MPrewrite (T 4) (Prewrite [mkMut MPut 1 33 AsNone false] 1 (T 4) 0 1 0 false); MAck (T 4) (T 4 + 1)] = false.
Proof. vm_compute. repeat split. Qed.
(* (T2) is needed: a commit ts fetched before the prewrite was executed (here: before the reader's ts) breaks the read *)
Definition ex_trace_bad : list tev :=
  [ TTso (T 4); TTso (T 4 + 1); TTso (T 5); TReq (Get 1 (T 5) []);
    TReq (Prewrite [mkMut MPut 1 33 AsNone false] 1 (T 4) 0 1 0 false); TReq (Commit [1] (T 4) (T 4 + 1)) ].
Example ex_trules_bad : trules 1 [] 0 [] ex_trace_bad = false /\ oracle_ts (cmds_of ex_trace_bad) = true
  /\ read_at (run (cmds_of (firstn 4 ex_trace_bad))) 1 (T 5) = None /\ read_at (run (cmds_of ex_trace_bad)) 1 (T 5) = Some 33.
Proof. vm_compute. repeat split. Qed.
(* pushed primary: transaction 4 prewrites k1 (primary) and k2; the reader takes 5, has the primary's min_commit_ts pushed to
   5 + 1, passes the lock on k2 (resolved list) and reads nothing; the writer then commits at 8: k2 at 5 stays empty *)
Definition ex_push_A : list tev :=
  [ TTso (T 4); TReq (Prewrite [mkMut MPut 1 33 AsNone false; mkMut MPut 2 44 AsNone false] 1 (T 4) 0 3 (T 4 + 1) false);
    TTso (T 5); TReq (CheckTxnStatus 1 (T 4) (T 5) (T 5) false false); TReq (Get 2 (T 5) [T 4]) ].
Definition ex_push_B : list tev :=
  [ TTso (T 8); TReq (Commit [1] (T 4) (T 8)); TAck (T 8); TReq (Commit [2] (T 4) (T 8)) ].
Example ex_pushed :
  snd (step (run (cmds_of (firstn 3 ex_push_A))) (CheckTxnStatus 1 (T 4) (T 5) (T 5) false false)) = RStatus 3 0 AMinCommitTSPushed
  /\ get (run (cmds_of (firstn 4 ex_push_A))) 2 (T 5) [T 4] = RGet None
  /\ pushed (run (cmds_of ex_push_A)) 1 (T 4) (T 5) = true
  /\ trules 2 [] 0 [] (ex_push_A ++ ex_push_B) = true /\ prules 1 (T 4) (run (cmds_of ex_push_A)) ex_push_B = true
  /\ tlast 0 ex_push_A = T 5 /\ oracle_ts (cmds_of ex_push_A ++ cmds_of ex_push_B) = true
  /\ met_rule_p (run (cmds_of ex_push_A)) 2 (T 4) (T 5) (flat_map cmd_pairs (cmds_of ex_push_B)) = true
  /\ met_rule (run (cmds_of ex_push_A)) 2 (T 5) (flat_map cmd_pairs (cmds_of ex_push_B)) = true
  /\ read_at (run (cmds_of (ex_push_A ++ ex_push_B))) 2 (T 5) = None /\ read_at (run (cmds_of (ex_push_A ++ ex_push_B))) 2 (T 8) = Some 44.
Proof. vm_compute. repeat split. Qed.
Example ex_served_trace : served_trace (ex_push_A ++ ex_push_B) (mkObs (T 5) 2 None None)
  /\ si_ok (full_history (run (cmds_of (ex_push_A ++ ex_push_B)))) [mkObs (T 5) 2 None None; mkObs (T 8) 2 None (Some 44)] = true.
Proof.
  split; [|vm_compute; reflexivity].
  eapply (stt_push _ _ ex_push_A ex_push_B [T 4] None 1 (T 4)); try reflexivity. vm_compute. discriminate.
Qed.
(* a primary commit below the pushed min_commit_ts is refused as a whole - a no-op - also for the secondary in the batch *)
Example ex_pushed_refused :
  is_noop (run (cmds_of ex_push_A)) (Commit [1; 2] (T 4) (T 4 + 1)) = true
  /\ snd (step (run (cmds_of ex_push_A)) (Commit [1; 2] (T 4) (T 4 + 1))) = RErr (Some (ECommitTsExpired (T 5 + 1)))
  /\ safe_step (run (cmds_of ex_push_A)) (Commit [1; 2] (T 4) (T 4 + 1)) 2 (T 5) = false
  /\ safe_step_e (run (cmds_of ex_push_A)) (Commit [1; 2] (T 4) (T 4 + 1)) 2 (T 5) = true.
Proof. vm_compute. repeat split. Qed.
(* [prules] is needed: a secondary committed before the primary (below the pushed min_commit_ts) changes the read *)
Example ex_pushed_bad :
  prules 1 (T 4) (run (cmds_of ex_push_A)) [TReq (Commit [2] (T 4) (T 4 + 1))] = false
  /\ read_at (run (cmds_of ex_push_A ++ [Commit [2] (T 4) (T 4 + 1)])) 2 (T 5) = Some 44.
Proof. vm_compute. split; reflexivity. Qed.
(* getTxnStatusFromLock: an expired prewrite lock whose primary is not found is asked again with rollback_if_not_exist and
   the rollback answer is memoised; a live pessimistic lock is reported alive with its own TTL after one request *)
Example ex_from_lock :
  status_from_lock [] (mkLi 7 1 10000 false) [AnsNotFound; AnsStatus (0, 0, ALockNotExistRollback)]
  = (SrStatus (0, 0, ALockNotExistRollback), [(7, (0, 0, ALockNotExistRollback))], [mkReq false false false; mkReq true false false], [])
  /\ status_from_lock [] (mkLi 7 3600000 10000 true) [AnsNotFound; AnsStatus (0, 9, ANoAction)]
  = (SrStatus (3600000, 0, ANoAction), [], [mkReq false false true], [AnsStatus (0, 9, ANoAction)])
  /\ status_from_lock [] (mkLi 7 0 10000 false) [AnsStatus (0, 0, ATTLExpireRollback)]
  = (SrStatus (0, 0, ATTLExpireRollback), [(7, (0, 0, ATTLExpireRollback))], [mkReq false true false], []).
Proof. vm_compute. repeat split. Qed.
(* resolver cache: a committed answer is final ... *)
Example ex_status_final :
  let c := CheckTxnStatus 1 (T 1) (T 5) (T 5) true false in
  snd (step (run (firstn 2 ex_cmds)) c) = RStatus 0 (T 3) ANoAction
  /\ determined (snd (step (run (firstn 2 ex_cmds)) c)) = Some (DCommitted (T 3))
  /\ oracle_ts (firstn 2 ex_cmds ++ [c]) = true /\ ttl_discipline ex_cmds = true
  /\ record_is (run (firstn 2 ex_cmds)) 1 (T 1) (DCommitted (T 3)) = true
  /\ record_is (run ex_cmds) 1 (T 1) (DCommitted (T 3)) = true.
Proof. vm_compute. repeat split. Qed.
(* ... a LockNotExistDoNothing answer (pessimistic primary lock not there yet) is not: the transaction commits later.
   [determined] refuses it; memoising it as rolled back would contradict the store's later answer *)
Definition ex_dn : list cmd :=
  [ CheckTxnStatus 1 (T 2) (T 5) (T 5) true true;
    PessLock (mkPessReq [(1, false)] 1 (T 2) (T 6) 3 0 false false false false true);
    Prewrite [mkMut MPut 1 33 AsNone true] 1 (T 2) (T 6) 3 0 false; Commit [1] (T 2) (T 8);
    CheckTxnStatus 1 (T 2) (T 9) (T 9) true true ].
Example ex_do_nothing_not_final : oracle_ts ex_dn = true
  /\ snd (step [] (nth 0 ex_dn (GC 0 0 0))) = RStatus 0 0 ALockNotExistDoNothing
  /\ determined (snd (step [] (nth 0 ex_dn (GC 0 0 0)))) = None
  /\ determined (snd (step (run (firstn 4 ex_dn)) (nth 4 ex_dn (GC 0 0 0)))) = Some (DCommitted (T 8)).
Proof. vm_compute. repeat split. Qed.
(* the TTL hypothesis of (A) is needed: over a live lock with TTL 0 the store answers ttl 0 / NoAction, which the client
   reads as rolled back, although the transaction then commits (client-go never writes such a lock) *)
Definition ex_ttl0 : list cmd :=
  [ Prewrite [mkMut MPut 1 17 AsNone false] 1 (T 1) 0 0 0 false; CheckTxnStatus 1 (T 1) (T 1 + 5) (T 1 + 5) true false;
    Commit [1] (T 1) (T 3) ].
Example ex_ttl0_not_final : oracle_ts ex_ttl0 = true /\ ttl_discipline ex_ttl0 = false
  /\ determined (snd (step (run (firstn 1 ex_ttl0)) (nth 1 ex_ttl0 (GC 0 0 0)))) = Some DRolledBack
  /\ record_is (run (firstn 2 ex_ttl0)) 1 (T 1) DRolledBack = false
  /\ record_is (run ex_ttl0) 1 (T 1) (DCommitted (T 3)) = true.
Proof. vm_compute. repeat split. Qed.
(* event order: x commits (2PC) and is acknowledged, then y begins *)
Definition ex_trace : list ev :=
  [ EvBeginCall 1; EvTso 10; EvBeginRet 1 10; EvTso 20; EvAck 1 20; EvBeginCall 2; EvTso 30; EvBeginRet 2 30 ].
Example ex_events : oracle_monotonic ex_trace = true /\ begin_rule ex_trace = true /\ commit_rule 0 ex_trace = true
  /\ begins_after ex_trace 4 2 = true /\ nth_error ex_trace 4 = Some (EvAck 1 20) /\ nth_error ex_trace 7 = Some (EvBeginRet 2 30).
Proof. vm_compute. repeat split. Qed.
(* a Begin that was called before the acknowledgement (racing with it) is not constrained *)
Example ex_events_race : begins_after [EvBeginCall 2; EvTso 10; EvTso 20; EvAck 1 20; EvBeginRet 2 10] 3 2 = false.
Proof. vm_compute. reflexivity. Qed.
