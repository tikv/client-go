(* SI/Push.v — the (met) rule derived: a reader that passes a Put/Delete lock of transaction s because CheckTxnStatus
   pushed the min_commit_ts of s's primary lock above its ts t is safe - from the store's mechanics (commit refused
   below min_commit_ts, which never decreases while the lock is held) and the C04 rule "secondaries and resolvers act
   only after the primary is committed" ([pf_ok]). A refused commit is a no-op ([is_noop], [stable_suffix_e]). *)
From Verif Require Import SI.Model SI.ProofsTrans SI.ProofsRead SI.ProofsOracle SI.TwoPC SI.Resolver
     Mvcc.ProofsStore Mvcc.ProofsKey Mvcc.ProofsStep Mvcc.ProofsMarker.

Lemma bfe_err_same st f : forall ks acc, resp_has_error (snd (batch_first_err st acc f ks)) = true ->
  fst (batch_first_err st acc f ks) = st.
Proof.
  induction ks as [|k0 r IH]; intros acc H; cbn [batch_first_err] in *; [discriminate|].
  destruct (f (get_ks st k0)); [reflexivity|apply IH; exact H].
Qed.
Lemma bfe_err_intro st f k0 e : forall ks acc, In k0 ks -> f (get_ks st k0) = KErr e ->
  resp_has_error (snd (batch_first_err st acc f ks)) = true.
Proof.
  induction ks as [|k1 r IH]; intros acc Hin He; [destruct Hin|]. cbn [batch_first_err].
  destruct (f (get_ks st k1)) as [e1|o] eqn:E1; [reflexivity|].
  destruct Hin as [Ek|Hin]; [subst k1; congruence|apply IH; assumption].
Qed.
Lemma noop_same st c : is_noop st c = true -> fst (step st c) = st.
Proof. destruct c; cbn [is_noop]; try discriminate. cbn [step]. apply bfe_err_same. Qed.

Lemma read_stable_e a b k t : oracle_ts (a ++ b) = true -> stable_suffix_e (run a) k t b = true ->
  read_at (run (a ++ b)) k t = read_at (run a) k t.
Proof.
  apply (read_stable_under (fun st c => safe_step_e st c k t) (fun st r => stable_suffix_e st k t r)); [reflexivity|].
  intros W st c HW Hwf Hc Hsafe. apply orb_true_iff in Hsafe.
  destruct Hsafe as [Hn|Hs]; [rewrite (noop_same _ _ Hn); reflexivity|eapply step_read_stable; eassumption].
Qed.

Section Primary.
  Variable W : world.
  Hypothesis HW : World_ok W.
  Variables (kp : key) (s t : ts).

  (* s's prewrite lock with min_commit_ts above t / s committed above t / s rolled back *)
  Definition pk (kst : kstate) : Prop :=
    (exists lp, ks_lock kst = Some lp /\ l_start lp = s /\ is_pess lp = false /\ t < l_min_commit lp)
    \/ (exists c, krec (ks_writes kst) s (DCommitted c) = true /\ t < c)
    \/ krec (ks_writes kst) s DRolledBack = true.

  Lemma lock_no_record kst lp d : wf_ks W kst -> ks_lock kst = Some lp -> l_start lp = s -> krec (ks_writes kst) s d = true -> False.
  Proof.
    intros Hwf El Es Hk. apply krec_elim in Hk. destruct Hk as [w [Hin [Ew _]]].
    destruct (wf_lock _ _ Hwf lp El) as [_ Hn]. apply Hn. rewrite Es, <- Ew. apply in_map; exact Hin.
  Qed.

  (* min_commit_ts never decreases while the lock is held; the lock goes only by the commit or the rollback of s *)
  Lemma ktrans_pk st c x : wf_ks W (get_ks st kp) -> cmd_in W c -> pf_ok kp s st c = true -> is_gc_over c s = false ->
    ktrans c kp (get_ks st kp) x -> pk (get_ks st kp) -> pk x.
  Proof.
    intros Hwf Hc Hpf Hgc Ht Hp.
    destruct Hp as [[lp [El [Es [Epe Hmc]]]]|[[c0 [Hk Hlt]]|Hk]].
    2:{ right; left. exists c0. split; [|exact Hlt]. eapply ktrans_krec; eassumption. }
    2:{ right; right. eapply ktrans_krec; eassumption. }
    destruct Ht as [ms p s0 fu ttl mc ao m v cf l' _ _ _ El0 _ _ _ _ _
                   |ms p s0 fu ttl mc ao m l l' _ _ _ El0 _ Epl _ _ _
                   |r ne v cf _ _ Hl _|l El0 Ep|l cm El0 Hp Hmin|s0 lk _ Hlk
                   |l l' El0 Es' Eo _ _ Hmc'|s0 e sp _|s0 e Ec].
    - (* the key holds a lock, and not a pessimistic one: the first four transitions do not apply *)
      congruence.
    - congruence.
    - destruct Hl as [E|[l [E [_ Ep]]]]; congruence.
    - congruence.
    - (* commit: by a request naming the primary, which the store refuses below min_commit_ts; any other request would
         need the commit record on the primary, which a locked primary does not have *)
      assert (l = lp) by congruence. subst l. unfold pf_ok in Hpf. rewrite forallb_forall in Hpf. specialize (Hpf _ Hp). cbn [fst snd] in Hpf.
      rewrite Es, N.eqb_refl in Hpf. cbn [negb orb] in Hpf. apply orb_true_iff in Hpf. destruct Hpf as [Hnp|Hr].
      + destruct c; try discriminate Hnp. cbn [cmd_pairs] in Hp. destruct Hp as [E|[]]. inversion E; subst.
        specialize (Hmin _ _ _ eq_refl). right; left. exists cm. split; [|lia]. cbn [ks_writes].
        eapply krec_intro; [apply put_write_has|exact Es|split; [destruct (l_op lp); reflexivity|reflexivity]].
      + exfalso. unfold record_is, writes_of in Hr. eapply lock_no_record; [exact Hwf|exact El|exact Es|exact Hr].
    - destruct Hlk as [[Elk Honly]|Elk]; subst lk.
      + right; right. cbn [ks_writes]. eapply krec_intro; [apply put_write_has|cbn; rewrite <- (Honly lp El); exact Es|reflexivity].
      + left. exists lp. cbn [ks_lock]. auto.
    - assert (l = lp) by congruence. subst l. left. exists l'. cbn [ks_lock]. split; [reflexivity|]. split; [congruence|].
      split; [unfold is_pess in *; rewrite Eo; exact Epe|lia].
    - left. exists lp. cbn [ks_lock]. auto.
    - subst c. discriminate.
  Qed.

  Lemma pk_record kst cm : wf_ks W kst -> pk kst -> krec (ks_writes kst) s (DCommitted cm) = true -> t < cm.
  Proof.
    intros Hwf [[lp [El [Es _]]]|[[c0 [Hk0 Hlt]]|Hk0]] Hr.
    - exfalso. eapply lock_no_record; eassumption.
    - pose proof (krec_unique W _ _ _ _ Hwf Hr Hk0) as E. inversion E; subst. exact Hlt.
    - pose proof (krec_unique W _ _ _ _ Hwf Hr Hk0) as E. discriminate.
  Qed.

  (* a commit of s on the primary is refused (below the pushed min_commit_ts, or after the rollback) or carries a
     commit ts above t *)
  Lemma pk_commit kst cm : wf_ks W kst -> pk kst -> In (s, cm) (w_pairs W) -> (exists e, commit_key kst s cm = KErr e) \/ t < cm.
  Proof.
    intros Hwf [[lp [El [Es [_ Hmc]]]]|[[c0 [Hk0 Hlt]]|Hk0]] Hp; unfold commit_key.
    - unfold own_lock. rewrite El, Es, N.eqb_refl. destruct (N.ltb_spec cm (l_min_commit lp)); [left; eauto|right; lia].
    - right. destruct (krec_find W _ _ _ Hwf Hk0) as [_ [w [Ef [Hin [Hr Hc0]]]]]. apply find_start_some in Ef. destruct Ef as [_ Ew].
      pose proof (nonrb_pair W _ w Hwf Hin Hr) as Hpw. rewrite Ew, Hc0 in Hpw.
      pose proof (proj1 (wo_inj W HW _ _ _ _ Hpw Hp) eq_refl). lia.
    - left. destruct (krec_find W _ _ _ Hwf Hk0) as [Eo [w [Ef [_ Hr]]]]. rewrite Eo, Ef, Hr. eauto.
  Qed.

  (* a command either is refused as a whole or carries, for s, only commit timestamps above t *)
  Lemma push_safe st c : wf_store W st -> cmd_in W c -> pf_ok kp s st c = true -> pk (get_ks st kp) ->
    is_noop st c = true \/ pairs_above t s (cmd_pairs c) = true.
  Proof.
    intros [Hs Hk] [Hcs Hcp] Hpf Hp. pose proof (Hk kp) as Hwf. unfold pf_ok in Hpf. rewrite forallb_forall in Hpf.
    assert (Hrec : forall cm, In (s, cm) (cmd_pairs c) -> names_primary kp c = true \/ t < cm).
    { intros cm Hin. specialize (Hpf _ Hin). cbn [fst snd] in Hpf. rewrite N.eqb_refl in Hpf. cbn [negb orb] in Hpf.
      apply orb_true_iff in Hpf. destruct Hpf as [H|H]; [left; exact H|right; eapply pk_record; eassumption]. }
    destruct (names_primary kp c) eqn:Enp;
      [|right; apply pairs_above_intro; intros cm Hin; destruct (Hrec cm Hin); [discriminate|assumption]].
    destruct c; try discriminate Enp. cbn [names_primary] in Enp. apply existsb_exists in Enp. destruct Enp as [k0 [Hin Ek]].
    apply N.eqb_eq in Ek. subst k0. cbn [cmd_pairs] in *.
    destruct (N.eq_dec start s) as [E|E]; [subst start|right; apply pairs_above_intro; intros cm [E'|[]]; congruence].
    destruct (pk_commit (get_ks st kp) commit Hwf Hp (Hcp _ (or_introl eq_refl))) as [[e He]|Hlt].
    - left. cbn [is_noop step]. eapply bfe_err_intro; eassumption.
    - right. apply pairs_above_intro. intros cm [E'|[]]. inversion E'; subst; exact Hlt.
  Qed.

  Lemma step_pk st c : wf_store W st -> cmd_in W c -> pf_ok kp s st c = true -> is_gc_over c s = false ->
    pk (get_ks st kp) -> pk (get_ks (fst (step st c)) kp).
  Proof.
    intros [Hs Hk] Hc Hpf Hgc Hp. destruct (step_ktrans st c kp Hs) as [E|Ht]; [rewrite E; exact Hp|].
    eapply ktrans_pk; [apply Hk|exact Hc|exact Hpf|exact Hgc|exact Ht|exact Hp].
  Qed.
End Primary.

Fixpoint prules (kp : key) (s : ts) (st : store) (tr : list tev) : bool :=
  match tr with
  | [] => true
  | TReq c :: r => pf_ok kp s st c && negb (is_gc_over c s) && prules kp s (fst (step st c)) r
  | _ :: r => prules kp s st r
  end.

Lemma prules_app kp s : forall x st y, prules kp s st (x ++ y) = true -> prules kp s (run_from st (cmds_of x)) y = true.
Proof.
  induction x as [|[t|c|c] r IH]; intros st y H; cbn [app prules cmds_of run_from fold_left] in *; [exact H|apply IH; exact H| |apply IH; exact H].
  apply andb_true_iff in H. destruct H as [_ H]. apply IH; exact H.
Qed.

Section PStable.
  Variable W : world.
  Hypothesis HW : World_ok W.
  Variables (k kp : key) (s t : ts) (Pm : list (ts * ts)).

  (* [goodT] with the excuse of this section: the lock met belongs to the pushed transaction s *)
  Definition goodP (st : store) (PL : list (ts * ts)) : Prop :=
    forall l, lock_of st k = Some l ->
      data_lock l = false \/ pairs_above t (l_start l) Pm = true \/ (exists Tj, In (l_start l, Tj) PL /\ t <= Tj) \/ l_start l = s.

  Lemma preq_safe st PL c : wf_store W st -> cmd_in W c -> goodP st PL -> pk s t (get_ks st kp) ->
    incl (cmd_pairs c) Pm -> gc_ok t c = true -> after_placements PL c = true -> pf_ok kp s st c = true ->
    safe_step_e st c k t = true.
  Proof.
    intros Hwf Hc Hg Hp Hi Hgc Ha Hpf. unfold safe_step_e. apply orb_true_iff.
    destruct (push_safe W HW kp s t st c Hwf Hc Hpf Hp) as [Hn|Hab]; [left; exact Hn|right].
    apply (treq_safe k t Pm (fun s' => s' = s) st PL c Hg Hi Hgc Ha). intros l _ E. rewrite E. exact Hab.
  Qed.

  Lemma prules_stable : forall B st T PL, wf_store W st -> (forall c, In c (cmds_of B) -> cmd_in W c) ->
    disciplined_from st (cmds_of B) = true -> t <= T -> goodP st PL -> pk s t (get_ks st kp) ->
    incl (flat_map cmd_pairs (cmds_of B)) Pm -> forallb (gc_ok t) (cmds_of B) = true ->
    trules k st T PL B = true -> prules kp s st B = true -> stable_suffix_e st k t (cmds_of B) = true.
  Proof.
    induction B as [|[t'|c|c] r IH]; intros st T PL Hwf Hin Hd HT Hg Hp Hi Hgc H Hpr; cbn [cmds_of trules prules] in *; [reflexivity| | |].
    - apply andb_true_iff in H. destruct H as [H1 H2]. apply N.ltb_lt in H1.
      apply (IH st t' PL); [exact Hwf|exact Hin|exact Hd|lia|exact Hg|exact Hp|exact Hi|exact Hgc|exact H2|exact Hpr].
    - apply andb_true_iff in H. destruct H as [H1 H2]. apply andb_true_iff in Hpr. destruct Hpr as [Hpr Hpr2].
      apply andb_true_iff in Hpr. destruct Hpr as [Hpf Hgs]. apply negb_true_iff in Hgs.
      cbn [flat_map forallb stable_suffix_e disciplined_from] in *.
      apply andb_true_iff in Hgc. destruct Hgc as [Hgc1 Hgc2]. apply andb_true_iff in Hd. destruct Hd as [Hreq Hd].
      assert (Hc : cmd_in W c) by (apply Hin; left; reflexivity).
      apply andb_true_iff; split.
      + eapply preq_safe; [exact Hwf|exact Hc|exact Hg|exact Hp|intros x Hx; apply Hi; apply in_or_app; left; exact Hx|exact Hgc1|exact H1|exact Hpf].
      + apply (IH (fst (step st c)) T (pl_upd PL st c k T)).
        * apply step_wf; assumption.
        * intros c' Hc'. apply Hin; right; exact Hc'.
        * exact Hd.
        * exact HT.
        * exact (tstep_good k t Pm (fun s' => s' = s) st c T PL (proj1 Hwf) HT Hg).
        * apply (step_pk W HW); assumption.
        * intros x Hx. apply Hi. apply in_or_app; right; exact Hx.
        * exact Hgc2.
        * exact H2.
        * exact Hpr2.
    - apply andb_true_iff in H. destruct H as [_ H2]. apply (IH st T PL); assumption.
  Qed.
End PStable.

(* what the reader's CheckTxnStatus establishes: answer MinCommitTSPushed for caller ts t (not the max-ts sentinel) on a
   prewrite lock => the primary lock's min_commit_ts is above t *)
Lemma cts_pushes st kp s t cur rine rp ttl : keys_sorted st -> t <> max_ts ->
  (forall lp, lock_of st kp = Some lp -> is_pess lp = false) ->
  snd (step st (CheckTxnStatus kp s t cur rine rp)) = RStatus ttl 0 AMinCommitTSPushed ->
  pushed (fst (step st (CheckTxnStatus kp s t cur rine rp))) kp s t = true.
Proof.
  intros Hs Hne Hnp. cbn [step]. destruct (check_txn_status_key (get_ks st kp) kp s t cur rine rp) as [o r] eqn:E. cbn [fst snd].
  intros Hr. subst r. unfold pushed, lock_of. rewrite get_apply_opt by exact Hs. rewrite N.eqb_refl.
  unfold check_txn_status_key in E. destruct (own_lock (get_ks st kp) s) as [lp|] eqn:Eo.
  - apply own_lock_some in Eo. destruct Eo as [El Es]. specialize (Hnp lp El).
    destruct (ttl_expired lp cur); [destruct (rp && is_pess lp); inversion E|].
    destruct (N.eqb_spec t max_ts); [contradiction|]. destruct (0 <? l_min_commit lp); [|inversion E].
    destruct (N.ltb_spec (l_min_commit lp) (t + 1)); inversion E; subst o.
    + unfold is_pess in *. cbn [ks_lock l_start l_op l_min_commit]. rewrite Es, N.eqb_refl, Hnp. cbn [negb andb].
      apply N.ltb_lt. destruct (t + 1 <? cur) eqn:E2; [apply N.ltb_lt in E2|]; lia.
    + rewrite El, Es, N.eqb_refl, Hnp. cbn [negb andb]. apply N.ltb_lt. lia.
  - destruct (find_start s (ks_writes (get_ks st kp))) as [w|]; [destruct (is_rollback w); inversion E|].
    destruct rine; [destruct rp|]; inversion E.
Qed.

(* the (met) rule derived for the transaction whose primary was pushed: joint trace A ++ B as in C01_twopc_read_stable; on
   the store reached by A the primary kp of s is [pushed] above t; B obeys [trules] and [prules] (C04: pairs of s only on
   a commit naming the primary or after the primary's commit record; no GC over s). The lock met on k may be s's. *)
Theorem pushed_read_stable A B k kp s t :
  let a := cmds_of A in let b := cmds_of B in
  trules k [] 0 [] (A ++ B) = true -> prules kp s (run a) B = true -> t <= tlast 0 A ->
  oracle_ts (a ++ b) = true -> forallb (gc_ok t) b = true ->
  pushed (run a) kp s t = true -> met_rule_p (run a) k s t (flat_map cmd_pairs b) = true ->
  stable_suffix_e (run a) k t b = true /\ read_at (run (a ++ b)) k t = read_at (run a) k t.
Proof.
  intros a b Hr Hpr Ht Ho Hgc Hpu Hmet.
  assert (Hst : stable_suffix_e (run a) k t b = true).
  { destruct (trules_app k A [] 0 [] B Hr) as [_ H2]. fold a in H2. change (run_from [] a) with (run a) in H2.
    destruct (oracle_app_wf _ _ Ho) as [HW [Hwf Hd]].
    apply (prules_stable (world_of (a ++ b)) HW k kp s t (flat_map cmd_pairs b) B (run a) (tlast 0 A) (pl_run k [] 0 [] A));
      [exact Hwf| |exact Hd|exact Ht| | |apply incl_refl|exact Hgc|exact H2|exact Hpr].
    - intros c Hc. apply cmd_in_world_of. apply in_or_app; right; exact Hc.
    - apply (met_goodT k t a b (fun s' => s' = s) _ Ho). intros l El. unfold met_rule_p in Hmet. rewrite El in Hmet.
      apply orb_true_iff in Hmet. destruct Hmet as [H|H]; [left; exact H|right; apply N.eqb_eq; exact H].
    - unfold pushed, lock_of in Hpu. destruct (ks_lock (get_ks (run a) kp)) as [lp|] eqn:El; [|discriminate].
      apply andb_true_iff in Hpu. destruct Hpu as [Hpu H3]. apply andb_true_iff in Hpu. destruct Hpu as [H1 H2'].
      left. exists lp. split; [exact El|]. split; [apply N.eqb_eq; exact H1|]. split; [apply negb_true_iff; exact H2'|apply N.ltb_lt; exact H3]. }
  split; [exact Hst|]. apply read_stable_e; assumption.
Qed.

(* how an observation came about inside the joint trace tr: an own write; or a point get served at a cut A | B of the
   trace under the 2PC rules; or the same with the lock met belonging to a transaction whose primary was pushed *)
Inductive served_trace (tr : list tev) (o : read_obs) : Prop :=
| stt_own w : ro_own o = Some w -> ro_val o = w -> served_trace tr o
| stt_2pc A B rs v : tr = A ++ B -> ro_own o = None -> ro_ts o <> max_ts ->
    get (run (cmds_of A)) (ro_key o) (ro_ts o) rs = RGet v -> ro_val o = option_map fst v ->
    trules (ro_key o) [] 0 [] (A ++ B) = true -> ro_ts o <= tlast 0 A -> forallb (gc_ok (ro_ts o)) (cmds_of B) = true ->
    met_rule (run (cmds_of A)) (ro_key o) (ro_ts o) (flat_map cmd_pairs (cmds_of B)) = true ->
    served_trace tr o
| stt_push A B rs v kp s : tr = A ++ B -> ro_own o = None -> ro_ts o <> max_ts ->
    get (run (cmds_of A)) (ro_key o) (ro_ts o) rs = RGet v -> ro_val o = option_map fst v ->
    trules (ro_key o) [] 0 [] (A ++ B) = true -> prules kp s (run (cmds_of A)) B = true ->
    ro_ts o <= tlast 0 A -> forallb (gc_ok (ro_ts o)) (cmds_of B) = true ->
    pushed (run (cmds_of A)) kp s (ro_ts o) = true ->
    met_rule_p (run (cmds_of A)) (ro_key o) s (ro_ts o) (flat_map cmd_pairs (cmds_of B)) = true ->
    served_trace tr o.

Theorem history_oracle_sound_trace tr obs : oracle_ts (cmds_of tr) = true -> Forall (served_trace tr) obs ->
  si_ok (full_history (run (cmds_of tr))) obs = true.
Proof.
  intros Ho Hf. unfold si_ok. apply forallb_forall. intros o Hin. rewrite Forall_forall in Hf.
  destruct (Hf o Hin) as [w Eo Ev|A B rs v Etr Eo Hne Hget Ev Hr Ht Hgc Hmet|A B rs v kp s Etr Eo Hne Hget Ev Hr Hpr Ht Hgc Hpu Hmet].
  - unfold obs_ok. rewrite Eo, Ev. apply optv_eqb_refl.
  - subst tr. rewrite cmds_of_app in *. eapply obs_from_stable; try eassumption.
    apply (proj2 (twopc_read_stable A B (ro_key o) (ro_ts o) Hr Ht Ho Hgc Hmet)).
  - subst tr. rewrite cmds_of_app in *. eapply obs_from_stable; try eassumption.
    apply (proj2 (pushed_read_stable A B (ro_key o) kp s (ro_ts o) Hr Hpr Ht Ho Hgc Hpu Hmet)).
Qed.
