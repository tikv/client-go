(* SI/TwoPC.v — 2PC without an oracle-order hypothesis: a joint trace of oracle issues, store requests and
   acknowledgements. The client rules ([trules], all of them request-stream rules of C04) are:
     (T1) the oracle issues strictly increasing timestamps;
     (T2) a commit ts carried by a commit / resolve request of transaction s was issued AFTER every prewrite
          of s that placed a lock on k was executed (C04: no CommitSend of S before all mutations of S have a
          successful PrewriteReply, and the commit ts is fetched after those replies: GetTs follows the acks);
     (T3) an acknowledged 2PC commit ts was issued by the oracle before the acknowledgement;
   and a reader's ts was issued before the read was sent (hypothesis [t <= last issued]). From these the
   stability predicate of C01_read_stable and commit_rule 0 follow. Executable definitions + proofs. *)
From Verif Require Import SI.Model SI.ProofsRead SI.ProofsKeyed SI.AsyncStore Mvcc.ProofsStore Mvcc.ProofsKstep
     Mvcc.ProofsMarker.

Inductive tev :=
| TTso (t : ts)        (* the oracle issues t *)
| TReq (c : cmd)       (* the store executes a request *)
| TAck (c : ts).       (* a 2PC transaction is acknowledged with commit ts c *)

(* the transaction whose prewrite lock this command places on k (a repeated prewrite over the own lock, a rejected or
   a foreign one places nothing) *)
Definition placed_by (st : store) (c : cmd) (k : key) : option ts :=
  match c with
  | Prewrite ms _ s _ _ _ _ =>
    if existsb (fun m => m_key m =? k) ms && negb (is_retry st s k)
       && match lock_of (fst (step st c)) k with Some l' => l_start l' =? s | None => false end
    then Some s else None
  | _ => None
  end.
Definition pl_upd (PL : list (ts * ts)) (st : store) (c : cmd) (k : key) (T : ts) : list (ts * ts) :=
  match placed_by st c k with Some s => (s, T) :: PL | None => PL end.
(* (T2): every pair of the command was issued after the recorded placements of its transaction *)
Definition after_placements (PL : list (ts * ts)) (c : cmd) : bool :=
  forallb (fun p => forallb (fun q => negb (fst q =? fst p) || (snd q <? snd p)) PL) (cmd_pairs c).

Fixpoint trules (k : key) (st : store) (T : ts) (PL : list (ts * ts)) (tr : list tev) : bool :=
  match tr with
  | [] => true
  | TTso t :: r => (T <? t) && trules k st t PL r
  | TReq c :: r => after_placements PL c && trules k (fst (step st c)) T (pl_upd PL st c k T) r
  | TAck c :: r => (c <=? T) && trules k st T PL r
  end.

Fixpoint cmds_of (tr : list tev) : list cmd :=
  match tr with [] => [] | TReq c :: r => c :: cmds_of r | _ :: r => cmds_of r end.
(* the last timestamp issued (0 = none) *)
Fixpoint tlast (T : ts) (tr : list tev) : ts :=
  match tr with [] => T | TTso t :: r => tlast t r | _ :: r => tlast T r end.
Fixpoint pl_run (k : key) (st : store) (T : ts) (PL : list (ts * ts)) (tr : list tev) : list (ts * ts) :=
  match tr with
  | [] => PL
  | TTso t :: r => pl_run k st t PL r
  | TReq c :: r => pl_run k (fst (step st c)) T (pl_upd PL st c k T) r
  | TAck _ :: r => pl_run k st T PL r
  end.

Lemma cmds_of_app x y : cmds_of (x ++ y) = cmds_of x ++ cmds_of y.
Proof. induction x as [|[t|c|c] r IH]; cbn [app cmds_of]; [reflexivity|exact IH|rewrite IH; reflexivity|exact IH]. Qed.

Lemma trules_app k : forall x st T PL y, trules k st T PL (x ++ y) = true ->
  trules k st T PL x = true /\ trules k (run_from st (cmds_of x)) (tlast T x) (pl_run k st T PL x) y = true.
Proof.
  induction x as [|[t|c|c] r IH]; intros st T PL y H; cbn [app trules cmds_of tlast pl_run run_from fold_left] in *;
    [split; [reflexivity|exact H]|..];
    apply andb_true_iff in H; destruct H as [H1 H2]; destruct (IH _ _ _ _ H2) as [H3 H4]; rewrite H1, H3; (split; [reflexivity|exact H4]).
Qed.

Lemma trules_tlast k : forall x st T PL, trules k st T PL x = true -> T <= tlast T x.
Proof.
  induction x as [|[t|c|c] r IH]; intros st T PL H; cbn [trules tlast] in *; [lia| | |];
    apply andb_true_iff in H; destruct H as [H1 H2]; specialize (IH _ _ _ H2); [apply N.ltb_lt in H1; lia|exact IH|exact IH].
Qed.

Section TStable.
  Variables (k : key) (t : ts) (Pm : list (ts * ts)).
  (* transactions excused for another reason, fixed along the trace *)
  Variable X : ts -> Prop.

  (* the Put/Delete lock on k belongs to a transaction covered by the met rule, or was placed when the oracle had
     already issued t, or is excused by X *)
  Definition goodT (st : store) (PL : list (ts * ts)) : Prop :=
    lock_good k t Pm (fun s => (exists Tj, In (s, Tj) PL /\ t <= Tj) \/ X s) st.

  Lemma placed_by_intro st ms p s fu ttl mc ao m l' :
    In m ms -> m_key m = k -> is_retry st s k = false ->
    lock_of (fst (step st (Prewrite ms p s fu ttl mc ao))) k = Some l' -> l_start l' = s ->
    placed_by st (Prewrite ms p s fu ttl mc ao) k = Some s.
  Proof.
    intros Hin Ek Er El Es. unfold placed_by. rewrite Er, El, Es, N.eqb_refl, (mut_key_in ms m k Hin Ek). reflexivity.
  Qed.

  Lemma tstep_good st c T PL : keys_sorted st -> t <= T -> goodT st PL -> goodT (fst (step st c)) (pl_upd PL st c k T).
  Proof.
    intros Hs HT Hg. apply (lock_good_step k t Pm _ _ st c Hs Hg).
    - intros l _ [[Tj [Hin Hle]]|Hx]; right; [left|right; exact Hx]. exists Tj. split; [|exact Hle].
      unfold pl_upd. destruct (placed_by st c k); [right; exact Hin|exact Hin].
    - intros ms p s fu ttl mc ao m l' Ec Hin Ek Hold El' Es. right; left. exists T. split; [|exact HT]. subst c. unfold pl_upd.
      rewrite (placed_by_intro st ms p s fu ttl mc ao m l' Hin Ek (not_retry k st s Hold) El' Es). left; reflexivity.
  Qed.

  (* a request obeying (T2) is safe when it is safe with respect to an excused lock holder *)
  Lemma treq_safe st PL c : goodT st PL -> incl (cmd_pairs c) Pm -> gc_ok t c = true -> after_placements PL c = true ->
    (forall l, lock_of st k = Some l -> X (l_start l) -> pairs_above t (l_start l) (cmd_pairs c) = true) ->
    safe_step st c k t = true.
  Proof.
    intros Hg Hi Hgc Ha Hx. apply (lock_good_safe k t Pm _ st c (cmd_pairs c) Hg Hgc Hi).
    intros l El [[Tj [Hin Hle]]|H]; [|apply (Hx l El H)]. apply pairs_above_intro. intros cm Hcm.
    unfold after_placements in Ha. rewrite forallb_forall in Ha. specialize (Ha _ Hcm).
    rewrite forallb_forall in Ha. specialize (Ha _ Hin). cbn [fst snd] in Ha. rewrite N.eqb_refl in Ha. apply N.ltb_lt in Ha. lia.
  Qed.
End TStable.

Lemma trules_stable k t Pm : forall b st T PL, keys_sorted st -> t <= T -> goodT k t Pm (fun _ => False) st PL ->
  incl (flat_map cmd_pairs (cmds_of b)) Pm -> forallb (gc_ok t) (cmds_of b) = true ->
  trules k st T PL b = true -> stable_suffix st k t (cmds_of b) = true.
Proof.
  induction b as [|[t'|c|c] r IH]; intros st T PL Hs HT Hg Hi Hgc H; cbn [cmds_of trules] in *; [reflexivity| | |].
  - apply andb_true_iff in H. destruct H as [H1 H2]. apply N.ltb_lt in H1. apply (IH st t' PL); [exact Hs|lia|exact Hg|exact Hi|exact Hgc|exact H2].
  - apply andb_true_iff in H. destruct H as [H1 H2]. cbn [flat_map forallb stable_suffix] in *.
    apply andb_true_iff in Hgc. destruct Hgc as [Hgc1 Hgc2]. apply incl_app_inv in Hi. destruct Hi as [Hi1 Hi2].
    apply andb_true_iff; split.
    + eapply treq_safe; [exact Hg|exact Hi1|exact Hgc1|exact H1|intros l _ []].
    + apply (IH (fst (step st c)) T (pl_upd PL st c k T)); [apply (step_kstep st c Hs)|exact HT|apply tstep_good; assumption|exact Hi2|exact Hgc2|exact H2].
  - apply andb_true_iff in H. destruct H as [_ H2]. apply (IH st T PL); assumption.
Qed.

(* the lock met at the cut of a joint trace: [met_rule], or a transaction excused by X *)
Lemma met_goodT k t a b X PL : oracle_ts (a ++ b) = true ->
  (forall l, lock_of (run a) k = Some l ->
     negb (data_lock l) || (t <? l_start l) || pairs_above t (l_start l) (flat_map cmd_pairs b) = true \/ X (l_start l)) ->
  goodT k t (flat_map cmd_pairs b) X (run a) PL.
Proof.
  intros Ho Hmet. destruct (oracle_app_wf _ _ Ho) as [HW _].
  apply (lock_good_weaken k t _ X); [intros s0 H; right; exact H|].
  eapply met_good; [exact HW|apply suffix_pairs_incl|exact Hmet].
Qed.

(* a read of k at t is served on the store reached by the trace [A]; its ts had been issued ([t <= tlast 0 A]);
   [B] follows. No oracle-order hypothesis: (T1)-(T3) are checked along the trace. *)
Theorem twopc_read_stable A B k t :
  let a := cmds_of A in let b := cmds_of B in
  trules k [] 0 [] (A ++ B) = true -> t <= tlast 0 A ->
  oracle_ts (a ++ b) = true -> forallb (gc_ok t) b = true -> met_rule (run a) k t (flat_map cmd_pairs b) = true ->
  stable_suffix (run a) k t b = true /\ read_at (run (a ++ b)) k t = read_at (run a) k t.
Proof.
  intros a b Hr Ht Ho Hgc Hmet.
  assert (Hst : stable_suffix (run a) k t b = true).
  { destruct (trules_app k A [] 0 [] B Hr) as [_ H2]. fold a in H2. change (run_from [] a) with (run a) in H2.
    destruct (oracle_app_wf _ _ Ho) as [_ [Hwf _]].
    apply (trules_stable k t (flat_map cmd_pairs b) B (run a) (tlast 0 A) (pl_run k [] 0 [] A)); [exact (proj1 Hwf)|exact Ht| |apply incl_refl|exact Hgc|exact H2].
    apply (met_goodT k t a b _ _ Ho). intros l El. left. unfold met_rule in Hmet. rewrite El in Hmet. exact Hmet. }
  split; [exact Hst|]. apply read_stable; assumption.
Qed.

(* commit_rule 0 derived: every timestamp issued after the acknowledgement of a 2PC transaction is above its commit ts,
   from whatever state the trace starts *)
Theorem twopc_external_consistency k st T PL p c q s r :
  trules k st T PL (p ++ TAck c :: q ++ TTso s :: r) = true -> c < s.
Proof.
  intros H. destruct (trules_app k p st T PL _ H) as [_ H1].
  cbn [trules] in H1. apply andb_true_iff in H1. destruct H1 as [Hc H1]. apply N.leb_le in Hc.
  destruct (trules_app k q _ _ _ _ H1) as [Hq H2]. pose proof (trules_tlast k q _ _ _ Hq) as Hle.
  cbn [trules] in H2. apply andb_true_iff in H2. destruct H2 as [Hlt _]. apply N.ltb_lt in Hlt. lia.
Qed.
