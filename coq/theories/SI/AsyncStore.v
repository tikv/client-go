(* SI/AsyncStore.v — the store-side mechanics of async commit and 1PC as a layer over the Mvcc store:
   [max_ts] (bumped by every read ts and by every prewrite's start / for-update ts),
   async prewrite computing min_commit_ts = max(request min_commit, max_ts + 1) after the bump (hence also
   > start ts and > for-update ts) and recording it with the lock, commit / resolve refused below the
   recorded min_commit_ts of the key, 1PC committing directly at that ts, CheckSecondaryLocks,
   the region's leader moving and its max_ts being refreshed.
   Every request of the layer issues base commands ([abase]); the base store is [run] of the issued commands,
   so all SI theorems apply to it. Read stability ([ainv]) and, over a joint trace with the oracle ([jrules]),
   external consistency follow from these mechanics. Executable definitions + proofs. *)
From Verif Require Import SI.Model SI.ProofsRead SI.ProofsKeyed Mvcc.ProofsStore Mvcc.ProofsKstep
     Mvcc.ProofsMarker.

(* the store of ONE region (the one holding the keys under consideration; requests naming a key go to its region, other
   regions are independent copies): a_max is that region's max_ts on its current leader, a_sync = "max_ts synced" *)
Record astore := mkA { a_st : store; a_max : ts; a_tbl : list (key * ts * ts) (* key, start, min_commit_ts of the lock *);
                       a_sync : bool }.

Inductive acmd :=
| ABase (c : cmd)                                                              (* a request of the base protocol *)
| AsyncPrewrite (ms : list mutation) (primary : key) (start fu : ts) (ttl req_mc : N) (ao : bool)
| OnePC (ms : list mutation) (primary : key) (start fu : ts) (ttl req_mc : N) (ao : bool)
| ACheckSecondary (ks : list key) (start : ts)
| ATransfer (m : ts)      (* the region's leader moves: the new leader's max_ts is whatever it had seen (m, possibly stale or 0)
                             and is not synced; async prewrites / 1PC are refused (MaxTimestampNotSynced) until ... *)
| ARefresh (f : ts).      (* ... the new leader installs a fresh oracle timestamp f: max_ts := max(max_ts, f), synced *)

(* the timestamp by which a base request bumps max_ts (the max-ts sentinel of a point get does not) *)
Definition bump_ts (c : cmd) : ts :=
  match c with
  | Get _ t _ | BatchGet _ t _ | Scan _ _ _ t _ | ReverseScan _ _ _ t _ => if t =? max_ts then 0 else t
  | Prewrite _ _ s fu _ _ _ => N.max s fu
  | PessLock r => N.max (p_start r) (p_for_update r)
  | _ => 0
  end.

(* a commit / resolve is refused for a key whose lock recorded a larger min_commit_ts *)
Definition entry_ok (c : cmd) (e : key * ts * ts) : bool :=
  forallb (fun p => negb (fst p =? snd (fst e)) || (snd e <=? snd p)) (key_pairs c (fst (fst e))).
Definition commit_allowed (tbl : list (key * ts * ts)) (c : cmd) : bool := forallb (entry_ok c) tbl.

Definition lockable_keys (ms : list mutation) : list key :=
  map m_key (filter (fun m => match m_op m with MCheckNotExists => false | _ => true end) ms).
(* the key already carries this transaction's prewrite lock: a repeated prewrite keeps the recorded min_commit_ts *)
Definition is_retry (st : store) (s : ts) (k : key) : bool :=
  match lock_of st k with Some l => (l_start l =? s) && negb (is_pess l) | None => false end.
Definition fresh_keys (st : store) (ms : list mutation) (s : ts) : list key :=
  filter (fun k => negb (is_retry st s k)) (map m_key ms).
Definition tbl_update (tbl : list (key * ts * ts)) (ks : list key) (s mc : ts) : list (key * ts * ts) :=
  map (fun k => (k, s, mc)) ks
  ++ filter (fun e => negb ((snd (fst e) =? s) && existsb (N.eqb (fst (fst e))) ks)) tbl.

Definition async_mc (a : astore) (start fu req_mc : ts) : ts := N.max req_mc (N.max (a_max a) (N.max start fu) + 1).
Definition resp_err (r : resp) : bool := match r with RErrs es => has_err es | _ => true end.

(* the base commands a request issues on the store it finds *)
Definition abase (a : astore) (c : acmd) : list cmd :=
  match c with
  | ABase c => if commit_allowed (a_tbl a) c then [c] else []
  | AsyncPrewrite ms p s fu ttl rmc ao => if a_sync a then [Prewrite ms p s fu ttl (async_mc a s fu rmc) ao] else []
  | OnePC ms p s fu ttl rmc ao =>
    let pw := Prewrite ms p s fu ttl (async_mc a s fu rmc) ao in
    if a_sync a then
      if resp_err (snd (step (a_st a) pw)) then [pw] else [pw; Commit (lockable_keys ms) s (async_mc a s fu rmc)]
    else []
  | ACheckSecondary ks s =>
    [Rollback (filter (fun k => match own_lock (get_ks (a_st a) k) s with Some _ => false | None => negb (committed (a_st a) k s) end) ks) s]
  | ATransfer _ | ARefresh _ => []
  end.

Definition astep (a : astore) (c : acmd) : astore :=
  let st' := run_from (a_st a) (abase a c) in
  match c with
  | ABase c0 => if commit_allowed (a_tbl a) c0 then mkA st' (N.max (a_max a) (bump_ts c0)) (a_tbl a) (a_sync a) else a
  | AsyncPrewrite ms p s fu ttl rmc ao | OnePC ms p s fu ttl rmc ao =>
    let mc := async_mc a s fu rmc in
    let ok := negb (resp_err (snd (step (a_st a) (Prewrite ms p s fu ttl mc ao)))) in
    if a_sync a then
      mkA st' (N.max (a_max a) (N.max s fu)) (if ok then tbl_update (a_tbl a) (fresh_keys (a_st a) ms s) s mc else a_tbl a) true
    else a
  | ACheckSecondary _ _ => mkA st' (a_max a) (a_tbl a) (a_sync a)
  | ATransfer m => mkA (a_st a) m (a_tbl a) false
  | ARefresh f => mkA (a_st a) (N.max (a_max a) f) (a_tbl a) true
  end.
(* the min_commit_ts an async prewrite / 1PC returns (1PC: its commit ts) *)
Definition returned_mc (a : astore) (c : acmd) : list ts :=
  match c with
  | AsyncPrewrite _ _ s fu _ rmc _ | OnePC _ _ s fu _ rmc _ => if a_sync a then [async_mc a s fu rmc] else []
  | _ => []
  end.

Definition a0 : astore := mkA [] 0 [] true.
Definition arun_from (a : astore) (cs : list acmd) : astore := fold_left astep cs a.
Definition arun (cs : list acmd) : astore := arun_from a0 cs.
Fixpoint abase_run (a : astore) (cs : list acmd) : list cmd :=
  match cs with [] => [] | c :: r => abase a c ++ abase_run (astep a c) r end.

(* what is assumed about the requests that follow a read of k at t: of a prewrite of the BASE protocol, [prewrite_rule]
   (2PC: commit ts fetched from the oracle afterwards; or the min_commit_ts rule obeyed by the client); of a refresh, that
   the timestamp it installs was fetched from the oracle after the transfer, hence after t was issued; nothing of async
   prewrites / 1PC *)
Definition base_rule (k : key) (t : ts) (P : list (ts * ts)) (c : acmd) : bool :=
  match c with ABase c0 => prewrite_rule k t P c0 | ARefresh f => t <=? f | _ => true end.

Lemma astep_st a c : a_st (astep a c) = run_from (a_st a) (abase a c).
Proof.
  destruct c; cbn [astep abase a_st]; cbv zeta; try reflexivity.
  - destruct (commit_allowed (a_tbl a) c); reflexivity.
  - destruct (a_sync a); reflexivity.
  - destruct (a_sync a); reflexivity.
Qed.

Lemma run_from_app st x y : run_from st (x ++ y) = run_from (run_from st x) y.
Proof. unfold run_from. apply fold_left_app. Qed.

Lemma arun_from_st : forall cs a, a_st (arun_from a cs) = run_from (a_st a) (abase_run a cs).
Proof.
  induction cs as [|c r IH]; intros a; [reflexivity|]. cbn [arun_from fold_left abase_run].
  change (fold_left astep r (astep a c)) with (arun_from (astep a c) r). rewrite IH, run_from_app, astep_st. reflexivity.
Qed.

Lemma arun_app x y : arun (x ++ y) = arun_from (arun x) y.
Proof. unfold arun, arun_from. apply fold_left_app. Qed.

Lemma abase_run_app : forall x a y, abase_run a (x ++ y) = abase_run a x ++ abase_run (arun_from a x) y.
Proof.
  induction x as [|c r IH]; intros a y; [reflexivity|]. cbn [app abase_run arun_from fold_left]. rewrite IH, app_assoc. reflexivity.
Qed.

(* a served point get (scan, batch get) leaves max_ts at or above its read ts *)
Lemma read_bumps a c : key_pairs c = (fun _ => []) -> bump_ts c <= a_max (astep a (ABase c)).
Proof.
  intros Hk. cbn [astep]. assert (commit_allowed (a_tbl a) c = true) as ->.
  { unfold commit_allowed, entry_ok. apply forallb_forall. intros e _. rewrite Hk. reflexivity. }
  cbn [a_max]. lia.
Qed.
Lemma async_mc_above a s fu rmc : a_max a < async_mc a s fu rmc /\ s < async_mc a s fu rmc /\ fu < async_mc a s fu rmc /\ rmc <= async_mc a s fu rmc.
Proof. unfold async_mc. lia. Qed.

Lemma stable_suffix_k_app k t : forall x st y,
  stable_suffix_k st k t (x ++ y) = stable_suffix_k st k t x && stable_suffix_k (run_from st x) k t y.
Proof.
  induction x as [|c r IH]; intros st y; [reflexivity|]. cbn [app stable_suffix_k run_from fold_left].
  rewrite IH, andb_assoc. reflexivity.
Qed.

Section AStable.
  Variables (k : key) (t : ts) (P : list (ts * ts)).

  (* the excuse of this section: the lock of s on k recorded a min_commit_ts above t *)
  Definition recorded (tbl : list (key * ts * ts)) (s : ts) : Prop := exists mc, In (k, s, mc) tbl /\ t < mc.

  (* the lock on k, if it is a Put/Delete lock: its transaction commits above t by one of the rules, or the lock
     recorded a min_commit_ts above t. This is [lock_good k t P (recorded tbl) st] unfolded, and used as such. *)
  Definition good3 (st : store) (tbl : list (key * ts * ts)) : Prop :=
    forall l, lock_of st k = Some l ->
      data_lock l = false \/ pairs_above t (l_start l) P = true \/ exists mc, In (k, l_start l, mc) tbl /\ t < mc.

  Lemma not_retry st s : (forall l, lock_of st k = Some l -> l_start l = s /\ is_pess l = true) -> is_retry st s k = false.
  Proof.
    intros H. unfold is_retry. destruct (lock_of st k) as [l|]; [|reflexivity].
    destruct (H l eq_refl) as [_ Ep]. rewrite Ep. apply andb_false_r.
  Qed.

  Lemma step_good3 st c tbl tbl' : keys_sorted st -> good3 st tbl ->
    (forall l mc0, lock_of st k = Some l -> In (k, l_start l, mc0) tbl -> data_lock l = false \/ In (k, l_start l, mc0) tbl') ->
    (forall ms p s fu ttl mc ao m, c = Prewrite ms p s fu ttl mc ao -> In m ms -> m_key m = k -> is_retry st s k = false ->
        pairs_above t s P = true \/ exists mc', In (k, s, mc') tbl' /\ t < mc') ->
    good3 (fst (step st c)) tbl'.
  Proof.
    intros Hs Hg Hkeep Hpw.
    apply (lock_good_step k t P (recorded tbl) (recorded tbl') st c Hs Hg).
    - intros l El [mc0 [Hin Hlt]]. destruct (Hkeep l mc0 El Hin) as [H|H]; [left; exact H|right; exists mc0; auto].
    - intros ms p s fu ttl mc ao m l' Ec Hin Ek Hold _ _. apply (Hpw _ _ _ _ _ _ _ m Ec Hin Ek). apply not_retry; exact Hold.
  Qed.

  (* an allowed base command is safe for reads of k at t when the lock on k is good *)
  Lemma allowed_safe st tbl c : good3 st tbl -> incl (cmd_pairs c) P -> gc_ok t c = true -> commit_allowed tbl c = true ->
    safe_step_k st c k t = true.
  Proof.
    intros Hg Hi Hgc Ha. apply (lock_good_safe k t P (recorded tbl) st c (key_pairs c k) Hg Hgc).
    - intros x Hx. apply Hi. apply (key_pairs_incl c k); exact Hx.
    - intros l _ [mc [Hin Hlt]]. apply pairs_above_intro. intros cm Hcm.
      unfold commit_allowed in Ha. rewrite forallb_forall in Ha. specialize (Ha _ Hin).
      unfold entry_ok in Ha. cbn [fst snd] in Ha. rewrite forallb_forall in Ha. specialize (Ha _ Hcm). cbn [fst snd] in Ha.
      rewrite N.eqb_refl in Ha. apply N.leb_le in Ha. lia.
  Qed.

  Lemma tbl_update_new tbl ks s mc k0 : In k0 ks -> In (k0, s, mc) (tbl_update tbl ks s mc).
  Proof. intros H. unfold tbl_update. apply in_or_app; left. apply in_map_iff. exists k0. auto. Qed.
  Lemma tbl_update_keep tbl ks s mc e : In e tbl -> (snd (fst e) =? s) && existsb (N.eqb (fst (fst e))) ks = false ->
    In e (tbl_update tbl ks s mc).
  Proof. intros H Hn. unfold tbl_update. apply in_or_app; right. apply filter_In. split; [exact H|]. rewrite Hn. reflexivity. Qed.

  (* max_ts covers the read ts whenever the region's leader is synced *)
  Definition ainv (a : astore) : Prop := keys_sorted (a_st a) /\ (a_sync a = true -> t <= a_max a) /\ good3 (a_st a) (a_tbl a).

  Lemma ainv_base a c m' tbl' sy' : ainv a -> good3 (fst (step (a_st a) c)) tbl' -> (sy' = true -> t <= m') ->
    ainv (mkA (fst (step (a_st a) c)) m' tbl' sy').
  Proof. intros [Hs _] Hg Hm. split; [apply (step_kstep _ c Hs)|split; assumption]. Qed.

  (* a command whose pairs for k all lie above t is safe whatever the lock *)
  Lemma safe_pairs_above st c : gc_ok t c = true -> (forall p, In p (key_pairs c k) -> t < snd p) -> safe_step_k st c k t = true.
  Proof.
    intros Hgc H. unfold safe_step_k. rewrite Hgc. cbn [andb]. destruct (lock_of st k); [|reflexivity].
    apply orb_true_iff; right. apply pairs_above_intro. intros cm Hin. apply (H _ Hin).
  Qed.

  (* a command other than a prewrite keeps the lock good with the same table *)
  Lemma step_good3_other st c tbl : keys_sorted st -> good3 st tbl -> prewrites_key k c = None -> good3 (fst (step st c)) tbl.
  Proof.
    intros Hs Hg Hc. apply (step_good3 st c tbl tbl Hs Hg); [intros; right; assumption|].
    intros ms p s fu ttl mc ao m Ec Hin Ek _. subst c. cbn [prewrites_key] in Hc.
    rewrite (mut_key_in ms m k Hin Ek) in Hc. discriminate.
  Qed.

  (* the prewrite of an async prewrite / 1PC: its min_commit_ts is above max_ts, hence above t, and is recorded for
     every key it newly locks *)
  Lemma async_prewrite_step a ms p s fu ttl rmc ao :
    let mc := async_mc a s fu rmc in
    let pw := Prewrite ms p s fu ttl mc ao in
    let ok := negb (resp_err (snd (step (a_st a) pw))) in
    ainv a -> a_sync a = true ->
    safe_step_k (a_st a) pw k t = true /\
    ainv (mkA (fst (step (a_st a) pw)) (N.max (a_max a) (N.max s fu))
              (if ok then tbl_update (a_tbl a) (fresh_keys (a_st a) ms s) s mc else a_tbl a) true).
  Proof.
    intros mc pw ok Hi Hsy. pose proof Hi as [Hs [Hmax0 Hg]]. pose proof (Hmax0 Hsy) as Hmax.
    split; [apply safe_pairs_above; [reflexivity|intros x []]|]. apply ainv_base; [exact Hi| |intros _; lia].
    subst ok. destruct (resp_err (snd (step (a_st a) pw))) eqn:Ee; cbn [negb].
    - (* refused: nothing changed *)
      assert (Est : fst (step (a_st a) pw) = a_st a).
      { subst pw. cbn [step] in *. destruct (prewrite_all (a_st a) (a_st a) ms p s fu ttl mc ao) as [acc es]. cbn [snd resp_err fst] in *. rewrite Ee. reflexivity. }
      rewrite Est. exact Hg.
    - apply (step_good3 (a_st a) pw (a_tbl a)); [exact Hs|exact Hg| |].
      + (* an entry is dropped only for a key this prewrite newly locks, which then held no Put/Delete lock *)
        intros l mc0 El Hin.
        destruct ((l_start l =? s) && existsb (N.eqb k) (fresh_keys (a_st a) ms s)) eqn:Ex; [left|right; apply tbl_update_keep; assumption].
        apply andb_true_iff in Ex. destruct Ex as [E1 E2]. apply existsb_exists in E2. destruct E2 as [k0 [Hk0 Ek0]].
        apply N.eqb_eq in Ek0. subst k0. unfold fresh_keys in Hk0. apply filter_In in Hk0. destruct Hk0 as [_ Hr].
        apply negb_true_iff in Hr. unfold is_retry in Hr. rewrite El, E1 in Hr. cbn [andb] in Hr. apply negb_false_iff in Hr.
        unfold data_lock. unfold is_pess in Hr. destruct (l_op l); try discriminate; reflexivity.
      + intros ms0 p0 s0 fu0 ttl0 mc0 ao0 m Ec Hin Ek Er. subst pw. inversion Ec; subst. right. exists mc. split.
        * apply tbl_update_new. unfold fresh_keys. apply filter_In. split; [rewrite <- Ek; apply in_map; exact Hin|]. rewrite Er. reflexivity.
        * pose proof (async_mc_above a s0 fu0 rmc). subst mc. lia.
  Qed.

  Lemma astep_stable a c : ainv a -> incl (flat_map cmd_pairs (abase a c)) P -> forallb (gc_ok t) (abase a c) = true ->
    base_rule k t P c = true ->
    stable_suffix_k (a_st a) k t (abase a c) = true /\ ainv (astep a c).
  Proof.
    intros Hi Hinc Hgc Hrule. pose proof Hi as [Hs [Hmax Hg]].
    destruct c as [c|ms p s fu ttl rmc ao|ms p s fu ttl rmc ao|ks s|m|f].
    - (* base request *)
      cbn [abase astep] in *. destruct (commit_allowed (a_tbl a) c) eqn:Ea; [|split; [reflexivity|exact Hi]].
      cbn [flat_map forallb stable_suffix_k] in *. rewrite app_nil_r in Hinc. rewrite andb_true_r in *.
      split; [eapply allowed_safe; eassumption|]. apply ainv_base; [exact Hi| |intros Hsy; specialize (Hmax Hsy); lia].
      apply (step_good3 (a_st a) c (a_tbl a)); [exact Hs|exact Hg|intros; right; assumption|].
      intros ms p s fu ttl mc ao m Ec Hin Ek _. left. subst c. cbn [base_rule] in Hrule. eapply prewrite_rule_above; eassumption.
    - (* async prewrite *)
      cbn [abase astep]. cbv zeta. destruct (a_sync a) eqn:Esy; [|split; [reflexivity|exact Hi]].
      destruct (async_prewrite_step a ms p s fu ttl rmc ao Hi Esy) as [Hsafe Hi1].
      cbn [stable_suffix_k run_from fold_left]. rewrite Hsafe. split; [reflexivity|exact Hi1].
    - (* 1PC: the same prewrite, then, if it passed, the commit at the computed ts *)
      cbn [abase astep]. cbv zeta. destruct (a_sync a) eqn:Esy; [|split; [reflexivity|exact Hi]].
      destruct (async_prewrite_step a ms p s fu ttl rmc ao Hi Esy) as [Hsafe Hi1]. cbv zeta in Hsafe, Hi1.
      destruct (resp_err (snd (step (a_st a) (Prewrite ms p s fu ttl (async_mc a s fu rmc) ao)))); cbn [negb] in *;
        cbn [stable_suffix_k run_from fold_left]; rewrite Hsafe; cbn [andb]; [split; [reflexivity|exact Hi1]|].
      rewrite andb_true_r. split.
      + apply safe_pairs_above; [reflexivity|]. cbn [key_pairs]. destruct (existsb (N.eqb k) (lockable_keys ms)); [|intros x []].
        intros x [E|[]]. subst x. cbn [snd]. pose proof (async_mc_above a s fu rmc). specialize (Hmax eq_refl). lia.
      + apply (ainv_base _ _ _ _ _ Hi1); [|exact (proj1 (proj2 Hi1))]. apply step_good3_other; [exact (proj1 Hi1)|exact (proj2 (proj2 Hi1))|reflexivity].
    - (* CheckSecondaryLocks: rollback records for the missing locks *)
      cbn [abase astep stable_suffix_k run_from fold_left]. rewrite andb_true_r.
      split; [apply safe_pairs_above; [reflexivity|intros x []]|]. apply ainv_base; [exact Hi| |exact Hmax].
      apply step_good3_other; [exact Hs|exact Hg|reflexivity].
    - (* leader transfer: max_ts is unknown, nothing async is served until the refresh *)
      cbn [abase astep stable_suffix_k]. split; [reflexivity|]. split; [exact Hs|]. split; [cbn [a_sync]; discriminate|exact Hg].
    - (* refresh with a timestamp issued after t *)
      cbn [abase astep stable_suffix_k base_rule] in *. apply N.leb_le in Hrule.
      split; [reflexivity|]. split; [exact Hs|]. split; [cbn [a_max]; intros _; lia|exact Hg].
  Qed.

  Lemma arun_stable : forall b a, ainv a -> incl (flat_map cmd_pairs (abase_run a b)) P ->
    forallb (gc_ok t) (abase_run a b) = true -> forallb (base_rule k t P) b = true ->
    stable_suffix_k (a_st a) k t (abase_run a b) = true.
  Proof.
    induction b as [|c r IH]; intros a Hi Hinc Hgc Hr; [reflexivity|].
    cbn [abase_run forallb] in *. rewrite flat_map_app in Hinc. rewrite forallb_app in Hgc.
    apply andb_true_iff in Hgc. destruct Hgc as [Hgc1 Hgc2]. apply andb_true_iff in Hr. destruct Hr as [Hr1 Hr2].
    destruct (astep_stable a c Hi) as [H1 H2]; [intros x Hx; apply Hinc; apply in_or_app; left; exact Hx|exact Hgc1|exact Hr1|].
    rewrite stable_suffix_k_app, H1. cbn [andb]. rewrite <- astep_st.
    apply IH; [exact H2|intros x Hx; apply Hinc; apply in_or_app; right; exact Hx|exact Hgc2|exact Hr2].
  Qed.
End AStable.

(* a read of k at t was served (max_ts >= t) on the store reached by [a]; [b] follows. No hypothesis on the async
   prewrites / 1PC requests in [b]. *)
Theorem async_read_stable a b k t :
  let A := arun a in
  let B := abase_run A b in
  oracle_ts (abase_run a0 a ++ B) = true -> t <= a_max A ->
  forallb (gc_ok t) B = true -> forallb (base_rule k t (flat_map cmd_pairs B)) b = true ->
  met_rule (a_st A) k t (flat_map cmd_pairs B) = true ->
  a_st (arun (a ++ b)) = run (abase_run a0 a ++ B) /\
  read_at (a_st (arun (a ++ b))) k t = read_at (a_st A) k t.
Proof.
  intros A B Ho Hmax Hgc Hrule Hmet.
  assert (EA : a_st A = run (abase_run a0 a)) by (unfold A, arun; rewrite arun_from_st; reflexivity).
  assert (E : a_st (arun (a ++ b)) = run (abase_run a0 a ++ B)).
  { rewrite arun_app. fold A. rewrite arun_from_st. fold B. rewrite run_app, <- EA. reflexivity. }
  split; [exact E|]. rewrite E, EA. apply read_stable_k; [exact Ho|]. rewrite <- EA.
  destruct (oracle_app_wf _ _ Ho) as [HW [Hwf _]]. rewrite <- EA in Hwf.
  apply arun_stable with (P := flat_map cmd_pairs B); [|apply incl_refl|exact Hgc|exact Hrule].
  split; [exact (proj1 Hwf)|]. split; [intros _; exact Hmax|].
  apply (lock_good_weaken k t _ (fun _ => False) (recorded k t (a_tbl A))); [intros s0 []|].
  eapply met_rule_good; [exact HW|apply suffix_pairs_incl|exact Hmet].
Qed.

(* client rule: every timestamp in a request was issued by the oracle earlier (<= T, the latest one issued); a
   requested min_commit_ts is at most T + 1 (client-go: latest ts seen + 1) *)
Definition acmd_ok (T : ts) (c : acmd) : bool :=
  match c with
  | ABase c0 => bump_ts c0 <=? T
  | AsyncPrewrite _ _ s fu _ rmc _ | OnePC _ _ s fu _ rmc _ => (s <=? T) && (fu <=? T) && (rmc <=? T + 1)
  | ACheckSecondary _ _ => true
  | ATransfer m => m <=? T        (* the new leader has only seen timestamps the oracle issued *)
  | ARefresh f => f =? T          (* the refresh installs the timestamp just fetched from the oracle *)
  end.
Inductive jev :=
| JTso (t : ts)        (* the oracle issues t *)
| JReq (c : acmd)      (* the store executes a request *)
| JAck (c : ts).       (* an async-commit / 1PC transaction is acknowledged with commit ts c *)
(* rules along a joint trace: the oracle is strictly increasing; requests obey [acmd_ok]; an acknowledged commit ts
   is one of the min_commit_ts values the store returned (async commit: the maximum of the prewrite responses; 1PC:
   the one-pc commit ts) *)
Fixpoint jrules (a : astore) (T : ts) (ret : list ts) (tr : list jev) : bool :=
  match tr with
  | [] => true
  | JTso t :: r => (T <? t) && jrules a t ret r
  | JReq c :: r => acmd_ok T c && jrules (astep a c) T (returned_mc a c ++ ret) r
  | JAck c :: r => existsb (N.eqb c) ret && jrules a T ret r
  end.

Lemma astep_bound a T c : acmd_ok T c = true -> a_max a <= T ->
  a_max (astep a c) <= T /\ forall x, In x (returned_mc a c) -> x <= T + 1.
Proof.
  intros Hok Hm.
  (* an async prewrite and a 1PC request move max_ts and answer in the same way *)
  assert (Hasync : forall s fu rmc, (s <=? T) && (fu <=? T) && (rmc <=? T + 1) = true ->
            N.max (a_max a) (N.max s fu) <= T /\ async_mc a s fu rmc <= T + 1).
  { intros s fu rmc H. apply andb_true_iff in H. destruct H as [H H3]. apply andb_true_iff in H. destruct H as [H1 H2].
    apply N.leb_le in H1, H2, H3. unfold async_mc. lia. }
  destruct c as [c|ms p s fu ttl rmc ao|ms p s fu ttl rmc ao|ks s|m|f]; cbn [acmd_ok returned_mc astep] in *.
  2,3: destruct (Hasync _ _ _ Hok) as [H1 H2]; cbv zeta; destruct (a_sync a); [|split; [exact Hm|intros x []]];
    (split; [exact H1|]); intros x [E|[]]; subst x; exact H2.
  - split; [|intros x []]. apply N.leb_le in Hok. destruct (commit_allowed (a_tbl a) c); cbn [a_max]; lia.
  - cbn [a_max]. split; [exact Hm|intros x []].
  - apply N.leb_le in Hok. cbn [a_max]. split; [exact Hok|intros x []].
  - apply N.eqb_eq in Hok. cbn [a_max]. split; [lia|intros x []].
Qed.

Lemma jprefix : forall p a T ret rest, jrules a T ret (p ++ rest) = true -> a_max a <= T -> (forall x, In x ret -> x <= T + 1) ->
  exists a' T' ret', T <= T' /\ a_max a' <= T' /\ (forall x, In x ret' -> x <= T' + 1) /\ jrules a' T' ret' rest = true.
Proof.
  induction p as [|e r IH]; intros a T ret rest H Hm Hr.
  - exists a, T, ret. repeat split; auto. lia.
  - cbn [app jrules] in H. destruct e as [t|c|c]; apply andb_true_iff in H; destruct H as [H1 H2].
    + apply N.ltb_lt in H1. destruct (IH a t ret rest H2) as [a' [T' [ret' [Hle Hrest]]]]; [lia|intros x Hx; specialize (Hr x Hx); lia|].
      exists a', T', ret'. split; [lia|exact Hrest].
    + destruct (astep_bound a T c H1 Hm) as [Hm' Hret].
      destruct (IH (astep a c) T (returned_mc a c ++ ret) rest H2 Hm') as [a' [T' [ret' Hrest]]].
      * intros x Hx. apply in_app_or in Hx. destruct Hx as [Hx|Hx]; [apply Hret; exact Hx|apply Hr; exact Hx].
      * exists a', T', ret'. exact Hrest.
    + apply (IH a T ret rest H2 Hm Hr).
Qed.

(* every timestamp the oracle issues after the acknowledgement of an async-commit / 1PC transaction is at or above
   its commit ts: a transaction that begins afterwards sees it *)
Theorem async_external_consistency p c q s r :
  jrules a0 0 [] (p ++ JAck c :: q ++ JTso s :: r) = true -> c <= s.
Proof.
  intros H. destruct (jprefix p a0 0 [] _ H) as [a1 [T1 [ret1 [_ [Hm1 [Hr1 H1]]]]]]; [cbn; lia|intros x []|].
  cbn [jrules] in H1. apply andb_true_iff in H1. destruct H1 as [Hack H1].
  apply existsb_exists in Hack. destruct Hack as [x [Hx Ex]]. apply N.eqb_eq in Ex. subst x. pose proof (Hr1 c Hx) as Hc.
  destruct (jprefix q a1 T1 ret1 _ H1 Hm1 Hr1) as [a2 [T2 [ret2 [Hle [_ [_ H2]]]]]].
  cbn [jrules] in H2. apply andb_true_iff in H2. destruct H2 as [Hlt _]. apply N.ltb_lt in Hlt. lia.
Qed.

Lemma served_get_max a k t rs : t <> max_ts -> t <= a_max (astep a (ABase (Get k t rs))).
Proof.
  intros Hne. pose proof (read_bumps a (Get k t rs) eq_refl) as H. cbn [bump_ts] in H.
  destruct (N.eqb_spec t max_ts); [contradiction|]. exact H.
Qed.

(* the refresh rule of [base_rule] follows from the joint-trace rules: once the oracle has issued t, every later refresh
   installs a timestamp >= t *)
Fixpoint reqs_of (tr : list jev) : list acmd :=
  match tr with [] => [] | JReq c :: r => c :: reqs_of r | _ :: r => reqs_of r end.
Lemma jrules_refresh t : forall tr a T ret, jrules a T ret tr = true -> t <= T ->
  forallb (fun c => match c with ARefresh f => t <=? f | _ => true end) (reqs_of tr) = true.
Proof.
  induction tr as [|[t'|c|c] r IH]; intros a T ret H HT; cbn [jrules reqs_of forallb] in *; [reflexivity| | |];
    apply andb_true_iff in H; destruct H as [H1 H2].
  - apply N.ltb_lt in H1. apply (IH a t' ret H2). lia.
  - apply andb_true_iff; split; [|apply (IH _ _ _ H2 HT)].
    destruct c; try reflexivity. cbn [acmd_ok] in H1. apply N.eqb_eq in H1. apply N.leb_le. lia.
  - apply (IH a T ret H2 HT).
Qed.
