(* SI/ProofsKeyed.v — read stability with the per-key predicate [stable_suffix_k]: a commit of transaction s on
   OTHER keys, whatever its commit ts, does not matter for reads of k. The per-command predicate [stable_suffix]
   implies the per-key one, so its theorem is a corollary. *)
From Verif Require Import SI.Model SI.ProofsRead Mvcc.ProofsStore Mvcc.ProofsKey Mvcc.ProofsStep.

Lemma bfe_other st f k : keys_sorted st -> forall ks acc, keys_sorted acc -> ~ In k ks ->
  get_ks acc k = get_ks st k -> get_ks (fst (batch_first_err st acc f ks)) k = get_ks st k.
Proof.
  intros Hs. induction ks as [|k0 r IH]; intros acc Hacc Hni E; cbn [batch_first_err]; [exact E|].
  destruct (f (get_ks st k0)) as [e|o]; [reflexivity|].
  apply IH; [apply sorted_apply_opt; exact Hacc|intros H; apply Hni; right; exact H|].
  rewrite get_apply_opt by exact Hacc. destruct (N.eqb_spec k k0) as [Ek|Ek]; [exfalso; apply Hni; left; congruence|exact E].
Qed.

Lemma notin_existsb k ks : existsb (N.eqb k) ks = false -> ~ In k ks.
Proof.
  intros H Hin. assert (existsb (N.eqb k) ks = true); [|congruence]. apply existsb_exists. exists k. split; [exact Hin|apply N.eqb_refl].
Qed.

Lemma restrict_same st c k : keys_sorted st -> get_ks (fst (step st (restrict c k))) k = get_ks (fst (step st c)) k.
Proof.
  intros Hs. destruct c; cbn [restrict]; try reflexivity.
  - destruct (existsb (N.eqb k) ks) eqn:E; [reflexivity|]. cbn [step fst]. symmetry.
    apply bfe_other; [exact Hs|exact Hs|apply notin_existsb; exact E|reflexivity].
  - destruct (in_range s e k) eqn:E; [reflexivity|]. cbn [step fst]. rewrite map_range_get by exact Hs. rewrite E. reflexivity.
  - destruct (in_range s e k) eqn:E; [reflexivity|]. cbn [step fst]. rewrite map_range_get by exact Hs. rewrite E. reflexivity.
Qed.

Lemma restrict_pairs c k : cmd_pairs (restrict c k) = key_pairs c k.
Proof.
  destruct c; cbn [restrict key_pairs cmd_pairs]; try reflexivity.
  - destruct (existsb (N.eqb k) ks); reflexivity.
  - destruct (in_range s e k); cbn [andb cmd_pairs]; reflexivity.
  - destruct (in_range s e k); reflexivity.
Qed.

Lemma restrict_gc c k t : gc_ok t (restrict c k) = gc_ok t c.
Proof.
  destruct c; cbn [restrict gc_ok]; try reflexivity.
  - destruct (existsb (N.eqb k) ks); reflexivity.
  - destruct (in_range s e k); reflexivity.
  - destruct (in_range s e k); reflexivity.
Qed.

Lemma restrict_cmd_in W c k : cmd_in W c -> cmd_in W (restrict c k).
Proof.
  intros H. assert (N : cmd_in W (ScanLock 0 0 0)) by (split; intros x []).
  destruct c; cbn [restrict]; try exact H.
  - destruct (existsb (N.eqb k) ks); assumption.
  - destruct (in_range s e k); assumption.
  - destruct (in_range s e k); assumption.
Qed.

Lemma safe_step_restrict st c k t : safe_step st (restrict c k) k t = safe_step_k st c k t.
Proof. unfold safe_step, safe_step_k. rewrite restrict_gc, restrict_pairs. reflexivity. Qed.

Section StableK.
  Variable W : world.
  Hypothesis HW : World_ok W.

  Lemma step_read_stable_k st c k t : wf_store W st -> cmd_in W c -> safe_step_k st c k t = true ->
    read_at (fst (step st c)) k t = read_at st k t.
  Proof.
    intros Hwf Hc Hsafe. rewrite <- safe_step_restrict in Hsafe.
    pose proof (step_read_stable W HW st (restrict c k) k t Hwf (restrict_cmd_in W c k Hc) Hsafe) as H.
    unfold read_at, writes_of in *. rewrite restrict_same in H by exact (proj1 Hwf). exact H.
  Qed.

End StableK.

Lemma read_stable_k a b k t : oracle_ts (a ++ b) = true -> stable_suffix_k (run a) k t b = true ->
  read_at (run (a ++ b)) k t = read_at (run a) k t.
Proof.
  apply (read_stable_under (fun st c => safe_step_k st c k t) (fun st r => stable_suffix_k st k t r)); [reflexivity|].
  intros W st c HW. apply (step_read_stable_k W HW).
Qed.

Lemma key_pairs_incl c k : incl (key_pairs c k) (cmd_pairs c).
Proof.
  destruct c; cbn [key_pairs cmd_pairs]; try (intros x []).
  - destruct (existsb (N.eqb k) ks); [apply incl_refl|intros x []].
  - destruct (in_range s e k); cbn [andb]; [apply incl_refl|]. destruct (0 <? commit); intros x [].
  - destruct (in_range s e k); [apply incl_refl|intros x []].
Qed.

Lemma stable_suffix_weaken k t : forall b st, stable_suffix st k t b = true -> stable_suffix_k st k t b = true.
Proof.
  induction b as [|c r IH]; intros st H; [reflexivity|]. cbn [stable_suffix stable_suffix_k] in *.
  apply andb_true_iff in H. destruct H as [H1 H2]. apply andb_true_iff; split; [|apply IH; exact H2].
  unfold safe_step, safe_step_k in *. apply andb_true_iff in H1. destruct H1 as [Hg Hl]. rewrite Hg. cbn [andb].
  destruct (lock_of st k) as [l|]; [|reflexivity]. apply orb_true_iff in Hl. destruct Hl as [Hl|Hl]; [rewrite Hl; reflexivity|].
  apply orb_true_iff; right. eapply pairs_above_incl; [apply key_pairs_incl|exact Hl].
Qed.

Lemma read_stable a b k t : oracle_ts (a ++ b) = true -> stable_suffix (run a) k t b = true ->
  read_at (run (a ++ b)) k t = read_at (run a) k t.
Proof. intros Ho Hsf. apply read_stable_k; [exact Ho|apply stable_suffix_weaken; exact Hsf]. Qed.
