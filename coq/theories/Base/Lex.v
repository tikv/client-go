(* Base/Lex.v — bytes as N, byte strings as list N, lexicographic order
   (= Go's bytes.Compare; cross-checked by the codec harness). *)
From Coq Require Export List NArith ZArith Lia Bool.
Export ListNotations.
Open Scope N_scope.

Notation byte := N (only parsing).
Notation bytes := (list N) (only parsing).

Definition wf_byte (b : N) : Prop := b < 256.
Definition wf_bytes (l : list N) : Prop := Forall wf_byte l.
Definition wf_byteb (b : N) : bool := b <? 256.
Definition wf_bytesb (l : list N) : bool := forallb wf_byteb l.

Fixpoint lex_cmp (a b : list N) : comparison :=
  match a, b with
  | [], [] => Eq
  | [], _ :: _ => Lt
  | _ :: _, [] => Gt
  | x :: a', y :: b' =>
      match N.compare x y with
      | Eq => lex_cmp a' b'
      | c => c
      end
  end.

Definition lex_lt a b := lex_cmp a b = Lt.
Definition lex_le a b := lex_cmp a b <> Gt.
Definition lex_ltb a b := match lex_cmp a b with Lt => true | _ => false end.
Definition lex_leb a b := match lex_cmp a b with Gt => false | _ => true end.
Definition bytes_eqb a b := match lex_cmp a b with Eq => true | _ => false end.

Lemma wf_bytesb_spec l : wf_bytesb l = true <-> wf_bytes l.
Proof.
  unfold wf_bytesb, wf_bytes. rewrite forallb_forall, Forall_forall.
  unfold wf_byteb, wf_byte. split; intros H x Hx; apply N.ltb_lt, H, Hx.
Qed.

Lemma lex_cmp_refl a : lex_cmp a a = Eq.
Proof. induction a as [|x a IH]; cbn [lex_cmp]; [reflexivity|]. rewrite N.compare_refl. exact IH. Qed.

Lemma lex_cmp_eq a b : lex_cmp a b = Eq <-> a = b.
Proof.
  split; [|intros ->; apply lex_cmp_refl].
  revert b; induction a as [|x a IH]; intros [|y b]; cbn [lex_cmp]; try discriminate; [reflexivity|].
  destruct (N.compare x y) eqn:E; try discriminate.
  apply N.compare_eq in E; subst. intros H; f_equal; apply IH; exact H.
Qed.

Lemma lex_cmp_antisym a b : lex_cmp b a = CompOpp (lex_cmp a b).
Proof.
  revert b; induction a as [|x a IH]; intros [|y b]; cbn [lex_cmp]; try reflexivity.
  rewrite (N.compare_antisym x y). destruct (N.compare x y); cbn; [apply IH|reflexivity|reflexivity].
Qed.

Lemma lex_cmp_app_same p a b : lex_cmp (p ++ a) (p ++ b) = lex_cmp a b.
Proof. induction p as [|x p IH]; cbn [app lex_cmp]; [reflexivity|]. rewrite N.compare_refl; exact IH. Qed.

Lemma lex_cmp_lt_trans a b c : lex_cmp a b = Lt -> lex_cmp b c = Lt -> lex_cmp a c = Lt.
Proof.
  revert b c; induction a as [|x a IH]; intros [|y b] [|z c]; cbn [lex_cmp]; try discriminate; try reflexivity.
  destruct (N.compare x y) eqn:E1; destruct (N.compare y z) eqn:E2; try discriminate; intros H1 H2.
  - apply N.compare_eq in E1; apply N.compare_eq in E2; subst. rewrite N.compare_refl. eapply IH; eassumption.
  - apply N.compare_eq in E1; subst. rewrite E2; reflexivity.
  - apply N.compare_eq in E2; subst. rewrite E1; reflexivity.
  - rewrite N.compare_lt_iff in *. replace (N.compare x z) with Lt; [reflexivity|].
    symmetry; apply N.compare_lt_iff; lia.
Qed.

Lemma lex_cmp_nil_l b : lex_cmp [] b <> Gt.
Proof. destruct b; cbn; discriminate. Qed.

(* first difference: equal-length lists compare by their heads first *)
Lemma lex_cmp_app_eqlen a1 a2 b1 b2 :
  length a1 = length b1 ->
  lex_cmp (a1 ++ a2) (b1 ++ b2) =
    match lex_cmp a1 b1 with Eq => lex_cmp a2 b2 | c => c end.
Proof.
  revert b1; induction a1 as [|x a1 IH]; intros [|y b1] Hl; cbn in Hl; try discriminate; cbn [app lex_cmp].
  - reflexivity.
  - destruct (N.compare x y); [apply IH; lia|reflexivity|reflexivity].
Qed.

Lemma lex_ltb_lt a b : lex_ltb a b = true <-> lex_lt a b.
Proof. unfold lex_ltb, lex_lt. destruct (lex_cmp a b); split; congruence. Qed.

Lemma bytes_eqb_eq a b : bytes_eqb a b = true <-> a = b.
Proof. unfold bytes_eqb. rewrite <- lex_cmp_eq. destruct (lex_cmp a b); split; congruence. Qed.

Lemma lex_leb_le a b : lex_leb a b = true <-> lex_le a b.
Proof. unfold lex_leb, lex_le. destruct (lex_cmp a b); split; congruence. Qed.

Lemma lex_le_refl a : lex_le a a.
Proof. unfold lex_le. rewrite lex_cmp_refl. discriminate. Qed.

Lemma lex_lt_irrefl a : ~ lex_lt a a.
Proof. unfold lex_lt. rewrite lex_cmp_refl. discriminate. Qed.

Lemma lex_le_cases a b : lex_le a b <-> lex_lt a b \/ a = b.
Proof. rewrite <- lex_cmp_eq. unfold lex_le, lex_lt. destruct (lex_cmp a b); intuition congruence. Qed.

(* [b <= a] fails exactly when [a < b]: the order is total *)
Lemma lex_lt_not_le a b : lex_lt a b <-> ~ lex_le b a.
Proof. unfold lex_lt, lex_le. rewrite (lex_cmp_antisym a b). destruct (lex_cmp a b); cbn; intuition congruence. Qed.

Lemma lex_leb_false a b : lex_leb a b = false <-> lex_lt b a.
Proof. rewrite lex_lt_not_le, <- lex_leb_le. destruct (lex_leb a b); intuition congruence. Qed.

Lemma lex_ltb_false a b : lex_ltb a b = false <-> lex_le b a.
Proof. unfold lex_ltb, lex_le. rewrite (lex_cmp_antisym a b). destruct (lex_cmp a b); cbn; intuition congruence. Qed.

Lemma lex_lt_le_trans a b c : lex_lt a b -> lex_le b c -> lex_lt a c.
Proof. intros H1 H2. apply lex_le_cases in H2 as [H2| <-]; [exact (lex_cmp_lt_trans _ _ _ H1 H2)|exact H1]. Qed.

Lemma lex_le_app p x : lex_le p (p ++ x).
Proof. unfold lex_le. rewrite <- (app_nil_r p) at 1. rewrite lex_cmp_app_same. apply lex_cmp_nil_l. Qed.
