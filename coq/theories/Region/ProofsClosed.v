(* Region/ProofsClosed.v — what holds of a lookup whatever PD answers (nothing, gaps, leaderless regions, stale data). The case
   analysis of findRegionByKey comes first, as a rule that containment (ProofsContains.v) uses too. Then the back-off budget:
   the retry loops around PD (loadRegion, scanRegions, batchScanRegions) consult PD at most [budget] times and, with the budget used
   up, a lookup returns an error with the cache untouched. Then what a lookup can do to the cache: every lookup API changes it only
   by inserting regions made from PD answers (insert_new / insert_all) and by clearing / setting the reload flags of an entry; hence
   a predicate on caches that is kept by those three steps is kept by every lookup ([Hd] = what PD's answers are known to satisfy).
   Used for the reachability of the convergence invariant (ProofsReach.v). *)
From Verif Require Import Base.Lex Region.Model.
Open Scope N_scope.

(* the ways findRegionByKey ends, as a rule for any claim Q about a lookup started at cache c and clock t: the cached entry
   (untouched, or after a failed reload), a region loaded from PD and inserted into c or into c with the entry's access
   flags cleared, the error of the load, or the same again from the cache a refused insertion leaves *)
Section Lookup.
Variable pd : nat -> pd_req -> pd_ans.
Variables budget fuel : nat.
Variable key : bytes.
Variable is_end : bool.
Variable Q : cache -> nat -> res region * cache * nat -> Prop.
Hypothesis Q_hit : forall c t x, search (c_sorted c) key is_end = Some x -> Q c t (Ok x, c, t).
Hypothesis Q_failed : forall c t x e t1, search (c_sorted c) key is_end = Some x ->
  load_for pd budget c fuel t key is_end = (Err e, t1) -> Q c t (Ok x, upd_entry (upd_entry c x clear_access_flags) x set_reload, t1).
Hypothesis Q_loaded : forall c t c0 lr t1, c0 = c \/ (exists x, c0 = upd_entry c x clear_access_flags) ->
  load_for pd budget c fuel t key is_end = (Ok lr, t1) -> Q c t (Ok (as_stored c0 lr), snd (insert_new c0 lr), t1).
Hypothesis Q_err : forall c t e t1, load_for pd budget c fuel t key is_end = (Err e, t1) -> Q c t (Err e, c, t1).
Hypothesis Q_again : forall c t lr t1 res, load_for pd budget c fuel t key is_end = (Ok lr, t1) ->
  Q (snd (insert_new c lr)) t1 res -> Q c t res.

Lemma find_region_by_key_cases c t : Q c t (find_region_by_key pd budget fuel t c key is_end).
Proof.
  unfold find_region_by_key.
  assert (Hmiss : Q c t
    match load_for pd budget c fuel t key is_end with
    | (Err e, t1) => (Err e, c, t1)
    | (Ok lr, t1) =>
        let '(ok, c1) := insert_new c lr in
        if ok then (Ok (as_stored c lr), c1, t1)
        else match load_for pd budget c1 fuel t1 key is_end with
             | (Err e, t2) => (Err e, c1, t2)
             | (Ok lr2, t2) => (Ok (as_stored c1 lr2), snd (insert_new c1 lr2), t2)
             end
    end).
  { destruct (load_for pd budget c fuel t key is_end) as [[lr|e] t1] eqn:E1; [|apply Q_err; exact E1].
    destruct (insert_new c lr) as [ok c1] eqn:Ei. replace c1 with (snd (insert_new c lr)) by (rewrite Ei; reflexivity).
    destruct ok; [apply Q_loaded; [left; reflexivity|exact E1]|]. apply (Q_again c t lr t1 _ E1).
    destruct (load_for pd budget (snd (insert_new c lr)) fuel t1 key is_end) as [[lr2|e] t2] eqn:E2;
      [apply Q_loaded; [left; reflexivity|exact E2]|apply Q_err; exact E2]. }
  destruct (search (c_sorted c) key is_end) as [x|] eqn:Es; [|exact Hmiss].
  destruct (r_expired x); [exact Hmiss|]. destruct (flagged x); [|apply Q_hit; exact Es].
  destruct (load_for pd budget c fuel t key is_end) as [[lr|e] t1] eqn:E1;
    [apply Q_loaded; [right; exists x; reflexivity|exact E1]|apply (Q_failed _ _ _ _ _ Es E1)].
Qed.
End Lookup.

(* the same for LocateRegionByID, which makes one attempt: the cached entry (untouched, or after a failed reload), a region loaded
   from PD and inserted, or the error of the load *)
Section LookupById.
Variable pd : nat -> pd_req -> pd_ans.
Variables budget t : nat.
Variable c : cache.
Variable id : N.
Variable Q : res region * cache * nat -> Prop.
Hypothesis Q_hit : forall x, search_by_id c id = Some x -> Q (Ok x, c, t).
Hypothesis Q_failed : forall x e t1, search_by_id c id = Some x -> load_by_id pd budget t id = (Err e, t1) ->
  Q (Ok x, upd_entry (upd_entry c x clear_access_flags) x set_reload, t1).
Hypothesis Q_loaded : forall c0 lr t1, c0 = c \/ (exists x, c0 = upd_entry c x clear_access_flags) ->
  load_by_id pd budget t id = (Ok lr, t1) -> Q (Ok lr, snd (insert_new c0 lr), t1).
Hypothesis Q_err : forall e t1, load_by_id pd budget t id = (Err e, t1) -> Q (Err e, c, t1).

Lemma locate_by_id_cases : Q (locate_by_id pd budget t c id).
Proof.
  unfold locate_by_id.
  (* c, t and id are fixed: each case analysis rewrites the premises of the four hypotheses too, which reflexivity then meets *)
  assert (Hmiss : Q match load_by_id pd budget t id with
                    | (Err e, t1) => (Err e, c, t1)
                    | (Ok lr, t1) => (Ok lr, snd (insert_new c lr), t1)
                    end).
  { destruct (load_by_id pd budget t id) as [[lr|e] t1]; [apply Q_loaded; [left; reflexivity|reflexivity]|apply Q_err; reflexivity]. }
  destruct (search_by_id c id) as [x|]; [|exact Hmiss].
  destruct (r_expired x); [exact Hmiss|]. destruct (flagged x); [|apply Q_hit; reflexivity].
  destruct (load_by_id pd budget t id) as [[lr|e] t1]; [apply Q_loaded; [right; exists x; reflexivity|reflexivity]|apply (Q_failed x e t1 eq_refl eq_refl)].
Qed.
End LookupById.

Section Budget.
Variable pd : nat -> pd_req -> pd_ans.
Variable budget : nat.

Lemma call_budget t q a : call pd budget t q = Some a -> (t < budget)%nat.
Proof. unfold call. destruct (Nat.ltb t budget) eqn:E; [intros _; apply Nat.ltb_lt; exact E|discriminate]. Qed.

(* a loop returns with the clock where it is, or just after a call, which is only made below the budget *)
Lemma clock_now {A} {r r' : A} {t t' : nat} : (r, t) = (r', t') -> (t <= t' <= Nat.max t budget)%nat.
Proof. intros H; injection H as _ <-; lia. Qed.
Lemma clock_called {A} {r r' : A} {t t' : nat} : (t < budget)%nat -> (r, S t) = (r', t') -> (t <= t' <= Nat.max t budget)%nat.
Proof. intros Hb H; injection H as _ <-; lia. Qed.

Lemma load_region_bounded : forall fuel t key is_end prev r t',
  load_region pd budget fuel t key is_end prev = (r, t') -> (t <= t' <= Nat.max t budget)%nat.
Proof.
  induction fuel as [|f IH]; intros t key is_end prev r t'; cbn [load_region]; [apply clock_now|].
  destruct (call pd budget t (if prev then ReqPrev key else ReqGet key)) as [a|] eqn:Ec; [|apply clock_now].
  apply call_budget in Ec. destruct a as [[d|]|l]; [| |apply (clock_called Ec)].
  - destruct (is_nil (d_peers d)); [apply (clock_called Ec)|].
    destruct (is_end && negb prev && bytes_eqb (d_start d) key && negb (is_nil (d_start d))); [|apply (clock_called Ec)].
    intros H. apply IH in H. lia.
  - intros H. apply IH in H. lia.
Qed.
Lemma scan_loop_bounded : forall fuel t q rs limit nl r t',
  scan_loop pd budget fuel t q rs limit nl = (r, t') -> (t <= t' <= Nat.max t budget)%nat.
Proof.
  induction fuel as [|f IH]; intros t q rs limit nl r t'; cbn [scan_loop]; [apply clock_now|].
  destruct (call pd budget t q) as [a|] eqn:Ec; [|apply clock_now].
  apply call_budget in Ec. destruct a as [d|infos]; [apply (clock_called Ec)|].
  destruct (is_nil infos); [intros H; apply IH in H; lia|].
  destruct (regions_have_gap rs infos limit); [intros H; apply IH in H; lia|].
  destruct (handle_infos infos nl) as [[|r0 rs']|e]; [intros H; apply IH in H; lia|apply (clock_called Ec)|apply (clock_called Ec)].
Qed.

Lemma load_last_bounded : forall fuel t start r t',
  load_last pd budget fuel t start = (r, t') -> (t <= t' <= Nat.max t budget)%nat.
Proof.
  induction fuel as [|f IH]; intros t start r t'; cbn [load_last]; [apply clock_now|].
  destruct (scan_loop pd budget (S f) t (ReqScan start [] 128) [(start, [])] 128 true) as [[regs|e] t1] eqn:Es; apply scan_loop_bounded in Es;
    [|intros H; injection H as _ <-; lia].
  destruct (rev regs) as [|lastr x]; [intros H; injection H as _ <-; lia|].
  destruct (is_nil (r_end lastr)); [intros H; injection H as _ <-; lia|]. intros H. apply IH in H. lia.
Qed.
Lemma load_for_bounded c fuel t key is_end r t' :
  load_for pd budget c fuel t key is_end = (r, t') -> (t <= t' <= Nat.max t budget)%nat.
Proof. unfold load_for. destruct (is_end && is_nil key); [apply load_last_bounded|apply load_region_bounded]. Qed.

(* LocateKey / LocateEndKey *)
Lemma find_region_by_key_bounded fuel t c key is_end r c' t' :
  find_region_by_key pd budget fuel t c key is_end = (r, c', t') -> (t <= t' <= Nat.max t budget)%nat.
Proof.
  intros H. change t' with (snd (r, c', t')). rewrite <- H.
  apply (find_region_by_key_cases pd budget fuel key is_end (fun _ t res => (t <= snd res <= Nat.max t budget)%nat)); cbn [snd].
  - intros _ t0 x _. lia.
  - intros c0 t0 x e t1 _ Hl. exact (load_for_bounded _ _ _ _ _ _ _ Hl).
  - intros c0 t0 c1 lr t1 _ Hl. exact (load_for_bounded _ _ _ _ _ _ _ Hl).
  - intros c0 t0 e t1 Hl. exact (load_for_bounded _ _ _ _ _ _ _ Hl).
  - intros c0 t0 lr t1 res Hl H1. apply load_for_bounded in Hl. lia.
Qed.
(* with the budget used up a cache miss is an error, and nothing is changed *)
Lemma find_region_by_key_exhausted fuel t c key is_end : (budget <= t)%nat -> (0 < fuel)%nat ->
  search (c_sorted c) key is_end = None -> find_region_by_key pd budget fuel t c key is_end = (Err 1, c, t).
Proof.
  intros Hb Hf Hs. unfold find_region_by_key. rewrite Hs. destruct fuel as [|f]; [lia|].
  assert (Hc : forall q, call pd budget t q = None).
  { intros q. unfold call. replace (Nat.ltb t budget) with false by (symmetry; apply Nat.ltb_ge; exact Hb). reflexivity. }
  unfold load_for. destruct (is_end && is_nil key).
  - cbn [load_last scan_loop]. rewrite Hc. reflexivity.
  - cbn [load_region]. rewrite Hc. reflexivity.
Qed.
End Budget.

Section Closed.
Variable pd : nat -> pd_req -> pd_ans.
Variable budget batch_limit : nat.
Variable Hd : desc -> Prop.
Hypothesis Hpd : forall t q, match pd t q with PdOne (Some d) => Hd d | PdOne None => True | PdMany l => Forall Hd l end.
(* a region object as loadRegion / scanRegions make it: newRegion of an answer with peers *)
Definition from_pd (r : region) : Prop := exists d, Hd d /\ d_peers d <> [] /\ r = new_region d.
Variable P : cache -> Prop.
Hypothesis P_ins : forall c r, P c -> from_pd r -> P (snd (insert_new c r)).
Hypothesis P_clear : forall c r, P c -> P (upd_entry c r clear_access_flags).
Hypothesis P_reload : forall c r, P c -> P (upd_entry c r set_reload).

(* a result that hands the cache on as it is *)
Lemma same_cache {A} {x y : A} {c c' : cache} {t t' : nat} : P c -> (x, c, t) = (y, c', t') -> P c'.
Proof. intros Hc H. injection H as _ <- _. exact Hc. Qed.

Lemma call_Hd t q a : call pd budget t q = Some a ->
  match a with PdOne (Some d) => Hd d | PdOne None => True | PdMany l => Forall Hd l end.
Proof. unfold call. destruct (Nat.ltb t budget); [|discriminate]. intros H; injection H as <-. apply Hpd. Qed.

Lemma handle_infos_from_pd nl : forall infos rs, Forall Hd infos -> handle_infos infos nl = Ok rs -> Forall from_pd rs.
Proof.
  induction infos as [|d t IH]; intros rs Hf; cbn [handle_infos]; [intros H; injection H as <-; constructor|].
  inversion Hf as [|? ? Hd0 Hft]; subst.
  destruct (nl && (fst (d_leader d) =? 0)); [apply IH; exact Hft|].
  destruct (is_nil (d_peers d)) eqn:E; [discriminate|].
  destruct (handle_infos t nl) as [rs'|e] eqn:E2; [|discriminate]. intros H; injection H as <-.
  constructor; [|apply IH; [exact Hft|reflexivity]].
  exists d. split; [exact Hd0|split; [|reflexivity]]. intros Hn. rewrite Hn in E. discriminate.
Qed.
Lemma scan_loop_from_pd : forall fuel t q rs limit nl regs t',
  scan_loop pd budget fuel t q rs limit nl = (Ok regs, t') -> Forall from_pd regs.
Proof.
  induction fuel as [|f IH]; intros t q rs limit nl regs t'; cbn [scan_loop]; [discriminate|].
  destruct (call pd budget t q) as [a|] eqn:Ec; [|discriminate]. apply call_Hd in Ec. destruct a as [d|infos]; [discriminate|].
  destruct (is_nil infos); [apply IH|]. destruct (regions_have_gap rs infos limit); [apply IH|].
  destruct (handle_infos infos nl) as [[|r0 rs']|e] eqn:Eh; [apply IH| |discriminate].
  intros H; injection H as <- _. eapply handle_infos_from_pd; eassumption.
Qed.
Lemma load_region_from_pd : forall fuel t key is_end prev r t',
  load_region pd budget fuel t key is_end prev = (Ok r, t') -> from_pd r.
Proof.
  induction fuel as [|f IH]; intros t key is_end prev r t'; cbn [load_region]; [discriminate|].
  destruct (call pd budget t (if prev then ReqPrev key else ReqGet key)) as [a|] eqn:Ec; [|discriminate].
  apply call_Hd in Ec. destruct a as [[d|]|l]; [|apply IH|discriminate].
  destruct (is_nil (d_peers d)) eqn:E; [discriminate|].
  destruct (is_end && negb prev && bytes_eqb (d_start d) key && negb (is_nil (d_start d))); [apply IH|].
  intros H; injection H as <- _. exists d. split; [exact Ec|split; [|reflexivity]]. intros Hn. rewrite Hn in E. discriminate.
Qed.
Lemma load_last_from_pd : forall fuel t start r t', load_last pd budget fuel t start = (Ok r, t') -> from_pd r.
Proof.
  induction fuel as [|f IH]; intros t start r t'; cbn [load_last]; [discriminate|].
  destruct (scan_loop pd budget (S f) t (ReqScan start [] 128) [(start, [])] 128 true) as [[regs|e] t1] eqn:Es; [|discriminate].
  apply scan_loop_from_pd in Es. destruct (rev regs) as [|lastr x] eqn:Er; [discriminate|].
  destruct (is_nil (r_end lastr)); [|apply IH]. intros H; injection H as <- _.
  apply (proj1 (Forall_forall _ _) Es). apply in_rev. rewrite Er. left. reflexivity.
Qed.
Lemma load_for_from_pd c fuel t key is_end r t' : load_for pd budget c fuel t key is_end = (Ok r, t') -> from_pd r.
Proof. unfold load_for. destruct (is_end && is_nil key); [apply load_last_from_pd|apply load_region_from_pd]. Qed.
Lemma load_by_id_from_pd t id r t' : load_by_id pd budget t id = (Ok r, t') -> from_pd r.
Proof.
  unfold load_by_id. destruct (call pd budget t (ReqById id)) as [a|] eqn:Ec; [|discriminate]. apply call_Hd in Ec.
  destruct a as [[d|]|l]; try discriminate. destruct (is_nil (d_peers d)) eqn:E; [discriminate|].
  intros H; injection H as <- _. exists d. split; [exact Ec|split; [|reflexivity]]. intros Hn. rewrite Hn in E. discriminate.
Qed.

Lemma insert_all_closed : forall rs c, P c -> Forall from_pd rs -> P (insert_all c rs).
Proof.
  unfold insert_all. induction rs as [|r t IH]; intros c Hc Hf; [exact Hc|]. inversion Hf; subst. cbn [fold_left].
  apply IH; [apply P_ins; assumption|assumption].
Qed.

(* LocateKey / LocateEndKey *)
Lemma find_region_by_key_closed fuel t c key is_end r c' t' :
  P c -> find_region_by_key pd budget fuel t c key is_end = (r, c', t') -> P c'.
Proof.
  intros Hc H. change (P (snd (fst (r, c', t')))). rewrite <- H. revert Hc.
  apply (find_region_by_key_cases pd budget fuel key is_end (fun c t res => P c -> P (snd (fst res)))); cbn [fst snd].
  - intros c0 t0 x _ H0. exact H0.
  - intros c0 t0 x e t1 _ _ H0. apply P_reload, P_clear, H0.
  - intros c0 t0 c1 lr t1 Hc1 Hl H0. apply P_ins; [|exact (load_for_from_pd _ _ _ _ _ _ _ Hl)].
    destruct Hc1 as [->|[x ->]]; [exact H0|apply P_clear, H0].
  - intros c0 t0 e t1 _ H0. exact H0.
  - intros c0 t0 lr t1 res Hl H1 H0. apply H1, P_ins; [exact H0|exact (load_for_from_pd _ _ _ _ _ _ _ Hl)].
Qed.

(* LocateRegionByID *)
Lemma locate_by_id_closed t c id r c' t' : P c -> locate_by_id pd budget t c id = (r, c', t') -> P c'.
Proof.
  intros Hc H. change (P (snd (fst (r, c', t')))). rewrite <- H.
  apply (locate_by_id_cases pd budget t c id (fun res => P (snd (fst res)))); cbn [fst snd].
  - intros x _. exact Hc.
  - intros x e t1 _ _. apply P_reload, P_clear, Hc.
  - intros c0 lr t1 Hc0 Hl. apply P_ins; [destruct Hc0 as [->|[x ->]]; [exact Hc|apply P_clear, Hc]|exact (load_by_id_from_pd _ _ _ _ Hl)].
  - intros e t1 _. exact Hc.
Qed.

(* BatchLoadRegionsWithKeyRange(s), BatchLoadRegionsFromKey *)
Lemma batch_load_range_closed fuel t c s e count r c' t' : P c -> batch_load_range pd budget fuel t c s e count = (r, c', t') -> P c'.
Proof.
  intros Hc. unfold batch_load_range. destruct count as [|n]; [exact (same_cache Hc)|].
  destruct (scan_loop pd budget fuel t (ReqScan s e (S n)) [(s, e)] (S n) true) as [[regs|x] t1] eqn:Es; intros H; injection H as _ <- _; [|exact Hc].
  apply insert_all_closed; [exact Hc|eapply scan_loop_from_pd; exact Es].
Qed.
Lemma batch_load_ranges_closed fuel t c rs count nl r c' t' : P c -> batch_load_ranges pd budget fuel t c rs count nl = (r, c', t') -> P c'.
Proof.
  intros Hc. unfold batch_load_ranges. destruct rs as [|r0 rt]; [exact (same_cache Hc)|].
  destruct count as [|n]; [exact (same_cache Hc)|].
  destruct (scan_loop pd budget fuel t (ReqBatch (r0 :: rt) (S n)) (r0 :: rt) (S n) nl) as [[regs|x] t1] eqn:Es; intros H; injection H as _ <- _; [|exact Hc].
  apply insert_all_closed; [exact Hc|eapply scan_loop_from_pd; exact Es].
Qed.

(* LoadRegionsInKeyRange *)
Lemma load_regions_in_range_closed : forall fuel t c s e acc r c' t',
  P c -> load_regions_in_range pd budget batch_limit fuel t c s e acc = (r, c', t') -> P c'.
Proof.
  induction fuel as [|f IH]; intros t c s e acc r c' t' Hc; cbn [load_regions_in_range]; [exact (same_cache Hc)|].
  destruct (batch_load_range pd budget (S f) t c s e batch_limit) as [[[regs|x] c1] t1] eqn:Eb;
    pose proof (batch_load_range_closed _ _ _ _ _ _ _ _ _ Hc Eb) as H1; [|exact (same_cache H1)].
  destruct (rev regs) as [|lastr rest]; [exact (same_cache H1)|].
  destruct (r_contains_end lastr e); [exact (same_cache H1)|]. apply IH. exact H1.
Qed.

(* LocateKeyRange *)
Lemma locate_key_range_closed : forall fuel t c s e acc r c' t',
  P c -> locate_key_range pd budget batch_limit fuel t c s e acc = (r, c', t') -> P c'.
Proof.
  induction fuel as [|f IH]; intros t c s e acc r c' t' Hc; cbn [locate_key_range]; [exact (same_cache Hc)|].
  destruct (cached_walk (S (length (c_sorted c))) c s e acc) as [res|s1 acc1|]; try (exact (same_cache Hc)).
  destruct (batch_load_ranges pd budget (S f) t c [(s1, e)] batch_limit true) as [[[regs|x] c1] t1] eqn:Eb;
    pose proof (batch_load_ranges_closed _ _ _ _ _ _ _ _ _ Hc Eb) as H1; [|exact (same_cache H1)].
  destruct (rev regs) as [|lastr rest]; [exact (same_cache H1)|].
  destruct (r_contains_end lastr e); [exact (same_cache H1)|]. apply IH. exact H1.
Qed.

(* BatchLocateKeyRanges *)
Lemma phase2_closed : forall fuel t c un m nl r c' t',
  P c -> phase2 pd budget batch_limit fuel t c un m nl = (r, c', t') -> P c'.
Proof.
  induction fuel as [|f IH]; intros t c un m nl r c' t' Hc; destruct un as [|u0 ut]; cbn [phase2]; try (exact (same_cache Hc)).
  destruct (batch_load_ranges pd budget (S f) t c (firstn (16 * batch_limit) (u0 :: ut)) batch_limit nl) as [[[regs|x] c1] t1] eqn:Eb;
    pose proof (batch_load_ranges_closed _ _ _ _ _ _ _ _ _ Hc Eb) as H1; [|exact (same_cache H1)].
  destruct (rev regs) as [|lastr rest]; [exact (same_cache H1)|]. apply IH. exact H1.
Qed.
Lemma batch_locate_closed fuel t c rs nl r c' t' : P c -> batch_locate pd budget batch_limit fuel t c rs nl = (r, c', t') -> P c'.
Proof.
  intros Hc. unfold batch_locate. destruct (phase1 batch_limit c rs None [] []) as [cs un].
  destruct (phase2 pd budget batch_limit fuel t c un (None, cs, []) nl) as [[[m|x] c1] t1] eqn:E2;
    pose proof (phase2_closed _ _ _ _ _ _ _ _ _ Hc E2) as H1; exact (same_cache H1).
Qed.

(* GroupKeysByRegion, ListRegionIDsInKeyRange *)
Lemma group_assign_closed fuel : forall keys t c lastl acc r c' t',
  P c -> group_assign pd budget fuel t c keys lastl acc = (r, c', t') -> P c'.
Proof.
  induction keys as [|k rest IH]; intros t c lastl acc r c' t' Hc; cbn [group_assign]; [exact (same_cache Hc)|].
  destruct (match lastl with Some l => if r_contains l k then Some l else None | None => None end) as [l|]; [apply IH; exact Hc|].
  destruct (find_region_by_key pd budget fuel t c k false) as [[[x|x] c1] t1] eqn:Ef;
    pose proof (find_region_by_key_closed _ _ _ _ _ _ _ _ Hc Ef) as H1; [apply IH; exact H1|exact (same_cache H1)].
Qed.
Lemma list_region_ids_closed : forall fuel t c s e acc r c' t',
  P c -> list_region_ids pd budget fuel t c s e acc = (r, c', t') -> P c'.
Proof.
  induction fuel as [|f IH]; intros t c s e acc r c' t' Hc; cbn [list_region_ids]; [exact (same_cache Hc)|].
  destruct (find_region_by_key pd budget (S f) t c s false) as [[[x|x] c1] t1] eqn:Ef;
    pose proof (find_region_by_key_closed _ _ _ _ _ _ _ _ Hc Ef) as H1; [|exact (same_cache H1)].
  destruct (r_contains x e); [exact (same_cache H1)|]. apply IH. exact H1.
Qed.
End Closed.
