(* Region/StoreResolve.v — PD faults on the STORE path. A GetStore issued by Store.initResolve (first use of a store) or
   Store.reResolve (the periodic / needCheck store check) has three outcomes: PD confirms the store, PD reports it removed
   (tombstone: terminal, fail-epoch bumped, no address any more), or the call FAILS transiently (any error that is not PD's
   "invalid store ID ..., not found"): then the store stays exactly as it is and the check comes back later
   (initResolve: after a back-off, inside the same call). Convergence is stated over arbitrary interleavings of such checks. *)
From Verif Require Import Base.Lex Region.Model Region.ProofsReach.
Open Scope N_scope.

Inductive resolve_outcome := RoOk | RoRemoved | RoTransient.

(* Store.reResolve on one store *)
Definition store_check (c : cache) (st : N) (o : resolve_outcome) : cache :=
  match o with RoRemoved => re_resolve c st true | RoOk | RoTransient => c end.
Definition store_checks (c : cache) (l : list (N * resolve_outcome)) : cache :=
  fold_left (fun c so => store_check c (fst so) (snd so)) l c.

(* Store.initResolve: GetStore is repeated (with back-off) while it fails transiently; the first other answer decides:
   Some true = resolved, Some false = tombstone, None = the back-off budget ran out, the store is still unresolved *)
Fixpoint init_resolve (outs : list resolve_outcome) : option bool :=
  match outs with
  | [] => None
  | RoTransient :: rest => init_resolve rest
  | RoOk :: _ => Some true
  | RoRemoved :: _ => Some false
  end.

Lemma store_check_transient c st : store_check c st RoTransient = c /\ store_check c st RoOk = c.
Proof. split; reflexivity. Qed.
Lemma init_resolve_transient n o rest : init_resolve (repeat RoTransient n ++ o :: rest) = init_resolve (o :: rest).
Proof. induction n as [|n IH]; [reflexivity|exact IH]. Qed.
(* a store becomes a tombstone only when PD said it was removed *)
Lemma store_checks_tomb : forall l c st, In st (c_tomb (store_checks c l)) -> In st (c_tomb c) \/ In (st, RoRemoved) l.
Proof.
  unfold store_checks. induction l as [|[s o] t IH]; intros c st H; [left; exact H|]. cbn [fold_left fst snd] in H.
  apply IH in H. destruct H as [H|H]; [|right; right; exact H].
  destruct o; cbn [store_check] in H; try (left; exact H).
  unfold re_resolve in H. cbn [c_tomb] in H. destruct (existsb (N.eqb s) (c_tomb c)); [left; exact H|].
  destruct H as [<-|H]; [right; left; reflexivity|left; exact H].
Qed.

Section Reach.
Variable truth : list desc.
Variable H : desc -> Prop.
Lemma store_checks_reach : forall l c,
  (forall st T p, In (st, RoRemoved) l -> In T truth -> In p (d_peers T) -> snd p <> st) ->
  reach truth H c -> reach truth H (store_checks c l).
Proof.
  unfold store_checks. induction l as [|[s o] t IH]; intros c Hrm Hc; [exact Hc|]. cbn [fold_left fst snd].
  apply IH; [intros st T p Hin; apply Hrm; right; exact Hin|].
  destruct o; cbn [store_check]; try exact Hc.
  apply R_resolve; [intros T p HT Hp; apply (Hrm s T p); [left; reflexivity|exact HT|exact Hp]|exact Hc].
Qed.
End Reach.
