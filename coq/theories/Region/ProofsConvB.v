(* Region/ProofsConvB.v — the cache invariant of the convergence proof (relative to a fixed ground truth) and its
   preservation. Two closure lemmas carry everything: [cinv_map] (entries rewritten in place or dropped: entry updates, GC,
   TTL expiry) and [insert_desc] (an accepted insertion of a description that respects the epoch discipline); a current
   region is moreover never refused. *)
From Verif Require Import Base.Lex Region.Model Region.Ord Region.ProofsInsert Region.Converge Region.ProofsConvA.
Open Scope N_scope.

(* the ground truth: a partition of the key space into regions with distinct ids, each led by one of its peers,
   at most one peer per store *)
Record truth_wf (truth : list desc) : Prop := {
  tw_cover : forall k, exists T, In T truth /\ tcontains T k = true;
  tw_disjoint : forall T1 T2 k, In T1 truth -> In T2 truth -> tcontains T1 k = true -> tcontains T2 k = true -> T1 = T2;
  tw_ids : forall T1 T2, In T1 truth -> In T2 truth -> d_id T1 = d_id T2 -> T1 = T2;
  tw_nonempty : forall T, In T truth -> d_end T = [] \/ lex_ltb (d_start T) (d_end T) = true;
  tw_leader : forall T, In T truth -> In (d_leader T) (d_peers T);
  tw_stores : forall T, In T truth -> NoDup (map snd (d_peers T)) }.

Definition of_truth (r : region) (T : desc) : Prop :=
  r_id r = d_id T /\ r_start r = d_start T /\ r_end r = d_end T /\ r_ver r = d_ver T /\ r_conf r = d_conf T /\ r_peers r = d_peers T.
Definition entry_ok (x : region) : Prop :=
  nonempty_range x /\ r_peers x <> [] /\ (r_work x < length (r_peers x))%nat /\ (r_reason x <> 0 -> r_expired x = true).

Definition fresh (r : region) : Prop := r_expired r = false /\ r_reason r = 0 /\ r_reload r = false /\ r_ready r = false.

Lemma of_truth_verid r d : of_truth r d -> r_verid r = d_verid d.
Proof. intros [A [_ [_ [B [C _]]]]]. unfold r_verid, d_verid. congruence. Qed.

Lemma of_truth_shape g x d : same_shape g -> of_truth x d -> of_truth (g x) d.
Proof. intros Hg [A [B [C [D [E F]]]]]. destruct (Hg x) as [G1 [G2 [G3 [G4 [G5 G6]]]]]. repeat split; congruence. Qed.

(* an entry as newRegion builds it for description d (from a PD answer or from an EpochNotMatch reply): d's fields, no flags,
   a work peer inside the peer list *)
Definition fresh_of (r : region) (d : desc) : Prop := of_truth r d /\ fresh r /\ (r_work r < length (r_peers r))%nat.
Lemma fresh_new d : d_peers d <> [] -> fresh_of (new_region d) d.
Proof. intros Hp. repeat split. apply last_idx_lt. exact Hp. Qed.
Lemma fresh_on_store bk d st : d_peers d <> [] -> fresh_of (region_on_store bk d st) d.
Proof.
  intros Hp. unfold region_on_store. destruct (store_idx st (d_peers d) 0) as [i|] eqn:E; repeat split.
  - apply store_idx_bound in E. exact E.
  - apply (last_idx_lt (0, 0)). exact Hp.
Qed.
Lemma fresh_stamp se r d : fresh_of r d -> fresh_of (stamp se r) d /\ length (r_sepochs (stamp se r)) = length (r_peers (stamp se r)).
Proof. intros [A [B C]]. split; [split; [exact A|split; [exact B|exact C]]|apply map_length]. Qed.

Lemma inherit_entry r deleted d : fresh_of r d -> nonempty_range r -> length (r_sepochs r) = length (r_peers r) ->
  of_truth (inherit r deleted) d /\ entry_ok (inherit r deleted) /\
  length (r_sepochs (inherit r deleted)) = length (r_peers (inherit r deleted)) /\
  r_expired (inherit r deleted) = false /\ flagged (inherit r deleted) = false.
Proof.
  intros [[O1 [O2 [O3 [O4 [O5 O6]]]]] [[F1 [F2 [F3 F4]]] Hw]] Hne Hlen.
  destruct (inherit_same r deleted) as [I1 [I2 [I3 [I4 [I5 [I6 [I7 [I8 [I9 I10]]]]]]]]].
  assert (Hpn : r_peers r <> []) by (intros E; rewrite E in Hw; inversion Hw).
  split; [unfold of_truth; rewrite I1, I2, I3, I4, I5, I6; repeat split; assumption|]. split; [|split; [|split; [congruence|unfold flagged; rewrite I8, I9, F3, F4; reflexivity]]].
  - split; [unfold nonempty_range; rewrite I2, I3; exact Hne|]. split; [rewrite I6; exact Hpn|]. split; [|rewrite I10, F2; congruence].
    rewrite I6. apply inherit_work_lt. exact Hw.
  - rewrite I6, inherit_sepochs. exact Hlen.
Qed.

Section Inv.
Variable truth : list desc.
Hypothesis Htw : truth_wf truth.

Record cinv (c : cache) : Prop := {
  ci_sorted : sorted_starts (c_sorted c);
  (* an entry that carries the version of a current region is that region *)
  ci_hist : forall x T, In x (c_sorted c) -> In T truth -> r_verid x = d_verid T ->
              r_start x = d_start T /\ r_end x = d_end T /\ r_peers x = d_peers T;
  ci_addr : forall x, In x (c_sorted c) -> reg_get (r_verid x) (c_regions c) = Some (r_start x);
  ci_uniq : forall x y, In x (c_sorted c) -> In y (c_sorted c) -> r_verid x = r_verid y -> x = y;
  (* epochs behave as in TiKV: nothing cached is newer than the current region over the same keys / with the same id *)
  ci_dom_start : forall x T, In x (c_sorted c) -> In T truth -> tcontains T (r_start x) = true -> r_ver x <= d_ver T;
  ci_dom_lat : forall T v cf, In T truth -> lat_get (d_id T) (c_latest c) = Some (v, cf) -> v <= d_ver T /\ cf <= d_conf T;
  ci_dom_id : forall x T, In x (c_sorted c) -> In T truth -> r_id x = d_id T -> r_ver x <= d_ver T /\ r_conf x <= d_conf T;
  ci_ok : forall x, In x (c_sorted c) -> entry_ok x;
  ci_len : forall x, In x (c_sorted c) -> length (r_sepochs x) = length (r_peers x);
  (* no current peer sits on a store the cache knows to be a tombstone *)
  ci_tomb : forall T p, In T truth -> In p (d_peers T) -> existsb (N.eqb (snd p)) (c_tomb c) = false }.

Definition tomb_free (tb : list N) : Prop := forall T p, In T truth -> In p (d_peers T) -> existsb (N.eqb (snd p)) tb = false.

Lemma T_contains_start T : In T truth -> tcontains T (d_start T) = true.
Proof. intros H. apply contains_spec. split; [apply leb_refl|]. destruct (tw_nonempty _ Htw T H) as [E|E]; [left|right]; exact E. Qed.
Lemma verid_T_eq T1 T2 : In T1 truth -> In T2 truth -> d_verid T1 = d_verid T2 -> T1 = T2.
Proof. intros H1 H2 H. apply (tw_ids _ Htw); try assumption. unfold d_verid in H. congruence. Qed.
Lemma peers_T_nonempty R : In R truth -> d_peers R <> [].
Proof. intros HR E. pose proof (tw_leader _ Htw R HR) as H. rewrite E in H. destruct H. Qed.

Lemma find_first_unique {A} (p : A -> bool) l x : In x l -> p x = true -> (forall y, In y l -> p y = true -> y = x) -> find p l = Some x.
Proof.
  intros Hin Hp Hu. destruct (find p l) as [y|] eqn:E.
  - apply find_some in E. f_equal. apply Hu; tauto.
  - exfalso. pose proof (find_none _ _ E x Hin). congruence.
Qed.
Lemma get_by_verid_in c x : cinv c -> In x (c_sorted c) -> get_by_verid c (r_verid x) = Some x.
Proof.
  intros Hc Hx. unfold get_by_verid. rewrite (ci_addr c Hc x Hx). unfold entry_at.
  apply find_first_unique; [exact Hx|rewrite bytes_eqb_refl, verid_eqb_refl; reflexivity|].
  intros y Hy Hp. apply andb_true_iff in Hp. destruct Hp as [Hp _]. apply bytes_eqb_eq in Hp.
  eapply sorted_in_eq; [apply (ci_sorted c Hc)|exact Hy|exact Hx|exact Hp].
Qed.

Lemma cinv_nil se tb : tomb_free tb -> cinv (mkCache [] [] [] se tb).
Proof. intros Htb. constructor; cbn [c_sorted c_latest c_tomb]; try (intros; contradiction); [constructor|discriminate|exact Htb]. Qed.

Lemma reg_get_del v w l : reg_get v (reg_del w l) = if verid_eqb w v then None else reg_get v l.
Proof.
  unfold reg_del. induction l as [|[u s] t IH]; cbn [filter reg_get fst]; [destruct (verid_eqb w v); reflexivity|].
  destruct (verid_eqb u w) eqn:E1; cbn [negb].
  - apply verid_eqb_eq in E1; subst u. rewrite IH. destruct (verid_eqb w v); reflexivity.
  - cbn [reg_get]. rewrite IH. destruct (verid_eqb u v) eqn:E2; [|reflexivity]. apply verid_eqb_eq in E2; subst u.
    destruct (verid_eqb w v) eqn:E3; [|reflexivity]. apply verid_eqb_eq in E3; subst w. rewrite verid_eqb_refl in E1. discriminate.
Qed.
Lemma reg_get_set v w s l : reg_get v (reg_set w s l) = if verid_eqb w v then Some s else reg_get v l.
Proof. unfold reg_set. cbn [reg_get]. destruct (verid_eqb w v) eqn:E; [reflexivity|]. rewrite reg_get_del, E. reflexivity. Qed.
Lemma fold_remove_regs v : forall deleted acc, (forall d, In d deleted -> r_verid d <> v) ->
  reg_get v (fst (fold_left rm_step deleted acc)) = reg_get v (fst acc).
Proof.
  induction deleted as [|d t IH]; intros acc H; [reflexivity|]. cbn [fold_left]. rewrite IH; [|intros d' Hd'; apply H; right; exact Hd'].
  unfold rm_step, remove_version. destruct (r_verid d) as [[i ver] conf] eqn:Ev.
  assert (Hne : verid_eqb (i, ver, conf) v = false).
  { destruct (verid_eqb (i, ver, conf) v) eqn:E; [|reflexivity]. apply verid_eqb_eq in E. exfalso. apply (H d); [left; reflexivity|congruence]. }
  cbn [fst]. rewrite reg_get_del, Hne. reflexivity.
Qed.

(* the index is replaced by the image under g of a sorted part l of it; the by-version map still addresses l, the latest
   versions have only lost records: covers the entry updates (l the whole index) and GC (l the live entries) *)
Lemma cinv_map c g l regs lat se tb :
  cinv c -> same_shape g -> sorted_starts l -> (forall x, In x l -> In x (c_sorted c)) ->
  (forall x, In x l -> reg_get (r_verid x) regs = Some (r_start x)) ->
  (forall id x, lat_get id lat = Some x -> lat_get id (c_latest c) = Some x) ->
  (forall x, In x l -> entry_ok (g x) /\ length (r_sepochs (g x)) = length (r_peers (g x))) -> tomb_free tb ->
  cinv (mkCache (map g l) regs lat se tb).
Proof.
  intros Hc Hg Hs Hsub Haddr Hlat Hok Htb.
  assert (Hpre : forall y, In y (map g l) -> exists x, In x l /\ In x (c_sorted c) /\ y = g x).
  { intros y Hy. apply in_map_iff in Hy. destruct Hy as [x [<- Hx]]. exists x. split; [exact Hx|split; [apply Hsub; exact Hx|reflexivity]]. }
  constructor; cbn [c_sorted c_regions c_latest c_tomb].
  - apply map_sorted; assumption.
  - intros y T Hy HT Hv. destruct (Hpre y Hy) as [x [_ [Hx ->]]]. rewrite (shape_verid _ x Hg) in Hv.
    destruct (Hg x) as [_ [-> [-> [_ [_ ->]]]]]. apply (ci_hist c Hc x T Hx HT Hv).
  - intros y Hy. destruct (Hpre y Hy) as [x [Hx [_ ->]]]. rewrite (shape_verid _ x Hg). destruct (Hg x) as [_ [-> _]]. apply Haddr; exact Hx.
  - intros y z Hy Hz Hv. destruct (Hpre y Hy) as [x [_ [Hx ->]]]. destruct (Hpre z Hz) as [x' [_ [Hx' ->]]].
    rewrite !(shape_verid _ _ Hg) in Hv. rewrite (ci_uniq c Hc x x' Hx Hx' Hv). reflexivity.
  - intros y T Hy HT Hct. destruct (Hpre y Hy) as [x [_ [Hx ->]]]. destruct (Hg x) as [_ [Ha [_ [Hb _]]]]. rewrite Ha in Hct. rewrite Hb.
    apply (ci_dom_start c Hc x T Hx HT Hct).
  - intros T v cf HT Hl. apply (ci_dom_lat c Hc T v cf HT). apply Hlat; exact Hl.
  - intros y T Hy HT Hi. destruct (Hpre y Hy) as [x [_ [Hx ->]]]. destruct (Hg x) as [Ha [_ [_ [Hb [Hc' _]]]]]. rewrite Ha in Hi. rewrite Hb, Hc'.
    apply (ci_dom_id c Hc x T Hx HT Hi).
  - intros y Hy. destruct (Hpre y Hy) as [x [Hx [_ ->]]]. apply (Hok x Hx).
  - intros y Hy. destruct (Hpre y Hy) as [x [Hx [_ ->]]]. apply (Hok x Hx).
  - exact Htb.
Qed.

(* every entry rewritten by g; the store epochs and tombstones replaced *)
Lemma cinv_map_all c g se tb :
  cinv c -> same_shape g -> (forall x, In x (c_sorted c) -> entry_ok (g x) /\ length (r_sepochs (g x)) = length (r_peers (g x))) ->
  tomb_free tb -> cinv (mkCache (map g (c_sorted c)) (c_regions c) (c_latest c) se tb).
Proof.
  intros Hc Hg Hok Htb. apply (cinv_map c g); try assumption; [apply (ci_sorted c Hc)|exact (fun x H => H)|apply (ci_addr c Hc)|exact (fun id x H => H)].
Qed.

Lemma upd_entry_inv c r f :
  cinv c -> In r (c_sorted c) -> same_shape f -> entry_ok (f r) -> length (r_sepochs (f r)) = length (r_peers (f r)) ->
  cinv (upd_entry c r f).
Proof.
  intros Hc Hr Hf Hok Hlen. apply (cinv_map_all c (upd_fun r f)); [exact Hc|apply upd_fun_shape; exact Hf| |exact (ci_tomb c Hc)].
  intros x Hx. unfold upd_fun. destruct (bytes_eqb (r_start x) (r_start r)) eqn:E; [|split; [apply (ci_ok c Hc x Hx)|apply (ci_len c Hc x Hx)]].
  apply bytes_eqb_eq in E. rewrite (sorted_in_eq _ x r (ci_sorted c Hc) Hx Hr E).
  destruct (verid_eqb (r_verid r) (r_verid r)); split; try assumption; [apply (ci_ok c Hc r Hr)|apply (ci_len c Hc r Hr)].
Qed.

(* cache GC: expired entries go with their by-version and latest records, a pending delayed reload becomes ready *)
Definition gc_flag (r : region) : region := if r_ready r then r else if r_pending r then set_ready r else r.
Lemma shape_gc_flag : same_shape gc_flag.
Proof. intros x. unfold gc_flag. destruct (r_ready x); [repeat split|]. destruct (r_pending x); repeat split. Qed.
Lemma gc_unfold c :
  gc c = let dead := filter r_expired (c_sorted c) in
         let acc := fold_left rm_step dead (c_regions c, c_latest c) in
         mkCache (map gc_flag (filter (fun r => negb (r_expired r)) (c_sorted c))) (fst acc) (snd acc) (c_sepochs c) (c_tomb c).
Proof.
  unfold gc, rm_step. cbv zeta.
  destruct (fold_left (fun acc d => remove_version (r_verid d) (fst acc) (snd acc)) (filter r_expired (c_sorted c)) (c_regions c, c_latest c)) as [regs lat].
  reflexivity.
Qed.
Lemma gc_inv c : cinv c -> cinv (gc c).
Proof.
  intros Hc. rewrite gc_unfold. cbv zeta.
  assert (Hlive : forall x, In x (filter (fun r => negb (r_expired r)) (c_sorted c)) -> In x (c_sorted c) /\ r_expired x = false).
  { intros x Hx. apply filter_In in Hx. destruct Hx as [A B]. apply negb_true_iff in B. split; assumption. }
  apply (cinv_map c gc_flag); [exact Hc|exact shape_gc_flag|apply filter_sorted, (ci_sorted c Hc)|apply Hlive| | | |exact (ci_tomb c Hc)].
  - (* a live entry is none of the dead ones: its by-version record survives *)
    intros x Hx. destruct (Hlive x Hx) as [Hxin Hxe]. rewrite fold_remove_regs; [apply (ci_addr c Hc x Hxin)|].
    intros d Hd Hv. apply filter_In in Hd. destruct Hd as [Hd He]. rewrite (ci_uniq c Hc d x Hd Hxin Hv) in He. congruence.
  - intros id x Hl. apply fold_remove_latest in Hl. exact Hl.
  - intros x Hx. destruct (Hlive x Hx) as [Hxin _]. pose proof (ci_ok c Hc x Hxin) as Hok. pose proof (ci_len c Hc x Hxin) as Hl.
    unfold gc_flag. destruct (r_ready x); [split; assumption|]. destruct (r_pending x); split; assumption.
Qed.

Lemma shape_expire : same_shape expire_r.
Proof. intros x. repeat split. Qed.
(* whatever r is: upd_entry rewrites index entries only, and expiry keeps each of them well-formed *)
Lemma expire_inv c r : cinv c -> cinv (upd_entry c r expire_r).
Proof.
  intros Hc. apply (cinv_map_all c (upd_fun r expire_r)); [exact Hc|apply upd_fun_shape, shape_expire| |exact (ci_tomb c Hc)].
  intros x Hx. destruct (ci_ok c Hc x Hx) as [A [B [C D]]]. pose proof (ci_len c Hc x Hx) as L. unfold upd_fun.
  destruct (bytes_eqb (r_start x) (r_start r) && verid_eqb (r_verid x) (r_verid r)); (split; [repeat split; assumption|exact L]).
Qed.

(* what [cinv] asks of the description an entry carries; holds of every current region, and of every older state that TiKV's
   epoch discipline allows *)
Definition desc_ok (d : desc) : Prop :=
  (forall T, In T truth -> d_verid d = d_verid T -> d_start d = d_start T /\ d_end d = d_end T /\ d_peers d = d_peers T) /\
  (forall T, In T truth -> tcontains T (d_start d) = true -> d_ver d <= d_ver T) /\
  (forall T, In T truth -> d_id d = d_id T -> d_ver d <= d_ver T /\ d_conf d <= d_conf T) /\
  (d_end d = [] \/ lex_ltb (d_start d) (d_end d) = true).
Lemma truth_desc_ok T : In T truth -> desc_ok T.
Proof.
  intros HT. split; [|split; [|split; [|apply (tw_nonempty _ Htw T HT)]]].
  - intros T' HT' Hv. rewrite (verid_T_eq T T' HT HT' Hv). repeat split.
  - intros T' HT' Hk. rewrite (tw_disjoint _ Htw T T' (d_start T) HT HT' (T_contains_start T HT) Hk). lia.
  - intros T' HT' Hi. rewrite (tw_ids _ Htw T T' HT HT' Hi). lia.
Qed.

(* an accepted insertion of a fresh entry for d keeps the invariant, provided the entries that carry d's version already
   start where d starts (a version names one range) *)
Lemma insert_desc c r d c' :
  cinv c -> desc_ok d -> fresh_of r d -> length (r_sepochs r) = length (r_peers r) ->
  (forall x, In x (c_sorted c) -> r_verid x = d_verid d -> r_start x = d_start d) ->
  insert_region c r = (true, c') -> exists deleted, accepted c r c' deleted /\ cinv c'.
Proof.
  intros Hc [Dh [Ds [Di Dn]]] Hfr Hlen Hfun Ei. pose proof Hfr as [[Hid [Hst [Hen [Hve [Hco Hpe]]]]] _].
  assert (Hne : nonempty_range r) by (unfold nonempty_range; rewrite Hst, Hen; exact Dn).
  destruct (insert_accepted c r c' (ci_sorted c Hc) Hne Ei) as [deleted A]. exists deleted. split; [exact A|].
  destruct A as [H1 _ H3 H4 H5 _ Htb H6].
  destruct (inherit_entry r deleted d Hfr Hne Hlen) as [Hof1 [Hok1 [Hlen1 _]]].
  pose proof (of_truth_verid _ _ Hof1) as Hv1. destruct Hof1 as [J1 [J2 [J3 [J4 [J5 J6]]]]].
  set (r1 := inherit r deleted) in *.
  (* an old entry that is kept does not carry d's version *)
  assert (Hkeepv : forall x, In x (c_sorted c) -> ~ starts_in r x -> r_verid x <> d_verid d).
  { intros x Hx Hn Hv. apply Hn. unfold starts_in. rewrite (Hfun x Hx Hv), <- Hst. split; [apply leb_refl|exact Hne]. }
  constructor.
  - exact H6.
  - intros x T' Hx HT' Hv. apply H3 in Hx. destruct Hx as [->|[Hx _]]; [|apply (ci_hist c Hc x T' Hx HT' Hv)].
    rewrite J2, J3, J6. apply (Dh T' HT'). congruence.
  - intros x Hx. apply H3 in Hx. rewrite H4, reg_get_set. destruct Hx as [->|[Hx Hn]]; [rewrite verid_eqb_refl; reflexivity|].
    destruct (verid_eqb (r_verid r1) (r_verid x)) eqn:E.
    { exfalso. apply verid_eqb_eq in E. apply (Hkeepv x Hx Hn). congruence. }
    rewrite fold_remove_regs; [apply (ci_addr c Hc x Hx)|].
    intros y Hy Hv. apply H1 in Hy. destruct Hy as [Hy Hin]. rewrite (ci_uniq c Hc y x Hy Hx Hv) in Hin. contradiction.
  - intros x y Hx Hy Hv. apply H3 in Hx. apply H3 in Hy. destruct Hx as [->|[Hx Hnx]], Hy as [->|[Hy Hny]]; [reflexivity| | |apply (ci_uniq c Hc); assumption].
    + exfalso. apply (Hkeepv y Hy Hny). congruence.
    + exfalso. apply (Hkeepv x Hx Hnx). congruence.
  - intros x T' Hx HT' Hk. apply H3 in Hx. destruct Hx as [->|[Hx _]]; [|apply (ci_dom_start c Hc x T' Hx HT' Hk)].
    rewrite J2 in Hk. rewrite J4. apply (Ds T' HT' Hk).
  - intros T' v cf HT' Hl. rewrite H5, lat_get_set in Hl. destruct (d_id T' =? r_id r1) eqn:E.
    + apply N.eqb_eq in E. injection Hl as <- <-. rewrite J4, J5. apply (Di T' HT'). congruence.
    + apply fold_remove_latest in Hl. apply (ci_dom_lat c Hc T' v cf HT' Hl).
  - intros x T' Hx HT' Hi. apply H3 in Hx. destruct Hx as [->|[Hx _]]; [|apply (ci_dom_id c Hc x T' Hx HT' Hi)].
    rewrite J4, J5. apply (Di T' HT'). congruence.
  - intros x Hx. apply H3 in Hx. destruct Hx as [->|[Hx _]]; [exact Hok1|apply (ci_ok c Hc x Hx)].
  - intros x Hx. apply H3 in Hx. destruct Hx as [->|[Hx _]]; [exact Hlen1|apply (ci_len c Hc x Hx)].
  - intros T' p HT' Hp. rewrite Htb. apply (ci_tomb c Hc T' p HT' Hp).
Qed.

Lemma starts_in_T r T x : of_truth r T -> starts_in r x -> tcontains T (r_start x) = true.
Proof.
  intros [_ [Hs [He _]]] [H1 H2]. apply contains_spec. rewrite <- Hs, <- He. split; [exact H1|exact H2].
Qed.

(* a current region is never refused *)
Lemma insert_current c r T : cinv c -> In T truth -> fresh_of r T -> length (r_sepochs r) = length (r_peers r) ->
  exists c' deleted, insert_region c r = (true, c') /\ accepted c r c' deleted /\ cinv c'.
Proof.
  intros Hc HT Hfr Hlen. pose proof Hfr as [Hof _]. pose proof Hof as [Hid [_ [_ [Hve [Hco _]]]]].
  assert (Hacc : fst (insert_region c r) = true).
  { rewrite insert_region_unfold.
    assert (Hl : stale_by_latest c r = false).
    { unfold stale_by_latest. rewrite Hid. destruct (lat_get (d_id T) (c_latest c)) as [[ov oc]|] eqn:El; [|reflexivity].
      apply orb_false_iff. rewrite !N.ltb_ge, Hve, Hco. apply (ci_dom_lat c Hc T ov oc HT El). }
    rewrite Hl. pose proof (remove_intersecting_spec r _ (ci_sorted c Hc)) as H.
    destruct (remove_intersecting r (c_sorted c)) as [[l1 d] [|]]; [|reflexivity].
    (* no entry that starts inside a current region is newer than it *)
    destruct H as [x [Hx [Hin Hv]]]. pose proof (ci_dom_start c Hc x T Hx HT (starts_in_T r T x Hof Hin)). lia. }
  destruct (insert_region c r) as [ok c'] eqn:Ei. cbn [fst] in Hacc. subst ok.
  destruct (insert_desc c r T c' Hc (truth_desc_ok T HT) Hfr Hlen) as [deleted [A Hc']]; [|exact Ei|].
  { intros x Hx Hv. apply (ci_hist c Hc x T Hx HT Hv). }
  exists c', deleted. split; [reflexivity|split; assumption].
Qed.
Lemma insert_new_current c r T : cinv c -> In T truth -> fresh_of r T ->
  exists c' deleted, insert_new c r = (true, c') /\ accepted c (stamp (c_sepochs c) r) c' deleted /\ cinv c'.
Proof. intros Hc HT Hfr. destruct (fresh_stamp (c_sepochs c) r T Hfr) as [Hfr' Hlen]. exact (insert_current c _ T Hc HT Hfr' Hlen). Qed.

Lemma insert_truth c r T :
  cinv c -> In T truth -> of_truth r T -> fresh r -> (r_work r < length (r_peers r))%nat -> length (r_sepochs r) = length (r_peers r) ->
  exists c' deleted, insert_region c r = (true, c') /\ cinv c' /\ c_sepochs c' = c_sepochs c /\
     In (inherit r deleted) (c_sorted c') /\
     (forall x, In x (c_sorted c') -> x = inherit r deleted \/ In x (c_sorted c)).
Proof.
  intros Hc HT Hof Hfr Hw Hlen. destruct (insert_current c r T Hc HT (conj Hof (conj Hfr Hw)) Hlen) as [c' [deleted [Ei [A Hc']]]].
  exists c', deleted. split; [exact Ei|]. split; [exact Hc'|]. split; [exact (ac_sepochs _ _ _ _ A)|].
  split; [apply (ac_in _ _ _ _ A); left; reflexivity|]. intros x Hx. apply (ac_in _ _ _ _ A) in Hx. tauto.
Qed.
End Inv.
