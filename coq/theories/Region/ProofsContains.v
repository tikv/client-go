(* Region/ProofsContains.v — every single-region lookup returns a region that contains the key asked for
   (by end for the end-key lookup, with the id asked for the by-id lookup); the end-key lookup of the empty key
   (the end of the key space, F08) returns a region with an unbounded end. *)
From Verif Require Import Base.Lex Region.Model Region.Ord Region.ProofsInsert Region.ProofsClosed.
Open Scope N_scope.

(* what the cache may assume about PD: an answer to "which region holds k" holds k — it may be stale in every
   other respect (epoch, peers, leader, even boundaries that no longer exist) *)
Definition pd_get_sound (pd : nat -> pd_req -> pd_ans) : Prop :=
  forall t k d, pd t (ReqGet k) = PdOne (Some d) -> contains (d_start d) (d_end d) k = true.
Definition pd_prev_sound (pd : nat -> pd_req -> pd_ans) : Prop :=
  forall t k d, k <> [] -> pd t (ReqPrev k) = PdOne (Some d) -> contains_by_end (d_start d) (d_end d) k = true.
Definition pd_byid_sound (pd : nat -> pd_req -> pd_ans) : Prop :=
  forall t id d, pd t (ReqById id) = PdOne (Some d) -> d_id d = id.

Definition holds (is_end : bool) (r : region) (key : bytes) : bool :=
  if is_end then r_contains_end r key else r_contains r key.

Lemma search_desc_spec items key is_end r : search_desc items key is_end = Some r -> In r items /\ holds is_end r key = true.
Proof.
  unfold holds. induction items as [|x t IH]; cbn [search_desc]; [discriminate|].
  destruct (is_end && bytes_eqb (r_start x) key); [intros H; destruct (IH H) as [A B]; split; [right; exact A|exact B]|].
  destruct (if is_end then r_contains_end x key else r_contains x key) eqn:E; [|discriminate].
  intros H; injection H as <-. split; [left; reflexivity|exact E].
Qed.
Lemma search_spec l key is_end r : search l key is_end = Some r -> In r l /\ holds is_end r key = true.
Proof.
  unfold search, le_items. destruct (is_end && is_nil key) eqn:E.
  - apply andb_true_iff in E. destruct E as [-> _]. destruct (rev l) as [|x t] eqn:Er; [discriminate|].
    destruct (r_contains_end x key) eqn:Ec; [|discriminate]. intros H; injection H as <-.
    split; [apply in_rev; rewrite Er; left; reflexivity|exact Ec].
  - intros H. apply search_desc_spec in H. destruct H as [H1 H2]. split; [|exact H2].
    apply in_rev in H1. apply filter_In in H1. apply H1.
Qed.
Lemma search_contains l key is_end r : search l key is_end = Some r -> holds is_end r key = true.
Proof. intros H. apply (search_spec _ _ _ _ H). Qed.
Lemma search_in l key is_end r : search l key is_end = Some r -> In r l.
Proof. intros H. apply (search_spec _ _ _ _ H). Qed.

Lemma sorted_app_last l x : sorted_starts (l ++ [x]) -> forall y, In y l -> lex_ltb (r_start y) (r_start x) = true.
Proof. intros Hs y Hin. apply StronglySorted_app in Hs. apply Hs; [exact Hin|left; reflexivity]. Qed.
(* on a sorted index SearchByKey picks the entry with the greatest start key at or below the key *)
Lemma search_max l key r : sorted_starts l -> search l key false = Some r ->
  In r l /\ r_contains r key = true /\ forall x, In x l -> lex_leb (r_start x) key = true -> lex_leb (r_start x) (r_start r) = true.
Proof.
  intros Hs H. split; [eapply search_in; exact H|]. split; [exact (search_contains _ _ false _ H)|].
  unfold search in H. cbn [andb] in H. intros x Hx Hle.
  assert (Hxi : In x (le_items l key)) by (apply filter_In; split; assumption).
  destruct (rev (le_items l key)) as [|y rest] eqn:Er; [discriminate|]. cbn [search_desc andb] in H.
  destruct (r_contains y key); [|discriminate]. injection H as <-.
  assert (Hl : le_items l key = rev rest ++ [y]) by (rewrite <- (rev_involutive (le_items l key)), Er; reflexivity).
  rewrite Hl in Hxi. apply in_app_or in Hxi. destruct Hxi as [Hxi|[->|[]]]; [|apply leb_refl].
  apply ltb_leb. apply (sorted_app_last (rev rest)); [rewrite <- Hl; apply filter_sorted; exact Hs|exact Hxi].
Qed.
Lemma try_find_max c key r : sorted_starts (c_sorted c) -> try_find c key false = Some r ->
  In r (c_sorted c) /\ r_contains r key = true /\ forall x, In x (c_sorted c) -> lex_leb (r_start x) key = true -> lex_leb (r_start x) (r_start r) = true.
Proof.
  intros Hs. unfold try_find. destruct (search (c_sorted c) key false) as [x|] eqn:E; [|discriminate].
  destruct (r_expired x || flagged x); [discriminate|]. intros H; injection H as <-. apply search_max; assumption.
Qed.

Lemma new_region_range d : r_start (new_region d) = d_start d /\ r_end (new_region d) = d_end d /\ r_id (new_region d) = d_id d.
Proof. repeat split. Qed.

Lemma as_stored_range c lr : r_start (as_stored c lr) = r_start lr /\ r_end (as_stored c lr) = r_end lr /\ r_id (as_stored c lr) = r_id lr /\
  r_ver (as_stored c lr) = r_ver lr /\ r_conf (as_stored c lr) = r_conf lr.
Proof.
  unfold as_stored. destruct (fst (insert_region c (stamp (c_sepochs c) lr))); [|repeat split].
  destruct (inherit_same (stamp (c_sepochs c) lr) (snd (fst (remove_intersecting (stamp (c_sepochs c) lr) (c_sorted c))))) as [C [A [B [D [E _]]]]].
  rewrite A, B, C, D, E. repeat split.
Qed.
Lemma holds_as_stored is_end c lr key : holds is_end (as_stored c lr) key = holds is_end lr key.
Proof. unfold holds, r_contains, r_contains_end. destruct (as_stored_range c lr) as [A [B _]]. rewrite A, B. reflexivity. Qed.

Section PD.
Variable pd : nat -> pd_req -> pd_ans.
Variable budget : nat.
Hypothesis Hget : pd_get_sound pd.

Lemma call_some t q a : call pd budget t q = Some a -> a = pd t q.
Proof. unfold call. destruct (Nat.ltb t budget); congruence. Qed.

Lemma load_last_end : forall fuel t start r t', load_last pd budget fuel t start = (Ok r, t') -> r_end r = [].
Proof.
  induction fuel as [|f IH]; intros t start r t'; cbn [load_last]; [discriminate|].
  destruct (scan_loop pd budget (S f) t (ReqScan start [] 128) [(start, [])] 128 true) as [[regs|e] t1]; [|discriminate].
  destruct (rev regs) as [|lastr x]; [discriminate|]. destruct (is_nil (r_end lastr)) eqn:E; [|apply IH].
  intros H; injection H as <- _. apply is_nil_true. exact E.
Qed.

(* the lookup by key asks PD "which region holds k" only; the answers to "which region ends at k" matter to the end-key lookup *)
Section Kind.
Variable is_end : bool.
Hypothesis Hprev : is_end = true -> pd_prev_sound pd.

Lemma load_region_holds fuel : forall t key prev r t',
  (is_end = true -> key <> []) -> (prev = true -> is_end = true) ->
  load_region pd budget fuel t key is_end prev = (Ok r, t') -> holds is_end r key = true.
Proof.
  induction fuel as [|f IH]; intros t key prev r t' Hk Hp; cbn [load_region]; [discriminate|].
  destruct (call pd budget t (if prev then ReqPrev key else ReqGet key)) as [a|] eqn:Ec; [|discriminate].
  apply call_some in Ec. destruct a as [[d|]|l]; [| |discriminate].
  2:{ apply IH; assumption. }
  destruct (is_nil (d_peers d)); [discriminate|].
  destruct (is_end && negb prev && bytes_eqb (d_start d) key && negb (is_nil (d_start d))) eqn:Eg.
  { apply IH; [exact Hk|]. intros _. destruct is_end; [reflexivity|discriminate Eg]. }
  intros H; injection H as <- _. unfold holds, r_contains, r_contains_end. cbn [new_region r_start r_end].
  destruct prev.
  - pose proof (Hp eq_refl) as Hie. symmetry in Ec. apply (Hprev Hie t key d (Hk Hie)) in Ec. rewrite Hie. exact Ec.
  - symmetry in Ec. apply Hget in Ec. destruct is_end; [|exact Ec].
    cbn [andb negb] in Eg. apply contains_spec in Ec. destruct Ec as [H1 H2].
    apply contains_by_end_spec. right. specialize (Hk eq_refl). split; [exact Hk|]. split.
    + destruct (leb_ltb_or_eq _ _ H1) as [H|H]; [exact H|]. exfalso.
      rewrite H, bytes_eqb_refl in Eg. cbn [andb] in Eg. apply negb_false_iff, is_nil_true in Eg. congruence.
    + destruct H2 as [H2|H2]; [left; exact H2|right; apply ltb_leb; exact H2].
Qed.
Lemma load_for_holds c fuel t key r t' : load_for pd budget c fuel t key is_end = (Ok r, t') -> holds is_end r key = true.
Proof.
  unfold load_for. destruct (is_end && is_nil key) eqn:E.
  - apply andb_true_iff in E. destruct E as [Hie E]. apply is_nil_true in E. subst key. intros H. apply load_last_end in H.
    unfold holds, r_contains_end, contains_by_end. rewrite Hie. cbn [is_nil]. rewrite H. reflexivity.
  - intros H. eapply load_region_holds; [| |exact H]; [|discriminate]. intros Hie Hk. subst key. rewrite Hie in E. discriminate E.
Qed.
(* LocateKey / LocateEndKey, the empty end key (the end of the key space) included *)
Lemma find_region_by_key_kind fuel t c key r c' t' :
  find_region_by_key pd budget fuel t c key is_end = (Ok r, c', t') -> holds is_end r key = true.
Proof.
  revert r c' t'.
  apply (find_region_by_key_cases pd budget fuel key is_end (fun _ _ res => forall r c' t', res = (Ok r, c', t') -> holds is_end r key = true)).
  - intros c0 t0 x Hs r c' t' H. injection H as <- _ _. exact (search_contains _ _ _ _ Hs).
  - intros c0 t0 x e t1 Hs _ r c' t' H. injection H as <- _ _. exact (search_contains _ _ _ _ Hs).
  - intros c0 t0 c1 lr t1 _ Hl r c' t' H. injection H as <- _ _. rewrite holds_as_stored. exact (load_for_holds _ _ _ _ _ _ Hl).
  - intros c0 t0 e t1 _ r c' t' H. discriminate H.
  - intros c0 t0 lr t1 res _ H. exact H.
Qed.
End Kind.

Lemma try_find_holds c key is_end r : try_find c key is_end = Some r -> holds is_end r key = true.
Proof.
  unfold try_find. destruct (search (c_sorted c) key is_end) as [x|] eqn:Es; [|discriminate].
  destruct (r_expired x || flagged x); [discriminate|]. intros H; injection H as <-. eapply search_contains; exact Es.
Qed.

End PD.

Lemma find_region_by_key_holds pd budget (Hget : pd_get_sound pd) (Hprev : pd_prev_sound pd) fuel t c key is_end r c' t' :
  find_region_by_key pd budget fuel t c key is_end = (Ok r, c', t') -> holds is_end r key = true.
Proof. exact (find_region_by_key_kind pd budget Hget is_end (fun _ => Hprev) fuel t c key r c' t'). Qed.
Lemma find_region_by_key_contains pd budget (Hget : pd_get_sound pd) fuel t c key r c' t' :
  find_region_by_key pd budget fuel t c key false = (Ok r, c', t') -> r_contains r key = true.
Proof. exact (find_region_by_key_kind pd budget Hget false (fun E => False_ind _ (Bool.diff_false_true E)) fuel t c key r c' t'). Qed.

Lemma entry_at_verid c s v r : entry_at c s v = Some r -> r_verid r = v /\ r_start r = s /\ In r (c_sorted c).
Proof.
  unfold entry_at. intros H. pose proof (find_some _ _ H) as [Hin Hb].
  apply andb_true_iff in Hb. destruct Hb as [H1 H2]. apply bytes_eqb_eq in H1. apply verid_eqb_eq in H2. tauto.
Qed.
Lemma get_by_verid_verid c v r : get_by_verid c v = Some r -> r_verid r = v /\ In r (c_sorted c).
Proof.
  unfold get_by_verid. destruct (reg_get v (c_regions c)); [|discriminate]. intros H. apply entry_at_verid in H. tauto.
Qed.
Lemma load_by_id_id pd budget t id r t' : pd_byid_sound pd -> load_by_id pd budget t id = (Ok r, t') -> r_id r = id.
Proof.
  intros Hbyid. unfold load_by_id. destruct (call pd budget t (ReqById id)) as [a|] eqn:Ec; [|discriminate].
  apply call_some in Ec. destruct a as [[d|]|l]; try discriminate.
  destruct (is_nil (d_peers d)); [discriminate|]. intros H; injection H as <- _. cbn. symmetry in Ec. exact (Hbyid _ _ _ Ec).
Qed.
Lemma locate_by_id_id pd budget t c id r c' t' : pd_byid_sound pd -> locate_by_id pd budget t c id = (Ok r, c', t') -> r_id r = id.
Proof.
  intros Hbyid. revert r c' t'.
  assert (Hs : forall x, search_by_id c id = Some x -> r_id x = id).
  { unfold search_by_id. intros x. destruct (lat_get id (c_latest c)) as [[ver conf]|]; [|discriminate].
    intros H. apply get_by_verid_verid in H. destruct H as [H _]. unfold r_verid in H. congruence. }
  apply (locate_by_id_cases pd budget t c id (fun res => forall r c' t', res = (Ok r, c', t') -> r_id r = id)).
  - intros x Hx r c' t' H. injection H as <- _ _. exact (Hs x Hx).
  - intros x e t1 Hx _ r c' t' H. injection H as <- _ _. exact (Hs x Hx).
  - intros c0 lr t1 _ Hl r c' t' H. injection H as <- _ _. exact (load_by_id_id _ _ _ _ _ _ Hbyid Hl).
  - intros e t1 _ r c' t' H. discriminate H.
Qed.
