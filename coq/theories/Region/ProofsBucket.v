(* Region/ProofsBucket.v — buckets: LocateBucket for ANY list of bucket keys (sorted or not, inside the region or
   not): a key of the region always gets a bucket that contains it; a bucket found by the search is clamped into
   the region; the fall-back buckets are not (the witness is an Example of Props.v). Bucket versions never go back:
   not on insertion, and not when a bucket reload races with OnBucketVersionNotMatch. *)
From Verif Require Import Base.Lex Region.Model Region.Ord.
Open Scope N_scope.

Lemma div2_bounds i j : (i < j)%nat -> (i <= Nat.div2 (i + j) < j)%nat.
Proof.
  intros H. pose proof (Nat.div2_odd (i + j)) as E. destruct (Nat.odd (i + j)); cbn [Nat.b2n] in E; lia.
Qed.
Lemma bsearch_post n f : forall fuel i j,
  (i <= j)%nat -> (j - i < fuel)%nat -> (i = 0%nat \/ f (i - 1)%nat = false) -> (j = n \/ f j = true) ->
  let r := bsearch fuel i j f in (i <= r <= j)%nat /\ (r = 0%nat \/ f (r - 1)%nat = false) /\ (r = n \/ f r = true).
Proof.
  induction fuel as [|fu IH]; intros i j Hij Hf Hi Hj; [lia|]. cbn [bsearch].
  destruct (Nat.ltb i j) eqn:E.
  - apply Nat.ltb_lt in E. pose proof (div2_bounds i j E) as [H1 H2]. destruct (f (Nat.div2 (i + j))) eqn:Eh.
    + destruct (IH i (Nat.div2 (i + j)) H1 ltac:(lia) Hi (or_intror Eh)) as [A [B C]]. cbv zeta. split; [lia|split; assumption].
    + destruct (IH (S (Nat.div2 (i + j))) j ltac:(lia) ltac:(lia)) as [A [B C]]; [right; cbn; rewrite Nat.sub_0_r; exact Eh|exact Hj|].
      cbv zeta. split; [lia|split; assumption].
  - apply Nat.ltb_ge in E. cbv zeta. assert (i = j) by lia. subst j. split; [lia|split; assumption].
Qed.
Lemma sort_search_post n f : let r := sort_search n f in
  (r <= n)%nat /\ (r = 0%nat \/ f (r - 1)%nat = false) /\ (r = n \/ f r = true).
Proof.
  unfold sort_search. destruct (bsearch_post n f (S n) 0 n ltac:(lia) ltac:(lia) (or_introl eq_refl) (or_introl eq_refl)) as [A [B C]].
  cbv zeta. split; [lia|split; assumption].
Qed.

(* ---- locateBucket: the binary search finds a position i with keys[i-1] <= key < keys[i] (as far as those exist),
   whatever the key list; the answer is read off i ---- *)
Lemma locate_bucket_spec keys key : keys <> [] ->
  exists i, (i = 0%nat \/ lex_leb (nth (i - 1) keys []) key = true) /\
            (i = (length keys - 1)%nat \/ lex_ltb key (nth i keys []) = true) /\
    locate_bucket keys key =
      if Nat.eqb i 0 || (Nat.eqb i (length keys - 1) && negb (is_nil (nth (length keys - 1) keys [])) && lex_leb (nth (length keys - 1) keys []) key)
      then None else Some (nth (i - 1) keys [], nth i keys []).
Proof.
  intros Hne. destruct (sort_search_post (length keys - 1) (fun i => lex_ltb key (nth i keys []))) as [_ [Hlo Hhi]].
  eexists. split; [|split; [exact Hhi|destruct keys; [congruence|reflexivity]]].
  destruct Hlo as [H|H]; [left; exact H|right; apply ltb_false_leb; exact H].
Qed.
Lemma locate_bucket_contains keys key a b : locate_bucket keys key = Some (a, b) -> contains a b key = true.
Proof.
  intros H. assert (Hne : keys <> []) by (intros ->; discriminate H). revert H.
  destruct (locate_bucket_spec keys key Hne) as [i [Hlo [Hhi ->]]]. set (sl := (length keys - 1)%nat) in *.
  destruct (Nat.eqb i 0 || (Nat.eqb i sl && negb (is_nil (nth sl keys [])) && lex_leb (nth sl keys []) key)) eqn:Ec; [discriminate|].
  apply orb_false_iff in Ec. destruct Ec as [E0 E1]. apply Nat.eqb_neq in E0.
  intros H; injection H as <- <-. unfold contains. apply andb_true_iff. split; [destruct Hlo; [contradiction|assumption]|].
  destruct Hhi as [Hhi|Hhi]; [|rewrite Hhi; reflexivity].
  (* the last position: the search did not refuse it, so the last key is empty or above the key *)
  rewrite Hhi, Nat.eqb_refl in *. cbn [andb] in E1. pose proof (past_end_cases (nth sl keys []) key) as Hb. rewrite E1 in Hb.
  destruct Hb as [Hb|Hb]; rewrite Hb; [apply orb_true_r|reflexivity].
Qed.
Lemma nth_last {A} (l : list A) d : nth (length l - 1) l d = last l d.
Proof.
  induction l as [|x [|y t'] IH]; [reflexivity|reflexivity|].
  replace (length (x :: y :: t') - 1)%nat with (S (length (y :: t') - 1)) by (cbn [length]; lia). exact IH.
Qed.
(* when the search fails, the key is below the first or at / above the last bucket key *)
Lemma locate_bucket_none first t key : locate_bucket (first :: t) key = None ->
  lex_ltb key first = true \/ lex_leb (last (first :: t) []) key = true.
Proof.
  destruct (locate_bucket_spec (first :: t) key ltac:(discriminate)) as [i [Hlo [Hhi ->]]].
  set (keys := first :: t) in *.
  destruct (Nat.eqb i 0 || (Nat.eqb i (length keys - 1) && negb (is_nil (nth (length keys - 1) keys [])) && lex_leb (nth (length keys - 1) keys []) key)) eqn:Ec; [|discriminate].
  intros _. apply orb_true_iff in Ec. destruct Ec as [E0|E1].
  - apply Nat.eqb_eq in E0. subst i. destruct Hhi as [Hhi|Hhi]; [|left; exact Hhi].
    (* a single key: first = last *)
    destruct t as [|y t']; [|discriminate Hhi]. destruct (leb_total first key) as [H|H]; [right|left]; exact H.
  - right. apply andb_true_iff in E1. destruct E1 as [_ E1]. rewrite nth_last in E1. exact E1.
Qed.

Lemma clamp_contains s e b key : contains s e key = true -> contains (fst b) (snd b) key = true ->
  contains (fst (clamp_bucket s e b)) (snd (clamp_bucket s e b)) key = true.
Proof.
  intros Hr Hb. apply contains_spec in Hr. apply contains_spec in Hb. destruct Hr as [R1 R2], Hb as [B1 B2]. unfold kle, klt in *.
  unfold clamp_bucket.
  set (bs := if lex_ltb (fst b) s then s else fst b). set (be := if negb (is_nil e) && (is_nil (snd b) || lex_ltb e (snd b)) then e else snd b).
  assert (Hs : lex_leb bs key = true) by (unfold bs; destruct (lex_ltb (fst b) s); assumption).
  assert (He : be = [] \/ lex_ltb key be = true) by (unfold be; destruct (negb (is_nil e) && (is_nil (snd b) || lex_ltb e (snd b))); assumption).
  destruct (negb (is_nil be) && lex_leb be bs) eqn:Ebad; cbn [fst snd]; apply contains_spec; split; try assumption.
Qed.
Definition inside (s e : bytes) (b : bytes * bytes) : Prop :=
  lex_leb s (fst b) = true /\ (e = [] \/ (snd b <> [] /\ lex_leb (snd b) e = true)) /\ (snd b = [] \/ lex_ltb (fst b) (snd b) = true).
Lemma clamp_inside s e b : (e = [] \/ lex_ltb s e = true) -> inside s e (clamp_bucket s e b).
Proof.
  intros Hne. unfold clamp_bucket.
  set (bs := if lex_ltb (fst b) s then s else fst b). set (be := if negb (is_nil e) && (is_nil (snd b) || lex_ltb e (snd b)) then e else snd b).
  pose proof (past_end_cases be bs) as Hbad. destruct (negb (is_nil be) && lex_leb be bs); unfold inside; cbn [fst snd].
  - split; [apply leb_refl|]. split; [|exact Hne]. destruct e as [|x e']; [left; reflexivity|right; split; [discriminate|apply leb_refl]].
  - assert (Hs : lex_leb s bs = true).
    { unfold bs. destruct (lex_ltb (fst b) s) eqn:E; [apply leb_refl|apply ltb_false_leb; exact E]. }
    split; [exact Hs|]. split.
    + destruct e as [|x e']; [left; reflexivity|right]. unfold be. cbn [is_nil negb andb].
      destruct (is_nil (snd b) || lex_ltb (x :: e') (snd b)) eqn:E; [split; [discriminate|apply leb_refl]|].
      apply orb_false_iff in E. destruct E as [E1 E2]. apply is_nil_false in E1. apply ltb_false_leb in E2. split; assumption.
    + exact Hbad.
Qed.

Lemma locate_bucket_full_contains s e keys key : contains s e key = true ->
  exists b, locate_bucket_full s e keys key = Some b /\ contains (fst b) (snd b) key = true.
Proof.
  intros Hr. unfold locate_bucket_full. destruct (locate_bucket keys key) as [[a b]|] eqn:El.
  - eexists. split; [reflexivity|]. apply clamp_contains; [exact Hr|]. cbn [fst snd]. eapply locate_bucket_contains; exact El.
  - rewrite Hr. cbn [negb]. pose proof Hr as Hr'. apply contains_spec in Hr'. destruct Hr' as [R1 R2]. destruct keys as [|first t]; [exists (s, e); split; [reflexivity|exact Hr]|].
    destruct (locate_bucket_none first t key El) as [H|H].
    + rewrite H. exists (s, first). split; [reflexivity|]. apply contains_spec. split; [exact R1|right; exact H].
    + destruct (lex_ltb key first) eqn:E.
      * exists (s, first). split; [reflexivity|]. apply contains_spec. split; [exact R1|right; exact E].
      * rewrite H. eexists. split; [reflexivity|]. apply contains_spec. split; [exact H|exact R2].
Qed.
Lemma locate_bucket_full_found_inside s e keys key b0 : (e = [] \/ lex_ltb s e = true) ->
  locate_bucket keys key = Some b0 -> exists b, locate_bucket_full s e keys key = Some b /\ inside s e b.
Proof. intros Hne El. unfold locate_bucket_full. rewrite El. eexists. split; [reflexivity|apply clamp_inside; exact Hne]. Qed.

Lemma keep_bk_version_max r old : bk_ver (r_bk (keep_bk r old)) = N.max (bk_ver (r_bk r)) (bk_ver (r_bk old)).
Proof.
  unfold keep_bk. cbn [r_bk]. destruct (r_bk r) as [[v ks]|]; destruct (r_bk old) as [[ov oks]|]; cbn [bk_ver]; try lia.
  destruct (v <? ov) eqn:E; cbn [bk_ver]; [apply N.ltb_lt in E|apply N.ltb_ge in E]; lia.
Qed.
Lemma keep_bk_version r old : bk_ver (r_bk r) <= bk_ver (r_bk (keep_bk r old)) /\ bk_ver (r_bk old) <= bk_ver (r_bk (keep_bk r old)).
Proof. rewrite keep_bk_version_max. lia. Qed.
Lemma inherit_bk_version r deleted :
  bk_ver (r_bk r) <= bk_ver (r_bk (inherit r deleted)) /\
  (forall old t, deleted = old :: t -> bk_ver (r_bk old) <= bk_ver (r_bk (inherit r deleted))).
Proof.
  unfold inherit. destruct deleted as [|old t]; [split; [lia|intros; discriminate]|].
  assert (Hw : r_bk (with_work r old) = r_bk r) by (unfold with_work; destruct (r_reason old =? 1); reflexivity).
  destruct (keep_bk_version (with_work r old) old) as [A B]. rewrite Hw in A. split; [exact A|]. intros o t' H. injection H as <- _. exact B.
Qed.

(* UpdateBucketsIfNeeded's background reload (an insertion: keep_bk against the entry it replaces) racing with
   OnBucketVersionNotMatch; bvnm_e = what OnBucketVersionNotMatch does to the entry it finds *)
Definition bvnm_e (ver : N) (keys : list bytes) (x : region) : region :=
  match r_bk x with
  | Some (bv, _) => if bv <? ver then set_bk (Some (ver, keys)) x else x
  | None => set_bk (Some (ver, keys)) x
  end.
Lemma bvnm_e_version ver keys x : bk_ver (r_bk (bvnm_e ver keys x)) = N.max (bk_ver (r_bk x)) ver.
Proof.
  unfold bvnm_e. destruct (r_bk x) as [[bv ks]|] eqn:E; cbn [bk_ver].
  - destruct (bv <? ver) eqn:El; [apply N.ltb_lt in El|apply N.ltb_ge in El]; cbn [set_bk r_bk bk_ver]; [|rewrite E; cbn [bk_ver]]; lia.
  - cbn [set_bk r_bk bk_ver]. lia.
Qed.
(* both orders end with the same bucket version, the maximum of the three versions involved: nothing is lost or rolled back *)
Lemma bucket_race_confluent r old ver keys :
  bk_ver (r_bk (keep_bk r (bvnm_e ver keys old))) = N.max (N.max (bk_ver (r_bk r)) (bk_ver (r_bk old))) ver /\
  bk_ver (r_bk (bvnm_e ver keys (keep_bk r old))) = N.max (N.max (bk_ver (r_bk r)) (bk_ver (r_bk old))) ver.
Proof. rewrite keep_bk_version_max, !bvnm_e_version, keep_bk_version_max. lia. Qed.
(* OnBucketVersionNotMatch is the entry-level function applied to the entry it finds *)
Lemma on_bvnm_entry c v ver keys r : get_by_verid c v = Some r ->
  on_bucket_version_not_match c v ver keys = (if match r_bk r with Some (bv, _) => bv <? ver | None => true end then upd_entry c r (set_bk (Some (ver, keys))) else c) /\
  bvnm_e ver keys r = (if match r_bk r with Some (bv, _) => bv <? ver | None => true end then set_bk (Some (ver, keys)) r else r).
Proof.
  intros H. unfold on_bucket_version_not_match, bvnm_e. rewrite H. destruct (r_bk r) as [[bv ks]|]; [destruct (bv <? ver)|]; split; reflexivity.
Qed.
