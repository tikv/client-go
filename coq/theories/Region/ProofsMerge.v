(* Region/ProofsMerge.v — batchLocateRangesMerger: for ANY list of cached regions sorted by start key and ANY
   sequence of regions loaded from PD, every key that lies in a cached or in a loaded region lies in one of the
   merged locations (a cached region is only dropped when the loaded regions cover it; this includes a cached
   last region whose end key is empty). *)
From Coq Require Import Sorting.Sorted.
From Verif Require Import Base.Lex Region.Model Region.Ord.
Open Scope N_scope.

Definition covered (out : list region) (k : bytes) : Prop := exists l, In l out /\ r_contains l k = true.
Definition start_le (a b : region) : Prop := lex_leb (r_start a) (r_start b) = true.
Definition sorted_le (l : list region) : Prop := StronglySorted start_le l.

Lemma covered_mono out out' k : (forall x, In x out -> In x out') -> covered out k -> covered out' k.
Proof. intros H [l [Hin Hc]]. exists l. split; [apply H; exact Hin|exact Hc]. Qed.
Lemma covered_app_l a b k : covered a k -> covered (a ++ b) k.
Proof. apply covered_mono. intros x Hx. apply in_or_app. left; exact Hx. Qed.

Definition covers (out : list region) : bytes -> (bytes -> Prop) -> Prop := spans (covered out).

Lemma covers_mono out out' s U : (forall x, In x out -> In x out') -> covers out s U -> covers out' s U.
Proof. intros H. apply spans_impl. intros k. apply covered_mono. exact H. Qed.
Lemma covers_region out r s : In r out -> lex_leb (r_start r) s = true -> covers out s (below (r_end r)).
Proof.
  intros Hin Hs k H1 H2. exists r. split; [exact Hin|]. apply r_contains_spec. split; [eapply leb_trans; eassumption|exact H2].
Qed.

Lemma covers_region_end out r s e :
  In r out -> lex_leb (r_start r) s = true -> r_contains_end r e = true -> covers out s (below e).
Proof. intros Hin Hs He k H1 H2. apply (covers_region out r s Hin Hs k H1). eapply contains_by_end_below; eassumption. Qed.

Lemma merge_take_spec le u : forall cs out cs' out',
  sorted_le cs -> merge_take le u cs out = (cs', out') ->
  sorted_le cs' /\
  (forall c, In c cs' -> In c cs /\ lex_leb (r_start u) (r_start c) = true) /\
  (forall x, In x out -> In x out') /\
  (forall c, In c cs -> In c out' \/ skip_covered le c = true \/ In c cs').
Proof.
  induction cs as [|c cs IH]; intros out cs' out' Hs; cbn [merge_take].
  - intros H; injection H as <- <-. split; [constructor|]. split; [intros c []|]. split; [exact (fun x H => H)|intros c []].
  - inversion Hs as [|? ? Hst Hall]; subst.
    destruct (skip_covered le c) eqn:Esk.
    + intros H. destruct (IH _ _ _ Hst H) as [H1 [H2 [H3 H4]]]. split; [exact H1|]. split; [|split; [exact H3|]].
      * intros x Hx. destruct (H2 x Hx) as [Ha Hb]. split; [right; exact Ha|exact Hb].
      * intros x [<-|Hx]; [right; left; exact Esk|]. destruct (H4 x Hx) as [Ha|[Ha|Ha]]; auto.
    + destruct (lex_leb (r_start u) (r_start c)) eqn:Ele.
      * intros H; injection H as <- <-. split; [exact Hs|]. split; [|split; [exact (fun x H => H)|]].
        -- intros x [<-|Hx]; [split; [left; reflexivity|exact Ele]|]. split; [right; exact Hx|].
           rewrite Forall_forall in Hall. eapply leb_trans; [exact Ele|apply Hall; exact Hx].
        -- intros x Hx. right; right; exact Hx.
      * intros H. destruct (IH _ _ _ Hst H) as [H1 [H2 [H3 H4]]]. split; [exact H1|]. split; [|split].
        -- intros x Hx. destruct (H2 x Hx) as [Ha Hb]. split; [right; exact Ha|exact Hb].
        -- intros x Hx. apply H3. apply in_or_app. left; exact Hx.
        -- intros x [<-|Hx]; [left; apply H3, in_elt|].
           destruct (H4 x Hx) as [Ha|[Ha|Ha]]; auto.
Qed.

(* invariant of the merger, relative to the list of cached regions it started with: the pending cached regions are
   sorted, every key of a cached region is in the output or in a pending one, and the output is gap-free from some
   key [a] at or below every pending start up to the last end key *)
Definition chain_inv (le : option bytes) (cs out : list region) : Prop :=
  match le with
  | None => True
  | Some l => exists a, covers out a (before l) /\ (forall c, In c cs -> lex_leb a (r_start c) = true)
  end.
Definition minv (cs0 : list region) (m : mstate) : Prop :=
  let '(le, cs, out) := m in
  sorted_le cs /\
  (forall c k, In c cs0 -> r_contains c k = true -> covered out k \/ exists c', In c' cs /\ r_contains c' k = true) /\
  chain_inv le cs out.

Lemma skip_covered_covered le cs out c k :
  chain_inv le cs out -> In c cs -> skip_covered le c = true -> r_contains c k = true -> covered out k.
Proof.
  unfold chain_inv, skip_covered. destruct le as [l|]; [|discriminate].
  intros [a [Hcov Hpend]] Hin Hsk Hk. pose proof (past_end_cases (r_end c) l) as H. rewrite Hsk in H. destruct H as [Hne Hle].
  apply r_contains_spec in Hk. destruct Hk as [H1 [H2|H2]]; [congruence|].
  apply Hcov; [eapply leb_trans; [apply Hpend; exact Hin|exact H1]|eapply ltb_leb_trans; [exact H2|exact Hle]].
Qed.

(* where u goes: to the output behind [out'] (the cached regions that had to come first), [cs1] stays pending, and the
   output is gap-free from a key [a] at or below every pending start up to u's end *)
Lemma append_region_step le cs out u : sorted_le cs -> chain_inv le cs out ->
  exists cs1 out' a,
    append_region (le, cs, out) u = (if is_nil (r_end u) then (le, [], out' ++ [u]) else (Some (r_end u), cs1, out' ++ [u])) /\
    sorted_le cs1 /\ (forall x, In x out -> In x out') /\
    (forall c, In c cs -> In c out' \/ skip_covered le c = true \/ In c cs1) /\
    covers (out' ++ [u]) a (below (r_end u)) /\ (forall c, In c cs1 -> lex_leb a (r_start c) = true).
Proof.
  intros Hs Hch. unfold append_region.
  pose proof (fun o => in_elt u o []) as Hu.
  destruct (is_nil (r_start u)) eqn:En.
  - apply is_nil_true in En. exists cs, out, [].
    split; [reflexivity|]. split; [exact Hs|]. split; [exact (fun x H => H)|]. split; [intros c Hc; right; right; exact Hc|].
    split; [apply covers_region; [apply Hu|rewrite En; apply leb_nil_l]|intros c _; apply leb_nil_l].
  - destruct (match le with Some l => lex_leb (r_start u) l | None => false end) eqn:El.
    + (* u starts inside what is already gap-free *)
      destruct le as [l|]; [|discriminate]. destruct Hch as [a [Hcov Hpend]]. exists cs, out, a.
      split; [reflexivity|]. split; [exact Hs|]. split; [exact (fun x H => H)|]. split; [intros c Hc; right; right; exact Hc|].
      split; [|exact Hpend]. apply (spans_glue _ _ l); [|apply covers_region; [apply Hu|exact El]].
      eapply covers_mono; [|exact Hcov]. intros x Hx. apply in_or_app. left; exact Hx.
    + destruct (merge_take le u cs out) as [cs' out'] eqn:Em.
      destruct (merge_take_spec _ _ _ _ _ _ Hs Em) as [H1 [H2 [H3 H4]]]. exists cs', out', (r_start u).
      split; [reflexivity|]. split; [exact H1|]. split; [exact H3|]. split; [exact H4|].
      split; [apply covers_region; [apply Hu|apply leb_refl]|intros c Hc; apply H2; exact Hc].
Qed.

Lemma append_region_inv cs0 m u :
  minv cs0 m ->
  minv cs0 (append_region m u) /\
  (forall x, In x (snd m) -> In x (snd (append_region m u))) /\ In u (snd (append_region m u)).
Proof.
  destruct m as [[le cs] out]. cbn [snd]. intros [Hs [Hcs0 Hch]].
  destruct (append_region_step le cs out u Hs Hch) as [cs1 [out' [a [-> [HA1 [HA2 [HA4 [HA5 HA6]]]]]]]].
  pose proof (in_elt u out' []) as Hu.
  assert (Hsub : forall x, In x out -> In x (out' ++ [u])) by (intros x Hx; apply in_or_app; left; apply HA2; exact Hx).
  (* every key of an originally cached region is still accounted for *)
  assert (Hacc : forall c k, In c cs0 -> r_contains c k = true ->
            covered (out' ++ [u]) k \/ (exists c', In c' cs1 /\ r_contains c' k = true)).
  { intros c k Hc Hk. destruct (Hcs0 c k Hc Hk) as [Hcov|[c' [Hc' Hk']]]; [left; eapply covered_mono; eassumption|].
    destruct (HA4 c' Hc') as [Hin|[Hsk|Hin]].
    - left. exists c'. split; [apply in_or_app; left; exact Hin|exact Hk'].
    - left. eapply covered_mono; [exact Hsub|]. eapply skip_covered_covered; eassumption.
    - right. exists c'. split; assumption. }
  destruct (is_nil (r_end u)) eqn:Ee.
  - (* u is unbounded: it covers whatever was pending *)
    apply is_nil_true in Ee. cbn [snd]. split; [|split; [exact Hsub|exact Hu]].
    split; [constructor|]. split.
    + intros c k Hc Hk. left. destruct (Hacc c k Hc Hk) as [Hcov|[c' [Hc' Hk']]]; [exact Hcov|].
      apply HA5; [|left; exact Ee]. apply r_contains_spec in Hk'. eapply leb_trans; [apply HA6; exact Hc'|apply Hk'].
    + unfold chain_inv. destruct le as [l|]; [|exact I]. destruct Hch as [a0 [Hcov _]]. exists a0. split; [|intros c []].
      eapply covers_mono; [exact Hsub|exact Hcov].
  - cbn [snd]. split; [|split; [exact Hsub|exact Hu]]. split; [exact HA1|]. split; [exact Hacc|].
    exists a. split; [apply spans_before; exact HA5|exact HA6].
Qed.

Lemma fold_append_inv cs0 : forall us m,
  minv cs0 m ->
  minv cs0 (fold_left append_region us m) /\
  (forall x, In x (snd m) \/ In x us -> In x (snd (fold_left append_region us m))).
Proof.
  induction us as [|u us IH]; intros m Hm; cbn [fold_left].
  - split; [exact Hm|]. intros x [H|[]]; exact H.
  - destruct (append_region_inv cs0 m u Hm) as [H1 [H2 H3]]. destruct (IH _ H1) as [H4 H5]. split; [exact H4|].
    intros x [Hx|[<-|Hx]]; apply H5; [left; apply H2; exact Hx|left; exact H3|right; exact Hx].
Qed.

Lemma merger_build_covers cs0 m k :
  minv cs0 m -> (covered (snd m) k \/ exists c, In c cs0 /\ r_contains c k = true) -> covered (merger_build m) k.
Proof.
  destruct m as [[le cs] out]. cbn [snd]. intros [Hs [Hcs0 Hch]] H. unfold merger_build.
  assert (Hc : covered out k \/ exists c', In c' cs /\ r_contains c' k = true).
  { destruct H as [H|[c [Hc Hk]]]; [left; exact H|]. eapply Hcs0; eassumption. }
  destruct Hc as [Hc|[c' [Hc' Hk']]]; [apply covered_app_l; exact Hc|].
  destruct (skip_covered le c') eqn:Esk.
  - apply covered_app_l. eapply skip_covered_covered; eassumption.
  - exists c'. split; [|exact Hk']. apply in_or_app. right. apply filter_In. split; [exact Hc'|]. rewrite Esk. reflexivity.
Qed.

Lemma merge_all_covers cs us k :
  sorted_le cs ->
  (exists c, In c cs /\ r_contains c k = true) \/ (exists u, In u us /\ r_contains u k = true) ->
  covered (merge_all cs us) k.
Proof.
  intros Hs H. unfold merge_all.
  assert (H0 : minv cs (None, cs, [])).
  { split; [exact Hs|]. split; [|exact I]. intros c k' Hc Hk. right. exists c. split; assumption. }
  destruct (fold_append_inv cs us _ H0) as [H1 H2].
  apply (merger_build_covers cs); [exact H1|].
  destruct H as [H|[u [Hu Hk]]]; [right; exact H|]. left. exists u. split; [apply H2; right; exact Hu|exact Hk].
Qed.

(* the skip test of the code before commit cd8391e, without the "end key is not empty" guard: it drops a cached last
   region with an unbounded end. No lemma refers to it. *)
Definition skip_covered_old (le : option bytes) (c : region) : bool :=
  match le with Some l => lex_leb (r_end c) l | None => false end.
