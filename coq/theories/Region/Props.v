(* Region/Props.v — property C09: the theorems, nothing else. PD is an arbitrary oracle
   [pd : nat -> pd_req -> pd_ans] (the n-th call may be answered with any, possibly stale, description);
   what a theorem needs from it is an explicit hypothesis. *)
From Coq Require Import Permutation.
From Verif Require Import Base.Lex Region.Model Region.Ord Region.ProofsContains Region.GroupFilter Region.ProofsInsert
  Region.ProofsMerge Region.ProofsGap Region.ProofsPhase2
  Region.Converge Region.ProofsConvA Region.ProofsConvB Region.ProofsConvC Region.PdCodec Region.ProofsBucket Region.Peers Region.ProofsApi Region.InvCheck Region.ProofsClosed Region.ProofsReach.
From Verif Require Import Region.ProofsTop.
Open Scope N_scope.

(* SearchByKey, on ANY list of entries *)
Theorem C09_contains_search : forall l key is_end r,
  search l key is_end = Some r -> (if is_end then r_contains_end r key else r_contains r key) = true.
Proof. exact search_contains. Qed.
Print Assumptions C09_contains_search.

(* LocateKey / LocateEndKey (findRegionByKey) from ANY cache state, with ANY PD whose answer to "region of k" holds k;
   the end-key lookup of the empty key (the end of the key space) included: it returns a region with unbounded end
   (loadLastRegion / the entry with the greatest start key, fix 0dbaf7e) *)
Theorem C09_contains : forall pd budget fuel t c key is_end r c' t',
  pd_get_sound pd -> pd_prev_sound pd ->
  find_region_by_key pd budget fuel t c key is_end = (Ok r, c', t') ->
  (if is_end then r_contains_end r key else r_contains r key) = true.
Proof. exact (fun pd budget fuel t c key is_end r c' t' Hg Hp => find_region_by_key_holds pd budget Hg Hp fuel t c key is_end r c' t'). Qed.
Print Assumptions C09_contains.

(* regression of F08 (fixed by 0dbaf7e): with the two regions [-inf,"b") ["b",+inf) the end-key lookup of the empty key
   returns the last region — cold cache (scan from PD) and warm cache (greatest start key) *)
Example C09_contains_end_of_keyspace :
  (exists r c' t', find_region_by_key f08_pd 5 5 0 empty_cache [] true = (Ok r, c', t') /\ r_id r = 2 /\ r_contains_end r [] = true) /\
  (exists r c' t', find_region_by_key f08_pd 5 5 0 f08_warm [] true = (Ok r, c', t') /\ r_id r = 2 /\ r_contains_end r [] = true /\ t' = 0%nat).
Proof. split; vm_compute; eexists _, _, _; repeat split. Qed.

(* LocateRegionByID returns the region asked for *)
Theorem C09_contains_by_id : forall pd budget t c id r c' t',
  pd_byid_sound pd -> locate_by_id pd budget t c id = (Ok r, c', t') -> r_id r = id.
Proof. exact locate_by_id_id. Qed.
Print Assumptions C09_contains_by_id.

(* TryLocateKey (cache only) *)
Theorem C09_contains_try : forall c key r, try_find c key false = Some r -> r_contains r key = true.
Proof. exact (fun c key => try_find_holds c key false). Qed.
Print Assumptions C09_contains_try.
(* LocateRegionByIDFromPD (bypasses the cache) *)
Theorem C09_contains_by_id_from_pd : forall pd budget t id r t',
  pd_byid_sound pd -> load_by_id pd budget t id = (Ok r, t') -> r_id r = id.
Proof. exact load_by_id_id. Qed.
Print Assumptions C09_contains_by_id_from_pd.
(* ListRegionIDsInKeyRange: the regions listed form a chain — the first holds the start key, each next one holds the end key
   of the one before, the last holds the end key *)
Theorem C09_list_region_ids_chain : forall pd budget fuel t c s e res c' t',
  pd_get_sound pd -> pd_prev_sound pd ->
  list_region_ids pd budget fuel t c s e [] = (Ok res, c', t') -> chain s e res.
Proof. exact C09_list_region_ids_chain_proof. Qed.
Print Assumptions C09_list_region_ids_chain.

(* the merger alone: ANY cached list sorted by start key, ANY sequence of loaded regions — nothing that lies in a
   cached or loaded region is lost, including a cached last region with empty end key *)
Theorem C09_merge_covers : forall cs us k,
  sorted_le cs ->
  (exists c, In c cs /\ r_contains c k = true) \/ (exists u, In u us /\ r_contains u k = true) ->
  covered (merge_all cs us) k.
Proof. exact merge_all_covers. Qed.
Print Assumptions C09_merge_covers.

(* a PD batch that passes regionsHaveGapInRanges covers the ranges, up to the end of its last region *)
Theorem C09_gap_check_sound : forall rs infos limit,
  ranges_wf rs -> regions_have_gap rs infos limit = false ->
  forall k, in_ranges rs k ->
    dcovered infos k \/ (infos <> [] /\ forall d0, d_end (last infos d0) <> [] /\ lex_leb (d_end (last infos d0)) k = true).
Proof. exact regions_have_gap_sound. Qed.
Print Assumptions C09_gap_check_sound.

(* BatchLocateKeyRanges from ANY sorted cache index with ANY PD: the merged locations cover every requested range
   (sorted, disjoint, at most 16*defaultRegionsPerBatch of them, i.e. one PD batch of ranges) *)
Theorem C09_range_gap_free : forall pd budget batch_limit fuel t c rs need_leader locs c' t',
  sorted_starts (c_sorted c) -> ranges_wf rs -> (length rs <= 16 * batch_limit)%nat ->
  (need_leader = true -> pd_leaders pd) ->
  batch_locate pd budget batch_limit fuel t c rs need_leader = (Ok locs, c', t') ->
  forall s e k, In (s, e) rs -> in_range s e k -> exists l, In l locs /\ in_range (r_start l) (r_end l) k.
Proof. exact (fun pd budget bl fuel t c rs nl locs c' t' Hs Hwf Hlen => batch_locate_gap_free pd budget bl fuel t c rs nl locs c' t' Hs Hwf (or_introl Hlen)). Qed.
Print Assumptions C09_range_gap_free.

(* ANY number of ranges (BatchLocateKeyRanges sends the uncached ranges in chunks of 16*defaultRegionsPerBatch and
   recomputes the remainder from the whole list): coverage without the bound, under the one thing the chunking needs from
   PD — a batch scan answers only with regions that overlap the ranges asked ([pd_no_junk]) *)
Theorem C09_range_gap_free_any : forall pd budget batch_limit fuel t c rs need_leader locs c' t',
  sorted_starts (c_sorted c) -> ranges_wf rs -> (need_leader = true -> pd_leaders pd) -> pd_no_junk pd ->
  batch_locate pd budget batch_limit fuel t c rs need_leader = (Ok locs, c', t') ->
  forall s e k, In (s, e) rs -> in_range s e k -> exists l, In l locs /\ in_range (r_start l) (r_end l) k.
Proof. exact (fun pd budget bl fuel t c rs nl locs c' t' Hs Hwf Hl Hj => batch_locate_gap_free pd budget bl fuel t c rs nl locs c' t' Hs Hwf (or_intror Hj) Hl). Qed.
Print Assumptions C09_range_gap_free_any.

(* LocateKeyRange *)
Theorem C09_key_range_gap_free : forall pd budget batch_limit fuel t c s e locs c' t',
  pd_leaders pd ->
  locate_key_range pd budget batch_limit fuel t c s e [] = (Ok locs, c', t') ->
  forall k, in_range s e k -> exists l, In l locs /\ in_range (r_start l) (r_end l) k.
Proof. exact C09_key_range_gap_free_proof. Qed.
Print Assumptions C09_key_range_gap_free.

(* LoadRegionsInKeyRange (PD only) *)
Theorem C09_load_regions_gap_free : forall pd budget batch_limit fuel t c s e regs c' t',
  pd_leaders pd ->
  load_regions_in_range pd budget batch_limit fuel t c s e [] = (Ok regs, c', t') ->
  forall k, in_range s e k -> exists l, In l regs /\ in_range (r_start l) (r_end l) k.
Proof. exact C09_load_regions_gap_free_proof. Qed.
Print Assumptions C09_load_regions_gap_free.
(* BatchLoadRegionsWithKeyRanges: what one call loads covers the ranges up to the end of the last loaded region.
   BatchLoadRegionsWithKeyRange / BatchLoadRegionsFromKey ([batch_load_range]) run the same retry loop over ScanRegions with
   the one range [s, e); they have no theorem of their own here, C09_load_regions_gap_free is built from their calls *)
Theorem C09_batch_load_covers : forall pd budget fuel t c rs count nl regs c' t',
  rs <> [] -> ranges_wf rs -> (nl = true -> pd_leaders pd) ->
  batch_load_ranges pd budget fuel t c rs count nl = (Ok regs, c', t') ->
  forall k, in_ranges rs k ->
    covered regs k \/ (exists lastr x, rev regs = lastr :: x /\ r_end lastr <> [] /\ lex_leb (r_end lastr) k = true).
Proof. exact (fun pd budget fuel t c rs count nl regs c' t' _ => batch_load_ranges_covers pd budget fuel t c rs count nl regs c' t'). Qed.
Print Assumptions C09_batch_load_covers.

(* the sorted-index invariant that C09_range_gap_free and C09_range_gap_free_any need is kept by every insertion, starting from the
   empty cache *)
Theorem C09_index_sorted : forall rs c, sorted_starts (c_sorted c) -> sorted_starts (c_sorted (insert_all c rs)).
Proof. exact insert_all_sorted. Qed.
Print Assumptions C09_index_sorted.

(* GroupKeysByRegion without a filter: the keys are assigned in order, each to a location that contains it; the groups are a
   permutation of the keys, one group per region version *)
Theorem C09_group_partition : forall pd budget fuel t c keys asg c' t',
  pd_get_sound pd -> pd_prev_sound pd ->
  group_assign pd budget fuel t c keys None [] = (Ok asg, c', t') ->
  map fst asg = keys /\ (forall k r, In (k, r) asg -> r_contains r k = true) /\
  Permutation (concat (map snd (groups_of asg))) keys /\ NoDup (map fst (groups_of asg)) /\
  (forall v ks k, In (v, ks) (groups_of asg) -> In k ks -> exists r, In (k, r) asg /\ r_verid r = v /\ r_contains r k = true).
Proof. exact C09_group_partition_proof. Qed.
Print Assumptions C09_group_partition.

(* a refused description changes nothing; a description older (version or conf version) than what latestVersions
   holds for its id is refused; so is one older than a cached region that starts inside its range *)
Theorem C09_no_regress_refused : forall c r c', insert_region c r = (false, c') -> c' = c.
Proof. exact insert_refused_unchanged. Qed.
Print Assumptions C09_no_regress_refused.
Theorem C09_no_regress_same_id : forall c r ov oc,
  lat_get (r_id r) (c_latest c) = Some (ov, oc) -> (r_ver r < ov \/ r_conf r < oc) -> insert_region c r = (false, c).
Proof. exact insert_refuses_older_same_id. Qed.
Print Assumptions C09_no_regress_same_id.
Theorem C09_no_regress_inner : forall c r x,
  sorted_starts (c_sorted c) -> In x (c_sorted c) ->
  lex_leb (r_start r) (r_start x) = true -> (r_end r = [] \/ lex_ltb (r_start x) (r_end r) = true) ->
  r_ver r < r_ver x -> insert_region c r = (false, c).
Proof. exact insert_refuses_older_than_inner. Qed.
Print Assumptions C09_no_regress_inner.
(* latestVersions[id] is only dropped together with the entry that carries exactly that version: while that entry stays in the
   index (entries have pairwise distinct region versions), an insertion keeps the record or raises it — it is never wiped by
   the eviction of another, older version of the same region *)
Theorem C09_no_regress_latest_kept : forall c r ok c' id v cf,
  sorted_starts (c_sorted c) -> nonempty_range r ->
  (forall x y, In x (c_sorted c) -> In y (c_sorted c) -> r_verid x = r_verid y -> x = y) ->
  insert_region c r = (ok, c') ->
  lat_get id (c_latest c) = Some (v, cf) ->
  (exists e, In e (c_sorted c') /\ r_verid e = (id, v, cf)) ->
  exists v' cf', lat_get id (c_latest c') = Some (v', cf') /\ v <= v' /\ cf <= cf'.
Proof. exact (fun c r ok c' id v cf Hs _ => insert_latest_kept c r ok c' id v cf Hs). Qed.
Print Assumptions C09_no_regress_latest_kept.
(* over ANY sequence of insertions, from ANY cache: while the id is never dropped from latestVersions its (ver, conf) only grows *)
Theorem C09_no_regress : forall rs c id v cf v' cf',
  held id c rs ->
  lat_get id (c_latest c) = Some (v, cf) -> lat_get id (c_latest (insert_all c rs)) = Some (v', cf') -> v <= v' /\ cf <= cf'.
Proof. exact insert_all_latest_mono. Qed.
Print Assumptions C09_no_regress.

(* Ground truth [truth] (a partition into regions with distinct ids, each led by one of its peers, one peer per
   store) that no longer changes; PD reports it; stores answer as TiKV / mocktikv do ([store_reply]); the cache is in
   ANY state satisfying [cinv]: sorted index, entries addressable through the by-version map, and epochs that are not
   ahead of the truth (what TiKV's epoch discipline guarantees for every description the cache can have seen).
   Then a request for any key k is served — by the leader of the region that holds k, under its current epoch —
   within 4 rounds of locate / send / react (NotLeader -> UpdateLeader, RegionNotFound -> invalidate,
   EpochNotMatch -> OnRegionEpochNotMatch). The bound is tight (example below). *)
Theorem C09_converges : forall truth cur_of pd budget fuel k T c,
  truth_wf truth ->
  (forall R, In R truth -> In R (cur_of R) /\ forall d, In d (cur_of R) -> In d truth) ->
  (forall t k T, In T truth -> tcontains T k = true -> pd t (ReqGet k) = PdOne (Some T)) ->
  (0 < budget)%nat -> (0 < fuel)%nat ->
  In T truth -> tcontains T k = true ->
  cinv truth c ->
  rounds truth cur_of pd budget fuel 4 c k = true.
Proof. exact converges. Qed.
Print Assumptions C09_converges.

Theorem C09_converges_served : forall truth cur_of pd budget fuel k T c c',
  truth_wf truth ->
  (forall R, In R truth -> In R (cur_of R) /\ forall d, In d (cur_of R) -> In d truth) ->
  (forall t k T, In T truth -> tcontains T k = true -> pd t (ReqGet k) = PdOne (Some T)) ->
  (0 < budget)%nat -> (0 < fuel)%nat ->
  In T truth -> tcontains T k = true ->
  cinv truth c ->
  round truth cur_of pd budget fuel c k = (true, c') ->
  exists e, In e (c_sorted c') /\ r_verid e = d_verid T /\ r_contains e k = true /\
            store_reply truth cur_of (r_verid e) (d_leader T) = RepOk /\ nth (r_work e) (r_peers e) (0, 0) = d_leader T.
Proof. exact round_served. Qed.
Print Assumptions C09_converges_served.

(* the same through the real sender: RegionRequestSender.SendReqCtx locates once and makes as many attempts as it likes on the
   cached entry (its choice is the oracle [inner]); its effects on the cache are compositions of the modelled operations (checked
   on every sender round of the harness). Whatever it chooses, 4 calls suffice. *)
Theorem C09_converges_composed : forall truth cur_of pd budget fuel k T c inner,
  truth_wf truth ->
  (forall R, In R truth -> In R (cur_of R) /\ forall d, In d (cur_of R) -> In d truth) ->
  (forall t k T, In T truth -> tcontains T k = true -> pd t (ReqGet k) = PdOne (Some T)) ->
  (0 < budget)%nat -> (0 < fuel)%nat ->
  In T truth -> tcontains T k = true ->
  cinv truth c ->
  srounds truth cur_of pd budget fuel inner 4 0 c k = true.
Proof. exact converges_composed. Qed.
Print Assumptions C09_converges_composed.

(* the invariant is established by the empty cache and kept by everything a round does: inserting current regions
   and updating entries in place *)
Theorem C09_converges_inv_insert : forall truth c r T,
  truth_wf truth -> cinv truth c -> In T truth -> of_truth r T -> fresh r -> (r_work r < length (r_peers r))%nat ->
  length (r_sepochs r) = length (r_peers r) ->
  exists c' deleted, insert_region c r = (true, c') /\ cinv truth c' /\ c_sepochs c' = c_sepochs c /\ In (inherit r deleted) (c_sorted c') /\
    (forall x, In x (c_sorted c') -> x = inherit r deleted \/ In x (c_sorted c)).
Proof. exact (fun truth c r T Htw => insert_truth truth Htw c r T). Qed.
Print Assumptions C09_converges_inv_insert.

(* the hypotheses of the convergence theorems as executable tests (extracted; the replay evaluates [cinvb] on the
   implementation's cache after every operation and [truth_wfb] on the ground truth at every quiescent point) *)
Theorem C09_inv_check_sound : forall truth c hist,
  (truth_wfb truth = true -> truth_wf truth) /\ (cinvb truth c = true -> cinv truth c) /\
  (hist_okb truth hist = true -> hist_ok truth (fun d => In d hist)).
Proof. exact (fun truth c hist => conj (truth_wfb_sound truth) (conj (cinvb_sound truth c) (hist_okb_sound truth hist))). Qed.
Print Assumptions C09_inv_check_sound.
Theorem C09_converges_checked : forall truth cur_of pd budget fuel k c,
  truth_wfb truth = true -> cinvb truth c = true ->
  (forall R, In R truth -> In R (cur_of R) /\ forall d, In d (cur_of R) -> In d truth) ->
  (forall t k T, In T truth -> tcontains T k = true -> pd t (ReqGet k) = PdOne (Some T)) ->
  (0 < budget)%nat -> (0 < fuel)%nat ->
  rounds truth cur_of pd budget fuel 4 c k = true.
Proof. exact converges_checked. Qed.
Print Assumptions C09_converges_checked.

(* the invariant is reachable: from the empty cache, through ANY sequence of lookups (all APIs), reactions to store replies,
   sender-side entry changes, GC, expiry, store checks and bucket updates, while PD and the stores answer with arbitrary OLDER
   states of the regions ([H]: the history; [hist_ok]: TiKV's epoch discipline over it), the cache satisfies [cinv]; hence,
   once PD reports the current regions, 4 rounds suffice from any reachable state *)
Theorem C09_invariant_reachable : forall truth H c,
  hist_ok truth H -> reach truth H c -> cinv truth c.
Proof. exact (fun truth H c Hh Hr => proj1 (reach_rinv truth H Hh c Hr)). Qed.
Print Assumptions C09_invariant_reachable.
Theorem C09_converges_reachable : forall truth H cur_of pd budget fuel k T c,
  truth_wf truth -> hist_ok truth H -> reach truth H c ->
  (forall R, In R truth -> In R (cur_of R) /\ forall d, In d (cur_of R) -> In d truth) ->
  (forall t k T, In T truth -> tcontains T k = true -> pd t (ReqGet k) = PdOne (Some T)) ->
  (0 < budget)%nat -> (0 < fuel)%nat ->
  In T truth -> tcontains T k = true ->
  rounds truth cur_of pd budget fuel 4 c k = true.
Proof. exact C09_converges_reachable_proof. Qed.
Print Assumptions C09_converges_reachable.

(* the situations without convergence (leader store down, leaderless region, PD stale or silent):
   whatever PD answers — nothing, gaps, leaderless regions, stale descriptions — a lookup consults PD at most [budget]
   times (in the code every retry of loadRegion / scanRegions / batchScanRegions after a failed or unusable answer is preceded
   by a back-off that is charged to the budget; the model charges every call, also the GetPrevRegion call of an end-key lookup
   and the second load after a refused insertion, which follow without back-off) and then returns an error; with the budget used up a cache miss is an error and the cache is untouched *)
Theorem C09_lookup_pd_bounded : forall pd budget fuel t c key is_end r c' t',
  find_region_by_key pd budget fuel t c key is_end = (r, c', t') -> (t <= t' <= Nat.max t budget)%nat.
Proof. exact find_region_by_key_bounded. Qed.
Print Assumptions C09_lookup_pd_bounded.
Theorem C09_scan_pd_bounded : forall pd budget fuel t q rs limit nl r t',
  scan_loop pd budget fuel t q rs limit nl = (r, t') -> (t <= t' <= Nat.max t budget)%nat.
Proof. exact scan_loop_bounded. Qed.
Print Assumptions C09_scan_pd_bounded.
Theorem C09_lookup_error_surfaces : forall pd budget fuel t c key is_end, (budget <= t)%nat -> (0 < fuel)%nat ->
  search (c_sorted c) key is_end = None -> find_region_by_key pd budget fuel t c key is_end = (Err 1, c, t).
Proof. exact find_region_by_key_exhausted. Qed.
Print Assumptions C09_lookup_error_surfaces.

(* through pd_codec.go (txn mode): [codec_pd raw] is the PD the cache sees behind CodecPDClient, requests
   memcomparable-encoded (C19's encode_bytes), boundaries of answers decoded. If the PD answers "region of enc(k)" with a region whose encoded range holds enc(k)
   (boundaries empty or encodings; an end boundary never the encoding of the empty key), every LocateKey/LocateEndKey
   result contains the key: decoding preserves order and containment. *)
Theorem C09_codec_preserves_containment : forall s e k s' e',
  enc_bound s -> enc_bound_end e -> dec_key s = Some s' -> dec_key e = Some e' ->
  contains s e (Codec.Model.encode_bytes k) = contains s' e' k.
Proof. exact dec_contains. Qed.
Print Assumptions C09_codec_preserves_containment.
Theorem C09_contains_codec : forall raw budget fuel t c key is_end r c' t',
  raw_get_sound raw -> raw_prev_sound raw ->
  find_region_by_key (codec_pd raw) budget fuel t c key is_end = (Ok r, c', t') ->
  (if is_end then r_contains_end r key else r_contains r key) = true.
Proof. exact C09_contains_codec_proof. Qed.
Print Assumptions C09_contains_codec.

(* KeyLocation.LocateBucket on a location [s,e) with ANY list of bucket keys (unsorted, stale, outside the region):
   a key of the region always gets a bucket, and the bucket contains the key *)
Theorem C09_bucket_contains : forall s e keys key, contains s e key = true ->
  exists b, locate_bucket_full s e keys key = Some b /\ contains (fst b) (snd b) key = true.
Proof. exact locate_bucket_full_contains. Qed.
Print Assumptions C09_bucket_contains.
(* a bucket found by the search (locateBucket) is clamped: it lies inside the (non-empty) region and is non-empty *)
Theorem C09_bucket_inside : forall s e keys key b0, (e = [] \/ lex_ltb s e = true) ->
  locate_bucket keys key = Some b0 -> exists b, locate_bucket_full s e keys key = Some b /\ inside s e b.
Proof. exact locate_bucket_full_found_inside. Qed.
Print Assumptions C09_bucket_inside.
(* the fall-back buckets (key below the first / at or above the last bucket key) are NOT clamped: with stale bucket keys
   they reach outside the region — region [t,z), keys [a,h,m], key u: bucket [m,z) *)
(* observation, not a clause of C09 (the property speaks about regions, not buckets) *)
Example C09_bucket_fallback_unclamped_example :
  exists s e keys key b, contains s e key = true /\ locate_bucket_full s e keys key = Some b /\ ~ inside s e b.
Proof.
  exists [116], [122], [[97]; [104]; [109]], [117], ([109], [122]). split; [reflexivity|]. split; [reflexivity|].
  intros [H _]. cbn in H. discriminate.
Qed.
(* bucket versions never go back: an inserted region ends up with at least its own bucket version and at least the
   version of the entry whose place it takes; OnBucketVersionNotMatch only raises it (by definition) *)
Theorem C09_bucket_version_mono : forall r deleted,
  bk_ver (r_bk r) <= bk_ver (r_bk (inherit r deleted)) /\
  (forall old t, deleted = old :: t -> bk_ver (r_bk old) <= bk_ver (r_bk (inherit r deleted))).
Proof. exact inherit_bk_version. Qed.
Print Assumptions C09_bucket_version_mono.

(* UpdateBucketsIfNeeded's background reload racing with OnBucketVersionNotMatch on the entry it replaces: both orders end with
   the same bucket version, the maximum of PD's, the cached one and the reported one — nothing is lost or rolled back *)
Theorem C09_bucket_race_confluent : forall r old ver keys,
  bk_ver (r_bk (keep_bk r (bvnm_e ver keys old))) = N.max (N.max (bk_ver (r_bk r)) (bk_ver (r_bk old))) ver /\
  bk_ver (r_bk (bvnm_e ver keys (keep_bk r old))) = N.max (N.max (bk_ver (r_bk r)) (bk_ver (r_bk old))) ver.
Proof. exact bucket_race_confluent. Qed.
Print Assumptions C09_bucket_race_confluent.

(* containment holds for ANY cache, hence also right after a GC round or an expiry: stated once explicitly *)
Theorem C09_contains_after_gc : forall pd budget fuel t c key is_end r c' t',
  pd_get_sound pd -> pd_prev_sound pd ->
  find_region_by_key pd budget fuel t (gc c) key is_end = (Ok r, c', t') ->
  (if is_end then r_contains_end r key else r_contains r key) = true.
Proof. exact (fun pd budget fuel t c => C09_contains pd budget fuel t (gc c)). Qed.
Print Assumptions C09_contains_after_gc.
(* GC (expired entries dropped with their by-version and latest records, delayed reloads promoted) and TTL expiry keep the
   invariant the convergence theorem starts from: convergence within 4 rounds is not lost *)
Theorem C09_gc_keeps_invariant : forall truth c, cinv truth c -> cinv truth (gc c).
Proof. exact gc_inv. Qed.
Print Assumptions C09_gc_keeps_invariant.
Theorem C09_expire_keeps_invariant : forall truth c r, cinv truth c -> In r (c_sorted c) -> cinv truth (upd_entry c r expire_r).
Proof. exact (fun truth c r Hc _ => expire_inv truth c r Hc). Qed.
Print Assumptions C09_expire_keeps_invariant.

(* newRegion, for ANY PD answer: the usable peers are exactly those whose store has an address, that PD does not list as down,
   and that are not witnesses — except a witness that is the reported leader (kept on purpose) *)
Theorem C09_peers_available : forall leader down ps r,
  new_region_peers leader down ps = Some r -> fst (fst (fst r)) = filter (kept leader down) ps.
Proof. exact new_region_peers_avail. Qed.
Print Assumptions C09_peers_available.
(* the peer a leader read starts with is a usable TiKV peer, and a witness only if it is PD's leader *)
Theorem C09_peers_work_usable : forall leader down ps r q,
  new_region_peers leader down ps = Some r -> work_peer r = Some q ->
  In q ps /\ p_kind q = 0 /\ p_tomb q = false /\ is_down down q = false /\ (p_witness q = true -> p_peer q = leader).
Proof. exact work_peer_usable. Qed.
Print Assumptions C09_peers_work_usable.
(* if the leader PD reports is usable and on a TiKV store, the region starts with it *)
Theorem C09_peers_leader : forall leader down ps p,
  NoDup (map p_peer ps) -> In p ps -> p_peer p = leader -> kept leader down p = true -> p_kind p = 0 ->
  exists r, new_region_peers leader down ps = Some r /\ work_peer r = Some p.
Proof. exact new_region_peers_leader. Qed.
Print Assumptions C09_peers_leader.
(* counter-examples to the naive statement "an available voter when one exists, never a witness" (not a clause of C09). PD's leader down: the first usable TiKV
   peer is taken even if it is a learner and a voter follows; PD's leader a witness: the witness is taken; no usable TiKV
   peer but a TiFlash peer: the region is created without a start peer (the first leader read then panics) *)
Example C09_peers_naive_statement_counterexample :
  (exists leader down ps r q v, new_region_peers leader down ps = Some r /\ work_peer r = Some q /\ p_learner q = true /\
     In v ps /\ kept leader down v = true /\ p_learner v = false /\ p_kind v = 0) /\
  (exists leader down ps r q, new_region_peers leader down ps = Some r /\ work_peer r = Some q /\ p_witness q = true) /\
  (exists leader down ps r, new_region_peers leader down ps = Some r /\ work_peer r = None).
Proof.
  split; [|split].
  - exists (1, 1), [(1, 1)], [mkPinfo (1, 1) false false 0 false; mkPinfo (2, 2) false true 0 false; mkPinfo (3, 3) false false 0 false].
    eexists _, _, (mkPinfo (3, 3) false false 0 false). vm_compute. repeat split; auto.
  - exists (1, 1), [], [mkPinfo (1, 1) true false 0 false; mkPinfo (2, 2) false false 0 false]. eexists _, _. vm_compute. repeat split.
  - exists (1, 1), [(1, 1)], [mkPinfo (1, 1) false false 0 false; mkPinfo (2, 90) false true 1 false]. eexists. vm_compute. split; reflexivity.
Qed.

(* regions [-inf,b) [b,d) [d,+inf); the cache knows the first and the last; three ranges, the middle one is a miss *)
Example C09_range_gap_free_nonvacuous :
  sorted_starts (c_sorted ex_cache) /\ ranges_wf ex_ranges /\
  exists locs c' t', batch_locate ex_pd 5 128 5 0 ex_cache ex_ranges false = (Ok locs, c', t') /\ map r_id locs = [1; 2; 3].
Proof.
  split; [|split].
  - apply insert_all_sorted. constructor.
  - cbn. repeat split; try (right; reflexivity); discriminate.
  - vm_compute. eexists _, _, _. split; reflexivity.
Qed.
Example C09_no_regress_nonvacuous :
  let c := ex_cache in held 1 c [new_region (mkDesc 1 [] [98] 4 1 [(1, 1)] (1, 1) None)] /\
  lat_get 1 (c_latest c) = Some (3, 1) /\
  insert_region c (new_region (mkDesc 1 [] [99] 2 1 [(1, 1)] (1, 1) None)) = (false, c).
Proof. vm_compute. repeat split; discriminate. Qed.

(* convergence: two current regions [-inf,b) (id 1, leader on store 2) and [b,+inf) (id 2, leader on store 1); the cache
   holds one valid stale entry: region 1 before the split, believed to be led by its peer on store 1. The request for
   key "c" needs exactly 4 rounds: NotLeader, EpochNotMatch, NotLeader, served. *)
(* the same cache after a send failure on store 1 (its fail-epoch is 1, the entry recorded 0) *)
Example C09_converges_nonvacuous :
  truth_wf cv_truth /\ cinv cv_truth cv_cache /\ cinv cv_truth empty_cache /\
  rounds cv_truth (fun _ => cv_truth) cv_pd 3 3 3 cv_cache [99] = false /\
  rounds cv_truth (fun _ => cv_truth) cv_pd 3 3 4 cv_cache [99] = true /\
  cinv cv_truth cv_cache_failed /\ rounds cv_truth (fun _ => cv_truth) cv_pd 3 3 1 cv_cache_failed [99] = false /\
  rounds cv_truth (fun _ => cv_truth) cv_pd 3 3 3 cv_cache_failed [99] = true.
Proof.
  (* the example states are finite data: the executable tests of InvCheck decide the hypotheses *)
  split; [exact (truth_wfb_sound cv_truth eq_refl)|]. split; [exact (cinvb_sound cv_truth cv_cache eq_refl)|]. split; [|split; [vm_compute; reflexivity|split; [vm_compute; reflexivity|split; [exact (cinvb_sound cv_truth cv_cache_failed eq_refl)|split; vm_compute; reflexivity]]]].
  exact (cinv_nil cv_truth [] [] (fun T p _ _ => eq_refl)).
Qed.

(* a decommissioned store: the periodic store check (Store.reResolve) bumps the fail-epoch of a store PD reports as removed
   and takes its address away; a warm entry whose work peer sits on it is then invalidated by the next GetTiKVRPCContext
   (no address) — in the convergence theorem this is the "unusable work store" round, the bound stays 4. [cinv] requires
   that no CURRENT peer is on a store the cache knows to be a tombstone. *)
Example C09_converges_after_decommission :
  let c := re_resolve (mkCache [cv_stale7] [((1, 1, 1), [])] [(1, (1, 1))] [] []) 7 true in
  c_sepochs c = [(7, 1)] /\ c_tomb c = [7] /\
  rounds cv_truth (fun _ => cv_truth) cv_pd 3 3 1 c [99] = false /\ rounds cv_truth (fun _ => cv_truth) cv_pd 3 3 2 c [99] = true.
Proof. vm_compute. repeat split. Qed.

(* GC and expiry in the convergence example: the stale entry expires, GC drops it, the next request is served at once *)
Example C09_gc_nonvacuous :
  let c := gc (upd_entry cv_cache cv_stale expire_r) in
  c_sorted c = [] /\ c_latest c = [] /\ rounds cv_truth (fun _ => cv_truth) cv_pd 3 3 1 c [99] = true.
Proof. vm_compute. repeat split. Qed.

(* the executable tests accept the example states and reject a cache that is ahead of the ground truth / an entry whose
   by-version record is missing / a ground truth with a hole *)
Example C09_inv_check_nonvacuous :
  truth_wfb cv_truth = true /\ cinvb cv_truth cv_cache = true /\ cinvb cv_truth cv_cache_failed = true /\ cinvb cv_truth empty_cache = true /\
  cinvb cv_truth (mkCache [mkRegion 1 [] [] 3 1 [(1, 1); (2, 2)] 0 false 0 false false false [0; 0] None] [((1, 3, 1), [])] [(1, (3, 1))] [] []) = false /\
  cinvb cv_truth (mkCache [cv_stale] [] [(1, (1, 1))] [] []) = false /\
  truth_wfb [cv_R1] = false /\ truth_wfb [cv_R2] = false.
Proof. vm_compute. repeat split. Qed.

(* reachability: PD still answers every key lookup with the old, unsplit region 1 (a state of the history); the cold cache
   takes it; the resulting state is reachable, satisfies the invariant, and needs all 4 rounds once PD is current *)
Example C09_reachable_nonvacuous :
  hist_okb cv_truth cv_hist = true /\ hist_okb cv_truth [mkDesc 1 [] [] 3 1 [(1, 1); (2, 2)] (1, 1) None] = false /\
  exists c, reach cv_truth (fun d => In d cv_hist) c /\ c = cv_cache /\ cinvb cv_truth c = true /\
    rounds cv_truth (fun _ => cv_truth) cv_pd 3 3 3 c [99] = false /\ rounds cv_truth (fun _ => cv_truth) cv_pd 3 3 4 c [99] = true.
Proof.
  split; [vm_compute; reflexivity|]. split; [vm_compute; reflexivity|]. eexists. split.
  - eapply (R_locate cv_truth (fun d => In d cv_hist) (fun _ _ => PdOne (Some cv_old)) 3 3 0 empty_cache [99] false).
    + intros t q. left. reflexivity.
    + apply R_empty.
    + vm_compute. reflexivity.
  - vm_compute. repeat split.
Qed.
