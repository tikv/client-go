(* Region/PropsRead.v — property C09, less-used API variants. Replica reads: GetTiKVRPCContext with ReplicaReadFollower / Mixed / PreferLeader and
   the option leaderOnly (model and proofs in ReadCtx.v); GroupKeysByRegion with the split-key filter (GroupFilter.v).
   Theorems only. *)
From Verif Require Import Base.Lex Region.Model Region.Ord Region.Converge Region.ProofsConvB Region.ProofsReach Region.ReadCtx Region.ProofsContains Region.GroupFilter Region.ProofsConvC Region.StoreResolve.
From Coq Require Import Sorting.Sorted.
From Verif Require Region.InvCheck.
From Verif Require Import Region.ProofsTopRead.
Open Scope N_scope.

(* a returned context names the cached entry of the version asked for and one of ITS peers; nobody failed on that peer's
   store since the entry was made and the store is not known to be removed; returning a context leaves the cache unchanged *)
Theorem C09_read_ctx_sound : forall c v kind seed lo r p i c',
  (forall x, In x (c_sorted c) -> (r_work x < length (r_peers x))%nat) ->
  rpc_ctx_read c v kind seed lo = (Some (r, p, i), c') ->
  c' = c /\ In r (c_sorted c) /\ r_verid r = v /\ r_expired r = false /\ (i < length (r_peers r))%nat /\ p = nth i (r_peers r) (0, 0) /\ In p (r_peers r) /\
  epoch_fresh c r i = true /\ existsb (N.eqb (snd p)) (c_tomb c) = false.
Proof. exact rpc_ctx_read_sound. Qed.
Print Assumptions C09_read_ctx_sound.

(* the leader read is the path the convergence theorems use *)
Theorem C09_read_ctx_leader : forall c v seed lo,
  rpc_ctx_read c v RkLeader seed lo =
  (match fst (rpc_ctx c v) with Some (r, p) => Some (r, p, r_work r) | None => None end, snd (rpc_ctx c v)).
Proof. exact rpc_ctx_read_leader. Qed.
Print Assumptions C09_read_ctx_leader.

(* follower read: as long as the seed does not wrap around 2^32 during the l-1 tries, a follower is chosen whenever nobody
   failed on the store of at least one follower; the work peer (leader) is the fall-back only *)
Theorem C09_read_ctx_follower : forall c r seed j,
  let l := length (r_peers r) in
  (1 < l)%nat -> (r_work r < l)%nat -> seed + N.of_nat l <= u32 ->
  (j < l)%nat -> j <> r_work r -> epoch_fresh c r j = true ->
  pick_idx c r RkFollower seed false <> r_work r /\ epoch_fresh c r (pick_idx c r RkFollower seed false) = true.
Proof. exact (fun c r seed j _ => follower_read_follower c r seed j). Qed.
Print Assumptions C09_read_ctx_follower.

(* prefer-leader read: the work peer — it is the only candidate and also the fall-back, so the proof does not use the two
   hypotheses of the first part (when somebody failed on its store, GetTiKVRPCContext then invalidates the entry);
   leaderOnly: always the work peer (mixed / prefer-leader) *)
Theorem C09_read_ctx_prefer_leader : forall c r seed kind,
  (epoch_fresh c r (r_work r) = true -> (r_work r < length (r_peers r))%nat -> pick_idx c r RkPreferLeader seed false = r_work r) /\
  (kind <> RkFollower -> pick_idx c r kind seed true = r_work r).
Proof. exact (fun c r seed kind => conj (fun _ _ => prefer_leader_work c r seed) (leader_only_work c r seed kind)). Qed.
Print Assumptions C09_read_ctx_prefer_leader.

(* a replica read changes the cache only by invalidating the entry: reachable states stay reachable (and keep the invariant) *)
Theorem C09_read_ctx_keeps_reachable : forall truth H c v kind seed lo,
  reach truth H c -> reach truth H (snd (rpc_ctx_read c v kind seed lo)).
Proof. exact rpc_ctx_read_reach. Qed.
Print Assumptions C09_read_ctx_keeps_reachable.

(* four peers, work peer 0, somebody failed on store 2 (epoch 1, the entry recorded 0) *)
Example C09_read_ctx_nonvacuous :
  (* follower read, seeds 0..3: followers 1(stale) -> next try 2, 2, 3, 1 -> 2 *)
  map (fun s => fst (rpc_ctx_read rd_c (1, 1, 1) RkFollower s false)) [0; 1; 2; 3] =
    [Some (rd_r, (3, 3), 2%nat); Some (rd_r, (3, 3), 2%nat); Some (rd_r, (4, 4), 3%nat); Some (rd_r, (3, 3), 2%nat)] /\
  (* mixed read: candidates 0, 2, 3 *)
  map (fun s => fst (rpc_ctx_read rd_c (1, 1, 1) RkMixed s false)) [0; 1; 2; 3] =
    [Some (rd_r, (1, 1), 0%nat); Some (rd_r, (3, 3), 2%nat); Some (rd_r, (4, 4), 3%nat); Some (rd_r, (1, 1), 0%nat)] /\
  fst (rpc_ctx_read rd_c (1, 1, 1) RkPreferLeader 7 false) = Some (rd_r, (1, 1), 0%nat) /\
  fst (rpc_ctx_read rd_c (1, 1, 1) RkMixed 2 true) = Some (rd_r, (1, 1), 0%nat).
Proof. vm_compute. repeat split. Qed.
(* observation (no clause of C09): the seed is a uint32 and seed++ wraps; 2^32 is not a multiple of l-1 = 3, so with seed
   2^32-1 the three tries are 1, 1, 2 — follower 3 is never tried and the read falls back to the leader although nobody
   failed on store 4 *)
Example C09_read_ctx_follower_seed_wrap_example :
  epoch_fresh rd_c2 rd_r 3 = true /\
  fst (rpc_ctx_read rd_c2 (1, 1, 1) RkFollower 4294967295 false) = Some (rd_r, (1, 1), 0%nat) /\
  fst (rpc_ctx_read rd_c2 (1, 1, 1) RkFollower 4294967294 false) = Some (rd_r, (4, 4), 3%nat).
Proof. vm_compute. repeat split. Qed.

(* without a filter the function is the one C09_group_partition speaks about *)
Theorem C09_group_filter_unfiltered : forall pd budget keys fuel t c lastl acc,
  group_assign_f pd budget (fun _ _ => false) fuel t c keys lastl acc = group_assign pd budget fuel t c keys lastl acc.
Proof. exact group_assign_f_none. Qed.
Print Assumptions C09_group_filter_unfiltered.
(* with tikv.equalRegionStartKey and STRICTLY INCREASING keys: no grouped key is the start key of its location, and every
   grouped key is in its location *)
Theorem C09_group_filter_sorted : forall pd budget keys fuel t c asg c' t',
  pd_get_sound pd -> pd_prev_sound pd ->
  StronglySorted (fun a b => lex_ltb a b = true) keys ->
  group_assign_f pd budget eq_start fuel t c keys None [] = (Ok asg, c', t') ->
  forall kr, In kr asg -> r_contains (snd kr) (fst kr) = true /\ fst kr <> r_start (snd kr).
Proof. exact C09_group_filter_sorted_proof. Qed.
Print Assumptions C09_group_filter_sorted.
(* any filter, any keys: one decision per key in order (its location, which contains it; kept or not); a key is dropped only
   when the filter said so about the location looked up for that very key; the result lists the kept keys in order, once each *)
Theorem C09_group_filter_any : forall pd budget flt keys fuel t c asg c' t',
  pd_get_sound pd -> pd_prev_sound pd ->
  group_assign_f pd budget flt fuel t c keys None [] = (Ok asg, c', t') ->
  exists ds : list (bytes * region * bool),
    map (fun d => fst (fst d)) ds = keys /\
    (forall k r b, In (k, r, b) ds -> r_contains r k = true /\ (b = false -> flt k (r_start r) = true)) /\
    asg = map fst (filter (fun d => snd d) ds).
Proof. exact (fun pd budget flt keys fuel t c asg c' t' Hg _ => group_filter_any pd budget Hg flt keys fuel t c None [] asg c' t'). Qed.
Print Assumptions C09_group_filter_any.
(* observation (no clause of C09): unsorted or repeated keys — the filter is not consulted for a key served from the last location. Regions [-inf,m) and
   [m,+inf) cached; keys [x; m] and [m; m] keep m although it is the start key of its region; [m; x] skips it.
   (replayed on the code: `regioncache probe-groupfilter`) *)
Example C09_group_filter_unsorted_counterexample :
  fst (fst (group_assign_f gf_pd 0 eq_start 3 0 gf_c [[109]; [120]] None [])) = Ok [([120], gf_r2)] /\
  fst (fst (group_assign_f gf_pd 0 eq_start 3 0 gf_c [[120]; [109]] None [])) = Ok [([120], gf_r2); ([109], gf_r2)] /\
  fst (fst (group_assign_f gf_pd 0 eq_start 3 0 gf_c [[109]; [109]] None [])) = Ok [([109], gf_r2)] /\
  r_start gf_r2 = [109].
Proof. vm_compute. repeat split. Qed.

(* PD faults on the store path (GetStore failing transiently during initResolve / reResolve / the store check):
   a transient failure leaves the store, and with it the cache, exactly as it was; initResolve asks again and the failed
   attempts do not influence the outcome; a store becomes a tombstone only when PD reported it removed *)
Theorem C09_store_fault_transient : forall c st n o rest l st',
  store_check c st RoTransient = c /\
  init_resolve (repeat RoTransient n ++ o :: rest) = init_resolve (o :: rest) /\
  (In st' (c_tomb (store_checks c l)) -> In st' (c_tomb c) \/ In (st', RoRemoved) l).
Proof. exact (fun c st n o rest l st' => conj eq_refl (conj (init_resolve_transient n o rest) (store_checks_tomb l c st'))). Qed.
Print Assumptions C09_store_fault_transient.
(* convergence over store checks with arbitrary outcomes: from any reachable state, after ANY sequence of store checks — each
   confirming the store, failing transiently, or finding the store removed (the latter only for stores without a current
   peer) — 4 rounds suffice once PD reports the current regions *)
Theorem C09_converges_store_faults : forall truth H cur_of pd budget fuel k T c l,
  truth_wf truth -> hist_ok truth H -> reach truth H c ->
  (forall st R p, In (st, RoRemoved) l -> In R truth -> In p (d_peers R) -> snd p <> st) ->
  (forall R, In R truth -> In R (cur_of R) /\ forall d, In d (cur_of R) -> In d truth) ->
  (forall t k T, In T truth -> tcontains T k = true -> pd t (ReqGet k) = PdOne (Some T)) ->
  (0 < budget)%nat -> (0 < fuel)%nat ->
  In T truth -> tcontains T k = true ->
  rounds truth cur_of pd budget fuel 4 (store_checks c l) k = true.
Proof. exact C09_converges_store_faults_proof. Qed.
Print Assumptions C09_converges_store_faults.
(* non-vacuity: store 1 leads region 2 of the example; two transient failures and a confirmation leave the cache untouched
   and the request converges; had the failures been taken for "removed", the leader's store would be buried:
   the cache then violates the invariant (a current peer on a tombstone store) and the request never gets through *)
Example C09_store_faults_nonvacuous :
  store_checks cv_cache_r [(1, RoTransient); (1, RoTransient); (1, RoOk)] = cv_cache_r /\
  init_resolve [RoTransient; RoTransient; RoOk] = Some true /\ init_resolve [RoTransient; RoRemoved] = Some false /\
  InvCheck.cinvb cv_truth_r (store_checks cv_cache_r [(1, RoTransient)]) = true /\
  InvCheck.cinvb cv_truth_r (store_checks cv_cache_r [(1, RoRemoved)]) = false /\
  rounds cv_truth_r (fun _ => cv_truth_r) cv_pd_r 3 3 4 (store_checks cv_cache_r [(1, RoTransient)]) [99] = true /\
  rounds cv_truth_r (fun _ => cv_truth_r) cv_pd_r 3 3 12 (store_checks cv_cache_r [(1, RoRemoved)]) [99] = false.
Proof. vm_compute. repeat split. Qed.
