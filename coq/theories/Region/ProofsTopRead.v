(* Region/ProofsTopRead.v — the proofs of the theorems of PropsRead.v that need more than one lemma application, and the
   data of its Examples. Statements identical to PropsRead.v. *)
From Verif Require Import Base.Lex Region.Model Region.Converge Region.ProofsConvB Region.ProofsReach Region.ProofsContains Region.GroupFilter Region.ProofsConvC Region.StoreResolve.
From Coq Require Import Sorting.Sorted.
From Verif Require Region.InvCheck.
Open Scope N_scope.

(* C09_read_ctx_nonvacuous, C09_read_ctx_follower_seed_wrap_example: one region with four peers, work peer 0; somebody failed
   on store 2 ([rd_c]), on stores 2 and 3 ([rd_c2]) *)
Definition rd_r := mkRegion 1 [] [] 1 1 [(1, 1); (2, 2); (3, 3); (4, 4)] 0 false 0 false false false [0; 0; 0; 0] None.
Definition rd_c := mkCache [rd_r] [((1, 1, 1), [])] [(1, (1, 1))] [(2, 1)] [].
Definition rd_c2 := mkCache [rd_r] [((1, 1, 1), [])] [(1, (1, 1))] [(2, 1); (3, 1)] [].
Lemma C09_group_filter_sorted_proof : forall pd budget keys fuel t c asg c' t',
  pd_get_sound pd -> pd_prev_sound pd ->
  StronglySorted (fun a b => lex_ltb a b = true) keys ->
  group_assign_f pd budget eq_start fuel t c keys None [] = (Ok asg, c', t') ->
  forall kr, In kr asg -> r_contains (snd kr) (fst kr) = true /\ fst kr <> r_start (snd kr).
Proof.
  intros pd budget keys fuel t c asg c' t' H1 _ Hs H.
  exact (group_filter_sorted pd budget H1 keys fuel t c None [] asg c' t' Hs ltac:(intros l E; discriminate E) ltac:(intros kr []) H).
Qed.
(* C09_group_filter_unsorted_counterexample: regions [-inf,"m") and ["m",+inf) cached, PD silent *)
Definition gf_r1 := mkRegion 9 [] [109] 1 0 [(5, 1)] 0 false 0 false false false [0] None.
Definition gf_r2 := mkRegion 10 [109] [] 1 0 [(11, 1)] 0 false 0 false false false [0] None.
Definition gf_c := mkCache [gf_r1; gf_r2] [((9, 1, 0), []); ((10, 1, 0), [109])] [(9, (1, 0)); (10, (1, 0))] [] [].
Definition gf_pd (t : nat) (q : pd_req) : pd_ans := PdOne None.
(* C09_store_faults_nonvacuous: the ground truth, PD and stale cache of the convergence examples of ProofsTop.v (which this
   file does not import) *)
Definition cv_R1r := mkDesc 1 [] [98] 2 1 [(1, 1); (2, 2)] (2, 2) None.
Definition cv_R2r := mkDesc 2 [98] [] 2 1 [(3, 1); (4, 2)] (3, 1) None.
Definition cv_truth_r := [cv_R1r; cv_R2r].
Definition cv_pd_r (t : nat) (q : pd_req) : pd_ans :=
  match q with ReqGet k => PdOne (find (fun T => tcontains T k) cv_truth_r) | _ => PdOne None end.
Definition cv_cache_r := mkCache [mkRegion 1 [] [] 1 1 [(1, 1); (2, 2)] 0 false 0 false false false [0; 0] None] [((1, 1, 1), [])] [(1, (1, 1))] [] [].
Lemma C09_converges_store_faults_proof : forall truth H cur_of pd budget fuel k T c l,
  truth_wf truth -> hist_ok truth H -> reach truth H c ->
  (forall st R p, In (st, RoRemoved) l -> In R truth -> In p (d_peers R) -> snd p <> st) ->
  (forall R, In R truth -> In R (cur_of R) /\ forall d, In d (cur_of R) -> In d truth) ->
  (forall t k T, In T truth -> tcontains T k = true -> pd t (ReqGet k) = PdOne (Some T)) ->
  (0 < budget)%nat -> (0 < fuel)%nat ->
  In T truth -> tcontains T k = true ->
  rounds truth cur_of pd budget fuel 4 (store_checks c l) k = true.
Proof.
  intros truth H cur_of pd budget fuel k T c l H1 Hh Hr Hrm H2 H3 H4 H5 H6 H7.
  pose proof (store_checks_reach truth H l c Hrm Hr) as Hr'.
  exact (converges truth cur_of pd budget fuel k T _ H1 H2 H3 H4 H5 H6 H7 (proj1 (reach_rinv truth H Hh _ Hr'))).
Qed.
