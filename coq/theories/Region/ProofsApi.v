(* Region/ProofsApi.v — the lookup APIs built from the pieces of the files before: ListRegionIDsInKeyRange (a chain of
   LocateKey results), LoadRegionsInKeyRange and BatchLoadRegionsWithKeyRange(s) (scans that passed the gap check). *)
From Coq Require Import Sorting.Sorted.
From Verif Require Import Base.Lex Region.Model Region.ProofsContains Region.ProofsMerge Region.ProofsGap
  Region.ProofsPhase2.
Open Scope N_scope.

(* a chain of regions from s to e: the first holds s, each next one holds the end key of the one before, the last holds e *)
Fixpoint chain (s : list N) (e : list N) (rs : list region) {struct rs} : Prop :=
  match rs with
  | [] => False
  | [r] => r_contains r s = true /\ r_contains r e = true
  | r :: t => r_contains r s = true /\ chain (r_end r) e t
  end.
Section PD.
Variable pd : nat -> pd_req -> pd_ans.
Variable budget : nat.
Variable batch_limit : nat.
Hypothesis Hget : pd_get_sound pd.

(* ListRegionIDsInKeyRange: the ids listed are those of a chain of regions from the start key to the end key *)
Lemma list_region_ids_chain : forall fuel t c s e acc res c' t',
  list_region_ids pd budget fuel t c s e acc = (Ok res, c', t') ->
  exists new, res = acc ++ new /\ chain s e new.
Proof.
  induction fuel as [|f IH]; intros t c s e acc res c' t'; cbn [list_region_ids]; [discriminate|].
  destruct (find_region_by_key pd budget (S f) t c s false) as [[[r|x] c1] t1] eqn:Ef; [|discriminate].
  pose proof (find_region_by_key_contains pd budget Hget _ _ _ _ _ _ _ Ef) as Hr.
  destruct (r_contains r e) eqn:Ee.
  - intros H; injection H as <- _ _. exists [r]. split; [reflexivity|]. cbn [chain]. split; assumption.
  - intros H. destruct (IH _ _ _ _ _ _ _ _ H) as [new [H1 H2]]. exists (r :: new). split; [rewrite H1, <- app_assoc; reflexivity|].
    destruct new as [|r2 t2]; [destruct H2|]. cbn [chain]. split; [exact Hr|exact H2].
Qed.

(* BatchLoadRegionsWithKeyRanges: what is loaded covers the ranges up to the end of the last loaded region *)
Lemma batch_load_ranges_covers fuel t c rs count nl regs c' t' :
  ranges_wf rs -> (nl = true -> pd_leaders pd) ->
  batch_load_ranges pd budget fuel t c rs count nl = (Ok regs, c', t') ->
  forall k, in_ranges rs k ->
    covered regs k \/ (exists lastr x, rev regs = lastr :: x /\ r_end lastr <> [] /\ lex_leb (r_end lastr) k = true).
Proof.
  intros Hwf Hl Hb k Hk. assert (Hne : rs <> []) by (intros ->; destruct Hk as [s [e [[] _]]]).
  apply (batch_load_ranges_scan pd budget _ _ _ _ _ _ _ _ _ Hne) in Hb.
  destruct (scan_loop_covers pd budget _ _ _ _ _ _ _ _ Hl Hb) as [_ [_ [lastr [x [_ [_ [Er Hc]]]]]]].
  destruct (Hc Hwf k Hk) as [H|H]; [left; exact H|right; exists lastr, x; split; [exact Er|exact H]].
Qed.

(* LoadRegionsInKeyRange: the loaded regions cover [s, e) *)
Lemma load_regions_covers (Hl : pd_leaders pd) s0 e : forall fuel t c s acc res c' t',
  (forall k, lex_leb s0 k = true -> (e = [] \/ lex_ltb k e = true) -> lex_ltb k s = true -> covered acc k) ->
  load_regions_in_range pd budget batch_limit fuel t c s e acc = (Ok res, c', t') ->
  forall k, lex_leb s0 k = true -> (e = [] \/ lex_ltb k e = true) -> covered res k.
Proof.
  induction fuel as [|f IH]; intros t c s acc res c' t' Hacc; cbn [load_regions_in_range]; [discriminate|].
  destruct (batch_load_range pd budget (S f) t c s e batch_limit) as [[[regs|x] c1] t1] eqn:Eb; [|discriminate].
  assert (Es : scan_loop pd budget (S f) t (ReqScan s e batch_limit) [(s, e)] batch_limit true = (Ok regs, t1)).
  { unfold batch_load_range in Eb. destruct batch_limit as [|n]; [discriminate|].
    destruct (scan_loop pd budget (S f) t (ReqScan s e (S n)) [(s, e)] (S n) true) as [[regs0|x] t2]; [|discriminate].
    injection Eb as <- _ <-. reflexivity. }
  destruct (load_step_covers pd budget _ _ _ _ _ _ _ _ s0 acc Hl Es Hacc) as [lastr [y [-> [Hdone Hnext]]]].
  destruct (r_contains_end lastr e); [intros H; injection H as <- _ _; apply Hdone; reflexivity|apply IH; exact Hnext].
Qed.
End PD.
