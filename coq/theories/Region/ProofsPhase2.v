(* Region/ProofsPhase2.v — BatchLocateKeyRanges / LocateKeyRange. Phase 1: what is taken from the cache is sorted by start key,
   and every key of every requested range is in a collected cached region or in one of the ranges that are handed to PD; those
   ranges are again sorted, disjoint and non-empty. Phase 2: loading the missing ranges from PD (every batch passes the gap
   check) and merging; the composed gap-free coverage theorems. *)
From Coq Require Import Sorting.Sorted.
From Verif Require Import Base.Lex Region.Model Region.Ord Region.ProofsContains Region.ProofsInsert Region.ProofsMerge Region.ProofsGap.
Open Scope N_scope.

(* un refines rs: a subsequence of rs whose starts have moved right, still non-empty *)
Inductive refines : list range -> list range -> Prop :=
| ref_nil rs : refines [] rs
| ref_skip un r rs : refines un rs -> refines un (r :: rs)
| ref_take un s s' e rs : refines un rs -> lex_leb s s' = true -> below e s' -> refines ((s', e) :: un) ((s, e) :: rs).

Lemma refines_length un rs : refines un rs -> (length un <= length rs)%nat.
Proof. induction 1; cbn [length]; lia. Qed.
Lemma refines_in un rs : refines un rs -> forall s' e, In (s', e) un -> exists s, In (s, e) rs /\ lex_leb s s' = true.
Proof.
  induction 1 as [rs|un r rs H IH|un s s' e rs H IH Hs He]; intros s1 e1 Hin; [destruct Hin| |].
  - destruct (IH s1 e1 Hin) as [s0 [H1 H2]]. exists s0. split; [right; exact H1|exact H2].
  - destruct Hin as [Hin|Hin]; [injection Hin as <- <-; exists s; split; [left; reflexivity|exact Hs]|].
    destruct (IH s1 e1 Hin) as [s0 [H1 H2]]. exists s0. split; [right; exact H1|exact H2].
Qed.
Lemma refines_wf un rs : refines un rs -> ranges_wf rs -> ranges_wf un.
Proof.
  induction 1 as [rs|un r rs H IH|un s s' e rs H IH Hs He]; intros Hwf; [exact I|apply IH; eapply ranges_wf_tail; exact Hwf|].
  cbn [ranges_wf]. split; [exact He|]. split; [|apply IH; eapply ranges_wf_tail; exact Hwf].
  destruct un as [|[s1 e1] un']; [exact I|]. destruct (refines_in _ _ H s1 e1 ltac:(left; reflexivity)) as [s0 [Hin Hle]].
  destruct (ranges_wf_later _ _ _ Hwf _ _ Hin) as [Hne Hle2]. split; [exact Hne|eapply leb_trans; eassumption].
Qed.

Lemma sorted_starts_le l : sorted_starts l -> sorted_le l.
Proof.
  induction 1 as [|y t Hst IH Hall]; constructor; [exact IH|]. rewrite Forall_forall in *. intros z Hz. apply ltb_leb. apply Hall; exact Hz.
Qed.
Lemma sorted_le_snoc cs x : sorted_le cs -> (forall c, In c cs -> start_le c x) -> sorted_le (cs ++ [x]).
Proof.
  intros Hs H. apply StronglySorted_app. split; [exact Hs|]. split; [repeat constructor|].
  intros a b Ha [<-|[]]. apply H; exact Ha.
Qed.

Lemma ascend_chain_prefix : forall limit items ls e, exists rest, items = ascend_chain items ls e limit ++ rest.
Proof.
  induction limit as [|n IH]; intros items ls e; [exists items; destruct items; reflexivity|].
  destruct items as [|r t]; [exists []; reflexivity|]. cbn [ascend_chain].
  destruct (negb (is_nil e) && lex_leb e (r_start r)); [exists (r :: t); reflexivity|].
  destruct (r_expired r); [exists (r :: t); reflexivity|]. destruct (negb (r_contains r ls)); [exists (r :: t); reflexivity|].
  destruct (IH t (r_end r) e) as [rest H]. exists rest. cbn [app]. rewrite <- H. reflexivity.
Qed.
Lemma scan_from_cache_spec c s e limit : sorted_starts (c_sorted c) ->
  sorted_starts (scan_from_cache c s e limit) /\
  forall x, In x (scan_from_cache c s e limit) -> In x (c_sorted c) /\ lex_leb s (r_start x) = true.
Proof.
  intros Hs. unfold scan_from_cache.
  destruct (ascend_chain_prefix limit (ge_items (c_sorted c) s) s e) as [rest Hp].
  assert (Hg : sorted_starts (ge_items (c_sorted c) s)) by (apply filter_sorted; exact Hs).
  split.
  - apply filter_sorted. rewrite Hp in Hg. apply StronglySorted_app in Hg. apply Hg.
  - intros x Hx. apply filter_In in Hx. destruct Hx as [Hx _].
    assert (Hin : In x (ge_items (c_sorted c) s)) by (rewrite Hp; apply in_or_app; left; exact Hx).
    apply filter_In in Hin. exact Hin.
Qed.

Section Phase1.
Variable c : cache.
Variable batch_limit : nat.
Hypothesis Hsorted : sorted_starts (c_sorted c).

(* the state of the walk over the index: the regions taken so far are index entries in index order that all start at
   or below the position s, and the last region taken is one of them *)
Definition collected (cs : list region) (lastr : option region) (s : bytes) : Prop :=
  sorted_le cs /\ (forall x, In x cs -> In x (c_sorted c) /\ lex_leb (r_start x) s = true) /\ (forall l, lastr = Some l -> In l cs).

Lemma collected_move cs lastr s s' : lex_leb s s' = true -> collected cs lastr s -> collected cs lastr s'.
Proof.
  intros H [H1 [H2 H3]]. split; [exact H1|]. split; [|exact H3].
  intros x Hx. destruct (H2 x Hx) as [Ha Hb]. split; [exact Ha|eapply leb_trans; eassumption].
Qed.
Lemma collected_snoc cs lastr s r : collected cs lastr s -> In r (c_sorted c) -> lex_leb (r_start r) s = true ->
  (forall x, In x cs -> start_le x r) -> collected (cs ++ [r]) (Some r) s.
Proof.
  intros [H1 [H2 _]] Hin Hs Hle. split; [apply sorted_le_snoc; assumption|]. split.
  - intros x Hx. apply in_app_or in Hx. destruct Hx as [Hx|[<-|[]]]; [apply H2; exact Hx|split; assumption].
  - intros l Hl. injection Hl as <-. apply in_or_app. right; left; reflexivity.
Qed.

(* the walk has moved from s to s1 inside the range that ends at e, taking cs up to cs1: no key in between is missed *)
Definition advanced (s e : bytes) (cs cs1 : list region) (l1 : option region) (s1 : bytes) : Prop :=
  collected cs1 l1 s1 /\ (forall x, In x cs -> In x cs1) /\ lex_leb s s1 = true /\ below e s1 /\ covers cs1 s (before s1).

Lemma advanced_refl s e cs lastr : collected cs lastr s -> below e s -> advanced s e cs cs lastr s.
Proof. intros Hc He. split; [exact Hc|]. split; [exact (fun x H => H)|]. split; [apply leb_refl|]. split; [exact He|apply spans_nil]. Qed.
Lemma advanced_trans s e cs cs1 l1 s1 cs2 l2 s2 :
  advanced s e cs cs1 l1 s1 -> advanced s1 e cs1 cs2 l2 s2 -> advanced s e cs cs2 l2 s2.
Proof.
  intros [_ [A2 [A3 [_ A5]]]] [B1 [B2 [B3 [B4 B5]]]]. split; [exact B1|]. split; [intros x Hx; apply B2, A2; exact Hx|].
  split; [eapply leb_trans; eassumption|]. split; [exact B4|]. apply (spans_glue _ _ s1); [eapply covers_mono; eassumption|exact B5].
Qed.

(* one more index entry r that holds the position s and starts at or after everything taken *)
Lemma take_region cs lastr s e r :
  collected cs lastr s -> below e s -> In r (c_sorted c) -> r_contains r s = true -> (forall x, In x cs -> start_le x r) ->
  if r_contains_end r e then advanced s e cs (cs ++ [r]) (Some r) s /\ covers (cs ++ [r]) s (below e)
  else advanced s e cs (cs ++ [r]) (Some r) (r_end r).
Proof.
  intros Hc He Hin Hrc Hle. assert (Hrs : lex_leb (r_start r) s = true) by (apply r_contains_spec in Hrc; apply Hrc).
  pose proof (collected_snoc cs lastr s r Hc Hin Hrs Hle) as Hc1.
  assert (Hsub : forall x, In x cs -> In x (cs ++ [r])) by (intros x Hx; apply in_or_app; left; exact Hx).
  pose proof (in_elt r cs []) as Hr.
  destruct (r_contains_end r e) eqn:Ee.
  - split; [|apply (covers_region_end _ r); assumption].
    split; [exact Hc1|]. split; [exact Hsub|]. split; [apply leb_refl|]. split; [exact He|apply spans_nil].
  - destruct (contains_not_end _ _ s e He Hrc Ee) as [_ [Hlt He']]. apply ltb_leb in Hlt.
    split; [exact (collected_move _ _ _ _ Hlt Hc1)|]. split; [exact Hsub|]. split; [exact Hlt|]. split; [exact He'|].
    apply spans_before, (covers_region _ r); assumption.
Qed.

Lemma walk_batch_spec : forall batch s e cs lastr cs1 l1 s1 st,
  collected cs lastr s -> below e s -> sorted_le batch -> (forall y, In y batch -> In y (c_sorted c)) ->
  (forall x y, In x cs -> In y batch -> start_le x y) ->
  walk_batch batch s e cs lastr = (cs1, l1, s1, st) ->
  advanced s e cs cs1 l1 s1 /\ (st = 2 -> covers cs1 s1 (below e)).
Proof.
  induction batch as [|r rest IH]; intros s e cs lastr cs1 l1 s1 st Hc He Hb Hbin Hcb; cbn [walk_batch].
  - intros H; injection H as <- <- <- <-. split; [apply advanced_refl; assumption|discriminate].
  - destruct (negb (r_contains r s)) eqn:Ec.
    { intros H; injection H as <- <- <- <-. split; [apply advanced_refl; assumption|discriminate]. }
    apply negb_false_iff in Ec.
    pose proof (take_region cs lastr s e r Hc He (Hbin r (or_introl eq_refl)) Ec (fun x Hx => Hcb x r Hx (or_introl eq_refl))) as Ht.
    destruct (r_contains_end r e).
    { intros H; injection H as <- <- <- <-. split; [apply Ht|intros _; apply Ht]. }
    intros H. inversion Hb as [|? ? Hbst Hball]; subst. pose proof Ht as [Hc' [_ [_ [He' _]]]].
    apply IH in H; [|exact Hc'|exact He'|exact Hbst|intros y Hy; apply Hbin; right; exact Hy|].
    + destruct H as [H1 H2]. split; [exact (advanced_trans _ _ _ _ _ _ _ _ _ Ht H1)|exact H2].
    + intros x y Hx Hy. apply in_app_or in Hx. destruct Hx as [Hx|[<-|[]]]; [apply Hcb; [exact Hx|right; exact Hy]|].
      rewrite Forall_forall in Hball. apply Hball; exact Hy.
Qed.

(* the cache scan either reaches the end key of the range or stops at a key s2 up to which nothing is missed *)
Definition cscan_post (s e : bytes) (cs : list region) (res : cscan) : Prop :=
  match res with
  | CAll cs1 l1 => exists s2, advanced s e cs cs1 l1 s2 /\ covers cs1 s2 (below e)
  | CPart cs1 l1 s2 => advanced s e cs cs1 l1 s2
  end.
Lemma cache_scan_spec : forall fuel s e cs lastr,
  collected cs lastr s -> below e s -> cscan_post s e cs (cache_scan batch_limit fuel c s e cs lastr).
Proof.
  induction fuel as [|f IH]; intros s e cs lastr Hc He; cbn [cache_scan]; [apply advanced_refl; assumption|].
  destruct (scan_from_cache_spec c s e batch_limit Hsorted) as [Hb1 Hb2].
  destruct (walk_batch (scan_from_cache c s e batch_limit) s e cs lastr) as [[[cs1 l1] s1] st] eqn:Ew.
  apply walk_batch_spec in Ew; [|exact Hc|exact He|apply sorted_starts_le; exact Hb1|intros y Hy; apply Hb2; exact Hy|].
  2:{ intros x y Hx Hy. destruct Hc as [_ [Hc _]]. eapply leb_trans; [apply Hc; exact Hx|apply Hb2; exact Hy]. }
  destruct Ew as [H1 H2].
  destruct (st =? 2) eqn:E2. { apply N.eqb_eq in E2. exists s1. split; [exact H1|exact (H2 E2)]. }
  destruct (st =? 1); [exact H1|]. destruct (Nat.ltb (length (scan_from_cache c s e batch_limit)) batch_limit); [exact H1|].
  pose proof H1 as [Hc1 [_ [_ [He1 _]]]]. specialize (IH s1 e cs1 l1 Hc1 He1).
  destruct (cache_scan batch_limit f c s1 e cs1 l1) as [cs2 l2|cs2 l2 s2]; cbn [cscan_post] in *.
  - destruct IH as [s2 [I1 I2]]. exists s2. split; [eapply advanced_trans; eassumption|exact I2].
  - eapply advanced_trans; eassumption.
Qed.

(* the head range (s, e) of phase 1: the walk moves to some s2, and either the rest of the range from s2 on is handed
   to PD or the regions taken cover it *)
Lemma phase1_head rest s e lastr cs un : collected cs lastr s -> below e s ->
  exists lastr2 cs2 s2 add,
    phase1 batch_limit c (@cons range (s, e) rest) lastr cs un = phase1 batch_limit c rest lastr2 cs2 (un ++ add) /\
    advanced s e cs cs2 lastr2 s2 /\ (add = [(s2, e)] \/ add = [] /\ covers cs2 s2 (below e)).
Proof.
  intros Hc He. cbn [phase1]. pose proof Hc as [_ [Hcin Hcl]].
  destruct (match lastr with Some l => r_contains_end l e | None => false end) eqn:Eskip.
  { (* the previous region already holds the whole range *)
    destruct lastr as [l|]; [|discriminate]. exists (Some l), cs, s, []. rewrite app_nil_r. split; [reflexivity|].
    split; [apply advanced_refl; assumption|]. right. split; [reflexivity|].
    apply (covers_region_end _ l); [apply Hcl; reflexivity|apply Hcin, Hcl; reflexivity|exact Eskip]. }
  (* the previous region may reach into the range *)
  set (s1 := match lastr with Some l => if r_contains l s then r_end l else s | None => s end).
  assert (Hs1 : advanced s e cs cs lastr s1).
  { unfold s1. destruct lastr as [l|]; [destruct (r_contains l s) eqn:Ec|]; try (apply advanced_refl; assumption).
    destruct (contains_not_end _ _ s e He Ec Eskip) as [_ [Hlt He']]. apply ltb_leb in Hlt.
    split; [exact (collected_move _ _ _ _ Hlt Hc)|]. split; [exact (fun x H => H)|]. split; [exact Hlt|]. split; [exact He'|].
    apply spans_before, (covers_region _ l); [apply Hcl; reflexivity|apply Hcin, Hcl; reflexivity]. }
  clearbody s1. pose proof Hs1 as [[Hs1a [Hs1b _]] [_ [_ [He1 _]]]].
  destruct (try_find c s1 false) as [r|] eqn:Et.
  2:{ (* cache miss: the rest of the range goes to PD *)
    exists None, cs, s1, [(s1, e)]. split; [reflexivity|]. split; [|left; reflexivity].
    destruct Hs1 as [_ Hs1]. split; [|exact Hs1]. split; [exact Hs1a|]. split; [exact Hs1b|discriminate]. }
  destruct (try_find_max c s1 r Hsorted Et) as [Hrin [Hrc Hrmax]].
  pose proof (take_region cs lastr s1 e r (proj1 Hs1) He1 Hrin Hrc (fun x Hx => Hrmax x (proj1 (Hs1b x Hx)) (proj2 (Hs1b x Hx)))) as Ht.
  destruct (r_contains_end r e).
  { destruct Ht as [Ht1 Ht2]. exists (Some r), (cs ++ [r]), s1, []. rewrite app_nil_r. split; [reflexivity|].
    split; [exact (advanced_trans _ _ _ _ _ _ _ _ _ Hs1 Ht1)|right; split; [reflexivity|exact Ht2]]. }
  pose proof Ht as [Hc2 [_ [_ [He2 _]]]]. pose proof (advanced_trans _ _ _ _ _ _ _ _ _ Hs1 Ht) as Ht'.
  pose proof (cache_scan_spec (S (length (c_sorted c))) (r_end r) e (cs ++ [r]) (Some r) Hc2 He2) as Hcs2.
  destruct (cache_scan batch_limit (S (length (c_sorted c))) c (r_end r) e (cs ++ [r]) (Some r)) as [cs2 l2|cs2 l2 s2]; cbn [cscan_post] in Hcs2.
  - destruct Hcs2 as [s2 [C1 C2]]. exists l2, cs2, s2, []. rewrite app_nil_r. split; [reflexivity|].
    split; [exact (advanced_trans _ _ _ _ _ _ _ _ _ Ht' C1)|right; split; [reflexivity|exact C2]].
  - exists l2, cs2, s2, [(s2, e)]. split; [reflexivity|]. split; [exact (advanced_trans _ _ _ _ _ _ _ _ _ Ht' Hcs2)|left; reflexivity].
Qed.

(* phase 1: p is a key at or below which everything taken so far starts, and at or above which every range starts *)
Lemma phase1_spec : forall rs lastr cs un p cs' un',
  ranges_wf rs -> collected cs lastr p -> (forall s e, In (s, e) rs -> lex_leb p s = true) ->
  phase1 batch_limit c rs lastr cs un = (cs', un') ->
  sorted_le cs' /\ (forall x, In x cs -> In x cs') /\
  exists un_new, un' = un ++ un_new /\ refines un_new rs /\
    forall k, in_ranges rs k -> covered cs' k \/ in_ranges un_new k.
Proof.
  induction rs as [|[s e] rest IH]; intros lastr cs un p cs' un' Hwf Hc Hp.
  - cbn [phase1]. intros H; injection H as <- <-. split; [apply Hc|]. split; [exact (fun x H => H)|]. exists []. rewrite app_nil_r.
    split; [reflexivity|]. split; [constructor|]. intros k [s [e [[] _]]].
  - assert (Hse : below e s) by (cbn [ranges_wf] in Hwf; apply Hwf).
    destruct (phase1_head rest s e lastr cs un (collected_move _ _ _ _ (Hp s e (or_introl eq_refl)) Hc) Hse)
      as [l2 [cs2 [s2 [add [-> [[Hc2 [Hsub [Hss2 [He2 Hcov]]]] Hadd]]]]]].
    intros H. apply IH with (p := s2) in H; [|eapply ranges_wf_tail; exact Hwf|exact Hc2|].
    2:{ (* s2 lies below e, and every later range starts at or after e *)
      intros s' e' Hin. destruct (ranges_wf_later s e rest Hwf s' e' Hin) as [Hne Hle].
      destruct He2 as [He2|He2]; [congruence|]. apply ltb_leb. eapply ltb_leb_trans; eassumption. }
    destruct H as [H1 [H2 [un_new [H3 [H4 H5]]]]]. split; [exact H1|]. split; [intros x Hx; apply H2, Hsub; exact Hx|].
    exists (add ++ un_new). split; [rewrite H3, app_assoc; reflexivity|]. split.
    + destruct Hadd as [->|[-> _]]; [apply ref_take; assumption|apply ref_skip; exact H4].
    + intros k [s1 [e1 [[Hin|Hin] Hr]]].
      * injection Hin as <- <-. destruct Hr as [Hk1 Hk2]. destruct (leb_total s2 k) as [Hk|Hk].
        -- destruct Hadd as [->|[-> Hcov2]].
           ++ right. exists s2, e. split; [left; reflexivity|split; assumption].
           ++ left. eapply covered_mono; [exact H2|apply Hcov2; assumption].
        -- left. eapply covered_mono; [exact H2|apply Hcov; assumption].
      * destruct (H5 k) as [Hk|Hk]; [exists s1, e1; split; assumption|left; exact Hk|right; apply in_ranges_app; right; exact Hk].
Qed.
End Phase1.

Definition all_leaders (infos : list desc) : bool := forallb (fun d => negb (fst (d_leader d) =? 0)) infos.
(* every region PD reports in a scan has a leader (otherwise LocateKeyRange leaves it out on purpose) *)
Definition pd_leaders (pd : nat -> pd_req -> pd_ans) : Prop := forall t q infos, pd t q = PdMany infos -> all_leaders infos = true.

Lemma handle_infos_all nl : forall infos rs, (nl = false \/ all_leaders infos = true) -> handle_infos infos nl = Ok rs -> rs = map new_region infos.
Proof.
  induction infos as [|d t IH]; intros rs Hl; cbn [handle_infos map]; [intros H; injection H as <-; reflexivity|].
  assert (Hc : nl && (fst (d_leader d) =? 0) = false).
  { destruct Hl as [->|Hl]; [reflexivity|]. cbn [all_leaders forallb] in Hl. apply andb_true_iff in Hl. destruct Hl as [Hl _].
    apply negb_true_iff in Hl. rewrite Hl. apply andb_false_r. }
  rewrite Hc. destruct (is_nil (d_peers d)); [discriminate|].
  destruct (handle_infos t nl) as [rs'|] eqn:E; [|discriminate]. intros H; injection H as <-. f_equal. apply IH; [|reflexivity].
  destruct Hl as [Hl|Hl]; [left; exact Hl|right]. cbn [all_leaders forallb] in Hl. apply andb_true_iff in Hl. apply Hl.
Qed.

Lemma covered_map_new infos k : dcovered infos k -> covered (map new_region infos) k.
Proof. intros [d [Hin Hc]]. exists (new_region d). split; [apply in_map; exact Hin|exact Hc]. Qed.
Lemma rev_head_last {A} (l : list A) a x d0 : rev l = a :: x -> last l d0 = a.
Proof. intros H. rewrite <- (rev_involutive l), H. apply last_last. Qed.
Lemma last_map {A B} (f : A -> B) l d : last (map f l) (f d) = f (last l d).
Proof. induction l as [|a [|b l] IH]; [reflexivity|reflexivity|exact IH]. Qed.

Section PD.
Variable pd : nat -> pd_req -> pd_ans.
Variable budget : nat.
Variable batch_limit : nat.

Lemma scan_loop_ok : forall fuel t q rs limit nl regs t',
  scan_loop pd budget fuel t q rs limit nl = (Ok regs, t') ->
  exists t0 infos, pd t0 q = PdMany infos /\ regions_have_gap rs infos limit = false /\ handle_infos infos nl = Ok regs /\ regs <> [].
Proof.
  induction fuel as [|f IH]; intros t q rs limit nl regs t'; cbn [scan_loop]; [discriminate|].
  destruct (call pd budget t q) as [a|] eqn:Ec; [|discriminate]. apply call_some in Ec. destruct a as [d|infos]; [discriminate|].
  destruct (is_nil infos); [apply IH|]. destruct (regions_have_gap rs infos limit) eqn:Eg; [apply IH|].
  destruct (handle_infos infos nl) as [[|r0 rs']|e] eqn:Eh; [apply IH| |discriminate].
  intros H; injection H as <- _. exists t, infos. split; [symmetry; exact Ec|]. split; [exact Eg|]. split; [exact Eh|discriminate].
Qed.

(* a successful scan hands on one answer of PD as it is; the answer passed the gap check, so what the ranges hold is
   covered up to the end of the last region *)
Lemma scan_loop_covers fuel t q rs limit nl regs t' :
  (nl = true -> pd_leaders pd) -> scan_loop pd budget fuel t q rs limit nl = (Ok regs, t') ->
  exists t0 infos lastr x, pd t0 q = PdMany infos /\ regs = map new_region infos /\ rev regs = lastr :: x /\
    (ranges_wf rs -> forall k, in_ranges rs k -> covered regs k \/ (r_end lastr <> [] /\ lex_leb (r_end lastr) k = true)).
Proof.
  intros Hl Hs. destruct (scan_loop_ok _ _ _ _ _ _ _ _ Hs) as [t0 [infos [Hp [Hg [Hh Hne]]]]].
  assert (Hregs : regs = map new_region infos).
  { apply (handle_infos_all nl); [|exact Hh]. destruct nl; [right; apply (Hl eq_refl t0 _ infos Hp)|left; reflexivity]. }
  destruct (rev regs) as [|lastr x] eqn:Er.
  { destruct Hne. rewrite <- (rev_involutive regs), Er. reflexivity. }
  exists t0, infos, lastr, x. split; [exact Hp|]. split; [exact Hregs|]. split; [reflexivity|].
  intros Hwf k Hk. destruct (regions_have_gap_sound rs infos limit Hwf Hg k Hk) as [Hc|[_ Hc]].
  - left. rewrite Hregs. apply covered_map_new. exact Hc.
  - right. set (d0 := mkDesc 0 [] [] 0 0 [] (0, 0) None).
    replace lastr with (new_region (last infos d0)); [exact (Hc d0)|].
    rewrite <- (rev_head_last regs lastr x (new_region d0) Er), Hregs. symmetry. apply last_map.
Qed.

Lemma batch_load_ranges_scan fuel t c rs count nl regs c' t' :
  rs <> [] -> batch_load_ranges pd budget fuel t c rs count nl = (Ok regs, c', t') ->
  scan_loop pd budget fuel t (ReqBatch rs count) rs count nl = (Ok regs, t').
Proof.
  intros Hne. unfold batch_load_ranges. destruct rs as [|r0 rs']; [congruence|]. destruct count as [|n]; [discriminate|].
  destruct (scan_loop pd budget fuel t (ReqBatch (r0 :: rs') (S n)) (r0 :: rs') (S n) nl) as [[regs0|e] t1]; [|discriminate].
  intros H; injection H as <- _ <-. reflexivity.
Qed.

(* one batch loaded for the rest [s, e) of a range: with what was collected for the keys below s it covers the range from
   s0 up to the end of its last region; the loop stops when that region holds e by end *)
Lemma load_step_covers fuel t q s e count regs t' s0 acc :
  pd_leaders pd -> scan_loop pd budget fuel t q [(s, e)] count true = (Ok regs, t') ->
  (forall k, lex_leb s0 k = true -> below e k -> lex_ltb k s = true -> covered acc k) ->
  exists lastr x, rev regs = lastr :: x /\
    (r_contains_end lastr e = true -> forall k, lex_leb s0 k = true -> below e k -> covered (acc ++ regs) k) /\
    (forall k, lex_leb s0 k = true -> below e k -> lex_ltb k (r_end lastr) = true -> covered (acc ++ regs) k).
Proof.
  intros Hl Hs Hacc. destruct (scan_loop_covers _ _ _ _ _ _ _ _ (fun _ => Hl) Hs) as [_ [_ [lastr [x [_ [_ [Er Hc]]]]]]].
  exists lastr, x. split; [exact Er|].
  assert (Hcov : forall k, lex_leb s0 k = true -> below e k ->
            covered (acc ++ regs) k \/ (r_end lastr <> [] /\ lex_leb (r_end lastr) k = true)).
  { intros k H1 H2. destruct (leb_total s k) as [Hk|Hk]; [|left; apply covered_app_l; apply Hacc; assumption].
    destruct (Hc (conj (below_leb _ _ _ Hk H2) (conj I I)) k) as [Hr|Hr]; [exists s, e; split; [left; reflexivity|split; assumption]| |right; exact Hr].
    left. eapply covered_mono; [|exact Hr]. intros z Hz. apply in_or_app. right; exact Hz. }
  split.
  - intros Ee k H1 H2. destruct (Hcov k H1 H2) as [Hr|[Hr1 Hr2]]; [exact Hr|].
    destruct (below_absurd _ _ (contains_by_end_below _ _ _ _ Ee H2) Hr1 Hr2).
  - intros k H1 H2 H3. destruct (Hcov k H1 H2) as [Hr|[_ Hr]]; [exact Hr|destruct (leb_ltb_absurd _ _ Hr H3)].
Qed.

Lemma ranges_after_key_length rs split : (length (ranges_after_key rs split) <= length rs)%nat.
Proof.
  unfold ranges_after_key. destruct rs as [|r0 t] eqn:E; [cbn; lia|]. rewrite <- E.
  destruct (is_nil split || negb (is_nil (snd (last rs ([], [])))) && lex_leb (snd (last rs ([], []))) split); [cbn; lia|].
  destruct (drop_covered_spec split rs) as [done [Hd _]]. destruct (drop_covered rs split) as [|[s e] t2] eqn:Ed; [cbn; lia|].
  apply (f_equal (@length range)) in Hd. rewrite app_length in Hd. cbn [length] in *. lia.
Qed.

Definition last_end (rs : list range) : bytes := snd (last rs ([], [])).
(* PD answers a batch scan only with regions that overlap the ranges asked: none starts at or after the end of the last one *)
Definition pd_no_junk (pd : nat -> pd_req -> pd_ans) : Prop :=
  forall t rs limit infos, pd t (ReqBatch rs limit) = PdMany infos ->
    forall d, In d infos -> last_end rs = [] \/ lex_ltb (d_start d) (last_end rs) = true.

Lemma wf_prefix : forall a b, ranges_wf (a ++ b) -> ranges_wf a.
Proof.
  induction a as [|[s e] t IH]; intros b H; [exact I|]. cbn [app ranges_wf] in *. destruct H as [H1 [H2 H3]].
  split; [exact H1|]. split; [|apply (IH b); exact H3]. destruct t as [|[s1 e1] t']; [exact I|exact H2].
Qed.
Lemma wf_split_order : forall a b, ranges_wf (a ++ b) -> a <> [] ->
  forall s' e', In (s', e') b -> last_end a <> [] /\ lex_leb (last_end a) s' = true.
Proof.
  induction a as [|[s e] t IH]; intros b H Hne s' e' Hin; [congruence|]. destruct t as [|r2 t'].
  - unfold last_end. cbn [last snd]. cbn [app] in H. exact (ranges_wf_later s e b H s' e' Hin).
  - unfold last_end. rewrite last_cons_ne by discriminate. apply (IH b (ranges_wf_tail _ _ H) ltac:(discriminate) s' e' Hin).
Qed.

(* phase 2, for a list of ranges that fits into one request or, when PD returns no region beyond the ranges asked, for
   any number of ranges: a range that was not sent starts at or after the end of the last sent one, and the last
   returned region starts before that *)
Lemma phase2_covers cs0 nl : (nl = true -> pd_leaders pd) -> forall fuel t c un m m' c' t',
  ranges_wf un -> (length un <= 16 * batch_limit)%nat \/ pd_no_junk pd -> minv cs0 m ->
  phase2 pd budget batch_limit fuel t c un m nl = (Ok m', c', t') ->
  minv cs0 m' /\ (forall x, In x (snd m) -> In x (snd m')) /\ forall k, in_ranges un k -> covered (snd m') k.
Proof.
  intros Hl. induction fuel as [|f IH]; intros t c un m m' c' t' Hwf Hcase Hm;
    (destruct un as [|r0 un'] eqn:Eun; cbn [phase2];
     [intros H; injection H as <- _ _; split; [exact Hm|]; split; [exact (fun x H => H)|]; intros k [s [e [[] _]]]|]).
  { intros H; discriminate H. }
  rewrite <- Eun in *. clear Eun r0 un'.
  set (sent := firstn (16 * batch_limit) un). set (rest := skipn (16 * batch_limit) un).
  assert (Hsplit : un = sent ++ rest) by (symmetry; apply firstn_skipn).
  destruct (batch_load_ranges pd budget (S f) t c sent batch_limit nl) as [[[regs|e] c1] t1] eqn:Eb; [|discriminate].
  destruct (rev regs) as [|lastr x] eqn:Er; [discriminate|].
  (* nothing is sent only if batch_limit = 0: then nothing is loaded *)
  assert (Hsne : sent <> []) by (intros E; rewrite E in Eb; injection Eb as <- _ _; discriminate Er).
  apply (batch_load_ranges_scan _ _ _ _ _ _ _ _ _ Hsne) in Eb.
  destruct (scan_loop_covers _ _ _ _ _ _ _ _ Hl Eb) as [t0 [infos [lastr' [x' [Hp [Hregs [Er' Hc]]]]]]].
  rewrite Er in Er'. injection Er' as <- <-.
  destruct (fold_append_inv cs0 regs m Hm) as [Hm1 Hout1].
  intros H. apply IH in H; [|apply ranges_after_key_wf; exact Hwf| |exact Hm1].
  2:{ destruct Hcase as [Hlen|Hj]; [left; pose proof (ranges_after_key_length un (r_end lastr)); lia|right; exact Hj]. }
  destruct H as [H1 [H2 H3]]. split; [exact H1|]. split; [intros y Hy; apply H2, Hout1; left; exact Hy|].
  assert (Hcovregs : forall k, covered regs k -> covered (snd m') k).
  { intros k. apply covered_mono. intros y Hy. apply H2, Hout1. right; exact Hy. }
  (* a key of the ranges lies in a loaded region or at / after the end of the last one: by the gap check for the ranges
     sent; a range not sent starts where the last sent one ends, and the last region starts before that *)
  intros k Hk. assert (Hd : covered regs k \/ (r_end lastr <> [] /\ lex_leb (r_end lastr) k = true)).
  { pose proof Hk as Hk'. rewrite Hsplit in Hk'. apply in_ranges_app in Hk'. destruct Hk' as [Hk'|[s' [e' [Hin [Hk1 _]]]]].
    - apply Hc; [apply (wf_prefix sent rest); rewrite <- Hsplit; exact Hwf|exact Hk'].
    - destruct Hcase as [Hlen|Hj]; [unfold rest in Hin; rewrite skipn_all2 in Hin by exact Hlen; destruct Hin|].
      destruct (wf_split_order sent rest ltac:(rewrite <- Hsplit; exact Hwf) Hsne s' e' Hin) as [He1 He2].
      assert (Hin' : In lastr (map new_region infos)) by (rewrite <- Hregs; apply in_rev; rewrite Er; left; reflexivity).
      apply in_map_iff in Hin'. destruct Hin' as [d [<- Hd]].
      destruct (Hj t0 sent batch_limit infos Hp d Hd) as [Hj'|Hj']; [congruence|].
      destruct (below_or (d_end d) k) as [Hb|Hb]; [left|right; exact Hb].
      exists (new_region d). split; [rewrite Hregs; apply in_map; exact Hd|]. apply r_contains_spec. split; [|exact Hb].
      apply ltb_leb. eapply ltb_leb_trans; [exact Hj'|]. eapply leb_trans; eassumption. }
  destruct Hd as [Hd|[Hd1 Hd2]]; [apply Hcovregs; exact Hd|]. apply H3. apply ranges_after_key_keeps; assumption.
Qed.

(* BatchLocateKeyRanges: the merged locations cover every requested range, for at most one request's worth of ranges with no
   hypothesis on PD beyond the leaders, or for any number of ranges when PD returns no region beyond the ranges asked *)
Lemma batch_locate_covers fuel t c rs nl locs c' t' :
  sorted_starts (c_sorted c) -> ranges_wf rs -> (length rs <= 16 * batch_limit)%nat \/ pd_no_junk pd -> (nl = true -> pd_leaders pd) ->
  batch_locate pd budget batch_limit fuel t c rs nl = (Ok locs, c', t') ->
  forall k, in_ranges rs k -> covered locs k.
Proof.
  intros Hs Hwf Hcase Hl. unfold batch_locate.
  destruct (phase1 batch_limit c rs None [] []) as [cs un] eqn:E1.
  destruct (phase1_spec c batch_limit Hs rs None [] [] [] cs un Hwf) as [Hcs [_ [un_new [Hun [Href Hcov]]]]];
    [split; [constructor|split; [intros x []|discriminate]]|intros s e _; apply leb_nil_l|exact E1|].
  cbn [app] in Hun. subst un_new.
  assert (H0 : minv cs (None, cs, [])).
  { split; [exact Hcs|]. split; [|exact I]. intros x k Hx Hk. right. exists x. split; assumption. }
  destruct (phase2 pd budget batch_limit fuel t c un (None, cs, []) nl) as [[[m|e] c1] t1] eqn:E2; [|discriminate].
  intros H; injection H as <- _ _.
  assert (Hcase' : (length un <= 16 * batch_limit)%nat \/ pd_no_junk pd).
  { destruct Hcase as [Hlen|Hj]; [left; pose proof (refines_length _ _ Href); lia|right; exact Hj]. }
  destruct (phase2_covers cs nl Hl fuel t c un _ m c1 t1 (refines_wf _ _ Href Hwf) Hcase' H0 E2) as [Hm [_ Hc]].
  intros k Hk. apply (merger_build_covers cs); [exact Hm|].
  destruct (Hcov k Hk) as [[x [Hx Hxk]]|Hu]; [right; exists x; split; assumption|left; apply Hc; exact Hu].
Qed.

(* LocateKeyRange: the cached walk plus the loaded batches cover [s, e) *)
Lemma cached_walk_spec c e : forall n s acc,
  match cached_walk n c s e acc with
  | WDone res => (forall x, In x acc -> In x res) /\ covers res s (below e)
  | WNeed s1 acc1 => (forall x, In x acc -> In x acc1) /\ covers acc1 s (before s1)
  | WFuel => True
  end.
Proof.
  induction n as [|n IH]; intros s acc; cbn [cached_walk]; [exact I|].
  destruct (try_find c s false) as [r|] eqn:Et; [|split; [exact (fun x H => H)|apply spans_nil]].
  pose proof (try_find_holds c s false r Et) as Hc. cbn [holds] in Hc.
  assert (Hrs : lex_leb (r_start r) s = true) by (apply r_contains_spec in Hc; apply Hc).
  assert (Hsub : forall x, In x acc -> In x (acc ++ [r])) by (intros x Hx; apply in_or_app; left; exact Hx).
  pose proof (in_elt r acc []) as Hr.
  destruct (r_contains_end r e) eqn:Ee; [split; [exact Hsub|apply (covers_region_end _ r); assumption]|].
  specialize (IH (r_end r) (acc ++ [r])).
  (* finished or in need of PD: r covers the keys up to its end, the rest of the walk those from there on *)
  destruct (cached_walk n c (r_end r) e (acc ++ [r])) as [res|s1 acc1|]; [| |exact I];
    (destruct IH as [I1 I2]; split; [intros x Hx; apply I1, Hsub; exact Hx|];
     apply (spans_glue _ _ (r_end r)); [|exact I2]; apply spans_before, (covers_region _ r); [apply I1, Hr|exact Hrs]).
Qed.

Lemma locate_key_range_covers (Hl : pd_leaders pd) s0 e : forall fuel t c s acc res c' t',
  (forall k, lex_leb s0 k = true -> (e = [] \/ lex_ltb k e = true) -> lex_ltb k s = true -> covered acc k) ->
  locate_key_range pd budget batch_limit fuel t c s e acc = (Ok res, c', t') ->
  forall k, lex_leb s0 k = true -> (e = [] \/ lex_ltb k e = true) -> covered res k.
Proof.
  induction fuel as [|f IH]; intros t c s acc res c' t' Hacc; cbn [locate_key_range]; [discriminate|].
  pose proof (cached_walk_spec c e (S (length (c_sorted c))) s acc) as Hw.
  destruct (cached_walk (S (length (c_sorted c))) c s e acc) as [res0|s1 acc1|]; [| |discriminate]; destruct Hw as [W1 W2].
  - intros H; injection H as <- _ _. intros k H1 H2.
    destruct (leb_total s k) as [Hk|Hk]; [apply W2; assumption|eapply covered_mono; [exact W1|apply Hacc; assumption]].
  - destruct (batch_load_ranges pd budget (S f) t c [(s1, e)] batch_limit true) as [[[regs|x] c1] t1] eqn:Eb; [|discriminate].
    apply batch_load_ranges_scan in Eb; [|discriminate].
    destruct (load_step_covers _ _ _ _ _ _ _ _ s0 acc1 Hl Eb) as [lastr [y [-> [Hdone Hnext]]]].
    { intros k H1 H2 H3. destruct (leb_total s k) as [Hk|Hk]; [apply W2; assumption|eapply covered_mono; [exact W1|apply Hacc; assumption]]. }
    destruct (r_contains_end lastr e); [intros H; injection H as <- _ _; apply Hdone; reflexivity|apply IH; exact Hnext].
Qed.
End PD.
