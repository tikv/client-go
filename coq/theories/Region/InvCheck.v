(* Region/InvCheck.v — the hypotheses of the convergence theorem as executable tests: [truth_wfb] (the ground truth is a
   chain of non-empty regions from -inf to +inf with distinct ids, led by one of their peers, one peer per store) and
   [cinvb] (the cache invariant relative to it), [hist_okb] (the epoch discipline of ProofsReach over a finite history), each
   with a soundness proof. The extracted tests are run by the replay on the implementation's cache contents (after every
   operation / at every quiescent point). *)
From Coq Require Import Sorting.Sorted.
From Verif Require Import Base.Lex Region.Model Region.Ord Region.ProofsInsert Region.Converge Region.ProofsConvA Region.ProofsConvB Region.ProofsConvC Region.ProofsReach.
Open Scope N_scope.

Fixpoint peers_eqb (a b : list peer) : bool :=
  match a, b with
  | [], [] => true
  | p :: a', q :: b' => peer_eqb p q && peers_eqb a' b'
  | _, _ => false
  end.
Lemma peers_eqb_true : forall a b, peers_eqb a b = true -> a = b.
Proof.
  induction a as [|p a IH]; intros [|q b] H; cbn [peers_eqb] in H; try discriminate; [reflexivity|].
  apply andb_true_iff in H. destruct H as [H1 H2]. apply peer_eqb_eq in H1. apply IH in H2. congruence.
Qed.

Fixpoint adj_sortedb (l : list region) : bool :=
  match l with
  | a :: t => match t with b :: _ => lex_ltb (r_start a) (r_start b) | [] => true end && adj_sortedb t
  | [] => true
  end.
Lemma adj_sortedb_sound l : adj_sortedb l = true -> sorted_starts l.
Proof.
  intros H. apply Sorted_StronglySorted.
  - intros a b c H1 H2. unfold start_lt in *. eapply ltb_trans; eassumption.
  - induction l as [|a t IH]; [constructor|]. cbn [adj_sortedb] in H. apply andb_true_iff in H. destruct H as [H1 H2].
    constructor; [apply IH; exact H2|]. destruct t as [|b t']; constructor. exact H1.
Qed.

Fixpoint nodupb (l : list N) : bool :=
  match l with [] => true | a :: t => negb (existsb (N.eqb a) t) && nodupb t end.
Lemma nodupb_sound l : nodupb l = true -> NoDup l.
Proof.
  induction l as [|a t IH]; intros H; [constructor|]. cbn [nodupb] in H. apply andb_true_iff in H. destruct H as [H1 H2].
  constructor; [|apply IH; exact H2]. intros Hin. apply negb_true_iff in H1.
  assert (existsb (N.eqb a) t = true) by (apply existsb_exists; exists a; split; [exact Hin|apply N.eqb_refl]). congruence.
Qed.

Definition desc_okb (T : desc) : bool :=
  (is_nil (d_end T) || lex_ltb (d_start T) (d_end T)) && existsb (peer_eqb (d_leader T)) (d_peers T) && nodupb (map snd (d_peers T)).
(* a chain: each region ends where the next one starts, the last one is unbounded *)
Fixpoint chainb (s : bytes) (l : list desc) : bool :=
  match l with
  | [] => false
  | T :: t => bytes_eqb (d_start T) s &&
              match t with [] => is_nil (d_end T) | _ :: _ => negb (is_nil (d_end T)) && chainb (d_end T) t end
  end.
Definition truth_wfb (truth : list desc) : bool :=
  chainb [] truth && forallb desc_okb truth && nodupb (map d_id truth).

Lemma nonemptyb_true (s e : bytes) : is_nil e || lex_ltb s e = true -> e = [] \/ lex_ltb s e = true.
Proof. intros E. apply orb_true_iff in E. destruct E as [E|E]; [left; apply is_nil_true; exact E|right; exact E]. Qed.
(* a chain from s covers every key >= s *)
Lemma chainb_cover : forall l s k, chainb s l = true -> lex_leb s k = true -> exists T, In T l /\ tcontains T k = true.
Proof.
  induction l as [|T t IH]; intros s k H Hk; [discriminate|]. cbn [chainb] in H. apply andb_true_iff in H. destruct H as [H1 H2].
  apply bytes_eqb_eq in H1. destruct t as [|T2 t2].
  - apply is_nil_true in H2. exists T. split; [left; reflexivity|]. apply contains_spec. split; [rewrite H1; exact Hk|left; exact H2].
  - apply andb_true_iff in H2. destruct H2 as [H2 H3]. destruct (lex_ltb k (d_end T)) eqn:E.
    + exists T. split; [left; reflexivity|]. apply contains_spec. split; [rewrite H1; exact Hk|right; exact E].
    + apply ltb_false_leb in E. destruct (IH (d_end T) k H3 E) as [T' [Hin Hc]]. exists T'. split; [right; exact Hin|exact Hc].
Qed.
Lemma desc_okb_true T : desc_okb T = true ->
  (d_end T = [] \/ lex_ltb (d_start T) (d_end T) = true) /\ In (d_leader T) (d_peers T) /\ NoDup (map snd (d_peers T)).
Proof.
  unfold desc_okb. intros H. apply andb_true_iff in H. destruct H as [H H3]. apply andb_true_iff in H. destruct H as [H1 H2].
  split; [apply nonemptyb_true; exact H1|]. split; [|apply nodupb_sound; exact H3].
  apply existsb_exists in H2. destruct H2 as [p [Hp He]]. apply peer_eqb_eq in He. subst p. exact Hp.
Qed.
(* in a chain of non-empty regions every later region starts at or after s *)
Lemma chainb_starts : forall l s T, chainb s l = true -> forallb desc_okb l = true -> In T l -> lex_leb s (d_start T) = true.
Proof.
  induction l as [|T0 t IH]; intros s T H Hok Hin; [destruct Hin|]. cbn [chainb] in H. apply andb_true_iff in H. destruct H as [H1 H2].
  apply bytes_eqb_eq in H1. destruct Hin as [->|Hin]; [rewrite H1; apply leb_refl|].
  destruct t as [|T2 t2]; [destruct Hin|]. apply andb_true_iff in H2. destruct H2 as [H2 H3].
  cbn [forallb] in Hok. apply andb_true_iff in Hok. destruct Hok as [Hok0 Hok].
  pose proof (IH (d_end T0) T H3 Hok Hin) as Hle. rewrite <- H1.
  destruct (desc_okb_true _ Hok0) as [[Hn|Hlt] _]; [rewrite Hn in H2; discriminate|].
  apply ltb_leb. eapply ltb_leb_trans; eassumption.
Qed.
Lemma chainb_disjoint : forall l s T1 T2 k, chainb s l = true -> forallb desc_okb l = true ->
  In T1 l -> In T2 l -> tcontains T1 k = true -> tcontains T2 k = true -> T1 = T2.
Proof.
  induction l as [|T0 t IH]; intros s T1 T2 k H Hok H1 H2 C1 C2; [destruct H1|].
  pose proof H as H'. cbn [chainb] in H'. apply andb_true_iff in H'. destruct H' as [Hs Hr].
  cbn [forallb] in Hok. apply andb_true_iff in Hok. destruct Hok as [Hok0 Hok].
  (* a key of the head region is in no later region *)
  assert (Hhead : forall T, In T t -> tcontains T0 k = true -> tcontains T k = true -> False).
  { intros T Hin C0 C. destruct t as [|T3 t3]; [destruct Hin|]. apply andb_true_iff in Hr. destruct Hr as [Hne Hch].
    pose proof (chainb_starts _ _ T Hch Hok Hin) as Hle. apply contains_spec in C0. destruct C0 as [_ [E|E]].
    - rewrite E in Hne. discriminate.
    - apply contains_spec in C. destruct C as [C _]. pose proof (leb_trans _ _ _ Hle C) as Hc. apply leb_not_ltb in Hc. congruence. }
  destruct H1 as [<-|H1], H2 as [<-|H2]; [reflexivity|exfalso; eapply Hhead; eassumption|exfalso; eapply Hhead; eassumption|].
  destruct t as [|T3 t3]; [destruct H1|]. apply andb_true_iff in Hr. destruct Hr as [_ Hch].
  eapply IH; eassumption.
Qed.

Lemma truth_wfb_sound truth : truth_wfb truth = true -> truth_wf truth.
Proof.
  unfold truth_wfb. intros H. apply andb_true_iff in H. destruct H as [H Hid]. apply andb_true_iff in H. destruct H as [Hch Hok].
  assert (Hd : forall T, In T truth -> desc_okb T = true) by (apply forallb_forall; exact Hok).
  constructor.
  - intros k. eapply chainb_cover; [exact Hch|apply leb_nil_l].
  - intros T1 T2 k. eapply chainb_disjoint; eassumption.
  - intros T1 T2. apply NoDup_map_eq, nodupb_sound, Hid.
  - intros T HT. apply (desc_okb_true T (Hd T HT)).
  - intros T HT. apply (desc_okb_true T (Hd T HT)).
  - intros T HT. apply (desc_okb_true T (Hd T HT)).
Qed.

Definition entry_okb (x : region) : bool :=
  (is_nil (r_end x) || lex_ltb (r_start x) (r_end x)) && negb (match r_peers x with [] => true | _ => false end) &&
  (r_work x <? length (r_peers x))%nat && ((r_reason x =? 0) || r_expired x).

(* the ten clauses of [cinv], in order: sorted, hist, addr, uniq, dom_start, dom_lat, dom_id, ok, len, tomb *)
Definition cinv_parts (truth : list desc) (c : cache) : list bool :=
  let l := c_sorted c in
  [ adj_sortedb l;
    forallb (fun x => forallb (fun T => implb (verid_eqb (r_verid x) (d_verid T))
             (bytes_eqb (r_start x) (d_start T) && bytes_eqb (r_end x) (d_end T) && peers_eqb (r_peers x) (d_peers T))) truth) l;
    forallb (fun x => match reg_get (r_verid x) (c_regions c) with Some s => bytes_eqb s (r_start x) | None => false end) l;
    forallb (fun x => forallb (fun y => implb (verid_eqb (r_verid x) (r_verid y)) (bytes_eqb (r_start x) (r_start y))) l) l;
    forallb (fun x => forallb (fun T => implb (tcontains T (r_start x)) (r_ver x <=? d_ver T)) truth) l;
    forallb (fun T => match lat_get (d_id T) (c_latest c) with Some (v, cf) => (v <=? d_ver T) && (cf <=? d_conf T) | None => true end) truth;
    forallb (fun x => forallb (fun T => implb (r_id x =? d_id T) ((r_ver x <=? d_ver T) && (r_conf x <=? d_conf T))) truth) l;
    forallb entry_okb l;
    forallb (fun x => (length (r_sepochs x) =? length (r_peers x))%nat) l;
    forallb (fun T => forallb (fun p : peer => negb (existsb (N.eqb (snd p)) (c_tomb c))) (d_peers T)) truth ].
Definition cinvb (truth : list desc) (c : cache) : bool := forallb (fun b : bool => b) (cinv_parts truth c).

Lemma part_nth (l : list bool) i : forallb (fun b : bool => b) l = true -> nth i l true = true.
Proof.
  revert i. induction l as [|b t IH]; intros i H; [destruct i; reflexivity|]. cbn [forallb] in H. apply andb_true_iff in H.
  destruct i; [apply H|apply IH, H].
Qed.
Lemma forallb_impl2 {A B} (p q : A -> B -> bool) la lb : forallb (fun a => forallb (fun b => implb (p a b) (q a b)) lb) la = true ->
  forall a b, In a la -> In b lb -> p a b = true -> q a b = true.
Proof.
  intros H a b Ha Hb Hp. pose proof (proj1 (forallb_forall _ _) (proj1 (forallb_forall _ _) H a Ha) b Hb) as E. cbv beta in E.
  rewrite Hp in E. exact E.
Qed.
Lemma range_peers_eqb s1 e1 p1 s2 e2 p2 : bytes_eqb s1 s2 && bytes_eqb e1 e2 && peers_eqb p1 p2 = true -> s1 = s2 /\ e1 = e2 /\ p1 = p2.
Proof.
  intros E. apply andb_true_iff in E. destruct E as [E E3]. apply andb_true_iff in E. destruct E as [E1 E2].
  apply bytes_eqb_eq in E1, E2. apply peers_eqb_true in E3. repeat split; assumption.
Qed.
Lemma le2b_true a b c d : (a <=? b) && (c <=? d) = true -> a <= b /\ c <= d.
Proof. intros E. apply andb_true_iff in E. rewrite !N.leb_le in E. exact E. Qed.

Lemma cinvb_sound truth c : cinvb truth c = true -> cinv truth c.
Proof.
  unfold cinvb. intros H. pose proof (fun i => part_nth _ i H) as G. unfold cinv_parts in G. cbv zeta in G.
  pose proof (adj_sortedb_sound _ (G 0%nat)) as Hs.
  constructor.
  - exact Hs.
  - intros x T Hx HT Hv. apply range_peers_eqb. apply (forallb_impl2 _ _ _ _ (G 1%nat) x T Hx HT). apply verid_eqb_eq. exact Hv.
  - intros x Hx. pose proof (proj1 (forallb_forall _ _) (G 2%nat) x Hx) as E. cbv beta in E.
    destruct (reg_get (r_verid x) (c_regions c)) as [s|]; [|discriminate]. apply bytes_eqb_eq in E. congruence.
  - intros x y Hx Hy Hv. apply (sorted_in_eq _ x y Hs Hx Hy). apply bytes_eqb_eq.
    apply (forallb_impl2 _ _ _ _ (G 3%nat) x y Hx Hy). apply verid_eqb_eq. exact Hv.
  - intros x T Hx HT Hc. apply N.leb_le. exact (forallb_impl2 _ _ _ _ (G 4%nat) x T Hx HT Hc).
  - intros T v cf HT Hl. pose proof (proj1 (forallb_forall _ _) (G 5%nat) T HT) as E. cbv beta in E. rewrite Hl in E. apply le2b_true. exact E.
  - intros x T Hx HT Hi. apply le2b_true. apply (forallb_impl2 _ _ _ _ (G 6%nat) x T Hx HT). apply N.eqb_eq. exact Hi.
  - intros x Hx. pose proof (proj1 (forallb_forall _ _) (G 7%nat) x Hx) as E. unfold entry_okb in E.
    apply andb_true_iff in E. destruct E as [E E4]. apply andb_true_iff in E. destruct E as [E E3]. apply andb_true_iff in E. destruct E as [E1 E2].
    split; [apply nonemptyb_true; exact E1|]. split; [destruct (r_peers x); discriminate|]. split; [apply Nat.ltb_lt; exact E3|].
    intros Hr. apply orb_true_iff in E4. destruct E4 as [E4|E4]; [apply N.eqb_eq in E4; contradiction|exact E4].
  - intros x Hx. apply Nat.eqb_eq. exact (proj1 (forallb_forall _ _) (G 8%nat) x Hx).
  - intros T p HT Hp. apply negb_true_iff. exact (proj1 (forallb_forall _ _) (proj1 (forallb_forall _ _) (G 9%nat) T HT) p Hp).
Qed.

Lemma converges_checked truth cur_of pd budget fuel k c :
  truth_wfb truth = true -> cinvb truth c = true ->
  (forall R, In R truth -> In R (cur_of R) /\ forall d, In d (cur_of R) -> In d truth) ->
  (forall t k T, In T truth -> tcontains T k = true -> pd t (ReqGet k) = PdOne (Some T)) ->
  (0 < budget)%nat -> (0 < fuel)%nat ->
  rounds truth cur_of pd budget fuel 4 c k = true.
Proof.
  intros Hw Hc H2 H3 H4 H5. apply truth_wfb_sound in Hw. apply cinvb_sound in Hc.
  destruct (tw_cover _ Hw k) as [T [HT Hk]].
  exact (converges truth cur_of pd budget fuel k T c Hw H2 H3 H4 H5 HT Hk Hc).
Qed.

(* the epoch discipline over a finite history: the region states PD and the stores reported during a run *)
Definition hist_parts (truth hist : list desc) : list bool :=
  [ forallb (fun h => forallb (fun T => implb (verid_eqb (d_verid h) (d_verid T))
       (bytes_eqb (d_start h) (d_start T) && bytes_eqb (d_end h) (d_end T) && peers_eqb (d_peers h) (d_peers T))) truth) hist;
    forallb (fun h1 => forallb (fun h2 => implb (verid_eqb (d_verid h1) (d_verid h2)) (bytes_eqb (d_start h1) (d_start h2))) hist) hist;
    forallb (fun h => forallb (fun T => implb (tcontains T (d_start h)) (d_ver h <=? d_ver T)) truth) hist;
    forallb (fun h => forallb (fun T => implb (d_id h =? d_id T) ((d_ver h <=? d_ver T) && (d_conf h <=? d_conf T))) truth) hist;
    forallb (fun h => is_nil (d_end h) || lex_ltb (d_start h) (d_end h)) hist ].
Definition hist_okb (truth hist : list desc) : bool := forallb (fun b : bool => b) (hist_parts truth hist).

Lemma hist_okb_sound truth hist : hist_okb truth hist = true -> hist_ok truth (fun d => In d hist).
Proof.
  unfold hist_okb. intros H. pose proof (fun i => part_nth _ i H) as G. unfold hist_parts in G.
  constructor.
  - intros h T Hh HT Hv. apply range_peers_eqb. apply (forallb_impl2 _ _ _ _ (G 0%nat) h T Hh HT). apply verid_eqb_eq. exact Hv.
  - intros h1 h2 A B Hv. apply bytes_eqb_eq. apply (forallb_impl2 _ _ _ _ (G 1%nat) h1 h2 A B). apply verid_eqb_eq. exact Hv.
  - intros h T Hh HT Hc. apply N.leb_le. exact (forallb_impl2 _ _ _ _ (G 2%nat) h T Hh HT Hc).
  - intros h T Hh HT Hi. apply le2b_true. apply (forallb_impl2 _ _ _ _ (G 3%nat) h T Hh HT). apply N.eqb_eq. exact Hi.
  - intros h Hh. apply nonemptyb_true. exact (proj1 (forallb_forall _ _) (G 4%nat) h Hh).
Qed.
