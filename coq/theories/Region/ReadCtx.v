(* Region/ReadCtx.v — GetTiKVRPCContext for replica reads: the peer selection of regionStore.follower (follower read)
   and regionStore.kvPeer (mixed / prefer-leader read, option leaderOnly) on top of the leader-read path of Model.rpc_ctx.
   Stores carry no labels and none is slow in the modelled setting (filterStoreCandidate = preferLeader -> is the work peer).
   The seed is a uint32: [seed++] wraps. *)
From Verif Require Import Base.Lex Region.Model Region.ProofsContains Region.ProofsReach.
Open Scope N_scope.

Inductive read_kind := RkLeader | RkFollower | RkMixed | RkPreferLeader.

(* nobody failed on the store of peer i since the entry recorded its epoch *)
Definition epoch_fresh (c : cache) (r : region) (i : nat) : bool :=
  store_epoch (c_sepochs c) (snd (nth i (r_peers r) (0, 0))) =? nth i (r_sepochs r) 0.
Definition u32 : N := 4294967296.

(* regionStore.follower: up to l-1 tries, seed, seed+1, ... (mod 2^32), index seed % (l-1) skipping the work peer *)
Definition follower_idx (work : nat) (seed : N) (l : nat) : nat :=
  let f0 := N.to_nat (seed mod N.of_nat (l - 1)) in if Nat.leb work f0 then S f0 else f0.
Fixpoint follower_loop (c : cache) (r : region) (retry : nat) (seed : N) (l : nat) : nat :=
  match retry with
  | O => r_work r
  | S n => let f := follower_idx (r_work r) seed l in
           if epoch_fresh c r f then f else follower_loop c r n ((seed + 1) mod u32) l
  end.
Definition follower (c : cache) (r : region) (seed : N) : nat :=
  let l := length (r_peers r) in if Nat.leb l 1 then r_work r else follower_loop c r (l - 1) seed l.

(* regionStore.kvPeer *)
Definition kv_candidates (c : cache) (r : region) (prefer : bool) : list nat :=
  filter (fun i => epoch_fresh c r i && (negb prefer || Nat.eqb i (r_work r))) (seq 0 (length (r_peers r))).
Definition kv_peer (c : cache) (r : region) (seed : N) (leader_only prefer : bool) : nat :=
  if leader_only then r_work r else
  match kv_candidates c r prefer with
  | [] => r_work r
  | cands => nth (N.to_nat (seed mod N.of_nat (length cands))) cands (r_work r)
  end.

Definition pick_idx (c : cache) (r : region) (kind : read_kind) (seed : N) (leader_only : bool) : nat :=
  match kind with
  | RkLeader => r_work r
  | RkFollower => follower c r seed
  | RkMixed => kv_peer c r seed leader_only false
  | RkPreferLeader => kv_peer c r seed leader_only true
  end.

(* GetTiKVRPCContext(id, replicaRead, followerStoreSeed, opts): (entry, peer, access index) *)
Definition rpc_ctx_read (c : cache) (v : verid) (kind : read_kind) (seed : N) (leader_only : bool) : option (region * peer * nat) * cache :=
  match get_by_verid c v with
  | Some r =>
      if r_reload r || r_expired r then (None, c)
      else let i := pick_idx c r kind seed leader_only in
           let p := nth i (r_peers r) (0, 0) in
           if existsb (N.eqb (snd p)) (c_tomb c) then (None, upd_entry c r (invalidate_r 4))
           else if epoch_fresh c r i then (Some (r, p, i), c)
           else (None, upd_entry c r (invalidate_r 5))
  | None => (None, c)
  end.

Lemma rpc_ctx_read_leader c v seed lo :
  rpc_ctx_read c v RkLeader seed lo =
  (match fst (rpc_ctx c v) with Some (r, p) => Some (r, p, r_work r) | None => None end, snd (rpc_ctx c v)).
Proof.
  unfold rpc_ctx_read, rpc_ctx, pick_idx, epoch_fresh. destruct (get_by_verid c v) as [r|]; [|reflexivity].
  destruct (r_reload r || r_expired r); [reflexivity|]. cbv zeta.
  destruct (existsb (N.eqb (snd (nth (r_work r) (r_peers r) (0, 0)))) (c_tomb c)); [reflexivity|].
  destruct (store_epoch (c_sepochs c) (snd (nth (r_work r) (r_peers r) (0, 0))) =? nth (r_work r) (r_sepochs r) 0); reflexivity.
Qed.

Lemma follower_idx_lt work seed l : (1 < l)%nat -> (follower_idx work seed l < l)%nat.
Proof.
  intros Hl. unfold follower_idx.
  assert (Hm : (N.to_nat (seed mod N.of_nat (l - 1)) < l - 1)%nat).
  { assert (Hpos : N.of_nat (l - 1) <> 0) by lia. pose proof (N.mod_upper_bound seed (N.of_nat (l - 1)) Hpos). lia. }
  destruct (Nat.leb work (N.to_nat (seed mod N.of_nat (l - 1)))); lia.
Qed.
Lemma follower_loop_lt c r l : (1 < l)%nat -> (r_work r < l)%nat -> forall retry seed, (follower_loop c r retry seed l < l)%nat.
Proof.
  intros Hl Hw. induction retry as [|n IH]; intros seed; cbn [follower_loop]; [exact Hw|].
  destruct (epoch_fresh c r (follower_idx (r_work r) seed l)); [apply follower_idx_lt; exact Hl|apply IH].
Qed.
Lemma kv_candidates_lt c r prefer i : In i (kv_candidates c r prefer) -> (i < length (r_peers r))%nat /\ epoch_fresh c r i = true.
Proof.
  unfold kv_candidates. intros Hi. apply filter_In in Hi. destruct Hi as [A B]. apply in_seq in A. apply andb_true_iff in B. split; [lia|apply B].
Qed.
(* kvPeer takes the work peer or one of the candidates *)
Lemma kv_peer_cases c r seed lo prefer :
  kv_peer c r seed lo prefer = r_work r \/ In (kv_peer c r seed lo prefer) (kv_candidates c r prefer).
Proof.
  unfold kv_peer. destruct lo; [left; reflexivity|]. destruct (kv_candidates c r prefer) as [|a t]; [left; reflexivity|right].
  apply nth_In. assert (Hpos : N.of_nat (length (a :: t)) <> 0) by (cbn [length]; lia).
  pose proof (N.mod_upper_bound seed _ Hpos). lia.
Qed.
Lemma pick_idx_lt c r kind seed lo : (r_work r < length (r_peers r))%nat -> (pick_idx c r kind seed lo < length (r_peers r))%nat.
Proof.
  intros Hw. destruct kind; cbn [pick_idx]; try exact Hw.
  - unfold follower. destruct (Nat.leb (length (r_peers r)) 1) eqn:E; [exact Hw|]. apply Nat.leb_gt in E. apply follower_loop_lt; assumption.
  - destruct (kv_peer_cases c r seed lo false) as [->|H]; [exact Hw|apply (kv_candidates_lt _ _ _ _ H)].
  - destruct (kv_peer_cases c r seed lo true) as [->|H]; [exact Hw|apply (kv_candidates_lt _ _ _ _ H)].
Qed.

(* what a returned context is: the cached entry of that version, one of its peers, on a store that is not known to be
   removed and on which nobody failed since the entry was made; the cache is unchanged *)
Lemma rpc_ctx_read_sound c v kind seed lo r p i c' :
  (forall x, In x (c_sorted c) -> (r_work x < length (r_peers x))%nat) ->
  rpc_ctx_read c v kind seed lo = (Some (r, p, i), c') ->
  c' = c /\ In r (c_sorted c) /\ r_verid r = v /\ r_expired r = false /\ (i < length (r_peers r))%nat /\ p = nth i (r_peers r) (0, 0) /\ In p (r_peers r) /\
  epoch_fresh c r i = true /\ existsb (N.eqb (snd p)) (c_tomb c) = false.
Proof.
  intros Hok. unfold rpc_ctx_read. destruct (get_by_verid c v) as [x|] eqn:Eg; [|discriminate].
  destruct (get_by_verid_verid c v x Eg) as [Hv Hx].
  destruct (r_reload x || r_expired x) eqn:Ef; [discriminate|]. cbv zeta.
  destruct (existsb (N.eqb (snd (nth (pick_idx c x kind seed lo) (r_peers x) (0, 0)))) (c_tomb c)) eqn:Et; [discriminate|].
  destruct (epoch_fresh c x (pick_idx c x kind seed lo)) eqn:Ee; [|discriminate].
  intros E; injection E as <- <- <- <-. apply orb_false_iff in Ef. destruct Ef as [_ Ef].
  pose proof (pick_idx_lt c x kind seed lo (Hok x Hx)) as Hlt.
  repeat split; try assumption; try reflexivity. apply nth_In. exact Hlt.
Qed.

(* prefer-leader read: the only candidate is the work peer, and it is the fall-back too *)
Lemma prefer_leader_work c r seed : pick_idx c r RkPreferLeader seed false = r_work r.
Proof.
  cbn [pick_idx]. destruct (kv_peer_cases c r seed false true) as [E|H]; [exact E|].
  apply filter_In in H. destruct H as [_ B]. apply andb_true_iff in B. destruct B as [_ B]. apply Nat.eqb_eq in B. exact B.
Qed.
(* leaderOnly: mixed / prefer-leader reads take the work peer *)
Lemma leader_only_work c r seed kind : kind <> RkFollower -> pick_idx c r kind seed true = r_work r.
Proof. destruct kind; intros H; try reflexivity. congruence. Qed.

(* follower read: a follower (never the work peer) whenever one of the tries finds a follower on whose store nobody failed;
   the work peer only if every try failed *)
Lemma follower_idx_not_work work seed l : follower_idx work seed l <> work.
Proof. unfold follower_idx. destruct (Nat.leb work (N.to_nat (seed mod N.of_nat (l - 1)))) eqn:E; [apply Nat.leb_le in E; lia|apply Nat.leb_gt in E; lia]. Qed.
Lemma follower_loop_spec c r l : forall retry seed, seed < u32 ->
  let i := follower_loop c r retry seed l in
  (i <> r_work r /\ epoch_fresh c r i = true) \/
  (i = r_work r /\ forall t, (t < retry)%nat -> epoch_fresh c r (follower_idx (r_work r) ((seed + N.of_nat t) mod u32) l) = false).
Proof.
  induction retry as [|n IH]; intros seed Hs; cbn [follower_loop]; [right; split; [reflexivity|intros t Ht; lia]|].
  destruct (epoch_fresh c r (follower_idx (r_work r) seed l)) eqn:E; [left; split; [apply follower_idx_not_work|exact E]|].
  assert (Hs' : (seed + 1) mod u32 < u32) by (apply N.mod_upper_bound; unfold u32; lia).
  cbv zeta in IH. destruct (IH ((seed + 1) mod u32) Hs') as [A|[A B]]; [left; exact A|right]. split; [exact A|].
  intros t Ht. destruct t as [|t'].
  - rewrite N.add_0_r, N.mod_small by exact Hs. exact E.
  - specialize (B t' ltac:(lia)). rewrite N.add_mod_idemp_l in B by (unfold u32; lia).
    replace (seed + N.of_nat (S t')) with (seed + 1 + N.of_nat t') by lia. exact B.
Qed.

Lemma residue_hit m seed j : j < m -> exists t, t < m /\ (seed + t) mod m = j.
Proof.
  intros Hj. assert (Hm0 : m <> 0) by lia. pose proof (N.mod_upper_bound seed m Hm0) as Hs.
  exists ((j + m - seed mod m) mod m). split; [apply N.mod_upper_bound; exact Hm0|].
  rewrite N.add_mod_idemp_r by exact Hm0. pose proof (N.div_mod seed m Hm0) as Hd.
  set (q := seed / m) in *. set (s := seed mod m) in *.
  replace (seed + (j + m - s)) with (j + (q + 1) * m) by nia.
  rewrite N.mod_add by exact Hm0. apply N.mod_small. exact Hj.
Qed.

(* every index other than the work peer is the follower index of some residue *)
Lemma follower_idx_onto work l j : (work < l)%nat -> (j < l)%nat -> j <> work ->
  exists j', (j' < l - 1)%nat /\ forall seed, seed mod N.of_nat (l - 1) = N.of_nat j' -> follower_idx work seed l = j.
Proof.
  intros Hw Hj Hjw. exists (if Nat.ltb work j then (j - 1)%nat else j). unfold follower_idx.
  destruct (Nat.ltb work j) eqn:E; [apply Nat.ltb_lt in E|apply Nat.ltb_ge in E]; (split; [lia|]); intros seed ->; rewrite Nat2N.id.
  - replace (Nat.leb work (j - 1)) with true by (symmetry; apply Nat.leb_le; lia). lia.
  - replace (Nat.leb work j) with false by (symmetry; apply Nat.leb_gt; lia). reflexivity.
Qed.

(* without wrap-around of the seed the l-1 tries visit every follower: a follower read returns the work peer only if
   somebody failed on the store of EVERY follower since the entry was made *)
Lemma follower_read_follower c r seed j :
  let l := length (r_peers r) in
  (r_work r < l)%nat -> seed + N.of_nat l <= u32 ->
  (j < l)%nat -> j <> r_work r -> epoch_fresh c r j = true ->
  follower c r seed <> r_work r /\ epoch_fresh c r (follower c r seed) = true.
Proof.
  intros l Hw Hseed Hj Hjw Hfj. assert (Hl : (1 < l)%nat) by lia. unfold follower. fold l. replace (Nat.leb l 1) with false by (symmetry; apply Nat.leb_gt; exact Hl).
  assert (Hs : seed < u32) by lia.
  destruct (follower_loop_spec c r l (l - 1) seed Hs) as [A|[_ B]]; [exact A|exfalso].
  (* the try that hits j *)
  destruct (follower_idx_onto (r_work r) l j Hw Hj Hjw) as [j' [Hj' Hidx]].
  destruct (residue_hit (N.of_nat (l - 1)) seed (N.of_nat j') ltac:(lia)) as [t [Ht Hhit]].
  specialize (B (N.to_nat t) ltac:(lia)). rewrite N2Nat.id, N.mod_small, (Hidx _ Hhit) in B by lia. congruence.
Qed.

(* a replica read changes the cache at most by invalidating the entry *)
Lemma rpc_ctx_read_cache c v kind seed lo :
  snd (rpc_ctx_read c v kind seed lo) = c \/ exists r reason, snd (rpc_ctx_read c v kind seed lo) = upd_entry c r (invalidate_r reason).
Proof.
  unfold rpc_ctx_read. destruct (get_by_verid c v) as [r|]; [|left; reflexivity]. destruct (r_reload r || r_expired r); [left; reflexivity|]. cbv zeta.
  destruct (existsb (N.eqb (snd (nth (pick_idx c r kind seed lo) (r_peers r) (0, 0)))) (c_tomb c)); [right; exists r, 4; reflexivity|].
  destruct (epoch_fresh c r (pick_idx c r kind seed lo)); [left; reflexivity|right; exists r, 5; reflexivity].
Qed.
Lemma rpc_ctx_read_rinv truth H c v kind seed lo : rinv truth H c -> rinv truth H (snd (rpc_ctx_read c v kind seed lo)).
Proof.
  intros Hc. destruct (rpc_ctx_read_cache c v kind seed lo) as [->|[r [reason ->]]]; [exact Hc|apply upd_rinv'; [exact Hc|apply ef_invalidate]].
Qed.
Lemma rpc_ctx_read_reach truth H c v kind seed lo : reach truth H c -> reach truth H (snd (rpc_ctx_read c v kind seed lo)).
Proof.
  intros Hc. destruct (rpc_ctx_read_cache c v kind seed lo) as [->|[r [reason ->]]]; [exact Hc|apply R_entry; [apply ef_invalidate|exact Hc]].
Qed.
