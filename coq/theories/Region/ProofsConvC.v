(* Region/ProofsConvC.v — convergence: with a fixed ground truth and a PD that reports it, a request for any key
   is served by the store that leads the region holding the key within 4 rounds, from ANY cache state that
   satisfies the invariant of ProofsConvB (sorted index, addressable entries, epochs not ahead of the truth).
   The cache is in one of four states with respect to the key ([state_cases]): nothing usable cached (the round loads the
   key's region), the key's region cached (at most one NotLeader round), a usable entry of another description (a NotLeader
   or EpochNotMatch round), an entry whose work store is unusable (the round invalidates it). *)
From Verif Require Import Base.Lex Region.Model Region.Ord Region.ProofsContains Region.ProofsInsert Region.Converge Region.ProofsConvA Region.ProofsConvB.
Open Scope N_scope.

Lemma last_idx_notin p : forall l i acc, ~ In p l -> last_idx p l i acc = acc.
Proof.
  induction l as [|q t IH]; intros i acc H; cbn [last_idx]; [reflexivity|].
  destruct (peer_eqb q p) eqn:E; [apply peer_eqb_eq in E; subst q; exfalso; apply H; left; reflexivity|].
  apply IH. intros Hin. apply H. right; exact Hin.
Qed.
(* the two tests GetTiKVRPCContext makes on the store of the work peer: nobody failed on it since the entry recorded its
   epoch, and it still has an address *)
Definition epoch_ok (c : cache) (x : region) : Prop :=
  store_epoch (c_sepochs c) (snd (nth (r_work x) (r_peers x) (0, 0))) = nth (r_work x) (r_sepochs x) 0.
Definition not_tomb (c : cache) (x : region) : Prop :=
  existsb (N.eqb (snd (nth (r_work x) (r_peers x) (0, 0)))) (c_tomb c) = false.
Lemma epoch_ok_inherit c r deleted : let y := inherit (stamp (c_sepochs c) r) deleted in
  (r_work y < length (r_peers y))%nat -> epoch_ok c y.
Proof.
  cbv zeta. unfold epoch_ok. destruct (inherit_same (stamp (c_sepochs c) r) deleted) as [_ [_ [_ [_ [_ [-> _]]]]]]. rewrite inherit_sepochs.
  cbn [stamp r_peers r_sepochs]. intros Hw. symmetry. apply (nth_map_lt (fun p : peer => store_epoch (c_sepochs c) (snd p))). exact Hw.
Qed.

Section Conv.
Variable truth : list desc.
Variable cur_of : desc -> list desc.
Variable pd : nat -> pd_req -> pd_ans.
Variable budget fuel : nat.
Variable k : bytes.
Variable T : desc.
(* the state the request starts from, the state after a served round, the sender's choice of attempts per call: what the
   theorems at the end of the section speak about (the lemmas before them bind their own caches) *)
Variable c_req c_served : cache.
Variable sender : nat -> nat.
Hypothesis Htw : truth_wf truth.
Hypothesis Hcur : forall R, In R truth -> In R (cur_of R) /\ forall d, In d (cur_of R) -> In d truth.
Hypothesis Hpd : forall t k T, In T truth -> tcontains T k = true -> pd t (ReqGet k) = PdOne (Some T).
Hypothesis Hbud : (0 < budget)%nat.
Hypothesis Hfuel : (0 < fuel)%nat.
Hypothesis HT : In T truth.
Hypothesis HTk : tcontains T k = true.

Notation cinv := (cinv truth).
Notation round := (round truth cur_of pd budget fuel).
Notation rounds := (rounds truth cur_of pd budget fuel).
Notation store_reply := (store_reply truth cur_of).

(* the entry that answers for the key, valid and without reload flags: the lookup returns it as it is *)
Definition hit (c : cache) (x : region) : Prop := search (c_sorted c) k false = Some x /\ r_expired x = false /\ flagged x = false.
Definition load_state (c : cache) : Prop :=
  match search (c_sorted c) k false with None => True | Some x => r_expired x = true \/ flagged x = true end.
Definition st_T (c : cache) (e : region) : Prop := hit c e /\ r_verid e = d_verid T /\ epoch_ok c e.
Definition stale (c : cache) (x : region) : Prop := hit c x /\ r_verid x <> d_verid T /\ epoch_ok c x /\ not_tomb c x.
Definition unusable (c : cache) (x : region) : Prop := hit c x /\ ~ (epoch_ok c x /\ not_tomb c x).

Lemma state_cases c : (load_state c \/ exists e, st_T c e) \/ (exists x, unusable c x) \/ (exists x, stale c x).
Proof.
  unfold load_state. destruct (search (c_sorted c) k false) as [x|] eqn:Es; [|left; left; exact I].
  destruct (r_expired x) eqn:Ee; [left; left; left; reflexivity|]. destruct (flagged x) eqn:Ef; [left; left; right; reflexivity|].
  assert (Hh : hit c x) by (repeat split; assumption).
  destruct (N.eq_dec (store_epoch (c_sepochs c) (snd (nth (r_work x) (r_peers x) (0, 0)))) (nth (r_work x) (r_sepochs x) 0)) as [Hep|Hep];
    [|right; left; exists x; split; [exact Hh|intros [A _]; exact (Hep A)]].
  destruct (existsb (N.eqb (snd (nth (r_work x) (r_peers x) (0, 0)))) (c_tomb c)) eqn:Hnt;
    [right; left; exists x; split; [exact Hh|intros [_ B]; unfold not_tomb in B; congruence]|].
  destruct (verid_eqb (r_verid x) (d_verid T)) eqn:Ev.
  - left. right. exists x. apply verid_eqb_eq in Ev. split; [exact Hh|split; assumption].
  - right. right. exists x. split; [exact Hh|]. split; [intros H; apply verid_eqb_eq in H; congruence|split; assumption].
Qed.

Lemma hit_entry c x : cinv c -> hit c x -> In x (c_sorted c) /\ r_contains x k = true /\ r_reason x = 0.
Proof.
  intros Hc [Hs [He _]]. assert (Hin : In x (c_sorted c)) by (eapply search_in; exact Hs). split; [exact Hin|].
  split; [exact (search_contains _ _ false _ Hs)|]. destruct (ci_ok _ c Hc x Hin) as [_ [_ [_ Hr]]].
  destruct (N.eq_dec (r_reason x) 0) as [E|E]; [exact E|]. rewrite (Hr E) in He. discriminate.
Qed.
Lemma find_hit c x : hit c x -> find_region_by_key pd budget fuel 0 c k false = (Ok x, c, 0%nat).
Proof. intros [Hs [He Hf]]. unfold find_region_by_key. rewrite Hs, He, Hf. reflexivity. Qed.

Lemma load_T t : (t < budget)%nat -> load_region pd budget fuel t k false false = (Ok (new_region T), S t).
Proof.
  intros Ht. destruct fuel as [|f]; [lia|]. cbn [load_region]. unfold call.
  replace (Nat.ltb t budget) with true by (symmetry; apply Nat.ltb_lt; exact Ht). rewrite (Hpd t k T HT HTk).
  destruct (is_nil (d_peers T)) eqn:E; [apply is_nil_true in E; exfalso; apply (peers_T_nonempty truth Htw T HT); exact E|]. reflexivity.
Qed.

(* a fresh entry for a current region that answers for the key after its insertion is the entry of the key's region *)
Lemma found_fresh c se r d deleted : In d truth -> fresh_of r d -> c_sepochs c = se ->
  search (c_sorted c) k false = Some (inherit (stamp se r) deleted) -> st_T c (inherit (stamp se r) deleted).
Proof.
  intros Hd Hfr <- Hs. destruct (fresh_stamp (c_sepochs c) r d Hfr) as [Hfr' Hlen]. pose proof Hfr' as [[_ [Hst [Hen _]]] _].
  assert (Hne : nonempty_range (stamp (c_sepochs c) r)) by (unfold nonempty_range; rewrite Hst, Hen; apply (tw_nonempty _ Htw d Hd)).
  destruct (inherit_entry _ deleted d Hfr' Hne Hlen) as [Hof [[_ [_ [Hw _]]] [_ [He Hf]]]].
  assert (d = T); [|subst d].
  { apply (tw_disjoint _ Htw d T k Hd HT); [|exact HTk]. destruct Hof as [_ [A [B _]]].
    unfold tcontains. rewrite <- A, <- B. exact (search_contains _ _ false _ Hs). }
  split; [split; [exact Hs|split; [exact He|exact Hf]]|]. split; [apply of_truth_verid; exact Hof|apply epoch_ok_inherit; exact Hw].
Qed.

(* every state that is not a valid unflagged hit loads the current region and caches it *)
Lemma insert_T c : cinv c -> exists c1 e, insert_new c (new_region T) = (true, c1) /\
  r_verid (as_stored c (new_region T)) = r_verid e /\ cinv c1 /\ st_T c1 e.
Proof.
  intros Hc. pose proof (fresh_new T (peers_T_nonempty truth Htw T HT)) as Hfr.
  destruct (insert_new_current truth Htw c _ T Hc HT Hfr) as [c1 [deleted [Hi [A Hc1]]]].
  assert (Hst : st_T c1 (inherit (stamp (c_sepochs c) (new_region T)) deleted)).
  { apply (found_fresh c1 _ _ T deleted HT Hfr (ac_sepochs _ _ _ _ A)). exact (search_after_insert _ _ _ _ k A HTk). }
  exists c1, (inherit (stamp (c_sepochs c) (new_region T)) deleted). split; [exact Hi|]. split; [|split; assumption].
  destruct Hst as [_ [-> _]]. destruct (as_stored_range c (new_region T)) as [_ [_ [A1 [B C]]]]. unfold r_verid. rewrite A1, B, C. reflexivity.
Qed.
Lemma find_load c : cinv c -> load_state c ->
  exists c1 e r', find_region_by_key pd budget fuel 0 c k false = (Ok r', c1, 1%nat) /\ r_verid r' = r_verid e /\ cinv c1 /\ st_T c1 e.
Proof.
  intros Hc Hl. unfold find_region_by_key, load_for. cbn [andb]. rewrite (load_T 0 Hbud). unfold load_state in Hl.
  destruct (search (c_sorted c) k false) as [x|] eqn:Es.
  - destruct (r_expired x) eqn:Ee.
    + destruct (insert_T c Hc) as [c1 [e [Hi H]]]. rewrite Hi. exists c1, e. eexists. split; [reflexivity|exact H].
    + destruct Hl as [Hl|Hl]; [discriminate|]. rewrite Hl.
      assert (Hx : In x (c_sorted c)) by (eapply search_in; exact Es).
      assert (Hc0 : cinv (upd_entry c x clear_access_flags)).
      { apply (upd_entry_inv truth c x _ Hc Hx shape_clear); [|apply (ci_len _ c Hc x Hx)].
        destruct (ci_ok _ c Hc x Hx) as [A [B [C D]]]. repeat split; assumption. }
      destruct (insert_T _ Hc0) as [c1 [e [Hi H]]]. rewrite Hi. exists c1, e. eexists. split; [reflexivity|exact H].
  - destruct (insert_T c Hc) as [c1 [e [Hi H]]]. rewrite Hi. exists c1, e. eexists. split; [reflexivity|exact H].
Qed.
(* in both states in which the key's region ends up being asked, the lookup returns (a copy of) its entry e *)
Lemma located c : cinv c -> load_state c \/ (exists e, st_T c e) ->
  exists c1 e r' t, find_region_by_key pd budget fuel 0 c k false = (Ok r', c1, t) /\ r_verid r' = r_verid e /\ cinv c1 /\ st_T c1 e.
Proof.
  intros Hc [Hl|[e Hst]].
  - destruct (find_load c Hc Hl) as [c1 [e [r' H]]]. exists c1, e, r', 1%nat. exact H.
  - exists c, e, e, 0%nat. split; [apply find_hit, Hst|]. split; [reflexivity|split; assumption].
Qed.

Lemma rpc_ctx_in c x : cinv c -> hit c x -> epoch_ok c x -> not_tomb c x ->
  rpc_ctx c (r_verid x) = (Some (x, nth (r_work x) (r_peers x) (0, 0)), c).
Proof.
  intros Hc Hh Hep Hnt. destruct (hit_entry c x Hc Hh) as [Hx _]. destruct Hh as [_ [He Hf]].
  unfold rpc_ctx. rewrite (get_by_verid_in truth c x Hc Hx), He.
  unfold flagged in Hf. apply orb_false_iff in Hf. destruct Hf as [-> _]. cbn [orb]. unfold not_tomb in Hnt. rewrite Hnt.
  unfold epoch_ok in Hep. rewrite Hep, N.eqb_refl. reflexivity.
Qed.
Lemma rpc_ctx_bad c x : cinv c -> unusable c x ->
  exists reason, rpc_ctx c (r_verid x) = (None, upd_entry c x (invalidate_r reason)).
Proof.
  intros Hc [Hh Hbad]. destruct (hit_entry c x Hc Hh) as [Hx _]. destruct Hh as [_ [He Hf]].
  unfold rpc_ctx. rewrite (get_by_verid_in truth c x Hc Hx), He.
  unfold flagged in Hf. apply orb_false_iff in Hf. destruct Hf as [-> _]. cbn [orb].
  destruct (existsb (N.eqb (snd (nth (r_work x) (r_peers x) (0, 0)))) (c_tomb c)) eqn:Et; [exists 4; reflexivity|].
  destruct (N.eqb_spec (store_epoch (c_sepochs c) (snd (nth (r_work x) (r_peers x) (0, 0)))) (nth (r_work x) (r_sepochs x) 0)) as [E|E].
  - exfalso. apply Hbad. split; [exact E|exact Et].
  - exists 5. reflexivity.
Qed.
(* an entry that carries the version of a current region has its work peer on a store that is no tombstone *)
Lemma entry_not_tomb c e R : cinv c -> In e (c_sorted c) -> In R truth -> r_verid e = d_verid R -> not_tomb c e.
Proof.
  intros Hc Hin HR Hv. destruct (ci_hist _ c Hc e R Hin HR Hv) as [_ [_ Hp]]. destruct (ci_ok _ c Hc e Hin) as [_ [_ [Hw _]]].
  unfold not_tomb. apply (ci_tomb _ c Hc R); [exact HR|]. rewrite <- Hp. apply nth_In. exact Hw.
Qed.

Lemma find_truth_id R : In R truth -> find (fun X => d_id X =? d_id R) truth = Some R.
Proof.
  intros HR. apply find_first_unique; [exact HR|apply N.eqb_refl|]. intros y Hy Hp. apply N.eqb_eq in Hp. apply (tw_ids _ Htw); assumption.
Qed.
Lemma find_store_peer R p : In R truth -> In p (d_peers R) -> find (fun q : peer => snd q =? snd p) (d_peers R) = Some p.
Proof.
  intros HR Hp. apply find_first_unique; [exact Hp|apply N.eqb_refl|]. intros q Hq He. apply N.eqb_eq in He.
  apply (NoDup_map_eq snd (d_peers R)); [apply (tw_stores _ Htw R HR)|exact Hq|exact Hp|exact He].
Qed.
(* an entry that carries the current version of region R, asked at one of R's peers *)
Lemma reply_current R e p : In R truth -> r_verid e = d_verid R -> In p (d_peers R) ->
  store_reply (r_verid e) p = if peer_eqb p (d_leader R) then RepOk else RepNotLeader (d_leader R).
Proof.
  intros HR Hv Hp. rewrite Hv. unfold Converge.store_reply, d_verid. rewrite (find_truth_id R HR), (find_store_peer R p HR Hp).
  destruct (peer_eqb p (d_leader R)); cbn [negb]; [|reflexivity]. rewrite !N.eqb_refl. reflexivity.
Qed.

Lemma st_T_entry c e : cinv c -> st_T c e -> In e (c_sorted c) /\ r_peers e = d_peers T /\ (r_work e < length (d_peers T))%nat.
Proof.
  intros Hc [Hh [Hv _]]. destruct (hit_entry c e Hc Hh) as [Hin _].
  destruct (ci_hist _ c Hc e T Hin HT Hv) as [_ [_ Hp]]. split; [exact Hin|]. split; [exact Hp|].
  destruct (ci_ok _ c Hc e Hin) as [_ [_ [Hw _]]]. rewrite Hp in Hw. exact Hw.
Qed.
(* the round in which the lookup comes back with the entry e of the key's region: served if e's work peer leads the region,
   else NotLeader *)
Lemma round_T c0 c1 r' t e : find_region_by_key pd budget fuel 0 c0 k false = (Ok r', c1, t) -> r_verid r' = r_verid e ->
  cinv c1 -> st_T c1 e ->
  round c0 k = if peer_eqb (nth (r_work e) (r_peers e) (0, 0)) (d_leader T) then (true, c1)
               else (false, update_leader c1 (r_verid e) (Some (d_leader T)) (r_work e)).
Proof.
  intros Hf Hv' Hc Hst. destruct (st_T_entry c1 e Hc Hst) as [Hin [Hp Hw]]. destruct Hst as [Hh [Hv Hep]].
  unfold Converge.round. rewrite Hf, Hv', (rpc_ctx_in c1 e Hc Hh Hep (entry_not_tomb c1 e T Hc Hin HT Hv)).
  rewrite (reply_current T e _ HT Hv) by (rewrite <- Hp; apply nth_In; rewrite Hp; exact Hw).
  destruct (peer_eqb (nth (r_work e) (r_peers e) (0, 0)) (d_leader T)); reflexivity.
Qed.
Lemma st_T_leader_round c e : cinv c -> st_T c e -> nth (r_work e) (r_peers e) (0, 0) = d_leader T -> round c k = (true, c).
Proof.
  intros Hc Hst Hl. rewrite (round_T c c e 0 e (find_hit c e (proj1 Hst)) eq_refl Hc Hst), Hl, peer_eqb_refl. reflexivity.
Qed.

(* switching the work peer of the entry that answers for the key: it still answers, with a freshly read store epoch *)
Lemma switch_hit c x j : cinv c -> hit c x -> (j < length (r_peers x))%nat ->
  cinv (upd_entry c x (switch_work (c_sepochs c) j)) /\ hit (upd_entry c x (switch_work (c_sepochs c) j)) (switch_work (c_sepochs c) j x) /\
  epoch_ok (upd_entry c x (switch_work (c_sepochs c) j)) (switch_work (c_sepochs c) j x).
Proof.
  intros Hc Hh Hj. destruct (hit_entry c x Hc Hh) as [Hin _]. destruct Hh as [Hs [He Hf]]. pose proof (ci_len _ c Hc x Hin) as Hlen.
  split; [|split].
  - apply (upd_entry_inv truth c x _ Hc Hin (shape_switch_work _ j)).
    + destruct (ci_ok _ c Hc x Hin) as [A [B [C D]]]. repeat split; assumption.
    + cbn [switch_work r_sepochs r_peers]. rewrite set_nth_length. exact Hlen.
  - split; [apply search_upd; [apply shape_switch_work|exact Hs]|split; [exact He|exact Hf]].
  - unfold epoch_ok. cbn [switch_work r_work r_peers r_sepochs upd_entry c_sepochs]. rewrite nth_set_nth by (rewrite Hlen; exact Hj). reflexivity.
Qed.
(* switching the entry of the key's region to the leader makes the next round succeed *)
Lemma fix_leader c e : cinv c -> st_T c e ->
  let c2 := update_leader c (r_verid e) (Some (d_leader T)) (r_work e) in cinv c2 /\ round c2 k = (true, c2).
Proof.
  intros Hc Hst. destruct (st_T_entry c e Hc Hst) as [Hin [Hp Hw]]. pose proof Hst as [Hh [Hv Hep]].
  cbv zeta. unfold update_leader. rewrite (get_by_verid_in truth c e Hc Hin). rewrite Hp.
  destruct (first_idx_in (d_leader T) (d_peers T) 0 (tw_leader _ Htw T HT)) as [i Hi]. rewrite Hi.
  destruct (first_idx_nth _ _ _ _ Hi) as [[_ Hib] Hnth]. rewrite Nat.sub_0_r in Hnth.
  destruct (Nat.eqb (r_work e) i) eqn:Ewi.
  { apply Nat.eqb_eq in Ewi. split; [exact Hc|]. apply (st_T_leader_round c e Hc Hst). rewrite Ewi, Hp. exact Hnth. }
  rewrite <- Hp in Hib. destruct (switch_hit c e i Hc Hh Hib) as [Hc2 [Hh2 Hep2]]. split; [exact Hc2|].
  apply (st_T_leader_round _ (switch_work (c_sepochs c) i e) Hc2); [split; [exact Hh2|split; [exact Hv|exact Hep2]]|].
  cbn [switch_work r_work r_peers]. rewrite Hp. exact Hnth.
Qed.

Lemma rounds_S n c c' : round c k = (false, c') -> rounds (S n) c k = rounds n c' k.
Proof. intros H. cbn [Converge.rounds]. rewrite H. reflexivity. Qed.
Lemma rounds_true n c c' : round c k = (true, c') -> rounds (S n) c k = true.
Proof. intros H. cbn [Converge.rounds]. rewrite H. reflexivity. Qed.
Lemma rounds_mono n : forall c, rounds n c k = true -> rounds (S n) c k = true.
Proof.
  induction n as [|n IH]; intros c H; [discriminate|]. cbn [Converge.rounds] in *. destruct (round c k) as [ok c'].
  destruct ok; [reflexivity|]. apply IH. exact H.
Qed.

(* the key's region is asked in this round: at most one NotLeader round *)
Lemma located_converges c : cinv c -> load_state c \/ (exists e, st_T c e) -> rounds 2 c k = true.
Proof.
  intros Hc H. destruct (located c Hc H) as [c1 [e [r' [t [Hf [Hv [Hc1 Hst]]]]]]]. pose proof (round_T c c1 r' t e Hf Hv Hc1 Hst) as Hr.
  destruct (peer_eqb (nth (r_work e) (r_peers e) (0, 0)) (d_leader T)); [exact (rounds_true 1 _ _ Hr)|].
  rewrite (rounds_S _ _ _ Hr). exact (rounds_true 0 _ _ (proj2 (fix_leader c1 e Hc1 Hst))).
Qed.

(* a stale entry does not carry the version of any current region *)
Lemma stale_not_current c x R : cinv c -> stale c x -> In R truth -> r_verid x <> d_verid R.
Proof.
  intros Hc [Hh [Hne _]] HR Hv. destruct (hit_entry c x Hc Hh) as [Hin [Hk _]].
  destruct (ci_hist _ c Hc x R Hin HR Hv) as [H1 [H2 _]].
  assert (R = T); [|subst R; contradiction]. apply (tw_disjoint _ Htw R T k HR HT); [|exact HTk].
  unfold tcontains. rewrite <- H1, <- H2. exact Hk.
Qed.

(* invalidating the entry that answers for the key leads to a reload *)
Lemma invalidate_found c x reason : cinv c -> hit c x ->
  cinv (upd_entry c x (invalidate_r reason)) /\ load_state (upd_entry c x (invalidate_r reason)).
Proof.
  intros Hc Hh. destruct (hit_entry c x Hc Hh) as [Hin [_ Hr0]]. destruct Hh as [Hs _]. split.
  - apply (upd_entry_inv truth c x _ Hc Hin (shape_invalidate reason)).
    + destruct (ci_ok _ c Hc x Hin) as [A [B [C D]]]. unfold invalidate_r. rewrite Hr0. cbn. repeat split; try assumption.
    + unfold invalidate_r. destruct (r_reason x =? 0); apply (ci_len _ c Hc x Hin).
  - unfold load_state. rewrite (search_upd c x _ k (shape_invalidate reason) Hs). left. unfold invalidate_r. rewrite Hr0. reflexivity.
Qed.
Lemma invalidate_to_load c x reason : cinv c -> stale c x ->
  cinv (invalidate c (r_verid x) reason) /\ load_state (invalidate c (r_verid x) reason).
Proof.
  intros Hc [Hh _]. destruct (hit_entry c x Hc Hh) as [Hin _].
  unfold invalidate. rewrite (get_by_verid_in truth c x Hc Hin). apply invalidate_found; assumption.
Qed.
(* somebody failed on the work peer's store since the entry was made, or the store is gone: the round only invalidates the entry *)
Lemma unusable_round c x : cinv c -> unusable c x -> exists c', round c k = (false, c') /\ cinv c' /\ load_state c'.
Proof.
  intros Hc Hb. destruct (rpc_ctx_bad c x Hc Hb) as [reason Hrpc]. destruct Hb as [Hh _].
  exists (upd_entry c x (invalidate_r reason)). split; [|apply invalidate_found; assumption].
  unfold Converge.round. rewrite (find_hit c x Hh), Hrpc. reflexivity.
Qed.

(* inserting current regions one after the other never uncovers an older entry for the key *)
Lemma insert_all_truth : forall news c0,
  cinv c0 -> (forall r, In r news -> exists R, In R truth /\ fresh_of r R) ->
  cinv (insert_all c0 news) /\ c_sepochs (insert_all c0 news) = c_sepochs c0 /\
  forall y, search (c_sorted (insert_all c0 news)) k false = Some y ->
    (exists r R deleted, In R truth /\ fresh_of r R /\ y = inherit (stamp (c_sepochs c0) r) deleted) \/ search (c_sorted c0) k false = Some y.
Proof.
  induction news as [|r t IH]; intros c0 Hc0 Hn; [split; [exact Hc0|split; [reflexivity|intros y H; right; exact H]]|].
  cbn [insert_all fold_left]. destruct (Hn r (or_introl eq_refl)) as [R [HR Hfr]].
  destruct (insert_new_current truth Htw c0 r R Hc0 HR Hfr) as [c1 [deleted [Hi [A Hc1]]]]. rewrite Hi. cbn [snd].
  destruct (IH c1 Hc1 (fun r' Hr' => Hn r' (or_intror Hr'))) as [H1 [H1s H2]]. pose proof (ac_sepochs _ _ _ _ A) as Hse.
  split; [exact H1|]. split; [exact (eq_trans H1s Hse)|].
  intros y Hy. destruct (H2 y Hy) as [[r' [R' [d' [HR' [Hfr' ->]]]]]|Hy1].
  - left. exists r', R', d'. rewrite Hse. split; [exact HR'|split; [exact Hfr'|reflexivity]].
  - destruct (search_no_unshadow c0 _ c1 deleted k y (ci_sorted _ c0 Hc0) A Hy1) as [->|H]; [left|right; exact H].
    exists r, R, deleted. split; [exact HR|split; [exact Hfr|reflexivity]].
Qed.

(* the EpochNotMatch reaction: afterwards the key is answered by its own region or by a reload *)
Lemma epoch_to c x R st : cinv c -> stale c x -> In R truth ->
  exists c3, on_epoch_not_match c (r_verid x) st (cur_of R) = Ok (false, c3) /\ cinv c3 /\ (load_state c3 \/ exists e, st_T c3 e).
Proof.
  intros Hc Hst HR. destruct (hit_entry c x Hc (proj1 Hst)) as [Hin _]. destruct (Hcur R HR) as [_ Hsub].
  (* a reply that names no region at all only invalidates the entry *)
  assert (Hcase : cur_of R = [] \/ cur_of R <> []) by (destruct (cur_of R); [left; reflexivity|right; discriminate]).
  destruct Hcase as [E|Hne].
  { rewrite E. exists (invalidate c (r_verid x) 3). split; [reflexivity|]. destruct (invalidate_to_load c x 3 Hc Hst) as [A B]. split; [exact A|left; exact B]. }
  assert (Hfr : forall bk d, In d (cur_of R) -> In d truth /\ fresh_of (region_on_store bk d st) d).
  { intros bk d Hd. split; [apply Hsub; exact Hd|apply fresh_on_store, (peers_T_nonempty truth Htw), Hsub, Hd]. }
  rewrite on_epoch_not_match_cons by exact Hne. cbv zeta.
  set (bk0 := match get_by_verid c (r_verid x) with Some x0 => r_bk x0 | None => None end).
  assert (Hah : epoch_ahead (r_verid x) (cur_of R) = false).
  { unfold epoch_ahead, r_verid. apply existsb_none. intros d Hd. destruct (N.eqb_spec (d_id d) (r_id x)) as [E|E]; [|reflexivity].
    destruct (ci_dom_id _ c Hc x d Hin (Hsub d Hd) (eq_sym E)) as [Ha Hb]. apply orb_false_iff. rewrite !N.ltb_ge. split; assumption. }
  rewrite Hah, (existsb_none (fun d => is_nil (d_peers d)) (cur_of R)).
  2:{ intros d Hd. destruct (d_peers d) eqn:E; [|reflexivity]. destruct (peers_T_nonempty truth Htw d (Hsub d Hd) E). }
  rewrite (existsb_none (fun r => verid_eqb (r_verid r) (r_verid x))).
  2:{ intros r Hr. apply in_map_iff in Hr. destruct Hr as [d [<- Hd]]. destruct (Hfr bk0 d Hd) as [Hdt [Hof _]].
      destruct (verid_eqb (r_verid (region_on_store bk0 d st)) (r_verid x)) eqn:E; [|reflexivity]. apply verid_eqb_eq in E.
      destruct (stale_not_current c x d Hc Hst Hdt). rewrite <- E. apply of_truth_verid. exact Hof. }
  destruct (invalidate_to_load c x 3 Hc Hst) as [Hc1 Hl1].
  destruct (insert_all_truth (map (fun d => region_on_store bk0 d st) (cur_of R)) _ Hc1) as [Hc3 [Hse3 Hsrch]].
  { intros r Hr. apply in_map_iff in Hr. destruct Hr as [d [<- Hd]]. exists d. apply Hfr. exact Hd. }
  eexists. split; [reflexivity|]. split; [exact Hc3|].
  set (c1 := invalidate c (r_verid x) 3) in *. set (c3 := insert_all c1 (map (fun d => region_on_store bk0 d st) (cur_of R))) in *.
  destruct (search (c_sorted c3) k false) as [y|] eqn:Ey; [|left; unfold load_state; rewrite Ey; exact I].
  destruct (Hsrch y eq_refl) as [[r [d [deleted [Hd [Hfrd ->]]]]]|Hold].
  - right. eexists. exact (found_fresh c3 _ r d deleted Hd Hfrd Hse3 Ey).
  - left. unfold load_state in *. rewrite Ey. rewrite Hold in Hl1. exact Hl1.
Qed.

Definition on_leader (x : region) : Prop :=
  exists R, In R truth /\ d_id R = r_id x /\ nth (r_work x) (r_peers x) (0, 0) = d_leader R.

(* what the store answers to a request under a stale entry: never Ok *)
Lemma stale_reply c x : cinv c -> stale c x ->
  let rep := store_reply (r_verid x) (nth (r_work x) (r_peers x) (0, 0)) in
  rep = RepRegionNotFound \/
  exists R, In R truth /\ d_id R = r_id x /\ ((rep = RepNotLeader (d_leader R) /\ ~ on_leader x) \/ rep = RepEpochNotMatch (cur_of R)).
Proof.
  intros Hc Hst. cbv zeta. set (p := nth (r_work x) (r_peers x) (0, 0)). unfold Converge.store_reply, r_verid.
  destruct (find (fun X => d_id X =? r_id x) truth) as [R|] eqn:Efind; [|left; reflexivity].
  pose proof (find_some _ _ Efind) as [HR Hid]. apply N.eqb_eq in Hid.
  destruct (find (fun q : peer => snd q =? snd p) (d_peers R)) as [q|] eqn:Eq; [|left; reflexivity].
  right. exists R. split; [exact HR|]. split; [exact Hid|]. destruct (negb (peer_eqb q (d_leader R))) eqn:Enl.
  - left. split; [reflexivity|]. intros [R2 [HR2 [Hid2 Hl2]]]. fold p in Hl2.
    assert (R2 = R) by (apply (tw_ids _ Htw); [exact HR2|exact HR|congruence]). subst R2.
    pose proof (find_some _ _ Eq) as [Hqin Hqs]. apply N.eqb_eq in Hqs.
    assert (q = p); [|subst q; rewrite Hl2, peer_eqb_refl in Enl; discriminate].
    apply (NoDup_map_eq snd (d_peers R)); [apply (tw_stores _ Htw R HR)|exact Hqin|rewrite Hl2; apply (tw_leader _ Htw R HR)|exact Hqs].
  - right. destruct ((d_ver R =? r_ver x) && (d_conf R =? r_conf x)) eqn:Eep; [exfalso|reflexivity].
    apply andb_true_iff in Eep. rewrite !N.eqb_eq in Eep. destruct Eep as [E1 E2].
    apply (stale_not_current c x R Hc Hst HR). unfold r_verid, d_verid. congruence.
Qed.

(* the NotLeader reaction: switch to the leader if the cached description knows it, else invalidate *)
Lemma stale_to_leader c x R : cinv c -> stale c x -> In R truth -> d_id R = r_id x -> ~ on_leader x ->
  let c' := update_leader c (r_verid x) (Some (d_leader R)) (r_work x) in
  cinv c' /\ (load_state c' \/ exists x', stale c' x' /\ on_leader x').
Proof.
  intros Hc Hst HR Hid Hnotl. pose proof Hst as [Hh [Hv _]]. destruct (hit_entry c x Hc Hh) as [Hin _].
  cbv zeta. unfold update_leader. rewrite (get_by_verid_in truth c x Hc Hin).
  destruct (first_idx (d_leader R) (r_peers x) 0) as [j|] eqn:Ej; [|destruct (invalidate_found c x 4 Hc Hh) as [A B]; split; [exact A|left; exact B]].
  destruct (first_idx_nth _ _ _ _ Ej) as [[_ Hjb] Hnth]. rewrite Nat.sub_0_r in Hnth.
  assert (Hon : forall y, r_id y = r_id x -> nth (r_work y) (r_peers y) (0, 0) = d_leader R -> on_leader y).
  { intros y Hy Hl. exists R. split; [exact HR|]. split; [congruence|exact Hl]. }
  destruct (Nat.eqb (r_work x) j) eqn:Ewj; [apply Nat.eqb_eq in Ewj; destruct Hnotl; apply Hon; [reflexivity|rewrite Ewj; exact Hnth]|].
  destruct (switch_hit c x j Hc Hh Hjb) as [Hc2 [Hh2 Hep2]]. split; [exact Hc2|]. right.
  exists (switch_work (c_sepochs c) j x). split; [|apply Hon; [reflexivity|exact Hnth]].
  split; [exact Hh2|]. split; [exact Hv|]. split; [exact Hep2|].
  unfold not_tomb. cbn [switch_work r_work r_peers upd_entry c_tomb]. rewrite Hnth.
  apply (ci_tomb _ c Hc R (d_leader R) HR). apply (tw_leader _ Htw R HR).
Qed.

Lemma stale_round c x : cinv c -> stale c x ->
  exists c', round c k = (false, c') /\ cinv c' /\
    ((load_state c' \/ exists e, st_T c' e) \/ (~ on_leader x /\ exists x', stale c' x' /\ on_leader x')).
Proof.
  intros Hc Hst. pose proof Hst as [Hh [_ [Hep Hnt]]].
  assert (Hround : forall rep, store_reply (r_verid x) (nth (r_work x) (r_peers x) (0, 0)) = rep -> rep <> RepOk ->
            round c k = (false, react c x (nth (r_work x) (r_peers x) (0, 0)) rep)).
  { intros rep Hrep Hne. unfold Converge.round. rewrite (find_hit c x Hh), (rpc_ctx_in c x Hc Hh Hep Hnt), Hrep.
    destruct rep; [congruence|reflexivity|reflexivity|reflexivity]. }
  destruct (stale_reply c x Hc Hst) as [Hrep|[R [HR [Hid [[Hrep Hnotl]|Hrep]]]]];
    (eexists; split; [apply (Hround _ Hrep); discriminate|]); cbn [react].
  - destruct (invalidate_to_load c x 5 Hc Hst) as [A B]. split; [exact A|left; left; exact B].
  - destruct (stale_to_leader c x R Hc Hst HR Hid Hnotl) as [A [B|B]]; (split; [exact A|]); [left; left; exact B|right; split; [exact Hnotl|exact B]].
  - destruct (epoch_to c x R (snd (nth (r_work x) (r_peers x) (0, 0))) Hc Hst HR) as [c3 [Ho [Hc3 Hs3]]]. rewrite Ho. split; [exact Hc3|left; exact Hs3].
Qed.

(* C09_converges *)
Lemma converges : cinv c_req -> rounds 4 c_req k = true.
Proof.
  intros Hc. destruct (state_cases c_req) as [H|[[x Hb]|[x Hst]]].
  - do 2 apply rounds_mono. apply located_converges; assumption.
  - destruct (unusable_round c_req x Hc Hb) as [c1 [Hr1 [Hc1 Hl1]]]. rewrite (rounds_S _ _ _ Hr1).
    apply rounds_mono, located_converges; [exact Hc1|left; exact Hl1].
  - destruct (stale_round c_req x Hc Hst) as [c1 [Hr1 [Hc1 [H|[_ [x' [Hst' Hon]]]]]]]; rewrite (rounds_S _ _ _ Hr1);
      [apply rounds_mono, located_converges; assumption|].
    destruct (stale_round c1 x' Hc1 Hst') as [c2 [Hr2 [Hc2 [H|[Hno _]]]]]; [|contradiction].
    rewrite (rounds_S _ _ _ Hr2). apply located_converges; assumption.
Qed.

(* what "served" means: the store that was asked hosts the leader peer of the key's current region and was asked
   with that region's current epoch *)
Lemma round_served : cinv c_req -> round c_req k = (true, c_served) ->
  exists e, In e (c_sorted c_served) /\ r_verid e = d_verid T /\ r_contains e k = true /\
            store_reply (r_verid e) (d_leader T) = RepOk /\ nth (r_work e) (r_peers e) (0, 0) = d_leader T.
Proof.
  intros Hc Hr. destruct (state_cases c_req) as [H|[[x Hb]|[x Hst]]].
  - destruct (located c_req Hc H) as [c1 [e [r' [t [Hf [Hv' [Hc1 Hst]]]]]]]. rewrite (round_T c_req c1 r' t e Hf Hv' Hc1 Hst) in Hr.
    destruct (peer_eqb (nth (r_work e) (r_peers e) (0, 0)) (d_leader T)) eqn:E; [|discriminate]. injection Hr as <-. apply peer_eqb_eq in E.
    destruct (st_T_entry c1 e Hc1 Hst) as [Hin _]. destruct Hst as [[Hs _] [Hv _]].
    exists e. split; [exact Hin|]. split; [exact Hv|]. split; [exact (search_contains _ _ false _ Hs)|]. split; [|exact E].
    rewrite (reply_current T e _ HT Hv (tw_leader _ Htw T HT)), peer_eqb_refl. reflexivity.
  - destruct (unusable_round c_req x Hc Hb) as [c1 [Hr1 _]]. rewrite Hr1 in Hr. discriminate.
  - destruct (stale_round c_req x Hc Hst) as [c1 [Hr1 _]]. rewrite Hr1 in Hr. discriminate.
Qed.

(* the composed round: whatever number of attempts the sender makes per call, 4 calls suffice *)
Lemma attempts_rounds : forall m n c c2, rounds n c k = true -> attempts truth cur_of pd budget fuel m c k = (false, c2) ->
  (S m < n)%nat /\ rounds (n - S m) c2 k = true.
Proof.
  induction m as [|m IH]; intros n c c2 Hr Ha; cbn [attempts] in Ha; destruct n as [|n]; try discriminate;
    cbn [Converge.rounds] in Hr; destruct (round c k) as [ok c1]; destruct ok; try discriminate.
  - injection Ha as <-. destruct n as [|n]; [discriminate|]. split; [lia|]. replace (S (S n) - 1)%nat with (S n) by lia. exact Hr.
  - destruct (IH n c1 c2 Hr Ha) as [H1 H2]. split; [lia|]. replace (S n - S (S m))%nat with (n - S m)%nat by lia. exact H2.
Qed.
Lemma srounds_of_rounds inner : forall n j i c, (j <= n)%nat -> rounds j c k = true -> srounds truth cur_of pd budget fuel inner n i c k = true.
Proof.
  induction n as [|n IH]; intros j i c Hj Hr; [destruct j; [discriminate|lia]|]. cbn [srounds].
  destruct (attempts truth cur_of pd budget fuel (inner i) c k) as [ok c2] eqn:Ea. destruct ok; [reflexivity|].
  destruct (attempts_rounds _ _ _ _ Hr Ea) as [H1 H2]. apply (IH (j - S (inner i))%nat); [lia|exact H2].
Qed.
Lemma converges_composed : cinv c_req -> srounds truth cur_of pd budget fuel sender 4 0 c_req k = true.
Proof. intros Hc. apply (srounds_of_rounds sender 4 4 0 c_req (Nat.le_refl 4)). apply converges. exact Hc. Qed.
End Conv.
