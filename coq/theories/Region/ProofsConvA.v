(* Region/ProofsConvA.v — tools for the convergence proof: which entries an insertion keeps ([accepted]), what a search
   returns afterwards (the inserted region for its keys; never a previously shadowed entry), entry updates that keep the
   description ([same_shape]), positions in peer lists. *)
From Verif Require Import Base.Lex Region.Model Region.Ord Region.ProofsContains Region.ProofsInsert.
Open Scope N_scope.

Lemma sorted_in_eq l x y : sorted_starts l -> In x l -> In y l -> r_start x = r_start y -> x = y.
Proof.
  induction 1 as [|a t Hst IH Hall]; intros Hx Hy He; [destruct Hx|]. rewrite Forall_forall in Hall.
  destruct Hx as [<-|Hx], Hy as [<-|Hy]; [reflexivity| | |apply IH; assumption].
  - exfalso. specialize (Hall y Hy). unfold start_lt in Hall. rewrite He, ltb_irrefl in Hall. discriminate.
  - exfalso. specialize (Hall x Hx). unfold start_lt in Hall. rewrite <- He, ltb_irrefl in Hall. discriminate.
Qed.

Lemma starts_in_dec r x : starts_in r x \/ ~ starts_in r x.
Proof.
  unfold starts_in. destruct (lex_leb (r_start r) (r_start x)); [|right; intros [H _]; discriminate].
  destruct (below_or (r_end r) (r_start x)) as [H|[Hne Hle]]; [left; split; [reflexivity|exact H]|right; intros [_ H]; exact (below_absurd _ _ H Hne Hle)].
Qed.

Lemma ins_sorted_in_iff r l x : sorted_starts l -> (forall y, In y l -> r_start y <> r_start r) -> (In x (ins_sorted r l) <-> x = r \/ In x l).
Proof.
  intros Hs Hne. split; [apply ins_sorted_in|]. induction l as [|y t IH]; cbn [ins_sorted].
  - intros [->|[]]; left; reflexivity.
  - inversion Hs as [|? ? Hst Hall]; subst. destruct (lex_cmp (r_start r) (r_start y)) eqn:E.
    + exfalso. apply lex_cmp_eq in E. apply (Hne y); [left; reflexivity|symmetry; exact E].
    + intros [->|H]; [left; reflexivity|right; exact H].
    + intros [->|[<-|H]]; [right; apply IH; [exact Hst|intros z Hz; apply Hne; right; exact Hz|left; reflexivity]|left; reflexivity|].
      right. apply IH; [exact Hst|intros z Hz; apply Hne; right; exact Hz|right; exact H].
Qed.

Definition nonempty_range (r : region) : Prop := r_end r = [] \/ lex_ltb (r_start r) (r_end r) = true.

(* what an accepted insertion of r into c did: [deleted] are the entries that start inside r's range *)
Record accepted (c : cache) (r : region) (c' : cache) (deleted : list region) : Prop := {
  ac_deleted : forall x, In x deleted <-> In x (c_sorted c) /\ starts_in r x;
  ac_older : forall x, In x deleted -> r_ver x <= r_ver r;
  ac_in : forall x, In x (c_sorted c') <-> x = inherit r deleted \/ (In x (c_sorted c) /\ ~ starts_in r x);
  ac_regions : c_regions c' = reg_set (r_verid (inherit r deleted)) (r_start (inherit r deleted)) (fst (fold_left rm_step deleted (c_regions c, c_latest c)));
  ac_latest : c_latest c' = lat_set (r_id (inherit r deleted)) (r_ver (inherit r deleted), r_conf (inherit r deleted))
                              (snd (fold_left rm_step deleted (c_regions c, c_latest c)));
  ac_sepochs : c_sepochs c' = c_sepochs c;
  ac_tomb : c_tomb c' = c_tomb c;
  ac_sorted : sorted_starts (c_sorted c') }.

Lemma insert_accepted c r c' :
  sorted_starts (c_sorted c) -> nonempty_range r -> insert_region c r = (true, c') -> exists deleted, accepted c r c' deleted.
Proof.
  intros Hs Hne H. pose proof (insert_region_sorted c r true c' Hs H) as Hs'.
  rewrite insert_region_unfold in H. destruct (stale_by_latest c r); [discriminate|].
  destruct (remove_intersecting r (c_sorted c)) as [[l1 deleted] stale] eqn:Er. destruct stale; [discriminate|].
  cbv zeta in H. injection H as <-. exists deleted.
  pose proof (remove_intersecting_spec r _ Hs) as Hsp. rewrite Er in Hsp. destruct Hsp as [H1 [H2 H3]].
  pose proof (remove_intersecting_sorted r _ _ _ Hs Er) as Hs1.
  constructor; try reflexivity; try assumption.
  cbn [c_sorted]. intros x. destruct (inherit_same r deleted) as [_ [Hst _]].
  rewrite ins_sorted_in_iff; [rewrite H1; reflexivity|exact Hs1|].
  intros y Hy Heq. apply H1 in Hy. destruct Hy as [_ Hy]. apply Hy. rewrite Hst in Heq. unfold starts_in. rewrite Heq.
  split; [apply leb_refl|exact Hne].
Qed.

(* search as "the entry with the greatest start at or below the key" *)
Definition top_of (l : list region) (k : bytes) (y : region) : Prop :=
  In y l /\ lex_leb (r_start y) k = true /\ forall z, In z l -> lex_leb (r_start z) k = true -> lex_leb (r_start z) (r_start y) = true.

Lemma sorted_max_last l y : sorted_starts l -> In y l -> (forall z, In z l -> lex_leb (r_start z) (r_start y) = true) ->
  exists rest, rev l = y :: rest.
Proof.
  intros Hs Hy Hmax. destruct (rev l) as [|z rest] eqn:Er.
  - exfalso. apply (f_equal (@rev region)) in Er. rewrite rev_involutive in Er. cbn in Er. subst l. destruct Hy.
  - exists rest. f_equal. assert (Hl : l = rev rest ++ [z]) by (rewrite <- (rev_involutive l), Er; reflexivity).
    assert (Hz : In z l) by (rewrite Hl; apply in_or_app; right; left; reflexivity).
    rewrite Hl in Hy. apply in_app_or in Hy. destruct Hy as [Hy|[->|[]]]; [|reflexivity]. exfalso.
    pose proof (sorted_app_last (rev rest) z ltac:(rewrite <- Hl; exact Hs) y Hy) as H1.
    pose proof (Hmax z Hz) as H2. apply leb_not_ltb in H2. congruence.
Qed.
Lemma search_top l k y : sorted_starts l -> (search l k false = Some y <-> top_of l k y /\ r_contains y k = true).
Proof.
  intros Hs. split.
  - intros H. destruct (search_max l k y Hs H) as [H1 [H2 H3]]. split; [|exact H2]. split; [exact H1|]. split; [|exact H3].
    apply r_contains_spec in H2. apply H2.
  - intros [[H1 [H2 H3]] H4]. unfold search. cbn [andb].
    assert (Hy : In y (le_items l k)) by (apply filter_In; split; assumption).
    destruct (sorted_max_last (le_items l k) y (filter_sorted _ _ Hs) Hy) as [rest Hr].
    { intros z Hz. apply filter_In in Hz. apply H3; tauto. }
    rewrite Hr. cbn [search_desc andb]. rewrite H4. reflexivity.
Qed.
Lemma search_none_or_top l k : sorted_starts l -> search l k false = None ->
  forall y, top_of l k y -> r_contains y k = false.
Proof.
  intros Hs Hn y Ht. destruct (r_contains y k) eqn:E; [|reflexivity].
  assert (search l k false = Some y) by (apply search_top; [exact Hs|split; assumption]). congruence.
Qed.

(* after an accepted insertion the inserted region answers for all its keys *)
Lemma search_after_insert c r c' deleted k :
  accepted c r c' deleted -> r_contains r k = true -> search (c_sorted c') k false = Some (inherit r deleted).
Proof.
  intros [_ _ H3 _ _ _ _ Hs'] Hk. destruct (inherit_same r deleted) as [_ [Hst [Hen _]]].
  assert (Hin : In (inherit r deleted) (c_sorted c')) by (apply H3; left; reflexivity).
  apply search_top; [exact Hs'|]. apply r_contains_spec in Hk. destruct Hk as [Hk1 Hk2].
  split; [|apply r_contains_spec; rewrite Hst, Hen; split; assumption].
  split; [exact Hin|]. split; [rewrite Hst; exact Hk1|].
  intros z Hz Hzk. apply H3 in Hz. destruct Hz as [->|[Hz Hn]]; [apply leb_refl|]. rewrite Hst.
  destruct (lex_leb (r_start z) (r_start r)) eqn:E; [reflexivity|]. exfalso. apply Hn. apply leb_false_ltb in E.
  split; [apply ltb_leb; exact E|]. destruct Hk2 as [Hk2|Hk2]; [left; exact Hk2|right; eapply leb_ltb_trans; eassumption].
Qed.

(* an insertion never uncovers an entry that was shadowed before *)
Lemma search_no_unshadow c r c' deleted k y :
  sorted_starts (c_sorted c) -> accepted c r c' deleted -> search (c_sorted c') k false = Some y ->
  y = inherit r deleted \/ search (c_sorted c) k false = Some y.
Proof.
  intros Hs [_ _ H3 _ _ _ _ Hs'] Hy.
  apply (search_top _ _ _ Hs') in Hy. destruct Hy as [[Hy1 [Hy2 Hy3]] Hy4].
  apply H3 in Hy1. destruct Hy1 as [->|[Hy1 Hyn]]; [left; reflexivity|]. right.
  apply search_top; [exact Hs|]. split; [|exact Hy4]. split; [exact Hy1|]. split; [exact Hy2|].
  intros z Hz Hzk. destruct (lex_leb (r_start z) (r_start y)) eqn:E; [reflexivity|]. exfalso. apply leb_false_ltb in E.
  (* z is above y and at or below k: were it kept, y would not be the top of the new index; so it starts inside r *)
  destruct (starts_in_dec r z) as [Hzin|Hzout].
  2:{ assert (Hkeep : In z (c_sorted c')) by (apply H3; right; split; assumption).
      pose proof (Hy3 z Hkeep Hzk) as H. apply leb_not_ltb in H. congruence. }
  (* then the inserted entry is at or below z, hence at or below k, hence at or below y: y starts inside r *)
  destruct Hzin as [Hz1 Hz2]. destruct (inherit_same r deleted) as [_ [Hst _]].
  assert (Hr1 : lex_leb (r_start r) (r_start y) = true).
  { rewrite <- Hst. apply Hy3; [apply H3; left; reflexivity|rewrite Hst; eapply leb_trans; eassumption]. }
  apply Hyn. split; [exact Hr1|]. destruct Hz2 as [Hz2|Hz2]; [left; exact Hz2|right; eapply ltb_trans; eassumption].
Qed.

Definition same_shape (f : region -> region) : Prop :=
  forall x, r_id (f x) = r_id x /\ r_start (f x) = r_start x /\ r_end (f x) = r_end x /\ r_ver (f x) = r_ver x /\
            r_conf (f x) = r_conf x /\ r_peers (f x) = r_peers x.
Definition upd_fun (r : region) (f : region -> region) (x : region) : region :=
  if bytes_eqb (r_start x) (r_start r) && verid_eqb (r_verid x) (r_verid r) then f x else x.
Lemma upd_entry_sorted c r f : c_sorted (upd_entry c r f) = map (upd_fun r f) (c_sorted c).
Proof. reflexivity. Qed.
Lemma upd_fun_shape r f : same_shape f -> same_shape (upd_fun r f).
Proof. intros H x. unfold upd_fun. destruct (bytes_eqb (r_start x) (r_start r) && verid_eqb (r_verid x) (r_verid r)); [apply H|repeat split]. Qed.
Lemma shape_verid g x : same_shape g -> r_verid (g x) = r_verid x.
Proof. intros H. destruct (H x) as [H1 [_ [_ [H2 [H3 _]]]]]. unfold r_verid. congruence. Qed.

Lemma map_sorted g l : same_shape g -> sorted_starts l -> sorted_starts (map g l).
Proof.
  intros Hg. induction 1 as [|y t Hst IH Hall]; cbn [map]; [constructor|]. constructor; [exact IH|].
  rewrite Forall_forall in *. intros z Hz. apply in_map_iff in Hz. destruct Hz as [z0 [<- Hz0]]. unfold start_lt.
  destruct (Hg y) as [_ [-> _]]. destruct (Hg z0) as [_ [-> _]]. apply Hall; exact Hz0.
Qed.
Lemma search_map g l k : same_shape g -> search (map g l) k false = option_map g (search l k false).
Proof.
  intros Hg. unfold search, le_items. cbn [andb].
  assert (Hf : filter (fun r => lex_leb (r_start r) k) (map g l) = map g (filter (fun r => lex_leb (r_start r) k) l)).
  { induction l as [|x t IH]; [reflexivity|]. cbn [map filter]. destruct (Hg x) as [_ [-> _]].
    destruct (lex_leb (r_start x) k); [cbn [map]; rewrite IH; reflexivity|exact IH]. }
  rewrite Hf, <- map_rev. destruct (rev (filter (fun r => lex_leb (r_start r) k) l)) as [|x rest]; [reflexivity|].
  cbn [map search_desc andb]. unfold r_contains. destruct (Hg x) as [_ [-> [-> _]]].
  destruct (contains (r_start x) (r_end x) k); reflexivity.
Qed.
Lemma find_map {A} (p : A -> bool) (g : A -> A) l : (forall x, p (g x) = p x) -> find p (map g l) = option_map g (find p l).
Proof. intros H. induction l as [|x t IH]; [reflexivity|]. cbn [map find]. rewrite H. destruct (p x); [reflexivity|exact IH]. Qed.
Lemma entry_at_upd c r f s v : same_shape f ->
  entry_at (upd_entry c r f) s v = option_map (upd_fun r f) (entry_at c s v).
Proof.
  intros Hf. unfold entry_at. rewrite upd_entry_sorted. apply find_map. intros x.
  pose proof (upd_fun_shape r f Hf) as Hg. destruct (Hg x) as [_ [-> _]]. rewrite (shape_verid _ x Hg). reflexivity.
Qed.
Lemma get_by_verid_upd c r f v : same_shape f ->
  get_by_verid (upd_entry c r f) v = option_map (upd_fun r f) (get_by_verid c v).
Proof.
  intros Hf. unfold get_by_verid. change (c_regions (upd_entry c r f)) with (c_regions c).
  destruct (reg_get v (c_regions c)); [apply entry_at_upd; exact Hf|reflexivity].
Qed.
Lemma upd_fun_self r f : upd_fun r f r = f r.
Proof. unfold upd_fun. rewrite bytes_eqb_refl, verid_eqb_refl. reflexivity. Qed.
(* in a sorted index only r itself is rewritten: f is looked at nowhere else *)
Lemma upd_fun_at l r f g x : sorted_starts l -> In r l -> In x l -> f r = g r -> upd_fun r f x = upd_fun r g x.
Proof.
  intros Hs Hr Hx E. unfold upd_fun. destruct (bytes_eqb (r_start x) (r_start r)) eqn:Eb; [|reflexivity].
  apply bytes_eqb_eq in Eb. rewrite (sorted_in_eq l x r Hs Hx Hr Eb). destruct (verid_eqb (r_verid r) (r_verid r)); [exact E|reflexivity].
Qed.
Lemma upd_entry_at c r f g : sorted_starts (c_sorted c) -> In r (c_sorted c) -> f r = g r -> upd_entry c r f = upd_entry c r g.
Proof. intros Hs Hr E. unfold upd_entry. f_equal. apply map_ext_in. intros x Hx. exact (upd_fun_at _ r f g x Hs Hr Hx E). Qed.
Lemma search_upd c x f k : same_shape f -> search (c_sorted c) k false = Some x ->
  search (c_sorted (upd_entry c x f)) k false = Some (f x).
Proof.
  intros Hf Hs. rewrite upd_entry_sorted, (search_map _ _ _ (upd_fun_shape x f Hf)), Hs. cbn [option_map]. rewrite upd_fun_self. reflexivity.
Qed.

Lemma shape_invalidate reason : same_shape (invalidate_r reason).
Proof. intros x. unfold invalidate_r. destruct (r_reason x =? 0); repeat split. Qed.
Lemma shape_set_work w : same_shape (set_work w).
Proof. intros x. repeat split. Qed.
Lemma shape_clear : same_shape clear_access_flags.
Proof. intros x. repeat split. Qed.
Lemma shape_set_reload : same_shape set_reload.
Proof. intros x. repeat split. Qed.
Lemma shape_switch_work se i : same_shape (switch_work se i).
Proof. intros x. repeat split. Qed.
Lemma shape_stamp se r : r_id (stamp se r) = r_id r /\ r_start (stamp se r) = r_start r /\ r_end (stamp se r) = r_end r /\
  r_ver (stamp se r) = r_ver r /\ r_conf (stamp se r) = r_conf r /\ r_peers (stamp se r) = r_peers r /\ r_work (stamp se r) = r_work r /\
  r_expired (stamp se r) = r_expired r /\ r_reason (stamp se r) = r_reason r /\ r_reload (stamp se r) = r_reload r /\ r_ready (stamp se r) = r_ready r.
Proof. repeat split. Qed.

Lemma on_epoch_not_match_cons c v st cur : cur <> [] ->
  on_epoch_not_match c v st cur =
  if epoch_ahead v cur then Ok (true, c)
  else if existsb (fun d => is_nil (d_peers d)) cur then Err 2
  else let bk := match get_by_verid c v with Some x => r_bk x | None => None end in
       let news := map (fun d => region_on_store bk d st) cur in
       Ok (false, insert_all (if existsb (fun r => verid_eqb (r_verid r) v) news then c else invalidate c v 3) news).
Proof. destruct cur; [congruence|reflexivity]. Qed.

Lemma existsb_none {A} (f : A -> bool) l : (forall x, In x l -> f x = false) -> existsb f l = false.
Proof.
  intros H. destruct (existsb f l) eqn:E; [|reflexivity]. apply existsb_exists in E. destruct E as [x [Hx Hf]].
  rewrite (H x Hx) in Hf. discriminate.
Qed.
Lemma NoDup_map_eq {A B} (f : A -> B) l x y : NoDup (map f l) -> In x l -> In y l -> f x = f y -> x = y.
Proof.
  induction l as [|a t IH]; intros Hn Hx Hy He; [destruct Hx|]. cbn [map] in Hn. inversion Hn as [|? ? Hni Hn']; subst.
  destruct Hx as [<-|Hx], Hy as [<-|Hy]; [reflexivity| | |apply IH; assumption].
  - exfalso. apply Hni. rewrite He. apply in_map; exact Hy.
  - exfalso. apply Hni. rewrite <- He. apply in_map; exact Hx.
Qed.
Lemma peer_eqb_refl p : peer_eqb p p = true.
Proof. apply peer_eqb_eq. reflexivity. Qed.
Lemma last_idx_bound p : forall l i acc, (acc < i + length l)%nat -> (last_idx p l i acc < i + length l)%nat.
Proof.
  induction l as [|q t IH]; intros i acc H; cbn [last_idx length] in *; [exact H|].
  replace (i + S (length t))%nat with (S i + length t)%nat by lia. apply IH. destruct (peer_eqb q p); lia.
Qed.
Lemma last_idx_lt p (l : list peer) : l <> [] -> (last_idx p l 0 0 < length l)%nat.
Proof. intros Hn. apply (last_idx_bound p l 0 0). destruct l; [congruence|cbn; lia]. Qed.
Lemma first_idx_nth p : forall l i j, first_idx p l i = Some j -> (i <= j < i + length l)%nat /\ nth (j - i) l (0, 0) = p.
Proof.
  induction l as [|q t IH]; intros i j; cbn [first_idx length]; [discriminate|]. destruct (peer_eqb q p) eqn:E.
  - intros H; injection H as <-. apply peer_eqb_eq in E. rewrite Nat.sub_diag. split; [lia|exact E].
  - intros H. destruct (IH _ _ H) as [H1 H2]. split; [lia|]. replace (j - i)%nat with (S (j - S i)) by lia. exact H2.
Qed.
Lemma first_idx_in p : forall l i, In p l -> exists j, first_idx p l i = Some j.
Proof.
  induction l as [|q t IH]; intros i Hin; [destruct Hin|]. cbn [first_idx]. destruct (peer_eqb q p) eqn:E; [exists i; reflexivity|].
  destruct Hin as [->|Hin]; [rewrite peer_eqb_refl in E; discriminate|apply IH; exact Hin].
Qed.
Lemma store_idx_bound st : forall l i j, store_idx st l i = Some j -> (j < i + length l)%nat.
Proof.
  induction l as [|q t IH]; intros i j; cbn [store_idx length]; [discriminate|].
  destruct (snd q =? st); [intros H; injection H as <-; lia|]. intros H. apply IH in H. lia.
Qed.
Lemma nth_map_lt {A B} (f : A -> B) l i d d' : (i < length l)%nat -> nth i (map f l) d' = f (nth i l d).
Proof. intros H. rewrite (nth_indep _ d' (f d)) by (rewrite map_length; exact H). apply map_nth. Qed.
Lemma set_nth_length v : forall i l, length (set_nth i v l) = length l.
Proof. induction i as [|i IH]; intros [|x t]; cbn [set_nth length]; try reflexivity; rewrite IH; reflexivity. Qed.
Lemma nth_set_nth v : forall i l, (i < length l)%nat -> nth i (set_nth i v l) 0 = v.
Proof. induction i as [|i IH]; intros [|x t] H; cbn [set_nth length nth] in *; try lia; try reflexivity. apply IH; lia. Qed.
