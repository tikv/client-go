(* Region/ProofsInsert.v — insertRegionToCache: what removeIntersecting does on a sorted index (one specification for both
   verdicts: refused because of a newer entry inside the range, or the entries inside the range deleted), the index stays sorted,
   a refused description changes nothing, descriptions older than what the cache holds for the same region or older than a cached
   region that starts inside their range are refused, latestVersions never decreases while the id stays cached. *)
From Coq Require Import Sorting.Sorted.
From Verif Require Import Base.Lex Region.Model Region.Ord.
Open Scope N_scope.

Definition start_lt (a b : region) : Prop := lex_ltb (r_start a) (r_start b) = true.
Definition sorted_starts (l : list region) : Prop := StronglySorted start_lt l.

Lemma StronglySorted_app {A} (R : A -> A -> Prop) l1 l2 :
  StronglySorted R (l1 ++ l2) <-> StronglySorted R l1 /\ StronglySorted R l2 /\ forall a b, In a l1 -> In b l2 -> R a b.
Proof.
  induction l1 as [|x l1 IH]; cbn [app].
  - split; [intros H; split; [constructor|split; [exact H|intros a b []]]|intros [_ [H _]]; exact H].
  - split.
    + intros H. inversion H as [|? ? Hs Hall]; subst. apply IH in Hs. destruct Hs as [S1 [S2 S3]].
      apply Forall_app in Hall. destruct Hall as [F1 F2]. split; [constructor; assumption|]. split; [exact S2|].
      intros a b [<-|Ha] Hb; [exact (proj1 (Forall_forall _ _) F2 b Hb)|apply S3; assumption].
    + intros [S1 [S2 S3]]. inversion S1 as [|? ? Hs Hall]; subst. constructor.
      * apply IH. split; [exact Hs|]. split; [exact S2|]. intros a b Ha Hb. apply S3; [right; exact Ha|exact Hb].
      * apply Forall_app. split; [exact Hall|]. apply Forall_forall. intros b Hb. apply S3; [left; reflexivity|exact Hb].
Qed.

Lemma lat_get_del id id' l : lat_get id (lat_del id' l) = if id =? id' then None else lat_get id l.
Proof.
  unfold lat_del. induction l as [|[i v] t IH]; cbn [filter lat_get fst].
  - destruct (id =? id'); reflexivity.
  - destruct (i =? id') eqn:E1; cbn [negb].
    + rewrite IH. apply N.eqb_eq in E1; subst i. destruct (id =? id') eqn:E2; [reflexivity|].
      rewrite N.eqb_sym, E2. reflexivity.
    + cbn [lat_get]. rewrite IH. destruct (i =? id) eqn:E2; [|reflexivity].
      apply N.eqb_eq in E2; subst i. rewrite E1. reflexivity.
Qed.
Lemma lat_get_set id id' v l : lat_get id (lat_set id' v l) = if id =? id' then Some v else lat_get id l.
Proof.
  unfold lat_set. cbn [lat_get]. rewrite (N.eqb_sym id' id). destruct (id =? id') eqn:E; [reflexivity|].
  rewrite lat_get_del, E. reflexivity.
Qed.

Lemma remove_version_latest v regs lat id x :
  lat_get id (snd (remove_version v regs lat)) = Some x -> lat_get id lat = Some x.
Proof.
  destruct v as [[i ver] conf]. cbn [remove_version snd].
  destruct (lat_get i lat) as [[ver' conf']|]; [|exact (fun H => H)].
  destruct ((ver' =? ver) && (conf' =? conf)); [|exact (fun H => H)].
  rewrite lat_get_del. destruct (id =? i); [discriminate|exact (fun H => H)].
Qed.
Definition rm_step (acc : list (verid * bytes) * list (N * (N * N))) (d : region) := remove_version (r_verid d) (fst acc) (snd acc).
Lemma fold_remove_latest : forall deleted acc id x,
  lat_get id (snd (fold_left rm_step deleted acc)) = Some x -> lat_get id (snd acc) = Some x.
Proof.
  induction deleted as [|d t IH]; intros acc id x; cbn [fold_left]; [exact (fun H => H)|].
  intros H. apply IH in H. unfold rm_step in H. apply remove_version_latest in H. exact H.
Qed.

(* what the stored entry takes over from the first deleted one is the work peer and the buckets; the rest is r's *)
Lemma inherit_same r deleted :
  r_id (inherit r deleted) = r_id r /\ r_start (inherit r deleted) = r_start r /\ r_end (inherit r deleted) = r_end r /\
  r_ver (inherit r deleted) = r_ver r /\ r_conf (inherit r deleted) = r_conf r /\ r_peers (inherit r deleted) = r_peers r /\
  r_expired (inherit r deleted) = r_expired r /\ r_reload (inherit r deleted) = r_reload r /\ r_ready (inherit r deleted) = r_ready r /\
  r_reason (inherit r deleted) = r_reason r.
Proof.
  (* reduce before splitting: on the unreduced term every one of the ten equations is checked by unfolding it again *)
  destruct deleted as [|old t]; cbn [inherit]; [repeat split|]. unfold with_work. destruct (r_reason old =? 1); cbn; repeat split.
Qed.

Lemma inherit_sepochs r deleted : r_sepochs (inherit r deleted) = r_sepochs r.
Proof. unfold inherit, with_work. destruct deleted as [|old t]; [reflexivity|]. destruct (r_reason old =? 1); reflexivity. Qed.
(* the work peer may be rotated, inside the peer list *)
Lemma inherit_work_lt r deleted : (r_work r < length (r_peers r))%nat -> (r_work (inherit r deleted) < length (r_peers r))%nat.
Proof.
  intros Hw. unfold inherit, with_work. destruct deleted as [|old t]; [exact Hw|]. destruct (r_reason old =? 1); [|exact Hw].
  apply Nat.mod_upper_bound. destruct (r_peers r); [inversion Hw|discriminate].
Qed.

Lemma insert_region_unfold c r :
  insert_region c r =
  if stale_by_latest c r then (false, c)
  else let '(l1, deleted, stale) := remove_intersecting r (c_sorted c) in
       if stale then (false, c)
       else let r1 := inherit r deleted in
            let acc := fold_left rm_step deleted (c_regions c, c_latest c) in
            (true, mkCache (ins_sorted r1 l1) (reg_set (r_verid r1) (r_start r1) (fst acc)) (lat_set (r_id r1) (r_ver r1, r_conf r1) (snd acc)) (c_sepochs c) (c_tomb c)).
Proof.
  unfold insert_region. destruct (stale_by_latest c r); [reflexivity|].
  destruct (remove_intersecting r (c_sorted c)) as [[l1 deleted] stale]. destruct stale; [reflexivity|].
  unfold rm_step.
  destruct (fold_left (fun acc d => remove_version (r_verid d) (fst acc) (snd acc)) deleted (c_regions c, c_latest c)) as [regs lat].
  reflexivity.
Qed.

Lemma insert_refused_unchanged c r c' : insert_region c r = (false, c') -> c' = c.
Proof.
  rewrite insert_region_unfold. destruct (stale_by_latest c r); [congruence|].
  destruct (remove_intersecting r (c_sorted c)) as [[l1 deleted] stale]. destruct stale; [congruence|discriminate].
Qed.

Lemma insert_refuses_older_same_id c r ov oc :
  lat_get (r_id r) (c_latest c) = Some (ov, oc) -> (r_ver r < ov \/ r_conf r < oc) -> insert_region c r = (false, c).
Proof.
  intros Hl Hlt. rewrite insert_region_unfold. unfold stale_by_latest. rewrite Hl.
  replace ((r_ver r <? ov) || (r_conf r <? oc)) with true; [reflexivity|].
  symmetry. apply orb_true_iff. rewrite !N.ltb_lt. exact Hlt.
Qed.

Definition starts_in (r x : region) : Prop := lex_leb (r_start r) (r_start x) = true /\ below (r_end r) (r_start x).

Lemma filter_sorted (f : region -> bool) l : sorted_starts l -> sorted_starts (filter f l).
Proof.
  induction 1 as [|y t Hst IH Hall]; cbn [filter]; [constructor|].
  destruct (f y); [|exact IH]. constructor; [exact IH|].
  rewrite Forall_forall in *. intros z Hz. apply filter_In in Hz. apply Hall. tauto.
Qed.

(* the scan over sorted entries that start at or above r: it reports "stale" at an entry that starts inside r's range and is
   newer than r; otherwise it cuts off the entries that start inside the range, none of them newer than r *)
Lemma scan_inter_spec r : forall l, sorted_starts l -> (forall x, In x l -> lex_leb (r_start r) (r_start x) = true) ->
  match scan_inter r l with
  | (d, false) => exists rest, l = d ++ rest /\ (forall x, In x d -> starts_in r x /\ r_ver x <= r_ver r) /\
                    (forall x, In x rest -> ~ starts_in r x)
  | (_, true) => exists x, In x l /\ starts_in r x /\ r_ver r < r_ver x
  end.
Proof.
  induction l as [|x t IH]; intros Hs Hge; cbn [scan_inter]; [exists []; split; [reflexivity|split; intros ? []]|].
  inversion Hs as [|? ? Hst Hall]; subst. rewrite Forall_forall in Hall.
  pose proof (past_end_cases (r_end r) (r_start x)) as Hend. destruct (negb (is_nil (r_end r)) && lex_leb (r_end r) (r_start x)).
  - (* x and everything after it starts at or after r's end *)
    destruct Hend as [Hne Hle]. exists (x :: t). split; [reflexivity|]. split; [intros ? []|]. intros y Hy [_ Hb].
    apply (below_absurd _ _ Hb Hne). destruct Hy as [<-|Hy]; [exact Hle|eapply leb_trans; [exact Hle|apply ltb_leb, Hall, Hy]].
  - assert (Hx : starts_in r x) by (split; [apply Hge; left; reflexivity|exact Hend]).
    destruct (r_ver r <? r_ver x) eqn:Ev; [exists x; split; [left; reflexivity|split; [exact Hx|apply N.ltb_lt; exact Ev]]|].
    apply N.ltb_ge in Ev. specialize (IH Hst (fun y Hy => Hge y (or_intror Hy))). destruct (scan_inter r t) as [d [|]].
    + destruct IH as [y [Hy H]]. exists y. split; [right; exact Hy|exact H].
    + destruct IH as [rest [-> [Hd Hrest]]]. exists rest. split; [reflexivity|]. split; [|exact Hrest].
      intros y [<-|Hy]; [split; assumption|apply Hd; exact Hy].
Qed.

Lemma lo_hi_in r l x : In x l <-> In x (lo_part r l) \/ In x (hi_part r l).
Proof.
  unfold lo_part, hi_part. rewrite !filter_In. destruct (lex_ltb (r_start x) (r_start r)); cbn [negb].
  - split; [intros H; left; split; [exact H|reflexivity]|intros [[H _]|[_ H]]; [exact H|discriminate H]].
  - split; [intros H; right; split; [exact H|reflexivity]|intros [[_ H]|[H _]]; [discriminate H|exact H]].
Qed.
Lemma hi_part_ge r l x : In x (hi_part r l) -> lex_leb (r_start r) (r_start x) = true.
Proof. intros H. apply filter_In in H. destruct H as [_ H]. apply negb_true_iff in H. apply ltb_false_leb. exact H. Qed.

(* removeIntersecting on a sorted index: refused because of a newer entry inside r's range, or the entries at or above r's
   start split into the deleted ones, which start inside the range, and the rest, which is kept with the entries below r *)
Lemma remove_intersecting_split r l : sorted_starts l ->
  match remove_intersecting r l with
  | (l1, d, false) => exists rest, hi_part r l = d ++ rest /\ l1 = lo_part r l ++ rest /\
                        (forall x, In x d -> starts_in r x /\ r_ver x <= r_ver r) /\ (forall x, In x rest -> ~ starts_in r x)
  | (_, _, true) => exists x, In x l /\ starts_in r x /\ r_ver r < r_ver x
  end.
Proof.
  intros Hs. unfold remove_intersecting.
  pose proof (scan_inter_spec r (hi_part r l) (filter_sorted _ _ Hs) (hi_part_ge r l)) as H.
  destruct (scan_inter r (hi_part r l)) as [d [|]].
  - destruct H as [x [Hx H]]. exists x. split; [apply (lo_hi_in r); right; exact Hx|exact H].
  - destruct H as [rest [H1 H2]]. exists rest. split; [exact H1|]. split; [|exact H2].
    rewrite H1, skipn_app, skipn_all, Nat.sub_diag. reflexivity.
Qed.

(* the entries an accepted insertion keeps are exactly those that do not start inside the new range *)
Lemma remove_intersecting_spec r l : sorted_starts l ->
  match remove_intersecting r l with
  | (l1, d, false) => (forall x, In x l1 <-> In x l /\ ~ starts_in r x) /\ (forall x, In x d <-> In x l /\ starts_in r x) /\
                      (forall x, In x d -> r_ver x <= r_ver r)
  | (_, _, true) => exists x, In x l /\ starts_in r x /\ r_ver r < r_ver x
  end.
Proof.
  intros Hs. pose proof (remove_intersecting_split r l Hs) as H. destruct (remove_intersecting r l) as [[l1 d] [|]]; [exact H|].
  destruct H as [rest [Hhi [-> [Hd Hrest]]]].
  assert (Hall : forall x, In x l <-> In x (lo_part r l) \/ In x d \/ In x rest).
  { intros x. rewrite (lo_hi_in r l x), Hhi. split; (intros [H|H]; [left; exact H|right]); [apply in_app_or|apply in_or_app]; exact H. }
  assert (Hlo : forall x, In x (lo_part r l) -> ~ starts_in r x).
  { intros x Hx [Hin _]. apply filter_In in Hx. destruct Hx as [_ Hx]. exact (leb_ltb_absurd _ _ Hin Hx). }
  split; [|split; [|intros x Hx; apply Hd; exact Hx]]; intros x; split.
  - intros Hx. apply in_app_or in Hx. destruct Hx as [Hx|Hx]; [split; [apply Hall; left; exact Hx|apply Hlo; exact Hx]|split; [apply Hall; right; right; exact Hx|apply Hrest; exact Hx]].
  - intros [Hx Hn]. apply in_or_app. apply Hall in Hx. destruct Hx as [Hx|[Hx|Hx]]; [left; exact Hx|destruct (Hn (proj1 (Hd x Hx)))|right; exact Hx].
  - intros Hx. split; [apply Hall; right; left; exact Hx|apply Hd; exact Hx].
  - intros [Hx Hs']. apply Hall in Hx. destruct Hx as [Hx|[Hx|Hx]]; [destruct (Hlo x Hx Hs')|exact Hx|destruct (Hrest x Hx Hs')].
Qed.

Lemma insert_refuses_older_than_inner c r x :
  sorted_starts (c_sorted c) -> In x (c_sorted c) ->
  lex_leb (r_start r) (r_start x) = true -> (r_end r = [] \/ lex_ltb (r_start x) (r_end r) = true) ->
  r_ver r < r_ver x -> insert_region c r = (false, c).
Proof.
  intros Hs Hin Hle Hend Hver. rewrite insert_region_unfold. destruct (stale_by_latest c r); [reflexivity|].
  pose proof (remove_intersecting_spec r _ Hs) as H. destruct (remove_intersecting r (c_sorted c)) as [[l1 d] [|]]; [reflexivity|].
  destruct H as [_ [Hd Hv]]. specialize (Hv x (proj2 (Hd x) (conj Hin (conj Hle Hend)))). lia.
Qed.

(* one insertion never lowers the latest version of an id that stays cached *)
Lemma insert_latest_mono c r ok c' id v cf v' cf' :
  insert_region c r = (ok, c') ->
  lat_get id (c_latest c) = Some (v, cf) -> lat_get id (c_latest c') = Some (v', cf') -> v <= v' /\ cf <= cf'.
Proof.
  intros Hi H1 H2. destruct ok; [|apply insert_refused_unchanged in Hi; subst c'; rewrite H1 in H2; injection H2 as <- <-; lia].
  rewrite insert_region_unfold in Hi. destruct (stale_by_latest c r) eqn:Est; [discriminate|].
  destruct (remove_intersecting r (c_sorted c)) as [[l1 deleted] stale]. destruct stale; [discriminate|].
  cbv zeta in Hi. injection Hi as <-. cbn [c_latest] in H2.
  destruct (inherit_same r deleted) as [Hid [_ [_ [Hv [Hc _]]]]]. rewrite Hid, Hv, Hc, lat_get_set in H2.
  destruct (id =? r_id r) eqn:E.
  - (* the id inserted: it was not older than what the cache held *)
    apply N.eqb_eq in E; subst id. injection H2 as <- <-. unfold stale_by_latest in Est. rewrite H1 in Est.
    apply orb_false_iff in Est. rewrite !N.ltb_ge in Est. exact Est.
  - apply fold_remove_latest in H2. cbn [snd] in H2. rewrite H1 in H2. injection H2 as <- <-. lia.
Qed.

(* over any sequence of insertions: while the id is never dropped from latestVersions, its version only grows *)
Fixpoint held (id : N) (c : cache) (rs : list region) : Prop :=
  lat_get id (c_latest c) <> None /\
  match rs with [] => True | r :: t => held id (snd (insert_new c r)) t end.

Lemma insert_all_latest_mono : forall rs c id v cf v' cf',
  held id c rs ->
  lat_get id (c_latest c) = Some (v, cf) -> lat_get id (c_latest (insert_all c rs)) = Some (v', cf') -> v <= v' /\ cf <= cf'.
Proof.
  induction rs as [|r t IH]; intros c id v cf v' cf' Hh H1 H2.
  - cbn in H2. rewrite H1 in H2. injection H2 as <- <-. lia.
  - cbn [insert_all fold_left] in H2. destruct Hh as [_ Hh]. cbn [held] in Hh.
    unfold insert_new in *. destruct (insert_region c (stamp (c_sepochs c) r)) as [ok c1] eqn:Ei. cbn [snd] in *.
    destruct (lat_get id (c_latest c1)) as [[v1 cf1]|] eqn:E1.
    + pose proof (insert_latest_mono _ _ _ _ _ _ _ _ _ Ei H1 E1) as [Ha Hb].
      destruct (IH c1 id v1 cf1 v' cf' Hh E1 H2) as [Hc Hd]. lia.
    + destruct t; cbn [held] in Hh; destruct Hh as [Hh _]; congruence.
Qed.

Lemma ins_sorted_in r l x : In x (ins_sorted r l) -> x = r \/ In x l.
Proof.
  induction l as [|y t IH]; cbn [ins_sorted]; [intros [<-|[]]; left; reflexivity|].
  destruct (lex_cmp (r_start r) (r_start y)).
  - intros [<-|H]; [left; reflexivity|right; right; exact H].
  - intros [<-|H]; [left; reflexivity|right; exact H].
  - intros [<-|H]; [right; left; reflexivity|]. destruct (IH H) as [->|H']; [left; reflexivity|right; right; exact H'].
Qed.
Lemma ins_sorted_sorted r l : sorted_starts l -> sorted_starts (ins_sorted r l).
Proof.
  induction 1 as [|y t Hst IH Hall]; cbn [ins_sorted]; [constructor; constructor|].
  destruct (lex_cmp (r_start r) (r_start y)) eqn:E.
  - apply lex_cmp_eq in E. constructor; [exact Hst|]. rewrite Forall_forall in *. intros z Hz. unfold start_lt. rewrite E. apply Hall; exact Hz.
  - constructor; [constructor; assumption|]. constructor; [apply ltb_cmp; exact E|].
    rewrite Forall_forall in *. intros z Hz. unfold start_lt. eapply ltb_trans; [apply ltb_cmp; exact E|apply Hall; exact Hz].
  - constructor; [exact IH|]. rewrite Forall_forall in *. intros z Hz. apply ins_sorted_in in Hz. destruct Hz as [->|Hz]; [|apply Hall; exact Hz].
    unfold start_lt. apply ltb_cmp. apply lex_cmp_gt_lt. exact E.
Qed.
Lemma remove_intersecting_sorted r l l1 deleted : sorted_starts l -> remove_intersecting r l = (l1, deleted, false) -> sorted_starts l1.
Proof.
  intros Hs E. pose proof (remove_intersecting_split r l Hs) as H. rewrite E in H. destruct H as [rest [Hhi [-> _]]].
  pose proof (filter_sorted (fun x => negb (lex_ltb (r_start x) (r_start r))) l Hs) as Hh. fold (hi_part r l) in Hh.
  apply StronglySorted_app. split; [apply filter_sorted; exact Hs|]. split; [rewrite Hhi in Hh; apply StronglySorted_app in Hh; apply Hh|].
  intros a b Ha Hb. apply filter_In in Ha. destruct Ha as [_ Ha]. unfold start_lt. eapply ltb_leb_trans; [exact Ha|].
  apply (hi_part_ge r l). rewrite Hhi. apply in_or_app. right; exact Hb.
Qed.
Lemma insert_region_sorted c r ok c' : sorted_starts (c_sorted c) -> insert_region c r = (ok, c') -> sorted_starts (c_sorted c').
Proof.
  intros Hs. rewrite insert_region_unfold. destruct (stale_by_latest c r); [intros H; injection H as _ <-; exact Hs|].
  destruct (remove_intersecting r (c_sorted c)) as [[l1 deleted] stale] eqn:Er. destruct stale; [intros H; injection H as _ <-; exact Hs|].
  cbv zeta. intros H; injection H as _ <-. cbn [c_sorted]. apply ins_sorted_sorted. eapply remove_intersecting_sorted; eassumption.
Qed.
Lemma insert_all_sorted : forall rs c, sorted_starts (c_sorted c) -> sorted_starts (c_sorted (insert_all c rs)).
Proof.
  induction rs as [|r t IH]; intros c Hs; [exact Hs|]. cbn [insert_all fold_left]. apply IH.
  unfold insert_new. destruct (insert_region c (stamp (c_sepochs c) r)) as [ok c1] eqn:E. cbn [snd]. eapply insert_region_sorted; eassumption.
Qed.

(* latestVersions is only dropped together with the entry that carries exactly that version: as long as that entry stays in
   the index, an insertion leaves the record in place or raises it *)
Lemma remove_version_keep v regs lat id x : v <> (id, fst x, snd x) ->
  lat_get id lat = Some x -> lat_get id (snd (remove_version v regs lat)) = Some x.
Proof.
  destruct v as [[i ver] conf]. destruct x as [xv xc]. cbn [fst snd remove_version]. intros Hne Hl.
  destruct (lat_get i lat) as [[ver' conf']|] eqn:Ei; [|exact Hl].
  destruct ((ver' =? ver) && (conf' =? conf)) eqn:E; [|exact Hl].
  rewrite lat_get_del. destruct (id =? i) eqn:Eid; [|exact Hl]. exfalso.
  apply N.eqb_eq in Eid. subst i. rewrite Hl in Ei. injection Ei as <- <-.
  apply andb_true_iff in E. rewrite !N.eqb_eq in E. destruct E as [-> ->]. apply Hne. reflexivity.
Qed.
Lemma fold_remove_keep id x : forall deleted acc,
  (forall d, In d deleted -> r_verid d <> (id, fst x, snd x)) ->
  lat_get id (snd acc) = Some x -> lat_get id (snd (fold_left rm_step deleted acc)) = Some x.
Proof.
  induction deleted as [|d t IH]; intros acc Hd Hl; [exact Hl|]. cbn [fold_left]. apply IH; [intros d' Hd'; apply Hd; right; exact Hd'|].
  unfold rm_step. apply remove_version_keep; [apply Hd; left; reflexivity|exact Hl].
Qed.

Lemma insert_latest_kept c r ok c' id v cf :
  sorted_starts (c_sorted c) ->
  (forall x y, In x (c_sorted c) -> In y (c_sorted c) -> r_verid x = r_verid y -> x = y) ->
  insert_region c r = (ok, c') ->
  lat_get id (c_latest c) = Some (v, cf) ->
  (exists e, In e (c_sorted c') /\ r_verid e = (id, v, cf)) ->
  exists v' cf', lat_get id (c_latest c') = Some (v', cf') /\ v <= v' /\ cf <= cf'.
Proof.
  intros Hs Hu Hi Hl [e [He Hv]].
  (* the record is still there; that it has not gone down is insert_latest_mono *)
  assert (Hex : exists x, lat_get id (c_latest c') = Some x).
  { destruct ok; [|apply insert_refused_unchanged in Hi; subst c'; exists (v, cf); exact Hl].
    rewrite insert_region_unfold in Hi. destruct (stale_by_latest c r); [discriminate|].
    pose proof (remove_intersecting_spec r _ Hs) as Hsp. destruct (remove_intersecting r (c_sorted c)) as [[l1 deleted] [|]]; [discriminate|].
    destruct Hsp as [H1 [H2 _]]. cbv zeta in Hi. injection Hi as <-. cbn [c_latest c_sorted] in *.
    destruct (inherit_same r deleted) as [I1 _]. rewrite lat_get_set, I1. destruct (id =? r_id r) eqn:Eid; [eexists; reflexivity|].
    exists (v, cf). apply (fold_remove_keep id (v, cf)); [|exact Hl]. cbn [fst snd].
    intros d Hd Hdv. apply H2 in Hd. destruct Hd as [Hdin Hdst].
    apply ins_sorted_in in He. destruct He as [->|He].
    + unfold r_verid in Hv. rewrite I1 in Hv. injection Hv as Hid _ _. rewrite Hid, N.eqb_refl in Eid. discriminate.
    + apply H1 in He. destruct He as [Hein Hen]. assert (e = d) by (apply Hu; [exact Hein|exact Hdin|congruence]). subst e. contradiction. }
  destruct Hex as [[v' cf'] Hl']. exists v', cf'. split; [exact Hl'|exact (insert_latest_mono _ _ _ _ _ _ _ _ _ Hi Hl Hl')].
Qed.
