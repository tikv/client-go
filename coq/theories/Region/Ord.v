(* Region/Ord.v — the lexicographic order on keys as a total order, in boolean form; the range predicates
   (empty end key = +inf) with the order facts about them; [spans], the shape of every "no key is missed" statement. *)
From Verif Require Import Base.Lex Region.Model.
Open Scope N_scope.

Definition kle (a b : bytes) : Prop := lex_leb a b = true.
Definition klt (a b : bytes) : Prop := lex_ltb a b = true.

Lemma leb_cmp a b : lex_leb a b = true <-> lex_cmp a b <> Gt.
Proof. unfold lex_leb; destruct (lex_cmp a b); split; congruence. Qed.
Lemma ltb_cmp a b : lex_ltb a b = true <-> lex_cmp a b = Lt.
Proof. unfold lex_ltb; destruct (lex_cmp a b); split; congruence. Qed.

Lemma lex_cmp_gt_lt a b : lex_cmp a b = Gt <-> lex_cmp b a = Lt.
Proof. rewrite (lex_cmp_antisym b a). destruct (lex_cmp b a); cbn; split; congruence. Qed.

(* the one fact that links the two tests; the case splits and contradictions below all come from it *)
Lemma leb_negb_ltb a b : lex_leb a b = negb (lex_ltb b a).
Proof. unfold lex_leb, lex_ltb. rewrite (lex_cmp_antisym a b). destruct (lex_cmp a b); reflexivity. Qed.
Lemma leb_false_ltb a b : lex_leb a b = false <-> lex_ltb b a = true.
Proof. rewrite leb_negb_ltb. apply negb_false_iff. Qed.
Lemma ltb_false_leb a b : lex_ltb a b = false <-> lex_leb b a = true.
Proof. rewrite leb_negb_ltb. symmetry. apply negb_true_iff. Qed.
Lemma leb_refl a : lex_leb a a = true.
Proof. unfold lex_leb; rewrite lex_cmp_refl; reflexivity. Qed.
Lemma ltb_irrefl a : lex_ltb a a = false.
Proof. unfold lex_ltb; rewrite lex_cmp_refl; reflexivity. Qed.
Lemma ltb_leb a b : lex_ltb a b = true -> lex_leb a b = true.
Proof. unfold lex_leb, lex_ltb; destruct (lex_cmp a b); congruence. Qed.
Lemma leb_nil_l a : lex_leb [] a = true.
Proof. destruct a; reflexivity. Qed.
Lemma ltb_nil_r a : lex_ltb a [] = false.
Proof. destruct a; reflexivity. Qed.
Lemma leb_nil_r a : lex_leb a [] = true -> a = [].
Proof. destruct a; [reflexivity|cbn; discriminate]. Qed.
Lemma ltb_nil_l a : a <> [] -> lex_ltb [] a = true.
Proof. destruct a; [congruence|reflexivity]. Qed.

Lemma leb_antisym a b : lex_leb a b = true -> lex_leb b a = true -> a = b.
Proof.
  unfold lex_leb. rewrite (lex_cmp_antisym a b). destruct (lex_cmp a b) eqn:E; cbn; try discriminate.
  intros _ _. apply lex_cmp_eq; exact E.
Qed.
Lemma leb_ltb_or_eq a b : lex_leb a b = true -> lex_ltb a b = true \/ a = b.
Proof.
  unfold lex_leb, lex_ltb. destruct (lex_cmp a b) eqn:E; try discriminate; intros _; [right; apply lex_cmp_eq; exact E|left; reflexivity].
Qed.

Lemma ltb_trans a b c : lex_ltb a b = true -> lex_ltb b c = true -> lex_ltb a c = true.
Proof. rewrite !ltb_cmp. apply lex_cmp_lt_trans. Qed.
Lemma leb_ltb_trans a b c : lex_leb a b = true -> lex_ltb b c = true -> lex_ltb a c = true.
Proof.
  intros H1 H2. destruct (leb_ltb_or_eq _ _ H1) as [H | ->]; [eapply ltb_trans; eassumption|exact H2].
Qed.
Lemma ltb_leb_trans a b c : lex_ltb a b = true -> lex_leb b c = true -> lex_ltb a c = true.
Proof.
  intros H1 H2. destruct (leb_ltb_or_eq _ _ H2) as [H | <-]; [eapply ltb_trans; eassumption|exact H1].
Qed.
Lemma leb_trans a b c : lex_leb a b = true -> lex_leb b c = true -> lex_leb a c = true.
Proof.
  intros H1 H2. destruct (leb_ltb_or_eq _ _ H1) as [H | ->]; [|exact H2].
  apply ltb_leb. eapply ltb_leb_trans; eassumption.
Qed.
Lemma leb_total a b : lex_leb a b = true \/ lex_ltb b a = true.
Proof. rewrite leb_negb_ltb. destruct (lex_ltb b a); [right|left]; reflexivity. Qed.
Lemma ltb_not_leb a b : lex_ltb a b = true -> lex_leb b a = false.
Proof. apply leb_false_ltb. Qed.
Lemma leb_not_ltb a b : lex_leb a b = true -> lex_ltb b a = false.
Proof. apply ltb_false_leb. Qed.
Lemma leb_ltb_absurd a b : lex_leb a b = true -> lex_ltb b a = true -> False.
Proof. rewrite leb_negb_ltb. intros H1 H2. rewrite H2 in H1. discriminate. Qed.

Lemma bytes_eqb_refl a : bytes_eqb a a = true.
Proof. apply bytes_eqb_eq; reflexivity. Qed.
Lemma bytes_eqb_neq a b : bytes_eqb a b = false <-> a <> b.
Proof. rewrite <- bytes_eqb_eq. destruct (bytes_eqb a b); split; congruence. Qed.

Lemma is_nil_true {A} (l : list A) : is_nil l = true <-> l = [].
Proof. destruct l; cbn; split; congruence. Qed.
Lemma is_nil_false {A} (l : list A) : is_nil l = false <-> l <> [].
Proof. destruct l; cbn; split; congruence. Qed.

Definition in_range (s e k : bytes) : Prop := kle s k /\ (e = [] \/ klt k e).
Definition in_range_end (s e k : bytes) : Prop :=
  (k = [] /\ e = []) \/ (k <> [] /\ klt s k /\ (e = [] \/ kle k e)).

(* the keys an end key bounds (the empty end key bounds them all), and the keys before a proper key *)
Definition below (e k : bytes) : Prop := e = [] \/ lex_ltb k e = true.
Definition before (m k : bytes) : Prop := lex_ltb k m = true.

Lemma below_leb e k k' : lex_leb k' k = true -> below e k -> below e k'.
Proof. intros H [He|He]; [left; exact He|right; eapply leb_ltb_trans; eassumption]. Qed.
Lemma below_absurd e k : below e k -> e <> [] -> lex_leb e k = true -> False.
Proof. intros [He|He] Hne Hle; [exact (Hne He)|exact (leb_ltb_absurd _ _ Hle He)]. Qed.

Lemma below_or e k : below e k \/ (e <> [] /\ lex_leb e k = true).
Proof.
  destruct e as [|x e]; [left; left; reflexivity|].
  destruct (leb_total (x :: e) k) as [H|H]; [right; split; [discriminate|exact H]|left; right; exact H].
Qed.

(* the test with which the code stops at the end of a range: "e is a proper key at or below k" fails exactly on the keys e bounds *)
Lemma past_end_cases e k : if negb (is_nil e) && lex_leb e k then e <> [] /\ lex_leb e k = true else below e k.
Proof.
  destruct e as [|x e]; [left; reflexivity|]. cbn [is_nil negb andb]. destruct (lex_leb (x :: e) k) eqn:E; [split; [discriminate|reflexivity]|].
  right. apply leb_false_ltb. exact E.
Qed.

(* C holds of every key from s on that U admits; U is [before m] (up to the key m) or [below e] (up to the end key e) *)
Definition spans (C : bytes -> Prop) (s : bytes) (U : bytes -> Prop) : Prop := forall k, lex_leb s k = true -> U k -> C k.

Lemma spans_impl (C C' : bytes -> Prop) s U : (forall k, C k -> C' k) -> spans C s U -> spans C' s U.
Proof. intros H Hc k H1 H2. apply H, Hc; assumption. Qed.
Lemma spans_from C s s' U : lex_leb s s' = true -> spans C s U -> spans C s' U.
Proof. intros H Hc k H1 H2. apply Hc; [eapply leb_trans; eassumption|exact H2]. Qed.
Lemma spans_nil C s : spans C s (before s).
Proof. intros k H1 H2. destruct (leb_ltb_absurd _ _ H1 H2). Qed.
Lemma spans_glue C s m U : spans C s (before m) -> spans C m U -> spans C s U.
Proof. intros Ha Hb k H1 H2. destruct (leb_total m k) as [H|H]; [apply Hb|apply Ha]; assumption. Qed.
Lemma spans_before C s m : spans C s (below m) -> spans C s (before m).
Proof. intros H k H1 H2. apply H; [exact H1|right; exact H2]. Qed.

Lemma contains_spec s e k : contains s e k = true <-> in_range s e k.
Proof.
  unfold contains, in_range, kle, klt. rewrite andb_true_iff, orb_true_iff, is_nil_true. tauto.
Qed.
Lemma r_contains_spec r k : r_contains r k = true <-> in_range (r_start r) (r_end r) k.
Proof. apply contains_spec. Qed.
Lemma contains_by_end_spec s e k : contains_by_end s e k = true <-> in_range_end s e k.
Proof.
  unfold contains_by_end, in_range_end, kle, klt. destruct k as [|x k]; cbn [is_nil].
  - rewrite is_nil_true. split; [intros ->; left; split; reflexivity|intros [[_ H]|[H _]]; congruence].
  - rewrite andb_true_iff, orb_true_iff, is_nil_true. split.
    + intros [H1 H2]; right; split; [discriminate|]. split; [exact H1|tauto].
    + intros [[H _]|[_ [H1 H2]]]; [discriminate|]. split; [exact H1|tauto].
Qed.

(* a range that holds s but does not hold e by end, where s lies below e: its end is a proper key above s and below e *)
Lemma contains_not_end s0 e0 s e : below e s -> contains s0 e0 s = true -> contains_by_end s0 e0 e = false ->
  e0 <> [] /\ lex_ltb s e0 = true /\ below e e0.
Proof.
  intros He Hc Hn. apply contains_spec in Hc. destruct Hc as [H1 H2]. unfold contains_by_end in Hn.
  destruct e as [|x e']; cbn [is_nil] in Hn.
  - apply is_nil_false in Hn. destruct H2 as [H2|H2]; [congruence|]. split; [exact Hn|]. split; [exact H2|left; reflexivity].
  - destruct He as [He|He]; [discriminate|]. rewrite (leb_ltb_trans _ _ _ H1 He) in Hn. apply orb_false_iff in Hn.
    destruct Hn as [Hn1 Hn2]. apply is_nil_false in Hn2. apply leb_false_ltb in Hn1.
    destruct H2 as [H2|H2]; [congruence|]. split; [exact Hn2|]. split; [exact H2|right; exact Hn1].
Qed.
(* a range that holds e by end: what e bounds, the end of the range bounds *)
Lemma contains_by_end_below s0 e0 e k : contains_by_end s0 e0 e = true -> below e k -> below e0 k.
Proof.
  intros Hc He. apply contains_by_end_spec in Hc. destruct Hc as [[_ Hc]|[Hne [_ [Hc|Hc]]]]; [left; exact Hc|left; exact Hc|].
  destruct He as [He|He]; [congruence|]. right. eapply ltb_leb_trans; eassumption.
Qed.
(* a range whose end is a proper key at or below ck holds only keys before ck *)
Lemma finished_before s e ck k : e <> [] -> lex_leb e ck = true -> in_range s e k -> before ck k.
Proof. intros Hne Hle [_ [He|He]]; [congruence|]. eapply ltb_leb_trans; eassumption. Qed.

Lemma verid_eqb_eq (a b : verid) : verid_eqb a b = true <-> a = b.
Proof.
  destruct a as [[i v] c], b as [[i' v'] c']; cbn [verid_eqb].
  rewrite !andb_true_iff, !N.eqb_eq. split; [intros [[-> ->] ->]; reflexivity|intros H; injection H; auto].
Qed.
Lemma verid_eqb_refl a : verid_eqb a a = true.
Proof. apply verid_eqb_eq; reflexivity. Qed.
Lemma peer_eqb_eq (a b : peer) : peer_eqb a b = true <-> a = b.
Proof.
  destruct a, b; unfold peer_eqb; cbn [fst snd]. rewrite andb_true_iff, !N.eqb_eq.
  split; [intros [-> ->]; reflexivity|intros H; injection H; auto].
Qed.
