(* Region/ProofsGap.v — regionsHaveGapInRanges is sound and rangesAfterKey keeps everything at or above the
   split key: if a PD batch passes the gap check for sorted disjoint ranges, every key of every range is in a
   returned region, or lies at or above the end of the last returned region (the part that is asked again). *)
From Verif Require Import Base.Lex Region.Model Region.Ord.
Open Scope N_scope.

Definition d_contains (d : desc) (k : bytes) : bool := contains (d_start d) (d_end d) k.
Definition dcovered (infos : list desc) (k : bytes) : Prop := exists d, In d infos /\ d_contains d k = true.

(* sorted, pairwise disjoint, non-empty ranges; only the last one may be unbounded *)
Fixpoint ranges_wf (rs : list range) : Prop :=
  match rs with
  | [] => True
  | (s, e) :: t =>
      (e = [] \/ lex_ltb s e = true) /\
      match t with
      | [] => True
      | (s', _) :: _ => e <> [] /\ lex_leb e s' = true
      end /\ ranges_wf t
  end.

Lemma ranges_wf_tail r t : ranges_wf (r :: t) -> ranges_wf t.
Proof. destruct r as [s e]. cbn [ranges_wf]. tauto. Qed.

(* in a wf list every later range starts at or after the end of the head *)
Lemma ranges_wf_later s e t : ranges_wf ((s, e) :: t) -> forall s' e', In (s', e') t -> e <> [] /\ lex_leb e s' = true.
Proof.
  revert s e. induction t as [|[s1 e1] t IH]; intros s e Hwf s' e' Hin; [destruct Hin|].
  cbn [ranges_wf] in Hwf. destruct Hwf as [_ [[Hne Hle] Hwf']].
  destruct Hin as [Hin|Hin]; [injection Hin as <- <-; split; assumption|].
  destruct (IH s1 e1 Hwf' s' e' Hin) as [Hne1 Hle1]. split; [exact Hne|].
  cbn [ranges_wf] in Hwf'. destruct Hwf' as [[He1|He1] _]; [congruence|].
  eapply leb_trans; [exact Hle|]. eapply leb_trans; [apply ltb_leb; exact He1|exact Hle1].
Qed.

(* ... and at or after the start of the head *)
Lemma ranges_wf_starts s e t : ranges_wf ((s, e) :: t) -> forall s' e', In (s', e') ((s, e) :: t) -> lex_leb s s' = true.
Proof.
  intros Hwf s' e' [Hin|Hin]; [injection Hin as <- _; apply leb_refl|].
  destruct (ranges_wf_later s e t Hwf s' e' Hin) as [Hne Hle]. destruct Hwf as [[He|He] _]; [congruence|].
  apply ltb_leb. eapply ltb_leb_trans; eassumption.
Qed.

Definition in_ranges (rs : list range) (k : bytes) : Prop := exists s e, In (s, e) rs /\ in_range s e k.

(* ---- rangesAfterKey's drop_covered and the gap check's gap_adv drop the same ranges: those that end at or below the
   key; the first range they keep does not ---- *)
Lemma drop_covered_spec split : forall rs, exists done : list range,
  rs = done ++ drop_covered rs split /\ (forall s1 e1, In (s1, e1) done -> e1 <> [] /\ lex_leb e1 split = true) /\
  (forall s e t, drop_covered rs split = (s, e) :: t -> below e split).
Proof.
  induction rs as [|[s0 e0] t IH]; cbn [drop_covered]; [exists []; split; [reflexivity|split; [intros ? ? []|discriminate]]|].
  destruct (is_nil e0 || lex_ltb split e0) eqn:E.
  - exists []. split; [reflexivity|]. split; [intros ? ? []|]. intros s e t' H. injection H as _ <- _.
    apply orb_true_iff in E. destruct E as [E|E]; [left; apply is_nil_true; exact E|right; exact E].
  - apply orb_false_iff in E. destruct E as [E1 E2]. apply is_nil_false in E1. apply ltb_false_leb in E2.
    destruct IH as [done [H1 [H2 H3]]]. exists ((s0, e0) :: done). split; [cbn [app]; rewrite <- H1; reflexivity|]. split; [|exact H3].
    intros s1 e1 [Hin|Hin]; [injection Hin as <- <-; split; assumption|exact (H2 s1 e1 Hin)].
Qed.
Lemma gap_adv_drop : forall rs ck, gap_adv rs ck = match drop_covered rs ck with [] => None | l => Some l end.
Proof.
  induction rs as [|[s e] t IH]; intros ck; cbn [gap_adv drop_covered]; [reflexivity|].
  rewrite leb_negb_ltb, <- negb_orb. destruct (is_nil e || lex_ltb ck e); cbn [negb]; [reflexivity|].
  rewrite <- IH. destruct t; reflexivity.
Qed.

(* state: the ranges not yet finished [cur] (a suffix of all), the check key, the regions seen so far: they cover the
   finished ranges and the head of [cur] up to the check key, which is at or after the end of the last region seen *)
Definition ginv (all cur : list range) (ck : bytes) (seen : list desc) : Prop :=
  exists done s e t, all = done ++ cur /\ cur = (s, e) :: t /\
    (forall k, in_ranges done k -> dcovered seen k) /\
    lex_leb s ck = true /\ below e ck /\ spans (dcovered seen) s (before ck) /\
    (seen <> [] -> forall d0, d_end (last seen d0) <> [] /\ lex_leb (d_end (last seen d0)) ck = true).

(* the verdict "no gap" in one formula; regions_have_gap_sound states it with the default element of [last] quantified *)
Definition gap_post (all : list range) (infos : list desc) : Prop :=
  forall k, in_ranges all k -> dcovered infos k \/ (exists d, last infos d = d /\ infos <> [] /\ d_end (last infos d) <> [] /\ lex_leb (d_end (last infos d)) k = true).

Lemma dcovered_mono a b k : (forall d, In d a -> In d b) -> dcovered a k -> dcovered b k.
Proof. intros H [d [Hin Hc]]. exists d. split; [apply H; exact Hin|exact Hc]. Qed.

Lemma in_ranges_app a b k : in_ranges (a ++ b) k <-> in_ranges a k \/ in_ranges b k.
Proof.
  unfold in_ranges. split.
  - intros [s [e [Hin Hr]]]. apply in_app_or in Hin. destruct Hin as [Hin|Hin]; [left|right]; exists s, e; split; assumption.
  - intros [[s [e [Hin Hr]]]|[s [e [Hin Hr]]]]; exists s, e; (split; [apply in_or_app|exact Hr]); [left|right]; exact Hin.
Qed.

Lemma wf_suffix : forall done cur, ranges_wf (done ++ cur) -> ranges_wf cur.
Proof. induction done as [|r t IH]; intros cur H; [exact H|]. apply IH. eapply ranges_wf_tail. exact H. Qed.

Lemma last_cons_ne {A} (a : A) l d0 : l <> [] -> last (a :: l) d0 = last l d0.
Proof. destruct l; [congruence|reflexivity]. Qed.

Lemma dcovered_app_l a b k : dcovered a k -> dcovered (a ++ b) k.
Proof. apply dcovered_mono. intros x Hx. apply in_or_app. left; exact Hx. Qed.

(* one region [d] of the answer that starts at or below the check key: with it either all ranges are covered (the loop
   stops with the verdict "no gap"), or the invariant holds again for the ranges gap_adv keeps and the new check key *)
Lemma gap_step all : ranges_wf all -> forall d cur ck seen,
  ginv all cur ck seen -> lex_ltb ck (d_start d) = false ->
  if is_nil (d_end d) then forall k, in_ranges all k -> dcovered (seen ++ [d]) k
  else match gap_adv cur (d_end d) with
       | None => forall k, in_ranges all k -> dcovered (seen ++ [d]) k
       | Some cur' =>
           let ck' := match cur' with (s, _) :: _ => if lex_ltb (d_end d) s then s else d_end d | [] => d_end d end in
           ginv all cur' ck' (seen ++ [d])
       end.
Proof.
  intros Hwf d cur ck seen [done [s [e [t [Hall [Hcur [Hdone [Hsck [Hopen [Hbelow Hne]]]]]]]]]] Egap. apply ltb_false_leb in Egap.
  assert (Hwfcur : ranges_wf ((s, e) :: t)) by (rewrite <- Hcur; apply (wf_suffix done); rewrite <- Hall; exact Hwf).
  (* with d, every unfinished range is covered from its start to the end of d *)
  assert (Hcur1 : forall s1 e1, In (s1, e1) cur -> spans (dcovered (seen ++ [d])) s1 (below (d_end d))).
  { intros s1 e1 Hin. rewrite Hcur in Hin. apply (spans_from _ s); [exact (ranges_wf_starts _ _ _ Hwfcur _ _ Hin)|].
    apply (spans_glue _ _ ck); [exact (spans_impl _ _ _ _ (dcovered_app_l seen [d]) Hbelow)|].
    intros k H1 H2. exists d. split; [apply in_elt|]. apply contains_spec. split; [eapply leb_trans; eassumption|exact H2]. }
  (* hence all ranges are covered when the keys of the unfinished ones are bounded by the end of d *)
  assert (Hall1 : (forall s1 e1 k, In (s1, e1) cur -> in_range s1 e1 k -> below (d_end d) k) ->
            forall k, in_ranges all k -> dcovered (seen ++ [d]) k).
  { intros Hb k Hk. rewrite Hall in Hk. apply in_ranges_app in Hk. destruct Hk as [Hk|[s1 [e1 [Hin Hr]]]]; [apply dcovered_app_l, Hdone; exact Hk|].
    apply (Hcur1 s1 e1 Hin); [apply Hr|exact (Hb s1 e1 k Hin Hr)]. }
  destruct (is_nil (d_end d)) eqn:Een.
  { apply is_nil_true in Een. apply Hall1. intros s1 e1 k _ _. left; exact Een. }
  apply is_nil_false in Een.
  rewrite gap_adv_drop. destruct (drop_covered_spec (d_end d) cur) as [done2 [Hsplit [Hdone2 Hopen2]]].
  destruct (drop_covered cur (d_end d)) as [|[s2 e2] t2].
  { rewrite app_nil_r in Hsplit. apply Hall1. intros s1 e1 k Hin Hr. rewrite Hsplit in Hin. destruct (Hdone2 s1 e1 Hin) as [Hne1 Hle1].
    right. exact (finished_before _ _ _ _ Hne1 Hle1 Hr). }
  specialize (Hopen2 s2 e2 t2 eq_refl).
  assert (Hwf2 : below e2 s2).
  { pose proof Hwfcur as H. rewrite <- Hcur, Hsplit in H. apply wf_suffix in H. apply H. }
  cbv beta iota zeta.
  exists (done ++ done2), s2, e2, t2. split; [rewrite <- app_assoc, <- Hsplit; exact Hall|]. split; [reflexivity|]. split; [|split; [|split; [|split]]].
  - intros k Hk. apply in_ranges_app in Hk. destruct Hk as [Hk|[s1 [e1 [Hin Hr]]]]; [apply dcovered_app_l, Hdone; exact Hk|].
    destruct (Hdone2 s1 e1 Hin) as [Hne1 Hle1].
    apply (Hcur1 s1 e1); [rewrite Hsplit; apply in_or_app; left; exact Hin|apply Hr|right; exact (finished_before _ _ _ _ Hne1 Hle1 Hr)].
  - destruct (lex_ltb (d_end d) s2) eqn:E; [apply leb_refl|apply ltb_false_leb; exact E].
  - destruct (lex_ltb (d_end d) s2); [exact Hwf2|exact Hopen2].
  - destruct (lex_ltb (d_end d) s2); [apply spans_nil|]. apply spans_before, (Hcur1 s2 e2).
    rewrite Hsplit. apply in_elt.
  - intros _ d0. rewrite last_last. split; [exact Een|]. destruct (lex_ltb (d_end d) s2) eqn:E; [apply ltb_leb; exact E|apply leb_refl].
Qed.

Lemma gap_loop_sound all : ranges_wf all -> forall infos cur ck seen,
  ginv all cur ck seen ->
  match gap_loop infos cur ck with
  | GDone true => True
  | GDone false => forall k, in_ranges all k -> dcovered (seen ++ infos) k
  | GCont cur' ck' => ginv all cur' ck' (seen ++ infos)
  end.
Proof.
  intros Hwf. induction infos as [|d infos IH]; intros cur ck seen Hinv; cbn [gap_loop]; [rewrite app_nil_r; exact Hinv|].
  destruct (lex_ltb ck (d_start d)) eqn:Egap; [exact I|]. pose proof (gap_step all Hwf d cur ck seen Hinv Egap) as Hst.
  change (d :: infos) with ([d] ++ infos). rewrite app_assoc.
  destruct (is_nil (d_end d)); [intros k Hk; apply dcovered_app_l, Hst; exact Hk|].
  destruct (gap_adv cur (d_end d)) as [cur'|]; [|intros k Hk; apply dcovered_app_l, Hst; exact Hk].
  apply IH. exact Hst.
Qed.

Lemma regions_have_gap_sound rs infos limit :
  ranges_wf rs -> regions_have_gap rs infos limit = false ->
  forall k, in_ranges rs k ->
    dcovered infos k \/ (infos <> [] /\ forall d0, d_end (last infos d0) <> [] /\ lex_leb (d_end (last infos d0)) k = true).
Proof.
  intros Hwf. unfold regions_have_gap. destruct rs as [|[s0 e0] t] eqn:Ers; [intros _ k [s [e [[] _]]]|]. rewrite <- Ers in *.
  destruct (is_nil infos) eqn:Eni; [discriminate|]. apply is_nil_false in Eni.
  assert (H0 : ginv rs rs s0 []).
  { exists [], s0, e0, t. split; [reflexivity|]. split; [exact Ers|]. split; [intros k [s [e [[] _]]]|].
    split; [apply leb_refl|]. split; [rewrite Ers in Hwf; apply Hwf|]. split; [apply spans_nil|congruence]. }
  pose proof (gap_loop_sound rs Hwf infos rs s0 [] H0) as H. cbn [app] in H.
  destruct (gap_loop infos rs s0) as [b|cur ck].
  - intros ->. intros k Hk. left. apply H; exact Hk.
  - destruct H as [done [s [e [t2 [Hall [Hcur [Hdone [Hsck [Hopen [Hbelow Hlast]]]]]]]]]]. specialize (Hlast Eni).
    assert (Hwfcur : ranges_wf ((s, e) :: t2)) by (rewrite <- Hcur; apply (wf_suffix done); rewrite <- Hall; exact Hwf).
    (* a key of a range is covered when it lies before the check key, else it lies at or after the end of the last region *)
    assert (Hres : forall k, in_ranges rs k ->
              dcovered infos k \/ (infos <> [] /\ forall d0, d_end (last infos d0) <> [] /\ lex_leb (d_end (last infos d0)) k = true)).
    { intros k Hk. rewrite Hall in Hk. apply in_ranges_app in Hk. destruct Hk as [Hk|[s1 [e1 [Hin [Hr _]]]]]; [left; apply Hdone; exact Hk|].
      rewrite Hcur in Hin. destruct (leb_total ck k) as [Hck|Hck].
      - right. split; [exact Eni|]. intros d0. destruct (Hlast d0) as [H1 H2]. split; [exact H1|eapply leb_trans; eassumption].
      - left. apply Hbelow; [|exact Hck]. eapply leb_trans; [exact (ranges_wf_starts _ _ _ Hwfcur _ _ Hin)|exact Hr]. }
    destruct (Nat.ltb 0 limit && Nat.eqb (length infos) limit); [intros _; exact Hres|].
    (* otherwise the verdict "no gap" needs the check key to have reached the end of the last range: it has not *)
    rewrite Hcur. destruct t2 as [|r2 t3]; [|discriminate].
    destruct (is_nil ck) eqn:Eck.
    { apply is_nil_true in Eck. subst ck. destruct infos as [|d0 i']; [congruence|]. destruct (Hlast d0) as [A B]. apply leb_nil_r in B. congruence. }
    destruct (is_nil e) eqn:Ee; [discriminate|]. apply is_nil_false in Ee. intros Hlt.
    destruct Hopen as [Ho|Ho]; congruence.
Qed.

Lemma drop_covered_keeps split rs k : in_ranges rs k -> lex_leb split k = true -> in_ranges (drop_covered rs split) k.
Proof.
  intros Hk Hs. destruct (drop_covered_spec split rs) as [done [H1 [H2 _]]]. rewrite H1 in Hk. apply in_ranges_app in Hk.
  destruct Hk as [[s1 [e1 [Hin Hr]]]|Hk]; [|exact Hk]. destruct (H2 s1 e1 Hin) as [Hne Hle].
  destruct (leb_ltb_absurd _ _ Hs (finished_before _ _ _ _ Hne Hle Hr)).
Qed.
(* in a wf list the end of the last range bounds the end of every range *)
Lemma last_end_bound : forall rs s e, ranges_wf rs -> In (s, e) rs ->
  snd (last rs ([], [])) = [] \/ (e <> [] /\ lex_leb e (snd (last rs ([], []))) = true).
Proof.
  induction rs as [|[s0 e0] [|r2 t2] IH]; intros s e Hwf Hin; [destruct Hin| |].
  - destruct Hin as [Hin|[]]. injection Hin as <- <-. cbn [last snd].
    destruct e0; [left; reflexivity|right; split; [discriminate|apply leb_refl]].
  - rewrite last_cons_ne by discriminate.
    destruct Hin as [Hin|Hin]; [|apply (IH s e); [eapply ranges_wf_tail; exact Hwf|exact Hin]].
    injection Hin as <- <-. destruct r2 as [s2 e2]. destruct Hwf as [_ [[Hne Hle] Hwf2]].
    destruct (IH s2 e2 Hwf2 (or_introl eq_refl)) as [H|[Hne2 H]]; [left; exact H|right]. split; [exact Hne|].
    destruct Hwf2 as [[Hw|Hw] _]; [congruence|]. eapply leb_trans; [exact Hle|]. eapply leb_trans; [apply ltb_leb; exact Hw|exact H].
Qed.
Lemma ranges_after_key_keeps rs split : ranges_wf rs -> split <> [] ->
  forall k, in_ranges rs k -> lex_leb split k = true -> in_ranges (ranges_after_key rs split) k.
Proof.
  intros Hwf Hsp k Hk Hs. unfold ranges_after_key. destruct rs as [|r0 t] eqn:Ers; [exact Hk|]. rewrite <- Ers in *.
  apply is_nil_false in Hsp. rewrite Hsp. cbn [orb].
  pose proof (past_end_cases (snd (last rs ([], []))) split) as Hfast.
  destruct (negb (is_nil (snd (last rs ([], [])))) && lex_leb (snd (last rs ([], []))) split).
  - (* the split key is at or above the end of every range: then no range holds a key at or above it *)
    destruct Hfast as [E1 E2].
    destruct Hk as [s [e [Hin [_ Hr]]]]. destruct (last_end_bound rs s e Hwf Hin) as [H|[He H]]; [congruence|].
    destruct Hr as [Hr|Hr]; [congruence|]. destruct (leb_ltb_absurd _ _ (leb_trans _ _ _ (leb_trans _ _ _ H E2) Hs) Hr).
  - pose proof (drop_covered_keeps split rs k Hk Hs) as Hd. destruct (drop_covered rs split) as [|[s e] t2]; [exact Hd|].
    destruct Hd as [s1 [e1 [[Hin|Hin] Hr]]]; [|exists s1, e1; split; [right; exact Hin|exact Hr]].
    injection Hin as <- <-. exists (if lex_ltb s split then split else s), e. split; [left; reflexivity|].
    destruct Hr as [Hr1 Hr2]. split; [|exact Hr2]. unfold kle. destruct (lex_ltb s split); assumption.
Qed.

Lemma ranges_after_key_wf rs split : ranges_wf rs -> ranges_wf (ranges_after_key rs split).
Proof.
  intros Hwf. unfold ranges_after_key. destruct rs as [|r0 t] eqn:Ers; [exact I|]. rewrite <- Ers in *.
  destruct (is_nil split || negb (is_nil (snd (last rs ([], [])))) && lex_leb (snd (last rs ([], []))) split); [exact I|].
  destruct (drop_covered_spec split rs) as [done [Hd [_ Hopen]]]. pose proof (wf_suffix done _ ltac:(rewrite <- Hd; exact Hwf)) as Hw.
  destruct (drop_covered rs split) as [|[s e] t2]; [exact I|]. specialize (Hopen s e t2 eq_refl).
  cbn [ranges_wf] in *. destruct Hw as [Hw1 [Hw2 Hw3]]. split; [|split; assumption].
  destruct (lex_ltb s split); [exact Hopen|exact Hw1].
Qed.
