(* Region/PdCodec.v — pd_codec.go in txn mode: region keys travel memcomparable-encoded (util/codec EncodeBytes,
   the model of property C19); requests are encoded, region boundaries of answers decoded (an empty boundary stays
   empty). [codec_pd raw] is the PD oracle the cache sees when [raw] is the PD behind CodecPDClient. *)
From Verif Require Import Base.Lex Codec.Model Codec.ProofsBytes Region.Model Region.Ord Region.ProofsContains.
Open Scope N_scope.

Definition enc_range (r : range) : range := (encode_bytes (fst r), if is_nil (snd r) then [] else encode_bytes (snd r)).
Definition dec_key (b : bytes) : option bytes :=
  if is_nil b then Some [] else match decode_bytes b with Some (_, x) => Some x | None => None end.
Fixpoint dec_keys (l : list bytes) : option (list bytes) :=
  match l with
  | [] => Some []
  | k :: t => match dec_key k, dec_keys t with Some k', Some t' => Some (k' :: t') | _, _ => None end
  end.
Definition dec_bk (b : option (N * list bytes)) : option (option (N * list bytes)) :=
  match b with
  | None => Some None
  | Some (v, ks) => match dec_keys ks with Some ks' => Some (Some (v, ks')) | None => None end
  end.
Definition dec_desc (d : desc) : option desc :=
  match dec_key (d_start d), dec_key (d_end d), dec_bk (d_bk d) with
  | Some s, Some e, Some b => Some (mkDesc (d_id d) s e (d_ver d) (d_conf d) (d_peers d) (d_leader d) b)
  | _, _, _ => None
  end.
Fixpoint dec_descs (l : list desc) : option (list desc) :=
  match l with
  | [] => Some []
  | d :: t => match dec_desc d, dec_descs t with Some d', Some t' => Some (d' :: t') | _, _ => None end
  end.
Definition enc_req (q : pd_req) : pd_req :=
  match q with
  | ReqGet k => ReqGet (encode_bytes k)
  | ReqPrev k => ReqPrev (encode_bytes k)
  | ReqById id => ReqById id
  | ReqScan s e l => ReqScan (fst (enc_range (s, e))) (snd (enc_range (s, e))) l
  | ReqBatch rs l => ReqBatch (map enc_range rs) l
  end.
(* a boundary that does not decode makes the call fail: rendered as an answer of the wrong shape (the model's Err 4) *)
Definition codec_pd (raw : nat -> pd_req -> pd_ans) (t : nat) (q : pd_req) : pd_ans :=
  match raw t (enc_req q) with
  | PdOne None => PdOne None
  | PdOne (Some d) => match dec_desc d with Some d' => PdOne (Some d') | None => PdMany [] end
  | PdMany l => match dec_descs l with Some l' => PdMany l' | None => PdOne None end
  end.

(* PD's region boundaries are encoded keys (or empty) *)
Definition enc_bound (b : bytes) : Prop := b = [] \/ exists x, b = encode_bytes x.
(* an end boundary is never the encoding of the empty key (decoded it would read as +inf) *)
Definition enc_bound_end (b : bytes) : Prop := b = [] \/ exists x, x <> [] /\ b = encode_bytes x.

Lemma dec_key_enc x : dec_key (encode_bytes x) = Some x.
Proof.
  unfold dec_key. destruct (is_nil (encode_bytes x)) eqn:E; [apply is_nil_true in E; exfalso; exact (encode_bytes_not_nil x E)|].
  pose proof (decode_encode_bytes x []) as D. rewrite app_nil_r in D. rewrite D. reflexivity.
Qed.
Lemma enc_leb a b : lex_leb (encode_bytes a) (encode_bytes b) = lex_leb a b.
Proof. unfold lex_leb. rewrite encode_bytes_order. reflexivity. Qed.
Lemma enc_ltb a b : lex_ltb (encode_bytes a) (encode_bytes b) = lex_ltb a b.
Proof. unfold lex_ltb. rewrite encode_bytes_order. reflexivity. Qed.

(* what a boundary decodes to: the empty one to the empty key, an encoded key to that key *)
Lemma dec_bound b b' : enc_bound b -> dec_key b = Some b' -> (b = [] /\ b' = []) \/ b = encode_bytes b'.
Proof.
  intros [->|[x ->]] D; [left; injection D as <-; split; reflexivity|right]. rewrite dec_key_enc in D. injection D as <-. reflexivity.
Qed.
Lemma dec_bound_end e e' : enc_bound_end e -> dec_key e = Some e' -> (e = [] /\ e' = []) \/ (e' <> [] /\ e = encode_bytes e').
Proof.
  intros [->|[x [Hx ->]]] D; [left; injection D as <-; split; reflexivity|right]. rewrite dec_key_enc in D. injection D as <-. split; [exact Hx|reflexivity].
Qed.
Lemma is_nil_enc x : x <> [] -> is_nil (encode_bytes x) = is_nil x.
Proof.
  intros Hx. destruct (is_nil (encode_bytes x)) eqn:E; [apply is_nil_true in E; destruct (encode_bytes_not_nil x E)|].
  symmetry. apply is_nil_false. exact Hx.
Qed.

(* decoding preserves containment: a region that holds the encoded key holds, once decoded, the key *)
Lemma dec_contains s e k s' e' :
  enc_bound s -> enc_bound_end e -> dec_key s = Some s' -> dec_key e = Some e' ->
  contains s e (encode_bytes k) = contains s' e' k.
Proof.
  intros Hs He Ds De. unfold contains. f_equal.
  - destruct (dec_bound s s' Hs Ds) as [[-> ->]| ->]; [rewrite !leb_nil_l; reflexivity|apply enc_leb].
  - destruct (dec_bound_end e e' He De) as [[-> ->]|[Hx ->]]; [rewrite !ltb_nil_r; reflexivity|].
    rewrite enc_ltb, (is_nil_enc _ Hx). reflexivity.
Qed.
Lemma dec_contains_end s e k s' e' : k <> [] ->
  enc_bound s -> enc_bound_end e -> dec_key s = Some s' -> dec_key e = Some e' ->
  contains_by_end s e (encode_bytes k) = contains_by_end s' e' k.
Proof.
  intros Hk Hs He Ds De. unfold contains_by_end. rewrite (is_nil_enc k Hk). destruct (is_nil k) eqn:En; [apply is_nil_true in En; congruence|].
  f_equal.
  - destruct (dec_bound s s' Hs Ds) as [[-> ->]| ->]; [|apply enc_ltb].
    rewrite !ltb_nil_l; [reflexivity|exact Hk|apply encode_bytes_not_nil].
  - destruct (dec_bound_end e e' He De) as [[-> ->]|[Hx ->]]; [rewrite !orb_true_r; reflexivity|].
    rewrite enc_leb, (is_nil_enc _ Hx). reflexivity.
Qed.

(* C09_contains through the codec: if the PD behind CodecPDClient answers "region of (encoded) k" with a region whose
   (encoded) range holds the encoded key, the cache sees a PD that is sound for k *)
Definition raw_get_sound (raw : nat -> pd_req -> pd_ans) : Prop :=
  forall t k d, raw t (ReqGet (encode_bytes k)) = PdOne (Some d) ->
    enc_bound (d_start d) /\ enc_bound_end (d_end d) /\ contains (d_start d) (d_end d) (encode_bytes k) = true.
Definition raw_prev_sound (raw : nat -> pd_req -> pd_ans) : Prop :=
  forall t k d, k <> [] -> raw t (ReqPrev (encode_bytes k)) = PdOne (Some d) ->
    enc_bound (d_start d) /\ enc_bound_end (d_end d) /\ contains_by_end (d_start d) (d_end d) (encode_bytes k) = true.

(* a single answer that came through the codec: the boundaries of the raw answer, decoded *)
Lemma codec_pd_one raw t q d' : codec_pd raw t q = PdOne (Some d') ->
  exists d, raw t (enc_req q) = PdOne (Some d) /\ dec_key (d_start d) = Some (d_start d') /\ dec_key (d_end d) = Some (d_end d').
Proof.
  unfold codec_pd. destruct (raw t (enc_req q)) as [[d|]|l]; [| discriminate |destruct (dec_descs l); discriminate].
  unfold dec_desc. destruct (dec_key (d_start d)) as [s|] eqn:Es; [|discriminate]. destruct (dec_key (d_end d)) as [e|] eqn:Ee; [|discriminate].
  destruct (dec_bk (d_bk d)) as [b|]; [|discriminate]. intros H; injection H as <-. exists d. split; [reflexivity|split; assumption].
Qed.
Lemma codec_get_sound raw : raw_get_sound raw -> pd_get_sound (codec_pd raw).
Proof.
  intros H t k d' Hc. destruct (codec_pd_one raw t (ReqGet k) d' Hc) as [d [Hr [Ds De]]].
  destruct (H t k d Hr) as [B1 [B2 C]]. rewrite <- (dec_contains _ _ k _ _ B1 B2 Ds De). exact C.
Qed.
Lemma codec_prev_sound raw : raw_prev_sound raw -> pd_prev_sound (codec_pd raw).
Proof.
  intros H t k d' Hk Hc. destruct (codec_pd_one raw t (ReqPrev k) d' Hc) as [d [Hr [Ds De]]].
  destruct (H t k d Hk Hr) as [B1 [B2 C]]. rewrite <- (dec_contains_end _ _ k _ _ Hk B1 B2 Ds De). exact C.
Qed.
