(* Region/ProofsTop.v — the proofs of the theorems of Props.v that need more than one lemma application, and the data of its
   Examples. Statements identical to Props.v. *)
From Coq Require Import Permutation.
From Verif Require Import Base.Lex Region.Model Region.Ord Region.ProofsContains Region.GroupFilter Region.ProofsInsert
  Region.ProofsMerge Region.ProofsGap Region.ProofsPhase2
  Region.Converge Region.ProofsConvB Region.ProofsConvC Region.PdCodec Region.ProofsApi Region.ProofsReach.
Open Scope N_scope.

(* C09_contains_end_of_keyspace: two regions split at "b", a PD that reports them, the cache holding both *)
Definition f08_first := mkDesc 1 [] [98] 1 1 [(1, 1)] (1, 1) None.
Definition f08_last := mkDesc 2 [98] [] 1 1 [(2, 1)] (2, 1) None.
Definition f08_pd (t : nat) (q : pd_req) : pd_ans :=
  match q with
  | ReqGet k => PdOne (Some (if lex_ltb k [98] then f08_first else f08_last))
  | ReqPrev k => PdOne (Some f08_first)
  | ReqScan s _ _ => PdMany (if lex_ltb s [98] then [f08_first; f08_last] else [f08_last])
  | _ => PdOne None
  end.
Definition f08_warm : cache := insert_all empty_cache [new_region f08_first; new_region f08_last].
Lemma C09_list_region_ids_chain_proof : forall pd budget fuel t c s e res c' t',
  pd_get_sound pd -> pd_prev_sound pd ->
  list_region_ids pd budget fuel t c s e [] = (Ok res, c', t') -> chain s e res.
Proof.
  intros pd budget fuel t c s e res c' t' H1 _ H.
  destruct (list_region_ids_chain pd budget H1 fuel t c s e [] res c' t' H) as [new [-> Hc]]. exact Hc.
Qed.
(* the gap-free theorems speak of ranges; the coverage lemmas of [covered] *)
Lemma covered_in_range locs k : covered locs k -> exists l, In l locs /\ in_range (r_start l) (r_end l) k.
Proof. intros [l [H1 H2]]. exists l. split; [exact H1|apply r_contains_spec; exact H2]. Qed.
Lemma batch_locate_gap_free pd budget batch_limit fuel t c rs need_leader locs c' t' :
  sorted_starts (c_sorted c) -> ranges_wf rs -> (length rs <= 16 * batch_limit)%nat \/ pd_no_junk pd ->
  (need_leader = true -> pd_leaders pd) ->
  batch_locate pd budget batch_limit fuel t c rs need_leader = (Ok locs, c', t') ->
  forall s e k, In (s, e) rs -> in_range s e k -> exists l, In l locs /\ in_range (r_start l) (r_end l) k.
Proof.
  intros Hs Hwf Hcase Hl H s e k Hin Hk. apply covered_in_range.
  apply (batch_locate_covers pd budget batch_limit fuel t c rs need_leader locs c' t' Hs Hwf Hcase Hl H k). exists s, e. split; assumption.
Qed.
Lemma C09_key_range_gap_free_proof : forall pd budget batch_limit fuel t c s e locs c' t',
  pd_leaders pd ->
  locate_key_range pd budget batch_limit fuel t c s e [] = (Ok locs, c', t') ->
  forall k, in_range s e k -> exists l, In l locs /\ in_range (r_start l) (r_end l) k.
Proof.
  intros pd budget bl fuel t c s e locs c' t' Hl H k [Hk1 Hk2]. apply covered_in_range.
  apply (locate_key_range_covers pd budget bl Hl s e fuel t c s [] locs c' t'); try assumption.
  intros k0 H1 _ H3. exfalso. apply leb_not_ltb in H1. congruence.
Qed.
Lemma C09_load_regions_gap_free_proof : forall pd budget batch_limit fuel t c s e regs c' t',
  pd_leaders pd ->
  load_regions_in_range pd budget batch_limit fuel t c s e [] = (Ok regs, c', t') ->
  forall k, in_range s e k -> exists l, In l regs /\ in_range (r_start l) (r_end l) k.
Proof.
  intros pd budget bl fuel t c s e regs c' t' Hl H k [Hk1 Hk2]. apply covered_in_range.
  apply (load_regions_covers pd budget bl Hl s e fuel t c s [] regs c' t'); try assumption.
  intros k0 H1 _ H3. exfalso. apply leb_not_ltb in H1. congruence.
Qed.
Lemma C09_group_partition_proof : forall pd budget fuel t c keys asg c' t',
  pd_get_sound pd -> pd_prev_sound pd ->
  group_assign pd budget fuel t c keys None [] = (Ok asg, c', t') ->
  map fst asg = keys /\ (forall k r, In (k, r) asg -> r_contains r k = true) /\
  Permutation (concat (map snd (groups_of asg))) keys /\ NoDup (map fst (groups_of asg)) /\
  (forall v ks k, In (v, ks) (groups_of asg) -> In k ks -> exists r, In (k, r) asg /\ r_verid r = v /\ r_contains r k = true).
Proof.
  intros pd budget fuel t c keys asg c' t' H1 _ H.
  destruct (group_assign_spec pd budget H1 keys fuel t c None [] asg c' t' ltac:(intros kr []) H) as [Ha Hb]. cbn [map app] in Ha.
  destruct (groups_partition asg) as [Hp [Hn Hg]].
  split; [exact Ha|]. split; [intros k r Hin; exact (Hb (k, r) Hin)|]. split; [rewrite <- Ha; exact Hp|]. split; [exact Hn|].
  intros v ks k Hin Hk. destruct (Hg v ks k Hin Hk) as [r [Hr Hv]]. exists r. split; [exact Hr|]. split; [exact Hv|exact (Hb (k, r) Hr)].
Qed.
Lemma C09_converges_reachable_proof : forall truth H cur_of pd budget fuel k T c,
  truth_wf truth -> hist_ok truth H -> reach truth H c ->
  (forall R, In R truth -> In R (cur_of R) /\ forall d, In d (cur_of R) -> In d truth) ->
  (forall t k T, In T truth -> tcontains T k = true -> pd t (ReqGet k) = PdOne (Some T)) ->
  (0 < budget)%nat -> (0 < fuel)%nat ->
  In T truth -> tcontains T k = true ->
  rounds truth cur_of pd budget fuel 4 c k = true.
Proof.
  intros truth H cur_of pd budget fuel k T c H1 Hh Hr H2 H3 H4 H5 H6 H7.
  exact (converges truth cur_of pd budget fuel k T c H1 H2 H3 H4 H5 H6 H7 (proj1 (reach_rinv truth H Hh c Hr))).
Qed.
Lemma C09_contains_codec_proof : forall raw budget fuel t c key is_end r c' t',
  raw_get_sound raw -> raw_prev_sound raw ->
  find_region_by_key (codec_pd raw) budget fuel t c key is_end = (Ok r, c', t') ->
  (if is_end then r_contains_end r key else r_contains r key) = true.
Proof.
  intros raw budget fuel t c key is_end r c' t' H1 H2.
  exact (find_region_by_key_holds (codec_pd raw) budget (codec_get_sound raw H1) (codec_prev_sound raw H2) fuel t c key is_end r c' t').
Qed.
(* C09_range_gap_free_nonvacuous, C09_no_regress_nonvacuous: regions 1 [-inf,"b") and 3 ["d",+inf) cached, PD answers every scan
   with region 2 ["b","d") *)
Definition ex_pd (t : nat) (q : pd_req) : pd_ans :=
  match q with
  | ReqBatch _ _ | ReqScan _ _ _ => PdMany [mkDesc 2 [98] [100] 3 1 [(2, 1)] (2, 1) None]
  | ReqGet k => f08_pd t q
  | _ => PdOne None
  end.
Definition ex_cache : cache := insert_all empty_cache
  [new_region (mkDesc 1 [] [98] 3 1 [(1, 1)] (1, 1) None); new_region (mkDesc 3 [100] [] 3 1 [(3, 1)] (3, 1) None)].
Definition ex_ranges : list range := [([97], [97; 1]); ([98], [99]); ([101], [102])].
(* the convergence examples: the current regions are 1 [-inf,"b") led from store 2 and 2 ["b",+inf) led from store 1; the cache
   holds the unsplit region 1 (version 1) with its work peer on store 1. [cv_cache_failed]: somebody failed on store 1 since the
   entry was made; [cv_stale7]: the same entry with that peer on store 7 (C09_converges_after_decommission); [cv_old], [cv_hist]:
   the unsplit state as PD may still report it (C09_reachable_nonvacuous) *)
Definition cv_R1 := mkDesc 1 [] [98] 2 1 [(1, 1); (2, 2)] (2, 2) None.
Definition cv_R2 := mkDesc 2 [98] [] 2 1 [(3, 1); (4, 2)] (3, 1) None.
Definition cv_truth := [cv_R1; cv_R2].
Definition cv_pd (t : nat) (q : pd_req) : pd_ans :=
  match q with ReqGet k => PdOne (Some (if lex_ltb k [98] then cv_R1 else cv_R2)) | _ => PdOne None end.
Definition cv_stale := mkRegion 1 [] [] 1 1 [(1, 1); (2, 2)] 0 false 0 false false false [0; 0] None.
Definition cv_cache := mkCache [cv_stale] [((1, 1, 1), [])] [(1, (1, 1))] [] [].
Definition cv_cache_failed := mkCache [cv_stale] [((1, 1, 1), [])] [(1, (1, 1))] [(1, 1)] [].
Definition cv_stale7 := mkRegion 1 [] [] 1 1 [(1, 7); (2, 2)] 0 false 0 false false false [0; 0] None.
Definition cv_old := mkDesc 1 [] [] 1 1 [(1, 1); (2, 2)] (1, 1) None.
Definition cv_hist := [cv_old; cv_R1; cv_R2].
