(* Region/ProofsReach.v — the invariant the convergence theorem starts from holds in every state the cache can reach while
   PD and the stores still answer with OLDER states of the regions. [H] is the set of region states that may still be
   reported (the history, current regions included or not); [hist_ok] is TiKV's epoch discipline over it. The invariant
   ([cinv] + every entry is a state of the history) is established by the empty cache and kept by every lookup API
   (through ProofsClosed.v), every reaction to a store reply, GC, TTL expiry, the store check and the bucket updates. *)
From Verif Require Import Base.Lex Region.Model Region.ProofsContains Region.ProofsInsert Region.Converge Region.ProofsConvA Region.ProofsConvB Region.ProofsClosed.
Open Scope N_scope.

Section Reach.
Variable truth : list desc.
Variable H : desc -> Prop.

Record hist_ok : Prop := {
  (* a reported state with the version of a current region is that region *)
  ho_truth : forall h T, H h -> In T truth -> d_verid h = d_verid T -> d_start h = d_start T /\ d_end h = d_end T /\ d_peers h = d_peers T;
  (* a version names one start key (every change of the range bumps the version) *)
  ho_fun : forall h1 h2, H h1 -> H h2 -> d_verid h1 = d_verid h2 -> d_start h1 = d_start h2;
  (* nothing reported is newer than the current region over the same keys / with the same id *)
  ho_start : forall h T, H h -> In T truth -> tcontains T (d_start h) = true -> d_ver h <= d_ver T;
  ho_id : forall h T, H h -> In T truth -> d_id h = d_id T -> d_ver h <= d_ver T /\ d_conf h <= d_conf T;
  ho_nonempty : forall h, H h -> d_end h = [] \/ lex_ltb (d_start h) (d_end h) = true }.
Hypothesis Hh : hist_ok.

Definition from_hist (c : cache) : Prop := forall x, In x (c_sorted c) -> exists h, H h /\ of_truth x h.
Definition rinv (c : cache) : Prop := cinv truth c /\ from_hist c.

Lemma hist_desc_ok h : H h -> desc_ok truth h.
Proof.
  intros Hh0. split; [|split; [|split]]; [exact (fun T => ho_truth Hh h T Hh0)|exact (fun T => ho_start Hh h T Hh0)|
    exact (fun T => ho_id Hh h T Hh0)|exact (ho_nonempty Hh h Hh0)].
Qed.

Lemma rinv_nil se tb : tomb_free truth tb -> rinv (mkCache [] [] [] se tb).
Proof. intros Htb. split; [apply cinv_nil; exact Htb|intros x []]. Qed.

Lemma insert_hist c r h : rinv c -> H h -> fresh_of r h -> length (r_sepochs r) = length (r_peers r) -> rinv (snd (insert_region c r)).
Proof.
  intros [Hc Hfh] Hh0 Hfr Hlen. destruct (insert_region c r) as [ok c'] eqn:Ei. cbn [snd].
  destruct ok; [|apply insert_refused_unchanged in Ei; subst c'; split; assumption].
  destruct (insert_desc truth c r h c' Hc (hist_desc_ok h Hh0) Hfr Hlen) as [deleted [A Hc']]; [|exact Ei|].
  { (* a version names one start key *)
    intros x Hx Hv. destruct (Hfh x Hx) as [hx [Hhx Hox]]. pose proof Hox as [_ [-> _]].
    apply (ho_fun Hh hx h Hhx Hh0). rewrite <- (of_truth_verid x hx Hox). exact Hv. }
  split; [exact Hc'|]. intros x Hx. apply (ac_in _ _ _ _ A) in Hx. destruct Hx as [->|[Hx _]]; [|apply Hfh; exact Hx].
  exists h. split; [exact Hh0|]. pose proof Hfr as [[_ [Hst [Hen _]]] _].
  apply (inherit_entry r deleted h); [assumption| |exact Hlen].
  unfold nonempty_range. rewrite Hst, Hen. apply (ho_nonempty Hh h Hh0).
Qed.
(* what every load and every EpochNotMatch reply inserts: a fresh entry for a reported state, stamped with the store epochs *)
Lemma insert_new_hist c r h : rinv c -> H h -> fresh_of r h -> rinv (snd (insert_new c r)).
Proof.
  intros Hc Hh0 Hfr. destruct (fresh_stamp (c_sepochs c) r h Hfr) as [Hfr' Hlen]. exact (insert_hist c _ h Hc Hh0 Hfr' Hlen).
Qed.
Lemma insert_from_pd c r : rinv c -> from_pd H r -> rinv (snd (insert_new c r)).
Proof. intros Hc [d [Hd [Hp ->]]]. exact (insert_new_hist c _ d Hc Hd (fresh_new d Hp)). Qed.

Lemma map_rinv c g se tb :
  rinv c -> same_shape g -> (forall x, In x (c_sorted c) -> entry_ok (g x) /\ length (r_sepochs (g x)) = length (r_peers (g x))) ->
  tomb_free truth tb -> rinv (mkCache (map g (c_sorted c)) (c_regions c) (c_latest c) se tb).
Proof.
  intros [Hc Hfh] Hg Hok Htb. split; [apply cinv_map_all; assumption|].
  intros y Hy. cbn [c_sorted] in Hy. apply in_map_iff in Hy. destruct Hy as [x [<- Hx]].
  destruct (Hfh x Hx) as [h [Hh0 Hof]]. exists h. split; [exact Hh0|apply of_truth_shape; assumption].
Qed.
(* the store epochs and the tombstones alone *)
Lemma stores_rinv c se tb : rinv c -> tomb_free truth tb -> rinv (mkCache (c_sorted c) (c_regions c) (c_latest c) se tb).
Proof.
  intros Hc Htb. rewrite <- (map_id (c_sorted c)) at 1. apply (map_rinv c (fun x => x)); [exact Hc|intros x; repeat split| |exact Htb].
  intros x Hx. destruct Hc as [Hc _]. split; [apply (ci_ok _ c Hc x Hx)|apply (ci_len _ c Hc x Hx)].
Qed.
(* f keeps the shape, [entry_ok] and the length of the recorded store epochs *)
Definition entry_fun (f : region -> region) : Prop :=
  same_shape f /\ forall x, entry_ok x -> length (r_sepochs x) = length (r_peers x) -> entry_ok (f x) /\ length (r_sepochs (f x)) = length (r_peers (f x)).
Lemma upd_rinv c r f se : rinv c -> entry_fun f -> rinv (let c1 := upd_entry c r f in mkCache (c_sorted c1) (c_regions c1) (c_latest c1) se (c_tomb c1)).
Proof.
  intros Hc [Hf Hok]. cbv zeta. unfold upd_entry. cbn [c_sorted c_regions c_latest c_tomb].
  pose proof Hc as [Hc0 _]. apply (map_rinv c (upd_fun r f) se (c_tomb c) Hc (upd_fun_shape r f Hf)); [|exact (ci_tomb _ c Hc0)].
  intros x Hx. unfold upd_fun. pose proof (ci_ok _ c Hc0 x Hx) as A. pose proof (ci_len _ c Hc0 x Hx) as B.
  destruct (bytes_eqb (r_start x) (r_start r) && verid_eqb (r_verid x) (r_verid r)); [apply Hok; assumption|split; assumption].
Qed.
Lemma upd_rinv' c r f : rinv c -> entry_fun f -> rinv (upd_entry c r f).
Proof. intros Hc Hf. exact (upd_rinv c r f (c_sepochs c) Hc Hf). Qed.

Lemma ef_flags rl pe rd : entry_fun (set_flags rl pe rd).
Proof. split; [intros x; repeat split|]. intros x [A [B [C D]]] L. repeat split; assumption. Qed.
Lemma ef_invalidate reason : entry_fun (invalidate_r reason).
Proof.
  split; [apply shape_invalidate|]. intros x [A [B [C D]]] L. unfold invalidate_r. destruct (r_reason x =? 0); [|repeat split; assumption].
  repeat split; assumption.
Qed.
Lemma ef_expire : entry_fun expire_r.
Proof. split; [apply shape_expire|]. intros x [A [B [C D]]] L. repeat split; assumption. Qed.
Lemma ef_set_bk b : entry_fun (set_bk b).
Proof. split; [intros x; repeat split|]. intros x [A [B [C D]]] L. repeat split; assumption. Qed.
Lemma ef_id : entry_fun (fun x => x).
Proof. split; [intros x; repeat split|]. intros x A L. split; assumption. Qed.
(* a new work peer chosen per entry, inside the entry's peer list *)
Lemma ef_set_work_mod i : entry_fun (fun x => set_work (Nat.modulo i (length (r_peers x))) x).
Proof.
  split; [intros x; repeat split|]. intros x [A [B [C D]]] L. repeat split; try assumption.
  cbn [set_work r_work r_peers]. apply Nat.mod_upper_bound. destruct (r_peers x); [congruence|discriminate].
Qed.
Lemma ef_switch_work se i : entry_fun (fun x => if Nat.ltb i (length (r_peers x)) then switch_work se i x else x).
Proof.
  split; [intros x; destruct (Nat.ltb i (length (r_peers x))); [apply shape_switch_work|repeat split]|].
  intros x [A [B [C D]]] L. destruct (Nat.ltb i (length (r_peers x))) eqn:E; [|repeat split; assumption].
  apply Nat.ltb_lt in E. repeat split; try assumption. cbn [switch_work r_sepochs r_peers]. rewrite set_nth_length. exact L.
Qed.
Lemma ef_compose f g : entry_fun f -> entry_fun g -> entry_fun (fun x => g (f x)).
Proof.
  intros [Sf Of] [Sg Og]. split.
  - intros x. destruct (Sf x) as [A [B [C [D [E F]]]]]. destruct (Sg (f x)) as [A' [B' [C' [D' [E' F']]]]]. repeat split; congruence.
  - intros x A L. destruct (Of x A L) as [A1 L1]. apply Og; assumption.
Qed.
Lemma ef_cond (b : region -> bool) f : entry_fun f -> entry_fun (fun x => if b x then f x else x).
Proof.
  intros [Sf Of]. split; [intros x; destruct (b x); [apply Sf|repeat split]|]. intros x A L. destruct (b x); [apply Of; assumption|split; assumption].
Qed.

(* upd_entry only looks at f on entries of the index: two functions that agree there give the same cache *)
Lemma upd_entry_ext c r f g : (forall x, In x (c_sorted c) -> f x = g x) -> upd_entry c r f = upd_entry c r g.
Proof.
  intros E. unfold upd_entry. f_equal. apply map_ext_in. intros x Hx.
  destruct (bytes_eqb (r_start x) (r_start r) && verid_eqb (r_verid x) (r_verid r)); [apply E; exact Hx|reflexivity].
Qed.

Lemma invalidate_rinv c v reason : rinv c -> rinv (invalidate c v reason).
Proof. intros Hc. unfold invalidate. destruct (get_by_verid c v); [apply upd_rinv'; [exact Hc|apply ef_invalidate]|exact Hc]. Qed.

Lemma update_leader_rinv c v leader cur : rinv c -> rinv (update_leader c v leader cur).
Proof.
  intros Hc. unfold update_leader. destruct (get_by_verid c v) as [r|] eqn:Eg; [|exact Hc].
  (* only r itself is rewritten, so the new work peer may be read off r: it is inside r's peer list *)
  destruct (get_by_verid_verid c v r Eg) as [_ Hr]. pose proof (ci_sorted _ c (proj1 Hc)) as Hs. destruct leader as [p|].
  - destruct (first_idx p (r_peers r) 0) as [i|] eqn:Ef; [|apply upd_rinv'; [exact Hc|apply ef_invalidate]].
    destruct (Nat.eqb (r_work r) i); [exact Hc|]. apply first_idx_nth in Ef. destruct Ef as [Ef _].
    rewrite (upd_entry_at c r _ (fun x => if Nat.ltb i (length (r_peers x)) then switch_work (c_sepochs c) i x else x) Hs Hr).
    + apply upd_rinv'; [exact Hc|apply ef_switch_work].
    + replace (Nat.ltb i (length (r_peers r))) with true by (symmetry; apply Nat.ltb_lt; exact (proj2 Ef)). reflexivity.
  - destruct (Nat.eqb (r_work r) cur); [|exact Hc].
    rewrite (upd_entry_at c r (set_work (Nat.modulo (S cur) (length (r_peers r)))) (fun x => set_work (Nat.modulo (S cur) (length (r_peers x))) x) Hs Hr eq_refl).
    apply upd_rinv'; [exact Hc|apply ef_set_work_mod].
Qed.

Lemma rpc_ctx_rinv c v : rinv c -> rinv (snd (rpc_ctx c v)).
Proof.
  intros Hc. unfold rpc_ctx. destruct (get_by_verid c v) as [r|]; [|exact Hc]. destruct (r_reload r || r_expired r); [exact Hc|]. cbv zeta.
  destruct (existsb (N.eqb (snd (nth (r_work r) (r_peers r) (0, 0)))) (c_tomb c)); [apply upd_rinv'; [exact Hc|apply ef_invalidate]|].
  destruct (store_epoch (c_sepochs c) (snd (nth (r_work r) (r_peers r) (0, 0))) =? nth (r_work r) (r_sepochs r) 0); [exact Hc|].
  apply upd_rinv'; [exact Hc|apply ef_invalidate].
Qed.

Lemma on_send_fail_rinv c v idx reload : rinv c -> rinv (on_send_fail c v idx reload).
Proof.
  intros Hc. unfold on_send_fail. destruct (get_by_verid c v) as [r|]; [|exact Hc]. cbv zeta.
  apply (upd_rinv c r _ _ Hc).
  apply (ef_compose (fun x => if Nat.eqb (r_work x) idx then set_work (Nat.modulo (S idx) (length (r_peers x))) x else x)
                    (fun x1 => if reload then set_reload x1 else x1)).
  - apply (ef_cond (fun x => Nat.eqb (r_work x) idx)). apply ef_set_work_mod.
  - destruct reload; [apply ef_flags|apply ef_id].
Qed.

Lemma insert_all_on_store bk st : forall cur c0, rinv c0 -> Forall H cur -> existsb (fun d => is_nil (d_peers d)) cur = false ->
  rinv (insert_all c0 (map (fun d => region_on_store bk d st) cur)).
Proof.
  unfold insert_all. induction cur as [|d t IH]; intros c0 Hc Hf Hp; [exact Hc|]. cbn [map fold_left].
  inversion Hf; subst. cbn [existsb] in Hp. apply orb_false_iff in Hp. destruct Hp as [Hp1 Hp2].
  apply IH; [|assumption|exact Hp2]. apply (insert_new_hist c0 _ d Hc); [assumption|]. apply fresh_on_store. intros E. rewrite E in Hp1. discriminate.
Qed.
Lemma on_epoch_not_match_rinv c v st cur b c' : rinv c -> Forall H cur -> on_epoch_not_match c v st cur = Ok (b, c') -> rinv c'.
Proof.
  intros Hc Hf. destruct cur as [|d0 t]; [intros E; injection E as _ <-; apply invalidate_rinv; exact Hc|].
  rewrite on_epoch_not_match_cons by discriminate. set (cur := d0 :: t) in *.
  destruct (epoch_ahead v cur); [intros E; injection E as _ <-; exact Hc|].
  destruct (existsb (fun d => is_nil (d_peers d)) cur) eqn:Ep; [discriminate|]. cbv zeta. intros E; injection E as _ <-.
  apply (insert_all_on_store _ st cur); [|exact Hf|exact Ep].
  match goal with |- rinv (if ?e then _ else _) => destruct e end; [exact Hc|apply invalidate_rinv; exact Hc].
Qed.

Lemma gc_rinv c : rinv c -> rinv (gc c).
Proof.
  intros [Hc Hfh]. split; [apply gc_inv; assumption|]. rewrite gc_unfold. cbv zeta. cbn [c_sorted]. intros y Hy.
  apply in_map_iff in Hy. destruct Hy as [x [<- Hx]]. apply filter_In in Hx. destruct Hx as [Hx _].
  destruct (Hfh x Hx) as [h [Hh0 Hof]]. exists h. split; [exact Hh0|apply of_truth_shape; [exact shape_gc_flag|exact Hof]].
Qed.
Lemma expire_rinv c r : rinv c -> rinv (upd_entry c r expire_r).
Proof. intros Hc. apply upd_rinv'; [exact Hc|apply ef_expire]. Qed.

(* the store check finds a store removed: allowed once no current peer is on it *)
Lemma re_resolve_rinv c st removed : rinv c -> (forall T p, In T truth -> In p (d_peers T) -> snd p <> st) -> rinv (re_resolve c st removed).
Proof.
  intros Hc Hst. unfold re_resolve. destruct removed; [|exact Hc]. apply stores_rinv; [exact Hc|].
  intros T p HT Hp. pose proof (ci_tomb _ c (proj1 Hc) T p HT Hp) as Ht.
  destruct (existsb (N.eqb st) (c_tomb c)); [exact Ht|]. cbn [existsb]. rewrite Ht.
  replace (snd p =? st) with false by (symmetry; apply N.eqb_neq; apply (Hst T p HT Hp)). reflexivity.
Qed.

Lemma bucket_not_match_rinv c v ver keys : rinv c -> rinv (on_bucket_version_not_match c v ver keys).
Proof.
  intros Hc. unfold on_bucket_version_not_match. destruct (get_by_verid c v) as [r|]; [|exact Hc].
  destruct (r_bk r) as [[bv ks]|]; [destruct (bv <? ver); [|exact Hc]|]; apply upd_rinv'; try exact Hc; apply ef_set_bk.
Qed.

Lemma rinv_clear c r : rinv c -> rinv (upd_entry c r clear_access_flags).
Proof. intros Hc. apply upd_rinv'; [exact Hc|apply ef_flags]. Qed.
Lemma rinv_reload c r : rinv c -> rinv (upd_entry c r set_reload).
Proof. intros Hc. apply upd_rinv'; [exact Hc|apply ef_flags]. Qed.

(* PD (and the stores, in EpochNotMatch) answer with states of the history: possibly old, never invented *)
Definition pd_hist (pd : nat -> pd_req -> pd_ans) : Prop :=
  forall t q, match pd t q with PdOne (Some d) => H d | PdOne None => True | PdMany l => Forall H l end.

Lemma update_buckets_rinv pd budget t c v req latest : pd_hist pd -> rinv c -> rinv (fst (update_buckets pd budget t c v req latest)).
Proof.
  intros Hpd Hc. unfold update_buckets. destruct (get_by_verid c v) as [r|]; [|exact Hc]. cbv zeta.
  destruct (negb (req =? 0) && (req <? bk_ver (r_bk r))); [exact Hc|]. destruct (bk_ver (r_bk r) <? latest); [|exact Hc].
  destruct (load_by_id pd budget t (fst (fst v))) as [[lr|e] t1] eqn:El; [|exact Hc]. cbn [fst].
  apply insert_from_pd; [exact Hc|]. eapply load_by_id_from_pd; [exact Hpd|exact El].
Qed.

Inductive reach : cache -> Prop :=
| R_empty : reach empty_cache
| R_locate pd budget fuel t c key is_end r c' t' :
    pd_hist pd -> reach c -> find_region_by_key pd budget fuel t c key is_end = (r, c', t') -> reach c'
| R_by_id pd budget t c id r c' t' : pd_hist pd -> reach c -> locate_by_id pd budget t c id = (r, c', t') -> reach c'
| R_key_range pd budget lim fuel t c s e acc r c' t' :
    pd_hist pd -> reach c -> locate_key_range pd budget lim fuel t c s e acc = (r, c', t') -> reach c'
| R_batch pd budget lim fuel t c rs nl r c' t' : pd_hist pd -> reach c -> batch_locate pd budget lim fuel t c rs nl = (r, c', t') -> reach c'
| R_group pd budget fuel t c keys lastl acc r c' t' :
    pd_hist pd -> reach c -> group_assign pd budget fuel t c keys lastl acc = (r, c', t') -> reach c'
| R_list_ids pd budget fuel t c s e acc r c' t' : pd_hist pd -> reach c -> list_region_ids pd budget fuel t c s e acc = (r, c', t') -> reach c'
| R_load_range pd budget lim fuel t c s e acc r c' t' :
    pd_hist pd -> reach c -> load_regions_in_range pd budget lim fuel t c s e acc = (r, c', t') -> reach c'
| R_bload pd budget fuel t c s e count r c' t' : pd_hist pd -> reach c -> batch_load_range pd budget fuel t c s e count = (r, c', t') -> reach c'
| R_bloads pd budget fuel t c rs count nl r c' t' :
    pd_hist pd -> reach c -> batch_load_ranges pd budget fuel t c rs count nl = (r, c', t') -> reach c'
| R_update_buckets pd budget t c v req latest : pd_hist pd -> reach c -> reach (fst (update_buckets pd budget t c v req latest))
| R_invalidate c v reason : reach c -> reach (invalidate c v reason)
| R_update_leader c v leader cur : reach c -> reach (update_leader c v leader cur)
| R_rpc_ctx c v : reach c -> reach (snd (rpc_ctx c v))
| R_send_fail c v idx reload : reach c -> reach (on_send_fail c v idx reload)
| R_epoch c v st cur b c' : Forall H cur -> reach c -> on_epoch_not_match c v st cur = Ok (b, c') -> reach c'
| R_gc c : reach c -> reach (gc c)
| R_expire c r : reach c -> reach (upd_entry c r expire_r)
| R_resolve c st removed : (forall T p, In T truth -> In p (d_peers T) -> snd p <> st) -> reach c -> reach (re_resolve c st removed)
| R_bucket c v ver keys : reach c -> reach (on_bucket_version_not_match c v ver keys)
(* what RegionRequestSender does to Region / Store objects directly: any in-place change of entries that keeps the region
   description, a work peer inside the peer list and the shape of the recorded epochs; any change of the store fail-epochs *)
| R_entry c r f : entry_fun f -> reach c -> reach (upd_entry c r f)
| R_store_epochs c se : reach c -> reach (mkCache (c_sorted c) (c_regions c) (c_latest c) se (c_tomb c))
(* the whole index dropped (region cache cleared; the stores keep their state) *)
| R_clear c : reach c -> reach (mkCache [] [] [] (c_sepochs c) (c_tomb c)).

Lemma reach_rinv c : reach c -> rinv c.
Proof.
  induction 1 as [ | pd budget fuel t c key is_end r c' t' Hpd _ IH E | pd budget t c id r c' t' Hpd _ IH E
    | pd budget lim fuel t c s e acc r c' t' Hpd _ IH E | pd budget lim fuel t c rs nl r c' t' Hpd _ IH E
    | pd budget fuel t c keys lastl acc r c' t' Hpd _ IH E | pd budget fuel t c s e acc r c' t' Hpd _ IH E
    | pd budget lim fuel t c s e acc r c' t' Hpd _ IH E | pd budget fuel t c s e count r c' t' Hpd _ IH E
    | pd budget fuel t c rs count nl r c' t' Hpd _ IH E | pd budget t c v req latest Hpd _ IH
    | c v reason _ IH | c v leader cur _ IH | c v _ IH | c v idx reload _ IH | c v st cur b c' Hf _ IH E
    | c _ IH | c r _ IH | c st removed Hst _ IH | c v ver keys _ IH | c r f Hf _ IH | c se _ IH | c _ IH ].
  - apply rinv_nil. intros T p _ _. reflexivity.
  - exact (find_region_by_key_closed pd budget H Hpd rinv insert_from_pd rinv_clear rinv_reload _ _ _ _ _ _ _ _ IH E).
  - exact (locate_by_id_closed pd budget H Hpd rinv insert_from_pd rinv_clear rinv_reload _ _ _ _ _ _ IH E).
  - exact (locate_key_range_closed pd budget lim H Hpd rinv insert_from_pd _ _ _ _ _ _ _ _ _ IH E).
  - exact (batch_locate_closed pd budget lim H Hpd rinv insert_from_pd _ _ _ _ _ _ _ _ IH E).
  - exact (group_assign_closed pd budget H Hpd rinv insert_from_pd rinv_clear rinv_reload _ _ _ _ _ _ _ _ _ IH E).
  - exact (list_region_ids_closed pd budget H Hpd rinv insert_from_pd rinv_clear rinv_reload _ _ _ _ _ _ _ _ _ IH E).
  - exact (load_regions_in_range_closed pd budget lim H Hpd rinv insert_from_pd _ _ _ _ _ _ _ _ _ IH E).
  - exact (batch_load_range_closed pd budget H Hpd rinv insert_from_pd _ _ _ _ _ _ _ _ _ IH E).
  - exact (batch_load_ranges_closed pd budget H Hpd rinv insert_from_pd _ _ _ _ _ _ _ _ _ IH E).
  - apply update_buckets_rinv; assumption.
  - apply invalidate_rinv; exact IH.
  - apply update_leader_rinv; exact IH.
  - apply rpc_ctx_rinv; exact IH.
  - apply on_send_fail_rinv; exact IH.
  - eapply on_epoch_not_match_rinv; eassumption.
  - apply gc_rinv; exact IH.
  - apply expire_rinv; exact IH.
  - apply re_resolve_rinv; assumption.
  - apply bucket_not_match_rinv; exact IH.
  - apply upd_rinv'; assumption.
  - apply stores_rinv; [exact IH|exact (ci_tomb _ c (proj1 IH))].
  - apply rinv_nil. exact (ci_tomb _ c (proj1 IH)).
Qed.
End Reach.
