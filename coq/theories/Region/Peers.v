(* Region/Peers.v — newRegion: which peers of PD's answer become usable, how the access-index lists for TiKV and
   TiFlash are built and which TiKV peer the region starts with (workTiKVIdx). Model and proofs.
   A peer is dropped when its store is a tombstone (no address), when PD lists it as down, or when it is a witness
   that is not the leader PD reports. The start peer is PD's leader if it was kept, else the first kept TiKV peer. *)
From Verif Require Import Base.Lex Region.Model Region.Ord.
Open Scope N_scope.

Record pinfo := mkPinfo {
  p_peer : peer;        (* peer id, store id *)
  p_witness : bool; p_learner : bool;
  p_kind : N;           (* engine of the store: 0 TiKV, 1 TiFlash, 2 anything else (tiflash_compute) *)
  p_tomb : bool }.      (* the store is a tombstone / unknown to PD: initResolve returns no address *)

Definition is_down (down : list peer) (p : pinfo) : bool := existsb (fun d => peer_eqb d (p_peer p)) down.
Definition kept (leader : peer) (down : list peer) (p : pinfo) : bool :=
  negb (p_tomb p) && negb (is_down down p) && (negb (p_witness p) || peer_eqb (p_peer p) leader).

(* the loop of newRegion: (stores so far, tikv access list, tiflash access list, leaderAccessIdx) *)
Fixpoint nr_loop (leader : peer) (down : list peer) (ps : list pinfo) (avail : list pinfo) (tikv tiflash : list nat) (lidx : nat)
  : list pinfo * list nat * list nat * nat :=
  match ps with
  | [] => (avail, tikv, tiflash, lidx)
  | p :: t =>
      if kept leader down p then
        let lidx' := if peer_eqb (p_peer p) leader then length tikv else lidx in
        let n := length avail in
        nr_loop leader down t (avail ++ [p])
                (if p_kind p =? 0 then tikv ++ [n] else tikv) (if p_kind p =? 1 then tiflash ++ [n] else tiflash) lidx'
      else nr_loop leader down t avail tikv tiflash lidx
  end.
Definition new_region_peers (leader : peer) (down : list peer) (ps : list pinfo) : option (list pinfo * list nat * list nat * nat) :=
  let '(avail, tikv, tiflash, lidx) := nr_loop leader down ps [] [] [] 0%nat in
  match avail with [] => None | _ => Some (avail, tikv, tiflash, lidx) end.
(* the TiKV peer a leader read goes to first (WorkStorePeer): accessIndex[tiKVOnly][workTiKVIdx] *)
Definition work_peer (r : list pinfo * list nat * list nat * nat) : option pinfo :=
  let '(avail, tikv, _, lidx) := r in
  match nth_error tikv lidx with Some i => nth_error avail i | None => None end.

Lemma nr_loop_avail leader down : forall ps avail tikv tiflash lidx,
  fst (fst (fst (nr_loop leader down ps avail tikv tiflash lidx))) = avail ++ filter (kept leader down) ps.
Proof.
  induction ps as [|p t IH]; intros avail tikv tiflash lidx; cbn [nr_loop filter]; [rewrite app_nil_r; reflexivity|].
  destruct (kept leader down p); [rewrite IH, <- app_assoc; reflexivity|apply IH].
Qed.
(* every kept peer is usable: its store has an address, PD does not list it as down, and a witness is kept only as leader *)
Lemma kept_spec leader down p : kept leader down p = true ->
  p_tomb p = false /\ is_down down p = false /\ (p_witness p = true -> p_peer p = leader).
Proof.
  unfold kept. intros H. apply andb_true_iff in H. destruct H as [H H3]. apply andb_true_iff in H. destruct H as [H1 H2].
  apply negb_true_iff in H1. apply negb_true_iff in H2. split; [exact H1|]. split; [exact H2|].
  intros Hw. rewrite Hw in H3. cbn in H3. apply peer_eqb_eq. exact H3.
Qed.

(* invariant of the loop: every entry of the tikv list is the position of a kept peer on a TiKV store *)
Definition tikv_ok (avail : list pinfo) (tikv : list nat) : Prop :=
  forall j i, nth_error tikv j = Some i -> exists p, nth_error avail i = Some p /\ p_kind p = 0.
Lemma nth_error_snoc {A} (l : list A) a i x : nth_error l i = Some x -> nth_error (l ++ [a]) i = Some x.
Proof. intros H. rewrite nth_error_app1; [exact H|]. apply nth_error_Some. congruence. Qed.
Lemma nth_error_snoc_last {A} (l : list A) a : nth_error (l ++ [a]) (length l) = Some a.
Proof. rewrite nth_error_app2 by lia. rewrite Nat.sub_diag. reflexivity. Qed.
Lemma nr_loop_tikv leader down : forall ps avail tikv tiflash lidx,
  tikv_ok avail tikv ->
  let '(avail', tikv', _, _) := nr_loop leader down ps avail tikv tiflash lidx in tikv_ok avail' tikv'.
Proof.
  induction ps as [|p t IH]; intros avail tikv tiflash lidx Hok; cbn [nr_loop]; [exact Hok|].
  destruct (kept leader down p); [|apply IH; exact Hok]. apply IH.
  intros j i Hj. destruct (p_kind p =? 0) eqn:Ek.
  - destruct (Nat.lt_ge_cases j (length tikv)) as [Hlt|Hge].
    + rewrite nth_error_app1 in Hj by exact Hlt. destruct (Hok j i Hj) as [q [Hq Hk]]. exists q. split; [apply nth_error_snoc; exact Hq|exact Hk].
    + rewrite nth_error_app2 in Hj by exact Hge. destruct (j - length tikv)%nat as [|m] eqn:Em; [|destruct m; discriminate Hj].
      cbn in Hj. injection Hj as <-. exists p. split; [apply nth_error_snoc_last|apply N.eqb_eq; exact Ek].
  - destruct (Hok j i Hj) as [q [Hq Hk]]. exists q. split; [apply nth_error_snoc; exact Hq|exact Hk].
Qed.
(* if the leader PD reports is among the peers (identities distinct), usable and on a TiKV store, the region starts with it.
   The loop is in one of two states: the leader is still to come, or lidx already points at it and no later peer is the leader *)
Lemma nr_loop_leader leader down p : forall ps avail tikv tiflash lidx,
  NoDup (map p_peer ps) ->
  ((In p ps /\ kept leader down p = true /\ p_kind p = 0 /\ p_peer p = leader) \/
   ((exists i, nth_error tikv lidx = Some i /\ nth_error avail i = Some p) /\ forall q, In q ps -> p_peer q <> leader)) ->
  work_peer (nr_loop leader down ps avail tikv tiflash lidx) = Some p.
Proof.
  induction ps as [|p0 t IH]; intros avail tikv tiflash lidx Hnd Hst; cbn [nr_loop].
  - destruct Hst as [[[] _]|[[i [H1 H2]] _]]. cbn [work_peer]. rewrite H1. exact H2.
  - cbn [map] in Hnd. inversion Hnd as [|? ? Hni Hnd']; subst.
    destruct Hst as [[Hin [Hk [Hkind Hl]]]|[[i [H1 H2]] Hno]].
    + destruct (peer_eqb (p_peer p0) leader) eqn:El.
      * apply peer_eqb_eq in El. assert (p0 = p).
        { destruct Hin as [H|H]; [exact H|]. exfalso. apply Hni. rewrite El, <- Hl. apply in_map. exact H. }
        subst p0. rewrite Hk. apply IH; [exact Hnd'|]. right. rewrite (proj2 (N.eqb_eq _ _) Hkind). split.
        -- exists (length avail). split; apply nth_error_snoc_last.
        -- intros q Hq Hql. apply Hni. rewrite Hl, <- Hql. apply in_map. exact Hq.
      * destruct Hin as [->|Hin]; [rewrite Hl, (proj2 (peer_eqb_eq _ _) eq_refl) in El; discriminate|].
        destruct (kept leader down p0); apply IH; try exact Hnd'; left; repeat split; assumption.
    + assert (El : peer_eqb (p_peer p0) leader = false).
      { destruct (peer_eqb (p_peer p0) leader) eqn:E; [|reflexivity]. apply peer_eqb_eq in E. exfalso. apply (Hno p0); [left; reflexivity|exact E]. }
      rewrite El. destruct (kept leader down p0); apply IH; try exact Hnd'; right.
      * split; [|intros q Hq; apply Hno; right; exact Hq]. exists i. split.
        -- destruct (p_kind p0 =? 0); [apply nth_error_snoc|]; exact H1.
        -- apply nth_error_snoc; exact H2.
      * split; [exists i; split; assumption|intros q Hq; apply Hno; right; exact Hq].
Qed.

Lemma new_region_peers_leader leader down ps p :
  NoDup (map p_peer ps) -> In p ps -> p_peer p = leader -> kept leader down p = true -> p_kind p = 0 ->
  exists r, new_region_peers leader down ps = Some r /\ work_peer r = Some p.
Proof.
  intros Hnd Hin Hl Hk Hkind. unfold new_region_peers.
  pose proof (nr_loop_leader leader down p ps [] [] [] 0%nat Hnd (or_introl (conj Hin (conj Hk (conj Hkind Hl))))) as Hw.
  pose proof (nr_loop_avail leader down ps [] [] [] 0%nat) as Ha.
  destruct (nr_loop leader down ps [] [] [] 0%nat) as [[[avail tikv] tiflash] lidx] eqn:E. cbn [fst app] in Ha.
  destruct avail as [|a av]; [|eexists; split; [reflexivity|exact Hw]].
  exfalso. assert (Hf : In p (filter (kept leader down) ps)) by (apply filter_In; split; assumption). rewrite <- Ha in Hf. destruct Hf.
Qed.

(* whatever PD reports: the peer a leader read starts with is a kept TiKV peer — on a store with an address, not
   listed as down, and a witness only if it is the very leader PD reports *)
Lemma work_peer_usable leader down ps r q :
  new_region_peers leader down ps = Some r -> work_peer r = Some q ->
  In q ps /\ p_kind q = 0 /\ p_tomb q = false /\ is_down down q = false /\ (p_witness q = true -> p_peer q = leader).
Proof.
  unfold new_region_peers. pose proof (nr_loop_avail leader down ps [] [] [] 0%nat) as Ha.
  pose proof (nr_loop_tikv leader down ps [] [] [] 0%nat ltac:(intros j i H; destruct j; discriminate H)) as Ht.
  destruct (nr_loop leader down ps [] [] [] 0%nat) as [[[avail tikv] tiflash] lidx]. cbn [fst app] in Ha.
  destruct avail as [|a av] eqn:Eav; [discriminate|]. rewrite <- Eav in *. intros H; injection H as <-. cbn [work_peer].
  destruct (nth_error tikv lidx) as [i|] eqn:Ei; [|discriminate]. intros Hq.
  destruct (Ht lidx i Ei) as [q' [Hq' Hk]]. rewrite Hq in Hq'. injection Hq' as <-.
  assert (Hin : In q (filter (kept leader down) ps)) by (rewrite <- Ha; eapply nth_error_In; exact Hq).
  apply filter_In in Hin. destruct Hin as [Hin Hkept]. destruct (kept_spec leader down q Hkept) as [A [B C]].
  split; [exact Hin|]. split; [exact Hk|]. split; [exact A|]. split; [exact B|exact C].
Qed.
(* all usable peers, in PD's order *)
Lemma new_region_peers_avail leader down ps r : new_region_peers leader down ps = Some r ->
  fst (fst (fst r)) = filter (kept leader down) ps.
Proof.
  unfold new_region_peers. pose proof (nr_loop_avail leader down ps [] [] [] 0%nat) as Ha.
  destruct (nr_loop leader down ps [] [] [] 0%nat) as [[[avail tikv] tiflash] lidx]. cbn [fst app] in Ha.
  destruct avail; [discriminate|]. intros H; injection H as <-. exact Ha.
Qed.
