(* Region/GroupFilter.v — GroupKeysByRegion. With a filter (tikv.equalRegionStartKey is the only filter in the code base):
   the filter is consulted only for a key that made the function look a location up; keys served from the last location
   are grouped without asking it. Faithful model, its relation to the unfiltered function, what holds for any keys and what
   for strictly increasing ones (the counterexample for unsorted / repeated keys is an Example of PropsRead.v). Without a
   filter: the groups are a partition of the keys, every key sits in the group of a location that contains it. *)
From Coq Require Import Sorting.Sorted Permutation.
From Verif Require Import Base.Lex Region.Model Region.Ord Region.ProofsContains.
Open Scope N_scope.

Section PD.
Variable pd : nat -> pd_req -> pd_ans.
Variable budget : nat.

Fixpoint group_assign_f (flt : bytes -> bytes -> bool) (fuel t : nat) (c : cache) (keys : list bytes) (lastl : option region)
    (acc : list (bytes * region)) : res (list (bytes * region)) * cache * nat :=
  match keys with
  | [] => (Ok acc, c, t)
  | k :: rest =>
      match (match lastl with Some l => if r_contains l k then Some l else None | None => None end) with
      | Some l => group_assign_f flt fuel t c rest lastl (acc ++ [(k, l)])
      | None =>
          match find_region_by_key pd budget fuel t c k false with
          | (Err x, c1, t1) => (Err x, c1, t1)
          | (Ok r, c1, t1) =>
              if flt k (r_start r) then group_assign_f flt fuel t1 c1 rest (Some r) acc
              else group_assign_f flt fuel t1 c1 rest (Some r) (acc ++ [(k, r)])
          end
      end
  end.

(* with the filter that keeps every key it is Model.group_assign *)
Lemma group_assign_f_none : forall keys fuel t c lastl acc,
  group_assign_f (fun _ _ => false) fuel t c keys lastl acc = group_assign pd budget fuel t c keys lastl acc.
Proof.
  induction keys as [|k rest IH]; intros fuel t c lastl acc; cbn [group_assign_f group_assign]; [reflexivity|].
  destruct (match lastl with Some l => if r_contains l k then Some l else None | None => None end); [apply IH|].
  destruct (find_region_by_key pd budget fuel t c k false) as [[[r|e] c1] t1]; [apply IH|reflexivity].
Qed.

Hypothesis Hget : pd_get_sound pd.

Definition eq_start (k s : bytes) : bool := bytes_eqb k s.

(* strictly increasing keys: no grouped key is the start key of its location (the split key filter does what it is for),
   every grouped key is in its location, and the grouped keys are the keys in order minus the skipped ones *)
Lemma group_filter_sorted : forall keys fuel t c lastl acc asg c' t',
  StronglySorted (fun a b => lex_ltb a b = true) keys ->
  (forall l, lastl = Some l -> exists k0, r_contains l k0 = true /\ forall k, In k keys -> lex_ltb k0 k = true) ->
  (forall kr, In kr acc -> r_contains (snd kr) (fst kr) = true /\ fst kr <> r_start (snd kr)) ->
  group_assign_f eq_start fuel t c keys lastl acc = (Ok asg, c', t') ->
  forall kr, In kr asg -> r_contains (snd kr) (fst kr) = true /\ fst kr <> r_start (snd kr).
Proof.
  induction keys as [|k rest IH]; intros fuel t c lastl acc asg c' t' Hs Hl Hacc; cbn [group_assign_f].
  - intros H; injection H as <- _ _. exact Hacc.
  - inversion Hs as [|? ? Hs' Hk]; subst.
    destruct (match lastl with Some l => if r_contains l k then Some l else None | None => None end) as [l|] eqn:El.
    + destruct lastl as [l0|]; [|discriminate]. destruct (r_contains l0 k) eqn:E; [|discriminate]. injection El as <-.
      apply IH; [exact Hs'| |].
      * intros l Hl0. injection Hl0 as <-. destruct (Hl l0 eq_refl) as [k0 [A B]]. exists k0. split; [exact A|intros k1 Hk1; apply B; right; exact Hk1].
      * intros kr Hin. apply in_app_or in Hin. destruct Hin as [Hin|[<-|[]]]; [apply Hacc; exact Hin|]. cbn [fst snd]. split; [exact E|].
        destruct (Hl l0 eq_refl) as [k0 [A B]]. pose proof (B k (or_introl eq_refl)) as Hlt.
        apply contains_spec in A. destruct A as [A _]. intros Heq. rewrite <- Heq in A. exact (leb_ltb_absurd _ _ A Hlt).
    + destruct (find_region_by_key pd budget fuel t c k false) as [[[r|e] c1] t1] eqn:Ef; [|discriminate].
      pose proof (find_region_by_key_contains pd budget Hget _ _ _ _ _ _ _ Ef) as Hc.
      assert (Hnext : forall l, Some r = Some l -> exists k0, r_contains l k0 = true /\ forall k1, In k1 rest -> lex_ltb k0 k1 = true).
      { intros l Hl0. injection Hl0 as <-. exists k. split; [exact Hc|]. intros k1 Hk1. apply (proj1 (Forall_forall _ _) Hk k1 Hk1). }
      destruct (eq_start k (r_start r)) eqn:Efl.
      * apply IH; [exact Hs'|exact Hnext|exact Hacc].
      * apply IH; [exact Hs'|exact Hnext|].
        intros kr Hin. apply in_app_or in Hin. destruct Hin as [Hin|[<-|[]]]; [apply Hacc; exact Hin|]. cbn [fst snd]. split; [exact Hc|].
        intros Heq. unfold eq_start in Efl. rewrite Heq, bytes_eqb_refl in Efl. discriminate.
Qed.

(* any filter, any keys: there is one decision per key, in order — the location the key was grouped under or looked up
   (it contains the key) and whether the key was kept; a key is dropped only when the filter said so about the location
   found for THAT key; the result lists the kept keys in order, each exactly once *)
Lemma group_filter_any flt : forall keys fuel t c lastl acc asg c' t',
  group_assign_f flt fuel t c keys lastl acc = (Ok asg, c', t') ->
  exists ds : list (bytes * region * bool),
    map (fun d => fst (fst d)) ds = keys /\
    (forall k r b, In (k, r, b) ds -> r_contains r k = true /\ (b = false -> flt k (r_start r) = true)) /\
    asg = acc ++ map fst (filter (fun d => snd d) ds).
Proof.
  induction keys as [|k rest IH]; intros fuel t c lastl acc asg c' t'; cbn [group_assign_f].
  - intros H; injection H as <- _ _. exists []. split; [reflexivity|split; [intros k r b []|cbn; rewrite app_nil_r; reflexivity]].
  - destruct (match lastl with Some l => if r_contains l k then Some l else None | None => None end) as [l|] eqn:El.
    + destruct lastl as [l0|]; [|discriminate]. destruct (r_contains l0 k) eqn:E; [|discriminate]. injection El as <-.
      intros H. apply IH in H. destruct H as [ds [A [B C]]]. exists ((k, l0, true) :: ds). split; [cbn [map fst]; rewrite A; reflexivity|]. split.
      * intros k1 r1 b1 [Heq|Hin]; [injection Heq as <- <- <-; split; [exact E|discriminate]|apply (B k1 r1 b1 Hin)].
      * rewrite C. cbn [filter snd map fst]. rewrite <- app_assoc. reflexivity.
    + destruct (find_region_by_key pd budget fuel t c k false) as [[[r|e] c1] t1] eqn:Ef; [|discriminate].
      pose proof (find_region_by_key_contains pd budget Hget _ _ _ _ _ _ _ Ef) as Hc.
      destruct (flt k (r_start r)) eqn:Efl; intros H; apply IH in H; destruct H as [ds [A [B C]]].
      * exists ((k, r, false) :: ds). split; [cbn [map fst]; rewrite A; reflexivity|]. split.
        -- intros k1 r1 b1 [Heq|Hin]; [injection Heq as <- <- <-; split; [exact Hc|intros _; exact Efl]|apply (B k1 r1 b1 Hin)].
        -- rewrite C. reflexivity.
      * exists ((k, r, true) :: ds). split; [cbn [map fst]; rewrite A; reflexivity|]. split.
        -- intros k1 r1 b1 [Heq|Hin]; [injection Heq as <- <- <-; split; [exact Hc|discriminate]|apply (B k1 r1 b1 Hin)].
        -- rewrite C. cbn [filter snd map fst]. rewrite <- app_assoc. reflexivity.
Qed.
End PD.

Lemma group_add_perm v k g :
  Permutation (concat (map snd (group_add v k g))) (k :: concat (map snd g)).
Proof.
  induction g as [|[w ks] t IH]; cbn [group_add map snd concat].
  - cbn. reflexivity.
  - destruct (verid_eqb w v); cbn [map snd concat].
    + change (k :: ks ++ concat (map snd t)) with ((k :: ks) ++ concat (map snd t)).
      apply Permutation_app_tail. symmetry. apply Permutation_cons_append.
    + eapply Permutation_trans; [apply Permutation_app_head; exact IH|]. symmetry. apply Permutation_middle.
Qed.
Lemma group_add_keys v k g : map fst (group_add v k g) = if existsb (fun p => verid_eqb (fst p) v) g then map fst g else map fst g ++ [v].
Proof.
  induction g as [|[w ks] t IH]; cbn [group_add map fst existsb]; [reflexivity|].
  destruct (verid_eqb w v) eqn:E; cbn [orb map fst]; [reflexivity|]. rewrite IH.
  destruct (existsb (fun p => verid_eqb (fst p) v) t); reflexivity.
Qed.
Lemma NoDup_snoc {A} (l : list A) a : NoDup l -> ~ In a l -> NoDup (l ++ [a]).
Proof. intros H Hn. eapply Permutation_NoDup; [apply Permutation_cons_append|constructor; assumption]. Qed.
Lemma group_add_nodup v k g : NoDup (map fst g) -> NoDup (map fst (group_add v k g)).
Proof.
  intros H. rewrite group_add_keys. destruct (existsb (fun p => verid_eqb (fst p) v) g) eqn:E; [exact H|].
  apply NoDup_snoc; [exact H|]. intros Hin. apply in_map_iff in Hin. destruct Hin as [p [Hp Hin]].
  assert (existsb (fun p => verid_eqb (fst p) v) g = true); [|congruence].
  apply existsb_exists. exists p. split; [exact Hin|]. rewrite Hp. apply verid_eqb_refl.
Qed.

Definition gstep (g : list (verid * list bytes)) (kr : bytes * region) := group_add (r_verid (snd kr)) (fst kr) g.
Lemma groups_of_fold asg : groups_of asg = fold_left gstep asg [].
Proof. reflexivity. Qed.

Lemma fold_groups_perm : forall asg g,
  Permutation (concat (map snd (fold_left gstep asg g))) (map fst asg ++ concat (map snd g)).
Proof.
  induction asg as [|kr rest IH]; intros g; cbn [fold_left map app]; [reflexivity|].
  eapply Permutation_trans; [apply IH|]. unfold gstep at 1.
  eapply Permutation_trans; [apply Permutation_app_head; apply group_add_perm|].
  symmetry. apply Permutation_middle.
Qed.
Lemma fold_groups_nodup : forall asg g, NoDup (map fst g) -> NoDup (map fst (fold_left gstep asg g)).
Proof.
  induction asg as [|kr rest IH]; intros g H; cbn [fold_left]; [exact H|]. apply IH. apply group_add_nodup. exact H.
Qed.
Lemma group_add_in v k g w ks x :
  In (w, ks) (group_add v k g) -> In x ks -> (exists ks', In (w, ks') g /\ In x ks') \/ (w = v /\ x = k).
Proof.
  induction g as [|[u us] t IH]; cbn [group_add]; intros Hin Hx.
  - destruct Hin as [Hin|[]]. injection Hin as <- <-. destruct Hx as [<-|[]]. right; split; reflexivity.
  - destruct (verid_eqb u v) eqn:E.
    + destruct Hin as [Hin|Hin].
      * injection Hin as <- <-. apply in_app_or in Hx. destruct Hx as [Hx|[<-|[]]].
        -- left. exists us. split; [left; reflexivity|exact Hx].
        -- right. apply verid_eqb_eq in E. split; [exact E|reflexivity].
      * left. exists ks. split; [right; exact Hin|exact Hx].
    + destruct Hin as [Hin|Hin].
      * injection Hin as <- <-. left. exists us. split; [left; reflexivity|exact Hx].
      * destruct (IH Hin Hx) as [[ks' [H1 H2]]|H]; [left; exists ks'; split; [right; exact H1|exact H2]|right; exact H].
Qed.
Lemma fold_groups_in (Q : verid -> bytes -> Prop) : forall asg g,
  (forall v ks k, In (v, ks) g -> In k ks -> Q v k) ->
  (forall kr, In kr asg -> Q (r_verid (snd kr)) (fst kr)) ->
  forall v ks k, In (v, ks) (fold_left gstep asg g) -> In k ks -> Q v k.
Proof.
  induction asg as [|kr rest IH]; intros g Hg Ha v ks k; cbn [fold_left]; [apply Hg|].
  apply IH.
  - intros v' ks' k' Hin Hk. unfold gstep in Hin. destruct (group_add_in _ _ _ _ _ _ Hin Hk) as [[ks2 [H1 H2]]|[-> ->]].
    + eapply Hg; eassumption.
    + apply Ha. left; reflexivity.
  - intros kr' Hin. apply Ha. right; exact Hin.
Qed.

Lemma groups_partition asg :
  Permutation (concat (map snd (groups_of asg))) (map fst asg) /\
  NoDup (map fst (groups_of asg)) /\
  (forall v ks k, In (v, ks) (groups_of asg) -> In k ks -> exists r, In (k, r) asg /\ r_verid r = v).
Proof.
  rewrite groups_of_fold. split; [|split].
  - eapply Permutation_trans; [apply fold_groups_perm|]. cbn. rewrite app_nil_r. reflexivity.
  - apply fold_groups_nodup. constructor.
  - apply (fold_groups_in (fun v k => exists r, In (k, r) asg /\ r_verid r = v)).
    + intros v ks k [].
    + intros [k r] Hin. exists r. split; [exact Hin|reflexivity].
Qed.

(* GroupKeysByRegion: every key is assigned, in order, to a location that contains it; it is the grouping with the filter
   that keeps every key *)
Lemma group_assign_spec pd budget (Hget : pd_get_sound pd) : forall keys fuel t c lastl acc asg c' t',
  (forall kr, In kr acc -> r_contains (snd kr) (fst kr) = true) ->
  group_assign pd budget fuel t c keys lastl acc = (Ok asg, c', t') ->
  map fst asg = map fst acc ++ keys /\ (forall kr, In kr asg -> r_contains (snd kr) (fst kr) = true).
Proof.
  intros keys fuel t c lastl acc asg c' t' Hacc H. rewrite <- group_assign_f_none in H.
  destruct (group_filter_any pd budget Hget _ _ _ _ _ _ _ _ _ _ H) as [ds [A [B C]]].
  assert (Hall : filter (fun d => snd d) ds = ds).
  { clear A C. induction ds as [|[[k r] b] ds IH]; [reflexivity|]. cbn [filter snd].
    destruct b; [f_equal; apply IH; intros k' r' b' Hin; apply (B k' r' b'); right; exact Hin|].
    destruct (B k r false (or_introl eq_refl)) as [_ Hf]. discriminate (Hf eq_refl). }
  rewrite Hall in C. subst asg. split; [rewrite map_app, map_map, <- A; reflexivity|].
  intros kr Hin. apply in_app_or in Hin. destruct Hin as [Hin|Hin]; [apply Hacc; exact Hin|].
  apply in_map_iff in Hin. destruct Hin as [[[k r] b] [<- Hin]]. apply (B k r b Hin).
Qed.
