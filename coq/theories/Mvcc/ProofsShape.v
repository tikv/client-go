(* Mvcc/ProofsShape.v — what a per-key transition can do to a key: the few moves [kmove] that every command's
   per-key function is made of, and their trace on the write records [wshape]. Unconditional sortedness of the
   store follows. *)
From Verif Require Import Mvcc.Model Mvcc.Spec Mvcc.ProofsStore Mvcc.ProofsKey Mvcc.ProofsKstep.

(* the moves of every command but the two that acquire a lock (Prewrite, PessimisticLock), with what ties them
   to the command's transaction: [own_lock], membership in [cmd_starts] / [cmd_pairs] *)
Inductive kmove (c : cmd) (ks : kstate) : kstate -> Prop :=
| km_relock l l' : ks_lock ks = Some l -> l_start l' = l_start l -> l_primary l' = l_primary l ->
                   l_ttl l <= l_ttl l' -> l_min_commit l <= l_min_commit l' -> kmove c ks (mkKs (Some l') (ks_writes ks))
| km_unlock : kmove c ks (mkKs None (ks_writes ks))
| km_commit l s cts : own_lock ks s = Some l -> In (s, cts) (cmd_pairs c) -> kmove c ks (commit_lock ks l s cts)
| km_rollback l s : own_lock ks s = Some l -> In s (cmd_starts c) -> kmove c ks (rollback_lock ks s)
| km_wrollback s : own_lock ks s = None -> find_start s (ks_writes ks) = None -> In s (cmd_starts c) -> kmove c ks (write_rollback ks s)
| km_gc s e sp : c = GC s e sp -> kmove c ks (mkKs (ks_lock ks) (gc_writes sp true (ks_writes ks)))
| km_clear s e : c = DeleteRange s e -> kmove c ks empty_ks.

Lemma rollback_key_move c ks s x : In s (cmd_starts c) -> rollback_key ks s = KOk (Some x) -> kmove c ks x.
Proof.
  intros Hs. unfold rollback_key. destruct (own_lock ks s) as [l|] eqn:Eo; [intros E; inversion E; eapply km_rollback; eassumption|].
  destruct (find_start s (ks_writes ks)) as [w|] eqn:Ef; [destruct (is_rollback w); discriminate|].
  intros E; inversion E. apply km_wrollback; assumption.
Qed.
Lemma resolve_key_move c ks k s cts x : In s (cmd_starts c) -> (0 <? cts = true -> In (s, cts) (cmd_pairs c)) ->
  resolve_key s cts k ks = Some x -> kmove c ks x.
Proof.
  intros Hs Hp. unfold resolve_key. destruct (own_lock ks s) as [l|] eqn:Eo; [|discriminate]. intros E; inversion E.
  destruct (0 <? cts); [eapply km_commit; eauto|eapply km_rollback; eauto].
Qed.
Lemma cts_key_move c ks k s caller cur rine rp x r : In s (cmd_starts c) ->
  check_txn_status_key ks k s caller cur rine rp = (Some x, r) -> kmove c ks x.
Proof.
  intros Hs. unfold check_txn_status_key. destruct (own_lock ks s) as [l|] eqn:Eo.
  - destruct (ttl_expired l cur).
    + destruct (rp && is_pess l); [|intros E; inversion E; eapply km_rollback; eassumption].
      unfold pess_rollback_key. destruct (pess_rollback_match _ _ _); intros E; inversion E. apply km_unlock.
    + destruct (caller =? max_ts); [discriminate|]. destruct (0 <? l_min_commit l); [|discriminate].
      destruct (N.ltb_spec (l_min_commit l) (caller + 1)); [|discriminate]. intros E; inversion E.
      apply own_lock_some in Eo. eapply km_relock; [apply Eo|reflexivity|reflexivity|cbn; lia|].
      cbn [l_min_commit]. destruct (N.ltb_spec (caller + 1) cur); lia.
  - destruct (find_start s (ks_writes ks)) as [w|] eqn:Ef; [destruct (is_rollback w); discriminate|].
    destruct rine; [|discriminate]. destruct rp; [discriminate|]. intros E; inversion E. apply km_wrollback; assumption.
Qed.

Lemma cts_key_rolled_back ks k s caller cur rine rp o a : check_txn_status_key ks k s caller cur rine rp = (o, RStatus 0 0 a) ->
  match a with
  | ATTLExpireRollback => o = Some (rollback_lock ks s)
  | ATTLExpirePessimisticRollback => o = Some (mkKs None (ks_writes ks))
  | ALockNotExistRollback => o = Some (write_rollback ks s)
  | _ => True
  end.
Proof.
  unfold check_txn_status_key. destruct (own_lock ks s) as [l|] eqn:Eo.
  - apply own_lock_some in Eo. destruct Eo as [El _]. destruct (ttl_expired l cur).
    + destruct (rp && is_pess l) eqn:Erp; intros E; inversion E; [|reflexivity]. apply andb_true_iff in Erp.
      unfold pess_rollback_key, pess_rollback_match. rewrite El, (proj2 Erp), N.eqb_refl, N.leb_refl. reflexivity.
    + destruct (caller =? max_ts); [|destruct (0 <? l_min_commit l); [destruct (l_min_commit l <? caller + 1)|]]; intros E; inversion E; exact I.
  - destruct (find_start s (ks_writes ks)) as [w|]; [destruct (is_rollback w)|destruct rine; [destruct rp|]]; intros E; inversion E; try exact I. reflexivity.
Qed.

Lemma kstep_move st c k x : kstep st c k x ->
  match c with Prewrite _ _ _ _ _ _ _ | PessLock _ => True | _ => kmove c (get_ks st k) x end.
Proof.
  destruct c; cbn [kstep]; intros H; try exact I; try contradiction.
  - unfold pess_rollback_key in H. destruct (pess_rollback_match _ _ _); inversion H. apply km_unlock.
  - unfold commit_key in H. destruct (own_lock _ start) as [l|] eqn:Eo.
    + destruct (commit <? l_min_commit l); inversion H. eapply km_commit; [exact Eo|left; reflexivity].
    + destruct (find_start _ _) as [w|]; [destruct (is_rollback w)|]; discriminate.
  - eapply rollback_key_move; [left; reflexivity|exact H].
  - destruct H as [_ H]. eapply rollback_key_move; [left; reflexivity|]. eapply cleanup_key_rollback; exact H.
  - destruct H as [_ [r H]]. eapply cts_key_move; [left; reflexivity|exact H].
  - destruct H as [_ [r H]]. unfold heartbeat_key in H. destruct (own_lock _ start) as [l|] eqn:Eo; [|discriminate].
    destruct (negb (l_primary l =? k)); [discriminate|]. destruct (N.ltb_spec (l_ttl l) advise); inversion H.
    apply own_lock_some in Eo. eapply km_relock; [apply Eo|reflexivity|reflexivity|cbn; lia|cbn; lia].
  - destruct H as [_ H]. eapply resolve_key_move; [left; reflexivity| |exact H]. cbn [cmd_pairs]. intros Hc. rewrite Hc. left; reflexivity.
  - destruct H as [_ H]. unfold batch_resolve_key in H. destruct (ks_lock _) as [l|]; [|discriminate].
    destruct (assoc_ts (l_start l) infos) as [cts|] eqn:Ea; [|discriminate]. apply assoc_ts_in in Ea.
    eapply resolve_key_move; [apply (in_map fst _ _ Ea)| |exact H]. intros Hc. apply filter_In. split; [exact Ea|exact Hc].
  - destruct H as [_ H]. inversion H. eapply km_gc; reflexivity.
  - destruct H as [_ H]. subst x. eapply km_clear; reflexivity.
Qed.

(* what any per-key transition does to the write records of the key: nothing, one put_write, one gc_writes, or a wipe *)
Inductive wshape (c : cmd) (ws : list write) : list write -> Prop :=
| ws_same : wshape c ws ws
| ws_put w : wshape c ws (put_write w ws)
| ws_gc s e sp : c = GC s e sp -> wshape c ws (gc_writes sp true ws)
| ws_clear s e : c = DeleteRange s e -> wshape c ws [].

Lemma kmove_shape c ks x : kmove c ks x -> wshape c (ks_writes ks) (ks_writes x).
Proof. intros []; cbn [ks_writes commit_lock rollback_lock write_rollback empty_ks]; econstructor; eassumption. Qed.

Lemma kstep_shape st c k x : kstep st c k x -> wshape c (ks_writes (get_ks st k)) (ks_writes x).
Proof.
  intros H. pose proof (kstep_move st c k x H) as Hm. destruct c; try (apply kmove_shape; exact Hm).
  - destruct H as [m [_ [_ H]]]. destruct (prewrite_key_written _ _ _ _ _ _ _ _ H) as [l' [Ex _]]. subst x. constructor.
  - destruct H as [ne [res [_ H]]]. rewrite (pess_lock_key_written _ _ _ _ _ _ H). constructor.
Qed.

Definition sorted_store (st : store) : Prop := keys_sorted st /\ forall k, desc (ks_writes (get_ks st k)).

Lemma wshape_desc c ws ws' : wshape c ws ws' -> desc ws -> desc ws'.
Proof. intros Hw Hd. destruct Hw; [exact Hd|apply put_write_desc; exact Hd|apply gc_writes_desc; exact Hd|constructor]. Qed.

Lemma step_sorted st c : sorted_store st -> sorted_store (fst (step st c)).
Proof.
  intros [Hs Hk]. apply (step_inv (fun ks => desc (ks_writes ks)) st c Hs Hk).
  intros k x H Hd. eapply wshape_desc; [eapply kstep_shape; exact H|exact Hd].
Qed.
Lemma run_from_sorted cmds : forall st, sorted_store st -> sorted_store (run_from st cmds).
Proof.
  induction cmds as [|c r IH]; intros st H; cbn [run_from fold_left]; [exact H|]. apply IH. apply step_sorted; exact H.
Qed.
Theorem run_sorted cmds : sorted_store (run cmds).
Proof. apply (run_from_sorted cmds []). split; [apply keys_sorted_nil|]. intros k. constructor. Qed.
