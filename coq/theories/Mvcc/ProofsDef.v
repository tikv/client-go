(* Mvcc/ProofsDef.v — the three behaviours the property fixes by definition (TiKV's):
   a prewrite over the own pessimistic lock is not re-checked for write conflicts; a pessimistic
   lock request over the own prewrite lock is refused; committing a leftover pessimistic lock
   changes no data. With them: which errors checkConflictValue can answer. *)
From Verif Require Import Mvcc.Model Mvcc.Spec.

Definition is_write_conflict (e : err) : bool := match e with EWriteConflict _ _ _ _ => true | _ => false end.

(* errors the loop raises by itself; the only other error it answers is the write conflict handed to it *)
Definition own_err (e : err) : bool :=
  match e with EAlreadyRolledBack | EAssertionFailed _ _ | EAlreadyExist _ => true | _ => false end.

Lemma ccv_loop_err a ao cf ws : forall nsne ngv ncr ret e,
  ccv_loop a ao cf ws nsne ngv ncr ret = inl e -> cf = Some e \/ own_err e = true.
Proof.
  induction ws as [|w r IH]; intros nsne ngv ncr ret e; cbn [ccv_loop]; [discriminate|].
  destruct (ncr && is_rollback w && (w_commit w =? c_start a)); [intros E; inversion E; right; reflexivity|].
  (* the continuation shared by the four record kinds: return, fail the assertion at the end of the list, or loop *)
  assert (G : forall nsne0,
    (let '(ngv0, ret0) := match w_kind w with
                          | WPut => if ngv then (false, if w_value w =? 0 then None else Some (w_value w)) else (ngv, ret)
                          | WDel => if ngv then (false, None) else (ngv, ret)
                          | _ => (ngv, ret)
                          end in
     if negb nsne0 && negb ngv0 && negb (ncr && negb (w_commit w <? c_start a)) then inr ret0
     else match r with
          | [] => if as_eqb (c_assert a) AsExist && ao then inl (EAssertionFailed 0 0) else inr ret0
          | _ => ccv_loop a ao cf r nsne0 ngv0 (ncr && negb (w_commit w <? c_start a)) ret0
          end) = inl e -> cf = Some e \/ own_err e = true).
  { intros nsne0. destruct (match w_kind w with WPut => _ | WDel => _ | _ => _ end) as [ngv0 ret0].
    destruct (negb nsne0 && negb ngv0 && negb (ncr && negb (w_commit w <? c_start a))); [discriminate|].
    destruct r as [|w1 r1]; [|apply IH].
    destruct (as_eqb (c_assert a) AsExist && ao); [intros E; inversion E; right; reflexivity|discriminate]. }
  assert (Hex : forall k : err + option value, (k = inl e -> cf = Some e \/ own_err e = true) ->
                (if nsne then inl (match cf with Some c => c | None => EAlreadyExist (c_key a) end)
                 else if negb (as_eqb (c_assert a) AsNone) && negb (c_pess_op a) && ao && as_eqb (c_assert a) AsNotExist
                      then inl (EAssertionFailed (w_start w) (w_commit w)) else k) = inl e -> cf = Some e \/ own_err e = true).
  { intros k Hk. destruct nsne; [intros E; inversion E; destruct cf; [left|right]; reflexivity|].
    destruct (negb (as_eqb (c_assert a) AsNone) && _ && _ && _); [intros E; inversion E; right; reflexivity|exact Hk]. }
  destruct (w_kind w); [apply Hex; apply G| |apply G|apply Hex; apply G].
  destruct cf as [c|]; [destruct (c_lock_only_if_exists a); [intros E; inversion E; left; reflexivity|]|]; apply G.
Qed.

Lemma ccv_err a gv ao al ws e : ccv a gv ao al ws = CErr e -> is_write_conflict e = true \/ own_err e = true.
Proof.
  unfold ccv. destruct ws as [|w r]; [destruct (_ && _ && _); [intros E; inversion E; right; reflexivity|discriminate]|].
  set (cf := if c_for_update a <? w_commit w then Some _ else None).
  assert (Hcf : forall c, cf = Some c -> is_write_conflict c = true)
    by (unfold cf; intros c E; destruct (c_for_update a <? w_commit w); inversion E; reflexivity).
  assert (G : forall ao', match ccv_loop a ao' cf (w :: r) (as_eqb (c_assert a) AsNotExist && c_pess_op a) gv true None with
                          | inl e0 => CErr e0 | inr ret => COk (if gv then ret else None) cf end = CErr e ->
                          is_write_conflict e = true \/ own_err e = true).
  { intros ao'. destruct (ccv_loop a ao' cf (w :: r) _ gv true None) as [e0|ret] eqn:El; [|discriminate].
    intros E; inversion E; subst e0. destruct (ccv_loop_err _ _ _ _ _ _ _ _ _ El); auto. }
  destruct cf as [c|]; [destruct al; [apply G|intros E; inversion E; subst; auto]|destruct al; apply G].
Qed.

Lemma own_pess_prewrite_not_rechecked ks m s p ttl mc ao l e :
  ks_lock ks = Some l -> l_start l = s -> is_pess l = true ->
  (forall w, In w (ks_writes ks) -> w_commit w <= max_ts) ->
  prewrite_key ks m s p ttl mc ao = KErr e -> is_write_conflict e = false.
Proof.
  intros El Es Ep Hb. unfold prewrite_key. rewrite El, Es, N.eqb_refl, Ep. cbn [negb].
  unfold ccv. cbn [c_for_update c_assert c_pess_op c_key].
  destruct (ks_writes ks) as [|w r] eqn:Ew.
  - destruct (as_eqb (m_assert m) AsExist && ao && negb false); [intros E; inversion E; reflexivity|discriminate].
  - (* no record commits above the for-update ts 2^64-1 of the check: the loop is handed no conflict *)
    assert (Hw : max_ts <? w_commit w = false) by (apply N.ltb_ge; apply Hb; left; reflexivity). rewrite Hw.
    destruct (ccv_loop _ ao None (w :: r) _ false true None) as [e0|ret] eqn:El0; [|discriminate].
    intros E; inversion E; subst e0. destruct (ccv_loop_err _ _ _ _ _ _ _ _ _ El0) as [H|H]; [discriminate|destruct e; try discriminate; reflexivity].
Qed.

Lemma pess_lock_over_prewrite_refused ks r k ne l :
  ks_lock ks = Some l -> l_start l = p_start r -> is_pess l = false ->
  exists e, pess_lock_key ks r k ne = inl e.
Proof.
  intros El Es Ep. unfold pess_lock_key. destruct (p_lock_only_if_exists r && negb (p_return_values r)); [eexists; reflexivity|].
  rewrite El, Es, N.eqb_refl, Ep. cbn [negb]. eexists; reflexivity.
Qed.

Lemma read_writes_put_lock w ws t : w_kind w = WLock -> ~ In (w_commit w) (map w_commit ws) ->
  read_writes (put_write w ws) t = read_writes ws t.
Proof.
  intros Hk. induction ws as [|x r IH]; intros Hn; cbn [put_write].
  - cbn [read_writes]. rewrite Hk. reflexivity.
  - cbn [map In] in Hn. destruct (w_commit x <? w_commit w).
    + cbn [read_writes]. rewrite Hk. reflexivity.
    + destruct (N.eqb_spec (w_commit x) (w_commit w)); [tauto|].
      cbn [read_writes]. rewrite IH by tauto. reflexivity.
Qed.

Lemma commit_pess_lock_no_data ks l s c t : is_pess l = true -> ~ In c (map w_commit (ks_writes ks)) ->
  read_writes (ks_writes (commit_lock ks l s c)) t = read_writes (ks_writes ks) t.
Proof.
  intros Hp Hn. unfold commit_lock. cbn [ks_writes]. apply read_writes_put_lock; [|exact Hn].
  unfold is_pess in Hp. destruct (l_op l); try discriminate. reflexivity.
Qed.
