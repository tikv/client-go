(* Mvcc/ProofsKstep.v — one plumbing theorem: after any command every key either keeps its
   state or holds the result of that command's per-key transition function applied to the
   key's state before the command ([kstep]). All store invariants are derived from it. On the way
   each loop of the model (Commit / Rollback, Prewrite, PessimisticLock) is shown to be a write batch. *)
From Verif Require Import Mvcc.Model Mvcc.Spec Mvcc.ProofsStore.

Definition kstep (st : store) (c : cmd) (k : key) (x : kstate) : Prop :=
  let ks := get_ks st k in
  match c with
  | Prewrite ms primary s fu ttl mc ao =>
    exists m, In m ms /\ m_key m = k /\ prewrite_key ks m s primary ttl mc ao = KOk (Some x)
  | PessLock r => exists ne res, In (k, ne) (p_keys r) /\ pess_lock_key ks r k ne = inr (res, Some x)
  | PessRollback _ _ _ s fu => pess_rollback_key ks s fu = Some x
  | Commit _ s c => commit_key ks s c = KOk (Some x)
  | Rollback _ s => rollback_key ks s = KOk (Some x)
  | Cleanup k0 s cur => k0 = k /\ cleanup_key ks k s cur = KOk (Some x)
  | CheckTxnStatus k0 s caller cur rine rp => k0 = k /\ exists r, check_txn_status_key ks k s caller cur rine rp = (Some x, r)
  | HeartBeat k0 s adv => k0 = k /\ exists r, heartbeat_key ks k s adv = (Some x, r)
  | ResolveLock s0 e0 s c => in_range s0 e0 k = true /\ resolve_key s c k ks = Some x
  | BatchResolveLock s0 e0 infos => in_range s0 e0 k = true /\ batch_resolve_key infos k ks = Some x
  | GC s0 e0 sp => in_range s0 e0 k = true /\ gc_key sp k ks = Some x
  | DeleteRange s0 e0 => in_range s0 e0 k = true /\ x = empty_ks
  | _ => False
  end.

(* [acc] is [st] with some keys replaced by states related to the key by [R] *)
Definition upd_rel (st : store) (R : key -> kstate -> Prop) (acc : store) : Prop :=
  keys_sorted acc /\ forall k, get_ks acc k = get_ks st k \/ R k (get_ks acc k).

Lemma upd_rel_refl st R : keys_sorted st -> upd_rel st R st.
Proof. intros H. split; [exact H|]. intros k; left; reflexivity. Qed.

Lemma upd_all st R l acc : upd_rel st R acc -> (forall k x, In (k, Some x) l -> R k x) -> upd_rel st R (apply_all l acc).
Proof.
  intros [Hs Hk] Hl. split; [apply apply_all_sorted; exact Hs|].
  intros k. destruct (apply_all_cases l acc k Hs) as [[E _]|[x [Hin Ex]]]; [rewrite E; apply Hk|].
  right. rewrite Ex. apply Hl; exact Hin.
Qed.

Lemma upd_one st R k o : upd_rel st R st -> (forall x, o = Some x -> R k x) -> upd_rel st R (apply_opt st k o).
Proof. intros H Ho. apply (upd_all st R [(k, o)] st H). intros k' x [E|[]]. inversion E; subst. apply Ho; reflexivity. Qed.
Lemma upd_keys st R (g : key -> option kstate) l : upd_rel st R st -> (forall k x, g k = Some x -> R k x) ->
  upd_rel st R (apply_all (map (fun k => (k, g k)) l) st).
Proof. intros H Hg. apply upd_all; [exact H|]. intros k x Hin. apply in_map_iff in Hin. destruct Hin as [k0 [E _]]. inversion E; subst. apply Hg; assumption. Qed.

Definition kres_write (r : kres) : option kstate := match r with KOk o => o | KErr _ => None end.

Lemma bfe_cases st f keys : forall acc,
  (exists k e, In k keys /\ f (get_ks st k) = KErr e /\ batch_first_err st acc f keys = (st, RErr (Some e))) \/
  ((forall k, In k keys -> exists o, f (get_ks st k) = KOk o) /\
   batch_first_err st acc f keys = (apply_all (map (fun k => (k, kres_write (f (get_ks st k)))) keys) acc, RErr None)).
Proof.
  induction keys as [|k r IH]; intros acc; cbn [batch_first_err]; [right; split; [intros k []|reflexivity]|].
  destruct (f (get_ks st k)) as [e|o] eqn:E; [left; exists k, e; auto using in_eq|].
  destruct (IH (apply_opt acc k o)) as [[k' [e [Hin H]]]|[Hok H]]; [left; exists k', e; auto using in_cons|right].
  split; [intros k' [Ek|Hin]; [subst; eauto|auto]|]. cbn [map]. rewrite apply_all_cons, E. exact H.
Qed.

Lemma bfe_ok st f keys st' : keys_sorted st -> batch_first_err st st f keys = (st', RErr None) ->
  forall k, In k keys -> exists o, f (get_ks st k) = KOk o /\ get_ks st' k = upd o (get_ks st k).
Proof.
  intros Hs E k Hin. destruct (bfe_cases st f keys st) as [[k' [e [_ [_ H]]]]|[Hok H]]; [congruence|].
  destruct (Hok k Hin) as [o Ho]. exists o. split; [exact Ho|]. rewrite E in H. inversion H; subst st'.
  rewrite apply_all_keys, Ho, (existsb_eqb_in k keys Hin) by exact Hs. reflexivity.
Qed.

Lemma bfe_rel st R f keys : upd_rel st R st -> (forall k x, f (get_ks st k) = KOk (Some x) -> R k x) ->
  upd_rel st R (fst (batch_first_err st st f keys)).
Proof.
  intros H Hf. destruct (bfe_cases st f keys st) as [[k [e [_ [_ E]]]]|[_ E]]; rewrite E; [exact H|].
  apply (upd_keys st R (fun k => kres_write (f (get_ks st k)))); [exact H|].
  intros k x. destruct (f (get_ks st k)) eqn:Ef; [discriminate|]. intros Ex. apply Hf. rewrite Ef, <- Ex. reflexivity.
Qed.

Lemma prewrite_item_ok st m primary s fu ttl mc ao o :
  prewrite_item st m primary s fu ttl mc ao = Some (KOk o) ->
  prewrite_key (get_ks st (m_key m)) m s primary ttl mc ao = KOk o.
Proof.
  unfold prewrite_item. destruct (match m_op m with MInsert | MCheckNotExists => _ | _ => None end); [discriminate|].
  destruct (m_op m); intros E; inversion E; reflexivity.
Qed.

(* Prewrite without an error: no item failed, and the accumulator holds the batch of what the items wrote *)
Definition item_write (m : mutation) (i : option kres) : list (key * option kstate) :=
  match i with Some (KOk o) => [(m_key m, o)] | _ => [] end.

Lemma prewrite_all_batch st primary s fu ttl mc ao : forall ms acc0 acc es,
  prewrite_all st acc0 ms primary s fu ttl mc ao = (acc, es) -> has_err es = false ->
  acc = apply_all (flat_map (fun m => item_write m (prewrite_item st m primary s fu ttl mc ao)) ms) acc0 /\
  forall m, In m ms -> forall e, prewrite_item st m primary s fu ttl mc ao <> Some (KErr e).
Proof.
  induction ms as [|m r IH]; intros acc0 acc es E He; cbn [prewrite_all] in E; [inversion E; split; [reflexivity|intros m []]|].
  cbn [flat_map]. rewrite apply_all_app.
  destruct (prewrite_item st m primary s fu ttl mc ao) as [[e|o]|] eqn:Ei; cbn [item_write]; try rewrite apply_all_cons.
  - destruct (prewrite_all st acc0 r primary s fu ttl mc ao). inversion E; subst. discriminate He.
  - destruct (prewrite_all st (apply_opt acc0 (m_key m) o) r primary s fu ttl mc ao) as [a es0] eqn:Er. inversion E; subst.
    destruct (IH _ _ _ Er He) as [Ea Hne]. split; [exact Ea|]. intros m' [Em|Hin] e; [subst; congruence|auto].
  - destruct (IH _ _ _ E He) as [Ea Hne]. split; [exact Ea|]. intros m' [Em|Hin] e; [subst; congruence|auto].
Qed.

(* PessimisticLock without an error: every key answered a result, in order, and the accumulator holds their batch *)
Definition pess_write (st : store) (r : pess_req) (kb : key * bool) : option kstate :=
  match pess_lock_key (get_ks st (fst kb)) r (fst kb) (snd kb) with inr (_, o) => o | inl _ => None end.

Lemma pess_lock_all_batch st r : forall keys acc0 acc rs, pess_lock_all st acc0 r keys = (acc, [], rs) ->
  acc = apply_all (map (fun kb => (fst kb, pess_write st r kb)) keys) acc0 /\
  Forall2 (fun kb res => pess_lock_key (get_ks st (fst kb)) r (fst kb) (snd kb) = inr (res, pess_write st r kb)) keys rs.
Proof.
  induction keys as [|[k ne] rest IH]; intros acc0 acc rs E; cbn [pess_lock_all] in E; [inversion E; split; [reflexivity|constructor]|].
  cbn [map]. rewrite apply_all_cons. cbn [fst].
  destruct (pess_lock_key (get_ks st k) r k ne) as [e|[res o]] eqn:Ei.
  - destruct (if p_no_wait r && _ then _ else _) as [[a es] rs0]. inversion E.
  - assert (Ew : pess_write st r (k, ne) = o) by (unfold pess_write; cbn [fst snd]; rewrite Ei; reflexivity). rewrite Ew.
    destruct (pess_lock_all st (apply_opt acc0 k o) r rest) as [[a es] rs0] eqn:Er. inversion E; subst a es rs.
    destruct (IH _ _ _ Er) as [Ea HF]. split; [exact Ea|]. constructor; [|exact HF]. cbn [fst snd]. rewrite Ew. exact Ei.
Qed.

Lemma map_range_rel st s e f : keys_sorted st ->
  upd_rel st (fun k x => in_range s e k = true /\ f k (get_ks st k) = Some x) (map_range st s e f).
Proof.
  intros Hs. split; [apply map_range_sorted; exact Hs|].
  intros k. rewrite map_range_get by exact Hs.
  destruct (in_range s e k) eqn:Er; cbn [andb]; [|left; reflexivity].
  destruct (existsb (fun kv => fst kv =? k) st); [|left; reflexivity].
  destruct (f k (get_ks st k)) eqn:E; [right; split; reflexivity|left; reflexivity].
Qed.

Theorem step_kstep st c : keys_sorted st -> upd_rel st (kstep st c) (fst (step st c)).
Proof.
  intros Hs. pose proof (upd_rel_refl st (kstep st c) Hs) as Hrefl. destruct c; cbn [step]; try exact Hrefl.
  - destruct (prewrite_all st st ms primary start for_update ttl min_commit assert_on) as [acc es] eqn:E. cbn [fst].
    destruct (has_err es) eqn:He; [exact Hrefl|]. destruct (prewrite_all_batch _ _ _ _ _ _ _ _ _ _ _ E He) as [Ea _]. subst acc.
    apply upd_all; [exact Hrefl|]. intros k x Hin. apply in_flat_map in Hin. destruct Hin as [m [Hm Hin]].
    destruct (prewrite_item st m primary start for_update ttl min_commit assert_on) as [[e|o]|] eqn:Ei; cbn [item_write In] in Hin; try contradiction.
    destruct Hin as [Ex|[]]. inversion Ex; subst. exists m. split; [exact Hm|]. split; [reflexivity|]. apply prewrite_item_ok in Ei. exact Ei.
  - destruct (pess_lock_all st st r (p_keys r)) as [[acc es] rs] eqn:E.
    destruct (_ && _); [exact Hrefl|]. destruct es; [|exact Hrefl]. cbn [fst].
    destruct (pess_lock_all_batch _ _ _ _ _ _ E) as [Ea _]. subst acc.
    apply upd_all; [exact Hrefl|]. intros k x Hin. apply in_map_iff in Hin. destruct Hin as [[k0 ne] [Ex Hin]]. inversion Ex; subst k0.
    unfold pess_write in *. cbn [fst snd] in *. destruct (pess_lock_key (get_ks st k) r k ne) as [e|[res o]] eqn:Ei; [discriminate|].
    exists ne, res. split; [exact Hin|congruence].
  - cbn [fst]. rewrite (fold_keys_batch (fun k => pess_rollback_key (get_ks st k) start for_update)).
    apply (upd_keys st _ (fun k => pess_rollback_key (get_ks st k) start for_update)); [exact Hrefl|]. intros k x E; exact E.
  - apply bfe_rel; [exact Hrefl|]. intros k x E; exact E.
  - apply bfe_rel; [exact Hrefl|]. intros k x E; exact E.
  - destruct (cleanup_key (get_ks st k) k start current) as [e|o] eqn:E; [exact Hrefl|].
    apply upd_one; [exact Hrefl|]. intros x Ex. subst o. split; [reflexivity|exact E].
  - destruct (check_txn_status_key (get_ks st k) k lock_ts caller current rollback_if_not_exist resolving_pess) as [o r] eqn:E.
    apply upd_one; [exact Hrefl|]. intros x Ex. subst o. split; [reflexivity|]. exists r. exact E.
  - destruct (heartbeat_key (get_ks st k) k start advise) as [o r] eqn:E.
    apply upd_one; [exact Hrefl|]. intros x Ex. subst o. split; [reflexivity|]. exists r. exact E.
  - apply (map_range_rel st s e (resolve_key start commit) Hs).
  - apply (map_range_rel st s e (batch_resolve_key infos) Hs).
  - destruct (existsb (gc_blocked safepoint) (keys_in_range st s e)); [exact Hrefl|]. apply (map_range_rel st s e (gc_key safepoint) Hs).
  - destruct (map_range_rel st s e (fun _ _ => Some empty_ks) Hs) as [H1 H2]. split; [exact H1|].
    intros k. destruct (H2 k) as [E|[Hr E]]; [left; exact E|right; split; [exact Hr|]]. cbn [fst]. congruence.
Qed.

Corollary step_inv (P : kstate -> Prop) st c :
  keys_sorted st -> (forall k, P (get_ks st k)) ->
  (forall k x, kstep st c k x -> P (get_ks st k) -> P x) ->
  keys_sorted (fst (step st c)) /\ forall k, P (get_ks (fst (step st c)) k).
Proof.
  intros Hs Hp Hk. destruct (step_kstep st c Hs) as [Hs' Hr]. split; [exact Hs'|].
  intros k. destruct (Hr k) as [E|H]; [rewrite E; apply Hp|]. eapply Hk; [exact H|apply Hp].
Qed.
