(* Mvcc/ProofsKey.v — one key: the write-record list and its primitives, per-key well-formedness [wf_ks] and
   its preservation by the primitive updates, what an accepted Prewrite / PessimisticLock leaves on the key. *)
From Verif Require Import Mvcc.Model Mvcc.Spec.
From Coq Require Import Sorted.

Definition desc (ws : list write) : Prop := StronglySorted (fun a b => w_commit b < w_commit a) ws.

Record World_ok (W : world) : Prop := {
  wo_lt : forall s c, In (s, c) (w_pairs W) -> s < c;
  wo_inj : forall s c s' c', In (s, c) (w_pairs W) -> In (s', c') (w_pairs W) -> (s = s' <-> c = c');
  wo_disj : forall s c s', In (s, c) (w_pairs W) -> In s' (w_starts W) -> c <> s' }.

Lemma world_ok_spec W : world_ok W = true -> World_ok W.
Proof.
  unfold world_ok. rewrite forallb_forall. intros H.
  assert (H' : forall s c, In (s, c) (w_pairs W) ->
            s < c /\ (forall s' c', In (s', c') (w_pairs W) -> Bool.eqb (s =? s') (c =? c') = true) /\ forall s', In s' (w_starts W) -> c <> s').
  { intros s c Hin. specialize (H _ Hin). cbn [fst snd] in H. rewrite !andb_true_iff, !forallb_forall, N.ltb_lt in H.
    destruct H as [[H1 H2] H3]. split; [exact H1|]. split; [intros s' c' Hq; exact (H2 _ Hq)|].
    intros s' Hs'. apply N.eqb_neq, negb_true_iff, H3, Hs'. }
  split.
  - intros s c Hin. apply (H' _ _ Hin).
  - intros s c s' c' Hin Hin'. destruct (H' _ _ Hin) as [_ [H2 _]]. specialize (H2 _ _ Hin'). apply Bool.eqb_prop in H2.
    rewrite <- !N.eqb_eq, H2. reflexivity.
  - intros s c s' Hin Hs. apply (H' _ _ Hin); exact Hs.
Qed.

Definition write_ok (W : world) (w : write) : Prop :=
  In (w_start w) (w_starts W) /\
  (if is_rollback w then w_commit w = w_start w else In (w_start w, w_commit w) (w_pairs W)).

Record wf_ks (W : world) (ks : kstate) : Prop := {
  wf_desc : desc (ks_writes ks);
  wf_nodup : NoDup (map w_start (ks_writes ks));
  wf_wok : Forall (write_ok W) (ks_writes ks);
  wf_lock : forall l, ks_lock ks = Some l ->
            In (l_start l) (w_starts W) /\ ~ In (l_start l) (map w_start (ks_writes ks)) }.

Lemma wf_empty W : wf_ks W empty_ks.
Proof. split; cbn [empty_ks ks_writes ks_lock map]; [constructor|constructor|constructor|intros ? ?; discriminate]. Qed.

Lemma put_write_in w ws x : In x (put_write w ws) -> x = w \/ In x ws.
Proof.
  induction ws as [|y r IH]; cbn [put_write].
  - intros [H|[]]; auto.
  - destruct (w_commit y <? w_commit w); [|destruct (w_commit y =? w_commit w)]; cbn [In]; intros H.
    + destruct H as [H|H]; auto.
    + destruct H as [H|H]; auto.
    + destruct H as [H|H]; auto. destruct (IH H); auto.
Qed.
Lemma put_write_has w ws : In w (put_write w ws).
Proof.
  induction ws as [|y r IH]; cbn [put_write]; [left; reflexivity|].
  destruct (w_commit y <? w_commit w); [left; reflexivity|]. destruct (w_commit y =? w_commit w); [left; reflexivity|right; exact IH].
Qed.
Lemma put_write_keep w ws x : In x ws -> w_commit x <> w_commit w -> In x (put_write w ws).
Proof.
  induction ws as [|y r IH]; cbn [put_write In]; [tauto|]. intros Hin Hne.
  destruct (w_commit y <? w_commit w); [right; exact Hin|].
  destruct (N.eqb_spec (w_commit y) (w_commit w)) as [E|E].
  - destruct Hin as [Hin|Hin]; [subst; congruence|right; exact Hin].
  - destruct Hin as [Hin|Hin]; [left; exact Hin|right; apply IH; assumption].
Qed.
Lemma put_write_desc w ws : desc ws -> desc (put_write w ws).
Proof.
  unfold desc. induction ws as [|y r IH]; intros H; cbn [put_write].
  - constructor; constructor.
  - inversion H as [|? ? Hr Hf]; subst.
    destruct (N.ltb_spec (w_commit y) (w_commit w)) as [Hlt|Hge].
    + constructor; [exact H|]. constructor; [exact Hlt|]. eapply Forall_impl; [|exact Hf]. cbn. intros; lia.
    + destruct (N.eqb_spec (w_commit y) (w_commit w)) as [E|E].
      * constructor; [exact Hr|]. rewrite <- E. exact Hf.
      * constructor; [apply IH; exact Hr|]. apply Forall_forall. intros x Hx.
        destruct (put_write_in _ _ _ Hx) as [Ex|Hx']; [subst; lia|]. rewrite Forall_forall in Hf; auto.
Qed.
Lemma put_write_nodup w ws : NoDup (map w_start ws) -> ~ In (w_start w) (map w_start ws) ->
  NoDup (map w_start (put_write w ws)).
Proof.
  induction ws as [|y r IH]; intros Hnd Hn; cbn [put_write].
  - cbn. constructor; [tauto|constructor].
  - cbn [map] in Hnd, Hn. inversion Hnd as [|? ? Hy Hr]; subst.
    destruct (w_commit y <? w_commit w); [|destruct (w_commit y =? w_commit w)]; cbn [map].
    + constructor; assumption.
    + constructor; [|exact Hr]. cbn [In] in Hn; tauto.
    + constructor; [|apply IH; [exact Hr|cbn [In] in Hn; tauto]].
      intros Hin. apply in_map_iff in Hin. destruct Hin as [x [Ex Hx]].
      destruct (put_write_in _ _ _ Hx) as [E|Hx']; [subst; apply Hn; left; symmetry; exact Ex|].
      apply Hy. rewrite <- Ex. apply in_map; exact Hx'.
Qed.
Lemma put_write_wok W w ws : write_ok W w -> Forall (write_ok W) ws -> Forall (write_ok W) (put_write w ws).
Proof.
  intros Hw Hf. apply Forall_forall. intros x Hx. destruct (put_write_in _ _ _ Hx) as [E|Hx']; [subst; exact Hw|].
  rewrite Forall_forall in Hf; auto.
Qed.
Lemma put_write_starts w ws s : In s (map w_start (put_write w ws)) -> s = w_start w \/ In s (map w_start ws).
Proof.
  intros H. apply in_map_iff in H. destruct H as [x [E Hx]]. destruct (put_write_in _ _ _ Hx); [subst; auto|].
  right. rewrite <- E. apply in_map; assumption.
Qed.

Lemma find_start_none s ws : find_start s ws = None <-> ~ In s (map w_start ws).
Proof.
  induction ws as [|w r IH]; cbn [find_start map In]; [tauto|].
  destruct (N.eqb_spec (w_start w) s); [split; [discriminate|tauto]|]. rewrite IH. tauto.
Qed.
Lemma find_start_some s ws w : find_start s ws = Some w -> In w ws /\ w_start w = s.
Proof.
  induction ws as [|x r IH]; cbn [find_start In]; [discriminate|].
  destruct (N.eqb_spec (w_start x) s); [intros E; inversion E; subst; tauto|]. intros H. destruct (IH H); tauto.
Qed.
Lemma own_lock_some ks s l : own_lock ks s = Some l -> ks_lock ks = Some l /\ l_start l = s.
Proof.
  unfold own_lock. destruct (ks_lock ks) as [l0|]; [|discriminate].
  destruct (N.eqb_spec (l_start l0) s); [intros E; inversion E; subst; tauto|discriminate].
Qed.
Lemma own_lock_none ks s l : own_lock ks s = None -> ks_lock ks = Some l -> l_start l <> s.
Proof.
  unfold own_lock. intros H E. rewrite E in H. destruct (N.eqb_spec (l_start l) s); [discriminate|assumption].
Qed.

Lemma gc_writes_in sp b ws x : In x (gc_writes sp b ws) -> In x ws.
Proof.
  revert b. induction ws as [|w r IH]; intros b; cbn [gc_writes In]; [tauto|].
  destruct (sp <? w_commit w); [intros [H|H]; eauto|].
  destruct (w_kind w); [destruct b; [intros [H|H]; eauto|eauto]|eauto|eauto|eauto].
Qed.
Lemma gc_writes_desc sp b ws : desc ws -> desc (gc_writes sp b ws).
Proof.
  unfold desc. revert b. induction ws as [|w r IH]; intros b H; cbn [gc_writes]; [constructor|].
  inversion H as [|? ? Hr Hf]; subst.
  assert (Hc : forall b', StronglySorted (fun a b0 => w_commit b0 < w_commit a) (w :: gc_writes sp b' r)).
  { intros b'. constructor; [apply IH; exact Hr|]. apply Forall_forall. intros x Hx. apply gc_writes_in in Hx.
    rewrite Forall_forall in Hf; auto. }
  destruct (sp <? w_commit w); [apply Hc|].
  destruct (w_kind w); [destruct b; [apply Hc|apply IH; exact Hr]|apply IH; exact Hr..].
Qed.
Lemma gc_writes_nodup sp b ws : NoDup (map w_start ws) -> NoDup (map w_start (gc_writes sp b ws)).
Proof.
  revert b. induction ws as [|w r IH]; intros b H; cbn [gc_writes]; [constructor|].
  cbn [map] in H. inversion H as [|? ? Hw Hr]; subst.
  assert (Hc : forall b', NoDup (map w_start (w :: gc_writes sp b' r))).
  { intros b'. cbn [map]. constructor; [|apply IH; exact Hr]. intros Hin. apply Hw.
    apply in_map_iff in Hin. destruct Hin as [x [E Hx]]. apply gc_writes_in in Hx. rewrite <- E. apply in_map; exact Hx. }
  destruct (sp <? w_commit w); [apply Hc|].
  destruct (w_kind w); [destruct b; [apply Hc|apply IH; exact Hr]|apply IH; exact Hr..].
Qed.

Lemma desc_head_max w r x : desc (w :: r) -> In x (w :: r) -> w_commit x <= w_commit w.
Proof.
  intros H [E|Hin]; [subst; lia|]. inversion H as [|? ? _ Hf]; subst. rewrite Forall_forall in Hf. specialize (Hf _ Hin). lia.
Qed.
Lemma desc_commit_inj ws x y : desc ws -> In x ws -> In y ws -> w_commit x = w_commit y -> x = y.
Proof.
  unfold desc. induction ws as [|w r IH]; intros H Hx Hy E; [destruct Hx|].
  inversion H as [|? ? Hr Hf]; subst. rewrite Forall_forall in Hf.
  destruct Hx as [Hx|Hx], Hy as [Hy|Hy]; subst; auto.
  - specialize (Hf _ Hy). lia.
  - specialize (Hf _ Hx). lia.
Qed.

(* checkConflictValue: an accepted prewrite at for-update ts = start ts means the key holds no record of that start ts *)
Lemma ccv_accept_no_start k s po asr loie gv ao ws v c :
  desc ws ->
  (forall w, In w ws -> w_start w = s -> (is_rollback w = true /\ w_commit w = s) \/ s < w_commit w) ->
  ccv (mkCcv k s s po asr loie) gv ao false ws = COk v c -> ~ In s (map w_start ws).
Proof.
  intros Hd Hw Hc Hin. apply in_map_iff in Hin. destruct Hin as [w [Es Hin]].
  destruct ws as [|w0 r]; [destruct Hin|].
  unfold ccv in Hc. cbn [c_for_update c_start c_key c_assert c_pess_op] in Hc.
  destruct (N.ltb_spec s (w_commit w0)) as [Hlt|Hge]; [discriminate|].
  pose proof (desc_head_max _ _ _ Hd Hin) as Hmax.
  destruct (Hw w Hin Es) as [[Hrb Hcs]|Hlt]; [|lia].
  assert (w = w0).
  { apply (desc_commit_inj (w0 :: r)); [exact Hd|exact Hin|left; reflexivity|lia]. }
  subst w0. cbn [ccv_loop] in Hc. cbn [c_start] in Hc. rewrite Hrb, Hcs, N.eqb_refl in Hc. cbn [andb] in Hc. discriminate.
Qed.

Lemma write_ok_bound W w s : World_ok W -> write_ok W w -> w_start w = s ->
  (is_rollback w = true /\ w_commit w = s) \/ s < w_commit w.
Proof.
  intros HW [_ H] E. destruct (is_rollback w); [left; split; [reflexivity|congruence]|right].
  subst s. apply (wo_lt W HW); exact H.
Qed.

(* pessimisticLockMutation in two halves *)
Definition pess_new_lock (r : pess_req) : lock :=
  mkLock (p_start r) (p_primary r) LPess 0 (p_ttl r) (p_for_update r) (p_min_commit r).
(* the conflict check and the result, with whether a value exists: a function of the write records alone *)
Definition pess_res (ws : list write) (r : pess_req) (k : key) (ne : bool) : err + (pres * bool) :=
  match ccv (mkCcv k (p_start r) (p_for_update r) true (if ne then AsNotExist else AsNone) (p_lock_only_if_exists r))
            true false (p_force r) ws with
  | CErr e => inl e
  | COk v conflict =>
    let ex := match v with Some _ => true | None => false end in
    match conflict with
    | Some (EWriteConflict _ _ cc _) => inr (PRConflict v ex cc, ex)
    | Some e => inl e
    | None => inr (if p_return_values r then PRNormal v ex
                   else if p_check_existence r then PRNormal None ex else PRNormal None false, ex)
    end
  end.
(* the lock write: none if lock-only-if-exists found nothing or the lock in place is as new as the request *)
Definition pess_lock_write (ws : list write) (r : pess_req) (ex : bool) (already : option lock) : option kstate :=
  if p_lock_only_if_exists r && negb ex then None
  else if match already with None => true | Some l => l_for_update l <? p_for_update r end
       then Some (mkKs (Some (pess_new_lock r)) ws) else None.

Lemma pess_lock_go_eq ks r k ne al :
  pess_lock_go ks r k ne al = match pess_res (ks_writes ks) r k ne with
                              | inl e => inl e
                              | inr (res, ex) => inr (res, pess_lock_write (ks_writes ks) r ex al)
                              end.
Proof.
  unfold pess_lock_go, pess_res, pess_lock_write. destruct (ccv _ true false (p_force r) (ks_writes ks)) as [e|v cf]; [reflexivity|].
  cbv zeta. destruct cf as [[]|]; try reflexivity;
    (destruct (p_lock_only_if_exists r && _); [reflexivity|]; destruct (match al with None => true | Some l => _ end); reflexivity).
Qed.

(* an own pessimistic lock, or none, in place: the request goes through to the two halves *)
Lemma pess_lock_key_own ks r k ne : p_lock_only_if_exists r && negb (p_return_values r) = false ->
  (forall l, ks_lock ks = Some l -> l_start l = p_start r /\ is_pess l = true) ->
  pess_lock_key ks r k ne = match pess_res (ks_writes ks) r k ne with
                            | inl e => inl e
                            | inr (res, ex) => inr (res, pess_lock_write (ks_writes ks) r ex (ks_lock ks))
                            end.
Proof.
  intros Hl Hown. unfold pess_lock_key. rewrite Hl. destruct (ks_lock ks) as [l|]; [|apply pess_lock_go_eq].
  destruct (Hown l eq_refl) as [Es Ep]. rewrite Es, N.eqb_refl, Ep. apply pess_lock_go_eq.
Qed.
Lemma pess_lock_key_inr ks r k ne res o : pess_lock_key ks r k ne = inr (res, o) ->
  p_lock_only_if_exists r && negb (p_return_values r) = false /\
  (forall l, ks_lock ks = Some l -> l_start l = p_start r /\ is_pess l = true) /\
  exists ex, pess_res (ks_writes ks) r k ne = inr (res, ex) /\ o = pess_lock_write (ks_writes ks) r ex (ks_lock ks).
Proof.
  intros H. assert (Hown : p_lock_only_if_exists r && negb (p_return_values r) = false /\
                           forall l, ks_lock ks = Some l -> l_start l = p_start r /\ is_pess l = true).
  { unfold pess_lock_key in H. destruct (p_lock_only_if_exists r && negb (p_return_values r)); [discriminate|]. split; [reflexivity|].
    intros l El. rewrite El in H. destruct (N.eqb_spec (l_start l) (p_start r)); [|discriminate]. destruct (is_pess l); [tauto|discriminate]. }
  destruct Hown as [Hl Hown]. rewrite (pess_lock_key_own ks r k ne Hl Hown) in H.
  destruct (pess_res (ks_writes ks) r k ne) as [e|[res0 ex]]; [discriminate|]. inversion H; subst. eauto.
Qed.
Lemma pess_lock_write_some ws r ex al x : pess_lock_write ws r ex al = Some x -> x = mkKs (Some (pess_new_lock r)) ws.
Proof.
  unfold pess_lock_write. destruct (p_lock_only_if_exists r && negb ex); [discriminate|].
  destruct (match al with None => true | Some l => _ end); [|discriminate]. intros E; inversion E; reflexivity.
Qed.
Lemma pess_lock_key_written ks r k ne res x : pess_lock_key ks r k ne = inr (res, Some x) ->
  x = mkKs (Some (pess_new_lock r)) (ks_writes ks).
Proof. intros H. destruct (pess_lock_key_inr _ _ _ _ _ _ H) as [_ [_ [ex [_ E]]]]. eapply pess_lock_write_some. symmetry; exact E. Qed.

Lemma assoc_ts_in s l c : assoc_ts s l = Some c -> In (s, c) l.
Proof.
  induction l as [|[a b] r IH]; cbn [assoc_ts]; [discriminate|].
  destruct (N.eqb_spec a s); [intros E; inversion E; subst; left; reflexivity|intros H; right; auto].
Qed.

Lemma prewrite_key_written ks m s p ttl mc ao x : prewrite_key ks m s p ttl mc ao = KOk (Some x) ->
  exists l', x = mkKs (Some l') (ks_writes ks) /\ l_start l' = s /\ l_primary l' = p /\ is_pess l' = false /\
             match ks_lock ks with
             | None => exists v c, ccv (mkCcv (m_key m) s s false (m_assert m) false) false ao false (ks_writes ks) = COk v c
             | Some l => l_start l = s /\ is_pess l = true /\ l_ttl l <= l_ttl l' /\ (p = m_key m -> l_min_commit l <= l_min_commit l')
             end.
Proof.
  unfold prewrite_key. assert (Hp : forall o, op_eqb (mop_lock_op o) LPess = false) by (intros []; reflexivity).
  destruct (ks_lock ks) as [l|].
  - destruct (N.eqb_spec (l_start l) s); [|discriminate]. destruct (is_pess l) eqn:Ep; cbn [negb]; [|discriminate].
    destruct (ccv _ false ao false (ks_writes ks)); [discriminate|]. intros E; inversion E. eexists. split; [reflexivity|].
    cbn [l_start l_primary l_ttl l_min_commit]. unfold is_pess at 1. cbn [l_op]. rewrite Hp. repeat split; try assumption.
    + destruct (N.ltb_spec ttl (l_ttl l)); lia.
    + intros Ek. rewrite Ek, N.eqb_refl. destruct (N.ltb_spec mc (l_min_commit l)); lia.
  - destruct (m_pess_check m); [discriminate|]. destruct (ccv _ false ao false (ks_writes ks)) eqn:Ec; [discriminate|].
    intros E; inversion E. eexists. split; [reflexivity|]. unfold is_pess. cbn [l_start l_primary l_op]. rewrite Hp. repeat split. eauto.
Qed.

Lemma cleanup_key_rollback ks k s cur o : cleanup_key ks k s cur = KOk o -> rollback_key ks s = KOk o.
Proof.
  unfold cleanup_key, rollback_key. destruct (own_lock ks s) as [l|]; [|tauto]. destruct ((cur =? 0) || ttl_expired l cur); [tauto|discriminate].
Qed.

Section Preserve.
  Variable W : world.
  Hypothesis HW : World_ok W.

  Lemma wf_set_lock ks l : wf_ks W ks -> In (l_start l) (w_starts W) -> ~ In (l_start l) (map w_start (ks_writes ks)) ->
    wf_ks W (mkKs (Some l) (ks_writes ks)).
  Proof.
    intros [Hd Hn Hw Hl] Hs Hni. split; cbn [ks_writes ks_lock]; auto. intros l0 E. inversion E; subst. tauto.
  Qed.
  Lemma wf_drop_lock ks : wf_ks W ks -> wf_ks W (mkKs None (ks_writes ks)).
  Proof. intros [Hd Hn Hw Hl]. split; cbn [ks_writes ks_lock]; auto. intros l0 E; discriminate. Qed.

  Lemma wf_put_write ks w lk : wf_ks W ks -> write_ok W w -> ~ In (w_start w) (map w_start (ks_writes ks)) ->
    (forall l, lk = Some l -> ks_lock ks = Some l /\ l_start l <> w_start w) ->
    wf_ks W (mkKs lk (put_write w (ks_writes ks))).
  Proof.
    intros [Hd Hn Hw Hl] Hok Hni Hlk. split; cbn [ks_writes ks_lock].
    - apply put_write_desc; exact Hd.
    - apply put_write_nodup; assumption.
    - apply put_write_wok; assumption.
    - intros l E. destruct (Hlk l E) as [E1 Hne]. destruct (Hl l E1) as [Hs Hnl]. split; [exact Hs|].
      intros Hin. apply put_write_starts in Hin. destruct Hin; [congruence|tauto].
  Qed.

  Lemma rollback_write_ok s : In s (w_starts W) -> write_ok W (rollback_write s).
  Proof. intros H. split; cbn; auto. Qed.

  Lemma commit_lock_wf ks l s c : wf_ks W ks -> ks_lock ks = Some l -> l_start l = s -> In (s, c) (w_pairs W) ->
    wf_ks W (commit_lock ks l s c).
  Proof.
    intros Hwf El Es Hp. destruct (wf_lock _ _ Hwf l El) as [Hs Hn]. rewrite Es in Hs, Hn.
    unfold commit_lock. apply wf_put_write; auto.
    - split; cbn [w_start w_commit]; [exact Hs|]. destruct (l_op l); cbn; exact Hp.
    - intros l0 E; discriminate.
  Qed.
  Lemma rollback_lock_wf ks l s : wf_ks W ks -> ks_lock ks = Some l -> l_start l = s -> wf_ks W (rollback_lock ks s).
  Proof.
    intros Hwf El Es. destruct (wf_lock _ _ Hwf l El) as [Hs Hn]. rewrite Es in Hs, Hn.
    unfold rollback_lock. apply wf_put_write; auto using rollback_write_ok. intros l0 E; discriminate.
  Qed.
  Lemma write_rollback_wf ks s : wf_ks W ks -> own_lock ks s = None -> find_start s (ks_writes ks) = None ->
    In s (w_starts W) -> wf_ks W (write_rollback ks s).
  Proof.
    intros Hwf Ho Hf Hs. unfold write_rollback. apply wf_put_write; auto using rollback_write_ok.
    - apply find_start_none; exact Hf.
    - intros l E. split; [exact E|]. cbn. eapply own_lock_none; eauto.
  Qed.

  Lemma gc_wf ks sp : wf_ks W ks -> wf_ks W (mkKs (ks_lock ks) (gc_writes sp true (ks_writes ks))).
  Proof.
    intros [Hd Hn Hw Hl]. split; cbn [ks_writes ks_lock].
    - apply gc_writes_desc; exact Hd.
    - apply gc_writes_nodup; exact Hn.
    - apply Forall_forall. intros x Hx. apply gc_writes_in in Hx. rewrite Forall_forall in Hw; auto.
    - intros l El. destruct (Hl l El) as [Hs Hni]. split; [exact Hs|]. intros Hin. apply Hni.
      apply in_map_iff in Hin. destruct Hin as [x [Ex Hx]]. apply gc_writes_in in Hx. rewrite <- Ex. apply in_map; exact Hx.
  Qed.

  Lemma wf_no_start_bound ks s : wf_ks W ks ->
    forall w, In w (ks_writes ks) -> w_start w = s -> (is_rollback w = true /\ w_commit w = s) \/ s < w_commit w.
  Proof.
    intros Hwf w Hin E. eapply write_ok_bound; eauto. pose proof (wf_wok _ _ Hwf) as H. rewrite Forall_forall in H; auto.
  Qed.

  Lemma prewrite_key_wf ks m s primary ttl mc ao ks' : wf_ks W ks -> In s (w_starts W) ->
    prewrite_key ks m s primary ttl mc ao = KOk (Some ks') -> wf_ks W ks'.
  Proof.
    intros Hwf Hs H. destruct (prewrite_key_written _ _ _ _ _ _ _ _ H) as [l' [Ex [Es [_ [_ Hb]]]]]. subst ks'.
    apply wf_set_lock; rewrite ?Es; [exact Hwf|exact Hs|]. destruct (ks_lock ks) as [l|] eqn:El.
    - destruct Hb as [Esl _]. destruct (wf_lock _ _ Hwf l El) as [_ Hn]. rewrite Esl in Hn. exact Hn.
    - (* accepted by the conflict check at for-update ts = start ts: no record of that start *)
      destruct Hb as [v [c Ec]]. eapply ccv_accept_no_start; [exact (wf_desc _ _ Hwf)|apply wf_no_start_bound; exact Hwf|exact Ec].
  Qed.

  Lemma pess_lock_key_wf ks r k ne res ks' : wf_ks W ks -> In (p_start r) (w_starts W) ->
    ~ In (p_start r) (map w_start (ks_writes ks)) ->
    pess_lock_key ks r k ne = inr (res, Some ks') -> wf_ks W ks'.
  Proof. intros Hwf Hs Hn H. rewrite (pess_lock_key_written _ _ _ _ _ _ H). apply wf_set_lock; assumption. Qed.
End Preserve.
