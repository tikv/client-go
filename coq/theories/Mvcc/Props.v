(* Mvcc/Props.v — theorems of property C12 (the mock TiKV implements Percolator MVCC).
   Model: Mvcc/Model.v ([step], [run cmds := fold_left step]); discipline and declarative
   specifications: Mvcc/Spec.v. Statements are over ALL command sequences - those that need the discipline carry
   [oracle_ts] as a hypothesis - or over any state. *)
From Verif Require Import Mvcc.Model Mvcc.Spec Mvcc.ProofsStore Mvcc.ProofsKey Mvcc.ProofsKstep Mvcc.ProofsShape
     Mvcc.ProofsStep Mvcc.ProofsRead Mvcc.ProofsLate Mvcc.ProofsMarker Mvcc.ProofsIdem Mvcc.ProofsIdem2 Mvcc.ProofsIdem3 Mvcc.ProofsLockMono Mvcc.ProofsDef Mvcc.ExampleCmds Mvcc.Handler Mvcc.Deadlock Mvcc.ProofsDeadlock Mvcc.ProofsDeadlock2.

(* ---- induction carriers *)
(* unconditional: keys ascending, write records of every key strictly descending by commit ts *)
Theorem C12_sorted_store : forall cmds, sorted_store (run cmds).
Proof. exact run_sorted. Qed.
Print Assumptions C12_sorted_store.

(* under the discipline: additionally at most one record per (key, start), every record / lock belongs
   to a transaction of the sequence with its own commit ts, and a lock's transaction has no record on that key *)
Theorem C12_wf_store : forall cmds, oracle_ts cmds = true -> wf_store (world_of cmds) (run cmds).
Proof. exact oracle_run_wf. Qed.
Print Assumptions C12_wf_store.

(* ---- on one key a transaction is never both committed and rolled back *)
Theorem C12_exclusive_outcome : forall cmds k s, oracle_ts cmds = true ->
  ~ (committed (run cmds) k s = true /\ rolled_back (run cmds) k s = true).
Proof. exact (fun cmds k s Ho => wf_exclusive _ _ (oracle_run_wf cmds Ho) k s). Qed.
Print Assumptions C12_exclusive_outcome.

(* ---- repeating a command whose effect is in place: same answer (up to the informational action of a
   status check), state unchanged. Classes: commit, batch rollback, cleanup, check-txn-status
   (rollback_if_not_exist or not resolving_pessimistic_lock), resolve, batch resolve, heartbeat;
   arbitrary key lists / ranges. *)
Theorem C12_idempotent : forall cmds c, oracle_ts (cmds ++ [c]) = true -> idem_class c = true ->
  exists r2, step (fst (step (run cmds) c)) c = (fst (step (run cmds) c), r2)
             /\ resp_status r2 = resp_status (snd (step (run cmds) c)).
Proof. exact (fun cmds c Ho Hc => idem_all_seq cmds c Ho (proj2 (orb_true_iff _ _) (or_introl Hc))). Qed.
Print Assumptions C12_idempotent.

(* whole Prewrite requests (any number of mutations, duplicates allowed, optimistic or pessimistic, incl. the
   Insert / CheckNotExists existence pre-check of repaired defect a799b8b) and whole PessimisticLock requests
   (any number of keys, every mode: return values, check existence, lock-only-if-exists, ForceLock, no-wait):
   ANY sequence (no discipline needed), same answer, state unchanged. Only restriction: start ts <> 2^64-1. *)
Theorem C12_idempotent_prewrite : forall cmds ms primary s fu ttl mc ao, s <> max_ts ->
  let c := Prewrite ms primary s fu ttl mc ao in
  exists r2, step (fst (step (run cmds) c)) c = (fst (step (run cmds) c), r2)
             /\ resp_status r2 = resp_status (snd (step (run cmds) c)).
Proof. exact (fun cmds => prewrite_idem _ (proj1 (run_sorted cmds))). Qed.
Print Assumptions C12_idempotent_prewrite.

Theorem C12_idempotent_pessimistic_lock : forall cmds r,
  step (fst (step (run cmds) (PessLock r))) (PessLock r) = (fst (step (run cmds) (PessLock r)), snd (step (run cmds) (PessLock r))).
Proof. exact (fun cmds r => eq_trans (pess_lock_idem _ (proj1 (run_sorted cmds)) r) (surjective_pairing _)). Qed.
Print Assumptions C12_idempotent_pessimistic_lock.

Theorem C12_idempotent_pessimistic_rollback : forall cmds s e ks start fu,
  let c := PessRollback s e ks start fu in
  exists r2, step (fst (step (run cmds) c)) c = (fst (step (run cmds) c), r2)
             /\ resp_status r2 = resp_status (snd (step (run cmds) c)).
Proof. exact (fun cmds => pess_rollback_idem _ (proj1 (run_sorted cmds))). Qed.
Print Assumptions C12_idempotent_pessimistic_rollback.

(* every write request as a whole: Prewrite, PessimisticLock, PessimisticRollback, Commit, BatchRollback, Cleanup,
   ResolveLock (single and TxnInfos form), TxnHeartBeat, CheckTxnStatus (same arguments, incl. the same current_ts;
   rollback_if_not_exist or not resolving_pessimistic_lock) - whatever it answered, repeating it answers the same
   (up to the Action of a status check) and leaves the store unchanged. What does NOT hold: see the Examples
   ex_cts_not_idempotent (resolving_pessimistic_lock without rollback_if_not_exist over an expired pessimistic lock:
   rolled back, then TxnNotFound - as in TiKV) and ex_cts_moving_current_ts (a later current_ts is another request). *)
Theorem C12_idempotent_every_write_request : forall cmds c, oracle_ts (cmds ++ [c]) = true -> idem_class_all c = true ->
  exists r2, step (fst (step (run cmds) c)) c = (fst (step (run cmds) c), r2)
             /\ resp_status r2 = resp_status (snd (step (run cmds) c)).
Proof. exact idem_all_seq. Qed.
Print Assumptions C12_idempotent_every_write_request.

(* ---- what a reader's status check / the owner's heartbeat pushed on a lock survives the owner's later requests:
   over any step that keeps the lock with the same owner, ttl does not decrease and min_commit_ts of a primary lock
   does not decrease, unless the step is the owner's own PessimisticLock request (a re-lock with a larger for-update ts
   writes the request's ttl / min_commit_ts, as TiKV does: ex_relock_exception); a commit below the lock's
   min_commit_ts is refused and changes nothing *)
Theorem C12_lock_fields_monotone : forall cmds c k, lock_mono_ok (run cmds) (fst (step (run cmds) c)) c k = true.
Proof. exact (fun cmds => lock_fields_monotone _ (proj1 (run_sorted cmds))). Qed.
Print Assumptions C12_lock_fields_monotone.

Theorem C12_status_rolled_back_unlocked : forall cmds k s caller cur rine rp a,
  snd (step (run cmds) (CheckTxnStatus k s caller cur rine rp)) = RStatus 0 0 a ->
  a = ATTLExpireRollback \/ a = ATTLExpirePessimisticRollback ->
  own_lock (get_ks (fst (step (run cmds) (CheckTxnStatus k s caller cur rine rp))) k) s = None.
Proof. exact (fun cmds => status_unlocked _ (proj1 (run_sorted cmds))). Qed.
Print Assumptions C12_status_rolled_back_unlocked.

Theorem C12_commit_below_min_commit_refused : forall st keys s c, commit_must_be_refused st keys s c = true ->
  exists e, step st (Commit keys s c) = (st, RErr (Some e)).
Proof. exact commit_below_min_commit_refused. Qed.
Print Assumptions C12_commit_below_min_commit_refused.

(* ---- a prewrite arriving after the transaction's commit or rollback record is rejected and changes
   nothing, as long as no GC with safe point >= start ran in between *)
Theorem C12_late_prewrite_rejected : forall a b k s ms primary fu ttl mc ao,
  oracle_ts (a ++ b) = true -> has_write (run a) k s = true ->
  (forall c, In c b -> is_gc_over c s = false) ->
  (exists m, In m ms /\ m_key m = k /\ m_op m <> MCheckNotExists) ->
  exists es, step (run (a ++ b)) (Prewrite ms primary s fu ttl mc ao) = (run (a ++ b), RErrs es) /\ has_err es = true.
Proof.
  exact (fun a b k s ms primary fu ttl mc ao Ho Hw Hgc =>
           late_prewrite_store _ _ k s (oracle_world_ok _ Ho) (oracle_run_wf _ Ho) (marker_until_gc a b k s Ho Hw Hgc) ms primary fu ttl mc ao).
Qed.
Print Assumptions C12_late_prewrite_rejected.

Theorem C12_marker_until_gc : forall a b k s, oracle_ts (a ++ b) = true -> has_write (run a) k s = true ->
  (forall c, In c b -> is_gc_over c s = false) -> has_write (run (a ++ b)) k s = true.
Proof. exact marker_until_gc. Qed.
Print Assumptions C12_marker_until_gc.

(* every rollback path (batch rollback, cleanup, check-txn-status, resolve) leaves the record *)
Theorem C12_rollback_leaves_marker : forall cmds,
  let st := run cmds in
  (forall keys s, snd (step st (Rollback keys s)) = RErr None ->
                  forall k, In k keys -> rolled_back (fst (step st (Rollback keys s))) k s = true) /\
  (forall k s cur, snd (step st (Cleanup k s cur)) = RErr None -> rolled_back (fst (step st (Cleanup k s cur))) k s = true) /\
  (forall k s caller cur rine rp a, snd (step st (CheckTxnStatus k s caller cur rine rp)) = RStatus 0 0 a ->
        a = ATTLExpireRollback \/ a = ALockNotExistRollback ->
        rolled_back (fst (step st (CheckTxnStatus k s caller cur rine rp))) k s = true) /\
  (forall s0 e0 s k l, lock_of st k = Some l -> l_start l = s -> in_range s0 e0 k = true ->
        rolled_back (fst (step st (ResolveLock s0 e0 s 0))) k s = true /\ lock_of (fst (step st (ResolveLock s0 e0 s 0))) k = None).
Proof.
  exact (fun cmds => let Hs := proj1 (run_sorted cmds) in
           conj (rollback_leaves_marker _ Hs) (conj (cleanup_leaves_marker _ Hs) (conj (cts_leaves_marker _ Hs) (resolve_rollback_leaves_marker _ Hs)))).
Qed.
Print Assumptions C12_rollback_leaves_marker.

Theorem C12_commit_ok_committed : forall cmds keys s c, snd (step (run cmds) (Commit keys s c)) = RErr None ->
  forall k, In k keys -> committed (fst (step (run cmds) (Commit keys s c))) k s = true.
Proof. exact (fun cmds => commit_ok_committed _ (proj1 (run_sorted cmds))). Qed.
Print Assumptions C12_commit_ok_committed.

(* ---- reads: the answer of Get is the declarative one - the lock blocks iff start <= ts, op in {Put,Del},
   not the max-ts read of the lock's own primary, not in the resolved list; otherwise the value of the
   visible Put/Delete record of greatest commit ts (order-independent definition) *)
Theorem C12_read : forall cmds k t resolved, get (run cmds) k t resolved = spec_get (run cmds) k t resolved.
Proof. exact read_correct. Qed.
Print Assumptions C12_read.

Theorem C12_read_newest : forall ws t,
  match newest_visible ws t with
  | Some w => In w ws /\ visible t w = true /\ forall x, In x ws -> visible t x = true -> w_commit x <= w_commit w
  | None => forall x, In x ws -> visible t x = false
  end.
Proof. exact newest_visible_max. Qed.
Print Assumptions C12_read_newest.

Theorem C12_scan_is_gets : forall cmds s e limit t resolved,
  snd (step (run cmds) (Scan s e limit t resolved)) = RPairs (spec_scan (run cmds) s e limit t resolved).
Proof. exact (fun cmds => scan_spec _ (proj1 (run_sorted cmds))). Qed.
Print Assumptions C12_scan_is_gets.

Theorem C12_reverse_mirror : forall cmds s e limit t resolved,
  snd (step (run cmds) (ReverseScan s e limit t resolved)) = RPairs (spec_rscan (run cmds) s e limit t resolved).
Proof. exact (fun cmds => rscan_spec _ (proj1 (run_sorted cmds))). Qed.
Print Assumptions C12_reverse_mirror.

(* ---- ScanLock lists exactly the locks of the keys of [s,e) whose start ts is at most max, each with its full lock
   record (primary, start ts, type, ttl, for-update ts are what the code reports; min_commit_ts is not reported) *)
Theorem C12_scan_lock : forall cmds s e m k l,
  (exists ls, snd (step (run cmds) (ScanLock s e m)) = RLocks ls /\
              (In (k, l) ls <-> in_range s e k = true /\ lock_of (run cmds) k = Some l /\ l_start l <= m)).
Proof. exact (fun cmds => scan_lock_locks _ (proj1 (run_sorted cmds))). Qed.
Print Assumptions C12_scan_lock.

(* the ScanLock REQUEST as handleKvScanLock serves it (since /repo 9f23e58): start key / end key clipped to the region
   [rs,re), at most [limit] locks (0 = no limit): the first [limit] locks, in ascending key order, of the locks of the
   clipped window with start ts <= max *)
Theorem C12_scan_lock_handler : forall cmds rs re s e limit max,
  exists ls, handler_scan_lock (run cmds) rs re s e limit max = cut_limit limit ls /\
             (forall k l, In (k, l) ls <-> in_range (clip_start rs s) (clip_end re e) k = true /\ lock_of (run cmds) k = Some l /\ l_start l <= max) /\
             Sorted.StronglySorted N.lt (map fst ls).
Proof. exact (fun cmds => handler_scan_lock_locks _ (proj1 (run_sorted cmds))). Qed.
Print Assumptions C12_scan_lock_handler.

(* ---- isolation level RC: Get / BatchGet / Scan / ReverseScan answer what the SI read answers on the store
   with every lock removed (any state) *)
Theorem C12_rc_ignores_locks : forall st q,
  snd (step st (Rc q)) =
  match q with
  | QGet k t => get (unlocked st) k t []
  | QBatchGet ks t => snd (step (unlocked st) (BatchGet ks t []))
  | QScan s e limit t => snd (step (unlocked st) (Scan s e limit t []))
  | QReverseScan s e limit t => snd (step (unlocked st) (ReverseScan s e limit t []))
  end.
Proof. exact rc_reads. Qed.
Print Assumptions C12_rc_ignores_locks.

(* ---- DeleteRange removes every row of the keys of [s,e) and nothing else *)
Theorem C12_delete_range : forall cmds s e k,
  get_ks (fst (step (run cmds) (DeleteRange s e))) k = if in_range s e k then empty_ks else get_ks (run cmds) k.
Proof. exact (fun cmds => delete_range_get _ (proj1 (run_sorted cmds))). Qed.
Print Assumptions C12_delete_range.

(* ---- GC *)
(* against a predicate independent of the model's own branch condition: a key of [s,e) carrying a lock with
   start ts <= safe point makes GC answer the error and change nothing; without such a key GC runs *)
Theorem C12_gc_refuses_lock : forall cmds s e sp,
  let st := run cmds in
  ((exists k l, in_range s e k = true /\ lock_of st k = Some l /\ l_start l <= sp) ->
   step st (GC s e sp) = (st, RErr (Some (EAbort AGcLock)))) /\
  (~ (exists k l, in_range s e k = true /\ lock_of st k = Some l /\ l_start l <= sp) ->
   snd (step st (GC s e sp)) = RErr None).
Proof. exact (fun cmds => gc_refuses_lock _ (proj1 (run_sorted cmds))). Qed.
Print Assumptions C12_gc_refuses_lock.

(* GC at the same safe point twice: same answer, and the second run leaves every key exactly as the first left it *)
Theorem C12_idempotent_gc : forall cmds s e sp,
  let st1 := fst (step (run cmds) (GC s e sp)) in
  snd (step st1 (GC s e sp)) = snd (step (run cmds) (GC s e sp)) /\ forall k, get_ks (fst (step st1 (GC s e sp))) k = get_ks st1 k.
Proof. exact (fun cmds => gc_idem _ (proj1 (run_sorted cmds))). Qed.
Print Assumptions C12_idempotent_gc.

Theorem C12_gc_preserves_reads : forall cmds s e sp k t resolved,
  gc_refused (run cmds) s e sp = false -> sp <= t ->
  get (fst (step (run cmds) (GC s e sp))) k t resolved = get (run cmds) k t resolved.
Proof. exact (fun cmds => gc_keeps_reads _ (run_sorted cmds)). Qed.
Print Assumptions C12_gc_preserves_reads.

(* ---- behaviours fixed by definition (TiKV's), per key, any state *)
Theorem C12_own_pess_prewrite_not_rechecked : forall ks m s p ttl mc ao l e,
  ks_lock ks = Some l -> l_start l = s -> is_pess l = true ->
  (forall w, In w (ks_writes ks) -> w_commit w <= max_ts) ->
  prewrite_key ks m s p ttl mc ao = KErr e -> is_write_conflict e = false.
Proof. exact own_pess_prewrite_not_rechecked. Qed.
Print Assumptions C12_own_pess_prewrite_not_rechecked.

Theorem C12_pess_lock_over_prewrite_refused : forall ks r k ne l,
  ks_lock ks = Some l -> l_start l = p_start r -> is_pess l = false -> exists e, pess_lock_key ks r k ne = inl e.
Proof. exact pess_lock_over_prewrite_refused. Qed.
Print Assumptions C12_pess_lock_over_prewrite_refused.

Theorem C12_commit_pess_lock_no_data : forall ks l s c t, is_pess l = true -> ~ In c (map w_commit (ks_writes ks)) ->
  read_writes (ks_writes (commit_lock ks l s c)) t = read_writes (ks_writes ks) t.
Proof. exact commit_pess_lock_no_data. Qed.
Print Assumptions C12_commit_pess_lock_no_data.

(* ---- the deadlock detector (state that survives across calls; Mvcc/Deadlock.v: [dstep], [drun]) *)
(* the wait-for graph stays acyclic over every command sequence ... *)
Theorem C12_deadlock_graph_acyclic : forall cmds, acyclic (snd (drun cmds)).
Proof. exact drun_acyclic. Qed.
Print Assumptions C12_deadlock_graph_acyclic.

(* ... hence doDetect - a DFS WITHOUT a visited set - terminates: recursion depth |waitForMap|+1 always suffices *)
Theorem C12_deadlock_detector_terminates : forall cmds s w k, snd (detect (snd (drun cmds)) s w k) <> VOutOfFuel.
Proof. exact (fun cmds s w k => detect_terminates _ s w k (drun_acyclic cmds)). Qed.
Print Assumptions C12_deadlock_detector_terminates.

Theorem C12_deadlock_no_fuel_error : forall cmds r,
  match snd (dstep (drun cmds) (PessLock r)) with RPessD es _ => no_fuel_err es | RD _ => True end.
Proof. exact drun_no_fuel_error. Qed.
Print Assumptions C12_deadlock_no_fuel_error.

(* ... and its verdict is exactly reachability: Deadlock iff the lock holder (transitively) waits for the requester *)
Theorem C12_deadlock_verdict_is_reachability : forall cmds s w k,
  let d := snd (drun cmds) in
  (forall wk, snd (detect d s w k) = VDeadlock wk -> reach d w s) /\ (snd (detect d s w k) = VWait -> ~ reach d w s).
Proof. exact (fun cmds s w k => detect_spec _ s w k (drun_acyclic cmds)). Qed.
Print Assumptions C12_deadlock_verdict_is_reachability.

(* commit / batch rollback / cleanup of a transaction drop its wait-for edges, whatever they answer *)
Theorem C12_deadlock_finish_clears_edges : forall sd c s, finishes c = Some s -> d_get (snd (fst (dstep sd c))) s = [].
Proof. exact finish_clears_edges. Qed.
Print Assumptions C12_deadlock_finish_clears_edges.

(* the store of the layered model is the store of [run]: every theorem above about [run cmds] holds with the detector *)
Theorem C12_deadlock_store_refines : forall cmds, fst (drun cmds) = run cmds.
Proof. exact drun_store. Qed.
Print Assumptions C12_deadlock_store_refines.

(* ------------------------------------------------------------------ non-vacuity *)
Example ex_disciplined : oracle_ts ex_cmds = true.
Proof. vm_compute. reflexivity. Qed.
Example ex_state : committed (run ex_cmds) 1 (T 2) = true /\ rolled_back (run (firstn 12 ex_cmds)) 2 (T 4) = true
                   /\ get (run ex_cmds) 1 (T 10) [] = RGet (Some (33, T 8)).
Proof. vm_compute. repeat split. Qed.
Example ex_late_prewrite : has_write (run (firstn 9 ex_cmds)) 2 (T 1) = true
                           /\ snd (step (run (firstn 9 ex_cmds)) (put 2 1)) = RErrs [Some EAlreadyRolledBack].
Proof. vm_compute. split; reflexivity. Qed.
Example ex_idem_class : idem_class (Commit [1] (T 2) (T 8)) = true /\ oracle_ts (firstn 8 ex_cmds ++ [Commit [1] (T 2) (T 8)]) = true.
Proof. vm_compute. split; reflexivity. Qed.
(* the discipline is needed: a pessimistic lock request after the commit record lets the mock roll the
   committed transaction back on that key *)
Example ex_bad_not_disciplined : oracle_ts ex_bad = false
  /\ committed (run ex_bad) 1 (T 1) = true /\ rolled_back (run ex_bad) 1 (T 1) = true.
Proof. vm_compute. repeat split. Qed.
Example ex_gc : gc_refused (run ex_cmds) 0 0 (T 9) = false /\ gc_refused (run (firstn 5 ex_cmds)) 0 0 (T 9) = true.
Proof. vm_compute. split; reflexivity. Qed.

(* ---- idempotence: what does not hold / why the side conditions are there *)
Example ex_cts_not_idempotent :
  let st := run [pl1 (T 1) (T 2) 1 0] in
  let c := CheckTxnStatus 1 (T 1) (T 9) (T 9) false true in
  snd (step st c) = RStatus 0 0 ATTLExpirePessimisticRollback /\ snd (step (fst (step st c)) c) = RErr (Some ETxnNotFound)
  /\ idem_class_all c = false.
Proof. vm_compute. repeat split. Qed.
Example ex_cts_moving_current_ts :
  let st := run [put 1 1] in
  snd (step st (CheckTxnStatus 1 (T 1) (T 9) (T 1) true false)) = RStatus 1 0 ANoAction
  /\ snd (step st (CheckTxnStatus 1 (T 1) (T 9) (T 9) true false)) = RStatus 0 0 ATTLExpireRollback.
Proof. vm_compute. split; reflexivity. Qed.
(* the lock-field exception is needed: the owner's re-lock with a larger for-update ts lowers a heartbeat-extended ttl *)
Example ex_relock_exception :
  let st := run [pl1 (T 1) (T 2) 1 0; HeartBeat 1 (T 1) 40] in
  option_map l_ttl (lock_of st 1) = Some 40
  /\ option_map l_ttl (lock_of (fst (step st (pl1 (T 1) (T 3) 1 0))) 1) = Some 1.
Proof. vm_compute. split; reflexivity. Qed.
(* a pushed min_commit_ts survives the prewrite over the own pessimistic lock, and the commit below it is refused *)
Example ex_pushed_min_commit_kept :
  let st := run [pl1 (T 1) (T 2) 9 (T 1 + 1); CheckTxnStatus 1 (T 1) (T 6) (T 3) true false;
                 Prewrite [mkMut MPut 1 5 AsNone false] 1 (T 1) (T 2) 1 0 false] in
  option_map l_min_commit (lock_of st 1) = Some (T 6 + 1)
  /\ step st (Commit [1] (T 1) (T 4)) = (st, RErr (Some (ECommitTsExpired (T 6 + 1)))).
Proof. vm_compute. split; reflexivity. Qed.
(* timestamps: the code keeps the lock of a key in the row of version 2^64-1, so 2^64-1 is no usable start / commit ts
   (on the code a commit at 2^64-1 answers ok and leaves no record: docs/C12.md); in the model, which has no such row
   collision, the side condition start <> 2^64-1 of C12_idempotent_prewrite is needed: *)
Example ex_prewrite_at_max_ts_not_idempotent :
  let st := run [put 1 1; Commit [1] (T 1) (T 2); Prewrite [mkMut MDel 1 0 AsNone false] 1 (T 3) 0 1 0 false; Commit [1] (T 3) max_ts] in
  let c := Prewrite [mkMut MInsert 1 7 AsNone false] 1 max_ts 0 1 0 false in
  snd (step st c) = RErrs [None] /\ snd (step (fst (step st c)) c) = RErrs [Some (EAlreadyExist 1)].
Proof. vm_compute. split; reflexivity. Qed.

(* ---- deadlock detector *)
Example ex_deadlock_two_cycle :
  snd (dstep (drun [plk (T 1) 1; plk (T 2) 2; plk (T 1) 2]) (plk (T 2) 1))
  = RPessD [EDeadlock (T 1) 1 2] []
  /\ snd (drun [plk (T 1) 1; plk (T 2) 2; plk (T 1) 2]) = [(T 1, [(T 2, 2)])].
Proof. vm_compute. split; reflexivity. Qed.
(* the waiter's batch rollback drops its edges: no deadlock any more *)
Example ex_deadlock_cleared_by_rollback :
  match snd (dstep (drun [plk (T 1) 1; plk (T 2) 2; plk (T 1) 2; Rollback [3] (T 1)]) (plk (T 2) 1)) with
  | RPessD [EPlain (ELocked _ _)] [] => True | _ => False end.
Proof. vm_compute. exact I. Qed.
(* the code as it is: releasing the locks (pessimistic rollback) does not clear edges - a stale edge still closes a "cycle" *)
Example ex_deadlock_stale_edge :
  match snd (dstep (drun [plk (T 1) 1; plk (T 2) 2; plk (T 1) 2; PessRollback 0 0 [] (T 2) (T 9); plk (T 1) 2]) (plk (T 2) 1)) with
  | RPessD [EDeadlock _ _ _] [] => True | _ => False end.
Proof. vm_compute. exact I. Qed.
(* acyclicity is what makes the DFS terminate: on a cyclic graph (unreachable by the theorem) the fuel runs out *)
Example ex_cyclic_graph_runs_out_of_fuel :
  do_detect 3 [(1, [(2, 5)]); (2, [(1, 5)])] 9 1 = None /\ do_detect 50 [(1, [(2, 5)]); (2, [(1, 5)])] 9 1 = None.
Proof. vm_compute. split; reflexivity. Qed.

(* ---- handler-level scan lock: window clipped to the region, cut at limit *)
Example ex_scan_lock_handler :
  let st := run [plk (T 1) 1; plk (T 2) 2; plk (T 3) 3; plk (T 4) 4] in
  map fst (handler_scan_lock st 0 3 2 0 0 (T 9)) = [2] /\ map fst (handler_scan_lock st 3 0 1 0 1 (T 9)) = [3]
  /\ map fst (handler_scan_lock st 0 0 0 0 3 (T 9)) = [1; 2; 3] /\ map fst (handler_scan_lock st 0 0 2 4 0 (T 2)) = [2].
Proof. vm_compute. repeat split. Qed.

Example ex_gc_twice :
  let st := run (firstn 12 ex_cmds) in
  writes_of (fst (step st (GC 0 0 (T 9)))) 1 <> writes_of st 1
  /\ fst (step (fst (step st (GC 0 0 (T 9)))) (GC 0 0 (T 9))) = fst (step st (GC 0 0 (T 9))).
Proof. vm_compute. split; [discriminate|reflexivity]. Qed.
