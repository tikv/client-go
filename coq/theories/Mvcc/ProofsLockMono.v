(* Mvcc/ProofsLockMono.v — the fields a reader's status check or the owner's heartbeat pushed on a lock
   survive the owner's later requests: ttl never decreases, min_commit_ts of a primary lock never decreases
   (exception, as in TiKV: a pessimistic lock request of the owner with a larger for-update ts rewrites the
   lock with the request's values); a commit below the lock's min_commit_ts is refused. *)
From Verif Require Import Mvcc.Model Mvcc.Spec Mvcc.ProofsStore Mvcc.ProofsKey Mvcc.ProofsKstep Mvcc.ProofsShape.

(* the owner re-requests its pessimistic lock *)
Definition relocks (c : cmd) (s : ts) : bool := match c with PessLock r => p_start r =? s | _ => false end.
Definition lock_fields_le (k : key) (l l' : lock) : bool :=
  (l_ttl l <=? l_ttl l') && (negb (l_primary l' =? k) || (l_min_commit l <=? l_min_commit l')).
(* boolean form evaluated by the check on the implementation's dumps *)
Definition lock_mono_ok (before after : store) (c : cmd) (k : key) : bool :=
  match lock_of before k, lock_of after k with
  | Some l, Some l' => negb (l_start l =? l_start l') || relocks c (l_start l) || lock_fields_le k l l'
  | _, _ => true
  end.
Definition commit_must_be_refused (st : store) (keys : list key) (s c : ts) : bool :=
  existsb (fun k => match own_lock (get_ks st k) s with Some l => c <? l_min_commit l | None => false end) keys.

Lemma lock_fields_le_refl k l : lock_fields_le k l l = true.
Proof. unfold lock_fields_le. rewrite !N.leb_refl. rewrite orb_true_r. reflexivity. Qed.

Lemma lock_fields_le_intro k l l' : l_ttl l <= l_ttl l' -> (l_primary l' = k -> l_min_commit l <= l_min_commit l') ->
  lock_fields_le k l l' = true.
Proof.
  intros Ht Hm. unfold lock_fields_le. apply andb_true_iff. split; [apply N.leb_le; exact Ht|].
  destruct (N.eqb_spec (l_primary l') k); [apply N.leb_le; auto|reflexivity].
Qed.

Lemma kmove_lock_mono c ks x k l l' : kmove c ks x -> ks_lock ks = Some l -> ks_lock x = Some l' -> lock_fields_le k l l' = true.
Proof.
  intros Hm El El'. destruct Hm as [l0 l1 E0 _ _ Ht Hc| |l0 s cts|l0 s|s|s e sp|s e];
    cbn [ks_lock commit_lock rollback_lock write_rollback empty_ks] in El'; try discriminate.
  - rewrite El in E0. inversion E0; inversion El'; subst. apply lock_fields_le_intro; auto.
  - rewrite El in El'. inversion El'. apply lock_fields_le_refl.
  - rewrite El in El'. inversion El'. apply lock_fields_le_refl.
Qed.

Lemma kstep_lock_mono st c k x l l' : kstep st c k x ->
  ks_lock (get_ks st k) = Some l -> ks_lock x = Some l' -> l_start l' = l_start l -> relocks c (l_start l) = false ->
  lock_fields_le k l l' = true.
Proof.
  intros H El El' Es Hre. pose proof (kstep_move st c k x H) as Hm. destruct c; try (eapply kmove_lock_mono; eassumption).
  - (* Prewrite over the own pessimistic lock: ttl and min_commit_ts are maxima *)
    destruct H as [m [_ [Ek H]]]. destruct (prewrite_key_written _ _ _ _ _ _ _ _ H) as [l0 [Ex [_ [Ep [_ Hb]]]]]. subst x.
    inversion El'; subst l0. rewrite El in Hb. destruct Hb as [_ [_ [Ht Hc]]]. apply lock_fields_le_intro; [exact Ht|]. intros E. apply Hc. congruence.
  - (* PessLock: the new lock belongs to the requester *)
    destruct H as [ne [res [_ H]]]. rewrite (pess_lock_key_written _ _ _ _ _ _ H) in El'. inversion El'; subst l'.
    cbn [pess_new_lock l_start relocks] in *. rewrite Es, N.eqb_refl in Hre. discriminate.
Qed.

Theorem lock_fields_monotone st : keys_sorted st -> forall c k, lock_mono_ok st (fst (step st c)) c k = true.
Proof.
  intros Hs c k. unfold lock_mono_ok, lock_of. destruct (step_kstep st c Hs) as [_ Hr].
  destruct (ks_lock (get_ks st k)) as [l|] eqn:El; [|reflexivity].
  destruct (ks_lock (get_ks (fst (step st c)) k)) as [l'|] eqn:El'; [|reflexivity].
  destruct (N.eqb_spec (l_start l) (l_start l')) as [Es|]; cbn [negb orb]; [|reflexivity].
  destruct (relocks c (l_start l)) eqn:Hre; cbn [orb]; [reflexivity|].
  destruct (Hr k) as [E|H].
  - rewrite E, El in El'. inversion El'; subst. apply lock_fields_le_refl.
  - eapply kstep_lock_mono; [exact H|exact El|exact El'|congruence|exact Hre].
Qed.

Lemma bfe_some_error st f keys : (exists k e, In k keys /\ f (get_ks st k) = KErr e) ->
  forall acc, exists e', batch_first_err st acc f keys = (st, RErr (Some e')).
Proof.
  intros [k [e [Hin He]]] acc. destruct (bfe_cases st f keys acc) as [[k' [e' [_ [_ H]]]]|[Hok _]]; [eauto|].
  destruct (Hok k Hin) as [o Ho]. congruence.
Qed.
Theorem commit_below_min_commit_refused st keys s c : commit_must_be_refused st keys s c = true ->
  exists e, step st (Commit keys s c) = (st, RErr (Some e)).
Proof.
  intros H. apply existsb_exists in H. destruct H as [k [Hin Hk]]. cbn [step]. apply bfe_some_error.
  exists k. destruct (own_lock (get_ks st k) s) as [l|] eqn:Eo; [|discriminate].
  exists (ECommitTsExpired (l_min_commit l)). split; [exact Hin|]. unfold commit_key. rewrite Eo, Hk. reflexivity.
Qed.

Lemma status_unlocked st : keys_sorted st -> forall k s caller cur rine rp a,
  snd (step st (CheckTxnStatus k s caller cur rine rp)) = RStatus 0 0 a ->
  a = ATTLExpireRollback \/ a = ATTLExpirePessimisticRollback ->
  own_lock (get_ks (fst (step st (CheckTxnStatus k s caller cur rine rp))) k) s = None.
Proof.
  intros Hs k s caller cur rine rp a. cbn [step]. destruct (check_txn_status_key (get_ks st k) k s caller cur rine rp) as [o r] eqn:E. cbn [fst snd].
  intros Er Ha. subst r. rewrite get_apply_same by exact Hs.
  apply cts_key_rolled_back in E. destruct Ha; subst a o; reflexivity.
Qed.

