(* Mvcc/ProofsStep.v — [wf_store] is preserved by every step under the discipline; hence by
   every run accepted by [oracle_ts]. Consequence: exclusive outcome. *)
From Verif Require Import Mvcc.Model Mvcc.Spec Mvcc.ProofsStore Mvcc.ProofsKey Mvcc.ProofsKstep Mvcc.ProofsShape.

Definition wf_store (W : world) (st : store) : Prop := keys_sorted st /\ forall k, wf_ks W (get_ks st k).
Definition cmd_in (W : world) (c : cmd) : Prop :=
  incl (cmd_starts c) (w_starts W) /\ incl (cmd_pairs c) (w_pairs W).

Lemma wf_store_nil W : wf_store W [].
Proof. split; [apply keys_sorted_nil|]. intros k. apply wf_empty. Qed.

Lemma has_write_true st k s : has_write st k s = true <-> In s (map w_start (ks_writes (get_ks st k))).
Proof.
  unfold has_write, writes_of. rewrite existsb_exists, in_map_iff.
  split; intros [w H]; exists w; rewrite N.eqb_eq in *; tauto.
Qed.
Lemma has_write_false st k s : has_write st k s = false -> ~ In s (map w_start (ks_writes (get_ks st k))).
Proof. intros H Hin. apply has_write_true in Hin. congruence. Qed.

Lemma run_from_inv (P : store -> Prop) cmds :
  (forall st c, In c cmds -> lock_req_ok st c = true -> P st -> P (fst (step st c))) ->
  forall st, disciplined_from st cmds = true -> P st -> P (run_from st cmds).
Proof.
  induction cmds as [|c r IH]; intros Hstep st Hd Hp; [exact Hp|]. cbn [disciplined_from] in Hd. apply andb_true_iff in Hd. destruct Hd as [Hreq Hd].
  apply (IH (fun st0 c0 Hin => Hstep st0 c0 (or_intror Hin))); [exact Hd|]. apply Hstep; [left; reflexivity|exact Hreq|exact Hp].
Qed.

Section Step.
  Variable W : world.
  Hypothesis HW : World_ok W.

  Lemma kmove_wf c ks x : wf_ks W ks -> cmd_in W c -> kmove c ks x -> wf_ks W x.
  Proof.
    intros Hwf [Hcs Hcp] Hm. destruct Hm as [l l' El Es _ _ _| |l s cts Eo Hp|l s Eo Hs|s Eo Ef Hs|s e sp _|s e _].
    - destruct (wf_lock _ _ Hwf l El). apply wf_set_lock; rewrite ?Es; assumption.
    - apply wf_drop_lock; exact Hwf.
    - apply own_lock_some in Eo. destruct Eo. eapply commit_lock_wf; eauto.
    - apply own_lock_some in Eo. destruct Eo. eapply rollback_lock_wf; eauto.
    - apply write_rollback_wf; auto.
    - apply gc_wf; exact Hwf.
    - apply wf_empty.
  Qed.

  Lemma kstep_wf st c k x : wf_ks W (get_ks st k) -> cmd_in W c -> lock_req_ok st c = true ->
    kstep st c k x -> wf_ks W x.
  Proof.
    intros Hwf Hc Hreq H. pose proof (kstep_move st c k x H) as Hm. destruct c; try (eapply kmove_wf; eassumption).
    - destruct H as [m [_ [_ H]]]. eapply prewrite_key_wf; [exact HW|exact Hwf| |exact H]. apply Hc; left; reflexivity.
    - destruct H as [ne [res [Hin H]]]. eapply pess_lock_key_wf; [exact Hwf| | |exact H].
      + apply Hc; left; reflexivity.
      + apply has_write_false. cbn [lock_req_ok] in Hreq. rewrite forallb_forall in Hreq.
        specialize (Hreq _ Hin). apply negb_true_iff in Hreq. exact Hreq.
  Qed.

  Theorem step_wf st c : wf_store W st -> cmd_in W c -> lock_req_ok st c = true -> wf_store W (fst (step st c)).
  Proof.
    intros [Hs Hk] Hc Hreq. apply (step_inv (wf_ks W) st c Hs Hk).
    intros k x H Hwf. eapply kstep_wf; eauto.
  Qed.

  Lemma run_from_wf cmds : forall st, wf_store W st -> (forall c, In c cmds -> cmd_in W c) ->
    disciplined_from st cmds = true -> wf_store W (run_from st cmds).
  Proof.
    intros st Hst Hin Hd. apply (run_from_inv (wf_store W) cmds); [|exact Hd|exact Hst].
    intros st0 c Hc Hreq H0. apply step_wf; auto.
  Qed.
End Step.

Lemma cmd_in_world_of cmds c : In c cmds -> cmd_in (world_of cmds) c.
Proof.
  intros Hin. split; intros x Hx; cbn [world_of w_starts w_pairs]; apply in_flat_map; exists c; split; assumption.
Qed.

Lemma run_is_run_from cmds : run cmds = run_from [] cmds.
Proof. reflexivity. Qed.

Lemma oracle_world_ok cmds : oracle_ts cmds = true -> World_ok (world_of cmds).
Proof. intros H. apply andb_true_iff in H. apply world_ok_spec, H. Qed.

Theorem oracle_run_wf cmds : oracle_ts cmds = true -> wf_store (world_of cmds) (run cmds).
Proof.
  intros H. rewrite run_is_run_from. apply run_from_wf.
  - apply oracle_world_ok; exact H.
  - apply wf_store_nil.
  - intros c Hc. apply cmd_in_world_of; exact Hc.
  - apply andb_true_iff in H. apply H.
Qed.

Lemma disciplined_app st a b : disciplined_from st (a ++ b) = true ->
  disciplined_from st a = true /\ disciplined_from (run_from st a) b = true.
Proof.
  revert st. induction a as [|c r IH]; intros st H; cbn [app disciplined_from run_from fold_left] in *; [split; [reflexivity|exact H]|].
  apply andb_true_iff in H. destruct H as [H1 H2]. destruct (IH _ H2) as [H3 H4]. split; [|exact H4].
  apply andb_true_iff; split; assumption.
Qed.

Lemma nodup_map_inj {A B} (f : A -> B) (l : list A) a b : NoDup (map f l) -> In a l -> In b l -> f a = f b -> a = b.
Proof.
  induction l as [|x r IH]; intros Hnd Ha Hb E; [destruct Ha|].
  cbn [map] in Hnd. inversion Hnd as [|? ? Hx Hr]; subst.
  destruct Ha as [Ha|Ha], Hb as [Hb|Hb]; subst; auto.
  - exfalso. apply Hx. rewrite E. apply in_map; exact Hb.
  - exfalso. apply Hx. rewrite <- E. apply in_map; exact Ha.
Qed.

(* at most one record per (key, start): never both outcomes *)
Lemma wf_exclusive W st : wf_store W st -> forall k s, ~ (committed st k s = true /\ rolled_back st k s = true).
Proof.
  intros [_ Hk] k s [Hc Hr]. specialize (Hk k).
  unfold committed, rolled_back, writes_of in *. apply existsb_exists in Hc. apply existsb_exists in Hr.
  destruct Hc as [w1 [H1 E1]]. destruct Hr as [w2 [H2 E2]].
  apply andb_true_iff in E1. apply andb_true_iff in E2. destruct E1 as [E1 R1]. destruct E2 as [E2 R2].
  apply N.eqb_eq in E1. apply N.eqb_eq in E2.
  assert (w1 = w2) by (eapply nodup_map_inj; [exact (wf_nodup _ _ Hk)|exact H1|exact H2|congruence]).
  subst w2. rewrite R2 in R1. discriminate.
Qed.

