(* Mvcc/ProofsDeadlock2.v — the detector inside the store: acyclicity over all command sequences, the DFS never
   runs out of fuel, and the layered store [drun] has exactly the store of [run] (so every C12 theorem about the
   store of [run cmds] holds for the store with the detector). *)
From Verif Require Import Mvcc.Model Mvcc.Deadlock Mvcc.ProofsKey Mvcc.ProofsDef Mvcc.ProofsDeadlock.

Definition not_locked (e : err) : Prop := match e with ELocked _ _ => False | _ => True end.

Lemma ccv_not_locked a gv ao al ws e : ccv a gv ao al ws = CErr e -> not_locked e.
Proof. intros H. destruct (ccv_err _ _ _ _ _ _ H); destruct e; try discriminate; exact I. Qed.

Lemma ccv_ok_conflict a gv ao al ws v c : ccv a gv ao al ws = COk v (Some c) -> exists x y z u, c = EWriteConflict x y z u.
Proof.
  unfold ccv. destruct ws as [|w r]; [destruct (_ && _ && _); [discriminate|intros E; inversion E]|].
  destruct (c_for_update a <? w_commit w).
  - destruct al; [|discriminate]. destruct (ccv_loop _ _ _ _ _ _ _ _); [discriminate|]. intros E; inversion E; subst. eauto.
  - destruct al; (destruct (ccv_loop _ _ _ _ _ _ _ _); [discriminate|]; intros E; inversion E).
Qed.

Lemma pess_res_not_locked ws r k ne e : pess_res ws r k ne = inl e -> not_locked e.
Proof.
  unfold pess_res. destruct (ccv _ true false (p_force r) ws) as [e0|v cf] eqn:Ec.
  - intros E; inversion E; subst. eapply ccv_not_locked; exact Ec.
  - destruct cf as [c|]; [|discriminate]. destruct (ccv_ok_conflict _ _ _ _ _ _ _ Ec) as [x [y [z [u Ecf]]]]. subst c. discriminate.
Qed.

Lemma pess_lock_key_locked ks r k ne k' l : pess_lock_key ks r k ne = inl (ELocked k' l) -> l_start l <> p_start r.
Proof.
  unfold pess_lock_key. destruct (p_lock_only_if_exists r && negb (p_return_values r)); [discriminate|].
  assert (G : forall al, pess_lock_go ks r k ne al <> inl (ELocked k' l)).
  { intros al H. rewrite pess_lock_go_eq in H. destruct (pess_res (ks_writes ks) r k ne) as [e|[res ex]] eqn:Er; [|discriminate].
    inversion H; subst e. exact (pess_res_not_locked _ _ _ _ _ Er). }
  destruct (ks_lock ks) as [l0|]; [|intros H; destruct (G _ H)].
  destruct (N.eqb_spec (l_start l0) (p_start r)) as [E|E]; cbn [negb]; [|intros H; inversion H; subst; exact E].
  destruct (negb (is_pess l0)); [discriminate|]. intros H; destruct (G _ H).
Qed.

Definition no_fuel_err (es : list errd) : Prop := Forall (fun e => e <> EDetectorOutOfFuel) es.

Lemma pess_lock_all_d_inv st r : forall keys acc d, acyclic d ->
  let '(a, d', es, rs) := pess_lock_all_d st acc d r keys in acyclic d' /\ no_fuel_err es.
Proof.
  induction keys as [|[k ne] rest IH]; intros acc d Hac; cbn [pess_lock_all_d]; [split; [exact Hac|constructor]|].
  destruct (pess_lock_key (get_ks st k) r k ne) as [e|[res o]] eqn:Ek.
  - destruct (match e with ELocked _ _ => _ | _ => _ end) as [[d1 e1] stop] eqn:Et.
    assert (H1 : acyclic d1 /\ e1 <> EDetectorOutOfFuel).
    { destruct e; try (inversion Et; subst; split; [exact Hac|discriminate]).
      (* KeyIsLocked names another transaction: Detect keeps the graph acyclic and does not run out of fuel *)
      pose proof (pess_lock_key_locked _ _ _ _ _ _ Ek) as Hne.
      pose proof (detect_acyclic d (p_start r) (l_start l) k Hac (fun E => Hne (eq_sym E))) as Hd.
      pose proof (detect_terminates d (p_start r) (l_start l) k Hac) as Hf.
      destruct (detect d (p_start r) (l_start l) k) as [d' []]; inversion Et; subst; cbn [fst snd] in *;
        [split; [exact Hd|discriminate]..|destruct (Hf eq_refl)]. }
    destruct H1 as [Hd He]. destruct stop; [split; [exact Hd|repeat constructor; exact He]|].
    specialize (IH acc d1 Hd). destruct (pess_lock_all_d st acc d1 r rest) as [[[a9 d9] es9] rs9]. split; [tauto|constructor; tauto].
  - specialize (IH (apply_opt acc k o) d Hac). destruct (pess_lock_all_d st (apply_opt acc k o) d r rest) as [[[a9 d9] es9] rs9]. exact IH.
Qed.

Lemma dstep_acyclic sd c : acyclic (snd sd) -> acyclic (snd (fst (dstep sd c))).
Proof.
  destruct sd as [st d]. cbn [snd]. intros Hac. destruct c; cbn [dstep];
    try (destruct (step st _) as [st' r0]; cbn [fst snd]; first [exact Hac|apply acyclic_del; exact Hac]).
  pose proof (pess_lock_all_d_inv st r (p_keys r) st d Hac) as H. destruct (pess_lock_all_d st st d r (p_keys r)) as [[[a d'] es] rs].
  destruct H as [H _]. destruct (_ && _); [exact H|]. destruct es; exact H.
Qed.

Lemma drun_from_acyclic cmds : forall sd, acyclic (snd sd) -> acyclic (snd (fold_left (fun sd c => fst (dstep sd c)) cmds sd)).
Proof. induction cmds as [|c r IH]; intros sd H; cbn [fold_left]; [exact H|]. apply IH. apply dstep_acyclic; exact H. Qed.

Theorem drun_acyclic cmds : acyclic (snd (drun cmds)).
Proof. apply drun_from_acyclic. intros a [l H]. destruct l; cbn in H; destruct H as [[k []] _]. Qed.

Theorem drun_no_fuel_error cmds r :
  match snd (dstep (drun cmds) (PessLock r)) with RPessD es _ => no_fuel_err es | RD _ => True end.
Proof.
  destruct (drun cmds) as [st d] eqn:E. pose proof (drun_acyclic cmds) as Hac. rewrite E in Hac. cbn [snd] in Hac. cbn [dstep].
  pose proof (pess_lock_all_d_inv st r (p_keys r) st d Hac) as H. destruct (pess_lock_all_d st st d r (p_keys r)) as [[[a d'] es] rs].
  destruct H as [_ H]. destruct (_ && _); cbn [snd]; [exact I|]. destruct es; cbn [snd]; [exact I|exact H].
Qed.

Lemma pess_lock_all_d_store st r : forall keys acc d,
  let '(a, d', es, rs) := pess_lock_all_d st acc d r keys in
  let '(a0, es0, rs0) := pess_lock_all st acc r keys in
  (es = [] <-> es0 = []) /\ (es0 = [] -> a = a0 /\ rs = rs0).
Proof.
  induction keys as [|[k ne] rest IH]; intros acc d; cbn [pess_lock_all_d pess_lock_all]; [split; [tauto|intros _; split; reflexivity]|].
  destruct (pess_lock_key (get_ks st k) r k ne) as [e|[res o]].
  - destruct (match e with ELocked _ _ => _ | _ => (d, EPlain e, false) end) as [[d1 e1] stop].
    destruct (if stop then (acc, d1, [], []) else pess_lock_all_d st acc d1 r rest) as [[[a d2] es] rs].
    destruct (if p_no_wait r && match e with ELocked _ _ => true | _ => false end then (acc, [], []) else pess_lock_all st acc r rest) as [[a0 es0] rs0].
    split; [split; discriminate|discriminate].
  - specialize (IH (apply_opt acc k o) d). destruct (pess_lock_all_d st (apply_opt acc k o) d r rest) as [[[a d2] es] rs].
    destruct (pess_lock_all st (apply_opt acc k o) r rest) as [[a0 es0] rs0]. destruct IH as [H1 H2]. split; [exact H1|].
    intros E. destruct (H2 E). split; congruence.
Qed.

Lemma dstep_store sd c : fst (fst (dstep sd c)) = fst (step (fst sd) c).
Proof.
  destruct sd as [st d]. cbn [fst]. destruct c; cbn [dstep]; try (destruct (step st _) as [st' r0]; reflexivity).
  cbn [step]. pose proof (pess_lock_all_d_store st r (p_keys r) st d) as H.
  destruct (pess_lock_all_d st st d r (p_keys r)) as [[[a d'] es] rs]. destruct (pess_lock_all st st r (p_keys r)) as [[a0 es0] rs0].
  destruct H as [H1 H2]. destruct es0 as [|e0 es0].
  - destruct (H2 eq_refl) as [Ea Er]. subst a0 rs0. assert (es = []) by (apply H1; reflexivity). subst es.
    cbn [andb]. destruct (negb (Nat.eqb (length rs) (length (p_keys r)))); reflexivity.
  - destruct es as [|e es]; [assert (e0 :: es0 = []) by (apply H1; reflexivity); discriminate|].
    destruct (p_force r && negb (Nat.eqb (length rs) (length (p_keys r)))); cbn [fst];
      destruct (p_force r && negb (Nat.eqb (length rs0) (length (p_keys r)))); reflexivity.
Qed.

Theorem drun_store cmds : fst (drun cmds) = run cmds.
Proof.
  unfold drun, run. assert (G : forall sd st, fst sd = st ->
    fst (fold_left (fun sd c => fst (dstep sd c)) cmds sd) = fold_left (fun st c => fst (step st c)) cmds st).
  { induction cmds as [|c r IH]; intros sd st E; cbn [fold_left]; [exact E|]. apply IH. rewrite dstep_store, E. reflexivity. }
  apply G. reflexivity.
Qed.

(* commit / batch rollback / cleanup of a transaction drop its outgoing edges, whatever they answer *)
Definition finishes (c : cmd) : option ts :=
  match c with Commit _ s _ | Rollback _ s | Cleanup _ s _ => Some s | _ => None end.
Theorem finish_clears_edges sd c s : finishes c = Some s -> d_get (snd (fst (dstep sd c))) s = [].
Proof.
  destruct sd as [st d]. destruct c; cbn [finishes]; try discriminate; intros E; inversion E; subst; cbn [dstep];
    destruct (step st _) as [st' r0]; cbn [fst snd]; rewrite d_get_del, N.eqb_refl; reflexivity.
Qed.
