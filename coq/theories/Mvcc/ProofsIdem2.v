(* Mvcc/ProofsIdem2.v — whole-request idempotence of Prewrite (any number of mutations, Insert /
   CheckNotExists pre-check included) and PessimisticLock (any number of keys, all modes). *)
From Verif Require Import Mvcc.Model Mvcc.Spec Mvcc.ProofsStore Mvcc.ProofsKey Mvcc.ProofsKstep Mvcc.ProofsShape Mvcc.ProofsIdem.

Lemma prewrite_item_ext a b m primary s fu ttl mc ao : get_ks a (m_key m) = get_ks b (m_key m) ->
  prewrite_item a m primary s fu ttl mc ao = prewrite_item b m primary s fu ttl mc ao.
Proof. intros E. unfold prewrite_item. rewrite E. reflexivity. Qed.

Definition item_trivial (i : option kres) : Prop := i = None \/ i = Some (KOk None).

Lemma prewrite_all_trivial st primary s fu ttl mc ao : forall ms acc,
  (forall m, In m ms -> item_trivial (prewrite_item st m primary s fu ttl mc ao)) ->
  exists es, prewrite_all st acc ms primary s fu ttl mc ao = (acc, es) /\ has_err es = false.
Proof.
  induction ms as [|m r IH]; intros acc H; cbn [prewrite_all]; [exists []; split; reflexivity|].
  destruct (IH acc (fun m0 Hm0 => H m0 (or_intror Hm0))) as [es [E He]].
  destruct (H m (or_introl eq_refl)) as [Ei|Ei]; rewrite Ei.
  - exists es. split; assumption.
  - cbn [apply_opt]. rewrite E. exists (None :: es). split; [reflexivity|exact He].
Qed.

Lemma prewrite_item_ok' st m primary s fu ttl mc ao o :
  prewrite_item st m primary s fu ttl mc ao = Some (KOk o) ->
  prewrite_key (get_ks st (m_key m)) m s primary ttl mc ao = KOk o.
Proof. apply prewrite_item_ok. Qed.

(* second run of an item on a key that the first run wrote *)
Lemma prewrite_item_second st acc m m' primary s fu ttl mc ao x :
  s <> max_ts ->
  (forall e, prewrite_item st m primary s fu ttl mc ao <> Some (KErr e)) ->
  m_key m' = m_key m -> prewrite_item st m' primary s fu ttl mc ao = Some (KOk (Some x)) -> get_ks acc (m_key m) = x ->
  item_trivial (prewrite_item acc m primary s fu ttl mc ao).
Proof.
  intros Hmax Hfirst Ek Hi Hx. apply prewrite_item_ok in Hi. rewrite Ek in Hi.
  destruct (prewrite_key_written _ _ _ _ _ _ _ _ Hi) as [l' [Ex [Es' [_ [Ep' Hb]]]]].
  (* the first run's pre-check of m passed on a key whose lock was absent or own-pessimistic: it read None at s *)
  assert (Hread : match m_op m with
                  | MInsert | MCheckNotExists => if fu =? 0 then read_writes (ks_writes (get_ks st (m_key m))) s = None else True
                  | _ => True end).
  { assert (Hv : get_ks_value (get_ks st (m_key m)) (m_key m) s [] = RdVal (read_writes (ks_writes (get_ks st (m_key m))) s)).
    { unfold get_ks_value. destruct (ks_lock (get_ks st (m_key m))) as [l|]; [|reflexivity]. destruct Hb as [_ [Ep _]].
      unfold lock_check. unfold is_pess in Ep. rewrite Ep, orb_true_r. reflexivity. }
    unfold prewrite_item in Hfirst. rewrite Hv in Hfirst.
    destruct (m_op m); try exact I; destruct (fu =? 0); try exact I;
      destruct (read_writes (ks_writes (get_ks st (m_key m))) s) as [[v c]|]; try reflexivity;
      exfalso; eapply Hfirst; reflexivity. }
  unfold prewrite_item. rewrite Hx.
  pose proof (prewrite_key_idem _ _ m _ _ _ _ _ _ Hi) as Hpk.
  assert (Hv2 : match get_ks_value x (m_key m) s [] with
                | RdLocked l => l = l'
                | RdVal v => v = read_writes (ks_writes (get_ks st (m_key m))) s
                end).
  { unfold get_ks_value. rewrite Ex. cbn [ks_lock ks_writes]. unfold lock_check. rewrite Es', N.ltb_irrefl. cbn [orb].
    destruct (N.eqb_spec s max_ts); [contradiction|]. cbn [andb existsb].
    destruct (op_eqb (l_op l') LLock || op_eqb (l_op l') LPess); reflexivity. }
  rewrite Hpk.
  destruct (m_op m); try (right; reflexivity).
  - destruct (fu =? 0); [|right; reflexivity].
    destruct (get_ks_value x (m_key m) s []) as [l|v]; [subst l; rewrite Es', N.eqb_refl; right; reflexivity|].
    subst v. rewrite Hread. right; reflexivity.
  - destruct (fu =? 0); [|left; reflexivity].
    destruct (get_ks_value x (m_key m) s []) as [l|v]; [subst l; rewrite Es', N.eqb_refl; left; reflexivity|].
    subst v. rewrite Hread. left; reflexivity.
Qed.

Theorem prewrite_idem st : keys_sorted st -> forall ms primary s fu ttl mc ao, s <> max_ts ->
  idem_at st (Prewrite ms primary s fu ttl mc ao).
Proof.
  intros Hs ms primary s fu ttl mc ao Hmax. unfold idem_at. cbn [step].
  destruct (prewrite_all st st ms primary s fu ttl mc ao) as [acc es] eqn:E. cbn [fst snd].
  destruct (has_err es) eqn:He; [rewrite E, He; eexists; split; reflexivity|].
  destruct (prewrite_all_batch _ _ _ _ _ _ _ _ _ _ _ E He) as [Ea Hfirst].
  assert (Htriv : forall m, In m ms -> item_trivial (prewrite_item acc m primary s fu ttl mc ao)).
  { intros m Hin. rewrite Ea. destruct (apply_all_cases (flat_map (fun m => item_write m (prewrite_item st m primary s fu ttl mc ao)) ms) st (m_key m) Hs)
      as [[E1 Hn]|[x [Hx Ex]]]; rewrite <- Ea in *.
    - (* no item wrote on this key: the item sees what it saw, and it wrote nothing *)
      rewrite (prewrite_item_ext acc st m) by exact E1.
      destruct (prewrite_item st m primary s fu ttl mc ao) as [[e|o]|] eqn:Ei; [destruct (Hfirst m Hin e Ei)| |left; reflexivity].
      right. rewrite (Hn o); [reflexivity|]. apply in_flat_map. exists m. rewrite Ei. split; [exact Hin|left; reflexivity].
    - (* the key holds what an item m' on it wrote *)
      apply in_flat_map in Hx. destruct Hx as [m' [_ Hx]].
      destruct (prewrite_item st m' primary s fu ttl mc ao) as [[e|o]|] eqn:Ei; cbn [item_write In] in Hx; try contradiction.
      destruct Hx as [Ek|[]]. inversion Ek; subst o. eapply prewrite_item_second; [exact Hmax|apply Hfirst; exact Hin|eassumption..]. }
  destruct (prewrite_all_trivial acc primary s fu ttl mc ao ms acc Htriv) as [es' [E' He']].
  rewrite E', He'. exists (RErrs es'). split; [reflexivity|]. cbn [resp_status]. rewrite He, He'. reflexivity.
Qed.

Lemma pess_lock_all_replay st' r : forall keys rs acc,
  Forall2 (fun kb res => pess_lock_key (get_ks st' (fst kb)) r (fst kb) (snd kb) = inr (res, None)) keys rs ->
  pess_lock_all st' acc r keys = (acc, [], rs).
Proof.
  induction keys as [|[k0 ne0] rest IH]; intros rs acc H; inversion H; subst; cbn [pess_lock_all]; [reflexivity|].
  cbn [fst snd] in *. rewrite H2. cbn [apply_opt]. rewrite (IH _ acc H4). reflexivity.
Qed.

(* a key that the first run locked answers the same result and writes nothing the second time *)
Lemma pess_lock_key_second ks r k ne ne' res res' x o :
  pess_lock_key ks r k ne' = inr (res', Some x) -> pess_lock_key ks r k ne = inr (res, o) ->
  pess_lock_key x r k ne = inr (res, None).
Proof.
  intros H1 H2. rewrite (pess_lock_key_written _ _ _ _ _ _ H1). destruct (pess_lock_key_inr _ _ _ _ _ _ H2) as [Hl [_ [ex [Hres _]]]].
  rewrite pess_lock_key_own; cbn [ks_lock ks_writes]; [|exact Hl|intros l E; inversion E; split; reflexivity].
  rewrite Hres. unfold pess_lock_write. cbn [pess_new_lock l_for_update]. rewrite N.ltb_irrefl.
  destruct (p_lock_only_if_exists r && negb ex); reflexivity.
Qed.

Lemma Forall2_impl_in {A B} (P Q : A -> B -> Prop) l l' : (forall a b, In a l -> P a b -> Q a b) -> Forall2 P l l' -> Forall2 Q l l'.
Proof. intros H HF. induction HF; constructor; [apply H; [left; reflexivity|assumption]|apply IHHF; intros; apply H; [right|]; assumption]. Qed.

Theorem pess_lock_idem st : keys_sorted st -> forall r, step (fst (step st (PessLock r))) (PessLock r) = step st (PessLock r).
Proof.
  intros Hs r. cbn [step]. destruct (pess_lock_all st st r (p_keys r)) as [[acc es] rs] eqn:E.
  destruct ((match es with [] => true | _ => p_force r end) && negb (Nat.eqb (length rs) (length (p_keys r)))) eqn:Ep;
    [cbn [fst]; rewrite E, Ep; reflexivity|].
  destruct es as [|e es]; cbn [fst]; [|rewrite E, Ep; reflexivity].
  destruct (pess_lock_all_batch st r _ _ _ _ E) as [Ea Hres].
  enough (Hrep : Forall2 (fun kb res => pess_lock_key (get_ks acc (fst kb)) r (fst kb) (snd kb) = inr (res, None)) (p_keys r) rs)
    by (rewrite (pess_lock_all_replay acc r _ rs acc Hrep), Ep; reflexivity).
  eapply Forall2_impl_in; [|exact Hres]. intros [k ne] res Hin Ho. cbn [fst snd] in *. rewrite Ea.
  destruct (apply_all_cases (map (fun kb => (fst kb, pess_write st r kb)) (p_keys r)) st k Hs) as [[E1 Hn]|[x [Hx Ex]]]; rewrite <- Ea in *.
  - (* nobody wrote on this key: it answers as before, and it wrote nothing *)
    rewrite E1, Ho. rewrite (Hn (pess_write st r (k, ne))); [reflexivity|]. apply (in_map (fun kb => (fst kb, pess_write st r kb)) _ _ Hin).
  - (* the key holds the lock written for one of its entries *)
    apply in_map_iff in Hx. destruct Hx as [[k' ne'] [Ek _]]. inversion Ek; subst k'. unfold pess_write in H1. cbn [fst snd] in H1.
    destruct (pess_lock_key (get_ks st k) r k ne') as [e|[res' o']] eqn:Ei; [discriminate|]. subst o'.
    rewrite Ex. eapply pess_lock_key_second; [exact Ei|exact Ho].
Qed.

