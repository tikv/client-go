(* Mvcc/ProofsLate.v — a prewrite arriving after its transaction's commit / rollback record is
   rejected; one per-key transition keeps the record unless it is a GC at or above its start ts. *)
From Verif Require Import Mvcc.Model Mvcc.Spec Mvcc.ProofsStore Mvcc.ProofsKey Mvcc.ProofsKstep Mvcc.ProofsShape Mvcc.ProofsStep.

Lemma prewrite_key_late W ks m s p ttl mc ao : World_ok W -> wf_ks W ks -> In s (map w_start (ks_writes ks)) ->
  exists e, prewrite_key ks m s p ttl mc ao = KErr e.
Proof.
  intros HW Hwf Hin. unfold prewrite_key. destruct (ks_lock ks) as [l|] eqn:El.
  - destruct (N.eqb_spec (l_start l) s) as [E|E]; cbn [negb]; [|eexists; reflexivity].
    exfalso. destruct (wf_lock _ _ Hwf l El) as [_ Hn]. rewrite E in Hn. exact (Hn Hin).
  - destruct (m_pess_check m); [eexists; reflexivity|].
    destruct (ccv _ false ao false (ks_writes ks)) as [e|v c] eqn:Ec; [eexists; reflexivity|].
    exfalso. eapply ccv_accept_no_start; [exact (wf_desc _ _ Hwf)|apply (wf_no_start_bound W HW); exact Hwf|exact Ec|exact Hin].
Qed.

Lemma prewrite_item_late W st m primary s fu ttl mc ao : World_ok W -> wf_ks W (get_ks st (m_key m)) ->
  In s (map w_start (ks_writes (get_ks st (m_key m)))) -> m_op m <> MCheckNotExists ->
  exists e, prewrite_item st m primary s fu ttl mc ao = Some (KErr e).
Proof.
  intros HW Hwf Hin Hop. unfold prewrite_item.
  destruct (match m_op m with MInsert | MCheckNotExists => _ | _ => None end) as [e|]; [eexists; reflexivity|].
  destruct (prewrite_key_late W _ m s primary ttl mc ao HW Hwf Hin) as [e He]. rewrite He.
  destruct (m_op m); try (eexists; reflexivity). congruence.
Qed.

Lemma prewrite_all_err st primary s fu ttl mc ao m e : forall ms acc,
  In m ms -> prewrite_item st m primary s fu ttl mc ao = Some (KErr e) ->
  has_err (snd (prewrite_all st acc ms primary s fu ttl mc ao)) = true.
Proof.
  intros ms acc Hin He. destruct (prewrite_all st acc ms primary s fu ttl mc ao) as [a es] eqn:E. cbn [snd].
  destruct (has_err es) eqn:Hes; [reflexivity|]. destruct (prewrite_all_batch _ _ _ _ _ _ _ _ _ _ _ E Hes) as [_ Hne]. destruct (Hne m Hin e He).
Qed.

Lemma late_prewrite_store W st k s : World_ok W -> wf_store W st -> has_write st k s = true -> forall ms primary fu ttl mc ao,
  (exists m, In m ms /\ m_key m = k /\ m_op m <> MCheckNotExists) ->
  exists es, step st (Prewrite ms primary s fu ttl mc ao) = (st, RErrs es) /\ has_err es = true.
Proof.
  intros HW [Hs Hk] Hw ms primary fu ttl mc ao [m [Hin [Ek Hop]]]. apply has_write_true in Hw. subst k.
  destruct (prewrite_item_late _ st m primary s fu ttl mc ao HW (Hk _) Hw Hop) as [e He].
  pose proof (prewrite_all_err st primary s fu ttl mc ao m e ms st Hin He) as H.
  cbn [step]. destruct (prewrite_all st st ms primary s fu ttl mc ao) as [acc es]. cbn [snd] in H.
  exists es. rewrite H. split; reflexivity.
Qed.

Lemma gc_writes_keep sp b ws x : In x ws -> sp < w_commit x -> In x (gc_writes sp b ws).
Proof.
  revert b. induction ws as [|w r IH]; intros b Hin Hlt; [destruct Hin|]. cbn [gc_writes].
  destruct (N.ltb_spec sp (w_commit w)) as [H|H].
  - destruct Hin as [E|Hin]; [left; exact E|right; apply IH; assumption].
  - destruct Hin as [E|Hin]; [subst; lia|].
    destruct (w_kind w); [destruct b; [right|]|..]; apply IH; assumption.
Qed.

(* a commit ts identifies its transaction: the pairs of the world are injective and no commit ts is a start ts *)
Lemma write_ok_commit_inj W w0 w : World_ok W -> write_ok W w0 -> write_ok W w -> w_commit w0 = w_commit w -> w_start w0 = w_start w.
Proof.
  intros HW [Hs0 H0] [Hs1 H1] Ec. destruct (is_rollback w0), (is_rollback w).
  - congruence.
  - exfalso. apply (wo_disj W HW _ _ (w_start w0) H1 Hs0). congruence.
  - exfalso. apply (wo_disj W HW _ _ (w_start w) H0 Hs1). congruence.
  - rewrite Ec in H0. apply (proj2 (wo_inj W HW _ _ _ _ H0 H1)). reflexivity.
Qed.

Lemma put_keep_start W w ws s : World_ok W -> Forall (write_ok W) ws -> write_ok W w ->
  In s (map w_start ws) -> In s (map w_start (put_write w ws)).
Proof.
  intros HW Hf Hw Hin. apply in_map_iff in Hin. destruct Hin as [w0 [Es Hw0]]. rewrite <- Es.
  destruct (N.eq_dec (w_commit w0) (w_commit w)) as [Ec|Ec]; [|apply in_map, put_write_keep; assumption].
  rewrite Forall_forall in Hf. rewrite (write_ok_commit_inj W w0 w HW (Hf _ Hw0) Hw Ec). apply in_map, put_write_has.
Qed.

Lemma marker_kstep W st c k x s : World_ok W -> wf_ks W (get_ks st k) -> wf_ks W x ->
  kstep st c k x -> is_gc_over c s = false ->
  In s (map w_start (ks_writes (get_ks st k))) -> In s (map w_start (ks_writes x)).
Proof.
  intros HW Hwf Hwx Hk Hgc Hin. pose proof (kstep_shape st c k x Hk) as Hsh.
  pose proof (wf_wok _ _ Hwx) as Hfx. remember (ks_writes x) as wx eqn:Ex.
  destruct Hsh as [|w|s0 e0 sp Ec|s0 e0 Ec].
  4:{ subst c. discriminate Hgc. }
  - exact Hin.
  - eapply put_keep_start; [exact HW|exact (wf_wok _ _ Hwf)| |exact Hin].
    rewrite Forall_forall in Hfx. apply Hfx. apply put_write_has.
  - subst c. cbn [is_gc_over] in Hgc. apply N.leb_gt in Hgc.
    apply in_map_iff in Hin. destruct Hin as [w0 [Es Hw0]]. rewrite <- Es. apply in_map.
    apply gc_writes_keep; [exact Hw0|].
    destruct (wf_no_start_bound W HW _ s Hwf w0 Hw0 Es) as [[_ H]|H]; lia.
Qed.
