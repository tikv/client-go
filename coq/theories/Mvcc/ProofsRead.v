(* Mvcc/ProofsRead.v — reads, scans, ScanLock, GC and DeleteRange against their declarative specifications. *)
From Verif Require Import Mvcc.Model Mvcc.Spec Mvcc.ProofsStore Mvcc.ProofsKey Mvcc.ProofsKstep Mvcc.ProofsShape.
From Coq Require Import Sorted.

Lemma newest_visible_max ws t :
  match newest_visible ws t with
  | Some w => In w ws /\ visible t w = true /\ forall x, In x ws -> visible t x = true -> w_commit x <= w_commit w
  | None => forall x, In x ws -> visible t x = false
  end.
Proof.
  induction ws as [|w r IH]; cbn [newest_visible]; [intros x []|].
  destruct (newest_visible r t) as [y|].
  - destruct IH as [Hy [Hv Hm]]. destruct (visible t w) eqn:Ev; cbn [andb].
    + destruct (N.ltb_spec (w_commit y) (w_commit w)) as [Hlt|Hge].
      * split; [left; reflexivity|]. split; [exact Ev|]. intros x [E|Hx] Hvx; [subst; lia|]. specialize (Hm x Hx Hvx). lia.
      * split; [right; exact Hy|]. split; [exact Hv|]. intros x [E|Hx] Hvx; [subst; lia|]. apply Hm; assumption.
    + split; [right; exact Hy|]. split; [exact Hv|]. intros x [E|Hx] Hvx; [subst; congruence|]. apply Hm; assumption.
  - destruct (visible t w) eqn:Ev.
    + split; [left; reflexivity|]. split; [exact Ev|]. intros x [E|Hx] Hvx; [subst; lia|]. rewrite (IH x Hx) in Hvx. discriminate.
    + intros x [E|Hx]; [subst; exact Ev|apply IH; exact Hx].
Qed.

Lemma newest_visible_find ws t : desc ws -> newest_visible ws t = find (visible t) ws.
Proof.
  unfold desc. induction ws as [|w r IH]; intros H; cbn [newest_visible find]; [reflexivity|].
  inversion H as [|? ? Hr Hf]; subst. rewrite (IH Hr).
  destruct (find (visible t) r) as [x|] eqn:Ef.
  - apply find_some in Ef. destruct Ef as [Hx _]. rewrite Forall_forall in Hf. specialize (Hf x Hx).
    destruct (visible t w); cbn [andb]; [|reflexivity]. destruct (N.ltb_spec (w_commit x) (w_commit w)); [reflexivity|lia].
  - destruct (visible t w); reflexivity.
Qed.

Lemma read_writes_find ws t :
  read_writes ws t = match find (visible t) ws with
                     | Some w => match w_kind w with WPut => Some (w_value w, w_commit w) | _ => None end
                     | None => None
                     end.
Proof.
  induction ws as [|w r IH]; cbn [read_writes find]; [reflexivity|].
  unfold visible at 1, is_data. destruct (w_kind w) eqn:Ek; cbn [andb]; try exact IH.
  - destruct (w_commit w <=? t); [rewrite Ek; reflexivity|exact IH].
  - destruct (w_commit w <=? t); [rewrite Ek; reflexivity|exact IH].
Qed.

Lemma read_writes_spec ws t : desc ws -> read_writes ws t = spec_read ws t.
Proof. intros H. unfold spec_read. rewrite (newest_visible_find ws t H). apply read_writes_find. Qed.

Lemma get_ks_value_spec ks k t rs : desc (ks_writes ks) -> get_ks_value ks k t rs = spec_get_ks ks k t rs.
Proof.
  intros Hd. unfold get_ks_value, spec_get_ks. destruct (ks_lock ks) as [l|]; rewrite <- !read_writes_spec by exact Hd; [|reflexivity].
  unfold lock_check, blocking, data_lock, max_ts_exception.
  destruct (N.ltb_spec t (l_start l)), (N.leb_spec (l_start l) t); try lia; [reflexivity|].
  destruct (l_op l), ((t =? max_ts) && (l_primary l =? k)), (existsb (N.eqb (l_start l)) rs); reflexivity.
Qed.

Lemma get_unfold st k t rs : get st k t rs = rd_resp k (get_ks_value (get_ks st k) k t rs).
Proof. unfold get. cbn [step snd]. destruct (get_ks_value (get_ks st k) k t rs); reflexivity. Qed.

Lemma get_spec st k t rs : sorted_store st -> get st k t rs = spec_get st k t rs.
Proof. intros [_ Hd]. rewrite get_unfold. unfold spec_get. rewrite get_ks_value_spec; [reflexivity|apply Hd]. Qed.
Lemma read_correct cmds k t rs : get (run cmds) k t rs = spec_get (run cmds) k t rs.
Proof. apply get_spec, run_sorted. Qed.

Lemma scan_entry_len t rs kv : (length (scan_entry t rs kv) <= 1)%nat.
Proof. unfold scan_entry. destruct (get_ks_value _ _ _ _) as [l|[[v c]|]]; cbn; lia. Qed.

Lemma scan_gen_firstn (entry : key * kstate -> list pair) s e st : (forall kv, (length (entry kv) <= 1)%nat) -> forall limit,
  scan_gen entry st s e limit = firstn limit (flat_map entry (filter (fun kv => in_range s e (fst kv)) st)).
Proof.
  intros Hlen. induction st as [|kv r IH]; intros limit.
  - destruct limit; reflexivity.
  - destruct limit as [|n]; [reflexivity|]. cbn [scan_gen filter]. destruct (in_range s e (fst kv)).
    + cbn [flat_map]. rewrite firstn_app. rewrite IH. f_equal.
      apply eq_sym, firstn_all2. specialize (Hlen kv). lia.
    + apply IH.
Qed.

Lemma scan_entry_get st t rs kv : keys_sorted st -> In kv st -> scan_entry t rs kv = get_pairs st t rs (fst kv).
Proof.
  intros Hs Hin. unfold scan_entry, get_pairs. rewrite get_unfold.
  destruct kv as [k v]. cbn [fst snd]. rewrite (get_ks_in st k v Hs Hin).
  destruct (get_ks_value v k t rs) as [l|[[x c]|]]; reflexivity.
Qed.

Lemma flat_map_ext_in {A B} (f g : A -> list B) l : (forall x, In x l -> f x = g x) -> flat_map f l = flat_map g l.
Proof.
  induction l as [|x r IH]; intros H; cbn [flat_map]; [reflexivity|].
  rewrite (H x (or_introl eq_refl)). rewrite IH; [reflexivity|]. intros y Hy. apply H. right; exact Hy.
Qed.

Lemma flat_map_filter_keys (st : store) p (f : key -> list pair) :
  flat_map f (filter p (map fst st)) = flat_map (fun kv => f (fst kv)) (filter (fun kv => p (fst kv)) st).
Proof.
  induction st as [|kv r IH]; cbn [map filter flat_map]; [reflexivity|].
  destruct (p (fst kv)); cbn [flat_map]; rewrite IH; reflexivity.
Qed.

Lemma scan_all_entries st s e t rs : keys_sorted st ->
  spec_scan_all st s e t rs = flat_map (scan_entry t rs) (filter (fun kv => in_range s e (fst kv)) st).
Proof.
  intros Hs. unfold spec_scan_all. rewrite flat_map_filter_keys.
  apply eq_sym, flat_map_ext_in. intros kv Hin. apply filter_In in Hin. apply scan_entry_get; tauto.
Qed.

Lemma scan_spec st : keys_sorted st -> forall s e limit t rs,
  snd (step st (Scan s e limit t rs)) = RPairs (spec_scan st s e limit t rs).
Proof.
  intros Hs s e limit t rs. cbn [step snd]. unfold scan_fwd, spec_scan.
  rewrite (scan_gen_firstn _ s e st (scan_entry_len t rs)), scan_all_entries; [reflexivity|exact Hs].
Qed.

Lemma filter_rev' {A} (p : A -> bool) l : filter p (rev l) = rev (filter p l).
Proof.
  induction l as [|x r IH]; cbn [rev filter]; [reflexivity|].
  rewrite filter_app, IH. cbn [filter]. destruct (p x); [reflexivity|apply app_nil_r].
Qed.
Lemma flat_map_rev_small {A B} (f : A -> list B) l : (forall x, (length (f x) <= 1)%nat) ->
  flat_map f (rev l) = rev (flat_map f l).
Proof.
  intros Hf. induction l as [|x r IH]; cbn [rev flat_map]; [reflexivity|].
  rewrite flat_map_app, IH, rev_app_distr. cbn [flat_map]. rewrite app_nil_r. f_equal.
  specialize (Hf x). destruct (f x) as [|a [|b q]]; cbn in *; [reflexivity|reflexivity|lia].
Qed.

Lemma rscan_spec st : keys_sorted st -> forall s e limit t rs,
  snd (step st (ReverseScan s e limit t rs)) = RPairs (spec_rscan st s e limit t rs).
Proof.
  intros Hs s e limit t rs. cbn [step snd]. unfold scan_rev, spec_rscan. rewrite (scan_gen_firstn _ s e (rev st) (scan_entry_len t rs)), filter_rev'.
  rewrite flat_map_rev_small by (apply scan_entry_len). rewrite scan_all_entries; [reflexivity|exact Hs].
Qed.

Lemma gc_writes_all_old sp ws : (forall x, In x ws -> w_commit x <= sp) -> gc_writes sp false ws = [].
Proof.
  induction ws as [|w r IH]; intros H; cbn [gc_writes]; [reflexivity|].
  destruct (N.ltb_spec sp (w_commit w)) as [Hlt|Hge]; [specialize (H w (or_introl eq_refl)); lia|].
  destruct (w_kind w); apply IH; intros x Hx; apply H; right; exact Hx.
Qed.

Lemma gc_writes_read sp t ws : desc ws -> sp <= t -> read_writes (gc_writes sp true ws) t = read_writes ws t.
Proof.
  unfold desc. induction ws as [|w r IH]; intros Hd Ht; cbn [gc_writes read_writes]; [reflexivity|].
  inversion Hd as [|? ? Hr Hf]; subst. specialize (IH Hr Ht).
  destruct (N.ltb_spec sp (w_commit w)) as [Hlt|Hge].
  - cbn [read_writes]. destruct (w_kind w); try exact IH; destruct (w_commit w <=? t); try reflexivity; exact IH.
  - assert (Hle : (w_commit w <=? t) = true) by (apply N.leb_le; lia).
    destruct (w_kind w) eqn:Ek.
    + cbn [read_writes]. rewrite Ek, Hle. reflexivity.
    + rewrite Hle. rewrite gc_writes_all_old; [reflexivity|].
      intros x Hx. rewrite Forall_forall in Hf. specialize (Hf x Hx). lia.
    + exact IH.
    + exact IH.
Qed.

Lemma gc_refused_iff st s e sp : keys_sorted st ->
  (gc_refused st s e sp = true <-> exists k l, in_range s e k = true /\ ks_lock (get_ks st k) = Some l /\ l_start l <= sp).
Proof.
  intros Hs. unfold gc_refused, gc_blocked. rewrite existsb_exists. split.
  - intros [[k v] [Hin Hb]]. destruct (keys_in_range_in st s e k v Hs Hin) as [Hr Ev]. subst v. cbn [snd] in Hb.
    destruct (ks_lock (get_ks st k)) as [l|] eqn:El; [|discriminate]. exists k, l. apply N.leb_le in Hb. tauto.
  - intros [k [l [Hr [El Hl]]]]. exists (k, get_ks st k). split.
    + apply keys_in_range_mem; [exact Hs|exact Hr|]. intros E0. rewrite E0 in El. discriminate.
    + cbn [snd]. rewrite El. apply N.leb_le; exact Hl.
Qed.

Lemma gc_step_get st s e sp k : keys_sorted st -> gc_refused st s e sp = false ->
  get_ks (fst (step st (GC s e sp))) k =
  if in_range s e k then mkKs (ks_lock (get_ks st k)) (gc_writes sp true (ks_writes (get_ks st k))) else get_ks st k.
Proof.
  intros Hs Hg. cbn [step]. unfold gc_refused in Hg. rewrite Hg. exact (map_range_get_total st s e (gc_key sp) k Hs eq_refl).
Qed.

Lemma gc_keeps_reads st : sorted_store st -> forall s e sp k t rs,
  gc_refused st s e sp = false -> sp <= t -> get (fst (step st (GC s e sp))) k t rs = get st k t rs.
Proof.
  intros [Hs Hd] s e sp k t rs Hg Ht.
  rewrite !get_unfold, gc_step_get by assumption. destruct (in_range s e k) eqn:Er; [|reflexivity].
  unfold get_ks_value. cbn [ks_lock ks_writes].
  destruct (ks_lock (get_ks st k)) as [l|] eqn:El; [|rewrite gc_writes_read by auto; reflexivity].
  (* the lock is above the safe point, so is every timestamp the lock check lets the read use *)
  assert (Hl : sp < l_start l).
  { destruct (N.ltb_spec sp (l_start l)) as [H|H]; [exact H|]. apply not_true_iff_false in Hg. exfalso. apply Hg. apply gc_refused_iff; eauto. }
  unfold lock_check.
  destruct ((t <? l_start l) || op_eqb (l_op l) LLock || op_eqb (l_op l) LPess); [rewrite gc_writes_read by auto; reflexivity|].
  destruct ((t =? max_ts) && (l_primary l =? k)); [rewrite gc_writes_read by (auto; lia); reflexivity|].
  destruct (existsb (N.eqb (l_start l)) rs); [rewrite gc_writes_read by auto; reflexivity|reflexivity].
Qed.

Lemma gc_refuses_lock st : keys_sorted st -> forall s e sp,
  ((exists k l, in_range s e k = true /\ lock_of st k = Some l /\ l_start l <= sp) ->
   step st (GC s e sp) = (st, RErr (Some (EAbort AGcLock)))) /\
  (~ (exists k l, in_range s e k = true /\ lock_of st k = Some l /\ l_start l <= sp) ->
   snd (step st (GC s e sp)) = RErr None).
Proof.
  intros Hs s e sp. pose proof (gc_refused_iff st s e sp Hs) as Hiff. unfold lock_of, gc_refused in *.
  cbn [step]. destruct (existsb (gc_blocked sp) (keys_in_range st s e)).
  - split; [reflexivity|]. intros H. destruct H. apply Hiff. reflexivity.
  - split; [|reflexivity]. intros H. apply Hiff in H. discriminate.
Qed.

Lemma gc_writes_all_new sp b ws : (forall x, In x ws -> sp < w_commit x) -> gc_writes sp b ws = ws.
Proof.
  induction ws as [|w r IH]; intros H; cbn [gc_writes]; [reflexivity|].
  destruct (N.ltb_spec sp (w_commit w)) as [Hlt|Hge]; [|specialize (H w (or_introl eq_refl)); lia].
  rewrite IH; [reflexivity|]. intros x Hx. apply H. right; exact Hx.
Qed.
Lemma gc_writes_false_new sp ws x : In x (gc_writes sp false ws) -> sp < w_commit x.
Proof.
  induction ws as [|w r IH]; cbn [gc_writes]; [intros []|].
  destruct (N.ltb_spec sp (w_commit w)) as [Hlt|Hge]; [intros [E|H]; [subst; exact Hlt|apply IH; exact H]|].
  destruct (w_kind w); exact IH.
Qed.
Lemma gc_writes_idem sp ws : forall b, gc_writes sp b (gc_writes sp b ws) = gc_writes sp b ws.
Proof.
  induction ws as [|w r IH]; intros b; cbn [gc_writes]; [reflexivity|].
  destruct (N.ltb_spec sp (w_commit w)) as [Hlt|Hge].
  - cbn [gc_writes]. destruct (N.ltb_spec sp (w_commit w)); [|lia]. rewrite IH. reflexivity.
  - (* once the kept version is passed, everything that stays is above the safe point *)
    assert (Hf : forall b', gc_writes sp b' (gc_writes sp false r) = gc_writes sp false r)
      by (intros b'; apply gc_writes_all_new; intros x Hx; eapply gc_writes_false_new; exact Hx).
    destruct (w_kind w) eqn:Ek; [destruct b|..]; try apply Hf; try apply IH.
    cbn [gc_writes]. destruct (N.ltb_spec sp (w_commit w)); [lia|]. rewrite Ek, Hf. reflexivity.
Qed.

Theorem gc_idem st : keys_sorted st -> forall s e sp,
  let st1 := fst (step st (GC s e sp)) in
  snd (step st1 (GC s e sp)) = snd (step st (GC s e sp)) /\ forall k, get_ks (fst (step st1 (GC s e sp))) k = get_ks st1 k.
Proof.
  intros Hs s e sp st1. destruct (gc_refused st s e sp) eqn:Hg.
  - (* refused: nothing changed, the second run is the first *)
    assert (E : st1 = st) by (unfold st1; cbn [step]; unfold gc_refused in Hg; rewrite Hg; reflexivity). rewrite E. fold st1. rewrite E. auto.
  - assert (Hs1 : keys_sorted st1) by (unfold st1; cbn [step]; unfold gc_refused in Hg; rewrite Hg; apply map_range_sorted; exact Hs).
    assert (Hg1 : gc_refused st1 s e sp = false).
    { destruct (gc_refused st1 s e sp) eqn:G; [|reflexivity]. apply (gc_refused_iff _ _ _ _ Hs1) in G. destruct G as [k [l [Hr [El Hl]]]].
      unfold st1 in El. rewrite gc_step_get, Hr in El by assumption. rewrite <- Hg. symmetry. apply (gc_refused_iff _ _ _ _ Hs). eauto. }
    split; [cbn [step]; unfold gc_refused in Hg, Hg1; rewrite Hg, Hg1; reflexivity|].
    intros k. rewrite (gc_step_get st1) by assumption. unfold st1. rewrite gc_step_get by assumption.
    destruct (in_range s e k); [|reflexivity]. cbn [ks_lock ks_writes]. rewrite gc_writes_idem. reflexivity.
Qed.

Lemma get_ks_unlocked st k : get_ks (unlocked st) k = mkKs None (ks_writes (get_ks st k)).
Proof.
  unfold unlocked. induction st as [|[k0 v0] r IH]; cbn [map get_ks fst snd]; [reflexivity|].
  destruct (k0 =? k); [reflexivity|]. destruct (k <? k0); [reflexivity|exact IH].
Qed.
Lemma scan_gen_map entry entry' (g : key * kstate -> key * kstate) s e :
  (forall kv, fst (g kv) = fst kv) -> (forall kv, entry (g kv) = entry' kv) ->
  forall st limit, scan_gen entry (map g st) s e limit = scan_gen entry' st s e limit.
Proof.
  intros Hg He. induction st as [|kv r IH]; intros limit; destruct limit as [|n]; cbn [map scan_gen]; try reflexivity.
  rewrite Hg, He. destruct (in_range s e (fst kv)); rewrite IH; reflexivity.
Qed.
Lemma rc_entry_unlocked t kv : scan_entry t [] (fst kv, mkKs None (ks_writes (snd kv))) = rc_entry t kv.
Proof.
  unfold scan_entry, rc_entry, get_ks_value. cbn [fst snd ks_lock ks_writes].
  destruct (read_writes (ks_writes (snd kv)) t) as [[v c]|]; reflexivity.
Qed.

Lemma rc_reads st q :
  snd (step st (Rc q)) =
  match q with
  | QGet k t => get (unlocked st) k t []
  | QBatchGet ks t => snd (step (unlocked st) (BatchGet ks t []))
  | QScan s e limit t => snd (step (unlocked st) (Scan s e limit t []))
  | QReverseScan s e limit t => snd (step (unlocked st) (ReverseScan s e limit t []))
  end.
Proof.
  destruct q; cbn [step snd].
  - rewrite get_unfold, get_ks_unlocked. reflexivity.
  - unfold batch_get. apply (f_equal RPairs). apply flat_map_ext. intros k0. rewrite get_ks_unlocked. unfold get_ks_value. cbn [ks_lock ks_writes].
    destruct (read_writes (ks_writes (get_ks st k0)) t) as [[v c]|]; reflexivity.
  - unfold scan_fwd, unlocked. apply (f_equal RPairs), eq_sym, scan_gen_map; [reflexivity|apply rc_entry_unlocked].
  - unfold scan_rev, unlocked. rewrite <- map_rev. apply (f_equal RPairs), eq_sym, scan_gen_map; [reflexivity|apply rc_entry_unlocked].
Qed.

Lemma scan_lock_locks st : keys_sorted st -> forall s e m k l,
  (exists ls, snd (step st (ScanLock s e m)) = RLocks ls /\
              (In (k, l) ls <-> in_range s e k = true /\ lock_of st k = Some l /\ l_start l <= m)).
Proof.
  intros Hs s e m k l. cbn [step snd]. eexists. split; [reflexivity|].
  unfold lock_of. rewrite in_flat_map. split.
  - intros [[k0 v0] [Hin Hx]]. destruct (keys_in_range_in st s e k0 v0 Hs Hin) as [Hr Ev]. subst v0. cbn [fst snd] in *.
    destruct (ks_lock (get_ks st k0)) as [l0|] eqn:El; [|destruct Hx]. destruct (N.leb_spec (l_start l0) m); [|destruct Hx].
    destruct Hx as [E|[]]. inversion E; subst. tauto.
  - intros [Hr [El Hm]]. exists (k, get_ks st k). split.
    + apply keys_in_range_mem; [exact Hs|exact Hr|]. intros E0. rewrite E0 in El. discriminate.
    + cbn [fst snd]. rewrite El. destruct (N.leb_spec (l_start l) m); [left; reflexivity|lia].
Qed.

Lemma delete_range_get st : keys_sorted st -> forall s e k,
  get_ks (fst (step st (DeleteRange s e))) k = if in_range s e k then empty_ks else get_ks st k.
Proof. intros Hs s e k. exact (map_range_get_total st s e (fun _ _ => Some empty_ks) k Hs eq_refl). Qed.
