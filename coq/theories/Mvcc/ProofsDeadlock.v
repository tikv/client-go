(* Mvcc/ProofsDeadlock.v — the wait-for graph of the deadlock detector stays acyclic over every command
   sequence; hence the detector's DFS (which has no visited set) terminates within depth |graph|+1, and its
   verdict is exactly reachability in the graph. *)
From Verif Require Import Mvcc.Model Mvcc.Deadlock.

Definition edge (d : detector) (a b : ts) : Prop := exists k, In (b, k) (d_get d a).
Fixpoint walk (d : detector) (a : ts) (l : list ts) : Prop :=
  match l with [] => True | b :: r => edge d a b /\ walk d b r end.
Definition reach (d : detector) (a b : ts) : Prop := exists l, walk d a (l ++ [b]).
Definition acyclic (d : detector) : Prop := forall a, ~ reach d a a.

Lemma walk_app d a l1 b l2 : walk d a (l1 ++ [b]) -> walk d b l2 -> walk d a ((l1 ++ [b]) ++ l2).
Proof.
  revert a. induction l1 as [|x r IH]; intros a; cbn [app walk].
  - intros [He _] H2. split; assumption.
  - intros [He Hw] H2. split; [exact He|]. apply IH; assumption.
Qed.
Lemma reach_trans d a b c : reach d a b -> reach d b c -> reach d a c.
Proof.
  intros [l1 H1] [l2 H2]. exists ((l1 ++ [b]) ++ l2). rewrite <- app_assoc. rewrite <- app_assoc in *.
  pose proof (walk_app d a l1 b (l2 ++ [c]) H1 H2) as H. rewrite <- app_assoc in H. exact H.
Qed.
Lemma reach_edge d a b : edge d a b -> reach d a b.
Proof. intros H. exists []. cbn. tauto. Qed.
Lemma reach_step d a b c : edge d a b -> reach d b c -> reach d a c.
Proof. intros He [l H]. exists (b :: l). cbn [app walk]. tauto. Qed.
Lemma walk_reach d a l x : walk d a l -> In x l -> reach d a x.
Proof.
  revert a. induction l as [|b r IH]; intros a Hw Hin; [destruct Hin|]. cbn [walk] in Hw. destruct Hw as [He Hw].
  destruct Hin as [E|Hin]; [subst; apply reach_edge; exact He|]. eapply reach_step; [exact He|apply IH; assumption].
Qed.

Lemma d_get_del d w x : d_get (d_del d w) x = if x =? w then [] else d_get d x.
Proof.
  unfold d_del. induction d as [|[t l] r IH]; cbn [filter d_get fst]; [destruct (x =? w); reflexivity|].
  destruct (N.eqb_spec t w) as [E|E]; cbn [negb].
  - subst t. rewrite IH. destruct (N.eqb_spec x w) as [E2|E2]; [reflexivity|]. destruct (N.eqb_spec w x); [congruence|reflexivity].
  - cbn [d_get]. rewrite IH. destruct (N.eqb_spec t x) as [E2|E2]; [|reflexivity]. subst x. destruct (N.eqb_spec t w); [congruence|reflexivity].
Qed.
Lemma d_get_set d t l x : d_get (d_set d t l) x = if x =? t then l else d_get d x.
Proof.
  induction d as [|[t' l'] r IH]; cbn [d_set d_get].
  - rewrite (N.eqb_sym t x). destruct (x =? t); reflexivity.
  - destruct (N.eqb_spec t' t) as [E|E]; cbn [d_get].
    + subst t'. rewrite (N.eqb_sym t x). destruct (N.eqb_spec x t); reflexivity.
    + rewrite IH. destruct (N.eqb_spec t' x) as [E2|E2]; [|reflexivity]. subst x. destruct (N.eqb_spec t' t); [congruence|reflexivity].
Qed.
Lemma d_get_in d a : d_get d a <> [] -> In a (map fst d).
Proof.
  induction d as [|[t l] r IH]; cbn [d_get map fst In]; [congruence|].
  destruct (N.eqb_spec t a); [left; assumption|right; apply IH; assumption].
Qed.
Lemma filter_len_le {A} (f : A -> bool) l : (length (filter f l) <= length l)%nat.
Proof. induction l as [|x r IH]; cbn [filter length]; [lia|]. destruct (f x); cbn [length]; lia. Qed.
Lemma d_del_shorter d w : In w (map fst d) -> (length (d_del d w) < length d)%nat.
Proof.
  unfold d_del. induction d as [|[t l] r IH]; cbn [map fst In filter length]; [tauto|]. intros Hin.
  destruct (N.eqb_spec t w) as [E|E]; cbn [negb].
  - pose proof (filter_len_le (fun p : ts * edges => negb (fst p =? w)) r). lia.
  - cbn [length]. destruct Hin as [Hin|Hin]; [congruence|]. specialize (IH Hin). lia.
Qed.
Lemma edge_del d w a b : edge (d_del d w) a b -> edge d a b /\ a <> w.
Proof.
  intros [k H]. rewrite d_get_del in H. destruct (N.eqb_spec a w); [destruct H|]. split; [exists k; exact H|assumption].
Qed.
Lemma walk_del_sub d w a l : walk (d_del d w) a l -> walk d a l.
Proof.
  revert a. induction l as [|b r IH]; intros a; cbn [walk]; [tauto|]. intros [He Hw]. split; [apply (edge_del d w a b He)|apply IH; exact Hw].
Qed.
Lemma acyclic_del d w : acyclic d -> acyclic (d_del d w).
Proof. intros H a [l Hw]. apply (H a). exists l. eapply walk_del_sub; exact Hw. Qed.
Lemma walk_del d w a l : walk d a l -> a <> w -> ~ In w l -> walk (d_del d w) a l.
Proof.
  revert a. induction l as [|b r IH]; intros a; cbn [walk In]; [tauto|]. intros [[k He] Hw] Ha Hn. split.
  - exists k. rewrite d_get_del. destruct (N.eqb_spec a w); [congruence|exact He].
  - apply IH; [exact Hw| |]; intros E; apply Hn; [left; congruence|right; exact E].
Qed.

Lemma walk_bound : forall n d, (length d <= n)%nat -> acyclic d -> forall a l, walk d a l -> (length l <= length d)%nat.
Proof.
  induction n as [|n IH]; intros d Hn Hac a l Hw.
  - destruct d; [|cbn in Hn; lia]. destruct l as [|b r]; [cbn; lia|]. cbn [walk] in Hw. destruct Hw as [[k He] _]. destruct He.
  - destruct l as [|b r]; [cbn; lia|]. cbn [walk] in Hw. destruct Hw as [He Hw].
    assert (Hin : In a (map fst d)). { apply d_get_in. destruct He as [k He]. intros E. rewrite E in He. destruct He. }
    pose proof (d_del_shorter d a Hin) as Hlt.
    assert (Hb : b <> a). { intros E. subst b. apply (Hac a). apply reach_edge; exact He. }
    assert (Hnr : ~ In a r). { intros Hr. apply (Hac a). eapply reach_step; [exact He|]. eapply walk_reach; [exact Hw|exact Hr]. }
    pose proof (walk_del d a b r Hw Hb Hnr) as Hw'.
    assert (Hle : (length r <= length (d_del d a))%nat) by (apply (IH (d_del d a)) with (a := b); [lia|apply acyclic_del; exact Hac|exact Hw']).
    cbn [length]. lia.
Qed.

Definition scan_of (f : nat) (d : detector) (source : ts) :=
  fix scan (l : edges) : option (option key) :=
    match l with
    | [] => Some None
    | (t, k) :: r => if t =? source then Some (Some k)
                     else match do_detect f d source t with
                          | None => None
                          | Some (Some k') => Some (Some k')
                          | Some None => scan r
                          end
    end.
Lemma do_detect_S f d s w : do_detect (S f) d s w = scan_of f d s (d_get d w).
Proof. reflexivity. Qed.

(* the three answers of the DFS with fuel f: a path to the source; no path of fewer than f edges; a walk of f edges *)
Lemma dd_spec : forall f d s w,
  match do_detect f d s w with
  | Some (Some _) => reach d w s
  | Some None => forall l, walk d w (l ++ [s]) -> (f <= length l)%nat
  | None => exists l, length l = f /\ walk d w l
  end.
Proof.
  induction f as [|f IH]; intros d s w; [exists []; split; [reflexivity|exact I]|]. rewrite do_detect_S.
  (* the scan over a part of w's edges: the same three answers, "no path" said edge by edge *)
  assert (G : forall es, (forall x, In x es -> In x (d_get d w)) ->
     match scan_of f d s es with
     | Some (Some _) => reach d w s
     | Some None => forall t k, In (t, k) es -> t <> s /\ forall l, walk d t (l ++ [s]) -> (f <= length l)%nat
     | None => exists l, length l = S f /\ walk d w l
     end).
  { induction es as [|[t k0] r IHl]; intros Hsub; cbn [scan_of]; [intros t k []|].
    assert (He : edge d w t) by (exists k0; apply Hsub; left; reflexivity).
    specialize (IHl (fun x Hx => Hsub x (or_intror Hx))).
    destruct (N.eqb_spec t s) as [E|E]; [subst; apply reach_edge; exact He|].
    specialize (IH d s t). destruct (do_detect f d s t) as [[k'|]|].
    - eapply reach_step; eassumption.
    - destruct (scan_of f d s r) as [[k'|]|]; [exact IHl| |exact IHl].
      intros t' k [Ein|Hin]; [inversion Ein; subst; split; assumption|apply IHl with k; exact Hin].
    - destruct IH as [l [Hl Hw]]. exists (t :: l). split; [cbn; congruence|split; assumption]. }
  specialize (G _ (fun x H => H)). destruct (scan_of f d s (d_get d w)) as [[k|]|]; [exact G| |exact G].
  intros l Hw. destruct l as [|b l']; cbn [app walk] in Hw; destruct Hw as [[k He] Hw].
  - destruct (G s k He) as [Hne _]. congruence.
  - destruct (G b k He) as [_ Hb]. specialize (Hb l' Hw). cbn [length]. lia.
Qed.

(* recursion depth |waitForMap|+1 always suffices on an acyclic graph *)
Theorem detect_terminates d s w k : acyclic d -> snd (detect d s w k) <> VOutOfFuel.
Proof.
  intros Hac. unfold detect. pose proof (dd_spec (S (length d)) d s w) as H.
  destruct (do_detect (S (length d)) d s w) as [[k'|]|]; cbn [snd]; try discriminate.
  destruct H as [l [Hl Hw]]. pose proof (walk_bound (length d) d (le_n _) Hac w l Hw). lia.
Qed.

Theorem detect_spec d s w k : acyclic d ->
  (forall wk, snd (detect d s w k) = VDeadlock wk -> reach d w s) /\ (snd (detect d s w k) = VWait -> ~ reach d w s).
Proof.
  intros Hac. unfold detect. pose proof (dd_spec (S (length d)) d s w) as H.
  destruct (do_detect (S (length d)) d s w) as [[k'|]|]; cbn [snd]; split; try discriminate; [intros _ _; exact H|].
  intros _ [l Hw]. specialize (H l Hw).
  pose proof (walk_bound (length d) d (le_n _) Hac w (l ++ [s]) Hw) as Hb. rewrite app_length in Hb. cbn in Hb. lia.
Qed.

Lemma edge_register d p q k x b : edge (register d p q k) x b -> edge d x b \/ (x = p /\ b = q).
Proof.
  unfold register. destruct (existsb _ (d_get d p)); [tauto|]. intros [k' H]. rewrite d_get_set in H.
  destruct (N.eqb_spec x p) as [E|E]; [|left; exists k'; exact H]. subst x.
  apply in_app_or in H. destruct H as [H|[H|[]]]; [left; exists k'; exact H|right]. inversion H; tauto.
Qed.

Lemma walk_register d p q k : forall l x y, walk (register d p q k) x (l ++ [y]) ->
  reach d x y \/ (q = p \/ reach d q p) \/ ((x = p \/ reach d x p) /\ (q = y \/ reach d q y)).
Proof.
  induction l as [|b l IH]; intros x y; cbn [app walk].
  - intros [He _]. destruct (edge_register _ _ _ _ _ _ He) as [Ho|[E1 E2]]; [left; apply reach_edge; exact Ho|subst; right; right; tauto].
  - intros [He Hw]. destruct (edge_register _ _ _ _ _ _ He) as [Ho|[E1 E2]]; destruct (IH b y Hw) as [H1|[H2|[H3 H4]]].
    + left. eapply reach_step; eassumption.
    + tauto.
    + right; right. split; [right|exact H4]. destruct H3 as [E|H3]; [subst b; apply reach_edge; exact Ho|eapply reach_step; eassumption].
    + subst x b. right; right. split; [left; reflexivity|right; exact H1].
    + tauto.
    + subst x b. right; left. exact H3.
Qed.

Lemma acyclic_register d p q k : acyclic d -> p <> q -> ~ reach d q p -> acyclic (register d p q k).
Proof.
  intros Hac Hne Hnr a [l Hw]. destruct (walk_register d p q k l a a Hw) as [H1|[[E|H2]|[H3 H4]]].
  - exact (Hac a H1).
  - congruence.
  - exact (Hnr H2).
  - destruct H3 as [E3|H3], H4 as [E4|H4].
    + congruence.
    + subst a. exact (Hnr H4).
    + subst a. exact (Hnr H3).
    + exact (Hnr (reach_trans _ _ _ _ H4 H3)).
Qed.

Lemma detect_acyclic d s w k : acyclic d -> s <> w -> acyclic (fst (detect d s w k)).
Proof.
  intros Hac Hne. pose proof (proj2 (detect_spec d s w k Hac)) as Hw. unfold detect in *.
  destruct (do_detect (S (length d)) d s w) as [[k'|]|]; cbn [fst snd] in *; [exact Hac| |exact Hac].
  apply acyclic_register; [exact Hac|exact Hne|apply Hw; reflexivity].
Qed.
