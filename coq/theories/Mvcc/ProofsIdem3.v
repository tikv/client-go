(* Mvcc/ProofsIdem3.v — whole-request idempotence of PessimisticRollback (explicit keys and the
   scan-the-range form), and the statement covering every write request. *)
From Verif Require Import Mvcc.Model Mvcc.Spec Mvcc.ProofsStore Mvcc.ProofsKey Mvcc.ProofsKstep Mvcc.ProofsShape Mvcc.ProofsStep
     Mvcc.ProofsMarker Mvcc.ProofsIdem Mvcc.ProofsIdem2.

Lemma pess_rollback_key_after ks s fu : pess_rollback_match (upd (pess_rollback_key ks s fu) ks) s fu = false.
Proof. unfold pess_rollback_key. destruct (pess_rollback_match ks s fu) eqn:E; [reflexivity|exact E]. Qed.

(* after the rollback of a list of keys none of them matches any more, nor does any key that did not match before *)
Lemma pess_rollback_keys st l start fu : keys_sorted st ->
  let st1 := fold_left (fun acc k => apply_opt acc k (pess_rollback_key (get_ks st k) start fu)) l st in
  keys_sorted st1 /\
  forall k, In k l \/ pess_rollback_match (get_ks st k) start fu = false -> pess_rollback_match (get_ks st1 k) start fu = false.
Proof.
  intros Hs. cbv zeta. rewrite (fold_keys_batch (fun k => pess_rollback_key (get_ks st k) start fu)).
  split; [apply apply_all_sorted; exact Hs|]. intros k Hk. rewrite apply_all_keys by exact Hs.
  destruct (existsb (N.eqb k) l) eqn:Ex; [apply pess_rollback_key_after|]. destruct Hk as [Hin|Hm]; [|exact Hm].
  rewrite (existsb_eqb_in k l Hin) in Ex. discriminate.
Qed.

Lemma filter_none {A} (p : A -> bool) l : (forall x, In x l -> p x = false) -> filter p l = [].
Proof. induction l as [|x r IH]; intros H; [reflexivity|]. cbn [filter]. rewrite (H x (or_introl eq_refl)). apply IH. intros y Hy. apply H; right; exact Hy. Qed.

Lemma has_err_nones {A} (l : list A) : has_err (map (fun _ => None) l) = false.
Proof. induction l; [reflexivity|assumption]. Qed.

Theorem pess_rollback_idem st : keys_sorted st -> forall s e ks start fu, idem_at st (PessRollback s e ks start fu).
Proof.
  intros Hs s e ks start fu. unfold idem_at. cbn [step fst snd].
  set (ks' := match ks with [] => map fst (filter (fun kv => pess_rollback_match (snd kv) start fu) (keys_in_range st s e)) | _ => ks end).
  destruct (pess_rollback_keys st ks' start fu Hs) as [Hs1 Hnm]. set (st1 := fold_left _ ks' st) in *.
  destruct ks as [|k0 rest].
  - (* scan form: nothing matches any more *)
    assert (Hempty : filter (fun kv => pess_rollback_match (snd kv) start fu) (keys_in_range st1 s e) = []).
    { apply filter_none. intros [k v] Hin. apply filter_In in Hin. destruct Hin as [Hin Hr]. cbn [fst snd] in *.
      rewrite <- (get_ks_in st1 k v Hs1 Hin). apply Hnm.
      destruct (pess_rollback_match (get_ks st k) start fu) eqn:Hm; [left|right; reflexivity].
      apply in_map_iff. exists (k, get_ks st k). split; [reflexivity|]. apply filter_In. split; [|exact Hm].
      apply filter_In. split; [|exact Hr]. apply get_ks_mem; [exact Hs|]. intros E0. rewrite E0 in Hm. discriminate. }
    rewrite Hempty. eexists. split; [reflexivity|]. cbn [map resp_status].
    rewrite has_err_nones. reflexivity.
  - (* explicit keys *)
    exists (RErrs (map (fun _ => None) ks')). split; [|reflexivity]. f_equal.
    rewrite (fold_keys_batch (fun k => pess_rollback_key (get_ks st1 k) start fu)).
    apply apply_all_none. intros kv Hin. apply in_map_iff in Hin. destruct Hin as [k [E Hin]]. subst kv. cbn [snd].
    unfold pess_rollback_key. rewrite (Hnm k (or_introl Hin)). reflexivity.
Qed.

Definition idem_class_all (c : cmd) : bool :=
  idem_class c || match c with
                  | Prewrite _ _ s _ _ _ _ => negb (s =? max_ts)
                  | PessLock _ | PessRollback _ _ _ _ _ => true
                  | _ => false
                  end.

Theorem step_idem_all W st c : World_ok W -> wf_store W st -> idem_class_all c = true -> idem_at st c.
Proof.
  intros HW Hwf Hc. pose proof Hwf as [Hs _]. unfold idem_class_all in Hc. apply orb_true_iff in Hc. destruct Hc as [Hc|Hc].
  - eapply step_idem; eassumption.
  - destruct c; try discriminate.
    + apply prewrite_idem; [exact Hs|]. apply negb_true_iff in Hc. apply N.eqb_neq; exact Hc.
    + apply idem_at_same. apply pess_lock_idem; exact Hs.
    + apply pess_rollback_idem; exact Hs.
Qed.

Lemma idem_all_seq cmds c : oracle_ts (cmds ++ [c]) = true -> idem_class_all c = true -> idem_at (run cmds) c.
Proof. intros Ho Hc. destruct (oracle_app_wf cmds [c] Ho) as [HW [Hwf _]]. eapply step_idem_all; eassumption. Qed.
