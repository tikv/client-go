(* Mvcc/ProofsIdem.v — repeating a command whose effect is in place gives the same answer and
   changes nothing: commit, batch rollback, cleanup, check-txn-status, resolve (single and
   batch), heartbeat at store level for arbitrary key lists; prewrite at key level. *)
From Verif Require Import Mvcc.Model Mvcc.Spec Mvcc.ProofsStore Mvcc.ProofsKey Mvcc.ProofsKstep Mvcc.ProofsShape Mvcc.ProofsStep Mvcc.ProofsMarker.

(* the second answer is compared up to [resp_status], which erases the action of a status check and the length of
   an error-free [RErrs] (the scan form of PessimisticRollback answers one nil per lock it found: none the second time) *)
Definition idem_at (st : store) (c : cmd) : Prop :=
  exists r2, step (fst (step st c)) c = (fst (step st c), r2) /\ resp_status r2 = resp_status (snd (step st c)).

Lemma idem_at_same st c : step (fst (step st c)) c = step st c -> idem_at st c.
Proof. intros E. exists (snd (step st c)). split; [rewrite E; apply surjective_pairing|reflexivity]. Qed.

Lemma find_start_put w ws : ~ In (w_start w) (map w_start ws) -> find_start (w_start w) (put_write w ws) = Some w.
Proof.
  induction ws as [|x r IH]; intros Hn; cbn [put_write find_start].
  - rewrite N.eqb_refl. reflexivity.
  - cbn [map In] in Hn. destruct (w_commit x <? w_commit w); [|destruct (w_commit x =? w_commit w)]; cbn [find_start].
    + rewrite N.eqb_refl. reflexivity.
    + rewrite N.eqb_refl. reflexivity.
    + destruct (N.eqb_spec (w_start x) (w_start w)); [tauto|]. apply IH. tauto.
Qed.

(* the key holds the outcome of transaction s: no lock of s, and w is its record *)
Definition settled (ks : kstate) (s : ts) (w : write) : Prop :=
  own_lock ks s = None /\ find_start s (ks_writes ks) = Some w.

Lemma put_settled lk w ws : own_lock (mkKs lk ws) (w_start w) = None -> ~ In (w_start w) (map w_start ws) ->
  settled (mkKs lk (put_write w ws)) (w_start w) w.
Proof. intros Ho Hn. split; [exact Ho|apply find_start_put; exact Hn]. Qed.

Lemma settled_commit ks s c w : settled ks s w -> is_rollback w = false -> commit_key ks s c = KOk None.
Proof. intros [Ho Hf] Hr. unfold commit_key. rewrite Ho, Hf, Hr. reflexivity. Qed.
Lemma settled_rollback ks s w : settled ks s w -> is_rollback w = true -> rollback_key ks s = KOk None.
Proof. intros [Ho Hf] Hr. unfold rollback_key. rewrite Ho, Hf, Hr. reflexivity. Qed.
Lemma settled_cts ks k s caller cur rine rp w : settled ks s w ->
  check_txn_status_key ks k s caller cur rine rp = (None, RStatus 0 (if is_rollback w then 0 else w_commit w) ANoAction).
Proof. intros [Ho Hf]. unfold check_txn_status_key. rewrite Ho, Hf. destruct (is_rollback w); reflexivity. Qed.

Section Idem.
  Variable W : world.
  Hypothesis HW : World_ok W.

  (* an accepted commit / rollback leaves the key settled: the lock's transaction had no record (wf_lock) *)
  Lemma commit_key_settles ks s c o : wf_ks W ks -> commit_key ks s c = KOk o ->
    exists w, settled (upd o ks) s w /\ is_rollback w = false.
  Proof.
    intros Hwf. unfold commit_key. destruct (own_lock ks s) as [l|] eqn:Eo.
    - apply own_lock_some in Eo. destruct Eo as [El Es]. destruct (c <? l_min_commit l); [discriminate|]. intros E; inversion E.
      destruct (wf_lock _ _ Hwf l El) as [_ Hn]. rewrite Es in Hn. eexists. split; [apply (put_settled None (mkWrite _ s c _)); [reflexivity|exact Hn]|].
      destruct (l_op l); reflexivity.
    - destruct (find_start s (ks_writes ks)) as [w|] eqn:Ef; [|discriminate]. destruct (is_rollback w) eqn:Er; [discriminate|].
      intros E; inversion E. exists w. repeat split; assumption.
  Qed.
  Lemma rollback_key_settles ks s o : wf_ks W ks -> rollback_key ks s = KOk o ->
    exists w, settled (upd o ks) s w /\ is_rollback w = true.
  Proof.
    intros Hwf. unfold rollback_key. destruct (own_lock ks s) as [l|] eqn:Eo.
    - apply own_lock_some in Eo. destruct Eo as [El Es]. intros E; inversion E. destruct (wf_lock _ _ Hwf l El) as [_ Hn]. rewrite Es in Hn.
      exists (rollback_write s). split; [apply (put_settled None (rollback_write s)); [reflexivity|exact Hn]|reflexivity].
    - destruct (find_start s (ks_writes ks)) as [w|] eqn:Ef.
      + destruct (is_rollback w) eqn:Er; [|discriminate]. intros E; inversion E. exists w. repeat split; assumption.
      + intros E; inversion E. apply find_start_none in Ef.
        exists (rollback_write s). split; [apply (put_settled _ (rollback_write s)); [exact Eo|exact Ef]|reflexivity].
  Qed.

  Lemma commit_key_idem ks s c o : wf_ks W ks -> commit_key ks s c = KOk o -> commit_key (upd o ks) s c = KOk None.
  Proof. intros Hwf E. destruct (commit_key_settles _ _ _ _ Hwf E) as [w [Hs Hr]]. eapply settled_commit; eassumption. Qed.
  Lemma rollback_key_idem ks s o : wf_ks W ks -> rollback_key ks s = KOk o -> rollback_key (upd o ks) s = KOk None.
  Proof. intros Hwf E. destruct (rollback_key_settles _ _ _ Hwf E) as [w [Hs Hr]]. eapply settled_rollback; eassumption. Qed.
  Lemma cleanup_key_idem ks k s cur o : wf_ks W ks -> cleanup_key ks k s cur = KOk o -> cleanup_key (upd o ks) k s cur = KOk None.
  Proof.
    intros Hwf E. destruct (rollback_key_settles _ _ _ Hwf (cleanup_key_rollback _ _ _ _ _ E)) as [w [Hs Hr]].
    unfold cleanup_key. rewrite (proj1 Hs). eapply settled_rollback; eassumption.
  Qed.

  Lemma resolve_key_idem s c k ks : resolve_key s c k (upd (resolve_key s c k ks) ks) = None.
  Proof.
    unfold resolve_key. destruct (own_lock ks s) as [l|] eqn:Eo; cbn [upd]; [|rewrite Eo; reflexivity].
    destruct (0 <? c); reflexivity.
  Qed.
  Lemma batch_resolve_key_idem infos k ks : batch_resolve_key infos k (upd (batch_resolve_key infos k ks) ks) = None.
  Proof.
    unfold batch_resolve_key. destruct (ks_lock ks) as [l|] eqn:El; cbn [upd]; [|rewrite El; reflexivity].
    destruct (assoc_ts (l_start l) infos) as [c|] eqn:Ea; cbn [upd]; [|rewrite El, Ea; reflexivity].
    unfold resolve_key, own_lock. rewrite El, N.eqb_refl. cbn [upd]. destruct (0 <? c); reflexivity.
  Qed.

  (* a check that wrote nothing is literally repeated; the cases below are those that wrote *)
  Lemma heartbeat_key_idem ks k s adv o r : heartbeat_key ks k s adv = (o, r) -> heartbeat_key (upd o ks) k s adv = (None, r).
  Proof.
    destruct o as [x|]; [|intros E; exact E]. unfold heartbeat_key. destruct (own_lock ks s) as [l|] eqn:Eo; [|discriminate].
    destruct (negb (l_primary l =? k)) eqn:Ep; [discriminate|]. destruct (l_ttl l <? adv); [|discriminate].
    intros E; inversion E; subst. cbn [upd]. apply own_lock_some in Eo. destruct Eo as [El Es].
    unfold own_lock. cbn [ks_lock l_start]. rewrite Es, N.eqb_refl. cbn [l_primary l_ttl]. rewrite Ep, N.ltb_irrefl. reflexivity.
  Qed.

  Lemma cts_key_idem ks k s caller cur rine rp o r : wf_ks W ks -> rine || negb rp = true ->
    check_txn_status_key ks k s caller cur rine rp = (o, r) ->
    exists r', check_txn_status_key (upd o ks) k s caller cur rine rp = (None, r') /\ resp_status r' = resp_status r.
  Proof.
    intros Hwf Hfl E. destruct o as [x|]; [|exists r; split; [exact E|reflexivity]]. cbn [upd].
    (* a rollback record written: the second check finds it *)
    assert (Hset : forall lk a, own_lock (mkKs lk (ks_writes ks)) s = None -> ~ In s (map w_start (ks_writes ks)) ->
              exists r', check_txn_status_key (mkKs lk (put_write (rollback_write s) (ks_writes ks))) k s caller cur rine rp = (None, r')
                         /\ resp_status r' = resp_status (RStatus 0 0 a)).
    { intros lk a Ho Hn. rewrite (settled_cts _ k s caller cur rine rp _ (put_settled lk (rollback_write s) _ Ho Hn)). eexists; split; reflexivity. }
    unfold check_txn_status_key in E. destruct (own_lock ks s) as [l|] eqn:Eo.
    - pose proof Eo as Eo'. apply own_lock_some in Eo'. destruct Eo' as [El Es].
      destruct (wf_lock _ _ Hwf l El) as [_ Hn]. rewrite Es in Hn.
      destruct (ttl_expired l cur) eqn:Et.
      + destruct (rp && is_pess l) eqn:Erp.
        * (* pessimistic rollback: the lock vanishes without a record *)
          apply andb_true_iff in Erp. destruct Erp as [Erp Epess]. subst rp.
          unfold pess_rollback_key, pess_rollback_match in E. rewrite El, Epess, N.eqb_refl, N.leb_refl in E. inversion E; subst x r.
          unfold check_txn_status_key. cbn [own_lock ks_lock ks_writes]. apply find_start_none in Hn. rewrite Hn.
          destruct rine; [|discriminate]. eexists; split; reflexivity.
        * inversion E; subst x r. apply (Hset None); [reflexivity|exact Hn].
      + destruct (caller =? max_ts) eqn:Ec; [discriminate|]. destruct (0 <? l_min_commit l) eqn:Em; [|discriminate].
        destruct (l_min_commit l <? caller + 1); [|discriminate].
        (* pushed: the new min_commit_ts is positive and not below caller + 1 *)
        inversion E; subst x r. subst s. unfold check_txn_status_key, own_lock. cbn [ks_lock l_start]. rewrite N.eqb_refl.
        unfold ttl_expired in *. cbn [l_start l_ttl]. rewrite Et, Ec. cbn [l_min_commit].
        assert (Hm : 0 <? (if caller + 1 <? cur then cur else caller + 1) = true) by (apply N.ltb_lt; destruct (N.ltb_spec (caller + 1) cur); lia).
        assert (Hn2 : (if caller + 1 <? cur then cur else caller + 1) <? caller + 1 = false) by (apply N.ltb_ge; destruct (N.ltb_spec (caller + 1) cur); lia).
        rewrite Hm, Hn2. eexists; split; reflexivity.
    - destruct (find_start s (ks_writes ks)) as [w|] eqn:Ef; [destruct (is_rollback w); discriminate|].
      destruct rine; [destruct rp|]; try discriminate. inversion E; subst x r. apply find_start_none in Ef.
      apply (Hset (ks_lock ks)); [exact Eo|exact Ef].
  Qed.
End Idem.

Lemma map_range_none st s e f : keys_sorted st ->
  (forall k, in_range s e k = true -> f k (get_ks st k) = None) -> map_range st s e f = st.
Proof.
  intros Hs H. rewrite map_range_batch. apply apply_all_none. intros kv Hin. apply in_map_iff in Hin.
  destruct Hin as [[k v] [E Hin]]. subst kv. apply filter_In in Hin. destruct Hin as [Hin Hr]. cbn [fst snd] in *.
  rewrite <- (get_ks_in st k v Hs Hin). apply H; exact Hr.
Qed.

(* a range command whose per-key function undoes its own precondition *)
Lemma map_range_idem st s e f : keys_sorted st -> (forall k ks, f k (upd (f k ks) ks) = None) -> (forall k, f k empty_ks = None) ->
  map_range (map_range st s e f) s e f = map_range st s e f.
Proof.
  intros Hs Hf He. apply map_range_none; [apply map_range_sorted; exact Hs|]. intros k Hr.
  rewrite map_range_get_total, Hr by first [exact Hs|rewrite He; reflexivity]. apply Hf.
Qed.

Section StoreIdem.
  Variable W : world.
  Hypothesis HW : World_ok W.

  Definition idem_class (c : cmd) : bool :=
    match c with
    | Commit _ _ _ | Rollback _ _ | Cleanup _ _ _ | HeartBeat _ _ _ | ResolveLock _ _ _ _ | BatchResolveLock _ _ _ => true
    | CheckTxnStatus _ _ _ _ rine rp => rine || negb rp
    | _ => false
    end.

  Lemma bfe_idem st f keys : wf_store W st ->
    (forall ks o, wf_ks W ks -> f ks = KOk o -> f (upd o ks) = KOk None) ->
    let r := batch_first_err st st f keys in batch_first_err (fst r) (fst r) f keys = r.
  Proof.
    intros [Hs Hk] Hf. cbv zeta.
    destruct (bfe_cases st f keys st) as [[k [e [_ [_ E]]]]|[_ E]]; [rewrite E; exact E|]. rewrite E. cbn [fst].
    set (st1 := apply_all _ st) in *.
    assert (Hnone : forall k, In k keys -> f (get_ks st1 k) = KOk None).
    { intros k Hin. destruct (bfe_ok st f keys st1 Hs E k Hin) as [o [Ho Eg]]. rewrite Eg. apply Hf; [apply Hk|exact Ho]. }
    destruct (bfe_cases st1 f keys st1) as [[k [e [Hin [He _]]]]|[_ E1]]; [rewrite (Hnone k Hin) in He; discriminate|].
    rewrite E1. f_equal. apply apply_all_none. intros kv Hin. apply in_map_iff in Hin. destruct Hin as [k [Ekv Hin]]. subst kv.
    cbn [snd]. rewrite (Hnone k Hin). reflexivity.
  Qed.

  Theorem step_idem st c : wf_store W st -> idem_class c = true -> idem_at st c.
  Proof.
    intros Hst Hc. pose proof Hst as [Hs Hk]. destruct c; cbn [idem_class] in Hc; try discriminate.
    - apply idem_at_same. cbn [step]. apply (bfe_idem st _ ks Hst). intros ks0 o. apply commit_key_idem.
    - apply idem_at_same. cbn [step]. apply (bfe_idem st _ ks Hst). intros ks0 o. apply rollback_key_idem.
    - apply idem_at_same. cbn [step]. destruct (cleanup_key (get_ks st k) k start current) as [e|o] eqn:E; cbn [fst]; [rewrite E; reflexivity|].
      rewrite get_apply_same by exact Hs. rewrite (cleanup_key_idem W _ k start current o (Hk k) E). reflexivity.
    - unfold idem_at. cbn [step].
      destruct (check_txn_status_key (get_ks st k) k lock_ts caller current rollback_if_not_exist resolving_pess) as [o r] eqn:E. cbn [fst snd].
      rewrite get_apply_same by exact Hs.
      destruct (cts_key_idem W _ k lock_ts caller current _ _ o r (Hk k) Hc E) as [r' [H1 H2]]. rewrite H1.
      exists r'. split; [reflexivity|exact H2].
    - unfold idem_at. cbn [step]. destruct (heartbeat_key (get_ks st k) k start advise) as [o r] eqn:E. cbn [fst snd].
      rewrite get_apply_same by exact Hs. rewrite (heartbeat_key_idem _ k start advise o r E).
      eexists; split; reflexivity.
    - apply idem_at_same. cbn [step fst]. rewrite map_range_idem; [reflexivity|exact Hs|apply resolve_key_idem|reflexivity].
    - apply idem_at_same. cbn [step fst]. rewrite map_range_idem; [reflexivity|exact Hs|apply batch_resolve_key_idem|reflexivity].
  Qed.

  (* prewrite over the transaction's own lock, key level: whatever a successful prewrite of a key
     left, prewriting that key again (any mutation of that transaction) writes nothing and succeeds *)
  Lemma prewrite_key_idem ks m m' s p ttl mc ao x : prewrite_key ks m s p ttl mc ao = KOk (Some x) ->
    prewrite_key x m' s p ttl mc ao = KOk None.
  Proof.
    intros H. destruct (prewrite_key_written _ _ _ _ _ _ _ _ H) as [l' [Ex [Es [_ [Ep _]]]]]. subst x.
    unfold prewrite_key. cbn [ks_lock]. rewrite Es, N.eqb_refl, Ep. reflexivity.
  Qed.
  Lemma prewrite_key_idem_none ks m s p ttl mc ao : prewrite_key ks m s p ttl mc ao = KOk None ->
    forall m', prewrite_key ks m' s p ttl mc ao = KOk None.
  Proof.
    unfold prewrite_key. destruct (ks_lock ks) as [l|].
    - destruct (negb (l_start l =? s)); [discriminate|]. destruct (negb (is_pess l)); [reflexivity|].
      destruct (ccv _ false ao false (ks_writes ks)); discriminate.
    - destruct (m_pess_check m); [discriminate|]. destruct (ccv _ false ao false (ks_writes ks)); discriminate.
  Qed.
End StoreIdem.

