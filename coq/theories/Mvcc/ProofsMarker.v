(* Mvcc/ProofsMarker.v — the commit / rollback record persists over whole command sequences
   until GC passes its start ts; every rollback path leaves the record. *)
From Verif Require Import Mvcc.Model Mvcc.Spec Mvcc.ProofsStore Mvcc.ProofsKey Mvcc.ProofsKstep Mvcc.ProofsShape Mvcc.ProofsStep Mvcc.ProofsLate.

Lemma marker_step W st c k s : World_ok W -> wf_store W st -> cmd_in W c -> lock_req_ok st c = true ->
  is_gc_over c s = false -> In s (map w_start (ks_writes (get_ks st k))) ->
  In s (map w_start (ks_writes (get_ks (fst (step st c)) k))).
Proof.
  intros HW [Hs Hk] Hc Hreq Hgc Hin. destruct (step_kstep st c Hs) as [_ Hr].
  destruct (Hr k) as [E|H]; [rewrite E; exact Hin|].
  eapply marker_kstep; [exact HW|apply Hk| |exact H|exact Hgc|exact Hin].
  eapply kstep_wf; [exact HW|apply Hk|exact Hc|exact Hreq|exact H].
Qed.

Lemma marker_run W k s : World_ok W -> forall cmds st, wf_store W st -> (forall c, In c cmds -> cmd_in W c) ->
  disciplined_from st cmds = true -> (forall c, In c cmds -> is_gc_over c s = false) ->
  In s (map w_start (ks_writes (get_ks st k))) ->
  In s (map w_start (ks_writes (get_ks (run_from st cmds) k))).
Proof.
  intros HW cmds st Hst Hin Hd Hgc Hm.
  apply (run_from_inv (fun st => wf_store W st /\ In s (map w_start (ks_writes (get_ks st k)))) cmds); [|exact Hd|split; assumption].
  intros st0 c Hc Hreq [H0 Hm0]. split; [apply step_wf; auto|apply marker_step with (W := W); auto].
Qed.

Lemma run_app a b : run (a ++ b) = run_from (run a) b.
Proof. unfold run, run_from. apply fold_left_app. Qed.

Lemma oracle_app_wf a b : oracle_ts (a ++ b) = true ->
  World_ok (world_of (a ++ b)) /\ wf_store (world_of (a ++ b)) (run a) /\ disciplined_from (run a) b = true.
Proof.
  intros H. pose proof (oracle_world_ok _ H) as Hw. apply andb_true_iff in H. destruct H as [_ Hd].
  apply disciplined_app in Hd. destruct Hd as [Ha Hb].
  split; [exact Hw|]. split; [|exact Hb].
  rewrite run_is_run_from. apply run_from_wf; [exact Hw|apply wf_store_nil| |exact Ha].
  intros c Hc. apply cmd_in_world_of. apply in_or_app; left; exact Hc.
Qed.

Lemma marker_until_gc a b k s : oracle_ts (a ++ b) = true -> has_write (run a) k s = true ->
  (forall c, In c b -> is_gc_over c s = false) -> has_write (run (a ++ b)) k s = true.
Proof.
  intros Ho Hw Hgc. destruct (oracle_app_wf a b Ho) as [HW [Hwf Hd]].
  apply has_write_true. rewrite run_app. apply marker_run with (W := world_of (a ++ b)); auto.
  - intros c Hc. apply cmd_in_world_of. apply in_or_app; right; exact Hc.
  - apply has_write_true; exact Hw.
Qed.

Lemma rolled_back_intro st k s : In (rollback_write s) (ks_writes (get_ks st k)) -> rolled_back st k s = true.
Proof.
  intros H. unfold rolled_back, writes_of. apply existsb_exists. exists (rollback_write s). split; [exact H|].
  cbn. rewrite N.eqb_refl. reflexivity.
Qed.

(* [rolled_back] and [committed] on the state of one key *)
Definition ks_rolled_back (ks : kstate) (s : ts) : bool :=
  existsb (fun w0 => (w_start w0 =? s) && is_rollback w0) (ks_writes ks).
Definition ks_committed (ks : kstate) (s : ts) : bool :=
  existsb (fun w0 => (w_start w0 =? s) && negb (is_rollback w0)) (ks_writes ks).

Lemma ks_rb_put ks lk s : ks_rolled_back (mkKs lk (put_write (rollback_write s) (ks_writes ks))) s = true.
Proof.
  apply existsb_exists. exists (rollback_write s). split; [apply put_write_has|]. cbn. rewrite N.eqb_refl. reflexivity.
Qed.
Lemma ks_found ks s w : find_start s (ks_writes ks) = Some w ->
  if is_rollback w then ks_rolled_back ks s = true else ks_committed ks s = true.
Proof.
  intros Hf. apply find_start_some in Hf. destruct Hf as [Hin Es].
  destruct (is_rollback w) eqn:Er; apply existsb_exists; exists w; (split; [exact Hin|]); rewrite Es, N.eqb_refl, Er; reflexivity.
Qed.

Lemma rollback_key_marks ks s o : rollback_key ks s = KOk o -> ks_rolled_back (upd o ks) s = true.
Proof.
  unfold rollback_key. destruct (own_lock ks s).
  - intros E; inversion E; subst. apply ks_rb_put.
  - destruct (find_start s (ks_writes ks)) as [w|] eqn:Ef.
    + apply ks_found in Ef. destruct (is_rollback w); [|discriminate]. intros E; inversion E; subst. exact Ef.
    + intros E; inversion E; subst. apply ks_rb_put.
Qed.
Lemma cleanup_key_marks ks k s cur o : cleanup_key ks k s cur = KOk o -> ks_rolled_back (upd o ks) s = true.
Proof. intros E. eapply rollback_key_marks, cleanup_key_rollback, E. Qed.
Lemma commit_key_marks ks s c o : commit_key ks s c = KOk o -> ks_committed (upd o ks) s = true.
Proof.
  unfold commit_key. destruct (own_lock ks s) as [l|].
  - destruct (c <? l_min_commit l); [discriminate|]. intros E; inversion E; subst.
    apply existsb_exists. eexists. split; [apply put_write_has|]. cbn [w_start]. rewrite N.eqb_refl. destruct (l_op l); reflexivity.
  - destruct (find_start s (ks_writes ks)) as [w|] eqn:Ef; [|discriminate].
    apply ks_found in Ef. destruct (is_rollback w); [discriminate|]. intros E; inversion E; subst. exact Ef.
Qed.

Lemma cleanup_leaves_marker st : keys_sorted st -> forall k s cur,
  snd (step st (Cleanup k s cur)) = RErr None -> rolled_back (fst (step st (Cleanup k s cur))) k s = true.
Proof.
  intros Hs k s cur. cbn [step]. destruct (cleanup_key (get_ks st k) k s cur) as [e|o] eqn:E; cbn [fst snd]; [discriminate|].
  intros _. unfold rolled_back, writes_of. rewrite get_apply_same by exact Hs.
  apply cleanup_key_marks in E. exact E.
Qed.

Lemma cts_leaves_marker st : keys_sorted st -> forall k s caller cur rine rp a,
  snd (step st (CheckTxnStatus k s caller cur rine rp)) = RStatus 0 0 a ->
  a = ATTLExpireRollback \/ a = ALockNotExistRollback ->
  rolled_back (fst (step st (CheckTxnStatus k s caller cur rine rp))) k s = true.
Proof.
  intros Hs k s caller cur rine rp a. cbn [step]. destruct (check_txn_status_key (get_ks st k) k s caller cur rine rp) as [o r] eqn:E. cbn [fst snd].
  intros Er Ha. subst r. unfold rolled_back, writes_of. rewrite get_apply_same by exact Hs.
  apply cts_key_rolled_back in E. destruct Ha; subst a o; apply ks_rb_put.
Qed.

(* what every accepted key function establishes on its key holds on every key of an accepted batch *)
Lemma bfe_marks st f keys (p : kstate -> bool) : keys_sorted st -> (forall ks o, f ks = KOk o -> p (upd o ks) = true) ->
  snd (batch_first_err st st f keys) = RErr None ->
  forall k, In k keys -> p (get_ks (fst (batch_first_err st st f keys)) k) = true.
Proof.
  intros Hs Hf. destruct (batch_first_err st st f keys) as [st' r] eqn:E. cbn [fst snd]. intros Er k Hk. subst r.
  destruct (bfe_ok st f keys st' Hs E k Hk) as [o [Ho Eg]]. rewrite Eg. apply Hf; exact Ho.
Qed.

Lemma rollback_leaves_marker st : keys_sorted st -> forall keys s,
  snd (step st (Rollback keys s)) = RErr None ->
  forall k, In k keys -> rolled_back (fst (step st (Rollback keys s))) k s = true.
Proof. intros Hs keys s. apply (bfe_marks st _ keys (fun ks => ks_rolled_back ks s) Hs). intros ks o. apply rollback_key_marks. Qed.

Lemma commit_ok_committed st : keys_sorted st -> forall keys s c,
  snd (step st (Commit keys s c)) = RErr None ->
  forall k, In k keys -> committed (fst (step st (Commit keys s c))) k s = true.
Proof. intros Hs keys s c. apply (bfe_marks st _ keys (fun ks => ks_committed ks s) Hs). intros ks o. apply commit_key_marks. Qed.

Lemma resolve_rollback_leaves_marker st : keys_sorted st -> forall s0 e0 s k l,
  lock_of st k = Some l -> l_start l = s -> in_range s0 e0 k = true ->
  let st' := fst (step st (ResolveLock s0 e0 s 0)) in rolled_back st' k s = true /\ lock_of st' k = None.
Proof.
  intros Hs s0 e0 s k l Hl Es Hr. cbn [step fst]. unfold rolled_back, lock_of, writes_of in *.
  rewrite map_range_get_total by first [exact Hs|reflexivity]. rewrite Hr.
  unfold resolve_key, own_lock. rewrite Hl, Es, N.eqb_refl. change (0 <? 0) with false. cbn [upd].
  split; [apply ks_rb_put|reflexivity].
Qed.

