(* Mvcc/Handler.v — the one RPC handler that adds MVCC-visible logic of its own: handleKvScanLock
   (since /repo 9f23e58): the scan window is the request's [start_key, end_key) clipped to the region
   [rs, re) (0 = unbounded / smallest), and the answer is cut at [limit] locks (0 = no limit). *)
From Verif Require Import Mvcc.Model Mvcc.Spec Mvcc.ProofsStore Mvcc.ProofsKey Mvcc.ProofsKstep Mvcc.ProofsShape Mvcc.ProofsRead.
From Coq Require Import Sorted.

Definition clip_start (rs s : key) : key := if rs <? s then s else rs.
Definition clip_end (re e : key) : key := if e =? 0 then re else if (re =? 0) || (e <? re) then e else re.
Definition cut_limit {A} (limit : nat) (l : list A) : list A := match limit with O => l | _ => firstn limit l end.
Definition locks_of_resp (r : resp) : list (key * lock) := match r with RLocks ls => ls | _ => [] end.

Definition handler_scan_lock (st : store) (rs re s e : key) (limit : nat) (max : ts) : list (key * lock) :=
  cut_limit limit (locks_of_resp (snd (step st (ScanLock (clip_start rs s) (clip_end re e) max)))).

Lemma handler_scan_lock_locks st : keys_sorted st -> forall rs re s e limit max,
  exists ls, handler_scan_lock st rs re s e limit max = cut_limit limit ls /\
             (forall k l, In (k, l) ls <-> in_range (clip_start rs s) (clip_end re e) k = true /\ lock_of st k = Some l /\ l_start l <= max) /\
             StronglySorted N.lt (map fst ls).
Proof.
  intros Hs rs re s e limit max. unfold handler_scan_lock. cbn [step snd locks_of_resp]. eexists. split; [reflexivity|]. split.
  - intros k l. destruct (scan_lock_locks st Hs (clip_start rs s) (clip_end re e) max k l) as [ls [E H]].
    cbn [step snd] in E. inversion E; subst ls. exact H.
  - (* key order: the keys listed are those of a sub-store *)
    unfold keys_in_range. set (q := fun kv : key * kstate => match ks_lock (snd kv) with Some l => l_start l <=? max | None => false end).
    replace (map fst (flat_map _ _)) with (map fst (filter q (filter (fun kv => in_range (clip_start rs s) (clip_end re e) (fst kv)) st)));
      [apply keys_sorted_filter, keys_sorted_filter, Hs|].
    induction (filter _ st) as [|kv r IH]; [reflexivity|]. cbn [filter flat_map]. unfold q at 1.
    destruct (ks_lock (snd kv)) as [l|]; [destruct (l_start l <=? max)|]; cbn [app map]; rewrite IH; reflexivity.
Qed.
