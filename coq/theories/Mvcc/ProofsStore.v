(* Mvcc/ProofsStore.v — the store as a sorted association list: get/set/delete laws, and
   write batches ([apply_all]): every multi-key command of the model is one batch. *)
From Verif Require Import Mvcc.Model Mvcc.Spec.
From Coq Require Import Sorted.

Definition keys_sorted (st : store) : Prop := StronglySorted N.lt (map fst st).

Lemma ks_is_empty_eq v : ks_is_empty v = true -> v = empty_ks.
Proof. destruct v as [[l|] [|w ws]]; cbn; intros; try discriminate; reflexivity. Qed.

Lemma keys_sorted_nil : keys_sorted [].
Proof. constructor. Qed.

Lemma keys_sorted_cons k v r : keys_sorted ((k, v) :: r) <-> keys_sorted r /\ Forall (fun k' => k < k') (map fst r).
Proof.
  unfold keys_sorted; cbn [map fst]. split.
  - intros H. inversion H; subst. split; assumption.
  - intros [H1 H2]. constructor; assumption.
Qed.

Lemma get_ks_below k v r k' : Forall (fun x => k < x) (map fst r) -> k' <= k -> k' <> k -> get_ks ((k, v) :: r) k' = empty_ks.
Proof.
  intros _ Hle Hne. cbn [get_ks]. destruct (N.eqb_spec k k'); [congruence|].
  destruct (N.ltb_spec k' k); [reflexivity|lia].
Qed.

Lemma get_ks_notin st k : Forall (fun x => k < x) (map fst st) -> get_ks st k = empty_ks.
Proof.
  destruct st as [|[k0 v0] r]; intros Hf; [reflexivity|].
  cbn [map fst] in Hf. inversion Hf; subst. cbn [get_ks].
  destruct (N.eqb_spec k0 k); [lia|]. destruct (N.ltb_spec k k0); [reflexivity|lia].
Qed.

(* on a sorted store the early exit of [get_ks] is invisible: it is the plain association lookup *)
Lemma get_ks_cons k0 v0 r k : keys_sorted ((k0, v0) :: r) -> get_ks ((k0, v0) :: r) k = if k =? k0 then v0 else get_ks r k.
Proof.
  intros Hs. apply keys_sorted_cons in Hs. destruct Hs as [_ Hf]. cbn [get_ks]. rewrite (N.eqb_sym k k0).
  destruct (k0 =? k); [reflexivity|]. destruct (N.ltb_spec k k0); [|reflexivity].
  symmetry. apply get_ks_notin. eapply Forall_impl; [|exact Hf]. cbn. intros; lia.
Qed.

Lemma set_raw_keys (P : key -> Prop) st k v : P k -> Forall P (map fst st) -> Forall P (map fst (set_ks_raw st k v)).
Proof.
  intros Hk. induction st as [|[k0 v0] r IH]; intros Hf; cbn [set_ks_raw]; [repeat constructor; exact Hk|].
  cbn [map fst] in Hf. inversion Hf; subst. destruct (k0 =? k); [|destruct (k <? k0)]; cbn [map fst]; repeat constructor; auto.
Qed.

Lemma sorted_set_raw st k v : keys_sorted st -> keys_sorted (set_ks_raw st k v).
Proof.
  induction st as [|[k0 v0] r IH]; intros Hs.
  - cbn. apply keys_sorted_cons. split; constructor.
  - pose proof Hs as Hs0. apply keys_sorted_cons in Hs. destruct Hs as [Hr Hf]. cbn [set_ks_raw].
    destruct (N.eqb_spec k0 k) as [EE|Hne]; [subst k0|destruct (N.ltb_spec k k0) as [Hlt|Hge]]; apply keys_sorted_cons.
    + split; assumption.
    + split; [exact Hs0|]. cbn [map fst]. constructor; [exact Hlt|]. eapply Forall_impl; [|exact Hf]. cbn. intros; lia.
    + split; [apply IH; exact Hr|]. apply set_raw_keys; [lia|exact Hf].
Qed.

Lemma get_set_raw st k v k' : keys_sorted st ->
  get_ks (set_ks_raw st k v) k' = if k' =? k then v else get_ks st k'.
Proof.
  intros Hs. pose proof (sorted_set_raw st k v Hs) as Hs'. induction st as [|[k0 v0] r IH].
  - cbn [set_ks_raw] in *. rewrite get_ks_cons by exact Hs'. reflexivity.
  - rewrite (get_ks_cons k0 v0 r k' Hs). cbn [set_ks_raw] in *.
    destruct (N.eqb_spec k0 k) as [E|Hne]; [|destruct (k <? k0)]; rewrite get_ks_cons by exact Hs'.
    + subst k0. destruct (k' =? k); reflexivity.
    + rewrite (get_ks_cons k0 v0 r k' Hs). reflexivity.
    + apply keys_sorted_cons in Hs, Hs'. rewrite IH by tauto.
      destruct (N.eqb_spec k' k0); [|reflexivity]. destruct (N.eqb_spec k' k); [congruence|reflexivity].
Qed.

Lemma del_keys (P : key -> Prop) st k : Forall P (map fst st) -> Forall P (map fst (del_ks st k)).
Proof.
  induction st as [|[k0 v0] r IH]; intros Hf; [exact Hf|]. cbn [del_ks map fst] in *. inversion Hf; subst.
  destruct (k0 =? k); [|destruct (k <? k0)]; cbn [map fst]; auto.
Qed.

Lemma sorted_del st k : keys_sorted st -> keys_sorted (del_ks st k).
Proof.
  induction st as [|[k0 v0] r IH]; intros Hs; [exact Hs|].
  pose proof Hs as Hs0. apply keys_sorted_cons in Hs. destruct Hs as [Hr Hf]. cbn [del_ks].
  destruct (k0 =? k); [exact Hr|]. destruct (k <? k0); [exact Hs0|].
  apply keys_sorted_cons. split; [apply IH; exact Hr|apply del_keys; exact Hf].
Qed.

Lemma get_del st k k' : keys_sorted st -> get_ks (del_ks st k) k' = if k' =? k then empty_ks else get_ks st k'.
Proof.
  intros Hs. pose proof (sorted_del st k Hs) as Hs'. induction st as [|[k0 v0] r IH].
  - cbn. destruct (k' =? k); reflexivity.
  - rewrite (get_ks_cons k0 v0 r k' Hs). cbn [del_ks] in *. pose proof Hs as Hc. apply keys_sorted_cons in Hc. destruct Hc as [Hr Hf].
    destruct (N.eqb_spec k0 k) as [E|Hne]; [|destruct (N.ltb_spec k k0)].
    + subst k0. destruct (N.eqb_spec k' k) as [E|]; [|reflexivity]. subst k'. apply get_ks_notin; exact Hf.
    + rewrite (get_ks_cons k0 v0 r k' Hs). destruct (N.eqb_spec k' k) as [E|]; [|reflexivity]. subst k'.
      destruct (N.eqb_spec k k0); [lia|]. apply get_ks_notin. eapply Forall_impl; [|exact Hf]. cbn. intros; lia.
    + rewrite get_ks_cons by exact Hs'. apply keys_sorted_cons in Hs'. rewrite IH by tauto.
      destruct (N.eqb_spec k' k0); [|reflexivity]. destruct (N.eqb_spec k' k); [congruence|reflexivity].
Qed.

Lemma get_set st k v k' : keys_sorted st -> get_ks (set_ks st k v) k' = if k' =? k then v else get_ks st k'.
Proof.
  intros Hs. unfold set_ks. destruct (ks_is_empty v) eqn:E.
  - rewrite get_del by exact Hs. apply ks_is_empty_eq in E. subst. reflexivity.
  - apply get_set_raw; exact Hs.
Qed.
Lemma sorted_set st k v : keys_sorted st -> keys_sorted (set_ks st k v).
Proof. intros Hs. unfold set_ks. destruct (ks_is_empty v); [apply sorted_del|apply sorted_set_raw]; exact Hs. Qed.

(* an optional replacement, as the write batches carry it *)
Definition upd (o : option kstate) (ks : kstate) : kstate := match o with Some x => x | None => ks end.

Lemma get_apply_opt st k o k' : keys_sorted st ->
  get_ks (apply_opt st k o) k' = if k' =? k then match o with Some x => x | None => get_ks st k' end else get_ks st k'.
Proof.
  intros Hs. destruct o; cbn [apply_opt]; [apply get_set; exact Hs|]. destruct (k' =? k); reflexivity.
Qed.
Lemma get_apply_same st k o : keys_sorted st -> get_ks (apply_opt st k o) k = upd o (get_ks st k).
Proof. intros Hs. rewrite get_apply_opt, N.eqb_refl by exact Hs. reflexivity. Qed.
Lemma sorted_apply_opt st k o : keys_sorted st -> keys_sorted (apply_opt st k o).
Proof. destruct o; cbn; [apply sorted_set|auto]. Qed.

Lemma get_ks_in st k v : keys_sorted st -> In (k, v) st -> get_ks st k = v.
Proof.
  induction st as [|[k0 v0] r IH]; intros Hs Hin; [destruct Hin|].
  rewrite get_ks_cons by exact Hs. apply keys_sorted_cons in Hs. destruct Hs as [Hr Hf]. destruct Hin as [E|Hin].
  - inversion E; subst. rewrite N.eqb_refl. reflexivity.
  - assert (k0 < k) by (rewrite Forall_forall in Hf; apply Hf; change k with (fst (k, v)); apply in_map; exact Hin).
    destruct (N.eqb_spec k k0); [lia|]. apply IH; assumption.
Qed.
Lemma get_ks_mem st k : keys_sorted st -> get_ks st k <> empty_ks -> In (k, get_ks st k) st.
Proof.
  induction st as [|[k0 v0] r IH]; intros Hs Hne; [cbn in Hne; congruence|].
  rewrite get_ks_cons in * by exact Hs. apply keys_sorted_cons in Hs. destruct Hs as [Hr _].
  destruct (N.eqb_spec k k0); [subst; left; reflexivity|]. right. apply IH; assumption.
Qed.
Lemma get_ks_absent st k : keys_sorted st -> ~ In k (map fst st) -> get_ks st k = empty_ks.
Proof.
  intros Hs Hn. destruct (ks_is_empty (get_ks st k)) eqn:E; [apply ks_is_empty_eq; exact E|]. exfalso. apply Hn.
  change k with (fst (k, get_ks st k)). apply in_map. apply get_ks_mem; [exact Hs|]. intros E0. rewrite E0 in E. discriminate.
Qed.

Lemma keys_sorted_filter p st : keys_sorted st -> keys_sorted (filter p st).
Proof.
  induction st as [|[k v] r IH]; intros Hs; [exact Hs|]. apply keys_sorted_cons in Hs. destruct Hs as [Hr Hf]. cbn [filter].
  destruct (p (k, v)); [|apply IH; exact Hr]. apply keys_sorted_cons. split; [apply IH; exact Hr|].
  rewrite Forall_forall in *. intros x Hx. apply Hf. apply in_map_iff in Hx. destruct Hx as [kv [E Hin]]. subst x.
  apply in_map. apply filter_In in Hin. apply Hin.
Qed.

Lemma keys_in_range_in st s e k v : keys_sorted st -> In (k, v) (keys_in_range st s e) -> in_range s e k = true /\ get_ks st k = v.
Proof. intros Hs Hin. apply filter_In in Hin. destruct Hin as [Hin Hr]. split; [exact Hr|apply get_ks_in; assumption]. Qed.
Lemma keys_in_range_mem st s e k : keys_sorted st -> in_range s e k = true -> get_ks st k <> empty_ks ->
  In (k, get_ks st k) (keys_in_range st s e).
Proof. intros Hs Hr Hne. apply filter_In. split; [apply get_ks_mem; assumption|exact Hr]. Qed.

Definition apply_all (l : list (key * option kstate)) (acc : store) : store :=
  fold_left (fun a kv => apply_opt a (fst kv) (snd kv)) l acc.

Lemma apply_all_cons k o l acc : apply_all ((k, o) :: l) acc = apply_all l (apply_opt acc k o).
Proof. reflexivity. Qed.
Lemma apply_all_app l1 l2 acc : apply_all (l1 ++ l2) acc = apply_all l2 (apply_all l1 acc).
Proof. apply fold_left_app. Qed.

Lemma apply_all_sorted l : forall acc, keys_sorted acc -> keys_sorted (apply_all l acc).
Proof. induction l as [|kv r IH]; intros acc H; [exact H|]. apply IH. apply sorted_apply_opt; exact H. Qed.

Lemma apply_all_cases l : forall acc k, keys_sorted acc ->
  (get_ks (apply_all l acc) k = get_ks acc k /\ forall o, In (k, o) l -> o = None) \/
  (exists x, In (k, Some x) l /\ get_ks (apply_all l acc) k = x).
Proof.
  induction l as [|[k0 o0] r IH]; intros acc k Hs; [left; split; [reflexivity|intros o []]|].
  destruct (IH (apply_opt acc k0 o0) k (sorted_apply_opt _ _ _ Hs)) as [[E Hn]|[x [Hin Hx]]].
  - cbn [apply_all fold_left fst snd] in *. rewrite get_apply_opt in E by exact Hs.
    destruct (N.eqb_spec k k0) as [Ek|Ek]; [subst k0; destruct o0 as [x|]|].
    + right. exists x. split; [left; reflexivity|exact E].
    + left. split; [exact E|]. intros o [Eo|Hin]; [inversion Eo; reflexivity|apply Hn; exact Hin].
    + left. split; [exact E|]. intros o [Eo|Hin]; [inversion Eo; congruence|apply Hn; exact Hin].
  - right. exists x. split; [right; exact Hin|exact Hx].
Qed.

Lemma fold_apply_get (l : list (key * option kstate)) acc k :
  keys_sorted acc ->
  let st' := fold_left (fun a kv => apply_opt a (fst kv) (snd kv)) l acc in
  get_ks st' k = get_ks acc k \/ exists x, In (k, Some x) l /\ get_ks st' k = x.
Proof. intros Hs. destruct (apply_all_cases l acc k Hs) as [[E _]|H]; [left; exact E|right; exact H]. Qed.

Lemma existsb_eqb_in k l : In k l -> existsb (N.eqb k) l = true.
Proof. intros Hin. apply existsb_exists. exists k. split; [exact Hin|apply N.eqb_refl]. Qed.

Lemma apply_all_keys (g : key -> option kstate) l : forall acc k, keys_sorted acc ->
  get_ks (apply_all (map (fun k => (k, g k)) l) acc) k = if existsb (N.eqb k) l then upd (g k) (get_ks acc k) else get_ks acc k.
Proof.
  induction l as [|k0 r IH]; intros acc k Hs; [reflexivity|]. cbn [map existsb].
  rewrite apply_all_cons, IH, get_apply_opt by first [exact Hs|apply sorted_apply_opt; exact Hs].
  destruct (N.eqb_spec k k0) as [E|E]; cbn [orb]; [subst k0|reflexivity].
  destruct (g k); cbn [upd]; destruct (existsb (N.eqb k) r); reflexivity.
Qed.
Lemma apply_all_none l acc : (forall kv, In kv l -> snd kv = None) -> apply_all l acc = acc.
Proof.
  induction l as [|kv r IH]; intros H; [reflexivity|]. cbn [apply_all fold_left].
  rewrite (H kv (or_introl eq_refl)). apply IH. intros kv' Hkv'. apply H; right; exact Hkv'.
Qed.

Lemma fold_left_map {A B C} (f : A -> C -> A) (g : B -> C) l : forall a,
  fold_left f (map g l) a = fold_left (fun a x => f a (g x)) l a.
Proof. induction l as [|x r IH]; intros a; [reflexivity|apply IH]. Qed.
Lemma fold_keys_batch (g : key -> option kstate) l acc :
  fold_left (fun a k => apply_opt a k (g k)) l acc = apply_all (map (fun k => (k, g k)) l) acc.
Proof. symmetry. apply (fold_left_map (fun a kv => apply_opt a (fst kv) (snd kv))). Qed.

Lemma map_range_batch st s e f :
  map_range st s e f = apply_all (map (fun kv => (fst kv, f (fst kv) (snd kv))) (keys_in_range st s e)) st.
Proof. unfold apply_all. rewrite fold_left_map. reflexivity. Qed.

Lemma map_range_sorted st s e f : keys_sorted st -> keys_sorted (map_range st s e f).
Proof. rewrite map_range_batch. apply apply_all_sorted. Qed.

(* the store being sorted, the batch of a range command is that of a key function over the stored keys of the range *)
Lemma map_range_keys st s e f : keys_sorted st ->
  map_range st s e f = apply_all (map (fun k => (k, f k (get_ks st k))) (map fst (keys_in_range st s e))) st.
Proof.
  intros Hs. rewrite map_range_batch, map_map. f_equal. apply map_ext_in. intros [k v] Hin.
  cbn [fst snd]. rewrite (proj2 (keys_in_range_in st s e k v Hs Hin)). reflexivity.
Qed.

Lemma map_range_get st s e f k : keys_sorted st ->
  get_ks (map_range st s e f) k =
  if in_range s e k && existsb (fun kv => fst kv =? k) st
  then match f k (get_ks st k) with Some x => x | None => get_ks st k end
  else get_ks st k.
Proof.
  intros Hs. rewrite map_range_keys, apply_all_keys by exact Hs.
  replace (existsb (N.eqb k) (map fst (keys_in_range st s e))) with (in_range s e k && existsb (fun kv => fst kv =? k) st); [reflexivity|].
  apply eq_true_iff_eq. rewrite andb_true_iff, !existsb_exists. split.
  - intros [Hr [[k0 v] [Hin E]]]. apply N.eqb_eq in E. cbn [fst] in E. subst k0. exists k. split; [|apply N.eqb_refl].
    apply (in_map fst _ (k, v)). apply filter_In. split; assumption.
  - intros [k0 [Hin E]]. apply N.eqb_eq in E. subst k0. apply in_map_iff in Hin. destruct Hin as [[k0 v] [E Hin]]. cbn [fst] in E. subst k0.
    apply filter_In in Hin. split; [apply Hin|]. exists (k, v). split; [apply Hin|apply N.eqb_refl].
Qed.

Lemma key_stored (st : store) k : existsb (fun kv => fst kv =? k) st = true <-> In k (map fst st).
Proof.
  rewrite existsb_exists, in_map_iff. split; intros [kv H]; exists kv; rewrite N.eqb_eq in *; tauto.
Qed.

(* a per-key function that leaves an absent key absent need not ask whether the key is stored *)
Lemma map_range_get_total st s e f k : keys_sorted st -> upd (f k empty_ks) empty_ks = empty_ks ->
  get_ks (map_range st s e f) k = if in_range s e k then upd (f k (get_ks st k)) (get_ks st k) else get_ks st k.
Proof.
  intros Hs He. rewrite map_range_get by exact Hs. destruct (in_range s e k); [|reflexivity]. cbn [andb].
  destruct (existsb (fun kv => fst kv =? k) st) eqn:Ex; [reflexivity|].
  rewrite (get_ks_absent st k Hs), He; [reflexivity|]. rewrite <- key_stored, Ex. discriminate.
Qed.
