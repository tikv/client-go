(* RangeTask/ProofsGc.v — ScanLock on a key-sorted store; BatchResolveLocks clears every scanned lock;
   ResolveLocksForRange: after a successful pass no old lock is left in the range, under arbitrary legitimate
   interference and for every sequence of serving regions *)
From Verif Require Import Base.Lex RangeTask.Model RangeTask.ProofsOrd RangeTask.ProofsStore RangeTask.ProofsInv.
Open Scope N_scope.

Lemma last_in (l : list krec) d : l <> [] -> In (last l d) l.
Proof. intros H. rewrite (app_removelast_last d H) at 2. apply in_or_app; right; left; reflexivity. Qed.
Lemma sorted_first_le l x : sorted l -> In x l -> lex_le (first_key l) (k_key x).
Proof.
  destruct l as [|h t]; intros H Hx; [destruct Hx|]. destruct Hx as [<-|Hx]; [apply lex_le_refl|]. apply lex_lt_le.
  exact (proj2 (sorted_app [h] t H) h x (or_introl eq_refl) Hx).
Qed.
Lemma sorted_last_le l x : sorted l -> In x l -> lex_le (k_key x) (last_key l).
Proof.
  intros H Hx. assert (Hne : l <> []) by (intros ->; destruct Hx). unfold last_key.
  rewrite (app_removelast_last (mkRec [] None []) Hne) in H, Hx. apply in_app_or in Hx as [Hx|[<-|[]]]; [|apply lex_le_refl].
  apply lex_lt_le. exact (proj2 (sorted_app _ _ H) x _ Hx (or_introl eq_refl)).
Qed.

Lemma firstn_In {A} n (l : list A) x : In x (firstn n l) -> In x l.
Proof. intros H. rewrite <- (firstn_skipn n l). apply in_or_app; left; exact H. Qed.
Lemma firstn_short {A} n (l : list A) x : (length (firstn n l) < n)%nat -> In x l -> In x (firstn n l).
Proof. intros Hlen H. rewrite firstn_length in Hlen. rewrite firstn_all2 by lia. exact H. Qed.

Section Scan.
  Variables (st : store) (key req_end : list N) (sp : N) (limit : nat).
  Hypothesis Hs : sorted st.
  Let P := fun r => in_range key req_end (k_key r) && old_lock sp r.
  Let locks := scan st key req_end sp limit.

  Lemma scan_in r : In r locks -> In r st /\ in_range key req_end (k_key r) = true /\ old_lock sp r = true.
  Proof.
    unfold locks, scan. intros H. apply firstn_In, filter_In in H as [G1 G2]. apply Bool.andb_true_iff in G2. tauto.
  Qed.
  Lemma scan_sorted : sorted locks.
  Proof. unfold locks, scan. apply sorted_firstn, sorted_filter, Hs. Qed.
  (* what the answer is known to contain: everything, if it holds fewer than limit locks; else everything before its last key *)
  Lemma scan_window r : In r st -> in_range key req_end (k_key r) = true -> old_lock sp r = true ->
    (length locks < limit)%nat \/ (locks <> [] /\ lex_lt (k_key r) (last_key locks)) -> In r locks.
  Proof.
    unfold locks, scan. fold P. intros Hin H1 H2 Hcase.
    assert (G : In r (filter P st)) by (apply filter_In; split; [exact Hin|unfold P; rewrite H1, H2; reflexivity]).
    destruct Hcase as [Hlen|[Hne Hlt]]; [apply firstn_short; assumption|].
    assert (Hss : sorted (filter P st)) by (apply sorted_filter, Hs).
    rewrite <- (firstn_skipn limit (filter P st)) in G, Hss. apply in_app_or in G as [G|G]; [exact G|exfalso].
    pose proof (proj2 (sorted_app _ _ Hss) _ _ (last_in _ (mkRec [] None []) Hne) G) as Hc. exact (lex_lt_irrefl _ (lex_lt_trans _ _ _ Hlt Hc)).
  Qed.
End Scan.
Arguments scan_in {st key req_end sp limit} r _.

(* knowledge that survives the removal of locks: key k holds lock l, or none any more *)
Definition lock_in (st : store) (k : list N) (l : lock) : Prop :=
  forall r, In r st -> k_key r = k -> k_lock r = Some l \/ k_lock r = None.
Definition unlocked (st : store) (k : list N) : Prop := forall r, In r st -> k_key r = k -> k_lock r = None.
Lemma lock_in_smono st st' k l : smono st st' -> lock_in st k l -> lock_in st' k l.
Proof.
  intros Hm H r' Hin Hk. destruct (Hm _ Hin) as (r & Hin0 & [Hkk Hl]). specialize (H r Hin0 (eq_trans (eq_sym Hkk) Hk)).
  destruct Hl as [Hl|Hl]; [rewrite Hl; exact H|right; exact Hl].
Qed.
Lemma unlocked_smono st st' k : smono st st' -> unlocked st k -> unlocked st' k.
Proof.
  intros Hm H r' Hin Hk. destruct (Hm _ Hin) as (r & Hin0 & [Hkk Hl]). specialize (H r Hin0 (eq_trans (eq_sym Hkk) Hk)).
  destruct Hl as [Hl|Hl]; [rewrite Hl; exact H|exact Hl].
Qed.

Lemma upd_key_unlocks st k f : (forall r, In r st -> k_key r = k -> k_lock (f r) = None) -> unlocked (upd_key st k f) k.
Proof.
  intros H r2 Hin2 Hk2. apply in_map_iff in Hin2 as (r1 & <- & Hin1). destruct (bytes_eqb (k_key r1) k) eqn:E.
  - apply H; [exact Hin1|apply bytes_eqb_eq; exact E].
  - apply bytes_eqb_false in E. contradiction.
Qed.
Lemma status_check_unlocks st k l : sorted st -> lock_in st k l -> is_pess l = true -> unlocked (fst (status_check st k (l_start l))) k.
Proof.
  intros Hs Hli Ep. rewrite status_check_eq. destruct (rolls_back st k (l_start l)) eqn:Erb; cbn [fst].
  - apply upd_key_unlocks. reflexivity.
  - intros r Hin Hk. destruct (Hli r Hin Hk) as [Hl|Hl]; [exfalso|exact Hl]. unfold rolls_back in Erb.
    rewrite <- Hk, (find_key_in _ _ (sorted_uniq _ Hs) Hin), Hl, N.eqb_refl, Ep, Bool.andb_false_r in Erb. discriminate.
Qed.
Lemma pess_rollback_unlocks st k l : lock_in st k l -> is_pess l = true -> unlocked (pess_rollback st k (l_start l)) k.
Proof.
  intros Hli Ep. apply upd_key_unlocks. intros r Hin Hk. destruct (Hli r Hin Hk) as [Hl|Hl]; rewrite Hl; [|exact Hl].
  rewrite N.eqb_refl, Ep. reflexivity.
Qed.

(* a scanned lock is settled once its transaction is in txnInfos or its key is unlocked; the status round only adds to
   txnInfos and only removes locks, so what is settled stays settled *)
Definition settled (st : store) (infos : list (N * option N)) (r : krec) : Prop :=
  match k_lock r with Some l => assoc (l_start l) infos <> None \/ unlocked st (k_key r) | None => True end.
Lemma collect_keeps_infos locks : forall st infos t, assoc t infos <> None -> assoc t (snd (collect st locks infos)) <> None.
Proof.
  induction locks as [|r rest IH]; intros st infos t Ht; cbn [collect]; [exact Ht|].
  destruct (k_lock r) as [l|]; [|apply IH, Ht]. destruct (assoc (l_start l) infos); [apply IH, Ht|].
  destruct (status_check st (l_primary l) (l_start l)) as [st1 oc].
  destruct (is_pess l); apply IH; [exact Ht|]. cbn [assoc]. destruct (l_start l =? t); [discriminate|exact Ht].
Qed.
Lemma collect_keeps_settled locks st infos r : settled st infos r -> settled (fst (collect st locks infos)) (snd (collect st locks infos)) r.
Proof.
  unfold settled. destruct (k_lock r) as [l|]; [|exact id]. intros [Ha|Hu]; [left; apply collect_keeps_infos, Ha|right].
  eapply unlocked_smono; [apply collect_shrinks|exact Hu].
Qed.

(* the status round settles every scanned lock: a pessimistic one goes with the status check when it sits on its own primary
   key, else with the pessimistic rollback; the transaction of any other one is entered into txnInfos *)
Lemma collect_settles locks : forall st infos, sorted st ->
  (forall r l, In r locks -> k_lock r = Some l -> lock_in st (k_key r) l) ->
  forall r, In r locks -> settled (fst (collect st locks infos)) (snd (collect st locks infos)) r.
Proof.
  induction locks as [|r rest IH]; intros st infos Hs H r0 Hin; [destruct Hin|]. cbn [collect].
  (* every case goes on with some smaller store and some txnInfos that settle the head lock *)
  assert (Hstep : forall st' infos', shrinks st st' -> settled st' infos' r ->
                  settled (fst (collect st' rest infos')) (snd (collect st' rest infos')) r0).
  { intros st' infos' Hm Hhead. destruct Hin as [<-|Hin]; [apply collect_keeps_settled, Hhead|].
    apply IH; [exact (shrinks_sorted _ _ Hm Hs)| |exact Hin].
    intros r1 l1 Hin1 Hl1. eapply lock_in_smono; [apply Hm|]. apply H; [right; exact Hin1|exact Hl1]. }
  unfold settled at 1 in Hstep. destruct (k_lock r) as [l|] eqn:El; [|apply Hstep; [apply shrinks_refl|exact I]].
  destruct (assoc (l_start l) infos) as [oc0|] eqn:Ea.
  { apply Hstep; [apply shrinks_refl|]. left. rewrite Ea; discriminate. }
  pose proof (H r l (or_introl eq_refl) El) as Hli.
  pose proof (status_check_shrinks st (l_primary l) (l_start l)) as Hm1.
  destruct (status_check st (l_primary l) (l_start l)) as [st1 oc] eqn:Esc. cbn [fst] in Hm1.
  destruct (is_pess l) eqn:Ep; apply Hstep.
  - destruct (bytes_eqb _ _); [exact Hm1|eapply shrinks_trans; [exact Hm1|apply pess_rollback_shrinks]].
  - right. destruct (bytes_eqb (k_key r) (l_primary l)) eqn:Ek.
    + apply bytes_eqb_eq in Ek. rewrite <- Ek in Esc. pose proof (status_check_unlocks st _ l Hs Hli Ep) as G. rewrite Esc in G. exact G.
    + apply pess_rollback_unlocks; [eapply lock_in_smono; [apply Hm1|exact Hli]|exact Ep].
  - exact Hm1.
  - left. cbn [assoc]. rewrite N.eqb_refl. discriminate.
Qed.

(* BatchResolveLocks in a region that contains every scanned key leaves none of them locked *)
Lemma batch_resolve_clears st rs re locks : sorted st ->
  (forall r l, In r locks -> k_lock r = Some l -> lock_in st (k_key r) l) ->
  (forall r, In r locks -> k_lock r <> None /\ in_range rs re (k_key r) = true) ->
  forall r, In r locks -> unlocked (batch_resolve st rs re locks) (k_key r).
Proof.
  intros Hs H Hreg r Hin. unfold batch_resolve. destruct locks as [|h t] eqn:El; [destruct Hin|]. rewrite <- El in *.
  pose proof (collect_settles locks st [] Hs H r Hin) as C.
  pose proof (proj2 (collect_shrinks locks st [])) as Hm.
  destruct (collect st locks []) as [st1 infos]. cbn [fst snd] in *.
  destruct (Hreg r Hin) as [Hl Hr]. destruct (k_lock r) as [l|] eqn:Elr; [|contradiction].
  pose proof (lock_in_smono _ _ _ _ Hm (H r l Hin Elr)) as Hli.
  intros r3 Hin3 Hk3. unfold resolve_region in Hin3. apply in_map_iff in Hin3 as (r1 & <- & Hin1).
  assert (Hk1 : k_key r1 = k_key r).
  { destruct (in_range rs re (k_key r1)); [rewrite (proj1 (resolve_rec_mono infos r1)) in Hk3|]; exact Hk3. }
  rewrite Hk1, Hr. unfold resolve_rec.
  unfold settled in C. rewrite Elr in C. destruct C as [Ca|Cu].
  - destruct (Hli r1 Hin1 Hk1) as [Hl1|Hl1]; rewrite Hl1; [|exact Hl1].
    destruct (assoc (l_start l) infos); [apply apply_outcome_lock|contradiction].
  - rewrite (Cu r1 Hin1 Hk1). apply (Cu r1 Hin1 Hk1).
Qed.
(* ... in particular when the answer of a scan is resolved, after any lock-removing steps, in a region that holds its
   first and last key *)
Lemma resolve_clears_scan sp limit st1 st2 key req_end rs re : sorted st1 -> shrinks st1 st2 ->
  let locks := scan st1 key req_end sp limit in
  in_range rs re (first_key locks) && in_range rs re (last_key locks) = true ->
  forall r, In r locks -> unlocked (batch_resolve st2 rs re locks) (k_key r).
Proof.
  intros Hs1 Hm locks Ereg. apply Bool.andb_true_iff in Ereg as [Ef El].
  apply in_range_iff in Ef as [Ef _]. apply in_range_iff in El as [_ El].
  pose proof (scan_sorted st1 key req_end sp limit Hs1) as Hss. fold locks in Hss.
  apply batch_resolve_clears; [exact (shrinks_sorted _ _ Hm Hs1)| |].
  - intros r l Hin Hl. eapply lock_in_smono; [apply Hm|]. intros r1 Hin1 Hk1.
    destruct (scan_in r Hin) as (HinS & _).
    assert (r1 = r) by (apply (sorted_uniq _ Hs1); assumption). subst. left; exact Hl.
  - intros r Hin. destruct (scan_in r Hin) as (_ & _ & Hold). split.
    + unfold old_lock in Hold. destruct (k_lock r); discriminate.
    + apply in_range_iff. split; [eapply lex_le_trans; [exact Ef|apply sorted_first_le; assumption]|].
      eapply lt_end_le_trans; [apply sorted_last_le; eassumption|exact El].
Qed.

(* one iteration of ResolveLocksForRange, by what it did: met a bad observation; checked the statuses and scans again from
   the same key; or moved the cursor over a store -- the one after the second interference if nothing was scanned, else that
   one resolved in a region holding every scanned key -- in which no scanned lock is left *)
Lemma gc_step_cases sp limit e o st key : sorted st ->
  let re := snd (o_loc o) in
  let st1 := apply_envs st (o_env1 o) in
  let locks := scan st1 key (req_end_of e re) sp limit in
  let st2 := apply_envs st1 (o_env2 o) in
  gc_step sp limit e o st key = StepBad \/
  (o_res o = None /\ gc_step sp limit e o st key = StepNext (fst (collect st2 locks [])) key) \/
  exists st3, gc_step sp limit e o st key = advance limit e re locks st3 /\ lt_end key re /\
              (st3 = st2 \/ exists rs' re', st3 = batch_resolve st2 rs' re' locks) /\
              shrinks st1 st3 /\ forall r, In r locks -> unlocked st3 (k_key r).
Proof.
  intros Hs. cbv zeta. unfold gc_step. destruct (o_loc o) as [rs re]. cbn [snd].
  destruct (in_range rs re key) eqn:Ekr; cbn [negb]; [|left; reflexivity]. apply in_range_iff in Ekr as [_ Hkre].
  set (st1 := apply_envs st (o_env1 o)). set (locks := scan st1 key (req_end_of e re) sp limit). set (st2 := apply_envs st1 (o_env2 o)).
  assert (Hm12 : shrinks st1 st2) by apply apply_envs_shrinks.
  pose proof (shrinks_sorted _ _ (apply_envs_shrinks (o_env1 o) st) Hs) as Hs1.
  destruct locks as [|h t] eqn:Elocks.
  - right; right. exists st2. split; [reflexivity|]. split; [exact Hkre|]. split; [left; reflexivity|]. split; [exact Hm12|intros r []].
  - rewrite <- Elocks in *. destruct (o_res o) as [[rs' re']|]; [|right; left; split; reflexivity].
    destruct (in_range rs' re' (first_key locks) && in_range rs' re' (last_key locks)) eqn:Ereg; [|left; reflexivity].
    right; right. exists (batch_resolve st2 rs' re' locks). split; [reflexivity|]. split; [exact Hkre|]. split; [right; eauto|].
    split; [eapply shrinks_trans; [exact Hm12|apply batch_resolve_shrinks]|].
    exact (resolve_clears_scan sp limit st1 st2 key _ rs' re' Hs1 Hm12 Ereg).
Qed.

Section Gc.
  Variables (st0 : store) (sp : N).
  Hypothesis Hwf : wf_store st0.
  Variables (limit : nat) (s e : list N).
  Hypothesis Hlimit : (0 < limit)%nat.

  (* the loop invariant: no lock with start <= sp on the keys of [s, key); the goal: none on [s, e) *)
  Definition cleared (st : store) (key : list N) : Prop := clear_on sp (fun k => lex_le s k /\ lex_lt k key) st.
  Definition range_clear (st : store) : Prop := clear_on sp (fun k => in_range s e k = true) st.
  Definition oracle_ok (o : iter_oracle) : Prop := Forall (env_ok st0 sp) (o_env1 o) /\ Forall (env_ok st0 sp) (o_env2 o).

  Lemma cleared_start st : cleared st s.
  Proof. intros r _ [H1 H2]. apply lex_lt_not_le in H2. destruct (H2 H1). Qed.

  Lemma InvP_nonnil st r : InvP st0 sp st -> In r st -> k_key r <> [].
  Proof.
    intros HI Hin. destruct (proj2 HI _ Hin) as (r0 & Hin0 & Hr). rewrite (rel0_key _ _ _ _ Hr). apply (wf_nonnil _ Hwf _ Hin0).
  Qed.
  Lemma InvP_from0 st key req_end : InvP st0 sp st -> from0 st0 sp (scan st key req_end sp limit).
  Proof.
    intros HI r Hin. destruct (scan_in r Hin) as (Hin1 & _ & Hold). split; [|exact Hold].
    destruct (proj2 HI _ Hin1) as (r0 & Hin0 & Hr). destruct (old_lock_inv _ _ Hold) as (l & Hl & _).
    rewrite (rel0_lock _ _ _ _ _ Hr Hl). exact Hin0.
  Qed.

  (* a cursor position x read as an end key: with nothing old left below it inside the range, the range is clear if x
     reaches its end, and the loop invariant holds at x otherwise *)
  Lemma cursor_clear st x : clear_on sp (fun k => inr s e k /\ lt_end k x) st -> if end_reached e x then range_clear st else cleared st x.
  Proof.
    intros H. destruct (end_reached e x) eqn:Er; intros r Hin Hk; apply H; try exact Hin.
    - apply in_range_iff in Hk. split; [exact Hk|exact (end_reached_bound _ _ _ Er (proj2 Hk))].
    - apply end_reached_false in Er as [_ He]. destruct Hk as [H1 H2].
      split; [split; [exact H1|eapply lt_end_trans; eassumption]|right; exact H2].
  Qed.

  (* where the cursor goes after a resolve that left no scanned lock behind: to the region end if the scan returned
     fewer than limit locks (all there were up to the request end), else to the last scanned key *)
  Lemma cursor_spec st st1 st3 key re :
    sorted st1 -> (forall r, In r st1 -> k_key r <> []) -> smono st st1 -> smono st1 st3 -> cleared st key ->
    let locks := scan st1 key (req_end_of e re) sp limit in
    (forall r, In r locks -> unlocked st3 (k_key r)) ->
    let key' := if (length locks <? limit)%nat then re else last_key locks in
    if end_reached e key' then range_clear st3 else cleared st3 key'.
  Proof.
    intros Hs1 Hnn Hm1 Hm13 Hc locks Hun. apply cursor_clear. intros r3 Hin3 [[Hsk Hke] Hk'].
    (* keys below the old cursor were clear already *)
    destruct (lex_le_or_lt key (k_key r3)) as [G|G];
      [|apply (clear_on_smono sp _ st st3 (smono_trans _ _ _ Hm1 Hm13) Hc); [exact Hin3|split; assumption]].
    (* an old lock in the part of the scan window that the answer is known to cover was scanned, hence is gone *)
    destruct (Hm13 _ Hin3) as (r1 & Hin1 & Hl1). destruct (old_lock sp r1) eqn:Eo; [|eapply lmono_old; eassumption].
    pose proof Hl1 as [Hkk _]. rewrite Hkk in G, Hke, Hk'.
    assert (Hinl : In r1 locks); [|unfold old_lock; rewrite (Hun _ Hinl r3 Hin3 Hkk); reflexivity].
    destruct (length locks <? limit)%nat eqn:El.
    - apply Nat.ltb_lt in El. apply scan_window; try assumption; [|left; exact El].
      apply in_range_iff. split; [exact G|apply req_end_of_min; split; assumption].
    - apply Nat.ltb_ge in El. assert (Hne : locks <> []) by (intros Hn; rewrite Hn in El; cbn in El; lia).
      pose proof (last_in locks (mkRec [] None []) Hne) as Hlast. fold (last_key locks) in Hlast.
      destruct (scan_in _ Hlast) as (HinL & HrL & _). apply in_range_iff in HrL as [_ HL2].
      destruct Hk' as [Hk'|Hk']; [destruct (Hnn _ HinL Hk')|].
      apply scan_window; try assumption; [|right; split; assumption].
      apply in_range_iff. split; [exact G|eapply lt_end_trans; eassumption].
  Qed.

  (* what one iteration started from st guarantees: the invariant at the new cursor, or the goal *)
  Definition step_ok (st : store) (res : step_result) : Prop :=
    match res with
    | StepBad => True
    | StepNext st' key' => InvP st0 sp st' /\ smono st st' /\ cleared st' key'
    | StepDone st' => InvP st0 sp st' /\ smono st st' /\ range_clear st'
    end.
  Lemma gc_step_spec o st key : InvP st0 sp st -> oracle_ok o -> cleared st key -> step_ok st (gc_step sp limit e o st key).
  Proof.
    intros HI [Ho1 Ho2] Hc. pose proof (gc_step_cases sp limit e o st key (InvP_sorted _ _ Hwf _ HI)) as G. cbv zeta in G.
    set (st1 := apply_envs st (o_env1 o)) in *. set (locks := scan st1 key _ sp limit) in *. set (st2 := apply_envs st1 (o_env2 o)) in *.
    assert (HI1 : InvP st0 sp st1) by (apply apply_envs_inv; assumption).
    assert (HI2 : InvP st0 sp st2) by (apply apply_envs_inv; assumption).
    assert (Hm1 : smono st st1) by apply apply_envs_shrinks.
    assert (Hfrom : from0 st0 sp locks) by (apply InvP_from0; exact HI1).
    destruct G as [->|[[_ ->]|(st3 & -> & _ & Hst3 & Hm13 & Hun)]]; [exact I| |].
    - destruct (collect_inv st0 sp Hwf locks st2 [] HI2 (infos_ok_nil st0 sp) Hfrom) as [HI3 _].
      pose proof (smono_trans _ _ _ Hm1 (smono_trans _ _ _ (proj2 (apply_envs_shrinks (o_env2 o) st1)) (proj2 (collect_shrinks locks st2 [])))) as Hm3.
      split; [exact HI3|]. split; [exact Hm3|]. exact (clear_on_smono sp _ _ _ Hm3 Hc).
    - assert (HI3 : InvP st0 sp st3) by (destruct Hst3 as [->|(rs' & re' & ->)]; [exact HI2|apply batch_resolve_inv; assumption]).
      pose proof (cursor_spec st st1 st3 key _ (InvP_sorted _ _ Hwf _ HI1) (fun r => InvP_nonnil st1 r HI1) Hm1 (proj2 Hm13) Hc Hun) as C.
      fold locks in C. cbv zeta in C. pose proof (smono_trans _ _ _ Hm1 (proj2 Hm13)) as Hm3. unfold advance.
      change (is_nil ?k || negb (is_nil e) && lex_leb e ?k) with (end_reached e k).
      destruct (end_reached e _); cbn [step_ok]; auto.
  Qed.

  Lemma gc_loop_spec fuel : forall os st key st' tr, InvP st0 sp st -> Forall oracle_ok os -> cleared st key ->
    gc_loop fuel sp limit e os st key = GcOk st' tr -> InvP st0 sp st' /\ smono st st' /\ range_clear st'.
  Proof.
    induction fuel as [|f IH]; intros os st key st' tr HI Hos Hc; cbn [gc_loop]; [discriminate|].
    destruct os as [|o os']; [discriminate|]. inversion Hos as [|? ? Ho Hos']; subst.
    pose proof (gc_step_spec o st key HI Ho Hc) as G.
    destruct (gc_step sp limit e o st key) as [st1|st1 key1|]; [| |discriminate].
    - intros [= <- _]. exact G.
    - destruct G as (G1 & G2 & G3). destruct (gc_loop f sp limit e os' st1 key1) as [st2 tr2| |] eqn:E; try discriminate.
      intros [= <- _]. destruct (IH _ _ _ _ _ G1 Hos' G3 E) as (I1 & I2 & I3).
      split; [exact I1|split; [eapply smono_trans; eassumption|exact I3]].
  Qed.

  Lemma gc_resolve_range_spec fuel os st st' tr : InvP st0 sp st -> Forall oracle_ok os ->
    gc_resolve_range fuel sp limit s e os st = GcOk st' tr -> InvP st0 sp st' /\ smono st st' /\ range_clear st'.
  Proof. intros HI Hos. unfold gc_resolve_range. apply gc_loop_spec; [exact HI|exact Hos|apply cleared_start]. Qed.
End Gc.
