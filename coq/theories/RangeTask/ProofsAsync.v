(* RangeTask/ProofsAsync.v — the two client-side decisions that do not involve the store, each for every order of events:
   checkAllSecondaries / asyncResolveData.addKeys: whatever the order in which the per-region CheckSecondaryLocks answers
   are delivered, consistent answers give the same decision and no error;
   the visibility check of a snapshot read under any schedule of safe-point updates (second half) *)
From Verif Require Import Base.Lex RangeTask.Model.
Open Scope N_scope.

Definition locked_step (d : async_data) (mc : N) : async_data :=
  if negb (ad_missing d) && (ad_commit d <? mc) then mkAD mc (ad_missing d) else d.
Lemma add_keys_locked d mcs : add_keys d (RLocked mcs) = Some (fold_left locked_step mcs d).
Proof. reflexivity. Qed.
Lemma locked_fold_missing mcs : forall d, ad_missing d = true -> fold_left locked_step mcs d = d.
Proof. induction mcs as [|m r IH]; intros d H; cbn [fold_left]; [reflexivity|]. unfold locked_step at 2. rewrite H. cbn. apply IH; exact H. Qed.
Lemma locked_fold_max mcs : forall d, ad_missing d = false -> fold_left locked_step mcs d = mkAD (fold_left N.max mcs (ad_commit d)) false.
Proof.
  induction mcs as [|m r IH]; intros [c b] H; cbn in H; subst b; cbn [fold_left]; [reflexivity|].
  unfold locked_step at 2. cbn [ad_missing ad_commit negb andb]. destruct (c <? m) eqn:E.
  - rewrite IH by reflexivity. cbn [ad_commit]. apply N.ltb_lt in E. rewrite (N.max_r c m) by lia. reflexivity.
  - rewrite IH by reflexivity. cbn [ad_commit]. apply N.ltb_ge in E. rewrite (N.max_l c m) by lia. reflexivity.
Qed.

Definition max_all (mc0 : N) (answers : list region_answer) : N :=
  fold_left (fun acc a => match a with RLocked mcs => fold_left N.max mcs acc | RMissing _ => acc end) answers mc0.

Lemma add_all_locked answers : forall c, (forall x, ~ In (RMissing x) answers) ->
  add_all (mkAD c false) answers = Some (mkAD (max_all c answers) false).
Proof.
  induction answers as [|a rest IH]; intros c H; [reflexivity|]. cbn [add_all]. destruct a as [mcs|x]; [|exfalso; apply (H x); left; reflexivity].
  rewrite add_keys_locked, locked_fold_max by reflexivity. cbn [ad_commit]. unfold max_all. cbn [fold_left]. apply IH. intros x Hx; apply (H x); right; exact Hx.
Qed.

(* V = the commit ts all "lock missing" answers report (0 = rolled back); a commit ts is never below a min_commit_ts *)
Definition consistent (mc0 : N) (answers : list region_answer) (V : N) : Prop :=
  (forall c, In (RMissing c) answers -> c = V) /\
  (V <> 0 -> mc0 <= V /\ forall mcs mc, In (RLocked mcs) answers -> In mc mcs -> mc <= V).

Lemma fold_max_le V mcs : forall c, c <= V -> (forall mc, In mc mcs -> mc <= V) -> fold_left N.max mcs c <= V.
Proof.
  induction mcs as [|m r IH]; intros c Hc H; cbn [fold_left]; [exact Hc|].
  apply IH; [apply N.max_lub; [exact Hc|apply H; left; reflexivity]|intros mc Hmc; apply H; right; exact Hmc].
Qed.

(* once some lock was reported missing the state is (V, missing), and stays so *)
Lemma add_all_settled V answers : (forall c, In (RMissing c) answers -> c = V) -> add_all (mkAD V true) answers = Some (mkAD V true).
Proof.
  induction answers as [|a rest IH]; intros Hm; [reflexivity|]. cbn [add_all].
  assert (IH' := IH (fun c Hc => Hm c (or_intror Hc))). destruct a as [mcs|c].
  - rewrite add_keys_locked, locked_fold_missing by reflexivity. exact IH'.
  - cbn [add_keys ad_missing ad_commit]. rewrite (Hm c (or_introl eq_refl)), N.eqb_refl. exact IH'.
Qed.
(* until then it holds the largest min_commit_ts seen, which a real commit ts bounds: the first missing answer is accepted *)
Lemma add_all_unsettled V answers : forall c, (exists x, In (RMissing x) answers) -> (forall x, In (RMissing x) answers -> x = V) ->
  (V <> 0 -> c <= V /\ forall mcs mc, In (RLocked mcs) answers -> In mc mcs -> mc <= V) ->
  add_all (mkAD c false) answers = Some (mkAD V true).
Proof.
  induction answers as [|a rest IH]; intros c [x Hx] Hm Hb; [destruct Hx|]. cbn [add_all].
  assert (Hm' : forall y, In (RMissing y) rest -> y = V) by (intros y Hy; apply Hm; right; exact Hy).
  destruct a as [mcs|y].
  - rewrite add_keys_locked, locked_fold_max by reflexivity. cbn [ad_commit].
    apply IH; [destruct Hx as [Hx|Hx]; [discriminate|exists x; exact Hx]|exact Hm'|].
    intros Hv. destruct (Hb Hv) as [Hc Hl]. split.
    + apply fold_max_le; [exact Hc|intros mc Hmc; apply (Hl mcs); [left; reflexivity|exact Hmc]].
    + intros mcs' mc H1 H2. apply (Hl mcs'); [right; exact H1|exact H2].
  - cbn [add_keys ad_missing ad_commit]. rewrite (Hm y (or_introl eq_refl)). replace (negb (V =? 0) && (V <? c)) with false; [apply add_all_settled, Hm'|].
    symmetry. destruct (V =? 0) eqn:E0; [reflexivity|]. apply N.eqb_neq in E0. apply N.ltb_ge, (Hb E0).
Qed.

(* for EVERY list (= every delivery order) of consistent answers *)
Lemma check_all_secondaries_spec mc0 answers :
  ((forall x, ~ In (RMissing x) answers) -> check_all_secondaries mc0 answers = Some (max_all mc0 answers)) /\
  (forall V, (exists c, In (RMissing c) answers) -> consistent mc0 answers V -> check_all_secondaries mc0 answers = Some V).
Proof.
  unfold check_all_secondaries. split.
  - intros H. rewrite (add_all_locked answers mc0 H). reflexivity.
  - intros V Hex [Hm Hl]. rewrite (add_all_unsettled V answers mc0 Hex Hm Hl). reflexivity.
Qed.

(* the fallback does not depend on the delivery order either *)
Lemma check_all_secondaries_f_spec mc0 answers :
  ((exists mcs, In (RLocked mcs, true) answers) -> check_all_secondaries_f mc0 answers = CasFallback) /\
  ((forall mcs, ~ In (RLocked mcs, true) answers) ->
   check_all_secondaries_f mc0 answers = match check_all_secondaries mc0 (map fst answers) with Some c => CasDecided c | None => CasError end).
Proof.
  unfold check_all_secondaries_f. split.
  - intros [mcs H]. replace (existsb _ answers) with true; [reflexivity|]. symmetry. apply existsb_exists. exists (RLocked mcs, true). split; [exact H|reflexivity].
  - intros H. replace (existsb (fun a => match a with (RLocked _, true) => true | _ => false end) answers) with false; [reflexivity|].
    symmetry. apply Bool.not_true_iff_false. intros E. apply existsb_exists in E as ([a b] & Hin & Hx).
    destruct a as [mcs|c]; [|discriminate]. destruct b; [|discriminate]. exact (H mcs Hin).
Qed.

Lemma check_fail cached ts : ts < cached -> check_visibility false cached ts = VisAbortedByGC.
Proof. intros H. unfold check_visibility. apply N.ltb_lt in H. rewrite H. reflexivity. Qed.
Lemma check_pass cached ts : cached <= ts -> check_visibility false cached ts = VisOk.
Proof. intros H. unfold check_visibility. apply N.ltb_ge in H. rewrite H. reflexivity. Qed.

(* some response arrives while the cached safe point is above the read ts => the read is refused *)
Lemma run_read_refused ts : forall pre cached post, ts < cached_after cached pre ->
  fst (run_read cached ts (pre ++ VCheck :: post)) = VisAbortedByGC.
Proof.
  induction pre as [|e pre IH]; intros cached post Hlt; cbn [app run_read]; [rewrite (check_fail cached ts Hlt); reflexivity|].
  destruct e as [sp| |]; cbn [cached_after] in Hlt; [apply IH, Hlt|apply IH, Hlt|].
  (* an earlier response: refused there, or served and the read goes on *)
  destruct (N.lt_ge_cases ts cached) as [Hc|Hc]; [rewrite (check_fail _ _ Hc); reflexivity|rewrite (check_pass _ _ Hc)].
  specialize (IH cached post Hlt). destruct (run_read cached ts (pre ++ VCheck :: post)). exact IH.
Qed.
(* while every response so far arrived under a cached safe point at or below the read ts, the batches are served and the
   read goes on with what is cached then *)
Lemma run_read_app ts : forall pre cached post,
  (forall pre1 post1, pre = pre1 ++ VCheck :: post1 -> cached_after cached pre1 <= ts) ->
  run_read cached ts (pre ++ post) = let '(res, n) := run_read (cached_after cached pre) ts post in (res, (count_checks pre + n)%nat).
Proof.
  induction pre as [|e pre IH]; intros cached post Hpass.
  - cbn [app cached_after]. destruct (run_read cached ts post); reflexivity.
  - assert (Hpass' : forall c', (match e with VUpdate sp => sp | _ => cached end) = c' ->
                     forall pre1 post1, pre = pre1 ++ VCheck :: post1 -> cached_after c' pre1 <= ts).
    { intros c' <- pre1 post1 Hp. specialize (Hpass (e :: pre1) post1). rewrite Hp in Hpass. specialize (Hpass eq_refl). destruct e; exact Hpass. }
    destruct e as [sp| |]; cbn [app run_read cached_after count_checks filter is_check].
    + apply IH, (Hpass' sp eq_refl).
    + apply IH, (Hpass' cached eq_refl).
    + rewrite (check_pass cached ts (Hpass [] pre eq_refl)). fold (count_checks pre).
      rewrite (IH cached post (Hpass' cached eq_refl)). destruct (run_read (cached_after cached pre) ts post). reflexivity.
Qed.

Theorem visibility_schedule ts cached :
  (forall evs pre post, evs = pre ++ VCheck :: post -> ts < cached_after cached pre -> fst (run_read cached ts evs) = VisAbortedByGC) /\
  (forall pre post, ts < cached_after cached pre ->
     (forall pre1 post1, pre = pre1 ++ VCheck :: post1 -> cached_after cached pre1 <= ts) ->
     run_read cached ts (pre ++ VCheck :: post) = (VisAbortedByGC, count_checks pre)) /\
  (forall evs, (forall pre post, evs = pre ++ VCheck :: post -> cached_after cached pre <= ts) ->
     run_read cached ts evs = (VisOk, count_checks evs)).
Proof.
  split; [|split].
  - intros evs pre post ->. apply run_read_refused.
  - (* refused exactly at the first such response: the batches before it were served *)
    intros pre post Hlt Hpass. rewrite (run_read_app ts pre cached _ Hpass). cbn [run_read].
    rewrite (check_fail _ _ Hlt), Nat.add_0_r. reflexivity.
  - (* no response ever arrives under a higher safe point: every batch is served *)
    intros evs Hpass. rewrite <- (app_nil_r evs) at 1. rewrite (run_read_app ts evs cached [] Hpass). cbn [run_read].
    rewrite Nat.add_0_r. reflexivity.
Qed.
