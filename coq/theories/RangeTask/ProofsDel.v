(* RangeTask/ProofsDel.v — DeleteRangeTask removes exactly the keys of [s,e), whatever the layouts *)
From Verif Require Import Base.Lex RangeTask.Model RangeTask.ProofsOrd RangeTask.ProofsPart.
Open Scope N_scope.

Definition covered (pieces : list (list N * list N)) (k : list N) : bool := existsb (fun p => covers p k) pieces.

Lemma covered_count l k : covered l k = (0 <? cover_count l k)%nat.
Proof.
  unfold covered, cover_count. induction l as [|p l IH]; [reflexivity|]. cbn [existsb filter].
  destruct (covers p k); [reflexivity|exact IH].
Qed.
Lemma chain_covered s e l : chain s e l -> forall k, covered l k = in_range s e k.
Proof. intros H k. rewrite covered_count, (chain_exact_cover _ _ _ H). destruct (in_range s e k); reflexivity. Qed.
Lemma covered_app a b k : covered (a ++ b) k = covered a k || covered b k.
Proof. unfold covered. apply existsb_app. Qed.

Lemma filter_filter {A} (P Q : A -> bool) l : filter P (filter Q l) = filter (fun x => Q x && P x) l.
Proof.
  induction l as [|h t IH]; [reflexivity|]. cbn [filter]. destruct (Q h) eqn:E; cbn [filter andb]; [|exact IH].
  destruct (P h); [f_equal|]; exact IH.
Qed.
Lemma delete_pieces_filter pieces : forall st, delete_pieces st pieces = filter (fun r => negb (covered pieces (k_key r))) st.
Proof.
  unfold delete_pieces. induction pieces as [|p ps IH]; intros st; cbn [fold_left].
  - unfold covered; cbn [existsb negb]. induction st as [|h t IHt]; [reflexivity|]. cbn [filter]. f_equal; exact IHt.
  - rewrite IH. unfold delete_range. rewrite filter_filter. apply filter_ext. intros r.
    unfold covered at 2. cbn [existsb]. unfold covers at 2. rewrite Bool.negb_orb. reflexivity.
Qed.

(* sendReqOnRange runs the same loop on every sub-range, one region per step: its requests are clipped to their
   regions and tile the sub-ranges *)
Lemma all_pieces_spec re fuel : forall subs pieces, all_pieces re fuel subs = Some pieces ->
  (forall p, In p pieces -> clipped re p) /\
  ((forall i k, lt_end k (re i k)) -> (forall sub, In sub subs -> lt_end (fst sub) (snd sub)) ->
   forall k, covered pieces k = covered subs k).
Proof.
  induction subs as [|sub rest IH]; intros pieces H; cbn [all_pieces] in H.
  - injection H as <-. split; [intros p []|reflexivity].
  - unfold delete_handler_pieces in H. destruct (run_on_range re fuel (fst sub) (snd sub)) as [a|] eqn:Ea; [|discriminate].
    destruct (all_pieces re fuel rest) as [b|]; [|discriminate]. injection H as <-.
    destruct (IH b eq_refl) as [IH1 IH2]. destruct (run_on_range_spec _ _ _ _ _ Ea) as (Hc & _ & Hch). split.
    + intros p Hin. apply in_app_or in Hin as [Hin|Hin]; [apply Hc|apply IH1]; exact Hin.
    + intros Hre Hne k. rewrite covered_app, (IH2 Hre (fun x Hx => Hne x (or_intror Hx))).
      change (covered (sub :: rest) k) with (covers sub k || covered rest k). f_equal.
      apply chain_covered, (Hch Hre), empty_range_false, Hne. left; reflexivity.
Qed.

Theorem delete_range_task_clipped be re fuel notify s e st st' pieces :
  delete_range_task be re fuel notify s e st = Some (st', pieces) -> forall p, In p pieces -> clipped re p.
Proof.
  unfold delete_range_task. destruct (run_on_range be fuel s e) as [subs|]; [|discriminate].
  destruct (all_pieces re fuel subs) as [ps|] eqn:Ep; [|discriminate]. intros [= _ <-]. apply (all_pieces_spec _ _ _ _ Ep).
Qed.

Theorem delete_range_task_exact be re fuel notify s e st st' pieces :
  (forall i k, lt_end k (be i k)) -> (forall i k, lt_end k (re i k)) ->
  delete_range_task be re fuel notify s e st = Some (st', pieces) ->
  st' = (if notify then st else delete_range st s e) /\ (forall k, covered pieces k = in_range s e k).
Proof.
  intros Hbe Hre. unfold delete_range_task. destruct (run_on_range be fuel s e) as [subs|] eqn:Es; [|discriminate].
  destruct (all_pieces re fuel subs) as [ps|] eqn:Ep; [|discriminate]. intros [= <- <-].
  destruct (run_on_range_spec _ _ _ _ _ Es) as (_ & H1 & H2). destruct (all_pieces_spec _ _ _ _ Ep) as [_ Hcov].
  assert (Hk : forall k, covered ps k = in_range s e k).
  { intros k. destruct (empty_range s e) eqn:Ee.
    - rewrite (H1 eq_refl) in Ep. injection Ep as <-. rewrite (empty_range_in_range _ _ _ Ee). reflexivity.
    - specialize (H2 Hbe eq_refl). rewrite (Hcov Hre (chain_nonempty _ _ _ H2) k). apply chain_covered; exact H2. }
  split; [|exact Hk]. destruct notify; [reflexivity|].
  rewrite delete_pieces_filter. apply filter_ext. intros r. rewrite Hk. reflexivity.
Qed.
