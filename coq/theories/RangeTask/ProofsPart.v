(* RangeTask/ProofsPart.v — RunOnRange hands out a chain of sub-ranges that exactly tiles [s,e) *)
From Verif Require Import Base.Lex RangeTask.Model RangeTask.ProofsOrd.
Open Scope N_scope.

(* consecutive sub-ranges from s to e: each one non-empty, each starting where the previous one ended *)
Inductive chain : list N -> list N -> list (list N * list N) -> Prop :=
| chain_last s e : lt_end s e -> chain s e [(s, e)]
| chain_cons s m e l : lex_lt s m -> chain m e l -> chain s e ((s, m) :: l).

Definition covers (sub : list N * list N) (k : list N) : bool := in_range (fst sub) (snd sub) k.
Definition cover_count (subs : list (list N * list N)) (k : list N) : nat := length (filter (fun sub => covers sub k) subs).

Lemma chain_lt_end s e l : chain s e l -> lt_end s e.
Proof. induction 1 as [s e H|s m e l Hsm _ IH]; [exact H|eapply lt_end_trans; eassumption]. Qed.
Lemma chain_nonempty s e l : chain s e l -> forall sub, In sub l -> lt_end (fst sub) (snd sub).
Proof.
  induction 1 as [s e H|s m e l Hsm Hc IH]; intros sub [<-|Hin]; cbn [fst snd]; try (destruct Hin); auto.
  right; exact Hsm.
Qed.

(* every key of [s,e) lies in exactly one sub-range, every other key in none *)
Lemma chain_exact_cover s e l : chain s e l -> forall k, cover_count l k = if in_range s e k then 1%nat else 0%nat.
Proof.
  induction 1 as [s e H|s m e l Hsm Hc IH]; intros k; unfold cover_count in *; cbn [filter]; unfold covers at 1; cbn [fst snd].
  - destruct (in_range s e k); reflexivity.
  - rewrite (in_range_split s m e k Hsm (chain_lt_end _ _ _ Hc)). pose proof (in_range_disjoint s m e k Hsm) as D.
    destruct (in_range s m k); cbn [length orb]; rewrite IH; [rewrite (D eq_refl)|]; reflexivity.
Qed.

(* a sub-range ends at the end of the batch of regions loaded for its start key, or earlier: at the range end, which
   that batch reaches or passes *)
Definition clipped (be : nat -> list N -> list N) (p : list N * list N) : Prop :=
  exists j, snd p = be j (fst p) \/ end_reached (snd p) (be j (fst p)) = true.

(* the loop of RunOnRange: the cursor moves to the batch end, the part handed out so far is a chain up to the cursor.
   A layout function is admissible when a batch of regions starting at the one containing k ends after k or is unbounded. *)
Lemma partition_spec be fuel : forall i key e l, partition be fuel i key e = Some l ->
  (forall p, In p l -> clipped be p) /\ ((forall i k, lt_end k (be i k)) -> lt_end key e -> chain key e l).
Proof.
  induction fuel as [|f IH]; intros i key e l; cbn [partition]; [discriminate|].
  destruct (end_reached e (be i key)) eqn:E.
  - intros [= <-]. split; [intros p [<-|[]]; exists i; right; exact E|intros _ Hke; apply chain_last; exact Hke].
  - destruct (partition be f (S i) (be i key) e) as [l'|] eqn:P; [|discriminate]. intros [= <-].
    destruct (IH _ _ _ _ P) as [IH1 IH2]. apply end_reached_false in E as [Hn He]. split.
    + intros p [<-|Hin]; [exists i; left; reflexivity|apply IH1; exact Hin].
    + intros Hbe _. apply chain_cons; [destruct (Hbe i key) as [H|H]; [contradiction|exact H]|apply IH2; assumption].
Qed.
Lemma run_on_range_spec be fuel s e subs : run_on_range be fuel s e = Some subs ->
  (forall p, In p subs -> clipped be p) /\ (empty_range s e = true -> subs = []) /\
  ((forall i k, lt_end k (be i k)) -> empty_range s e = false -> chain s e subs).
Proof.
  unfold run_on_range. destruct (empty_range s e) eqn:E.
  - intros [= <-]. split; [intros p []|split; [reflexivity|discriminate]].
  - intros H. destruct (partition_spec _ _ _ _ _ _ H) as [H1 H2].
    split; [exact H1|split; [discriminate|]]. intros Hbe _. apply H2; [exact Hbe|apply empty_range_false; exact E].
Qed.

Lemma task_ok_spec h subs : task_ok h subs = true <-> forall sub, In sub subs -> h sub = true.
Proof. unfold task_ok. apply forallb_forall. Qed.
Lemma task_fails h subs sub : In sub subs -> h sub = false -> task_ok h subs = false.
Proof.
  intros Hin Hf. destruct (task_ok h subs) eqn:E; [|reflexivity].
  rewrite task_ok_spec in E. rewrite (E _ Hin) in Hf; discriminate.
Qed.

Theorem run_on_range_partition be fuel s e subs : (forall i k, lt_end k (be i k)) -> run_on_range be fuel s e = Some subs ->
  (empty_range s e = true -> subs = []) /\ (empty_range s e = false -> chain s e subs) /\
  (forall k, cover_count subs k = if in_range s e k && negb (empty_range s e) then 1%nat else 0%nat) /\
  (forall h, task_ok h subs = true <-> forall sub, In sub subs -> h sub = true).
Proof.
  intros Hbe H. destruct (run_on_range_spec _ _ _ _ _ H) as (_ & H1 & H2). specialize (H2 Hbe).
  split; [exact H1|]. split; [exact H2|]. split; [|intros h; apply task_ok_spec].
  intros k. destruct (empty_range s e).
  - rewrite (H1 eq_refl), Bool.andb_false_r. reflexivity.
  - rewrite Bool.andb_true_r. apply chain_exact_cover, H2; reflexivity.
Qed.

(* layouts given as lists of split keys are admissible *)
Lemma next_split_after splits key : next_split splits key = [] \/ lex_lt key (next_split splits key).
Proof.
  unfold next_split.
  assert (G : forall acc, (acc = [] \/ lex_lt key acc) ->
     let r := fold_left (fun acc s => if lex_ltb key s && (is_nil acc || lex_ltb s acc) then s else acc) splits acc in r = [] \/ lex_lt key r).
  { induction splits as [|x xs IH]; intros acc Hacc; cbn [fold_left]; [exact Hacc|].
    apply IH. destruct (lex_ltb key x) eqn:E; cbn [andb]; [|exact Hacc].
    destruct (is_nil acc || lex_ltb x acc); [right; apply lex_ltb_lt; exact E|exact Hacc]. }
  apply G; left; reflexivity.
Qed.
Lemma nth_next_after splits n : forall key, (0 < n)%nat -> nth_next splits n key = [] \/ lex_lt key (nth_next splits n key).
Proof.
  induction n as [|m IH]; intros key Hn; [inversion Hn|].
  cbn [nth_next]. destruct m as [|m'].
  - apply next_split_after.
  - destruct (next_split_after splits key) as [H|H].
    + rewrite H; cbn [is_nil]. left; reflexivity.
    + destruct (is_nil (next_split splits key)) eqn:E; [left; reflexivity|].
      destruct (IH (next_split splits key) (Nat.lt_0_succ _)) as [G|G]; [left; exact G|right].
      eapply lex_lt_trans; eassumption.
Qed.
Lemma batch_end_of_after layouts rpt : (0 < rpt)%nat -> forall i k, batch_end_of layouts rpt i k = [] \/ lex_lt k (batch_end_of layouts rpt i k).
Proof. intros H i k. unfold batch_end_of. apply nth_next_after; exact H. Qed.
