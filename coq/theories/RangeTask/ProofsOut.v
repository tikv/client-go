(* RangeTask/ProofsOut.v — outcomes are kept: the pass leaves every key of the range resolved by its
   transaction's outcome; a whole-keyspace pass yields exactly resolve_all; reads of lock-free keys unchanged.
   The theorems about a pass are stated for any faithful ScanLock answer (ModelView).
   Second half (ModelLayout): regions predicted from ANY sequence of layouts are admissible observations, the loop over
   layouts is the loop over observed regions run on the predictions, so its results enjoy the same guarantees; a pass
   that stops early leaves a reachable store, from which a retry completes the job. *)
From Verif Require Import Base.Lex RangeTask.Model RangeTask.ProofsOrd RangeTask.ProofsStore RangeTask.ProofsInv RangeTask.ProofsGc
  RangeTask.ProofsPart RangeTask.ProofsDel RangeTask.ModelView RangeTask.ProofsView RangeTask.ModelLayout RangeTask.ExData.
Open Scope N_scope.

Lemma resolve_by_outcome_noold st0 sp r : old_lock sp r = false -> resolve_by_outcome st0 sp r = r.
Proof. unfold old_lock, resolve_by_outcome. destruct (k_lock r); [|reflexivity]. intros ->; reflexivity. Qed.

Lemma Forall2_map_eq {A B} (g : A -> B) l0 l : Forall2 (fun x y => y = g x) l0 l -> l = map g l0.
Proof. induction 1 as [|x y l0 l -> _ IH]; cbn [map]; congruence. Qed.

Section Out.
  Variables (st0 : store) (sp : N).
  Hypothesis Hwf : wf_store st0.

  (* a record of a reachable store: untouched or resolved; resolved (possibly trivially) once it holds no old lock *)
  Lemma InvP_record st r' : InvP st0 sp st -> In r' st -> exists r0, In r0 st0 /\ k_key r0 = k_key r' /\
    (r' = r0 \/ r' = resolve_by_outcome st0 sp r0) /\ (old_lock sp r' = false -> r' = resolve_by_outcome st0 sp r0).
  Proof.
    intros HI Hin. destruct (proj2 HI _ Hin) as (r0 & Hin0 & Hr). exists r0. split; [exact Hin0|].
    split; [symmetry; eapply rel0_key; exact Hr|]. destruct Hr as [->|[_ ->]].
    - split; [left; reflexivity|intros Hc; symmetry; apply resolve_by_outcome_noold; exact Hc].
    - split; [right; reflexivity|reflexivity].
  Qed.
  Definition kept (r' : krec) : Prop :=
    exists r0, In r0 st0 /\ k_key r0 = k_key r' /\ (r' = r0 \/ r' = resolve_by_outcome st0 sp r0).
  Lemma InvP_kept st r' : InvP st0 sp st -> In r' st -> kept r'.
  Proof. intros HI Hin. destruct (InvP_record st r' HI Hin) as (r0 & H1 & H2 & H3 & _). exists r0. auto. Qed.
  (* ... and every initial record has its counterpart *)
  Lemma InvP_image st r0 : InvP st0 sp st -> In r0 st0 -> exists r, In r st /\ rel0 st0 sp r0 r.
  Proof.
    intros HI Hin. assert (Hk : In (k_key r0) (keys st)) by (rewrite (proj1 HI); apply in_map; exact Hin).
    apply in_map_iff in Hk as (r & Hkr & Hinr). destruct (proj2 HI _ Hinr) as (r0' & Hin' & Hr).
    assert (r0' = r0); [|subst r0'; exists r; auto].
    apply (uniq0 st0 Hwf); [exact Hin'|exact Hin|]. rewrite <- (rel0_key _ _ _ _ Hr). exact Hkr.
  Qed.

  (* a reachable store without old locks is the canonical one *)
  Lemma whole_pass st : InvP st0 sp st -> (forall r, In r st -> old_lock sp r = false) -> st = resolve_all st0 sp.
  Proof.
    intros HI Hc. assert (G : Forall2 (fun r0 r => r = resolve_by_outcome st0 sp r0) st0 st).
    { apply sorted_pointwise; [apply (wf_sorted _ Hwf)|apply HI|].
      intros r Hin. destruct (InvP_record st r HI Hin) as (r0 & H1 & H2 & _ & H3). exists r0. auto. }
    exact (Forall2_map_eq _ _ _ G).
  Qed.
  Lemma whole_range st : InvP st0 sp st -> range_clear sp [] [] st -> st = resolve_all st0 sp.
  Proof. intros HI Hc. apply whole_pass; [exact HI|]. intros r Hin. apply Hc; [exact Hin|apply in_range_all]. Qed.

  Lemma resolve_by_outcome_spec r l : k_lock r = Some l -> l_start l <= sp ->
    let r' := resolve_by_outcome st0 sp r in
    k_key r' = k_key r /\ k_lock r' = None /\
    match committed_at st0 (l_primary l) (l_start l), l_kind l with
    | Some c, LPut => k_writes r' = mkWrite (l_start l) c (Some (l_val l)) :: k_writes r
    | Some c, LDel => k_writes r' = mkWrite (l_start l) c None :: k_writes r
    | _, _ => k_writes r' = k_writes r
    end.
  Proof.
    intros Hl Hle r'. unfold r'. rewrite (resolve_unfold _ _ _ _ Hl Hle). unfold apply_outcome.
    destruct (committed_at st0 (l_primary l) (l_start l)); destruct (l_kind l); cbn; auto.
  Qed.
End Out.

(* reads: a key without an old lock is read the same way before and after *)
Lemma find_key_map g st k : lock_mono g -> find_key (map g st) k = option_map g (find_key st k).
Proof.
  intros Hg. unfold find_key. induction st as [|r t IH]; [reflexivity|]. cbn [map find]. rewrite (proj1 (Hg r)).
  destruct (bytes_eqb (k_key r) k); [reflexivity|exact IH].
Qed.
Lemma read_at_unchanged st0 sp k ts :
  (forall r, find_key st0 k = Some r -> old_lock sp r = false) ->
  read_at (resolve_all st0 sp) k ts = read_at st0 k ts.
Proof.
  intros H. unfold read_at, resolve_all. rewrite (find_key_map _ _ _ (resolve_by_outcome_mono st0 sp)).
  destruct (find_key st0 k) as [r|] eqn:E; cbn [option_map]; [|reflexivity].
  rewrite resolve_by_outcome_noold; [reflexivity|apply H; reflexivity].
Qed.
(* ... and a key with an old lock is read as its lock's transaction decided *)
Lemma read_at_resolved st0 sp k ts r : find_key st0 k = Some r ->
  read_at (resolve_all st0 sp) k ts = read_rec (resolve_by_outcome st0 sp r) ts.
Proof.
  intros H. unfold read_at, resolve_all. rewrite (find_key_map _ _ _ (resolve_by_outcome_mono st0 sp)), H. reflexivity.
Qed.

(* a record without an old lock is literally untouched in every reachable store *)
Lemma untouched st0 sp st r0 : wf_store st0 -> InvP st0 sp st -> In r0 st0 -> old_lock sp r0 = false -> In r0 st.
Proof.
  intros Hwf HI Hin Ho. destruct (InvP_image st0 sp Hwf st r0 HI Hin) as (r & Hinr & [->|[Hold _]]); [exact Hinr|congruence].
Qed.
Lemma read_at_inv st0 sp st k ts : wf_store st0 -> InvP st0 sp st ->
  (forall r, find_key st0 k = Some r -> old_lock sp r = false) -> read_at st k ts = read_at st0 k ts.
Proof.
  intros Hwf HI H. unfold read_at. destruct (find_key st k) as [r|] eqn:E.
  - destruct (InvP_find st0 sp Hwf _ _ _ HI E) as (r0 & Hf0 & Hin0 & Hr). rewrite Hf0.
    destruct Hr as [->|[Hold _]]; [reflexivity|]. rewrite (H _ Hf0) in Hold; discriminate.
  - rewrite (InvP_find_none st0 sp _ _ HI E). reflexivity.
Qed.

(* the whole resolve-locks phase: every sub-range handled, in any order; what an earlier task cleared stays clear *)
Lemma gc_pass_spec st0 sp limit fuel : wf_store st0 -> (0 < limit)%nat ->
  forall tasks st st', InvP st0 sp st -> Forall (fun t => Forall (oracle_ok st0 sp) (snd t)) tasks ->
  gc_pass fuel sp limit tasks st = Some st' ->
  InvP st0 sp st' /\ smono st st' /\ clear_on sp (fun k => covered (map fst tasks) k = true) st'.
Proof.
  intros Hwf Hl. induction tasks as [|[sub os] rest IH]; intros st st' HI Hos; cbn [gc_pass].
  - intros [= <-]. split; [exact HI|]. split; [apply smono_refl|]. intros r _ Hc. discriminate.
  - inversion Hos as [|? ? Ho Hos']; subst. cbn [snd] in Ho.
    destruct (gc_resolve_range fuel sp limit (fst sub) (snd sub) os st) as [st1 tr| |] eqn:E; try discriminate.
    intros Hp. destruct (gc_resolve_range_spec st0 sp Hwf limit _ _ Hl fuel os st st1 tr HI Ho E) as (HI1 & Hm1 & Hc1).
    destruct (IH st1 st' HI1 Hos' Hp) as (HI' & Hm' & Hc'). split; [exact HI'|]. split; [eapply smono_trans; eassumption|].
    intros r Hr Hcov. change (covers sub (k_key r) || covered (map fst rest) (k_key r) = true) in Hcov.
    apply Bool.orb_true_iff in Hcov as [Hcov|Hcov]; [exact (clear_on_smono sp _ _ _ Hm' Hc1 r Hr Hcov)|exact (Hc' r Hr Hcov)].
Qed.
Lemma gc_pass_clear st0 sp limit fuel tasks st' :
  wf_store st0 -> (0 < limit)%nat -> Forall (fun t => Forall (oracle_ok st0 sp) (snd t)) tasks ->
  gc_pass fuel sp limit tasks st0 = Some st' ->
  InvP st0 sp st' /\ clear_on sp (fun k => covered (map fst tasks) k = true) st' /\
  ((forall k, covered (map fst tasks) k = true) -> st' = resolve_all st0 sp).
Proof.
  intros Hwf Hl Hos H. destruct (gc_pass_spec st0 sp limit fuel Hwf Hl tasks st0 st' (InvP_init st0 sp) Hos H) as (HI & _ & Hc).
  split; [exact HI|]. split; [exact Hc|]. intros Hall. apply (whole_pass st0 sp Hwf st' HI). intros r Hin. apply Hc; [exact Hin|apply Hall].
Qed.

Section RangePass.
  Variables (view : krec -> krec) (st0 : store) (sp : N) (limit : nat) (s e : list N) (fuel : nat) (os : list iter_oracle)
            (st st' : store) (tr : list trace_entry).
  Hypotheses (Hf : faithful_view view) (Hwf : wf_store st0) (Hl : (0 < limit)%nat) (HI : InvP st0 sp st)
             (Hos : Forall (oracle_ok st0 sp) os) (H : gc_resolve_range_v view fuel sp limit s e os st = GcOk st' tr).

  Lemma range_pass_spec : InvP st0 sp st' /\ smono st st' /\ range_clear sp s e st'.
  Proof.
    rewrite (gc_resolve_range_v_eq view Hf) in H. exact (gc_resolve_range_spec st0 sp Hwf limit s e Hl fuel os st st' tr HI Hos H).
  Qed.
  Theorem gc_no_old_lock_v : range_clear sp s e st' /\ (forall st'', smono st' st'' -> range_clear sp s e st'').
  Proof.
    destruct range_pass_spec as (_ & _ & Hc). split; [exact Hc|]. intros st'' Hm. exact (clear_on_smono sp _ _ _ Hm Hc).
  Qed.
  Theorem gc_outcomes_kept_v :
    keys st' = keys st0 /\
    (forall r', In r' st' -> exists r0, In r0 st0 /\ k_key r0 = k_key r' /\
         (r' = r0 \/ r' = resolve_by_outcome st0 sp r0) /\
         (in_range s e (k_key r') = true -> r' = resolve_by_outcome st0 sp r0)) /\
    (forall p t, txn_id st0 p t -> committed_at st' p t = committed_at st0 p t) /\
    (s = [] -> e = [] -> st' = resolve_all st0 sp).
  Proof.
    destruct range_pass_spec as (HI' & _ & Hc). split; [apply HI'|]. split; [|split].
    - intros r' Hin. destruct (InvP_record st0 sp st' r' HI' Hin) as (r0 & H1 & H2 & H3 & H4). exists r0.
      split; [exact H1|split; [exact H2|split; [exact H3|]]]. intros Hir. apply H4, Hc; assumption.
    - intros p t. apply (outcome_stable st0 sp Hwf st' p t HI').
    - intros Hs He. subst s e. apply whole_range; assumption.
  Qed.
End RangePass.
Theorem gc_pass_no_old_lock_v view st0 sp limit fuel tasks st' :
  faithful_view view -> wf_store st0 -> (0 < limit)%nat -> Forall (fun t => Forall (oracle_ok st0 sp) (snd t)) tasks ->
  gc_pass_v view fuel sp limit tasks st0 = Some st' ->
  clear_on sp (fun k => covered (map fst tasks) k = true) st' /\
  ((forall k, covered (map fst tasks) k = true) -> st' = resolve_all st0 sp).
Proof. intros Hf Hwf Hl Hos. rewrite (gc_pass_v_eq view Hf). intros H. apply (gc_pass_clear st0 sp limit fuel tasks st' Hwf Hl Hos H). Qed.

Theorem pass_effect view st0 sp limit s e fuel os st' tr r0 l :
  faithful_view view -> wf_store st0 -> (0 < limit)%nat -> Forall (oracle_ok st0 sp) os ->
  gc_resolve_range_v view fuel sp limit s e os st0 = GcOk st' tr ->
  In r0 st0 -> k_lock r0 = Some l -> l_start l <= sp -> in_range s e (k_key r0) = true ->
  exists r', In r' st' /\ k_key r' = k_key r0 /\ k_lock r' = None /\
    match committed_at st0 (l_primary l) (l_start l), l_kind l with
    | Some c, LPut => k_writes r' = mkWrite (l_start l) c (Some (l_val l)) :: k_writes r0
    | Some c, LDel => k_writes r' = mkWrite (l_start l) c None :: k_writes r0
    | _, _ => k_writes r' = k_writes r0
    end.
Proof.
  intros Hf Hwf Hl Hos H Hin Hlk Hle Hir.
  destruct (range_pass_spec view st0 sp limit s e fuel os st0 st' tr Hf Hwf Hl (InvP_init st0 sp) Hos H) as (HI & _ & Hc).
  destruct (InvP_image st0 sp Hwf st' r0 HI Hin) as (r' & Hin' & Hr).
  assert (r' = resolve_by_outcome st0 sp r0) as ->.
  { destruct Hr as [->|[_ Hr]]; [exfalso|exact Hr]. pose proof (Hc r0 Hin' Hir) as Hn. rewrite (old_lock_intro sp r0 l Hlk Hle) in Hn. discriminate. }
  exists (resolve_by_outcome st0 sp r0). split; [exact Hin'|]. exact (resolve_by_outcome_spec st0 sp r0 l Hlk Hle).
Qed.

Lemma gc_safe_point_min expected granted : gc_safe_point expected granted = N.min expected granted.
Proof. unfold gc_safe_point. destruct (granted <? expected) eqn:E; [apply N.ltb_lt in E|apply N.ltb_ge in E]; lia. Qed.
Theorem gc_full_clamped st0 expected granted limit fuel tasks st' sp' :
  wf_store st0 -> (0 < limit)%nat ->
  Forall (fun t => Forall (oracle_ok st0 (gc_safe_point expected granted)) (snd t)) tasks ->
  gc_full fuel expected granted limit tasks st0 = Some (st', sp') ->
  sp' = N.min expected granted /\
  (forall r0, In r0 st0 -> old_lock sp' r0 = false -> In r0 st') /\
  clear_on sp' (fun k => covered (map fst tasks) k = true) st' /\
  ((forall k, covered (map fst tasks) k = true) -> st' = resolve_all st0 sp').
Proof.
  intros Hwf Hl Hos. unfold gc_full.
  destruct (gc_pass fuel (gc_safe_point expected granted) limit tasks st0) as [st1|] eqn:E; [|discriminate]. intros [= <- <-].
  destruct (gc_pass_clear st0 _ limit fuel tasks st1 Hwf Hl Hos E) as (HI & G).
  split; [apply gc_safe_point_min|]. split; [|exact G]. intros r0 Hin Ho. eapply untouched; eassumption.
Qed.
Theorem gc_pass_reads_kept st0 sp limit fuel tasks st' k ts :
  wf_store st0 -> (0 < limit)%nat -> Forall (fun t => Forall (oracle_ok st0 sp) (snd t)) tasks ->
  gc_pass fuel sp limit tasks st0 = Some st' ->
  (forall r, find_key st0 k = Some r -> old_lock sp r = false) -> read_at st' k ts = read_at st0 k ts.
Proof.
  intros Hwf Hl Hos E H. destruct (gc_pass_clear st0 sp limit fuel tasks st' Hwf Hl Hos E) as (HI & _).
  eapply read_at_inv; eassumption.
Qed.

(* the witness against the untyped answer: tidb#42937 population (ExData.ex_stale: pessimistic lock on k1 with a stale primary
   field, secondary prewrite lock on k2 of the same transaction, its real primary k3 committed at 15) *)
Theorem untyped_answer_refuted : exists st0 sp limit os st' tr,
  wf_store st0 /\ Forall (oracle_ok st0 sp) os /\
  gc_resolve_range_v untyped_view 20 sp limit [] [] os st0 = GcOk st' tr /\
  st' <> resolve_all st0 sp /\
  exists r l c, In r st0 /\ k_lock r = Some l /\ is_pess l = false /\ l_start l <= sp /\
                committed_at st0 (l_primary l) (l_start l) = Some c /\ committed_at st' (k_key r) (l_start l) = None.
Proof.
  exists ex_stale, 50, 4%nat, [mkOracle ([], []) [] [] (Some ([], []))].
  eexists. eexists. split; [apply wf_storeb_wf; vm_compute; reflexivity|].
  split; [repeat constructor|]. split; [vm_compute; reflexivity|]. split; [vm_compute; discriminate|].
  exists (mkRec [2] (Some (mkLock 10 [3] LPut [2])) []), (mkLock 10 [3] LPut [2]), 15.
  split; [right; left; reflexivity|]. split; [reflexivity|]. split; [reflexivity|]. split; [vm_compute; discriminate|].
  split; vm_compute; reflexivity.
Qed.

(* every prewrite lock the pass rolls back leaves a marker that refuses a late prewrite; committed ones leave none *)
Lemma rolled_back_marked st0 sp r l : In r st0 -> k_lock r = Some l -> l_start l <= sp -> is_pess l = false ->
  committed_at st0 (l_primary l) (l_start l) = None -> late_prewrite_accepted (markers st0 sp) (k_key r) (l_start l) = false.
Proof.
  intros Hin Hl Hle Hp Hc. unfold late_prewrite_accepted. apply Bool.negb_false_iff. apply existsb_exists.
  exists (k_key r, l_start l). split.
  - unfold markers. apply in_flat_map. exists r. split; [exact Hin|]. unfold marker_of. rewrite Hl, Hp, Hc.
    apply N.leb_le in Hle. rewrite Hle. left; reflexivity.
  - cbn [fst snd]. rewrite bytes_eqb_refl, N.eqb_refl. reflexivity.
Qed.
Lemma marker_only_rolled_back st0 sp k t : In (k, t) (markers st0 sp) ->
  exists r l, In r st0 /\ k_key r = k /\ k_lock r = Some l /\ l_start l = t /\ t <= sp /\ is_pess l = false /\
              committed_at st0 (l_primary l) t = None.
Proof.
  unfold markers. intros H. apply in_flat_map in H as (r & Hin & Hm). unfold marker_of in Hm.
  destruct (k_lock r) as [l|] eqn:Hl; [|destruct Hm].
  destruct ((l_start l <=? sp) && negb (is_pess l)) eqn:Eb; [|destruct Hm].
  apply Bool.andb_true_iff in Eb as [E1 E2]. apply N.leb_le in E1. apply Bool.negb_true_iff in E2.
  destruct (committed_at st0 (l_primary l) (l_start l)) eqn:Ec; [destruct Hm|]. destruct Hm as [[= <- <-]|[]].
  exists r, l. auto 10.
Qed.

Lemma prev_split_le splits key : lex_le (prev_split splits key) key.
Proof.
  unfold prev_split.
  assert (G : forall acc, lex_le acc key -> lex_le (fold_left (fun acc s => if lex_leb s key && lex_leb acc s then s else acc) splits acc) key).
  { induction splits as [|x xs IH]; intros acc H; cbn [fold_left]; [exact H|]. apply IH.
    destruct (lex_leb x key) eqn:E; cbn [andb]; [|exact H]. destruct (lex_leb acc x); [apply lex_leb_le; exact E|exact H]. }
  apply G. apply lex_nil_le.
Qed.
Lemma locate_contains splits key : in_range (fst (locate splits key)) (snd (locate splits key)) key = true.
Proof. apply in_range_iff. split; [apply prev_split_le|apply next_split_after]. Qed.

Lemma resolve_region_of_contains first last : forall ys R R', in_range (fst R) (snd R) first = true -> in_range (fst R) (snd R) last = true ->
  resolve_region_of R first last ys = Some R' -> in_range (fst R') (snd R') first = true /\ in_range (fst R') (snd R') last = true.
Proof.
  induction ys as [|y rest IH]; intros R R' H1 H2; cbn [resolve_region_of]; [intros [= <-]; auto|].
  destruct (region_eqb (locate y first) R); [intros [= <-]; auto|].
  destruct (in_range (fst (locate y first)) (snd (locate y first)) last) eqn:E; [|discriminate].
  apply IH; [apply locate_contains|exact E].
Qed.

Lemma scanned_in_region sp limit e st key rs re r : in_range rs re key = true -> In r (scan st key (req_end_of e re) sp limit) ->
  in_range rs re (k_key r) = true.
Proof.
  intros Hk Hin. destruct (scan_in r Hin) as (_ & Hr & _).
  apply in_range_iff in Hk as [Hk1 _]. apply in_range_iff in Hr as [Hr1 Hr2]. apply in_range_iff.
  split; [eapply lex_le_trans; eassumption|apply (req_end_of_min _ e re), Hr2].
Qed.

Lemma gc_step_l_not_bad sp limit e y st key : gc_step sp limit e (oracle_of_layouts y sp limit e st key) st key <> StepBad.
Proof.
  unfold gc_step, oracle_of_layouts. cbn [o_loc o_env1 o_env2 o_res apply_envs fold_left].
  destruct (locate (y_scan y) key) as [rs re] eqn:El.
  assert (Hk : in_range rs re key = true) by (pose proof (locate_contains (y_scan y) key) as G; rewrite El in G; exact G).
  rewrite Hk. cbn [negb snd].
  set (locks := scan st key (req_end_of e re) sp limit).
  assert (Hadv : forall l st3, advance limit e re l st3 <> StepBad) by (intros l st3; unfold advance; destruct (_ || _); discriminate).
  destruct locks as [|h t] eqn:E; [apply Hadv|]. rewrite <- E.
  destruct (resolve_region_of (rs, re) (first_key locks) (last_key locks) (y_res y)) as [[rs' re']|] eqn:Er; [|discriminate].
  assert (Hin : forall r, In r locks -> in_range rs re (k_key r) = true) by (intros r; apply scanned_in_region; exact Hk).
  assert (H1 : in_range rs re (first_key locks) = true) by (rewrite E; apply (Hin h); rewrite E; left; reflexivity).
  assert (H2 : in_range rs re (last_key locks) = true) by (apply Hin, last_in; rewrite E; discriminate).
  destruct (resolve_region_of_contains _ _ _ (rs, re) (rs', re') H1 H2 Er) as [G1 G2].
  cbn [fst snd] in G1, G2. rewrite G1, G2. apply Hadv.
Qed.

(* the loop over layouts is the loop over observed regions, run on the observations it predicts (none with interference) *)
Lemma gc_loop_l_run st0 sp limit e fuel : forall ys st key,
  gc_loop fuel sp limit e (snd (gc_loop_l fuel sp limit e ys st key)) st key = fst (gc_loop_l fuel sp limit e ys st key) /\
  Forall (oracle_ok st0 sp) (snd (gc_loop_l fuel sp limit e ys st key)).
Proof.
  induction fuel as [|f IH]; intros ys st key; cbn [gc_loop_l]; [split; [reflexivity|constructor]|].
  destruct ys as [|y ys']; [split; [reflexivity|constructor]|].
  set (o := oracle_of_layouts y sp limit e st key). assert (Ho : oracle_ok st0 sp o) by (split; constructor).
  destruct (gc_step sp limit e o st key) as [st1|st1 key1|] eqn:Es.
  - cbn [fst snd gc_loop]. rewrite Es. split; [reflexivity|constructor; [exact Ho|constructor]].
  - destruct (IH ys' st1 key1) as [I1 I2]. destruct (gc_loop_l f sp limit e ys' st1 key1) as [r os]. cbn [fst snd] in I1, I2.
    destruct r; cbn [fst snd gc_loop]; rewrite Es, I1; (split; [reflexivity|constructor; assumption]).
  - cbn [fst snd gc_loop]. rewrite Es. split; [reflexivity|constructor; [exact Ho|constructor]].
Qed.
(* ... which never reports a bad observation while layouts are left *)
Lemma gc_loop_l_not_bad sp limit e fuel : forall ys st key, (fuel <= length ys)%nat -> fst (gc_loop_l fuel sp limit e ys st key) <> GcBadOracle.
Proof.
  induction fuel as [|f IH]; intros ys st key Hlen; cbn [gc_loop_l]; [discriminate|].
  destruct ys as [|y ys']; [cbn in Hlen; lia|]. cbn [length] in Hlen.
  pose proof (gc_step_l_not_bad sp limit e y st key) as Hnb.
  destruct (gc_step sp limit e (oracle_of_layouts y sp limit e st key) st key) as [st1|st1 key1|]; [discriminate| |contradiction].
  specialize (IH ys' st1 key1 ltac:(lia)). destruct (gc_loop_l f sp limit e ys' st1 key1) as [[st2 tr2| |] os2]; cbn [fst] in *; try discriminate. contradiction.
Qed.

Theorem gc_layouts st0 sp limit s e fuel ys : wf_store st0 -> (0 < limit)%nat ->
  ((fuel <= length ys)%nat -> fst (gc_resolve_range_l fuel sp limit s e ys st0) <> GcBadOracle) /\
  (forall st' tr os, gc_resolve_range_l fuel sp limit s e ys st0 = (GcOk st' tr, os) ->
     range_clear sp s e st' /\
     (forall r', In r' st' -> kept st0 sp r') /\
     (s = [] -> e = [] -> st' = resolve_all st0 sp)).
Proof.
  intros Hwf Hl. split; [apply gc_loop_l_not_bad|]. unfold gc_resolve_range_l. intros st' tr os H.
  destruct (gc_loop_l_run st0 sp limit e fuel ys st0 s) as [Hrun Hos]. rewrite H in Hrun, Hos. cbn [fst snd] in Hrun, Hos.
  destruct (gc_loop_spec st0 sp Hwf limit s e Hl fuel os st0 s st' tr (InvP_init st0 sp) Hos (cleared_start sp s st0) Hrun) as (HI & _ & Hc).
  split; [exact Hc|]. split; [|intros -> ->; apply whole_range; assumption].
  intros r'. apply InvP_kept; assumption.
Qed.

(* a pass that stops after some iterations leaves a reachable store *)
Lemma gc_steps_inv st0 sp limit s e : wf_store st0 -> (0 < limit)%nat ->
  forall n os st key st' key', InvP st0 sp st -> Forall (oracle_ok st0 sp) os -> cleared sp s st key ->
  gc_steps n sp limit e os st key = Some (st', key') -> InvP st0 sp st'.
Proof.
  intros Hwf Hl. induction n as [|m IH]; intros os st key st' key' HI Hos Hc; cbn [gc_steps]; [intros [= <- _]; exact HI|].
  destruct os as [|o os']; [intros [= <- _]; exact HI|]. inversion Hos as [|? ? Ho Hos']; subst.
  pose proof (gc_step_spec st0 sp Hwf limit s e Hl o st key HI Ho Hc) as G.
  destruct (gc_step sp limit e o st key) as [st1|st1 key1|]; [intros [= <- _]; apply G| |discriminate].
  destruct G as (G1 & _ & G2). apply (IH os' st1 key1 st' key' G1 Hos' G2).
Qed.
Theorem failed_pass_harmless view st0 sp limit s e n os1 st1 key1 fuel os2 st' tr :
  faithful_view view -> wf_store st0 -> (0 < limit)%nat -> Forall (oracle_ok st0 sp) os1 -> Forall (oracle_ok st0 sp) os2 ->
  gc_steps n sp limit e os1 st0 s = Some (st1, key1) ->
  (forall r1, In r1 st1 -> kept st0 sp r1) /\ (forall p t, txn_id st0 p t -> committed_at st1 p t = committed_at st0 p t) /\
  (gc_resolve_range_v view fuel sp limit s e os2 st1 = GcOk st' tr ->
     range_clear sp s e st' /\ (s = [] -> e = [] -> st' = resolve_all st0 sp)).
Proof.
  intros Hf Hwf Hl Ho1 Ho2 H.
  pose proof (gc_steps_inv st0 sp limit s e Hwf Hl n os1 st0 s st1 key1 (InvP_init st0 sp) Ho1 (cleared_start sp s st0) H) as HI.
  split; [|split].
  - intros r1. apply InvP_kept; assumption.
  - intros p t. apply (outcome_stable st0 sp Hwf st1 p t HI).
  - intros H2. destruct (range_pass_spec view st0 sp limit s e fuel os2 st1 st' tr Hf Hwf Hl HI Ho2 H2) as (HI' & _ & Hc).
    split; [exact Hc|]. intros -> ->. apply whole_range; assumption.
Qed.
