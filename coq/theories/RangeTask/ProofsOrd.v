(* RangeTask/ProofsOrd.v — more of the lexicographic order of Base.Lex; ranges with an unbounded end *)
From Verif Require Import Base.Lex RangeTask.Model.
Open Scope N_scope.

Lemma lex_lt_trans a b c : lex_lt a b -> lex_lt b c -> lex_lt a c.
Proof. apply lex_cmp_lt_trans. Qed.
Lemma lex_le_lt_trans a b c : lex_le a b -> lex_lt b c -> lex_lt a c.
Proof. intros H1 H2. apply lex_le_cases in H1 as [H1| ->]; [eapply lex_lt_trans; eassumption|exact H2]. Qed.
Lemma lex_le_trans a b c : lex_le a b -> lex_le b c -> lex_le a c.
Proof.
  intros H1 H2. apply lex_le_cases in H1 as [H1| ->]; [|exact H2].
  apply lex_le_cases; left; eapply lex_lt_le_trans; eassumption.
Qed.
Lemma lex_lt_le a b : lex_lt a b -> lex_le a b.
Proof. intros H; apply lex_le_cases; left; exact H. Qed.
Lemma lex_le_or_lt a b : lex_le a b \/ lex_lt b a.
Proof. destruct (lex_leb a b) eqn:E; [left; apply lex_leb_le|right; apply lex_leb_false]; exact E. Qed.
Lemma lex_nil_le a : lex_le [] a.
Proof. unfold lex_le; apply lex_cmp_nil_l. Qed.
Lemma lex_lt_nonnil a b : lex_lt a b -> b <> [].
Proof. intros H ->. destruct a; cbn in H; discriminate. Qed.

Lemma is_nil_true k : is_nil k = true <-> k = [].
Proof. destruct k; cbn; split; congruence. Qed.
Lemma is_nil_false k : is_nil k = false <-> k <> [].
Proof. destruct k; cbn; split; congruence. Qed.

(* k < e where e is an end key *)
Definition lt_end (k e : list N) : Prop := e = [] \/ lex_lt k e.
Definition inr (s e k : list N) : Prop := lex_le s k /\ lt_end k e.

Lemma before_end_iff k e : before_end k e = true <-> lt_end k e.
Proof. unfold before_end, lt_end. rewrite Bool.orb_true_iff, is_nil_true, lex_ltb_lt. tauto. Qed.
Lemma before_end_false k e : before_end k e = false <-> e <> [] /\ lex_le e k.
Proof. unfold before_end. rewrite Bool.orb_false_iff, is_nil_false, lex_ltb_false. tauto. Qed.
Lemma in_range_iff s e k : in_range s e k = true <-> inr s e k.
Proof. unfold in_range, inr. rewrite Bool.andb_true_iff, lex_leb_le, before_end_iff. tauto. Qed.
Lemma in_range_false s e k : in_range s e k = false <-> ~ inr s e k.
Proof. rewrite <- in_range_iff. destruct (in_range s e k); split; congruence. Qed.
Lemma lt_end_trans a b e : lex_lt a b -> lt_end b e -> lt_end a e.
Proof. intros H [->|G]; [left; reflexivity|right; eapply lex_lt_trans; eassumption]. Qed.
Lemma lt_end_le_trans a b e : lex_le a b -> lt_end b e -> lt_end a e.
Proof. intros H [->|G]; [left; reflexivity|right; eapply lex_le_lt_trans; eassumption]. Qed.
Lemma empty_range_false s e : empty_range s e = false <-> lt_end s e.
Proof.
  unfold empty_range, lt_end. destruct e as [|x e']; cbn [is_nil negb andb]; [split; auto|].
  rewrite lex_leb_false. split; [auto|intros [H|H]; [discriminate|exact H]].
Qed.
(* end_reached e x = false: the batch end x is a real key strictly inside the range *)
Lemma end_reached_false e x : end_reached e x = false <-> x <> [] /\ lt_end x e.
Proof.
  unfold end_reached, lt_end. rewrite Bool.orb_false_iff, is_nil_false, Bool.andb_false_iff, Bool.negb_false_iff, is_nil_true, lex_leb_false.
  tauto.
Qed.
Lemma end_reached_true e x : end_reached e x = true <-> x = [] \/ (e <> [] /\ lex_le e x).
Proof.
  unfold end_reached. rewrite Bool.orb_true_iff, is_nil_true, Bool.andb_true_iff, Bool.negb_true_iff, is_nil_false, lex_leb_le. tauto.
Qed.

Lemma in_range_all k : in_range [] [] k = true.
Proof. apply in_range_iff. split; [apply lex_nil_le|left; reflexivity]. Qed.
Lemma empty_range_in_range s e k : empty_range s e = true -> in_range s e k = false.
Proof.
  intros He. apply in_range_false. intros [H1 H2]. apply Bool.not_false_iff_true in He. apply He, empty_range_false.
  eapply lt_end_le_trans; eassumption.
Qed.
(* a batch end that reaches the range end bounds every key of the range *)
Lemma end_reached_bound e x k : end_reached e x = true -> lt_end k e -> lt_end k x.
Proof.
  intros Hr [->|Hk]; apply end_reached_true in Hr as [->|[Hn Hle]]; try (left; reflexivity); [contradiction|].
  right. eapply lex_lt_le_trans; eassumption.
Qed.

(* the end of a scan request is the smaller of the range end and the region end *)
Lemma req_end_of_min k e re : lt_end k (req_end_of e re) <-> lt_end k e /\ lt_end k re.
Proof.
  unfold req_end_of. destruct (is_nil e) eqn:En; cbn [negb andb].
  - apply is_nil_true in En. subst e. split; [intros H; split; [left; reflexivity|exact H]|tauto].
  - apply is_nil_false in En. destruct (before_end e re) eqn:Eb.
    + apply before_end_iff in Eb. split; [intros H; split; [exact H|]|tauto].
      destruct H as [H|H]; [contradiction|eapply lt_end_trans; eassumption].
    + apply before_end_false in Eb as [Hn Hle]. split; [intros H; split; [|exact H]|tauto].
      destruct H as [H|H]; [contradiction|right; eapply lex_lt_le_trans; eassumption].
Qed.

Lemma inr_split s m e k : lex_lt s m -> lt_end m e -> (inr s e k <-> inr s m k \/ inr m e k).
Proof.
  intros Hsm Hme. unfold inr. split.
  - intros [H1 H2]. destruct (lex_le_or_lt m k) as [G|G]; [right; auto|left; split; [exact H1|right; exact G]].
  - intros [[H1 H2]|[H1 H2]].
    + split; [exact H1|]. destruct H2 as [->|H2]; [exfalso; exact (lex_lt_nonnil _ _ Hsm eq_refl)|eapply lt_end_trans; eassumption].
    + split; [|exact H2]. apply lex_lt_le. eapply lex_lt_le_trans; eassumption.
Qed.
Lemma in_range_split s m e k : lex_lt s m -> lt_end m e -> in_range s e k = in_range s m k || in_range m e k.
Proof.
  intros H1 H2. apply Bool.eq_iff_eq_true. rewrite Bool.orb_true_iff, !in_range_iff. apply inr_split; assumption.
Qed.
Lemma in_range_disjoint s m e k : lex_lt s m -> in_range s m k = true -> in_range m e k = false.
Proof.
  intros Hsm H. apply in_range_false. intros [H2 _]. apply in_range_iff in H as [_ [->|H1]].
  - exact (lex_lt_nonnil _ _ Hsm eq_refl).
  - apply lex_lt_not_le in H1. exact (H1 H2).
Qed.
