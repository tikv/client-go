(* RangeTask/ProofsStore.v — basic facts about the abstract store: sorted keys, uniqueness, lookups; every step of a pass keeps
   the keys and only removes locks *)
From Verif Require Import Base.Lex RangeTask.Model RangeTask.ProofsOrd.
From Coq Require Import Sorted.
Open Scope N_scope.

Definition keys (st : store) : list (list N) := map k_key st.
Definition sorted (st : store) : Prop := StronglySorted lex_lt (keys st).
Definition uniq (st : store) : Prop := forall r1 r2, In r1 st -> In r2 st -> k_key r1 = k_key r2 -> r1 = r2.

Lemma sorted_cons h t : sorted (h :: t) <-> sorted t /\ forall x, In x t -> lex_lt (k_key h) (k_key x).
Proof.
  unfold sorted, keys. cbn [map]. split.
  - intros H. apply StronglySorted_inv in H as [H1 H2]. rewrite Forall_forall in H2. split; [exact H1|]. intros x Hx. apply H2, in_map, Hx.
  - intros [H1 H2]. constructor; [exact H1|]. apply Forall_forall. intros k Hk. apply in_map_iff in Hk as (x & <- & Hx). apply H2, Hx.
Qed.
Lemma sorted_filter P l : sorted l -> sorted (filter P l).
Proof.
  induction l as [|h t IH]; [exact id|]. rewrite sorted_cons. intros [H1 H2]. cbn [filter].
  destruct (P h); [|apply IH; exact H1]. apply sorted_cons. split; [apply IH; exact H1|].
  intros x Hx. apply filter_In in Hx as [Hx _]. apply H2; exact Hx.
Qed.
Lemma sorted_app a : forall b, sorted (a ++ b) -> sorted a /\ forall x y, In x a -> In y b -> lex_lt (k_key x) (k_key y).
Proof.
  induction a as [|h t IH]; intros b H; [split; [constructor|intros x y []]|].
  cbn [app] in H. apply sorted_cons in H as [H1 H2]. destruct (IH b H1) as [I1 I2]. split.
  - apply sorted_cons. split; [exact I1|]. intros x Hx. apply H2. apply in_or_app; left; exact Hx.
  - intros x y [<-|Hx] Hy; [apply H2; apply in_or_app; right; exact Hy|apply I2; assumption].
Qed.
Lemma sorted_firstn n l : sorted l -> sorted (firstn n l).
Proof. intros H. rewrite <- (firstn_skipn n l) in H. apply (sorted_app _ _ H). Qed.

Lemma sorted_uniq st : sorted st -> uniq st.
Proof.
  unfold uniq. induction st as [|h t IH]; intros Hs r1 r2 H1 H2 Hk; [destruct H1|].
  apply sorted_cons in Hs as [Hs Hall].
  destruct H1 as [<-|H1], H2 as [<-|H2].
  - reflexivity.
  - exfalso. specialize (Hall r2 H2). rewrite Hk in Hall. exact (lex_lt_irrefl _ Hall).
  - exfalso. specialize (Hall r1 H1). rewrite <- Hk in Hall. exact (lex_lt_irrefl _ Hall).
  - apply IH; assumption.
Qed.

Lemma find_key_some st k r : find_key st k = Some r -> In r st /\ k_key r = k.
Proof. unfold find_key. intros H. apply find_some in H as [H1 H2]. apply bytes_eqb_eq in H2. auto. Qed.
Lemma find_key_none st k : find_key st k = None -> forall r, In r st -> k_key r <> k.
Proof.
  unfold find_key. intros H r Hin Hk. pose proof (find_none _ _ H r Hin) as G. cbn in G.
  rewrite <- Bool.not_true_iff_false, bytes_eqb_eq in G. contradiction.
Qed.
Lemma find_key_in st r : uniq st -> In r st -> find_key st (k_key r) = Some r.
Proof.
  intros Hu Hin. destruct (find_key st (k_key r)) as [r'|] eqn:E.
  - apply find_key_some in E as [H1 H2]. f_equal. apply Hu; assumption.
  - exfalso. exact (find_key_none _ _ E r Hin eq_refl).
Qed.
Lemma bytes_eqb_refl k : bytes_eqb k k = true.
Proof. apply bytes_eqb_eq; reflexivity. Qed.
Lemma bytes_eqb_false a b : bytes_eqb a b = false <-> a <> b.
Proof. rewrite <- Bool.not_true_iff_false, bytes_eqb_eq. tauto. Qed.

Lemma apply_outcome_key r l oc : k_key (apply_outcome r l oc) = k_key r.
Proof. unfold apply_outcome. destruct oc, (l_kind l); reflexivity. Qed.
Lemma apply_outcome_lock r l oc : k_lock (apply_outcome r l oc) = None.
Proof. unfold apply_outcome. destruct oc, (l_kind l); reflexivity. Qed.
Lemma apply_outcome_pess r l oc : is_pess l = true -> apply_outcome r l oc = clear_lock r.
Proof. unfold apply_outcome, is_pess. destruct (l_kind l); try discriminate. destruct oc; reflexivity. Qed.
Lemma apply_outcome_none r l : apply_outcome r l None = clear_lock r.
Proof. unfold apply_outcome. destruct (l_kind l); reflexivity. Qed.

(* every write the model performs is a record transformer that keeps the key and may only remove the lock *)
Definition lmono (r r' : krec) : Prop := k_key r' = k_key r /\ (k_lock r' = k_lock r \/ k_lock r' = None).
Definition lock_mono (f : krec -> krec) : Prop := forall r, lmono r (f r).
Lemma lmono_refl r : lmono r r.
Proof. split; auto. Qed.
Lemma lmono_old sp r r' : lmono r r' -> old_lock sp r = false -> old_lock sp r' = false.
Proof. intros [_ [H|H]] Ho; unfold old_lock in *; rewrite H; [exact Ho|reflexivity]. Qed.
Lemma clear_lock_mono : lock_mono clear_lock.
Proof. intros r; split; [reflexivity|right; reflexivity]. Qed.
Lemma apply_outcome_mono r l oc : lmono r (apply_outcome r l oc).
Proof. split; [apply apply_outcome_key|right; apply apply_outcome_lock]. Qed.
Lemma lock_mono_if (c : krec -> bool) f : lock_mono f -> lock_mono (fun r => if c r then f r else r).
Proof. intros H r. destruct (c r); [apply H|apply lmono_refl]. Qed.

Definition smono (st st' : store) : Prop := forall r', In r' st' -> exists r, In r st /\ lmono r r'.
Lemma smono_refl st : smono st st.
Proof. intros r H; exists r; split; [exact H|apply lmono_refl]. Qed.
Lemma smono_trans a b c : smono a b -> smono b c -> smono a c.
Proof.
  intros H1 H2 r'' Hin. destruct (H2 _ Hin) as (r' & Hin' & [Hk' Hl']). destruct (H1 _ Hin') as (r & Hin0 & [Hk Hl]).
  exists r; split; [exact Hin0|]. split; [congruence|]. destruct Hl' as [Hl'|Hl']; [|right; exact Hl'].
  destruct Hl as [Hl|Hl]; [left; congruence|right; congruence].
Qed.

(* no lock with start <= sp on the keys satisfying P; locks only go, so this is kept *)
Definition clear_on (sp : N) (P : list N -> Prop) (st : store) : Prop := forall r, In r st -> P (k_key r) -> old_lock sp r = false.
Lemma clear_on_smono sp P st st' : smono st st' -> clear_on sp P st -> clear_on sp P st'.
Proof.
  intros Hm Hc r' Hin HP. destruct (Hm _ Hin) as (r & Hin0 & Hl). eapply lmono_old; [exact Hl|].
  destruct Hl as [Hk _]. rewrite Hk in HP. apply Hc; assumption.
Qed.
Definition clear_at (sp : N) (st : store) (k : list N) : Prop := forall r, In r st -> k_key r = k -> old_lock sp r = false.
Lemma smono_clear_at sp st st' k : smono st st' -> clear_at sp st k -> clear_at sp st' k.
Proof. exact (clear_on_smono sp (fun x => x = k) st st'). Qed.

(* same keys, locks only removed: how every step of a pass relates the store before to the store after *)
Definition shrinks (st st' : store) : Prop := keys st' = keys st /\ smono st st'.
Lemma shrinks_refl st : shrinks st st.
Proof. split; [reflexivity|apply smono_refl]. Qed.
Lemma shrinks_trans a b c : shrinks a b -> shrinks b c -> shrinks a c.
Proof. intros [K1 M1] [K2 M2]. split; [congruence|eapply smono_trans; eassumption]. Qed.
Lemma shrinks_map f st : lock_mono f -> shrinks st (map f st).
Proof.
  intros H. split.
  - unfold keys. rewrite map_map. apply map_ext. intros r; apply H.
  - intros r' Hin. apply in_map_iff in Hin as (r & <- & Hin). exists r; split; [exact Hin|apply H].
Qed.
Lemma shrinks_sorted st st' : shrinks st st' -> sorted st -> sorted st'.
Proof. intros [K _] Hs. unfold sorted. rewrite K. exact Hs. Qed.

(* two stores with the same sorted keys correspond record by record *)
Lemma sorted_pointwise (R : krec -> krec -> Prop) : forall st0 st, sorted st0 -> keys st = keys st0 ->
  (forall r, In r st -> exists r0, In r0 st0 /\ k_key r0 = k_key r /\ R r0 r) -> Forall2 R st0 st.
Proof.
  induction st0 as [|r0 t0 IH]; intros st Hs Hk H; destruct st as [|r t]; try discriminate; [constructor|].
  unfold keys in Hk. cbn [map] in Hk. injection Hk as Hk1 Hk2. pose proof (sorted_uniq _ Hs) as Hu.
  apply sorted_cons in Hs as [Hs1 Hs2].
  constructor.
  - destruct (H r (or_introl eq_refl)) as (x & Hx & Hkx & HR). assert (x = r0); [|subst; exact HR].
    apply Hu; [exact Hx|left; reflexivity|congruence].
  - apply IH; [exact Hs1|exact Hk2|]. intros y Hy. destruct (H y (or_intror Hy)) as (x & Hx & Hkx & HR).
    exists x. split; [|auto]. destruct Hx as [<-|Hx]; [exfalso|exact Hx].
    assert (Hin : In (k_key y) (map k_key t0)) by (rewrite <- Hk2; apply in_map; exact Hy).
    apply in_map_iff in Hin as (z & Hz & Hzin). specialize (Hs2 z Hzin). rewrite Hz, <- Hkx in Hs2. exact (lex_lt_irrefl _ Hs2).
Qed.
Lemma shrinks_pointwise st st' : sorted st -> shrinks st st' -> Forall2 lmono st st'.
Proof.
  intros Hs [Hk Hm]. apply sorted_pointwise; [exact Hs|exact Hk|]. intros r' Hin. destruct (Hm _ Hin) as (r & Hr & Hl).
  exists r. split; [exact Hr|split; [symmetry; apply Hl|exact Hl]].
Qed.

Lemma upd_key_shrinks st k f : lock_mono f -> shrinks st (upd_key st k f).
Proof. intros H. apply shrinks_map, lock_mono_if, H. Qed.

(* CheckTxnStatus either rolls the primary lock back or leaves the store alone and reports the outcome *)
Definition rolls_back (st : store) (p : list N) (t : N) : bool :=
  match find_key st p with
  | Some r => match k_lock r with
              | Some l => (l_start l =? t) && negb (l_async l && negb (is_pess l) && negb (fallback_now (sec_answers st l)))
              | None => false
              end
  | None => false
  end.
Lemma status_check_eq st p t :
  status_check st p t = if rolls_back st p t then (upd_key st p clear_lock, None) else (st, committed_at st p t).
Proof.
  unfold status_check, rolls_back, committed_at. destruct (find_key st p) as [r|]; [|reflexivity].
  destruct (k_lock r) as [l|]; [|reflexivity]. destruct (l_start l =? t); [|reflexivity].
  destruct (l_async l); cbn [andb negb]; [|reflexivity]. destruct (negb (is_pess l) && _); reflexivity.
Qed.
Lemma rolls_back_true st p t : rolls_back st p t = true ->
  exists r l, find_key st p = Some r /\ k_lock r = Some l /\ l_start l = t /\
              (l_async l = false \/ is_pess l = true \/ fallback_now (sec_answers st l) = true).
Proof.
  unfold rolls_back. destruct (find_key st p) as [r|]; [|discriminate]. destruct (k_lock r) as [l|] eqn:El; [|discriminate].
  intros H. apply Bool.andb_true_iff in H as [Ht H]. apply N.eqb_eq in Ht. exists r, l. split; [reflexivity|]. split; [exact El|]. split; [exact Ht|].
  destruct (l_async l); [|left; reflexivity]. destruct (is_pess l); [right; left; reflexivity|].
  destruct (fallback_now _); [right; right; reflexivity|discriminate].
Qed.
Lemma status_check_shrinks st p t : shrinks st (fst (status_check st p t)).
Proof. rewrite status_check_eq. destruct (rolls_back st p t); [apply upd_key_shrinks, clear_lock_mono|apply shrinks_refl]. Qed.

Definition pess_rb_f (t : N) (r : krec) : krec :=
  match k_lock r with Some l => if (l_start l =? t) && is_pess l then clear_lock r else r | None => r end.
Lemma pess_rb_f_mono t : lock_mono (pess_rb_f t).
Proof. intros r. unfold pess_rb_f. destruct (k_lock r); [|apply lmono_refl]. destruct (_ && _); [apply clear_lock_mono|apply lmono_refl]. Qed.
Lemma pess_rollback_shrinks st k t : shrinks st (pess_rollback st k t).
Proof. apply (upd_key_shrinks st k (pess_rb_f t)), pess_rb_f_mono. Qed.
Lemma resolve_rec_mono infos : lock_mono (resolve_rec infos).
Proof. intros r. unfold resolve_rec. destruct (k_lock r); [|apply lmono_refl]. destruct (assoc _ _); [apply apply_outcome_mono|apply lmono_refl]. Qed.
Lemma resolve_txn_rec_mono st t : lock_mono (resolve_txn_rec st t).
Proof. intros r. unfold resolve_txn_rec. destruct (k_lock r); [|apply lmono_refl]. destruct (_ =? _); [apply apply_outcome_mono|apply lmono_refl]. Qed.
Lemma resolve_by_outcome_mono st0 sp : lock_mono (resolve_by_outcome st0 sp).
Proof. intros r. unfold resolve_by_outcome. destruct (k_lock r); [|apply lmono_refl]. destruct (_ <=? _); [apply apply_outcome_mono|apply lmono_refl]. Qed.
Lemma resolve_region_shrinks st rs re infos : shrinks st (resolve_region st rs re infos).
Proof. apply shrinks_map, lock_mono_if, resolve_rec_mono. Qed.
Lemma apply_env_shrinks st a : shrinks st (apply_env st a).
Proof.
  destruct a as [p t|k t|rs re t]; cbn [apply_env].
  - apply status_check_shrinks.
  - apply pess_rollback_shrinks.
  - apply shrinks_map, lock_mono_if, resolve_txn_rec_mono.
Qed.
Lemma apply_envs_shrinks l : forall st, shrinks st (apply_envs st l).
Proof.
  unfold apply_envs. induction l as [|a l IH]; intros st; cbn [fold_left]; [apply shrinks_refl|].
  eapply shrinks_trans; [apply apply_env_shrinks|apply IH].
Qed.
Lemma collect_shrinks locks : forall st infos, shrinks st (fst (collect st locks infos)).
Proof.
  induction locks as [|r rest IH]; intros st infos; cbn [collect]; [apply shrinks_refl|].
  destruct (k_lock r) as [l|]; [|apply IH]. destruct (assoc _ _); [apply IH|].
  pose proof (status_check_shrinks st (l_primary l) (l_start l)) as H1.
  destruct (status_check st (l_primary l) (l_start l)) as [st1 oc]. cbn [fst] in H1.
  destruct (is_pess l); (eapply shrinks_trans; [|apply IH]); [|exact H1].
  destruct (bytes_eqb _ _); [exact H1|]. eapply shrinks_trans; [exact H1|apply pess_rollback_shrinks].
Qed.
Lemma batch_resolve_shrinks st rs re locks : shrinks st (batch_resolve st rs re locks).
Proof.
  unfold batch_resolve. destruct locks as [|r rest]; [apply shrinks_refl|].
  pose proof (collect_shrinks (r :: rest) st []) as G. destruct (collect st (r :: rest) []) as [st1 infos].
  eapply shrinks_trans; [exact G|apply resolve_region_shrinks].
Qed.
