(* RangeTask/Props.v — property C14: the theorems, nothing else.
   Vocabulary (definitions in the Proofs files):
     chain s e subs      consecutive non-empty sub-ranges from s to e          (ProofsPart)
     cover_count subs k  number of sub-ranges containing key k                 (ProofsPart)
     wf_store st         sorted non-empty keys, W1-W5                          (ProofsInv; decided by Model.wf_storeb)
     InvP st0 sp st      st is st0 with some locks of start <= sp resolved by their transaction's outcome
     oracle_ok st0 sp o  the interference recorded in oracle o is legitimate   (ProofsGc / ProofsInv.env_ok)
     smono st st'        st' is st with some locks removed                     (ProofsStore)
     covered pieces k    some piece contains k                                 (ProofsDel) *)
From Verif Require Import Base.Lex RangeTask.Model RangeTask.ProofsOrd RangeTask.ProofsStore RangeTask.ProofsPart
  RangeTask.ProofsInv RangeTask.ProofsGc RangeTask.ProofsOut RangeTask.ProofsDel RangeTask.ProofsTerm RangeTask.ProofsAsync RangeTask.ModelView RangeTask.ProofsView RangeTask.ModelLayout RangeTask.ExData.
Open Scope N_scope.

(* ---- range task: for every range (unbounded end included) and every sequence of layouts, the sub-ranges
   are consecutive, non-overlapping and exactly cover [s,e); any failing handler fails the task *)
Theorem C14_partition : forall (batch_end : nat -> list N -> list N) fuel s e subs,
  (forall i k, batch_end i k = [] \/ lex_lt k (batch_end i k)) ->
  run_on_range batch_end fuel s e = Some subs ->
  (empty_range s e = true -> subs = []) /\
  (empty_range s e = false -> chain s e subs) /\
  (forall k, cover_count subs k = if in_range s e k && negb (empty_range s e) then 1%nat else 0%nat) /\
  (forall h, task_ok h subs = true <-> forall sub, In sub subs -> h sub = true).
Proof. exact run_on_range_partition. Qed.
Print Assumptions C14_partition.

(* region layouts given as split-key lists (any list, any regions-per-task >= 1) are such layout functions *)
Theorem C14_partition_layouts : forall layouts rpt, (0 < rpt)%nat ->
  forall i k, batch_end_of layouts rpt i k = [] \/ lex_lt k (batch_end_of layouts rpt i k).
Proof. exact batch_end_of_after. Qed.
Print Assumptions C14_partition_layouts.

(* ---- the ScanLock answer is a PROJECTION of the store's records (ModelView): the theorems below hold for every
   view that is faithful -- keeps key, start ts, primary and whether the lock is pessimistic; it may drop the value, the
   put/delete distinction, the write history.  TiKV's answer (typed_view) is faithful; an answer without lock_type
   (untyped_view: mocktikv before fix F41) is not, and with it the statement is FALSE. *)
Theorem C14_typed_answer_faithful : faithful_view typed_view /\ ~ faithful_view untyped_view.
Proof. exact (conj typed_view_faithful untyped_view_not_faithful). Qed.
Print Assumptions C14_typed_answer_faithful.

(* with the untyped answer a successful pass over a well-formed population rolls back the secondary prewrite lock of a
   COMMITTED transaction (stale-primary pessimistic lock of the same transaction scanned first): outcomes are not kept *)
Theorem C14_untyped_answer_refuted : exists st0 sp limit os st' tr,
  wf_store st0 /\ Forall (oracle_ok st0 sp) os /\
  gc_resolve_range_v untyped_view 20 sp limit [] [] os st0 = GcOk st' tr /\
  st' <> resolve_all st0 sp /\
  exists r l c, In r st0 /\ k_lock r = Some l /\ is_pess l = false /\ l_start l <= sp /\
                committed_at st0 (l_primary l) (l_start l) = Some c /\ committed_at st' (k_key r) (l_start l) = None.
Proof. exact untyped_answer_refuted. Qed.
Print Assumptions C14_untyped_answer_refuted.

(* ---- ResolveLocksForRange: any lock population, any scan limit >= 1, any sequence of regions, any
   legitimate interference before each scan and between scan and resolve: after a successful pass no lock
   with start <= sp is left in [s,e), and it stays so under further lock-removing steps *)
Theorem C14_no_old_lock : forall view st0 sp limit s e fuel os st st' tr,
  faithful_view view ->
  wf_store st0 -> (0 < limit)%nat -> InvP st0 sp st -> Forall (oracle_ok st0 sp) os ->
  gc_resolve_range_v view fuel sp limit s e os st = GcOk st' tr ->
  (forall r, In r st' -> in_range s e (k_key r) = true -> old_lock sp r = false) /\
  (forall st'', smono st' st'' -> forall r, In r st'' -> in_range s e (k_key r) = true -> old_lock sp r = false).
Proof. exact gc_no_old_lock_v. Qed.
Print Assumptions C14_no_old_lock.

(* the same with the regions PREDICTED instead of observed (ModelLayout): for ANY sequence of layouts (lists of split keys
   in force at the scan and at the successive ResolveLock attempts of each iteration; splits and merges alike; no side
   condition at all) the loop never meets an inadmissible observation while layouts are left, and a finished pass has
   cleared the range, touched nothing but by its transaction's outcome, and equals resolve_all over the whole key space *)
Theorem C14_no_old_lock_layouts : forall st0 sp limit s e fuel ys,
  wf_store st0 -> (0 < limit)%nat ->
  ((fuel <= length ys)%nat -> fst (gc_resolve_range_l fuel sp limit s e ys st0) <> GcBadOracle) /\
  (forall st' tr os, gc_resolve_range_l fuel sp limit s e ys st0 = (GcOk st' tr, os) ->
     (forall r, In r st' -> in_range s e (k_key r) = true -> old_lock sp r = false) /\
     (forall r', In r' st' -> exists r0, In r0 st0 /\ k_key r0 = k_key r' /\ (r' = r0 \/ r' = resolve_by_outcome st0 sp r0)) /\
     (s = [] -> e = [] -> st' = resolve_all st0 sp)).
Proof. exact gc_layouts. Qed.
Print Assumptions C14_no_old_lock_layouts.

(* a pass that STOPS after any number of iterations (an RPC answered with an error, a cancelled context, another worker's
   error) is harmless: every key is still untouched or resolved by its transaction's outcome, no outcome changed; and a
   later complete pass started from what it left behind gives the full guarantee w.r.t. the ORIGINAL store *)
Theorem C14_failed_pass_harmless : forall view st0 sp limit s e n os1 st1 key1 fuel os2 st' tr,
  faithful_view view -> wf_store st0 -> (0 < limit)%nat -> Forall (oracle_ok st0 sp) os1 -> Forall (oracle_ok st0 sp) os2 ->
  gc_steps n sp limit e os1 st0 s = Some (st1, key1) ->
  (forall r1, In r1 st1 -> exists r0, In r0 st0 /\ k_key r0 = k_key r1 /\ (r1 = r0 \/ r1 = resolve_by_outcome st0 sp r0)) /\
  (forall p t, (forall r l, In r st0 -> k_lock r = Some l -> l_start l = t -> is_pess l = false -> l_primary l = p) ->
       committed_at st1 p t = committed_at st0 p t) /\
  (gc_resolve_range_v view fuel sp limit s e os2 st1 = GcOk st' tr ->
     (forall r, In r st' -> in_range s e (k_key r) = true -> old_lock sp r = false) /\
     (s = [] -> e = [] -> st' = resolve_all st0 sp)).
Proof. exact failed_pass_harmless. Qed.
Print Assumptions C14_failed_pass_harmless.

(* termination within a stated fuel: if every region end ever observed lies in a finite set S (or is
   unbounded), then  #{x in S | x > s} + #old locks + #"locks no longer in one region" observations  bounds the
   number of iterations: the loop never runs out of fuel above that (it ends, or the observations end) *)
Theorem C14_gc_terminates : forall sp limit e S fuel os st s,
  (0 < limit)%nat -> sorted st -> Forall (ends_in S) os ->
  (above S s + count_old sp st + rescans os < fuel)%nat ->
  gc_resolve_range fuel sp limit s e os st <> GcOutOfFuel.
Proof. exact gc_terminates. Qed.
Print Assumptions C14_gc_terminates.

(* the whole resolve-locks phase: the handler run on every sub-range, in any order *)
Theorem C14_no_old_lock_pass : forall view st0 sp limit fuel tasks st',
  faithful_view view ->
  wf_store st0 -> (0 < limit)%nat -> Forall (fun t => Forall (oracle_ok st0 sp) (snd t)) tasks ->
  gc_pass_v view fuel sp limit tasks st0 = Some st' ->
  (forall r, In r st' -> covered (map fst tasks) (k_key r) = true -> old_lock sp r = false) /\
  ((forall k, covered (map fst tasks) k = true) -> st' = resolve_all st0 sp).
Proof. exact gc_pass_no_old_lock_v. Qed.
Print Assumptions C14_no_old_lock_pass.

(* ---- outcomes are kept: every key is untouched or resolved by its transaction's outcome, keys of the
   range are resolved, no transaction's outcome changes, a whole-keyspace pass yields exactly resolve_all *)
Theorem C14_outcomes_kept : forall view st0 sp limit s e fuel os st st' tr,
  faithful_view view ->
  wf_store st0 -> (0 < limit)%nat -> InvP st0 sp st -> Forall (oracle_ok st0 sp) os ->
  gc_resolve_range_v view fuel sp limit s e os st = GcOk st' tr ->
  keys st' = keys st0 /\
  (forall r', In r' st' -> exists r0, In r0 st0 /\ k_key r0 = k_key r' /\
       (r' = r0 \/ r' = resolve_by_outcome st0 sp r0) /\
       (in_range s e (k_key r') = true -> r' = resolve_by_outcome st0 sp r0)) /\
  (forall p t, (forall r l, In r st0 -> k_lock r = Some l -> l_start l = t -> is_pess l = false -> l_primary l = p) ->
       committed_at st' p t = committed_at st0 p t) /\
  (s = [] -> e = [] -> st' = resolve_all st0 sp).
Proof. exact gc_outcomes_kept_v. Qed.
Print Assumptions C14_outcomes_kept.

(* ---- async commit: checkAllSecondaries / addKeys.  For EVERY list of per-region answers, i.e. whatever the
   order in which the CheckSecondaryLocks answers arrive: all locked => the max min_commit_ts; some lock missing and
   the answers consistent (one common commit ts V, V = 0 = rolled back, a real V not below any min_commit_ts) => V.
   C14_no_old_lock / C14_outcomes_kept above already cover async-commit transactions: committed_at (the outcome)
   of a transaction whose async-commit primary lock is still in place is Model.async_decide, and wf_store demands
   (W4) that the "missing" answers of its secondaries agree. *)
Theorem C14_async_any_order : forall mc0 answers,
  ((forall x, ~ In (RMissing x) answers) -> check_all_secondaries mc0 answers = Some (max_all mc0 answers)) /\
  (forall V, (exists c, In (RMissing c) answers) -> consistent mc0 answers V -> check_all_secondaries mc0 answers = Some V).
Proof. exact check_all_secondaries_spec. Qed.
Print Assumptions C14_async_any_order.

(* the nonAsyncCommitLock fallback, again for every delivery order: some "all locked" answer holds a lock that is not an
   async-commit lock => fallback (force-sync status check of the primary; in the store model: Model.fallback_now,
   the primary is rolled back and so is the transaction -- C14_no_old_lock / C14_outcomes_kept are proved over
   populations that mix async-commit and plain prewrite locks of one transaction); otherwise as above *)
Theorem C14_async_fallback : forall mc0 answers,
  ((exists mcs, In (RLocked mcs, true) answers) -> check_all_secondaries_f mc0 answers = CasFallback) /\
  ((forall mcs, ~ In (RLocked mcs, true) answers) ->
   check_all_secondaries_f mc0 answers = match check_all_secondaries mc0 (map fst answers) with Some c => CasDecided c | None => CasError end).
Proof. exact check_all_secondaries_f_spec. Qed.
Print Assumptions C14_async_fallback.

(* ---- PrimaryMismatch: with TiKV's primary check (collect_v) the status round of BatchResolveLocks never
   fails on a reachable store whose primaries are well formed, and then equals the unchecked round (collect).
   Without that (ex_mismatch below: a pessimistic lock whose primary pointer names a key holding a SECONDARY
   prewrite lock of the same transaction) collect_v = None: BatchResolveLocks returns the error and the pass fails. *)
Theorem C14_primary_check : forall st0 sp locks st infos,
  wf_store st0 -> primaries_ok st0 -> InvP st0 sp st -> infos_ok st0 sp infos -> from0 st0 sp locks ->
  collect_v st locks infos = Some (collect st locks infos).
Proof. exact collect_v_ok. Qed.
Print Assumptions C14_primary_check.

(* what a pass does, end to end, to a key that held a lock with start <= sp: after a successful pass
   over [s,e) with a faithful scan answer, the key of every such lock in the range is unlocked and its data writes are the
   old ones plus -- iff the lock's transaction is committed (primary's commit record, or the async-commit decision) and the
   lock is a put/delete -- exactly one write (start ts, that commit ts, the lock's value / a delete) *)
Theorem C14_pass_effect : forall view st0 sp limit s e fuel os st' tr r0 l,
  faithful_view view -> wf_store st0 -> (0 < limit)%nat -> Forall (oracle_ok st0 sp) os ->
  gc_resolve_range_v view fuel sp limit s e os st0 = GcOk st' tr ->
  In r0 st0 -> k_lock r0 = Some l -> l_start l <= sp -> in_range s e (k_key r0) = true ->
  exists r', In r' st' /\ k_key r' = k_key r0 /\ k_lock r' = None /\
    match committed_at st0 (l_primary l) (l_start l), l_kind l with
    | Some c, LPut => k_writes r' = mkWrite (l_start l) c (Some (l_val l)) :: k_writes r0
    | Some c, LDel => k_writes r' = mkWrite (l_start l) c None :: k_writes r0
    | _, _ => k_writes r' = k_writes r0
    end.
Proof. exact pass_effect. Qed.
Print Assumptions C14_pass_effect.

(* snapshot reads (any ts, in particular ts >= sp) of keys without an old lock are unchanged by the pass *)
Theorem C14_reads_kept : forall st0 sp k ts,
  (forall r, find_key st0 k = Some r -> old_lock sp r = false) ->
  read_at (resolve_all st0 sp) k ts = read_at st0 k ts.
Proof. exact read_at_unchanged. Qed.
Print Assumptions C14_reads_kept.

(* ... and so after ANY resolve-locks pass (any sub-ranges, any order, any interference): a snapshot read, at any ts
   and in particular at or above the safe point, of a key that held no lock with start <= sp returns what it
   returned before; keys that held such a lock read as their transaction decided (C14_outcomes_kept + C14_pass_effect) *)
Theorem C14_reads_kept_pass : forall st0 sp limit fuel tasks st' k ts,
  wf_store st0 -> (0 < limit)%nat -> Forall (fun t => Forall (oracle_ok st0 sp) (snd t)) tasks ->
  gc_pass fuel sp limit tasks st0 = Some st' ->
  (forall r, find_key st0 k = Some r -> old_lock sp r = false) -> read_at st' k ts = read_at st0 k ts.
Proof. exact gc_pass_reads_kept. Qed.
Print Assumptions C14_reads_kept_pass.

(* ---- KVStore.GC(expected) when PD grants a lower txn safe point (GC barrier): locks are resolved up to the CLAMPED
   safe point min(expected, granted), which is also what is reported: nothing holding only locks above it is touched *)
Theorem C14_gc_clamped : forall st0 expected granted limit fuel tasks st' sp',
  wf_store st0 -> (0 < limit)%nat ->
  Forall (fun t => Forall (oracle_ok st0 (gc_safe_point expected granted)) (snd t)) tasks ->
  gc_full fuel expected granted limit tasks st0 = Some (st', sp') ->
  sp' = N.min expected granted /\
  (forall r0, In r0 st0 -> old_lock sp' r0 = false -> In r0 st') /\
  (forall r, In r st' -> covered (map fst tasks) (k_key r) = true -> old_lock sp' r = false) /\
  ((forall k, covered (map fst tasks) k = true) -> st' = resolve_all st0 sp').
Proof. exact gc_full_clamped. Qed.
Print Assumptions C14_gc_clamped.

(* ---- delete range: whatever the layouts, exactly the keys of [s,e) are removed (nothing for notify-only),
   and the requests sent tile the range *)
Theorem C14_delete_range_exact : forall batch_end region_end fuel notify s e st st' pieces,
  (forall i k, batch_end i k = [] \/ lex_lt k (batch_end i k)) ->
  (forall i k, region_end i k = [] \/ lex_lt k (region_end i k)) ->
  delete_range_task batch_end region_end fuel notify s e st = Some (st', pieces) ->
  st' = (if notify then st else filter (fun r => negb (in_range s e (k_key r))) st) /\
  (forall k, covered pieces k = in_range s e k).
Proof. exact delete_range_task_exact. Qed.
Print Assumptions C14_delete_range_exact.

(* ... and every DeleteRange request is clipped to the region it is sent to: it ends at that region's end, or earlier
   (at the task range end, which the region end reaches or passes). The sub-ranges of RunOnRange are clipped to their
   batches of regions in the same way: ProofsPart.run_on_range_spec, not part of this statement *)
Theorem C14_delete_range_clipped : forall batch_end region_end fuel notify s e st st' pieces,
  delete_range_task batch_end region_end fuel notify s e st = Some (st', pieces) ->
  forall p, In p pieces -> exists j, snd p = region_end j (fst p) \/ end_reached (snd p) (region_end j (fst p)) = true.
Proof. exact delete_range_task_clipped. Qed.
Print Assumptions C14_delete_range_clipped.

(* ---- the visibility check of a snapshot read, over ANY schedule of safe-point updates interleaved with the sends and the post-response checks of one
   read (Get: one check after its response; BatchGet: one check after the last response; Scan / reverse Scan: one
   check after every batch): a response that arrives while the cached safe point is above the read ts refuses the
   read -- exactly at the first such response, the earlier batches having been served -- and otherwise all is served *)
Theorem C14_visibility_schedule : forall ts cached,
  (forall evs pre post, evs = pre ++ VCheck :: post -> ts < cached_after cached pre -> fst (run_read cached ts evs) = VisAbortedByGC) /\
  (forall pre post, ts < cached_after cached pre ->
     (forall pre1 post1, pre = pre1 ++ VCheck :: post1 -> cached_after cached pre1 <= ts) ->
     run_read cached ts (pre ++ VCheck :: post) = (VisAbortedByGC, count_checks pre)) /\
  (forall evs, (forall pre post, evs = pre ++ VCheck :: post -> cached_after cached pre <= ts) ->
     run_read cached ts evs = (VisOk, count_checks evs)).
Proof. exact visibility_schedule. Qed.
Print Assumptions C14_visibility_schedule.

(* ---- non-vacuity *)
Example ex_vis_single :   (* the one-check case: below the cached safe point refused, at it served *)
  run_read 11 10 [VSend; VCheck] = (VisAbortedByGC, 0%nat) /\ run_read 10 10 [VSend; VCheck] = (VisOk, 1%nat).
Proof. vm_compute. auto. Qed.
Example ex_vis_schedule :   (* safe point learned while the 2nd scan batch is in flight: batch 1 served, batch 2 refused *)
  run_read 5 10 [VSend; VCheck; VSend; VUpdate 11; VCheck; VSend; VCheck] = (VisAbortedByGC, 1%nat) /\
  run_read 5 10 [VUpdate 11; VSend; VUpdate 10; VCheck] = (VisOk, 1%nat).
Proof. vm_compute. auto. Qed.
Example ex_wf : wf_store ex_store.
Proof. apply wf_storeb_wf. vm_compute. reflexivity. Qed.
Example ex_oracles_ok : Forall (oracle_ok ex_store 50) ex_os.
Proof.
  unfold ex_os. repeat (constructor; [split; [constructor|constructor; [apply env_okb_ok; vm_compute; reflexivity|constructor]]|]).
  constructor.
Qed.
Example ex_gc : exists tr, gc_resolve_range 20 50 1 [] [] ex_os ex_store = GcOk (resolve_all ex_store 50) tr.
Proof. eexists. vm_compute. reflexivity. Qed.
(* layouts instead of regions: the region [.., 4) is split at 2 between the scan and the resolve of the first iteration (the
   first batch {1,2} no longer fits one region => rescan), later layouts {2,4} *)
Example ex_layouts : exists tr os,
  gc_resolve_range_l 20 50 2 [] [] (mkLay [ex_k 4] [[ex_k 2; ex_k 4]] :: repeat (mkLay [ex_k 2; ex_k 4] []) 8) ex_store
  = (GcOk (resolve_all ex_store 50) tr, os) /\ option_map o_res (hd_error os) = Some None.
Proof. eexists. eexists. vm_compute. split; reflexivity. Qed.
Example ex_failed_pass :   (* stop after 2 iterations, then a complete retry: same result as one complete pass *)
  exists st1 k1 tr, gc_steps 2 50 1 [] ex_os ex_store [] = Some (st1, k1) /\ st1 <> ex_store /\ st1 <> resolve_all ex_store 50 /\
    gc_resolve_range 20 50 1 [] [] (repeat (mkOracle ([], []) [] [] (Some ([], []))) 10) st1 = GcOk (resolve_all ex_store 50) tr.
Proof.
  eexists. eexists. eexists. split; [vm_compute; reflexivity|]. split; [vm_compute; discriminate|]. split; [vm_compute; discriminate|].
  vm_compute. reflexivity.
Qed.
Example ex_gc_fuel : (above [ex_k 4; ex_k 6] [] + count_old 50 ex_store + rescans ex_os < 20)%nat /\ Forall (ends_in [ex_k 4; ex_k 6]) ex_os.
Proof.
  split; [vm_compute; lia|]. unfold ex_os, ends_in. repeat (constructor; [cbn; tauto|]). constructor.
Qed.
Example ex_gc_result :
  resolve_all ex_store 50 =
  [ mkRec (ex_k 1) None []; mkRec (ex_k 2) None [mkWrite 3 4 (Some [1])]; mkRec (ex_k 3) None [mkWrite 20 25 (Some [2])];
    mkRec (ex_k 4) None [mkWrite 20 25 (Some [9])]; mkRec (ex_k 5) None []; mkRec (ex_k 6) (Some (mkLock 90 (ex_k 6) LPut [5])) [] ].
Proof. vm_compute. reflexivity. Qed.
(* async commit: primary k1 + secondaries k2,k3 all locked => committed at the max min_commit_ts (14);
   primary k4 + secondaries k5 (locked), k6 (never prewritten) => rolled back *)
Example ex_async_wf : wf_store ex_async.
Proof. apply wf_storeb_wf. vm_compute. reflexivity. Qed.
Example ex_async_gc : exists tr,
  gc_resolve_range 20 50 2 [] [] (map (fun loc => mkOracle loc [] [] (Some loc)) [([], ex_k 3); ([], ex_k 3); (ex_k 3, []); (ex_k 3, []); (ex_k 3, [])]) ex_async
  = GcOk [ mkRec (ex_k 1) None [mkWrite 10 14 (Some [1])]; mkRec (ex_k 2) None [mkWrite 10 14 (Some [2])]; mkRec (ex_k 3) None [mkWrite 10 14 None];
           mkRec (ex_k 4) None []; mkRec (ex_k 5) None []; mkRec (ex_k 6) None [] ] tr.
Proof. eexists. vm_compute. reflexivity. Qed.
(* mixed population after the owner's fallback to 2PC: async primary k1, async secondary k2, PLAIN prewrite lock on k3:
   all still locked => nonAsyncCommitLock fallback => everything rolled back (the primary by the forced status check) *)
Example ex_mixed_wf : wf_store ex_mixed.
Proof. apply wf_storeb_wf. vm_compute. reflexivity. Qed.
Example ex_mixed_gc : exists tr,
  gc_resolve_range 20 50 1 [] [] (map (fun loc => mkOracle loc [] [] (Some loc)) [([], ex_k 2); ([], ex_k 2); (ex_k 2, []); (ex_k 2, []); (ex_k 2, [])]) ex_mixed
  = GcOk [ mkRec (ex_k 1) None []; mkRec (ex_k 2) None []; mkRec (ex_k 3) None [] ] tr
  /\ fst (status_check ex_mixed (ex_k 1) 10) = mkRec (ex_k 1) None [] :: tl ex_mixed.
Proof. eexists. vm_compute. split; reflexivity. Qed.
Example ex_async_orders :   (* the three delivery orders of "region A all locked (22, 25), region B missing: rolled back" *)
  check_all_secondaries 21 [RLocked [22; 25]; RMissing 0] = Some 0 /\ check_all_secondaries 21 [RMissing 0; RLocked [22; 25]] = Some 0 /\
  check_all_secondaries 21 [RLocked [22]; RLocked [25]] = Some 25.
Proof. vm_compute. auto. Qed.
(* stale pessimistic primary pointer onto a secondary prewrite lock of the same (committed) transaction *)
Example ex_mismatch_fails : collect_v ex_mismatch [mkRec (ex_k 1) (Some (mkLock 10 (ex_k 2) LPess [])) []] [] = None /\ primaries_okb ex_mismatch = false.
Proof. vm_compute. auto. Qed.
Example ex_mismatch_unchecked :   (* without the check (mocktikv) the committed transaction's secondary on k2 is rolled back *)
  fst (collect ex_mismatch [mkRec (ex_k 1) (Some (mkLock 10 (ex_k 2) LPess [])) []] [])
  = [ mkRec (ex_k 1) None []; mkRec (ex_k 2) None []; mkRec (ex_k 3) None [mkWrite 10 15 (Some [3])] ].
Proof. vm_compute. reflexivity. Qed.
(* Model.markers is NOT the subject of a theorem (rollback records are C12's): it only predicts, for the check, which keys must
   carry a rollback record after a pass *)
Example ex_markers : markers ex_store 50 = [(ex_k 1, 10); (ex_k 2, 10)] /\ late_prewrite_accepted (markers ex_store 50) (ex_k 2) 10 = false
  /\ late_prewrite_accepted (markers ex_store 50) (ex_k 4) 20 = true.
Proof. vm_compute. auto. Qed.
Example ex_gc_clamped :   (* expected 95 would also resolve the lock of start 90; PD grants 50 *)
  option_map snd (gc_full 20 95 50 1 [(([], []), ex_os)] ex_store) = Some 50 /\
  option_map fst (gc_full 20 95 50 1 [(([], []), ex_os)] ex_store) = Some (resolve_all ex_store 50).
Proof. vm_compute. auto. Qed.
(* tidb#42937: a leftover pessimistic lock (k1) whose primary FIELD is stale (k9: no such key) next to a secondary
   prewrite lock (k2) of the same transaction, whose real primary (k3) is committed.  wf_store holds (W3 only forbids a
   pointer onto a key holding a prewrite lock of that transaction); the pass commits k2 with the primary's commit ts.
   The scan answer of the model is TYPED (the scanned record carries l_kind): if ScanLock does not report the lock type
   (ex_untyped: the pessimistic lock looks like a prewrite lock), the stale primary's "rolled back" status goes into
   txnInfos and the committed transaction's secondary is rolled back -- mocktikv's ScanLock before fix F41. *)
Example ex_stale_wf : wf_store ex_stale.
Proof. apply wf_storeb_wf. vm_compute. reflexivity. Qed.
Example ex_stale_gc : exists tr,
  gc_resolve_range 20 50 4 [] [] [mkOracle ([], []) [] [] (Some ([], []))] ex_stale
  = GcOk [ mkRec (ex_k 1) None []; mkRec (ex_k 2) None [mkWrite 10 15 (Some [2])]; mkRec (ex_k 3) None [mkWrite 10 15 (Some [3])] ] tr.
Proof. eexists. vm_compute. reflexivity. Qed.
Example ex_untyped_scan_breaks_outcome :
  batch_resolve ex_stale [] [] (map ex_untyped (scan ex_stale [] [] 50 4))
  = [ mkRec (ex_k 1) None []; mkRec (ex_k 2) None []; mkRec (ex_k 3) None [mkWrite 10 15 (Some [3])] ]
  /\ batch_resolve ex_stale [] [] (map ex_untyped (scan ex_stale [] [] 50 4)) <> resolve_all ex_stale 50.
Proof. vm_compute. split; [reflexivity|discriminate]. Qed.
Example ex_partition :
  run_on_range (batch_end_of [[ex_k 3; ex_k 5]; [ex_k 3; ex_k 4; ex_k 5]] 1) 10 (ex_k 2) [] =
  Some [(ex_k 2, ex_k 3); (ex_k 3, ex_k 4); (ex_k 4, ex_k 5); (ex_k 5, [])].
Proof. vm_compute. reflexivity. Qed.
Example ex_delete :
  option_map fst (delete_range_task (batch_end_of [[ex_k 3; ex_k 5]] 2) (batch_end_of [[ex_k 3; ex_k 5]] 1) 10 false (ex_k 2) (ex_k 5) ex_store)
  = Some [ mkRec (ex_k 1) (Some (mkLock 10 (ex_k 1) LPut [7])) []; mkRec (ex_k 5) (Some (mkLock 30 (ex_k 5) LPess [])) [];
           mkRec (ex_k 6) (Some (mkLock 90 (ex_k 6) LPut [5])) [] ].
Proof. vm_compute. reflexivity. Qed.
