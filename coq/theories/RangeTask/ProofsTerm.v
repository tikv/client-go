(* RangeTask/ProofsTerm.v — ResolveLocksForRange terminates within a stated fuel: every iteration either
   moves the cursor to a new region end (finitely many), or clears at least one old lock (limit hit),
   or consumes one "locks no longer in one region" observation *)
From Verif Require Import Base.Lex RangeTask.Model RangeTask.ProofsOrd RangeTask.ProofsStore RangeTask.ProofsInv RangeTask.ProofsGc.
Open Scope N_scope.

Definition count_old (sp : N) (st : store) : nat := length (filter (old_lock sp) st).
Definition above (S : list (list N)) (key : list N) : nat := length (filter (fun x => lex_ltb key x) S).
Definition is_rescan (o : iter_oracle) : bool := match o_res o with None => true | Some _ => false end.
Definition rescans (os : list iter_oracle) : nat := length (filter is_rescan os).

(* two lists related position by position: the right one has no more marked elements than the left one if an unmarked element
   on the left has only unmarked partners; strictly fewer if moreover some marked element on the left has only unmarked partners *)
Lemma count_mono {A} (R : A -> A -> Prop) (P Q : A -> bool) l l' : Forall2 R l l' ->
  (forall x y, R x y -> Q x = false -> P y = false) ->
  (length (filter P l') <= length (filter Q l))%nat /\
  ((exists x, In x l /\ Q x = true /\ forall y, In y l' -> R x y -> P y = false) -> (length (filter P l') < length (filter Q l))%nat).
Proof.
  intros HF Hm. induction HF as [|x y l l' Hxy _ [IHle IHlt]]; [split; [apply Nat.le_refl|intros (x & [] & _)]|].
  cbn [filter]. assert (Hc : Q x = false -> P y = false) by (apply Hm; exact Hxy). split.
  - destruct (Q x); [destruct (P y); cbn [length]; lia|rewrite (Hc eq_refl); exact IHle].
  - intros (z & [<-|Hz] & Hq & Hp).
    + rewrite Hq, (Hp y (or_introl eq_refl) Hxy). cbn [length]. lia.
    + assert (IH' := IHlt (ex_intro _ z (conj Hz (conj Hq (fun w Hw => Hp w (or_intror Hw)))))).
      destruct (Q x); [destruct (P y); cbn [length]; lia|rewrite (Hc eq_refl); exact IH'].
Qed.
Lemma Forall2_same {A} (l : list A) : Forall2 eq l l.
Proof. induction l; constructor; [reflexivity|assumption]. Qed.

Lemma above_mono S key key' : lex_le key key' -> (above S key' <= above S key)%nat.
Proof.
  intros H. apply (count_mono eq _ _ S S (Forall2_same S)). intros x y <- Hx.
  apply lex_ltb_false in Hx. apply lex_ltb_false. eapply lex_le_trans; eassumption.
Qed.
Lemma above_strict S key re : lex_lt key re -> In re S -> (above S re < above S key)%nat.
Proof.
  intros H Hin. apply (count_mono eq _ _ S S (Forall2_same S)).
  - intros x y <- Hx. apply lex_ltb_false in Hx. apply lex_ltb_false. eapply lex_le_trans; [exact Hx|apply lex_lt_le; exact H].
  - exists re. split; [exact Hin|]. split; [apply lex_ltb_lt; exact H|]. intros y _ <-. apply lex_ltb_false, lex_le_refl.
Qed.

Lemma count_le sp st st' : Forall2 lmono st st' -> (count_old sp st' <= count_old sp st)%nat.
Proof. intros H. apply (count_mono lmono _ _ _ _ H). intros x y. apply lmono_old. Qed.
(* ... strictly, when some record lost its old lock *)
Lemma count_lt sp st st' r : Forall2 lmono st st' -> In r st -> old_lock sp r = true -> unlocked st' (k_key r) ->
  (count_old sp st' < count_old sp st)%nat.
Proof.
  intros H Hr Ho Hu. apply (count_mono lmono _ _ _ _ H); [intros x y; apply lmono_old|].
  exists r. split; [exact Hr|]. split; [exact Ho|]. intros y Hy [Hk _]. unfold old_lock. rewrite (Hu y Hy Hk). reflexivity.
Qed.

Lemma rescans_cons o os : rescans (o :: os) = ((if is_rescan o then 1 else 0) + rescans os)%nat.
Proof. unfold rescans. cbn [filter]. destruct (is_rescan o); reflexivity. Qed.

Section Term.
  Variables (sp : N) (limit : nat) (e : list N) (S : list (list N)).

  Definition ends_in (o : iter_oracle) : Prop := snd (o_loc o) = [] \/ In (snd (o_loc o)) S.

  (* one iteration lowers  above S key + count_old sp st  -- unless it is a rescan, which leaves it where it was *)
  Definition step_progress (o : iter_oracle) (st : store) (key : list N) (res : step_result) : Prop :=
    match res with
    | StepNext st' key' =>
        sorted st' /\ (above S key' + count_old sp st' < above S key + count_old sp st + (if is_rescan o then 1 else 0))%nat
    | _ => True
    end.
  Lemma gc_step_progress o st key : (0 < limit)%nat -> sorted st -> ends_in o ->
    step_progress o st key (gc_step sp limit e o st key).
  Proof.
    intros Hlimit Hs Hend. pose proof (gc_step_cases sp limit e o st key Hs) as G. cbv zeta in G. unfold ends_in in Hend.
    set (re := snd (o_loc o)) in *. set (st1 := apply_envs st (o_env1 o)) in *. set (locks := scan st1 key (req_end_of e re) sp limit) in *.
    assert (Hm1 : shrinks st st1) by apply apply_envs_shrinks. pose proof (shrinks_sorted _ _ Hm1 Hs) as Hs1.
    destruct G as [->|[[Eres ->]|(st3 & -> & Hkre & _ & Hm13 & Hun)]]; [exact I| |].
    - pose proof (shrinks_trans _ _ _ Hm1 (shrinks_trans _ _ _ (apply_envs_shrinks (o_env2 o) st1) (collect_shrinks locks _ []))) as Hm3.
      split; [exact (shrinks_sorted _ _ Hm3 Hs)|]. pose proof (count_le sp _ _ (shrinks_pointwise _ _ Hs Hm3)). unfold is_rescan. rewrite Eres. lia.
    - pose proof (shrinks_trans _ _ _ Hm1 Hm13) as Hm3. pose proof (shrinks_sorted _ _ Hm3 Hs) as Hs3.
      unfold advance. destruct (length locks <? limit)%nat eqn:El.
      + (* the cursor moves to the region end, a member of S above key *)
        change (is_nil re || negb (is_nil e) && lex_leb e re) with (end_reached e re). destruct (end_reached e re) eqn:Er; [exact I|].
        apply end_reached_false in Er as [Hn _]. split; [exact Hs3|].
        destruct Hend as [Hend|Hend]; [contradiction|]. destruct Hkre as [Hc|Hc]; [contradiction|].
        pose proof (above_strict S key re Hc Hend). pose proof (count_le sp _ _ (shrinks_pointwise _ _ Hs Hm3)).
        destruct (is_rescan o); lia.
      + (* limit hit: the cursor does not move back, and the last scanned lock is gone *)
        apply Nat.ltb_ge in El. assert (Hne : locks <> []) by (intros Hn; rewrite Hn in El; cbn in El; lia).
        pose proof (last_in locks (mkRec [] None []) Hne) as Hlast. fold (last_key locks) in *.
        destruct (_ || _); [exact I|]. split; [exact Hs3|].
        destruct (scan_in _ Hlast) as (HinL & HrL & HoL). apply in_range_iff in HrL as [HL1 _].
        pose proof (above_mono S key (last_key locks) HL1). pose proof (count_le sp _ _ (shrinks_pointwise _ _ Hs Hm1)).
        pose proof (count_lt sp _ _ _ (shrinks_pointwise _ _ Hs1 Hm13) HinL HoL (Hun _ Hlast)).
        destruct (is_rescan o); lia.
  Qed.

  Theorem gc_terminates fuel os st s : (0 < limit)%nat -> sorted st -> Forall ends_in os ->
    (above S s + count_old sp st + rescans os < fuel)%nat -> gc_resolve_range fuel sp limit s e os st <> GcOutOfFuel.
  Proof.
    intros Hlimit. unfold gc_resolve_range. revert os st s. induction fuel as [|f IH]; intros os st key Hs Hends Hm; [lia|]. cbn [gc_loop].
    destruct os as [|o os']; [discriminate|]. inversion Hends as [|? ? Ho Hos']; subst.
    pose proof (gc_step_progress o st key Hlimit Hs Ho) as G. rewrite rescans_cons in Hm.
    destruct (gc_step sp limit e o st key) as [st1|st1 key1|]; [discriminate| |discriminate].
    destruct G as [Hs1 G]. specialize (IH os' st1 key1 Hs1 Hos' ltac:(lia)).
    destruct (gc_loop f sp limit e os' st1 key1); [discriminate|exact IH|discriminate].
  Qed.
End Term.
