(* RangeTask/ProofsView.v — with a faithful ScanLock answer the client behaves exactly as if it saw the records *)
From Verif Require Import Base.Lex RangeTask.Model RangeTask.ModelView.
Open Scope N_scope.

Lemma typed_view_faithful : faithful_view typed_view.
Proof.
  intros r. unfold typed_view, view_rec. cbn [k_key k_lock]. split; [reflexivity|].
  destruct (k_lock r) as [l|]; [|reflexivity]. eexists. split; [reflexivity|]. unfold view_lock, is_pess. cbn.
  repeat split. destruct (l_kind l); reflexivity.
Qed.
Lemma id_view_faithful : faithful_view (fun r => r).
Proof. intros r. split; [reflexivity|]. destruct (k_lock r) as [l|]; [exists l; auto|reflexivity]. Qed.
(* the untyped answer is not faithful: it hides that a lock is pessimistic *)
Lemma untyped_view_not_faithful : ~ faithful_view untyped_view.
Proof.
  intros H. destruct (H (mkRec [1] (Some (mkLock 1 [1] LPess [])) [])) as [_ (l' & Hl & _ & _ & Hp)].
  cbn in Hl. injection Hl as <-. cbn in Hp. discriminate.
Qed.

Section Faithful.
  Variable view : krec -> krec.
  Hypothesis Hf : faithful_view view.

  Lemma view_key r : k_key (view r) = k_key r.
  Proof. apply Hf. Qed.
  Lemma map_view_keys l : map k_key (map view l) = map k_key l.
  Proof. rewrite map_map. apply map_ext. exact view_key. Qed.
  Lemma first_key_view l : first_key (map view l) = first_key l.
  Proof. destruct l; [reflexivity|]. cbn. apply view_key. Qed.
  Lemma last_view (l : list krec) d : l <> [] -> last (map view l) d = view (last l d).
  Proof.
    induction l as [|h t IH]; intros H; [contradiction|]. destruct t as [|h2 t2]; [reflexivity|].
    (* [last] of a list with two or more elements skips the first *)
    change (last (map view (h2 :: t2)) d = view (last (h2 :: t2) d)). apply IH. discriminate.
  Qed.
  Lemma last_key_view l : last_key (map view l) = last_key l.
  Proof.
    unfold last_key. destruct l as [|h t]; [reflexivity|]. rewrite last_view by discriminate. apply view_key.
  Qed.

  Lemma collect_view locks : forall st infos, collect st (map view locks) infos = collect st locks infos.
  Proof.
    induction locks as [|r rest IH]; intros st infos; [reflexivity|]. cbn [map collect].
    destruct (Hf r) as [Hk Hl]. destruct (k_lock r) as [l|] eqn:El.
    - destruct Hl as (l' & Hl' & Hs & Hp & Hpe). rewrite Hl', Hs, Hp, Hpe, Hk.
      destruct (assoc (l_start l) infos); [apply IH|].
      destruct (status_check st (l_primary l) (l_start l)) as [st1 oc].
      destruct (is_pess l); apply IH.
    - rewrite Hl. apply IH.
  Qed.
  Lemma batch_resolve_view st rs re locks : batch_resolve st rs re (map view locks) = batch_resolve st rs re locks.
  Proof. unfold batch_resolve. destruct locks as [|r rest]; [reflexivity|]. cbn [map]. rewrite <- (collect_view (r :: rest)). reflexivity. Qed.
  Lemma advance_view limit e re locks st : advance limit e re (map view locks) st = advance limit e re locks st.
  Proof. unfold advance. rewrite map_length, last_key_view. reflexivity. Qed.

  Lemma gc_step_v_eq sp limit e o st key : gc_step_v view sp limit e o st key = gc_step sp limit e o st key.
  Proof.
    unfold gc_step_v, gc_step. destruct (o_loc o) as [rs re]. destruct (negb (in_range rs re key)); [reflexivity|].
    destruct (o_res o) as [[rs' re']|]; rewrite ?first_key_view, ?last_key_view, ?batch_resolve_view, ?collect_view, !advance_view;
      destruct (scan _ key _ sp limit); reflexivity.
  Qed.
  Lemma gc_loop_v_eq fuel : forall sp limit e os st key, gc_loop_v view fuel sp limit e os st key = gc_loop fuel sp limit e os st key.
  Proof.
    induction fuel as [|f IH]; intros sp limit e os st key; [reflexivity|]. cbn [gc_loop_v gc_loop].
    destruct os as [|o os']; [reflexivity|]. rewrite gc_step_v_eq, map_view_keys.
    destruct (gc_step sp limit e o st key); [reflexivity| |reflexivity]. rewrite IH. reflexivity.
  Qed.
  Lemma gc_resolve_range_v_eq fuel sp limit s e os st : gc_resolve_range_v view fuel sp limit s e os st = gc_resolve_range fuel sp limit s e os st.
  Proof. apply gc_loop_v_eq. Qed.
  Lemma gc_pass_v_eq fuel sp limit tasks : forall st, gc_pass_v view fuel sp limit tasks st = gc_pass fuel sp limit tasks st.
  Proof.
    induction tasks as [|[sub os] rest IH]; intros st; [reflexivity|]. cbn [gc_pass_v gc_pass]. rewrite gc_resolve_range_v_eq.
    destruct (gc_resolve_range fuel sp limit (fst sub) (snd sub) os st); [apply IH|reflexivity|reflexivity].
  Qed.
End Faithful.
