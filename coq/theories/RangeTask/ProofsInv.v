(* RangeTask/ProofsInv.v — every reachable store is the initial one with some old locks resolved by their
   transaction's outcome (rely/guarantee invariant of a GC pass), and outcomes never change *)
From Verif Require Import Base.Lex RangeTask.Model RangeTask.ProofsOrd RangeTask.ProofsStore.
Open Scope N_scope.

Record wf_store (st : store) : Prop := mkWf {
  wf_sorted : sorted st;
  wf_nonnil : forall r, In r st -> k_key r <> [];
  (* W1 a key never holds both a lock and a data write of the same start ts *)
  wf_w1 : forall r l, In r st -> k_lock r = Some l -> committed_in (k_writes r) (l_start l) = None;
  (* W2 the non-pessimistic locks of one start ts name the same primary *)
  wf_w2 : forall r1 r2 l1 l2, In r1 st -> In r2 st -> k_lock r1 = Some l1 -> k_lock r2 = Some l2 ->
      l_start l1 = l_start l2 -> is_pess l1 = false -> is_pess l2 = false -> l_primary l1 = l_primary l2;
  (* W3 the key named as primary by a pessimistic lock holds no secondary prewrite lock of that start ts *)
  wf_w3 : forall r1 r2 l1 l2, In r1 st -> In r2 st -> k_lock r1 = Some l1 -> k_lock r2 = Some l2 ->
      l_start l1 = l_start l2 -> is_pess l1 = true -> is_pess l2 = false -> k_key r2 = l_primary l1 -> l_primary l2 = k_key r2;
  (* W4 the "lock missing" answers of the secondaries of an async-commit primary lock agree *)
  wf_w4 : forall r l k1 k2 c1 c2, In r st -> k_lock r = Some l -> l_async l = true -> In k1 (l_secs l) -> In k2 (l_secs l) ->
      sec_answer_of st (l_start l) k1 = SMissing c1 -> sec_answer_of st (l_start l) k2 = SMissing c2 -> c1 = c2;
  (* W5 an async-commit lock is a prewrite lock *)
  wf_w5 : forall r l, In r st -> k_lock r = Some l -> l_async l = true -> is_pess l = false
}.

Lemma sorted_keys_sorted st : sorted_keys st = true -> sorted st.
Proof.
  induction st as [|r t IH]; intros H; [constructor|]. apply sorted_cons.
  destruct t as [|r2 t2]; [split; [constructor|intros x []]|].
  cbn [sorted_keys] in H. apply Bool.andb_true_iff in H as [H1 H2]. apply lex_ltb_lt in H1. specialize (IH H2).
  split; [exact IH|]. apply sorted_cons in IH as [_ IH2]. intros x [<-|Hx]; [exact H1|eapply lex_lt_trans; [exact H1|apply IH2, Hx]].
Qed.
Lemma committed_in_none ws t : existsb (fun w => w_start w =? t) ws = false -> committed_in ws t = None.
Proof.
  unfold committed_in. induction ws as [|w ws IH]; [reflexivity|]. cbn [existsb find]. intros H. apply Bool.orb_false_iff in H as [H1 H2].
  rewrite H1. apply IH; exact H2.
Qed.
Lemma opt_eqb_eq a b : opt_eqb a b = true -> a = b.
Proof. destruct a, b; cbn; try discriminate; [intros H; apply N.eqb_eq in H; congruence|reflexivity]. Qed.
Lemma wf_storeb_wf st : wf_storeb st = true -> wf_store st.
Proof.
  unfold wf_storeb. rewrite !Bool.andb_true_iff, !forallb_forall. intros [[[H1 H2] H3] H4].
  assert (P : forall r1 r2 l1 l2, In r1 st -> In r2 st -> k_lock r1 = Some l1 -> k_lock r2 = Some l2 -> l_start l1 = l_start l2 ->
    is_pess l2 = false -> (if is_pess l1 then negb (bytes_eqb (k_key r2) (l_primary l1)) || bytes_eqb (l_primary l2) (k_key r2)
                           else bytes_eqb (l_primary l1) (l_primary l2)) = true).
  { intros r1 r2 l1 l2 Hin1 Hin2 Hl1 Hl2 Ht Hp2. specialize (H3 r1 Hin1). rewrite forallb_forall in H3. specialize (H3 r2 Hin2).
    unfold w23_pair in H3. apply N.eqb_eq in Ht. rewrite Hl1, Hl2, Ht, Hp2 in H3. exact H3. }
  constructor.
  - apply sorted_keys_sorted; exact H1.
  - intros r Hin. specialize (H2 r Hin). apply Bool.andb_true_iff in H2 as [H2 _]. apply Bool.negb_true_iff, is_nil_false in H2. exact H2.
  - intros r l Hin Hl. specialize (H2 r Hin). apply Bool.andb_true_iff in H2 as [_ H2]. unfold w1_rec in H2. rewrite Hl in H2.
    apply committed_in_none. apply Bool.negb_true_iff; exact H2.
  - intros r1 r2 l1 l2 Hin1 Hin2 Hl1 Hl2 Ht Hp1 Hp2. pose proof (P r1 r2 l1 l2 Hin1 Hin2 Hl1 Hl2 Ht Hp2) as G.
    rewrite Hp1 in G. apply bytes_eqb_eq; exact G.
  - intros r1 r2 l1 l2 Hin1 Hin2 Hl1 Hl2 Ht Hp1 Hp2 Hk. pose proof (P r1 r2 l1 l2 Hin1 Hin2 Hl1 Hl2 Ht Hp2) as G.
    rewrite Hp1 in G. apply Bool.orb_true_iff in G as [G|G]; [|apply bytes_eqb_eq; exact G].
    apply Bool.negb_true_iff, bytes_eqb_false in G. contradiction.
  - intros r l k1 k2 c1 c2 Hin Hl Ha Hk1 Hk2 A1 A2. specialize (H4 r Hin). unfold w4_rec in H4. rewrite Hl, Ha in H4.
    apply Bool.andb_true_iff in H4 as [_ H4]. rewrite forallb_forall in H4.
    assert (I1 : In (SMissing c1) (map (sec_answer_of st (l_start l)) (l_secs l))) by (rewrite <- A1; apply in_map; exact Hk1).
    assert (I2 : In (SMissing c2) (map (sec_answer_of st (l_start l)) (l_secs l))) by (rewrite <- A2; apply in_map; exact Hk2).
    specialize (H4 _ I1). rewrite forallb_forall in H4. specialize (H4 _ I2). apply opt_eqb_eq; exact H4.
  - intros r l Hin Hl Ha. specialize (H4 r Hin). unfold w4_rec in H4. rewrite Hl, Ha in H4.
    apply Bool.andb_true_iff in H4 as [H4 _]. apply Bool.negb_true_iff; exact H4.
Qed.

Lemma decide_missing V answers : forall acc, (exists c, In (SMissing c) answers) -> (forall c, In (SMissing c) answers -> c = V) -> decide acc answers = V.
Proof.
  induction answers as [|a rest IH]; intros acc [c Hc] Hall; [destruct Hc|].
  destruct a as [mc ia|c']; cbn [decide].
  - apply IH; [destruct Hc as [Hc|Hc]; [discriminate|exists c; exact Hc]|intros x Hx; apply Hall; right; exact Hx].
  - apply Hall; left; reflexivity.
Qed.
Lemma missing_no_fallback c l : In (SMissing c) l -> fallback_now l = false.
Proof.
  intros H. unfold fallback_now. replace (existsb is_missing l) with true; [reflexivity|].
  symmetry. apply existsb_exists. exists (SMissing c). split; [exact H|reflexivity].
Qed.
Definition async_value (acc : N) (answers : list sec_answer) : option N := if fallback_now answers then None else decide acc answers.
Lemma value_missing V answers acc : (exists c, In (SMissing c) answers) -> (forall c, In (SMissing c) answers -> c = V) -> async_value acc answers = V.
Proof. intros [c Hc] H. unfold async_value. rewrite (missing_no_fallback _ _ Hc). apply decide_missing; [exists c; exact Hc|exact H]. Qed.

(* answers may only change from "locked" to "missing, decided as V" *)
Definition ans_rel (V : option N) (a0 a : sec_answer) : Prop := a = a0 \/ exists mc ia, a0 = SLocked mc ia /\ a = SMissing V.
(* ... which does not change a decision that any "lock missing" answer settles, once the missing answers agree *)
Lemma settled_stable (F : list sec_answer -> option N) :
  (forall V ans, (exists c, In (SMissing c) ans) -> (forall c, In (SMissing c) ans -> c = V) -> F ans = V) ->
  forall V ans0 ans, Forall2 (ans_rel V) ans0 ans -> F ans0 = V ->
  (forall c1 c2, In (SMissing c1) ans0 -> In (SMissing c2) ans0 -> c1 = c2) -> F ans = V.
Proof.
  intros HF V ans0 ans HR HV Hagree.
  assert (Hm0 : forall c, In (SMissing c) ans0 -> c = V).
  { intros c Hc. rewrite <- HV. symmetry. apply HF; [exists c; exact Hc|intros c' Hc'; exact (Hagree _ _ Hc' Hc)]. }
  (* answer by answer: unchanged, or newly missing with V *)
  assert (H : (forall c, In (SMissing c) ans -> c = V) /\ ((exists c, In (SMissing c) ans) \/ ans = ans0)).
  { clear HV Hagree. induction HR as [|a0 a l0 l Ha _ IH]; [split; [intros c []|right; reflexivity]|].
    destruct IH as [IH1 IH2]; [intros x Hx; apply Hm0; right; exact Hx|]. destruct Ha as [->|(mc & ia & -> & ->)].
    - split; [intros c [Hc|Hc]; [apply Hm0; left; exact Hc|apply IH1; exact Hc]|].
      destruct IH2 as [[c Hc]| ->]; [left; exists c; right; exact Hc|right; reflexivity].
    - split; [intros c [[= <-]|Hc]; [reflexivity|apply IH1; exact Hc]|left; exists V; left; reflexivity]. }
  destruct H as [Hm [Hex| ->]]; [apply HF; assumption|exact HV].
Qed.
Lemma decide_stable V acc : forall ans0 ans, Forall2 (ans_rel V) ans0 ans -> decide acc ans0 = V ->
  (forall c1 c2, In (SMissing c1) ans0 -> In (SMissing c2) ans0 -> c1 = c2) -> decide acc ans = V.
Proof. exact (settled_stable (decide acc) (fun V ans => decide_missing V ans acc) V). Qed.
Lemma value_stable V acc : forall ans0 ans, Forall2 (ans_rel V) ans0 ans -> async_value acc ans0 = V ->
  (forall c1 c2, In (SMissing c1) ans0 -> In (SMissing c2) ans0 -> c1 = c2) -> async_value acc ans = V.
Proof. exact (settled_stable (async_value acc) (fun V ans => value_missing V ans acc) V). Qed.

Lemma committed_in_cons w ws t : committed_in (w :: ws) t = if w_start w =? t then Some (w_commit w) else committed_in ws t.
Proof. unfold committed_in. cbn [find]. destruct (w_start w =? t); reflexivity. Qed.
Lemma committed_at_found st p t r : find_key st p = Some r ->
  committed_at st p t = match k_lock r with
                        | Some l => if (l_start l =? t) && l_async l then async_decide st l else committed_in (k_writes r) t
                        | None => committed_in (k_writes r) t end.
Proof. intros H. unfold committed_at. rewrite H. reflexivity. Qed.

Section Inv.
  Variable st0 : store.
  Variable sp : N.
  Hypothesis Hwf : wf_store st0.

  Definition rel0 (r0 r : krec) : Prop := r = r0 \/ (old_lock sp r0 = true /\ r = resolve_by_outcome st0 sp r0).
  Definition InvP (st : store) : Prop := keys st = keys st0 /\ forall r, In r st -> exists r0, In r0 st0 /\ rel0 r0 r.

  Lemma InvP_init : InvP st0.
  Proof. split; [reflexivity|]. intros r H; exists r; split; [exact H|left; reflexivity]. Qed.

  Lemma rel0_key r0 r : rel0 r0 r -> k_key r = k_key r0.
  Proof. intros [->|[_ ->]]; [reflexivity|apply resolve_by_outcome_mono]. Qed.
  Lemma resolve_unfold r0 l : k_lock r0 = Some l -> l_start l <= sp ->
    resolve_by_outcome st0 sp r0 = apply_outcome r0 l (committed_at st0 (l_primary l) (l_start l)).
  Proof. intros H1 H2. unfold resolve_by_outcome. rewrite H1. apply N.leb_le in H2. rewrite H2. reflexivity. Qed.
  Lemma old_lock_inv r : old_lock sp r = true -> exists l, k_lock r = Some l /\ l_start l <= sp.
  Proof. unfold old_lock. destruct (k_lock r) as [l|]; [|discriminate]. intros H; exists l; split; [reflexivity|apply N.leb_le; exact H]. Qed.
  Lemma old_lock_intro r l : k_lock r = Some l -> l_start l <= sp -> old_lock sp r = true.
  Proof. unfold old_lock. intros -> H. apply N.leb_le; exact H. Qed.
  Lemma resolved_lock r0 : old_lock sp r0 = true -> k_lock (resolve_by_outcome st0 sp r0) = None.
  Proof. intros H. destruct (old_lock_inv _ H) as (l & H1 & H2). rewrite (resolve_unfold _ _ H1 H2). apply apply_outcome_lock. Qed.
  Lemma rel0_lock r0 r l : rel0 r0 r -> k_lock r = Some l -> r = r0.
  Proof. intros [->|[H ->]] Hl; [reflexivity|]. rewrite (resolved_lock _ H) in Hl; discriminate. Qed.
  Lemma rel0_nolock r0 r : rel0 r0 r -> k_lock r = None -> forall f, (forall x, k_lock x = None -> f x = x) -> rel0 r0 (f r).
  Proof. intros H Hl f Hf. rewrite (Hf _ Hl). exact H. Qed.

  Lemma rel0_apply r0 l oc : k_lock r0 = Some l -> l_start l <= sp ->
    (is_pess l = true \/ oc = committed_at st0 (l_primary l) (l_start l)) -> rel0 r0 (apply_outcome r0 l oc).
  Proof.
    intros H1 H2 H3. right. split; [eapply old_lock_intro; eassumption|].
    rewrite (resolve_unfold _ _ H1 H2). destruct H3 as [H3| ->]; [|reflexivity].
    rewrite !(apply_outcome_pess _ _ _ H3). reflexivity.
  Qed.
  Lemma rel0_clear r0 l : k_lock r0 = Some l -> l_start l <= sp ->
    (is_pess l = true \/ committed_at st0 (l_primary l) (l_start l) = None) -> rel0 r0 (clear_lock r0).
  Proof.
    intros H1 H2 H3. rewrite <- (apply_outcome_none r0 l). apply rel0_apply; [exact H1|exact H2|].
    destruct H3 as [H3|H3]; [left; exact H3|right; symmetry; exact H3].
  Qed.

  Lemma InvP_sorted st : InvP st -> sorted st.
  Proof. intros [H _]. unfold sorted. rewrite H. apply (wf_sorted _ Hwf). Qed.
  Lemma InvP_uniq st : InvP st -> uniq st.
  Proof. intros H. apply sorted_uniq, InvP_sorted, H. Qed.
  Lemma uniq0 : uniq st0.
  Proof. apply sorted_uniq, (wf_sorted _ Hwf). Qed.

  Lemma InvP_find st k r : InvP st -> find_key st k = Some r -> exists r0, find_key st0 k = Some r0 /\ In r0 st0 /\ rel0 r0 r.
  Proof.
    intros HI Hf. apply find_key_some in Hf as [Hin Hk]. destruct (proj2 HI _ Hin) as (r0 & Hin0 & Hr).
    exists r0. split; [|auto]. rewrite <- Hk, (rel0_key _ _ Hr). apply find_key_in; [apply uniq0|exact Hin0].
  Qed.
  Lemma InvP_find_none st k : InvP st -> find_key st k = None -> find_key st0 k = None.
  Proof.
    intros HI Hf. destruct (find_key st0 k) as [r0|] eqn:E; [|reflexivity]. exfalso.
    apply find_key_some in E as [Hin Hk].
    assert (Hk' : In k (keys st)) by (rewrite (proj1 HI), <- Hk; apply in_map; exact Hin).
    apply in_map_iff in Hk' as (r & Hkr & Hinr). exact (find_key_none _ _ Hf r Hinr Hkr).
  Qed.

  (* the commit record a resolved key holds for a start ts: the outcome for the resolved prewrite lock's own (W1: there
     was none before), the old one for any other *)
  Lemma resolved_committed_in r0 l t : In r0 st0 -> k_lock r0 = Some l -> l_start l <= sp ->
    committed_in (k_writes (resolve_by_outcome st0 sp r0)) t =
    if (l_start l =? t) && negb (is_pess l) then committed_at st0 (l_primary l) t else committed_in (k_writes r0) t.
  Proof.
    intros Hin Hl Hle. rewrite (resolve_unfold _ _ Hl Hle). pose proof (wf_w1 _ Hwf _ _ Hin Hl) as W1.
    unfold apply_outcome, is_pess. destruct (l_start l =? t) eqn:Et; cbn [andb].
    - apply N.eqb_eq in Et. subst t.
      destruct (committed_at st0 (l_primary l) (l_start l)) as [c|], (l_kind l); cbn [negb k_writes clear_lock];
        rewrite ?committed_in_cons; cbn [w_start w_commit]; rewrite ?N.eqb_refl; auto.
    - destruct (committed_at st0 (l_primary l) (l_start l)) as [c|], (l_kind l); cbn [k_writes clear_lock];
        rewrite ?committed_in_cons; cbn [w_start]; rewrite ?Et; reflexivity.
  Qed.

  (* the answers of the secondaries of an async-commit primary only move from "locked" to "missing, as decided" *)
  Lemma answer_stable st rp0 l k : InvP st -> In rp0 st0 -> k_lock rp0 = Some l -> l_async l = true -> k_key rp0 = l_primary l ->
    ans_rel (async_decide st0 l) (sec_answer_of st0 (l_start l) k) (sec_answer_of st (l_start l) k).
  Proof.
    intros HI Hin Hl Ha Hkp. pose proof (wf_w5 _ Hwf _ _ Hin Hl Ha) as Hnp.
    unfold sec_answer_of. destruct (find_key st k) as [rk|] eqn:E; [|rewrite (InvP_find_none _ _ HI E); left; reflexivity].
    destruct (InvP_find _ _ _ HI E) as (rk0 & Hf0 & Hin0 & Hr). rewrite Hf0.
    destruct Hr as [->|[Hold ->]]; [left; reflexivity|].
    destruct (old_lock_inv _ Hold) as (l2 & Hl2 & Hle).
    rewrite (resolved_lock _ Hold), Hl2, (resolved_committed_in _ _ _ Hin0 Hl2 Hle).
    destruct ((l_start l2 =? l_start l) && negb (is_pess l2)) eqn:Eb; [|left; reflexivity].
    apply Bool.andb_true_iff in Eb as [Et Ep]. apply N.eqb_eq in Et. apply Bool.negb_true_iff in Ep.
    right. exists (l_min_commit l2), (l_async l2). split; [reflexivity|]. f_equal.
    rewrite (wf_w2 _ Hwf rk0 rp0 l2 l Hin0 Hin Hl2 Hl Et Ep Hnp), <- Hkp, (committed_at_found _ _ _ _ (find_key_in _ _ uniq0 Hin)), Hl, N.eqb_refl, Ha.
    reflexivity.
  Qed.
  Lemma async_decide_stable st rp0 l : InvP st -> In rp0 st0 -> k_lock rp0 = Some l -> l_async l = true -> k_key rp0 = l_primary l ->
    async_decide st l = async_decide st0 l.
  Proof.
    intros HI Hin Hl Ha Hkp. change (async_decide st l) with (async_value (l_min_commit l) (sec_answers st l)).
    apply (value_stable _ _ (sec_answers st0 l)).
    - unfold sec_answers. induction (l_secs l) as [|k ks IH]; cbn [map]; constructor; [eapply answer_stable; eassumption|exact IH].
    - reflexivity.
    - intros c1 c2 H1 H2. apply in_map_iff in H1 as (k1 & H1 & Hk1). apply in_map_iff in H2 as (k2 & H2 & Hk2).
      exact (wf_w4 _ Hwf _ _ _ _ _ _ Hin Hl Ha Hk1 Hk2 H1 H2).
  Qed.

  (* (p,t) identifies a transaction: every prewrite lock of start ts t names p as its primary *)
  Definition txn_id (p : list N) (t : N) : Prop :=
    forall r l, In r st0 -> k_lock r = Some l -> l_start l = t -> is_pess l = false -> l_primary l = p.
  Lemma outcome_stable st p t : InvP st -> txn_id p t -> committed_at st p t = committed_at st0 p t.
  Proof.
    intros HI Hid. destruct (find_key st p) as [rp|] eqn:E; [|unfold committed_at; rewrite E, (InvP_find_none _ _ HI E); reflexivity].
    destruct (InvP_find _ _ _ HI E) as (rp0 & Hf0 & Hin0 & Hr).
    rewrite (committed_at_found _ _ _ _ E). pose proof (find_key_some _ _ _ Hf0) as [_ Hk0].
    destruct Hr as [->|[Hold ->]].
    - (* the primary key is untouched: only an async-commit primary lock makes the outcome depend on other keys *)
      rewrite (committed_at_found _ _ _ _ Hf0). destruct (k_lock rp0) as [l|] eqn:Hl; [|reflexivity].
      destruct ((l_start l =? t) && l_async l) eqn:Eb; [|reflexivity].
      apply Bool.andb_true_iff in Eb as [Et Ea]. apply N.eqb_eq in Et.
      apply (async_decide_stable st rp0 l HI Hin0 Hl Ea). rewrite Hk0. symmetry.
      apply (Hid _ _ Hin0 Hl Et (wf_w5 _ Hwf _ _ Hin0 Hl Ea)).
    - (* the primary key was resolved: a prewrite lock of t on it was the primary lock, and left the outcome as its record *)
      destruct (old_lock_inv _ Hold) as (l0 & Hl0 & Hle). rewrite (resolved_lock _ Hold), (resolved_committed_in _ _ t Hin0 Hl0 Hle).
      destruct (l_start l0 =? t) eqn:Et; cbn [andb]; [destruct (is_pess l0) eqn:Ep; cbn [negb]|].
      + rewrite (committed_at_found _ _ _ _ Hf0), Hl0, Et. destruct (l_async l0) eqn:Ea; [|reflexivity].
        rewrite (wf_w5 _ Hwf _ _ Hin0 Hl0 Ea) in Ep; discriminate.
      + apply N.eqb_eq in Et. rewrite (Hid _ _ Hin0 Hl0 Et Ep). reflexivity.
      + rewrite (committed_at_found _ _ _ _ Hf0), Hl0, Et. reflexivity.
  Qed.
  Lemma outcome_stable_lock st r0 l : InvP st -> In r0 st0 -> k_lock r0 = Some l -> is_pess l = false ->
    committed_at st (l_primary l) (l_start l) = committed_at st0 (l_primary l) (l_start l).
  Proof.
    intros HI Hin Hl Hp. apply outcome_stable; [exact HI|].
    intros r l' Hin' Hl' Ht Hp'. exact (wf_w2 _ Hwf _ _ _ _ Hin' Hin Hl' Hl Ht Hp' Hp).
  Qed.

  Lemma InvP_map f st : InvP st -> (forall r r0, In r st -> In r0 st0 -> rel0 r0 r -> rel0 r0 (f r)) -> InvP (map f st).
  Proof.
    intros [HK HR] Hf. split.
    - rewrite <- HK. unfold keys. rewrite map_map. apply map_ext_in. intros r Hin. destruct (HR _ Hin) as (r0 & Hin0 & Hr).
      rewrite (rel0_key _ _ (Hf _ _ Hin Hin0 Hr)), (rel0_key _ _ Hr). reflexivity.
    - intros r' Hin. apply in_map_iff in Hin as (r & <- & Hin). destruct (HR _ Hin) as (r0 & Hin0 & Hr).
      exists r0; split; [exact Hin0|apply Hf; assumption].
  Qed.

  (* a status check is legitimate when some lock of the initial store names (p,t) *)
  Definition justified (p : list N) (t : N) : Prop :=
    exists r0 l, In r0 st0 /\ k_lock r0 = Some l /\ l_primary l = p /\ l_start l = t /\ t <= sp.

  (* a prewrite lock of t found on the key that a lock of t names as primary is the primary lock *)
  Lemma primary_is_self p t rp0 l' : justified p t -> In rp0 st0 -> k_key rp0 = p -> k_lock rp0 = Some l' -> l_start l' = t ->
    is_pess l' = false -> l_primary l' = p.
  Proof.
    intros (r0 & l & Hin & Hl & Hp & Ht & Hle) Hinp Hkp Hl' Ht' Ep.
    destruct (is_pess l) eqn:Epl.
    - rewrite <- Hkp. apply (wf_w3 _ Hwf r0 rp0 l l'); try assumption; congruence.
    - rewrite <- Hp. apply (wf_w2 _ Hwf rp0 r0 l' l); try assumption; congruence.
  Qed.

  (* a status check rolls back only what the outcome rolls back: there is no commit record beside a lock (W1), and an
     async-commit primary goes only on the nonAsyncCommitLock fallback *)
  Lemma rolled_back_outcome st p t : InvP st -> rolls_back st p t = true -> committed_at st p t = None.
  Proof.
    intros HI Erb. destruct (rolls_back_true _ _ _ Erb) as (rp & l' & E & El & Et & Hwhy).
    rewrite (committed_at_found _ _ _ _ E), El, Et, N.eqb_refl. cbn [andb].
    destruct (InvP_find _ _ _ HI E) as (rp0 & _ & Hin0 & Hr). pose proof (rel0_lock _ _ _ Hr El) as ->.
    destruct (l_async l') eqn:Ea; [|rewrite <- Et; apply (wf_w1 _ Hwf _ _ Hin0 El)].
    destruct Hwhy as [Hn|[Hpe|Hfb]]; [discriminate|rewrite (wf_w5 _ Hwf _ _ Hin0 El Ea) in Hpe; discriminate|].
    unfold async_decide. rewrite Hfb. reflexivity.
  Qed.

  (* the lock of t a status check removes from p is pessimistic, or the primary lock of a transaction that is rolled back *)
  Lemma status_check_inv st p t : InvP st -> justified p t -> InvP (fst (status_check st p t)).
  Proof.
    intros HI Hj. rewrite status_check_eq. destruct (rolls_back st p t) eqn:Erb; [|exact HI]. cbn [fst].
    pose proof (rolled_back_outcome _ _ _ HI Erb) as Hnone.
    destruct (rolls_back_true _ _ _ Erb) as (rp & l' & E & El & <- & _). apply find_key_some in E as [Hinp Hkp].
    unfold upd_key. apply InvP_map; [exact HI|].
    intros r r0 Hin Hin0 Hr. destruct (bytes_eqb (k_key r) p) eqn:Ek; [|exact Hr]. apply bytes_eqb_eq in Ek.
    assert (r = rp) by (apply (InvP_uniq _ HI); congruence). subst r. pose proof (rel0_lock _ _ _ Hr El) as ->.
    pose proof Hj as (_ & _ & _ & _ & _ & _ & Hle). eapply rel0_clear; [exact El|exact Hle|].
    destruct (is_pess l') eqn:Epp; [left; reflexivity|right].
    rewrite <- (outcome_stable_lock st r0 l' HI Hin0 El Epp), (primary_is_self _ _ r0 l' Hj Hin0 Hkp El eq_refl Epp). exact Hnone.
  Qed.

  Lemma status_check_value st r0 l : InvP st -> In r0 st0 -> k_lock r0 = Some l -> is_pess l = false ->
    snd (status_check st (l_primary l) (l_start l)) = committed_at st0 (l_primary l) (l_start l).
  Proof.
    intros HI Hin Hl Hp. rewrite <- (outcome_stable_lock _ _ _ HI Hin Hl Hp), status_check_eq.
    destruct (rolls_back st (l_primary l) (l_start l)) eqn:Erb; [|reflexivity]. symmetry. exact (rolled_back_outcome _ _ _ HI Erb).
  Qed.

  Lemma pess_rollback_inv st k t : InvP st -> t <= sp -> InvP (pess_rollback st k t).
  Proof.
    intros HI Hle. unfold pess_rollback, upd_key. apply InvP_map; [exact HI|].
    intros r r0 Hin Hin0 Hr. destruct (bytes_eqb _ _); [|exact Hr].
    destruct (k_lock r) as [l|] eqn:El; [|exact Hr].
    destruct ((l_start l =? t) && is_pess l) eqn:Eb; [|exact Hr].
    apply Bool.andb_true_iff in Eb as [Et Ep]. apply N.eqb_eq in Et.
    pose proof (rel0_lock _ _ _ Hr El) as ->.
    eapply rel0_clear; [exact El|rewrite Et; exact Hle|left; exact Ep].
  Qed.

  (* statuses collected so far agree with the outcomes *)
  Definition infos_ok (infos : list (N * option N)) : Prop :=
    forall t oc, assoc t infos = Some oc -> t <= sp /\
      forall r0 l, In r0 st0 -> k_lock r0 = Some l -> l_start l = t -> is_pess l = false ->
                   oc = committed_at st0 (l_primary l) t.

  Lemma resolve_region_inv st rs re infos : InvP st -> infos_ok infos -> InvP (resolve_region st rs re infos).
  Proof.
    intros HI Hok. unfold resolve_region. apply InvP_map; [exact HI|].
    intros r r0 Hin Hin0 Hr. destruct (in_range _ _ _); [|exact Hr].
    unfold resolve_rec. destruct (k_lock r) as [l|] eqn:El; [|exact Hr].
    destruct (assoc (l_start l) infos) as [oc|] eqn:Ea; [|exact Hr].
    pose proof (rel0_lock _ _ _ Hr El) as ->. destruct (Hok _ _ Ea) as [Hle Hoc].
    apply rel0_apply; [exact El|exact Hle|].
    destruct (is_pess l) eqn:Ep; [left; reflexivity|right]. apply (Hoc _ _ Hin0 El eq_refl Ep).
  Qed.

  Lemma resolve_txn_inv st rs re t : InvP st -> t <= sp ->
    InvP (map (fun r => if in_range rs re (k_key r) then resolve_txn_rec st t r else r) st).
  Proof.
    intros HI Hle. apply InvP_map; [exact HI|].
    intros r r0 Hin Hin0 Hr. destruct (in_range _ _ _); [|exact Hr].
    unfold resolve_txn_rec. destruct (k_lock r) as [l|] eqn:El; [|exact Hr].
    destruct (l_start l =? t) eqn:Et; [|exact Hr]. apply N.eqb_eq in Et.
    pose proof (rel0_lock _ _ _ Hr El) as ->.
    apply rel0_apply; [exact El|rewrite Et; exact Hle|].
    destruct (is_pess l) eqn:Ep; [left; reflexivity|right]. rewrite <- Et. apply (outcome_stable_lock _ _ _ HI Hin0 El Ep).
  Qed.

  Definition env_ok (a : env_act) : Prop :=
    match a with
    | EStatus p t => justified p t
    | EPessRb _ t => t <= sp
    | EResolve _ _ t => t <= sp
    end.
  Lemma env_okb_ok a : env_okb st0 sp a = true -> env_ok a.
  Proof.
    destruct a as [p t|k t|rs re t]; cbn [env_okb env_ok]; try (apply N.leb_le).
    rewrite Bool.andb_true_iff, existsb_exists. intros [Hle (r0 & Hin & H)].
    destruct (k_lock r0) as [l|] eqn:El; [|discriminate].
    apply Bool.andb_true_iff in H as [H1 H2]. apply bytes_eqb_eq in H1. apply N.eqb_eq in H2. apply N.leb_le in Hle.
    exists r0, l. auto.
  Qed.
  Lemma apply_env_inv st a : InvP st -> env_ok a -> InvP (apply_env st a).
  Proof.
    intros HI Hok. destruct a as [p t|k t|rs re t]; cbn [apply_env env_ok] in *.
    - apply status_check_inv; assumption.
    - apply pess_rollback_inv; assumption.
    - apply resolve_txn_inv; assumption.
  Qed.
  Lemma apply_envs_inv l : forall st, InvP st -> Forall env_ok l -> InvP (apply_envs st l).
  Proof.
    unfold apply_envs. induction l as [|a l IH]; intros st HI Hok; cbn [fold_left]; [exact HI|].
    inversion Hok; subst. apply IH; [apply apply_env_inv; assumption|assumption].
  Qed.

  (* scanned locks are records of the initial store *)
  Definition from0 (locks : list krec) : Prop := forall r, In r locks -> In r st0 /\ old_lock sp r = true.
  (* TiKV's primary check: no lock of t sits on a key that another lock of t names as primary without being self-primary *)
  Definition primaries_ok : Prop := forall r1 r2 l1 l2, In r1 st0 -> In r2 st0 -> k_lock r1 = Some l1 -> k_lock r2 = Some l2 ->
    l_start l1 = l_start l2 -> k_key r2 = l_primary l1 -> l_primary l2 = k_key r2.

  (* the head of a scanned list: a record of the initial store whose lock justifies a status check of its transaction *)
  Lemma from0_cons r rest : from0 (r :: rest) ->
    In r st0 /\ from0 rest /\ forall l, k_lock r = Some l -> l_start l <= sp /\ justified (l_primary l) (l_start l).
  Proof.
    intros H. destruct (H r (or_introl eq_refl)) as [Hin Hold]. split; [exact Hin|]. split; [intros x Hx; apply H; right; exact Hx|].
    intros l El. destruct (old_lock_inv _ Hold) as (l2 & El2 & Hle). rewrite El in El2; injection El2 as <-.
    split; [exact Hle|]. exists r, l; auto.
  Qed.

  (* the status round of BatchResolveLocks keeps the invariant and collects outcomes *)
  Lemma collect_inv locks : forall st infos, InvP st -> infos_ok infos -> from0 locks ->
    InvP (fst (collect st locks infos)) /\ infos_ok (snd (collect st locks infos)).
  Proof.
    induction locks as [|r rest IH]; intros st infos HI Hok Hfrom; cbn [collect]; [auto|].
    destruct (from0_cons _ _ Hfrom) as (Hin0 & Hfrom' & Hl).
    destruct (k_lock r) as [l|] eqn:El; [|apply IH; assumption].
    destruct (assoc (l_start l) infos) eqn:Ea; [apply IH; assumption|]. destruct (Hl _ eq_refl) as [Hle Hj].
    pose proof (status_check_inv st _ _ HI Hj) as HI1.
    pose proof (status_check_value st r l HI Hin0 El) as Hv.
    destruct (status_check st (l_primary l) (l_start l)) as [st1 oc]. cbn [fst snd] in *.
    destruct (is_pess l) eqn:Ep; apply IH; try assumption.
    - destruct (bytes_eqb _ _); [exact HI1|apply pess_rollback_inv; assumption].
    - intros t oc' Ha. cbn [assoc] in Ha. destruct (l_start l =? t) eqn:Et; [|apply Hok; exact Ha].
      apply N.eqb_eq in Et. injection Ha as <-. split; [rewrite <- Et; exact Hle|].
      intros r0 l0 Hin Hl0 Ht0 Hp0. rewrite (Hv eq_refl), <- Et.
      f_equal. apply (wf_w2 _ Hwf r r0 l l0); try assumption. congruence.
  Qed.

  (* on a reachable store with well-formed primaries, TiKV's primary check passes for every lock of the initial store ... *)
  Lemma primary_match st r l : primaries_ok -> InvP st -> In r st0 -> k_lock r = Some l ->
    primary_mismatch st (l_primary l) (l_start l) = false.
  Proof.
    intros Hpo HI Hin0 El. unfold primary_mismatch. destruct (find_key st (l_primary l)) as [rp|] eqn:E; [|reflexivity].
    destruct (k_lock rp) as [l'|] eqn:El'; [|reflexivity]. destruct (l_start l' =? l_start l) eqn:Et; [|reflexivity]. cbn [andb].
    apply N.eqb_eq in Et. destruct (InvP_find _ _ _ HI E) as (rp0 & Hf0 & Hinp & Hr). pose proof (rel0_lock _ _ _ Hr El') as ->.
    apply find_key_some in Hf0 as [_ Hk]. rewrite (Hpo r rp0 l l' Hin0 Hinp El El' (eq_sym Et) Hk), Hk, bytes_eqb_refl. reflexivity.
  Qed.
  (* ... so the status round with the check (collect_v) never answers PrimaryMismatch: it is the round without it *)
  Lemma collect_v_collect locks : primaries_ok -> forall st infos, InvP st -> from0 locks ->
    collect_v st locks infos = Some (collect st locks infos).
  Proof.
    intros Hpo. induction locks as [|r rest IH]; intros st infos HI Hfrom; cbn [collect collect_v]; [reflexivity|].
    destruct (from0_cons _ _ Hfrom) as (Hin0 & Hfrom' & Hl).
    destruct (k_lock r) as [l|] eqn:El; [|apply IH; assumption].
    destruct (assoc (l_start l) infos); [apply IH; assumption|]. destruct (Hl _ eq_refl) as [Hle Hj].
    rewrite (primary_match st r l Hpo HI Hin0 El).
    pose proof (status_check_inv st _ _ HI Hj) as HI1.
    destruct (status_check st (l_primary l) (l_start l)) as [st1 oc]. cbn [fst] in HI1.
    destruct (is_pess l); apply IH; try assumption.
    destruct (bytes_eqb _ _); [exact HI1|apply pess_rollback_inv; assumption].
  Qed.

  Lemma infos_ok_nil : infos_ok [].
  Proof. intros t oc H; discriminate. Qed.

  Lemma batch_resolve_inv st rs re locks : InvP st -> from0 locks -> InvP (batch_resolve st rs re locks).
  Proof.
    intros HI Hf. unfold batch_resolve. destruct locks as [|r rest]; [exact HI|].
    destruct (collect_inv (r :: rest) st [] HI infos_ok_nil Hf) as [H1 H2].
    destruct (collect st (r :: rest) []) as [st1 infos]. apply resolve_region_inv; assumption.
  Qed.
End Inv.

Theorem collect_v_ok st0 sp locks st infos :
  wf_store st0 -> primaries_ok st0 -> InvP st0 sp st -> infos_ok st0 sp infos -> from0 st0 sp locks ->
  collect_v st locks infos = Some (collect st locks infos).
Proof. intros Hwf Hp HI _ Hf. exact (collect_v_collect st0 sp Hwf locks Hp st infos HI Hf). Qed.
