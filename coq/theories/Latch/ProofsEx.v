(* Latch/ProofsEx.v — concrete runs (one slot) used by the Examples and the _refuted witness of Props.v *)
From Coq Require Import NArith List Bool Arith.
From Verif Require Import Latch.Model Latch.ProofsOps Latch.ProofsBase Latch.ProofsInv Latch.ProofsSys Latch.ProofsLive Latch.ProofsRec Latch.ProofsClient Latch.ProofsThm.
Import ListNotations.

Definition sf0 : key -> sid := fun _ => 0%N.
(* T0 {1,2} start 1 commit 5; T1 {2} start 2; T2 {2} start 7 *)
Definition tr_contend : list label :=
  [LStart 0 [2;1]%N 1%N; LStart 1 [2]%N 2%N; LStart 2 [2]%N 7%N; LAcq 0; LAcq 0; LAcq 1].
Definition tr_handoff : list label := tr_contend ++ [LUnlock 0 5%N; LPop; LRel].
Definition tr_finish : list label :=
  tr_handoff ++ [LRel; LWake; LTrig; LUnlock 1 0%N; LPop; LRel; LTrig; LAcq 2; LUnlock 2 9%N; LPop; LRel; LTrig].
(* Close() while T1 waits behind T0; T0's UnLock then sends nothing *)
Definition tr_closed : list label :=
  [LStart 0 [2;1]%N 1%N; LStart 1 [2]%N 2%N; LAcq 0; LAcq 0; LAcq 1; LClose; LUnlock 0 5%N].

(* H = lock 0 holds key 1, locks 1 and 2 wait for it; H releases (lock 1 picked, wake-up pending); a recycle with a
   timestamp 3.5 minutes later drops the node of key 1 although lock 2 still waits for that key *)
Definition ts_3u : ts := 55050240000%N.
Definition tr_waited : list label :=
  [LStart 0 [1]%N 1%N; LStart 1 [1]%N 5%N; LStart 2 [1]%N 6%N; LAcq 0; LAcq 1; LAcq 2; LUnlock 0 2%N; LPop; LRel].
Definition tr_waited_rest : list label :=
  [LRecycle 0%N ts_3u; LWake; LTrig; LUnlock 1 7%N; LPop; LRel; LWake; LTrig; LUnlock 2 0%N; LPop; LRel; LTrig].

Lemma allowed_tr_finish : Forall (allowed (@NoDup key)) tr_finish.
Proof. repeat constructor; simpl; auto; intros [H|[]]; discriminate. Qed.

(* a Lock with a duplicated key blocks on itself: the hypothesis "distinct keys" of no_deadlock is necessary *)
Lemma dup_key_self_deadlock :
  exists s, run sf0 1 [LStart 0 [1;1]%N 5%N; LAcq 0; LAcq 0] init_state = Some s /\ pc s 0 = TWait /\
            In 0 (waitS (lat s) 0%N) /\ closed (gl s) = false /\ quiescent sf0 1 s.
Proof.
  eexists. split; [vm_compute; reflexivity|]. split; [reflexivity|]. split; [left; reflexivity|]. split; [reflexivity|].
  intros l s' E. destruct l; simpl; auto; try (simpl in E; discriminate);
    destruct i as [|i]; simpl in E; discriminate.
Qed.

(* after Close() the lock of a later UnLock is dropped: its latches stay held and a blocked Lock() never returns *)
Lemma closed_strands_waiter :
  exists s, run sf0 1 tr_closed init_state = Some s /\ reach sf0 1 s /\ closed (gl s) = true /\
            pc s 0 = TDrop /\ pc s 1 = TWait /\ holderK sf0 (lat s) 2%N = Some 0 /\ quiescent sf0 1 s.
Proof.
  destruct (run sf0 1 tr_closed init_state) as [s|] eqn:E; [|vm_compute in E; discriminate].
  exists s. split; auto. split.
  { eapply run_reach; [apply r_init | | exact E]. repeat constructor; simpl; auto; intros [H|[]]; discriminate. }
  vm_compute in E. inversion E; subst s; clear E.
  split; [reflexivity|]. split; [reflexivity|]. split; [reflexivity|]. split; [reflexivity|].
  intros l s' E. destruct l; simpl; auto; try (simpl in E; discriminate);
    destruct i as [|[|i]]; simpl in E; discriminate.
Qed.

Lemma recycle_waited_node_witness :
  exists s, run sf0 1 tr_waited init_state = Some s /\ reach_any sf0 1 s /\
    In 2 (waitS (lat s) (sf0 1%N)) /\ key_at (locks (lat s) 2) = Some 1%N /\
    nodeK sf0 (lat s) 1%N = Some (mkNode 1%N 2%N None) /\
    nodeK sf0 (recycle_slot (lat s) 0%N ts_3u) 1%N = None.
Proof.
  destruct (run sf0 1 tr_waited init_state) as [s|] eqn:E; [|vm_compute in E; discriminate].
  exists s. split; auto. split.
  { apply reach_reach_any. eapply run_reach; [apply r_init | | exact E]. repeat constructor; simpl; auto; intros []. }
  vm_compute in E. inversion E; subst s; clear E. vm_compute. repeat split; auto.
Qed.

Lemma recycle_waited_node_refuted :
  exists sf ns s w k sl t, reach_any sf ns s /\ In w (waitS (lat s) (sf k)) /\ key_at (locks (lat s) w) = Some k /\
    nodeK sf (lat s) k <> None /\ nodeK sf (recycle_slot (lat s) sl t) k = None.
Proof.
  destruct recycle_waited_node_witness as (s & _ & R & W & K & N & D).
  exists sf0, 1%N, s, 2, 1%N, 0%N, ts_3u. repeat split; auto. rewrite N. discriminate.
Qed.
