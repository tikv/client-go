(* Latch/Props.v — property C17: the theorems, nothing else.
   Setting: [exec sf] is the automaton of internal/latch (client threads running acquire = a loop of
   atomic acquireSlot steps, UnLock = send on the channel, the single scheduler goroutine popping the
   channel and running release = a loop of atomic releaseSlot steps, then wakeup = acquire of every
   lock handed back; recycle of a slot at any moment with any timestamp). [sf] (murmur3 & mask) is an
   arbitrary function, [ns] the number of slots. The automaton also contains the glue of scheduler.go: Lock()
   (acquire loop, wg.Wait), UnLock() (closed flag, send on the channel of capacity 100), run() (receive,
   release, wakeup, recycle trigger lastRecycleTime/counter, spawned recycle goroutines), Close().
   [reach_any sf ns s]: s is reached from the empty scheduler by ANY finite interleaving of these steps, for
   any number of transactions / keys (duplicates allowed) / timestamps.  [reach sf ns s]: the same with
   distinct keys in every Lock (what txn.go passes).  held l = the first lacq keys of l (sorted by genLock). *)
From Coq Require Import NArith List.
From Verif Require Import Latch.Slot Latch.Model Latch.ProofsOps Latch.ProofsBase Latch.ProofsInv Latch.ProofsSys Latch.ProofsLive Latch.ProofsRec Latch.ProofsClient Latch.ProofsThm Latch.ProofsEx.
Import ListNotations.

(* Exclusive (no hypothesis on the key lists): a lock counts a key as acquired iff the key's node names it as
   holder, so no key is held by two locks; and from the return of Lock() with success (pc = TDone, not stale)
   until UnLock the lock holds every one of its keys and no other lock holds any of them. *)
Theorem C17_exclusive : forall sf ns s, reach_any sf ns s ->
  (forall i k, In k (held (locks (lat s) i)) <-> holderK sf (lat s) k = Some i) /\
  (forall i j k, In k (held (locks (lat s) i)) -> In k (held (locks (lat s) j)) -> i = j) /\
  (forall i, pc s i = TDone -> lstale (locks (lat s) i) = false ->
     forall k, In k (lkeys (locks (lat s) i)) ->
       holderK sf (lat s) k = Some i /\ forall j, j <> i -> ~ In k (held (locks (lat s) j))).
Proof. exact exclusive. Qed.
Print Assumptions C17_exclusive.

(* Lock() never reaches panic("should never run here") *)
Theorem C17_lock_returns_ok : forall sf ns s i, reach_any sf ns s -> pc s i = TDone ->
  lstale (locks (lat s) i) = true \/ lacq (locks (lat s) i) = length (lkeys (locks (lat s) i)).
Proof. exact lock_returns_ok. Qed.
Print Assumptions C17_lock_returns_ok.

(* Stale, sound: a lock is flagged stale only if ANOTHER lock released (ERel in the ghost log, written
   by releaseSlot) one of its keys with a commit ts greater than its start ts. *)
Theorem C17_stale_sound : forall sf ns s i, reach_any sf ns s -> lstale (locks (lat s) i) = true ->
  exists k j c, In k (lkeys (locks (lat s) i)) /\ j <> i /\ In (ERel k j c) (glog (lat s)) /\
                (lstart (locks (lat s) i) < c)%N.
Proof. exact (fun sf ns s i R => i_stale (any_inv sf ns s R) i). Qed.
Print Assumptions C17_stale_sound.

(* Stale, complete: a lock that is not stale acquired each key it holds at a moment (EAcq in the log)
   at which every earlier release of that key — not counting releases whose node was recycled since
   (live_rels stops at ERecycle k: the explicit recycle window) — had commit ts <= its start ts. *)
Theorem C17_stale_complete : forall sf ns s i k, reach_any sf ns s -> lstale (locks (lat s) i) = false ->
  In k (held (locks (lat s) i)) ->
  exists h1 h2, glog (lat s) = h1 ++ EAcq k i :: h2 /\
                forall c, In c (live_rels k h2) -> (c <= lstart (locks (lat s) i))%N.
Proof. exact (fun sf ns s i k R => i_acqok (any_inv sf ns s R) i k). Qed.
Print Assumptions C17_stale_complete.

Theorem C17_release_logged : forall sf ns s k j c, reach_any sf ns s -> In (ERel k j c) (glog (lat s)) ->
  pc s j = TUnl \/ pc s j = TRel.
Proof. exact rel_logged. Qed.
Print Assumptions C17_release_logged.

(* No lost wake-up, across the channel hand-off too: a lock is in the waiting list of a slot iff its thread is
   blocked (pc = TWait), it is not in the scheduler's hands (wake-up list / being re-acquired) and its next key
   lives in that slot; every such waiter is not stale and its next key has a holder or a pending wake-up. *)
Theorem C17_no_lost_wakeup : forall sf ns s, reach_any sf ns s ->
  (forall sl i, In i (waitS (lat s) sl) <->
     (pc s i = TWait /\ running (sch s) i = false /\ ~ In i (sched_wl (sch s)) /\
      exists k, key_at (locks (lat s) i) = Some k /\ sf k = sl)) /\
  (forall sl i, In i (waitS (lat s) sl) ->
     lstale (locks (lat s) i) = false /\
     exists k, key_at (locks (lat s) i) = Some k /\
               (holderK sf (lat s) k <> None \/ pending (lat s) (sched_wl (sch s)) k)) /\
  (forall sl, NoDup (waitS (lat s) sl)).
Proof. exact no_lost_wakeup. Qed.
Print Assumptions C17_no_lost_wakeup.

(* Channel / Close(): a lock is dropped (UnLock without send) only after Close(); everything in the channel was
   sent by an UnLock and is still drained (LPop does not look at closed); at most 100 locks are pending. *)
Theorem C17_channel : forall sf ns s, reach_any sf ns s ->
  (forall i, pc s i = TDrop -> closed (gl s) = true) /\
  (forall i, In i (chan s) -> pc s i = TUnl) /\ length (chan s) <= lock_chan_size.
Proof. exact closed_facts. Qed.
Print Assumptions C17_channel.

(* ---- liveness under the caller contract ----
   Caller contract [client_okb] (Model.v, over traces of client actions CLock / CRet / CUnlock): per lock: Lock, its
   return, then exactly one UnLock; a commit ts only on a non-stale lock and greater than the start ts; every lock
   that returned has been handed back. In the automaton the order is enforced by [exec] (LUnlock needs pc = TDone);
   what a client can still do wrong is to never take its LUnlock step (seed C17-5: no UnLock after a stale verdict).
   A schedule of a client_ok population and of run() that keeps taking enabled steps is a run of [progress_label]
   steps (LAcq, LUnlock, LPop, LRel, LWake, LTrig) that stops only in a [stuck] state. *)

(* termination: every such run from a reachable state has at most [pot s] steps (pot: explicit measure, ProofsLive.v),
   for any key lists, closed or not; so every schedule that keeps taking enabled steps reaches a stuck state *)
Theorem C17_reaches_quiescence : forall sf ns tr s s', reach_any sf ns s -> Forall progress_label tr ->
  run sf ns tr s = Some s' -> length tr + pot s' <= pot s /\ reach_any sf ns s'.
Proof. exact bounded_runs. Qed.
Print Assumptions C17_reaches_quiescence.

(* no deadlock, no latch left (distinct keys per Lock, scheduler not closed): where such a schedule stops, every
   transaction is released (or not started), no key has a holder and no waiting list has an entry; release never panics *)
Theorem C17_no_deadlock : forall sf ns s, reach sf ns s -> closed (gl s) = false -> stuck sf ns s ->
  (forall i, pc s i = TNew \/ pc s i = TRel) /\ (forall k, holderK sf (lat s) k = None) /\
  (forall sl, waitS (lat s) sl = []).
Proof. exact no_latch_held. Qed.
Print Assumptions C17_no_deadlock.

(* The caller contract tied to the system. [cproj] = the client actions of a run (CLock at LStart, CRet when a pc becomes
   TDone with the verdict, CUnlock at LUnlock). If they satisfy client_ok, no lock is left returned-but-not-unlocked. *)
Theorem C17_client_ok_run : forall sf ns tr s, run sf ns tr init_state = Some s ->
  client_okb (cproj sf ns tr init_state) = true -> forall i, pc s i <> TDone.
Proof. exact client_ok_no_done. Qed.
Print Assumptions C17_client_ok_run.

(* Liveness under the caller contract, in one statement: a run (distinct keys per Lock, not closed) whose client actions
   are client_ok and after which no step of a thread inside Lock() or of run() is enabled ends with every transaction
   released, no key held, no waiter. With C17_reaches_quiescence (such runs cannot go on for ever) this is: every
   schedule of a client_ok population that keeps taking enabled steps reaches quiescence with no latch held. *)
Theorem C17_live_client_ok : forall sf ns tr s, Forall (allowed (@NoDup key)) tr -> run sf ns tr init_state = Some s ->
  closed (gl s) = false -> client_okb (cproj sf ns tr init_state) = true -> sys_stuck sf ns s ->
  (forall i, pc s i = TNew \/ pc s i = TRel) /\ (forall k, holderK sf (lat s) k = None) /\
  (forall sl, waitS (lat s) sl = []).
Proof. exact live_client_ok. Qed.
Print Assumptions C17_live_client_ok.

(* The slot function itself (Slot.v: NewLatches' rounding, murmur3.Sum32 & mask; compared with the code on every key the
   drivers use): the index is always inside the slots array, which is at least as large as requested. All other theorems
   hold for an arbitrary slot function. *)
Theorem C17_slot_in_range : forall size key, (slot_id size key < round_pow2 size)%N /\ ((1 <= size)%N -> (size <= round_pow2 size)%N).
Proof. exact (fun size key => conj (slot_in_range size key) (round_pow2_ge size)). Qed.
Print Assumptions C17_slot_in_range.

(* The composite acquire() of latch.go (used by Lock() and wakeup()) is the iteration of the atomic steps *)
Theorem C17_acquire_is_steps : forall sf ns s i L' r, reach_any sf ns s -> pc s i = TAcq ->
  acquire sf (lat s) i = (L', r) ->
  exists n s', run sf ns (repeat (LAcq i) (S n)) s = Some s' /\ lat s' = L' /\ pc s' i = acq_post r /\
               chan s' = chan s /\ sch s' = sch s /\ gl s' = gl s.
Proof. exact acquire_refines. Qed.
Print Assumptions C17_acquire_is_steps.

(* The recycle rule, as far as the code guarantees it (this is the window left open in C17_stale_complete): recycle(t)
   only drops a node that nobody holds and whose maxCommitTS is >= 2 physical minutes older than t; t is the start ts of
   the acquiring lock (in-line) or the commit ts of a lock just released (spawned). Nothing relates t to the start ts of
   transactions that are still running: a transaction more than 2 minutes older than t can miss a conflict
   (made precise over reachable states by C17_stale_complete_window below). *)
Theorem C17_recycle_rule : forall sf L sl t k, qwf L -> nodeK sf (recycle_slot L sl t) k <> nodeK sf L k ->
  nodeK sf (recycle_slot L sl t) k = None /\ sf k = sl /\
  exists n, nodeK sf L k = Some n /\ nval n = None /\ (phys (nmax n) + expire_ms <= phys t)%N.
Proof. exact recycle_rule. Qed.
Print Assumptions C17_recycle_rule.

(* Stale, complete, WITH the recycle rule in the system (closes the window of C17_stale_complete exactly as far as the
   code does): a non-stale lock i holding k acquired it (EAcq in the log) such that every earlier release of k with
   commit c either has c <= start_i, or was forgotten by a later recycle entry ERecycle k cur m with c <= m (the dropped
   node dominated it) and m at least 2 physical minutes older than the recycler's timestamp cur; hence a conflict is
   missed (start_i < c) only by a transaction whose start ts is >= 2 physical minutes older than a timestamp that had
   already been passed to recycle (the start ts of an acquirer or the commit ts of a released lock). Nothing more holds:
   C17_ex_missed_conflict shows such a miss. *)
Theorem C17_stale_complete_window : forall sf ns s i k, reach_any sf ns s -> lstale (locks (lat s) i) = false ->
  In k (held (locks (lat s) i)) ->
  exists h1 h2, glog (lat s) = h1 ++ EAcq k i :: h2 /\
    forall j c, In (ERel k j c) h2 ->
      (c <= lstart (locks (lat s) i))%N \/
      exists cur m, In (ERecycle k cur m) h2 /\ (c <= m)%N /\ (phys m + expire_ms <= phys cur)%N /\
                    ((lstart (locks (lat s) i) < c)%N -> (phys (lstart (locks (lat s) i)) + expire_ms <= phys cur)%N).
Proof. exact stale_complete_window. Qed.
Print Assumptions C17_stale_complete_window.

(* Recycling (the external one and the in-line one of acquireSlot) never unlinks or alters the node of a key that has a
   holder: not a node some lock owns, not the node a waiter queues behind while it is held; waiting lists are untouched *)
Theorem C17_recycle_keeps_refs : forall sf ns s, reach_any sf ns s ->
  (forall i k sl t, In k (held (locks (lat s) i)) ->
     nodeK sf (recycle_slot (lat s) sl t) k = nodeK sf (lat s) k /\
     nodeK sf (maybe_recycle (lat s) sl t) k = nodeK sf (lat s) k) /\
  (forall w k sl t, In w (waitS (lat s) (sf k)) -> key_at (locks (lat s) w) = Some k -> holderK sf (lat s) k <> None ->
     nodeK sf (recycle_slot (lat s) sl t) k = nodeK sf (lat s) k /\
     nodeK sf (maybe_recycle (lat s) sl t) k = nodeK sf (lat s) k) /\
  (forall sl t w sl', In w (waitS (lat s) sl') -> In w (waitS (recycle_slot (lat s) sl t) sl')).
Proof. exact recycle_keeps_refs. Qed.
Print Assumptions C17_recycle_keeps_refs.

(* ... but "recycling never unlinks the node of a key that a WAITER waits for" is false: between releaseSlot (first
   waiter picked, node left without holder) and that waiter's wake-up, the node can be recycled while a second waiter
   still queues for the key. Harmless for wake-ups (waiters are found by key, C17_no_lost_wakeup holds across recycle),
   it only forgets the node's maxCommitTS under the 2-minute rule. Replayed on the code (driver case rw-0). *)
Theorem C17_recycle_waited_node_refuted :
  exists sf ns s w k sl t, reach_any sf ns s /\ In w (waitS (lat s) (sf k)) /\ key_at (locks (lat s) w) = Some k /\
    nodeK sf (lat s) k <> None /\ nodeK sf (recycle_slot (lat s) sl t) k = None.
Proof. exact recycle_waited_node_refuted. Qed.
Print Assumptions C17_recycle_waited_node_refuted.

(* The composite release() of latch.go (run()) is the iteration of the atomic steps; it never panics *)
Theorem C17_release_is_steps : forall sf ns s i L' wl pan, reach_any sf ns s -> sch s = SRel i [] ->
  release sf (lat s) i = (L', wl, pan) ->
  pan = false /\ exists n s', run sf ns (repeat LRel (S n)) s = Some s' /\ lat s' = L' /\ sch s' = next_sch wl /\
    pc s' i = TRel /\ chan s' = chan s /\ gl s' = gl s.
Proof. exact release_refines. Qed.
Print Assumptions C17_release_is_steps.

(* ---- non-vacuity: concrete reachable runs (one slot) ---- *)
Example C17_ex_reachable : exists s, run sf0 1 tr_finish init_state = Some s /\ reach sf0 1 s.
Proof.
  destruct (run sf0 1 tr_finish init_state) as [s|] eqn:E; [|vm_compute in E; discriminate].
  exists s. split; auto. eapply run_reach; [apply r_init | apply allowed_tr_finish | exact E].
Qed.
Example C17_ex_waiter :
  option_map (fun s => (swaiting (slots (lat s) 0%N), pc s 1, holderK sf0 (lat s) 2%N)) (run sf0 1 tr_contend init_state)
  = Some ([1], TWait, Some 0).
Proof. vm_compute. reflexivity. Qed.
Example C17_ex_stale :
  option_map (fun s => (lstale (locks (lat s) 1), holderK sf0 (lat s) 2%N, sch s)) (run sf0 1 tr_handoff init_state)
  = Some (true, Some 1, SRel 0 [1]).
Proof. vm_compute. reflexivity. Qed.
Example C17_ex_finish :
  option_map (fun s => (pc s 0, pc s 1, pc s 2, lstale (locks (lat s) 2), sch s, chan s, counter (gl s))) (run sf0 1 tr_finish init_state)
  = Some (TRel, TRel, TRel, false, SIdle, [], 3%N).
Proof. vm_compute. reflexivity. Qed.
(* the hypothesis "distinct keys per Lock" of C17_no_deadlock is necessary *)
Example C17_ex_dup_key_self_deadlock :
  exists s, run sf0 1 [LStart 0 [1;1]%N 5%N; LAcq 0; LAcq 0] init_state = Some s /\ pc s 0 = TWait /\
            In 0 (waitS (lat s) 0%N) /\ closed (gl s) = false /\ quiescent sf0 1 s.
Proof. exact dup_key_self_deadlock. Qed.
(* the hypothesis "not closed" is necessary: after Close() UnLock sends nothing (no panic), the latches of that
   lock stay held and a Lock() blocked behind it never returns — what scheduler.go does *)
Example C17_ex_closed_strands_waiter :
  exists s, run sf0 1 tr_closed init_state = Some s /\ reach sf0 1 s /\ closed (gl s) = true /\
            pc s 0 = TDrop /\ pc s 1 = TWait /\ holderK sf0 (lat s) 2%N = Some 0 /\ quiescent sf0 1 s.
Proof. exact closed_strands_waiter. Qed.

(* the caller contract on traces: seed C17-5 (Commit returns on a stale verdict without UnLock) is not client_ok;
   the repaired trace is; a commit ts on a stale lock, or not above the start ts, is not *)
Example C17_ex_client_ok :
  (client_okb [CLock 0 5%N; CRet 0 true] = false) /\
  (client_okb [CLock 0 5%N; CRet 0 true; CUnlock 0 0%N] = true) /\
  (client_okb [CLock 0 5%N; CLock 1 6%N; CRet 1 false; CUnlock 1 9%N; CRet 0 false; CUnlock 0 0%N] = true) /\
  (client_okb [CLock 0 5%N; CRet 0 true; CUnlock 0 9%N] = false) /\
  (client_okb [CLock 0 5%N; CRet 0 false; CUnlock 0 5%N] = false) /\
  (client_okb [CLock 0 5%N; CRet 0 false; CUnlock 0 7%N; CUnlock 0 7%N] = false).
Proof. vm_compute. repeat split. Qed.
(* in the system: T1 was handed key 2 stale (tr_handoff ... LWake: Lock() returned stale); if its client never takes
   LUnlock 1 (seed C17-5) that is the ONLY enabled step left besides starting new work, key 2 keeps holder 1 and T2,
   which needs key 2, is blocked behind it *)
Example C17_ex_seed5_client_blocks :
  option_map (fun s => (pc s 1, lstale (locks (lat s) 1), holderK sf0 (lat s) 2%N, pc s 2, swaiting (slots (lat s) 0%N),
                        sch s, chan s))
             (run sf0 1 (tr_handoff ++ [LRel; LWake; LTrig; LAcq 2]) init_state)
  = Some (TDone, true, Some 1, TWait, [2], SIdle, []).
Proof. vm_compute. reflexivity. Qed.

(* recycle drops an unheld node older than 2 minutes, keeps a held one and a young one (one slot) *)
Example C17_ex_recycle_rule :
  let L := set_slot init_lat 0%N (mkSlot [mkNode 1%N 0%N None; mkNode 2%N 0%N (Some 3); mkNode 4%N (N.shiftl 100000%N 18%N) None] []) in
  let L' := recycle_slot L 0%N (N.shiftl 130000%N 18%N) in
  (holderK sf0 L' 2%N, maxK sf0 L' 4%N, nodeK sf0 L' 1%N, length (squeue (slots L' 0%N))) = (Some 3, N.shiftl 100000%N 18%N, None, 2).
Proof. vm_compute. reflexivity. Qed.

(* the run of C17_recycle_waited_node_refuted completes: lock 1 re-creates the node, lock 2 is handed over stale by
   lock 1's commit 7 > 6 and everybody is released *)
Example C17_ex_waited_completes :
  option_map (fun s => (pc s 0, pc s 1, pc s 2, lstale (locks (lat s) 2), nodeK sf0 (lat s) 1%N, sch s))
             (run sf0 1 (tr_waited ++ tr_waited_rest) init_state)
  = Some (TRel, TRel, TRel, true, Some (mkNode 1%N 7%N None), SIdle).
Proof. vm_compute. reflexivity. Qed.
(* the window is real: key 1 released with commit 2u+1, its node recycled at 5u (2u+1 is > 2 min older); a lock with start
   1u < 2u+1 then acquires key 1 WITHOUT being stale: the conflict is missed, as C17_stale_complete_window allows *)
Example C17_ex_missed_conflict :
  let u := 18350080000%N in
  option_map (fun s => (pc s 1, lstale (locks (lat s) 1), holderK sf0 (lat s) 1%N))
    (run sf0 1 [LStart 0 [1]%N u; LAcq 0; LUnlock 0 (2 * u + 1)%N; LPop; LRel; LTrig; LRecycle 0%N (5 * u)%N;
                LStart 1 [1]%N (u + 1)%N; LAcq 1] init_state)
  = Some (TDone, false, Some 1).
Proof. vm_compute. reflexivity. Qed.

(* client actions of concrete runs: the complete run is client_ok; the run in which the stale lock 1 is never unlocked
   (seed C17-5) is not, and the projection is what one expects *)
Example C17_ex_cproj :
  (client_okb (cproj sf0 1 tr_finish init_state) = true) /\
  (client_okb (cproj sf0 1 (tr_handoff ++ [LRel; LWake; LTrig; LAcq 2]) init_state) = false) /\
  (cproj sf0 1 (tr_handoff ++ [LRel; LWake]) init_state
   = [CLock 0 1%N; CLock 1 2%N; CLock 2 7%N; CRet 0 false; CUnlock 0 5%N; CRet 1 true]).
Proof. vm_compute. repeat split. Qed.

Example C17_ex_slots :
  (murmur3_32 [97; 98; 99; 100; 101] = 3902511862 /\ murmur3_32 [97] = 1009084850 /\ round_pow2 3 = 4 /\
   slot_id 8 [97] = 2 /\ slot_id 1 [97; 7] = 0)%N.
Proof. vm_compute. repeat split. Qed.
