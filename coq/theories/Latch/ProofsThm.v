(* Latch/ProofsThm.v — the C17 statements derived from the invariant of reachable states. *)
From Coq Require Import NArith List Bool Arith Lia Sorting.Sorted.
From Verif Require Import Latch.Model Latch.ProofsOps Latch.ProofsBase Latch.ProofsInv Latch.ProofsAcq Latch.ProofsRel Latch.ProofsSys Latch.ProofsLive Latch.ProofsRec Latch.ProofsClient.
Import ListNotations.

Section Thm.
Variable sf : key -> sid.
Variable ns : N.
Notation holderK := (holderK sf).
Definition anyk : list key -> Prop := fun _ => True.
(* reach_any: no assumption on the key lists passed to Lock; reach: every Lock gets distinct keys *)
Definition reach_any : state -> Prop := reachable sf ns anyk.
Definition reach : state -> Prop := reachable sf ns (@NoDup key).
Notation reachable := reach_any.

Lemma reach_reach_any s : reach s -> reach_any s.
Proof. induction 1; [apply r_init | eapply r_step; eauto]. destruct l; simpl; auto. exact I. Qed.

Lemma any_Inv s : reach_any s -> Inv sf anyk s.
Proof. apply reachable_Inv; unfold anyk; auto. Qed.
Lemma distinct_Inv s : reach s -> Inv sf (StronglySorted N.lt) s.
Proof. apply reachable_Inv; [constructor | apply sort_keys_sorted]. Qed.
Lemma any_inv s : reach_any s ->
  inv sf anyk (lat s) (vrole s) (sched_wl (sch s)) (chan s) (vrel (sch s)) (started s).
Proof. intros R. apply (any_Inv s R). Qed.

Lemma exclusive s : reachable s ->
  (forall i k, In k (held (locks (lat s) i)) <-> holderK (lat s) k = Some i) /\
  (forall i j k, In k (held (locks (lat s) i)) -> In k (held (locks (lat s) j)) -> i = j) /\
  (forall i, pc s i = TDone -> lstale (locks (lat s) i) = false ->
     forall k, In k (lkeys (locks (lat s) i)) ->
       holderK (lat s) k = Some i /\ forall j, j <> i -> ~ In k (held (locks (lat s) j))).
Proof.
  intros R. pose proof (any_inv s R) as I.
  pose proof (i_hold I) as H.
  assert (U : forall i j k, In k (held (locks (lat s) i)) -> In k (held (locks (lat s) j)) -> i = j).
  { intros i j k A B. apply H in A. apply H in B. congruence. }
  split; [exact H|]. split; [exact U|].
  intros i PD NS.
  assert (FULL : held (locks (lat s) i) = lkeys (locks (lat s) i)).
  { pose proof (pc_role I i) as X. rewrite PD in X.
    destruct X as [X|X]; [congruence|]. unfold held. rewrite X. apply firstn_all. }
  intros k KI. rewrite <- FULL in KI. split; [apply H; auto|].
  intros j NE B. apply NE. symmetry. eapply U; eauto.
Qed.

(* every ERel entry of the log is a release performed for a lock whose UnLock was called *)
Lemma rel_logged s k j c : reach_any s -> In (ERel k j c) (glog (lat s)) -> pc s j = TUnl \/ pc s j = TRel.
Proof.
  intros R X. pose proof (any_inv s R) as I. pose proof (i_relpc I k j c X) as Y.
  pose proof (role_of_pc s j) as Z. destruct (pc s j); auto; destruct Y as [Y|Y]; rewrite Y in Z; try discriminate;
    destruct (running (sch s) j); discriminate.
Qed.

Lemma no_lost_wakeup s : reach_any s ->
  (forall sl i, In i (waitS (lat s) sl) <->
     (pc s i = TWait /\ running (sch s) i = false /\ ~ In i (sched_wl (sch s)) /\
      exists k, key_at (locks (lat s) i) = Some k /\ sf k = sl)) /\
  (forall sl i, In i (waitS (lat s) sl) ->
     lstale (locks (lat s) i) = false /\
     exists k, key_at (locks (lat s) i) = Some k /\
               (holderK (lat s) k <> None \/ pending (lat s) (sched_wl (sch s)) k)) /\
  (forall sl, NoDup (waitS (lat s) sl)).
Proof.
  intros R. pose proof (any_inv s R) as I. split; [|split; [|apply (i_wnd I)]]; intros sl i.
  - split.
    + intros W. destruct (i_wait I sl i W) as (A & _ & NW & k & K & S & _). apply vrole_wait in A. destruct A. eauto 8.
    + intros (P & NR & NW & k & K & S). pose proof (pc_role I i) as X. rewrite P, NR in X.
      destruct X as [X|(k' & K' & X)]; [contradiction|]. assert (k' = k) by congruence. subst. auto.
  - intros W. destruct (i_wait I sl i W) as (_ & S & _ & k & K & _ & H). eauto.
Qed.

Definition env_label (l : label) : Prop :=
  match l with LStart _ _ _ | LRecycle _ _ | LClose | LRecTask _ => True | _ => False end.
Definition quiescent (s : state) : Prop := forall l s', exec sf ns s l = Some s' -> env_label l.

Lemma argmax (f : lid -> N) (P : lid -> Prop) (l : list lid) :
  (forall x, P x \/ ~ P x) ->
  (forall x, In x l -> ~ P x) \/ exists m, In m l /\ P m /\ forall x, In x l -> P x -> (f x <= f m)%N.
Proof.
  intros D. induction l as [|a l IH]; [left; intros x []|].
  destruct (D a) as [PA|NPA], IH as [NO|(m & M1 & M2 & M3)].
  - right. exists a. repeat split; simpl; auto. intros y [<-|Y] PY; [lia | destruct (NO y Y PY)].
  - right. destruct (N.le_ge_cases (f a) (f m)).
    + exists m. repeat split; simpl; auto. intros y [<-|Y] PY; auto.
    + exists a. repeat split; simpl; auto. intros y [<-|Y] PY; [lia|]. specialize (M3 y Y PY). lia.
  - left. intros y [<-|Y]; auto.
  - right. exists m. repeat split; simpl; auto. intros y [<-|Y] PY; [contradiction | auto].
Qed.

(* in a quiescent state run() is idle, the channel is empty and every thread is outside the scheduler or blocked in
   Lock(); whatever the key lists are *)
Lemma quiescent_shape KP s : Inv sf KP s -> closed (gl s) = false -> quiescent s ->
  sch s = SIdle /\ chan s = [] /\ forall i, pc s i = TNew \/ pc s i = TRel \/ pc s i = TWait.
Proof.
  intros [I2 D] NC Q. pose proof I2 as [I R2].
  assert (SI : sch s = SIdle).
  { destruct (sch s) as [|i wl|wl|j wl|] eqn:SC; auto; exfalso.
    - destruct (rel_step sf ns _ s i wl I2 SC) as (a & k & L' & r & _ & _ & _ & _ & _ & _ & _ & _ & _ & E).
      apply (Q LRel _ E).
    - destruct wl as [|j wl]; [eapply (Q LWake); simpl; rewrite SC; reflexivity|].
      destruct (lstale (locks (lat s) j)) eqn:ST; eapply (Q LWake); simpl; rewrite SC, ST; reflexivity.
    - eapply (Q LWake); simpl; rewrite SC; reflexivity.
    - eapply (Q LTrig); simpl; rewrite SC; reflexivity. }
  assert (CE : chan s = []).
  { destruct (chan s) as [|i rest] eqn:CH; auto. exfalso.
    destruct (lacq (locks (lat s) i)) eqn:LA; eapply (Q LPop); simpl; rewrite SI, CH, LA; reflexivity. }
  split; [exact SI|]. split; [exact CE|]. rewrite SI, CE in I. simpl in I.
  intros i. destruct (pc s i) eqn:P; auto; exfalso.
  - destruct (acquire_slot sf (lat s) i) as [L' r] eqn:A. eapply (Q (LAcq i)). simpl. rewrite P, A. reflexivity.
  - eapply (Q (LUnlock i 0%N)). simpl. rewrite P, NC, CE. reflexivity.
  - pose proof (pc_role I i) as X. rewrite P in X. destruct X as [[]|X]; discriminate.
  - apply D in P. congruence.
Qed.

(* ... and when every lock's keys are strictly sorted nobody is blocked: a waiter with the largest next key k waits
   for a holder of k that must itself wait, for a key above k *)
Lemma quiescent_released s : Inv sf (StronglySorted N.lt) s -> closed (gl s) = false -> quiescent s ->
  forall i, pc s i = TNew \/ pc s i = TRel.
Proof.
  intros IV NC Q. destruct (quiescent_shape _ s IV NC Q) as (SI & CE & SH).
  destruct IV as [[I _] _]. rewrite SI, CE in I. simpl in I.
  set (f := fun i => match key_at (locks (lat s) i) with Some k => k | None => 0%N end).
  assert (DW : forall x, pc s x = TWait \/ pc s x <> TWait) by (intros x; destruct (pc s x); auto; right; discriminate).
  intros i. destruct (SH i) as [P|[P|P]]; auto. exfalso.
  assert (ST : In i (started s)) by (apply (pc_started I i); congruence).
  destruct (argmax f (fun x => pc s x = TWait) (started s) DW) as [NO|(m & M1 & M2 & M3)]; [destruct (NO i ST P)|].
  pose proof (pc_role I m) as X. rewrite M2, SI in X. simpl in X.
  destruct X as [[]|(k & K & W)].
  destruct (i_wait I _ _ W) as (_ & _ & _ & k' & K' & _ & HP).
  assert (k' = k) by congruence. subst k'.
  destruct HP as [HP|(j & [] & _)].
  destruct (holderK (lat s) k) as [h|] eqn:HK; [|congruence].
  apply (i_hold I) in HK.
  assert (PH : pc s h = TWait).
  { pose proof (pc_role I h) as X.
    assert (LA : lacq (locks (lat s) h) <> 0) by (intros E; unfold held in HK; rewrite E in HK; destruct HK).
    destruct (SH h) as [P'|[P'|P']]; auto; exfalso; rewrite P' in X; [destruct X; contradiction | contradiction]. }
  assert (SHH : In h (started s)) by (apply (pc_started I h); congruence).
  pose proof (pc_role I h) as X. rewrite PH, SI in X. simpl in X.
  destruct X as [[]|(kh & KH & _)].
  assert (LT : (k < kh)%N).
  { eapply sorted_prefix_lt; [apply (i_sorted I h) | exact KH | exact HK]. }
  specialize (M3 h SHH PH). unfold f in M3. rewrite K, KH in M3. lia.
Qed.
Lemma no_deadlock s : reach s -> closed (gl s) = false -> quiescent s -> forall i, pc s i = TNew \/ pc s i = TRel.
Proof. intros R. apply quiescent_released, distinct_Inv, R. Qed.

Fixpoint run (tr : list label) (s : state) : option state :=
  match tr with
  | [] => Some s
  | l :: r => match exec sf ns s l with Some s' => run r s' | None => None end
  end.
Lemma run_reach tr : forall s s', reach s -> Forall (allowed (@NoDup key)) tr -> run tr s = Some s' -> reach s'.
Proof.
  induction tr as [|l tr IH]; simpl; intros s s' R F E.
  - inversion E; subst; auto.
  - inversion F; subst. destruct (exec sf ns s l) as [s1|] eqn:X; [|discriminate].
    apply (IH s1 s'); auto. eapply r_step; eauto.
Qed.

(* no step of a client thread (acquire, UnLock of a returned lock) or of run() is enabled *)
Definition stuck (s : state) : Prop := forall l s', exec sf ns s l = Some s' -> ~ progress_label l.

Lemma stuck_quiescent s : stuck s -> quiescent s.
Proof. intros S l s' E. specialize (S l s' E). destruct l; simpl in *; auto; exfalso; apply S; exact I. Qed.

Lemma no_latch_held s : reach s -> closed (gl s) = false -> stuck s ->
  (forall i, pc s i = TNew \/ pc s i = TRel) /\ (forall k, holderK (lat s) k = None) /\ (forall sl, waitS (lat s) sl = []).
Proof.
  intros R NC S. pose proof (no_deadlock s R NC (stuck_quiescent s S)) as A.
  destruct (distinct_Inv s R) as [[I _] _]. split; auto. split.
  - intros k. destruct (holderK (lat s) k) as [h|] eqn:H; auto. exfalso.
    apply (i_hold I) in H.
    assert (Z : lacq (locks (lat s) h) = 0).
    { pose proof (pc_role I h) as X. destruct (A h) as [P|P]; rewrite P in X; tauto. }
    unfold held in H. rewrite Z in H. destruct H.
  - intros sl. destruct (waitS (lat s) sl) as [|w r] eqn:W; auto. exfalso.
    assert (X : In w (waitS (lat s) sl)) by (rewrite W; left; auto).
    destruct (i_wait I _ _ X) as (RW & _). apply vrole_wait in RW. destruct RW as [P _].
    destruct (A w); congruence.
Qed.

Lemma progress_allowed l : progress_label l -> allowed anyk l.
Proof. destruct l; simpl; auto; intros []. Qed.

(* termination: a run of client / scheduler steps from a reachable state has at most [pot s] steps *)
Lemma bounded_runs tr : forall s s', reach_any s -> Forall progress_label tr -> run tr s = Some s' ->
  length tr + pot s' <= pot s /\ reach_any s'.
Proof.
  induction tr as [|l tr IH]; simpl; intros s s' R F E.
  - inversion E; subst. split; [lia | auto].
  - inversion F; subst. destruct (exec sf ns s l) as [s1|] eqn:X; [|discriminate].
    assert (R1 : reach_any s1) by (eapply r_step; eauto; apply progress_allowed; auto).
    destruct (IH s1 s' R1 H2 E) as [B R'].
    pose proof (pot_step sf ns anyk s l s1 (any_Inv s R) X H1). split; [lia | auto].
Qed.

(* Lock() never reaches its panic("should never run here"): when it returns the lock is stale or complete *)
Lemma lock_returns_ok s i : reach_any s -> pc s i = TDone ->
  lstale (locks (lat s) i) = true \/ lacq (locks (lat s) i) = length (lkeys (locks (lat s) i)).
Proof.
  intros R P. pose proof (any_inv s R) as I.
  pose proof (pc_role I i) as X. rewrite P in X. exact X.
Qed.

(* the scheduler-glue facts: nothing is sent after Close; what was sent before is still drained *)
Lemma closed_facts s : reach_any s ->
  (forall i, pc s i = TDrop -> closed (gl s) = true) /\
  (forall i, In i (chan s) -> pc s i = TUnl) /\ length (chan s) <= lock_chan_size.
Proof.
  intros R. split; [apply (any_Inv s R)|]. split.
  - pose proof (any_inv s R) as I. intros i X. apply vrole_unl, (i_chan I i X).
  - induction R as [|s l s' R IH AL EX]; [simpl; unfold lock_chan_size; lia | exact (exec_chan_bound sf ns _ _ _ EX IH)].
Qed.

Definition acq_post (r : ares) : tpc := match r with ALocked => TWait | _ => TDone end.

Lemma acquire_loop_refines i L' r : forall fuel s,
  pc s i = TAcq -> lacq (locks (lat s) i) < length (lkeys (locks (lat s) i)) ->
  length (lkeys (locks (lat s) i)) - lacq (locks (lat s) i) <= fuel ->
  acquire_loop sf fuel (lat s) i = (L', r) ->
  exists n s', run (repeat (LAcq i) (S n)) s = Some s' /\ lat s' = L' /\ pc s' i = acq_post r /\
               chan s' = chan s /\ sch s' = sch s /\ gl s' = gl s.
Proof.
  induction fuel as [|f IH]; intros s P LT FU A; [lia|].
  simpl in A. destruct (Nat.ltb_spec (lacq (locks (lat s) i)) (length (lkeys (locks (lat s) i)))); [|lia].
  destruct (acquire_slot sf (lat s) i) as [L1 r1] eqn:AS.
  set (p1 := match r1 with ASuccess => if complete (locks L1 i) then TDone else TAcq | ALocked => TWait | AStale => TDone end).
  assert (EX : exec sf ns s (LAcq i) = Some (mkSt L1 (set_pc (pc s) i p1) (chan s) (sch s) (started s) (gl s)))
    by (simpl; rewrite P, AS; reflexivity).
  (* the loop stops after this slot *)
  assert (STOP : (L', r) = (L1, r1) -> p1 = acq_post r1 ->
            exists n s', run (repeat (LAcq i) (S n)) s = Some s' /\ lat s' = L' /\ pc s' i = acq_post r /\
                         chan s' = chan s /\ sch s' = sch s /\ gl s' = gl s).
  { intros X PP. inversion X; subst L' r. exists 0. eexists. cbn [run repeat]. rewrite EX. split; [reflexivity|].
    simpl. rewrite set_pc_same. auto. }
  destruct r1; [|apply STOP; auto..].
  pose proof (acquire_slot_locks sf _ _ _ _ LT AS i) as LK. rewrite upd_lock_same in LK. cbn [acq_lock] in LK.
  unfold p1 in *. destruct (complete (locks L1 i)) eqn:CP.
  - apply STOP; [|reflexivity]. rewrite <- A. destruct f; simpl; auto.
    unfold complete in CP. apply Nat.leb_le in CP.
    destruct (Nat.ltb_spec (lacq (locks L1 i)) (length (lkeys (locks L1 i)))); [lia | auto].
  - unfold complete in CP. apply Nat.leb_gt in CP.
    set (s1 := mkSt L1 (set_pc (pc s) i TAcq) (chan s) (sch s) (started s) (gl s)) in *.
    destruct (IH s1) as (n & s' & RN & E1 & E2 & E3 & E4 & E5); auto.
    + apply set_pc_same.
    + simpl. rewrite LK in *. simpl in *. lia.
    + exists (S n), s'. split; auto. change (repeat (LAcq i) (S (S n))) with (LAcq i :: repeat (LAcq i) (S n)).
      cbn [run]. rewrite EX. exact RN.
Qed.

(* Lock(): the result of the composite acquire on a thread inside Lock() is reached by iterating LAcq *)
Lemma acquire_refines s i L' r : reach_any s -> pc s i = TAcq -> acquire sf (lat s) i = (L', r) ->
  exists n s', run (repeat (LAcq i) (S n)) s = Some s' /\ lat s' = L' /\ pc s' i = acq_post r /\
               chan s' = chan s /\ sch s' = sch s /\ gl s' = gl s.
Proof.
  intros R P A. pose proof (any_inv s R) as I.
  pose proof (pc_role I i) as X. rewrite P in X.
  destruct X as [S LT]. unfold acquire in A. rewrite S in A.
  apply (acquire_loop_refines i L' r (length (lkeys (locks (lat s) i))) s P LT); [lia | exact A].
Qed.

Lemma run_agree tr : forall s s' m m', reach_any s -> agree m s -> run tr s = Some s' ->
  client_run (cproj sf ns tr s) m = Some m' -> agree m' s'.
Proof.
  induction tr as [|l tr IH]; simpl; intros s s' m m' R A E C.
  - inversion E; inversion C; subst; auto.
  - destruct (exec sf ns s l) as [s1|] eqn:X; [|discriminate].
    rewrite client_run_app in C. destruct (client_run (cstep s l s1) m) as [m1|] eqn:C1; [|discriminate].
    assert (R1 : reach_any s1) by (eapply r_step; eauto; destruct l; simpl; auto; exact Logic.I).
    eapply IH; eauto. eapply step_agree; eauto. apply (any_Inv s R).
Qed.
Lemma client_run_ids tr : forall m m' i c, client_run tr m = Some m' -> cfind i m' = Some c ->
  cfind i m <> None \/ In i (ids_of tr).
Proof.
  induction tr as [|e tr IH]; simpl; intros m m' i c R F.
  - inversion R; subst. left. congruence.
  - destruct e as [j st|j b|j cc]; destruct (cfind j m) as [[st0|st0 b0|]|] eqn:FJ; try discriminate;
      try (destruct (_ || _); [|discriminate]);
      (destruct (IH _ _ i c R F) as [N|N]; [|right; right; auto]);
      rewrite cfind_cset in N; (destruct (Nat.eqb_spec j i); [subst; right; left; auto | left; auto]).
Qed.

(* a run whose client actions satisfy client_ok leaves no lock returned-but-not-unlocked *)
Lemma client_ok_no_done tr s : run tr init_state = Some s -> client_okb (cproj sf ns tr init_state) = true ->
  forall i, pc s i <> TDone.
Proof.
  intros E OK i P. unfold client_okb in OK.
  destruct (client_run (cproj sf ns tr init_state) []) as [m|] eqn:C; [|discriminate].
  assert (A : agree m s).
  { eapply run_agree; eauto; [apply r_init | intros x; reflexivity]. }
  pose proof (A i) as Ai. unfold expected in Ai. rewrite P in Ai.
  destruct (client_run_ids _ _ _ _ _ C Ai) as [N|N]; [simpl in N; congruence|].
  rewrite forallb_forall in OK. specialize (OK i N). rewrite Ai in OK. discriminate.
Qed.

(* the steps of the client THREADS inside Lock() and of run(): what goes on without any decision of the client *)
Definition sys_label (l : label) : Prop := match l with LAcq _ | LPop | LRel | LWake | LTrig => True | _ => False end.
Definition sys_stuck (s : state) : Prop := forall l s', exec sf ns s l = Some s' -> ~ sys_label l.

Lemma live_client_ok tr s : Forall (allowed (@NoDup key)) tr -> run tr init_state = Some s ->
  closed (gl s) = false -> client_okb (cproj sf ns tr init_state) = true -> sys_stuck s ->
  (forall i, pc s i = TNew \/ pc s i = TRel) /\ (forall k, holderK (lat s) k = None) /\ (forall sl, waitS (lat s) sl = []).
Proof.
  intros F E NC OK SS. apply no_latch_held; auto.
  - eapply run_reach; eauto. apply r_init.
  - intros l s' X PL. destruct l; simpl in PL; try contradiction; try (eapply SS; eauto; exact Logic.I).
    simpl in X. destruct (pc s i) eqn:P; try discriminate. eapply client_ok_no_done; eauto.
Qed.

(* latch.recycle(t) on slot sl changes the node of a key only by dropping it, and only if nobody holds it and its
   maxCommitTS is at least 2 physical minutes older than t; held nodes and younger nodes are untouched *)
Lemma recycle_rule L sl t k : qwf L -> nodeK sf (recycle_slot L sl t) k <> nodeK sf L k ->
  nodeK sf (recycle_slot L sl t) k = None /\ sf k = sl /\
  exists n, nodeK sf L k = Some n /\ nval n = None /\ (phys (nmax n) + expire_ms <= phys t)%N.
Proof.
  intros Q NE. rewrite recycle_nodeK in * by auto.
  destruct (N.eqb_spec (sf k) sl) as [E|E]; [|congruence].
  destruct (nodeK sf L k) as [n|] eqn:F; [|congruence].
  destruct (keep_node t n) eqn:K; [congruence|]. split; auto. split; auto. exists n. split; auto.
  apply keep_node_false. exact K.
Qed.
(* the timestamps recycle is called with: the start ts of the acquiring lock (in-line, when the slot has >= 5 nodes),
   or the commit ts (> start ts) of the lock run() just released (spawned task) *)
Lemma recycle_inline_ts L i k : key_at (locks L i) = Some k ->
  acquire_slot sf L i = acquire_core sf (maybe_recycle L (sf k) (lstart (locks L i))) i.
Proof. intros K. unfold acquire_slot. rewrite K. reflexivity. Qed.
Lemma recycle_spawn_ts l g t sl : In (t, sl) (rtasks (trigger l g)) -> In (t, sl) (rtasks g) \/ (t = lcommit l /\ (lstart l < lcommit l)%N).
Proof.
  destruct (trigger_cases l g) as [[-> LT]| ->]; cbn [rtasks]; [|left; assumption].
  intros X. apply in_app_or in X. destruct X as [X|[X|[]]]; [left; exact X|].
  inversion X; subst. right. split; [reflexivity | exact LT].
Qed.

(* recycling never unlinks (nor changes) the node of a key that has a holder: neither the node a lock owns, nor the
   node a waiter queues behind while it is held *)
Lemma recycle_keeps_held L sl t k : qwf L -> holderK L k <> None ->
  nodeK sf (recycle_slot L sl t) k = nodeK sf L k /\
  nodeK sf (maybe_recycle L sl t) k = nodeK sf L k.
Proof.
  intros Q H.
  assert (A : nodeK sf (recycle_slot L sl t) k = nodeK sf L k).
  { rewrite recycle_nodeK by auto. destruct (N.eqb (sf k) sl); auto.
    unfold ProofsOps.holderK in H. destruct (nodeK sf L k) as [n|]; auto.
    unfold keep_node. destruct (nval n); [auto | congruence]. }
  split; auto. unfold maybe_recycle. destruct (Nat.leb _ _); auto.
Qed.
Lemma recycle_keeps_refs s : reach_any s ->
  (forall i k sl t, In k (held (locks (lat s) i)) ->
     nodeK sf (recycle_slot (lat s) sl t) k = nodeK sf (lat s) k /\
     nodeK sf (maybe_recycle (lat s) sl t) k = nodeK sf (lat s) k) /\
  (forall w k sl t, In w (waitS (lat s) (sf k)) -> key_at (locks (lat s) w) = Some k -> holderK (lat s) k <> None ->
     nodeK sf (recycle_slot (lat s) sl t) k = nodeK sf (lat s) k /\
     nodeK sf (maybe_recycle (lat s) sl t) k = nodeK sf (lat s) k) /\
  (forall sl t w sl', In w (waitS (lat s) sl') -> In w (waitS (recycle_slot (lat s) sl t) sl')).
Proof.
  intros R. pose proof (any_inv s R) as I. pose proof (i_q I) as Q. split; [|split].
  - intros i k sl t H. apply recycle_keeps_held; auto. apply (i_hold I) in H. congruence.
  - intros w k sl t _ _ H. apply recycle_keeps_held; auto.
  - intros sl t w sl' X. rewrite recycle_waitS. exact X.
Qed.

Lemma any_recok s : reach_any s -> rec_ok (glog (lat s)).
Proof. intros R. eapply reachable_recok with (KP := anyk); eauto; unfold anyk; auto. Qed.

Lemma stale_complete_window s i k : reach_any s -> lstale (locks (lat s) i) = false ->
  In k (held (locks (lat s) i)) ->
  exists h1 h2, glog (lat s) = h1 ++ EAcq k i :: h2 /\
    forall j c, In (ERel k j c) h2 ->
      (c <= lstart (locks (lat s) i))%N \/
      exists cur m, In (ERecycle k cur m) h2 /\ (c <= m)%N /\ (phys m + expire_ms <= phys cur)%N /\
                    ((lstart (locks (lat s) i) < c)%N -> (phys (lstart (locks (lat s) i)) + expire_ms <= phys cur)%N).
Proof.
  intros R S H. destruct (i_acqok (any_inv s R) i k S H) as (h1 & h2 & E & F).
  exists h1, h2. split; auto. intros j c X.
  destruct (rel_live_or_recycled _ _ _ _ X) as [A|(a & cur & m & b & E2 & B)]; [left; auto|].
  right. exists cur, m.
  assert (RO := any_recok s R). rewrite E, E2 in RO.
  destruct (RO ((h1 ++ [EAcq k i]) ++ a) k cur m b) as [EXP DOM].
  { rewrite <- !app_assoc. reflexivity. }
  split; [rewrite E2; apply in_or_app; right; left; auto|].
  split; [auto|]. split; [auto|].
  intros LT. pose proof (DOM c B). assert (PM : (phys (lstart (locks (lat s) i)) <= phys m)%N) by (apply phys_mono; lia). lia.
Qed.

Lemma release_loop_refines i L' : forall fuel s wl0 wacc wl pan,
  reach_any s -> sch s = SRel i wl0 -> lacq (locks (lat s) i) <= fuel ->
  release_loop sf fuel (lat s) i wacc = (L', wl, pan) ->
  pan = false /\ exists n s' new, wl = wacc ++ new /\ run (repeat LRel (S n)) s = Some s' /\ lat s' = L' /\
    sch s' = next_sch (wl0 ++ new) /\ pc s' i = TRel /\ chan s' = chan s /\ gl s' = gl s.
Proof.
  induction fuel as [|f IH]; intros s wl0 wacc wl pan R SC FU A;
    destruct (rel_step sf ns _ s i wl0 (proj1 (any_Inv s R)) SC)
      as (a & k & L1 & r1 & AQ & _ & RS & _ & _ & NP & _ & LI & _ & E); [lia|].
  simpl in A. rewrite AQ, RS in A.
  assert (NEW : exists new1, match r1 with RWake w => wl0 ++ [w] | _ => wl0 end = wl0 ++ new1 /\
                             release_loop sf f L1 i (wacc ++ new1) = (L', wl, pan)).
  { destruct r1; [exists [] | exists [w] | contradiction]; rewrite ?app_nil_r; auto. }
  destruct NEW as (new1 & NW & A1). cbv zeta in E. rewrite NW in E.
  assert (R1 : reach_any _) by (apply (r_step _ _ _ s LRel _ R Logic.I E)).
  destruct a.
  - assert (X : (L', wl, pan) = (L1, wacc ++ new1, false)).
    { rewrite <- A1. destruct f; simpl; [|rewrite LI]; reflexivity. }
    inversion X; subst L' wl pan. split; auto. exists 0. eexists. exists new1. cbn [run repeat]. rewrite E.
    repeat split; auto. apply set_pc_same.
  - match type of E with _ = Some ?x => set (s1 := x) in * end.
    destruct (IH s1 (wl0 ++ new1) (wacc ++ new1) wl pan R1 eq_refl) as (PF & n & s' & new & W & RN & LE & SE & PE & CE & GE);
      [cbn [s1 lat]; rewrite LI; cbn [lacq set_acq]; lia | exact A1 |].
    split; auto. exists (S n), s', (new1 ++ new). change (repeat LRel (S (S n))) with (LRel :: repeat LRel (S n)).
    cbn [run]. rewrite E. rewrite !app_assoc. repeat split; auto.
Qed.

(* run(): the result of the composite release on the lock just received is reached by iterating LRel *)
Lemma release_refines s i L' wl pan : reach_any s -> sch s = SRel i [] -> release sf (lat s) i = (L', wl, pan) ->
  pan = false /\ exists n s', run (repeat LRel (S n)) s = Some s' /\ lat s' = L' /\ sch s' = next_sch wl /\
    pc s' i = TRel /\ chan s' = chan s /\ gl s' = gl s.
Proof.
  intros R SC A. unfold release in A.
  destruct (release_loop_refines i L' _ s [] [] wl pan R SC (le_n _) A) as (PF & n & s' & new & W & RN & LE & SE & PE & CE & GE).
  split; auto. exists n, s'. simpl in W, SE. subst new. repeat split; auto.
Qed.

End Thm.
