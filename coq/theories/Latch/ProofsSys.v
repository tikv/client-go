(* Latch/ProofsSys.v — the system automaton [exec] preserves the invariant: reachable states. *)
From Coq Require Import NArith List Bool Arith Lia.
From Verif Require Import Latch.Model Latch.ProofsOps Latch.ProofsBase Latch.ProofsInv Latch.ProofsAcq Latch.ProofsRel.
Import ListNotations.

(* All the ways a step [EX : exec sf ns s l = Some s'] can succeed: one goal per branch of [exec] (and of sched_acq)
   that returns a state, s' replaced by that state, the tests that led there as hypotheses.  For facts that follow
   from the shape of the new state alone. *)
Ltac exec_cases EX :=
  match type of EX with
  | exec _ _ _ ?l = Some ?s' =>
    destruct l; simpl in EX; unfold sched_acq in EX;
    repeat (match type of EX with
            | context [match ?x with _ => _ end] => destruct x eqn:?
            | context [if ?x then _ else _] => destruct x eqn:?
            end; try discriminate);
    inversion EX; subst s'
  end.

Section Sys.
Variable sf : key -> sid.
Variable ns : N.
(* AK: what the caller guarantees about the key list of a Lock; KP: what then holds for the sorted list *)
Variable AK : list key -> Prop.
Variable KP : list key -> Prop.
Hypothesis KP_nil : KP [].
Hypothesis AK_KP : forall ks, AK ks -> KP (sort_keys ks).
Notation holderK := (holderK sf).
Notation maxK := (maxK sf).
Notation inv := (inv sf KP).

Definition running (c : spc) (i : lid) : bool := match c with SRun j _ => Nat.eqb j i | _ => false end.
(* the role a lock plays for the invariant: a blocked lock that wakeup() is busy re-acquiring (SRun) counts as
   acquiring; a lock dropped by UnLock after Close() stays what it was, returned and never released *)
Definition vrole (s : state) (i : lid) : role :=
  match pc s i with
  | TNew => RNew | TAcq => RAcq
  | TWait => if running (sch s) i then RAcq else RWait
  | TDone => RDone | TUnl => RUnl | TRel => RRel | TDrop => RDone
  end.
Definition sched_wl (c : spc) : list lid := match c with SIdle | STrig => [] | SRel _ wl => wl | SWake wl => wl | SRun _ wl => wl end.
Definition vrel (c : spc) : option lid := match c with SRel i _ => Some i | _ => None end.

Definition Inv2 (s : state) : Prop :=
  inv (lat s) (vrole s) (sched_wl (sch s)) (chan s) (vrel (sch s)) (started s) /\
  (forall j wl, sch s = SRun j wl -> pc s j = TWait).
Definition Inv (s : state) : Prop := Inv2 s /\ (forall i, pc s i = TDrop -> closed (gl s) = true).

Definition allowed (l : label) : Prop := match l with LStart _ ks _ => AK ks | _ => True end.
Inductive reachable : state -> Prop :=
| r_init : reachable init_state
| r_step s l s' : reachable s -> allowed l -> exec sf ns s l = Some s' -> reachable s'.

Lemma Inv_init : Inv init_state.
Proof. split; [split; [apply inv_init; auto | discriminate] | discriminate]. Qed.

Lemma vrole_frame s s' i :
  (forall x, x <> i -> pc s' x = pc s x) -> (forall x, x <> i -> running (sch s') x = running (sch s) x) ->
  forall x, vrole s' x = if Nat.eqb x i then vrole s' i else vrole s x.
Proof.
  intros P R x. destruct (Nat.eqb_spec x i); [subst; auto|]. unfold vrole. rewrite P, R; auto.
Qed.
Lemma running_next wl x : running (next_sch wl) x = false.
Proof. destruct wl; reflexivity. Qed.
Lemma sched_wl_next wl : sched_wl (next_sch wl) = wl.
Proof. destruct wl; reflexivity. Qed.
Lemma vrel_next wl : vrel (next_sch wl) = None.
Proof. destruct wl; reflexivity. Qed.
Lemma set_pc_same p i v : set_pc p i v i = v.
Proof. unfold set_pc. rewrite Nat.eqb_refl. auto. Qed.
Lemma set_pc_other p i v x : x <> i -> set_pc p i v x = p x.
Proof. unfold set_pc. destruct (Nat.eqb_spec x i); [contradiction | auto]. Qed.

Lemma vrole_wait s j : vrole s j = RWait -> pc s j = TWait /\ running (sch s) j = false.
Proof. unfold vrole. destruct (pc s j); try discriminate. destruct (running (sch s) j); [discriminate | auto]. Qed.

Lemma role_of_pc s i :
  match pc s i with
  | TNew => vrole s i = RNew | TAcq => vrole s i = RAcq
  | TWait => vrole s i = if running (sch s) i then RAcq else RWait
  | TDone => vrole s i = RDone | TUnl => vrole s i = RUnl | TRel => vrole s i = RRel | TDrop => vrole s i = RDone
  end.
Proof. unfold vrole. destruct (pc s i); auto. Qed.
(* what the invariant says of lock i, read off its program counter *)
Lemma pc_role s wl ch rel st : inv (lat s) (vrole s) wl ch rel st -> forall i,
  match pc s i with
  | TNew => lacq (locks (lat s) i) = 0 /\ lstale (locks (lat s) i) = false
  | TAcq => lstale (locks (lat s) i) = false /\ lacq (locks (lat s) i) < length (lkeys (locks (lat s) i))
  | TWait => if running (sch s) i
             then lstale (locks (lat s) i) = false /\ lacq (locks (lat s) i) < length (lkeys (locks (lat s) i))
             else In i wl \/ exists k, key_at (locks (lat s) i) = Some k /\ In i (waitS (lat s) (sf k))
  | TDone | TDrop => lstale (locks (lat s) i) = true \/ lacq (locks (lat s) i) = length (lkeys (locks (lat s) i))
  | TUnl => In i ch \/ rel = Some i
  | TRel => lacq (locks (lat s) i) = 0
  end.
Proof.
  intros I i. pose proof (i_role I i) as X. pose proof (role_of_pc s i) as Y.
  destruct (pc s i); try (rewrite Y in X; exact X). destruct (running (sch s) i); rewrite Y in X; exact X.
Qed.
Lemma pc_started s wl ch rel st : inv (lat s) (vrole s) wl ch rel st -> forall i, pc s i <> TNew -> In i st.
Proof.
  intros I i P. apply (i_started I). pose proof (role_of_pc s i) as Y.
  destruct (pc s i); try congruence. destruct (running (sch s) i); congruence.
Qed.
Lemma vrole_unl s i : vrole s i = RUnl -> pc s i = TUnl.
Proof. pose proof (role_of_pc s i) as Y. destruct (pc s i); try congruence. destruct (running (sch s) i); congruence. Qed.

(* one releaseSlot of run(): under the invariant the step LRel is enabled whenever the scheduler is inside release(i);
   its outcome, and what it does to the lock records *)
Lemma rel_step s i wl : Inv2 s -> sch s = SRel i wl ->
  exists a k L' r,
    lacq (locks (lat s) i) = S a /\ nth_error (lkeys (locks (lat s) i)) a = Some k /\
    release_slot sf (lat s) i = (L', r) /\ rel_effect sf (lat s) i k a L' r /\ qwf L' /\ r <> RPanic /\
    pc s i = TUnl /\ locks L' i = set_acq (locks (lat s) i) a /\
    (forall x, x <> i -> locks L' x = locks (lat s) x \/
       (pc s x = TWait /\ locks L' x = set_stale (set_acq (locks (lat s) x) (S (lacq (locks (lat s) x)))))) /\
    exec sf ns s LRel =
    Some (mkSt L' (match a with O => set_pc (pc s) i TRel | _ => pc s end) (chan s)
               (let wl' := match r with RWake w => wl ++ [w] | _ => wl end in
                match a with O => next_sch wl' | _ => SRel i wl' end) (started s) (gl s)).
Proof.
  intros [I _] SC. rewrite SC in I. cbn [sched_wl vrel] in I.
  destruct (i_rel I eq_refl) as (RI & _ & POS).
  destruct (lacq (locks (lat s) i)) as [|a] eqn:AQ; [lia|].
  destruct (nth_error (lkeys (locks (lat s) i)) a) as [k|] eqn:K.
  2:{ apply nth_error_None in K. pose proof (i_acq I i). lia. }
  destruct (rel_pre_facts sf KP _ _ _ _ _ _ _ _ I AQ K) as (_ & _ & HK & _ & _ & NIW & _).
  destruct (release_slot sf (lat s) i) as [L' r] eqn:RS.
  destruct (release_slot_spec sf _ _ _ _ _ _ AQ K HK (NIW _) RS (i_q I)) as (EF & Q').
  destruct (rel_effect_locks sf _ _ _ _ _ _ EF) as [LI LX].
  exists a, k, L', r. repeat split; auto.
  - intros ->. destruct EF as (? & ? & ? & [] & _).
  - apply vrole_unl, RI.
  - intros x NE. destruct (LX x NE) as [E|[W E]]; [left; exact E | right].
    destruct (i_wait I _ _ W) as (RW & _). apply vrole_wait in RW. split; [apply RW | exact E].
  - simpl. rewrite SC, RS, LI. cbn [lacq set_acq]. destruct r; [| |destruct EF as (? & ? & ? & [] & _)]; destruct a; reflexivity.
Qed.

(* one step of wakeup(): the list is empty; or its head j was handed the latch stale by releaseSlot and Lock() just
   returns; or one acquireSlot runs for j, the head of the list or the lock wakeup() is busy with *)
Lemma wake_step s s' : Inv2 s -> exec sf ns s LWake = Some s' ->
  (sch s = SWake [] /\ s' = mkSt (lat s) (pc s) (chan s) STrig (started s) (gl s)) \/
  exists j wl, pc s j = TWait /\
    ((sch s = SWake (j :: wl) /\ lstale (locks (lat s) j) = true /\
      s' = mkSt (lat s) (set_pc (pc s) j TDone) (chan s) (next_sch wl) (started s) (gl s)) \/
     (lacq (locks (lat s) j) < length (lkeys (locks (lat s) j)) /\ s' = sched_acq sf s j wl /\
      (sch s = SWake (j :: wl) /\ lstale (locks (lat s) j) = false \/ sch s = SRun j wl))).
Proof.
  intros [I R2] EX. simpl in EX. destruct (sch s) as [|i wl|[|j wl]|j wl|] eqn:SC; try discriminate.
  - left. inversion EX. auto.
  - right. exists j, wl. simpl in I. destruct (i_wl I j (or_introl eq_refl)) as (RJ & NS).
    split; [apply vrole_wait, RJ|].
    destruct (lstale (locks (lat s) j)) eqn:ST; inversion EX; [left; auto | right].
    destruct (NS eq_refl) as (k & KA & _). split; [apply nth_error_Some; unfold key_at in KA; congruence | auto].
  - right. exists j, wl. pose proof (R2 _ _ eq_refl) as PJ. split; [exact PJ|]. right.
    pose proof (i_role I j) as X. unfold vrole in X. rewrite PJ, SC in X. simpl in X. rewrite Nat.eqb_refl in X.
    inversion EX. split; [apply X | auto].
Qed.

(* wakeup() runs one acquireSlot for the lock j it is busy with: the head of its list (wl0 = j :: wl) or the lock
   of SRun (wl0 = wl) *)
Lemma Inv2_sched_acq s j wl wl0 :
  inv (lat s) (vrole s) wl0 (chan s) None (started s) -> acq_pre (lat s) (vrole s) wl0 wl None j ->
  pc s j = TWait -> lacq (locks (lat s) j) < length (lkeys (locks (lat s) j)) ->
  (forall y, y <> j -> running (sch s) y = false) ->
  Inv2 (sched_acq sf s j wl).
Proof.
  intros I PRE PJ LT OTH. unfold sched_acq. destruct (acquire_slot sf (lat s) j) as [L' r] eqn:A.
  assert (G : forall rl', (forall x, rl' x = if Nat.eqb x j then acq_role r (locks L' j) else vrole s x) ->
            inv L' rl' wl (chan s) None (started s)).
  { intros rl' R'. eapply inv_acquire_slot; eauto. }
  destruct r; [destruct (complete (locks L' j)) eqn:CP|..]; unfold Inv2; cbn [lat pc chan sch started];
    (split; [|try (intros j0 wl0' E; destruct wl; simpl in E; discriminate)]).
  - rewrite sched_wl_next, vrel_next. apply G. intros x.
    rewrite (vrole_frame s _ j) by (simpl; auto using set_pc_other; intros; rewrite running_next, OTH; auto).
    destruct (Nat.eqb_spec x j); auto. unfold vrole; simpl. rewrite set_pc_same; try rewrite CP; auto.
  - apply G. intros x.
    rewrite (vrole_frame s _ j) by (simpl; auto; intros y NY; rewrite OTH by exact NY; destruct (Nat.eqb_spec j y); congruence).
    destruct (Nat.eqb_spec x j); auto. unfold vrole; simpl. rewrite PJ, Nat.eqb_refl; try rewrite CP; auto.
  - intros j0 wl0' E. inversion E; subst. auto.
  - rewrite sched_wl_next, vrel_next. apply G. intros x.
    rewrite (vrole_frame s _ j) by (simpl; auto; intros; rewrite running_next, OTH; auto).
    destruct (Nat.eqb_spec x j); auto. unfold vrole; simpl. rewrite PJ, running_next. auto.
  - rewrite sched_wl_next, vrel_next. apply G. intros x.
    rewrite (vrole_frame s _ j) by (simpl; auto using set_pc_other; intros; rewrite running_next, OTH; auto).
    destruct (Nat.eqb_spec x j); auto. unfold vrole; simpl. rewrite set_pc_same. auto.
Qed.

Lemma Inv2_step s l s' : Inv2 s -> allowed l -> exec sf ns s l = Some s' -> Inv2 s'.
Proof.
  intros [I R2] AL EX. destruct l; simpl in EX.
  - (* LStart *)
    destruct (pc s i) eqn:P; try discriminate. inversion EX; subst s'; clear EX. simpl.
    assert (RI : vrole s i = RNew) by (unfold vrole; rewrite P; auto).
    split.
    + eapply inv_start; eauto. intros x. simpl.
      rewrite (vrole_frame s _ i) by (simpl; auto using set_pc_other).
      destruct (Nat.eqb_spec x i); auto. unfold vrole; simpl. rewrite set_pc_same.
      destruct (complete (gen_lock ks st)); auto.
    + simpl. intros j wl E. specialize (R2 j wl E). rewrite set_pc_other; auto. congruence.
  - (* LAcq *)
    destruct (pc s i) eqn:P; try discriminate.
    destruct (acquire_slot sf (lat s) i) as [L' r] eqn:A. inversion EX; subst s'; clear EX. simpl.
    assert (RI : vrole s i = RAcq) by (unfold vrole; rewrite P; auto).
    assert (NR : running (sch s) i = false).
    { destruct (sch s) eqn:E; auto. simpl. destruct (Nat.eqb_spec j i); auto. subst. rewrite (R2 _ _ eq_refl) in P. discriminate. }
    assert (LT : lacq (locks (lat s) i) < length (lkeys (locks (lat s) i))).
    { pose proof (i_role I i) as X. rewrite RI in X. tauto. }
    split.
    + eapply inv_acquire_slot; eauto.
      * left. split; auto.
      * intros x. rewrite (vrole_frame s _ i) by (simpl; auto using set_pc_other).
        destruct (Nat.eqb_spec x i); auto. unfold vrole; simpl. rewrite set_pc_same, NR.
        unfold acq_role. destruct r; auto. destruct (complete (locks L' i)); auto.
    + simpl. intros j wl E. specialize (R2 j wl E). rewrite set_pc_other; auto. congruence.
  - (* LUnlock *)
    destruct (pc s i) eqn:P; try discriminate.
    assert (RI : vrole s i = RDone) by (unfold vrole; rewrite P; auto).
    destruct (closed (gl s)).
    + inversion EX; subst s'; clear EX. simpl. split.
      * eapply inv_ext_role; [apply inv_commit; exact I|]. intros x.
        rewrite (vrole_frame s _ i) by (simpl; auto using set_pc_other).
        destruct (Nat.eqb_spec x i); auto. subst. rewrite RI. unfold vrole; simpl. rewrite set_pc_same. auto.
      * simpl. intros j wl E. specialize (R2 j wl E). rewrite set_pc_other; auto. congruence.
    + destruct (Nat.ltb (length (chan s)) lock_chan_size); try discriminate.
      inversion EX; subst s'; clear EX. simpl. split.
      * eapply inv_send; [apply inv_commit; exact I | exact RI |]. intros x.
        rewrite (vrole_frame s _ i) by (simpl; auto using set_pc_other).
        destruct (Nat.eqb_spec x i); auto. unfold vrole; simpl. rewrite set_pc_same. auto.
      * simpl. intros j wl E. specialize (R2 j wl E). rewrite set_pc_other; auto. congruence.
  - (* LPop *)
    destruct (sch s) eqn:SC; try discriminate. destruct (chan s) as [|i rest] eqn:CH; try discriminate.
    simpl in I. destruct (lacq (locks (lat s) i)) eqn:AQ; inversion EX; subst s'; clear EX; simpl.
    + split; [|discriminate]. eapply inv_pop_done; eauto. intros x.
      rewrite (vrole_frame s _ i) by (simpl; auto using set_pc_other; rewrite SC; auto).
      destruct (Nat.eqb_spec x i); auto. unfold vrole; simpl. rewrite set_pc_same. auto.
    + split; [|discriminate].
      eapply inv_ext_role; [apply inv_pop_rel; [exact I | simpl; rewrite AQ; lia]|].
      intros x. unfold vrole; simpl. rewrite SC. reflexivity.
  - (* LRel *)
    assert (exists i wl, sch s = SRel i wl) as (i & wl & SC) by (destruct (sch s); try discriminate; eauto).
    destruct (rel_step s i wl (conj I R2) SC) as (a & k & L' & r & AQ & K & _ & EF & Q' & _ & PI & _ & _ & E).
    change (exec sf ns s LRel = Some s') in EX. rewrite E in EX. clear E. rewrite SC in I. cbn [sched_wl vrel] in I.
    assert (ROLE : forall pc' sch', (forall x, x <> i -> pc' x = pc s x) -> (forall x, running sch' x = false) ->
              pc' i = match a with O => TRel | _ => TUnl end ->
              forall x L0 c0 st0 g0, vrole (mkSt L0 pc' c0 sch' st0 g0) x = if Nat.eqb x i then rel_role a else vrole s x).
    { intros pc' sch' P1 P2 P3 x L0 c0 st0 g0. unfold vrole; simpl. destruct (Nat.eqb_spec x i).
      - subst x. rewrite P3. destruct a; auto.
      - rewrite P1, P2 by auto. rewrite SC. simpl. destruct (pc s x); auto. }
    assert (I2 := inv_release sf KP _ _ _ _ _ _ _ _ _ _ _ I AQ K EF Q' (fun x => eq_refl)).
    destruct a; inversion EX; subst s'; clear EX; unfold Inv2; cbn [lat pc chan sch started];
      (split; [|try discriminate; intros j0 wl0 E; destruct (match r with RWake w => wl ++ [w] | _ => wl end); discriminate]).
    + rewrite sched_wl_next, vrel_next. eapply inv_ext_role; [exact I2|].
      intros x. apply ROLE; auto using set_pc_other, set_pc_same, running_next.
    + eapply inv_ext_role; [exact I2|]. intros x. apply ROLE; auto.
  - (* LWake *)
    destruct (wake_step s s' (conj I R2) EX) as [(SC & ->)|(j & wl & PJ & [(SC & ST & ->)|(LT & -> & [(SC & ST)|SC])])];
      rewrite SC in I; simpl in I.
    + split; [|discriminate]. simpl. eapply inv_ext_role; [exact I|]. intros x. unfold vrole; simpl. rewrite SC. auto.
    + unfold Inv2; cbn [lat pc chan sch started]. split; [|intros j0 wl0 E; destruct wl; simpl in E; discriminate].
      rewrite sched_wl_next, vrel_next. eapply inv_wake_stale; eauto. intros x.
      rewrite (vrole_frame s _ j) by (simpl; auto using set_pc_other; intros; rewrite running_next, SC; auto).
      destruct (Nat.eqb_spec x j); auto. unfold vrole; simpl. rewrite set_pc_same. auto.
    + apply Inv2_sched_acq with (wl0 := j :: wl); auto; [|intros; rewrite SC; reflexivity].
      right. repeat split; auto. apply (i_wl I j). left. auto.
    + apply Inv2_sched_acq with (wl0 := wl); auto.
      * left. split; auto. unfold vrole. rewrite PJ, SC. simpl. rewrite Nat.eqb_refl. auto.
      * intros y NY. rewrite SC. simpl. destruct (Nat.eqb_spec j y); congruence.
  - (* LTrig *)
    destruct (sch s) eqn:SC; try discriminate. inversion EX; subst s'; clear EX. simpl in *.
    split; [|discriminate]. eapply inv_ext_role; [exact I|]. intros x. unfold vrole; simpl. rewrite SC. auto.
  - (* LClose *)
    destruct (closed (gl s)); try discriminate. inversion EX; subst s'; clear EX. simpl. split; auto.
  - (* LRecTask *)
    destruct (nth_error (rtasks (gl s)) n) as [[t sl]|]; try discriminate.
    inversion EX; subst s'; clear EX. simpl. split; auto.
    eapply inv_ext_role; [apply inv_recycle; exact I|]. intros x. reflexivity.
  - (* LRecycle *)
    inversion EX; subst s'; clear EX. simpl. split; auto.
    eapply inv_ext_role; [apply inv_recycle; exact I|]. intros x. reflexivity.
Qed.

Lemma closed_trigger l g : closed (trigger l g) = closed g.
Proof. destruct (trigger_cases l g) as [[-> _]| ->]; reflexivity. Qed.

(* Close() is final, and UnLock drops a lock only after Close() *)
Lemma exec_closed s l s' : exec sf ns s l = Some s' -> closed (gl s) = true -> closed (gl s') = true.
Proof. intros EX. exec_cases EX; cbn [gl closed]; rewrite ?closed_trigger; auto. Qed.
Lemma set_pc_drop p j v i : v <> TDrop -> set_pc p j v i = TDrop -> p i = TDrop.
Proof. unfold set_pc. destruct (Nat.eqb i j); [contradiction | auto]. Qed.
Lemma exec_drop s l s' i : exec sf ns s l = Some s' -> pc s' i = TDrop -> pc s i = TDrop \/ closed (gl s) = true.
Proof.
  intros EX. exec_cases EX; cbn [pc]; intros P;
    first [left; exact P | left; apply set_pc_drop in P; [exact P | discriminate] | right; reflexivity].
Qed.
Lemma drop_step s l s' :
  (forall i, pc s i = TDrop -> closed (gl s) = true) -> exec sf ns s l = Some s' ->
  forall i, pc s' i = TDrop -> closed (gl s') = true.
Proof. intros D EX i P. apply (exec_closed _ _ _ EX). destruct (exec_drop _ _ _ _ EX P) as [P0|C]; [apply (D i P0) | exact C]. Qed.

(* the channel never holds more than its capacity: UnLock blocks instead *)
Lemma exec_chan_bound s l s' : exec sf ns s l = Some s' ->
  length (chan s) <= lock_chan_size -> length (chan s') <= lock_chan_size.
Proof.
  intros EX B. exec_cases EX; cbn [chan]; auto; try (simpl in B; lia).
  rewrite app_length. simpl.
  match goal with H : (length (chan s) <? lock_chan_size) = true |- _ => apply Nat.ltb_lt in H; lia end.
Qed.

Lemma Inv_step s l s' : Inv s -> allowed l -> exec sf ns s l = Some s' -> Inv s'.
Proof. intros [I2 D] AL EX. split; [eapply Inv2_step; eauto | eapply drop_step; eauto]. Qed.

Lemma reachable_Inv s : reachable s -> Inv s.
Proof. induction 1; [apply Inv_init | eapply Inv_step; eauto]. Qed.

End Sys.
Arguments pc_role {sf KP s wl ch rel st} _ i.
Arguments pc_started {sf KP s wl ch rel st} _ i _.
