(* Latch/ProofsRel.v — the invariant is preserved by one releaseSlot of the scheduler. *)
From Coq Require Import NArith List Bool Arith Lia.
From Verif Require Import Latch.Model Latch.ProofsOps Latch.ProofsBase Latch.ProofsInv.
Import ListNotations.

Section Rel.
Variable sf : key -> sid.
Variable KP : list key -> Prop.
Notation holderK := (holderK sf).
Notation maxK := (maxK sf).
Notation inv := (inv sf KP).

Lemma rel_pre_facts L rl wl ch st i k a :
  inv L rl wl ch (Some i) st -> lacq (locks L i) = S a -> nth_error (lkeys (locks L i)) a = Some k ->
  rl i = RUnl /\ ~ In i ch /\ holderK L k = Some i /\
  held (locks L i) = firstn a (lkeys (locks L i)) ++ [k] /\ ~ In k (firstn a (lkeys (locks L i))) /\
  (forall s, ~ In i (waitS L s)) /\ ~ In i wl /\ a < length (lkeys (locks L i)).
Proof.
  intros I A K. dinv I. destruct (i_rel0 i eq_refl) as (R & NC & _).
  assert (H : held (locks L i) = firstn a (lkeys (locks L i)) ++ [k]).
  { unfold held. rewrite A. apply firstn_S_nth; auto. }
  repeat split; auto.
  - apply i_hold0. rewrite H. apply in_or_app. right. left. auto.
  - apply nodup_snoc_notin. rewrite <- H. apply i_hnd0.
  - intros s X. destruct (i_wait0 s i X). congruence.
  - intros X. destruct (i_wl0 i X). congruence.
  - apply nth_error_Some. congruence.
Qed.

Lemma rel_effect_locks L i k a L' r : rel_effect sf L i k a L' r ->
  locks L' i = set_acq (locks L i) a /\
  forall x, x <> i -> locks L' x = locks L x \/
    (In x (waitS L (sf k)) /\ locks L' x = set_stale (set_acq (locks L x) (S (lacq (locks L x))))).
Proof.
  intros (wk & rest & hk & _ & _ & RIFF & _ & _ & _ & WK & LI & LX & _). split; [exact LI|].
  intros x NE. destruct (in_dec Nat.eq_dec x wk) as [XW|XW]; [|left; apply LX; auto].
  destruct (WK x XW) as (_ & [(_ & _ & E)|(_ & _ & E)]); [right; split; [apply RIFF; auto | exact E] | left; exact E].
Qed.

Definition rel_role (a : nat) : role := match a with O => RRel | _ => RUnl end.
Definition rel_next (a : nat) (i : lid) : option lid := match a with O => None | _ => Some i end.

(* the fields of the invariant about the log, the channel and the started list do not depend on the outcome *)
Section Common.
Variables (L L' : latches) (rl rl' : lid -> role) (wl ch st : list lid) (i : lid) (k : key) (a : nat).
Hypothesis I : inv L rl wl ch (Some i) st.
Hypothesis A : lacq (locks L i) = S a.
Hypothesis K : nth_error (lkeys (locks L i)) a = Some k.
Hypothesis MM : forall k', maxK L' k' = if N.eqb k' k then N.max (maxK L k) (lcommit (locks L i)) else maxK L k'.
Hypothesis GG : glog L' = ERel k i (lcommit (locks L i)) :: glog L.
Hypothesis R' : forall x, rl' x = if Nat.eqb x i then rel_role a else rl x.

Lemma rel_maxsrc : forall k0, maxK L' k0 = 0%N \/ exists j, In (ERel k0 j (maxK L' k0)) (glog L').
Proof.
  dinv I. intros k0. rewrite MM, GG. destruct (N.eqb_spec k0 k) as [->|NK].
  - destruct (N.max_spec (maxK L k) (lcommit (locks L i))) as [[_ E]|[_ E]]; rewrite E.
    + right. exists i. left. auto.
    + destruct (i_maxsrc0 k) as [Z|[j Z]]; auto. right. exists j. right. auto.
  - destruct (i_maxsrc0 k0) as [Z|[j Z]]; auto. right. exists j. right. auto.
Qed.
Lemma rel_relpc : forall k0 j c, In (ERel k0 j c) (glog L') -> rl' j = RUnl \/ rl' j = RRel.
Proof.
  dinv I. intros k0 j c. rewrite GG, R'. intros [X|X].
  - inversion X; subst. rewrite Nat.eqb_refl. destruct a; simpl; auto.
  - xi j i; [destruct a; simpl; auto | eapply i_relpc0; eauto].
Qed.
Lemma rel_live : forall k0 c, In c (live_rels k0 (glog L')) -> (c <= maxK L' k0)%N.
Proof.
  dinv I. intros k0 c. rewrite GG, MM. simpl. rewrite (N.eqb_sym k0 k).
  destruct (N.eqb_spec k k0) as [->|NK]; auto.
  intros [X|X]; [subst; lia | apply i_live0 in X; lia].
Qed.
Lemma rel_started : forall x, rl' x <> RNew -> In x st.
Proof.
  dinv I. intros x. rewrite R'. destruct (i_rel0 i eq_refl) as (R & _). xi x i; auto.
  intros _. apply i_started0. congruence.
Qed.
Lemma rel_chan : forall x, In x ch -> rl' x = RUnl.
Proof.
  dinv I. intros x X. rewrite R'. destruct (i_rel0 i eq_refl) as (_ & NC & _). xi x i; [contradiction | auto].
Qed.
End Common.

(* The three outcomes (nobody waits for the key; the first waiter w of the key is picked and gets the latch at once,
   stale; w is picked and left to re-acquire) differ in the list wk of picked waiters ([] or [w]) and in the new
   holder hk of k (Some w in the second case only). *)
Lemma inv_release L rl wl ch st i k a L' r rl' :
  inv L rl wl ch (Some i) st -> lacq (locks L i) = S a -> nth_error (lkeys (locks L i)) a = Some k ->
  rel_effect sf L i k a L' r -> qwf L' ->
  (forall x, rl' x = if Nat.eqb x i then rel_role a else rl x) ->
  inv L' rl' (match r with RWake w => wl ++ [w] | _ => wl end) ch (rel_next a i) st.
Proof.
  intros I A K EF Q' R'.
  destruct (rel_pre_facts _ _ _ _ _ _ _ _ I A K) as (RI & NC & HK & HI & NKP & NIW & NIWL & ALT).
  pose proof I as I0. dinv I.
  destruct EF as (wk & rest & hk & RK & WW & RIFF & RND & HH & NOK & WK & LKI & LKX & MM & GG).
  set (li := locks L i) in *. set (m := N.max (maxK L k) (lcommit li)) in *.
  assert (WL' : match r with RWake w => wl ++ [w] | _ => wl end = wl ++ wk).
  { destruct r; [| |destruct RK]; subst wk; rewrite ?app_nil_r; reflexivity. }
  rewrite WL'. clear WL'.
  assert (WK01 : wk = [] \/ exists w, wk = [w]) by (destruct r; [left | right; eauto | destruct RK]; exact RK).
  destruct (RND (i_wnd0 (sf k))) as (RESTND & WNR).
  assert (RSUB : forall x, In x rest -> In x (waitS L (sf k))) by (intros x X; apply RIFF; auto).
  assert (RCOV : forall x, In x (waitS L (sf k)) -> In x wk \/ In x rest) by (intros x; apply RIFF).
  assert (WIN : forall w, In w wk -> In w (waitS L (sf k))) by (intros w X; apply RIFF; auto).
  clear RK RIFF RND.
  assert (HI' : held (locks L' i) = firstn a (lkeys li)) by (rewrite LKI; reflexivity).
  assert (WKI : forall w, In w wk -> w <> i /\ rl w = RWait /\ lstale (locks L w) = false /\ ~ In w wl).
  { intros w X. destruct (i_wait0 _ _ (WIN w X)) as (B & C & D & _).
    repeat split; auto. intros ->. eapply NIW; eauto. }
  assert (HKW : forall x, hk = Some x -> In x wk).
  { intros x E. destruct WK01 as [->|[w ->]]; [destruct (NOK eq_refl); congruence|].
    destruct (WK w (or_introl eq_refl)) as (_ & [(B & _)|(B & _)]); [left|]; congruence. }
  assert (KS : forall x, lkeys (locks L' x) = lkeys (locks L x) /\ lstart (locks L' x) = lstart (locks L x)).
  { intros x. xi x i; [rewrite LKI; auto|]. destruct (in_dec Nat.eq_dec x wk) as [XW|XW]; [|rewrite LKX; auto].
    destruct (WK x XW) as (_ & [(_ & _ & ->)|(_ & _ & ->)]); auto. }
  assert (P : forall k0, pending L wl k0 -> pending L' (wl ++ wk) k0).
  { intros k0 (j & X & B & C). assert (j <> i) by (intros ->; contradiction).
    exists j. rewrite (LKX j); auto; [|intros Y; apply WKI in Y; tauto]. repeat split; auto. apply in_or_app; auto. }
  assert (WSUB : forall s x, In x (waitS L' s) -> In x (waitS L s) /\ ~ In x wk).
  { intros s x. rewrite WW. destruct (N.eqb_spec s (sf k)) as [->|NS].
    - intros X. split; auto. intros Y. exact (WNR x Y X).
    - intros X. split; auto. intros Y. destruct (WK x Y) as (KW & _).
      destruct (i_wait0 _ _ X) as (_ & _ & _ & k1 & K1 & S1 & _). congruence. }
  constructor.
  - exact Q'.
  - intros x. rewrite (proj1 (KS x)). apply i_sorted0.
  - intros x. xi x i; [rewrite HI'; apply (nodup_app_l _ [k]); rewrite <- HI; apply i_hnd0|].
    destruct (in_dec Nat.eq_dec x wk) as [XW|XW]; [|rewrite LKX by auto; apply i_hnd0].
    destruct (WK x XW) as (KW & [(_ & _ & ->)|(_ & _ & ->)]); [|apply i_hnd0].
    unfold held. cbn [set_stale set_acq lacq lkeys]. rewrite (firstn_S_nth _ _ _ KW).
    apply nodup_snoc; [apply i_hnd0|]. intros X. apply i_hold0 in X. congruence.
  - intros x. rewrite (proj1 (KS x)). xi x i; [rewrite LKI; simpl; fold li; lia|].
    destruct (in_dec Nat.eq_dec x wk) as [XW|XW]; [|rewrite LKX by auto; apply i_acq0].
    destruct (WK x XW) as (KW & [(_ & _ & ->)|(_ & _ & ->)]); [|apply i_acq0].
    apply nth_error_Some. unfold key_at in KW. cbn [set_stale set_acq lacq]. congruence.
  - intros x k0. rewrite HH. xi x i.
    + rewrite HI'. destruct (N.eqb_spec k0 k) as [->|NK].
      * split; [contradiction | intros X; apply HKW, WKI in X; tauto].
      * rewrite <- i_hold0. fold li. rewrite HI, in_app_iff. simpl. intuition congruence.
    + destruct (in_dec Nat.eq_dec x wk) as [XW|XW].
      * destruct (WK x XW) as (KW & [(-> & _ & ->)|(-> & _ & ->)]).
        -- unfold held. cbn [set_stale set_acq lacq lkeys]. rewrite (firstn_S_nth _ _ _ KW), in_app_iff. simpl.
           destruct (N.eqb_spec k0 k) as [->|NK]; [intuition|].
           rewrite <- i_hold0. unfold held. intuition congruence.
        -- destruct (N.eqb_spec k0 k) as [->|NK]; [|apply i_hold0].
           split; [|discriminate]. intros X. apply i_hold0 in X. congruence.
      * rewrite LKX by auto. destruct (N.eqb_spec k0 k) as [->|NK]; [|apply i_hold0].
        split; [intros X; apply i_hold0 in X; congruence | intros X; apply HKW in X; contradiction].
  - intros x. rewrite R'. xi x i.
    + rewrite LKI. destruct a; simpl; auto.
    + destruct (in_dec Nat.eq_dec x wk) as [XW|XW].
      * rewrite (proj1 (proj2 (WKI x XW))). left. apply in_or_app. auto.
      * rewrite LKX by auto. specialize (i_role0 x). destruct (rl x); auto.
        -- destruct i_role0 as [X|(k0 & B & C)]; [left; apply in_or_app; auto|]. right. exists k0. split; auto.
           rewrite WW. destruct (N.eqb_spec (sf k0) (sf k)) as [E|E]; auto. rewrite E in C.
           destruct (RCOV x C); [contradiction | auto].
        -- destruct i_role0 as [X|X]; auto. congruence.
  - intros s x X. destruct (WSUB s x X) as (X0 & XW).
    destruct (i_wait0 s x X0) as (B & C & D & k0 & E & F & G).
    assert (x <> i) by (intros ->; eapply NIW; eauto).
    rewrite R', (LKX x) by auto. destruct (Nat.eqb_spec x i); [contradiction|].
    repeat split; auto.
    { intros Y. apply in_app_or in Y. destruct Y; auto. }
    exists k0. repeat split; auto.
    destruct (N.eq_dec k0 k) as [->|NK].
    + rewrite HH, N.eqb_refl. destruct WK01 as [->|[w ->]].
      * exfalso. subst s. rewrite WW, N.eqb_refl in X. destruct (NOK eq_refl) as [_ N0]. apply (N0 x X E).
      * destruct (WK w (or_introl eq_refl)) as (KW & [(-> & _)|(_ & _ & LW)]); [left; discriminate|].
        right. exists w. rewrite LW. repeat split; auto; [apply in_or_app; right; left; auto|].
        apply (WKI w (or_introl eq_refl)).
    + assert (HX : holderK L' k0 = holderK L k0) by (rewrite HH; destruct (N.eqb_spec k0 k); congruence).
      rewrite HX. destruct G; auto.
  - intros s. rewrite WW. destruct (N.eqb s (sf k)); auto.
  - destruct WK01 as [->|[w ->]]; [rewrite app_nil_r; auto|]. apply nodup_snoc; auto. apply (WKI w (or_introl eq_refl)).
  - intros j X. apply in_app_or in X. destruct X as [X|X].
    + assert (j <> i) by (intros ->; contradiction).
      assert (~ In j wk) by (intros Y; apply WKI in Y; tauto).
      destruct (i_wl0 j X) as (B & C). rewrite R', (LKX j) by auto.
      destruct (Nat.eqb_spec j i); [contradiction|]. split; auto.
      intros S. destruct (C S) as (k0 & D & E & F). exists k0. specialize (F i eq_refl). fold li in F.
      assert (k0 <> k) by (intros ->; apply F; rewrite HI; apply in_or_app; right; left; auto).
      rewrite MM. destruct (N.eqb_spec k0 k); [contradiction|]. repeat split; auto.
      intros i0 RE. destruct a; simpl in RE; inversion RE; subst i0. rewrite HI'. intros Y. apply F. rewrite HI. apply in_or_app; auto.
    + destruct (WKI j X) as (JI & RW & SW & _). rewrite R'. destruct (Nat.eqb_spec j i); [contradiction|]. split; auto.
      destruct (WK j X) as (KW & [(_ & _ & ->)|(_ & GE & ->)]); [discriminate|]. intros _.
      exists k. split; auto. rewrite MM, N.eqb_refl. split; [exact GE|].
      intros i0 RE. destruct a; simpl in RE; inversion RE; subst i0. rewrite HI'. exact NKP.
  - intros i0 RE. destruct a; simpl in RE; inversion RE; subst i0.
    rewrite R', Nat.eqb_refl, LKI. simpl. repeat split; auto. lia.
  - exact i_chan_nd0.
  - eapply rel_chan; eauto.
  - eapply rel_started; eauto.
  - eapply rel_maxsrc; eauto.
  - eapply rel_relpc; eauto.
  - intros x. rewrite GG, (proj1 (KS x)), (proj2 (KS x)). intros S.
    destruct (in_dec Nat.eq_dec x wk) as [XW|XW].
    + destruct (WKI x XW) as (_ & RW & SW & _).
      destruct (WK x XW) as (KW & [(_ & LT & _)|(_ & _ & LW)]); [|congruence].
      unfold m in LT. destruct (N.max_spec (maxK L k) (lcommit li)) as [[_ E]|[_ E]]; rewrite E in LT.
      * exists k, i, (lcommit li). repeat split; auto; [eapply nth_error_In; eauto | intros ->; apply WKI in XW; tauto | left; auto].
      * destruct (i_maxsrc0 k) as [Z|[j Z]]; [lia|].
        exists k, j, (maxK L k). repeat split; auto; [eapply nth_error_In; eauto | | right; auto].
        intros ->. specialize (i_relpc0 _ _ _ Z). rewrite RW in i_relpc0. destruct i_relpc0; discriminate.
    + assert (S0 : lstale (locks L x) = true) by (revert S; xi x i; [rewrite LKI; auto | rewrite (LKX x) by auto; auto]).
      destruct (i_stale0 x S0) as (k0 & j & c & B & C & D & E). exists k0, j, c. repeat split; auto. right; auto.
  - eapply rel_live; eauto.
  - intros x k0. rewrite GG, (proj2 (KS x)). xi x i.
    + rewrite LKI. simpl. intros S X. apply acq_ok_cons. apply i_acqok0; auto. fold li. rewrite HI. apply in_or_app; auto.
    + destruct (in_dec Nat.eq_dec x wk) as [XW|XW]; [|rewrite (LKX x) by auto; intros S X; apply acq_ok_cons; auto].
      destruct (WK x XW) as (_ & [(_ & _ & ->)|(_ & _ & ->)]); [discriminate|]. intros S X. apply acq_ok_cons. auto.
Qed.

End Rel.
