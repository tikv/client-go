(* Latch/Slot.v — the slot function of internal/latch: NewLatches rounds the size up to a
   power of two, slotID(key) = int(murmur3.Sum32(key)) & (len(slots)-1)  (github.com/twmb/murmur3, seed 0).
   Executable model (compared with the slot ids the code computes for every key the drivers use) and the one fact the
   code needs from it: the index is always inside the slots array. The C17 theorems stay parametric in the slot function. *)
From Coq Require Import NArith List Lia.
Import ListNotations.
Local Open Scope N_scope.

Definition m32 (x : N) : N := N.land x 4294967295.          (* uint32 wrap-around *)
Definition rotl32 (x r : N) : N := m32 (N.lor (N.shiftl x r) (N.shiftr x (32 - r))).
Definition c1_32 : N := 3432918353.                          (* 0xcc9e2d51 *)
Definition c2_32 : N := 461845907.                           (* 0x1b873593 *)
Definition mix_k (k : N) : N := m32 (rotl32 (m32 (k * c1_32)) 15 * c2_32).

Fixpoint mm_blocks (h : N) (data : list N) : N * list N :=
  match data with
  | a :: b :: c :: d :: r =>
      let k := N.lor (N.lor a (N.shiftl b 8)) (N.lor (N.shiftl c 16) (N.shiftl d 24)) in
      let h1 := N.lxor h (mix_k k) in
      mm_blocks (m32 (rotl32 h1 13 * 5 + 3864292196)) r     (* 0xe6546b64 *)
  | _ => (h, data)
  end.
Definition mm_tail (h : N) (t : list N) : N :=
  match t with
  | [a] => N.lxor h (mix_k a)
  | [a; b] => N.lxor h (mix_k (N.lxor (N.shiftl b 8) a))
  | [a; b; c] => N.lxor h (mix_k (N.lxor (N.lxor (N.shiftl c 16) (N.shiftl b 8)) a))
  | _ => h
  end.
Definition fmix32 (h : N) : N :=
  let h := N.lxor h (N.shiftr h 16) in
  let h := m32 (h * 2246822507) in                           (* 0x85ebca6b *)
  let h := N.lxor h (N.shiftr h 13) in
  let h := m32 (h * 3266489909) in                           (* 0xc2b2ae35 *)
  N.lxor h (N.shiftr h 16).
Definition murmur3_32 (data : list N) : N :=
  let '(h, t) := mm_blocks 0 data in
  fmix32 (N.lxor (mm_tail h t) (m32 (N.of_nat (length data)))).

(* NewLatches(size): 1 << bits.Len32(size-1) slots; slotID: hash & (len-1) *)
Definition round_pow2 (size : N) : N := 2 ^ N.size (size - 1).
Definition slot_id (size : N) (key : list N) : N := N.land (murmur3_32 key) (round_pow2 size - 1).

Lemma slot_in_range size key : slot_id size key < round_pow2 size.
Proof.
  unfold slot_id, round_pow2. replace (2 ^ N.size (size - 1) - 1) with (N.ones (N.size (size - 1))).
  - rewrite N.land_ones. apply N.mod_lt. apply N.pow_nonzero. discriminate.
  - rewrite N.ones_equiv. rewrite N.pred_sub. reflexivity.
Qed.
Lemma round_pow2_ge size : 1 <= size -> size <= round_pow2 size.
Proof.
  intros H. unfold round_pow2. pose proof (N.size_gt (size - 1)). lia.
Qed.
