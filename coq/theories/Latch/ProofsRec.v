(* Latch/ProofsRec.v — what recycling may forget, at the level of the ghost log of reachable states:
   every ERecycle k cur m entry dropped a node whose maxCommitTS m dominated every release of k that was still
   remembered, and m was at least the expiry distance (2 physical minutes) older than the recycler's timestamp cur. *)
From Coq Require Import NArith List Bool Arith.
From Verif Require Import Latch.Model Latch.ProofsOps Latch.ProofsBase Latch.ProofsInv Latch.ProofsAcq Latch.ProofsRel Latch.ProofsSys.
Import ListNotations.

Definition rec_ok (h : list event) : Prop :=
  forall a k cur m b, h = a ++ ERecycle k cur m :: b ->
    (phys m + expire_ms <= phys cur)%N /\ forall c, In c (live_rels k b) -> (c <= m)%N.

Lemma rec_ok_nil : rec_ok [].
Proof. intros a k cur m b E. destruct a; discriminate. Qed.
Lemma rec_ok_cons e h : (forall k c m, e <> ERecycle k c m) -> rec_ok h -> rec_ok (e :: h).
Proof.
  intros NE R a k cur m b E. destruct a as [|x a]; simpl in E; inversion E; subst.
  - exfalso. eapply NE; eauto.
  - eapply R; eauto.
Qed.
Lemma rec_ok_app ev h :
  rec_shape ev -> rec_ok h ->
  (forall k cur m, In (ERecycle k cur m) ev ->
     (phys m + expire_ms <= phys cur)%N /\ forall c, In c (live_rels k h) -> (c <= m)%N) ->
  rec_ok (ev ++ h).
Proof.
  induction ev as [|e ev IH]; cbn [app]; intros SH R P; auto.
  assert (SH' : rec_shape ev) by (intros x X; apply SH; right; auto).
  intros a k cur m b E. destruct a as [|x a]; simpl in E; inversion E; subst.
  - destruct (P k cur m (or_introl eq_refl)) as [A B]. split; auto.
    intros c X. apply live_rels_recycle_app in X; auto. apply B. tauto.
  - apply (IH SH' R (fun k0 c0 m0 X => P k0 c0 m0 (or_intror X)) a k cur m b). assumption.
Qed.

Lemma rel_live_or_recycled k j c h : In (ERel k j c) h ->
  In c (live_rels k h) \/ exists a cur m b, h = a ++ ERecycle k cur m :: b /\ In c (live_rels k b).
Proof.
  induction h as [|e h IH]; simpl; [tauto|]. intros [E|I].
  - subst e. simpl. rewrite N.eqb_refl. left. left. auto.
  - destruct (IH I) as [A|(a & cur & m & b & E & B)].
    + destruct e as [k' i'|k' i' c'|k' cur m]; simpl; auto.
      * destruct (N.eqb k' k); [left; right; auto | left; auto].
      * destruct (N.eqb_spec k' k); [|left; auto]. subst k'.
        right. exists [], cur, m, h. split; auto.
    + right. exists (e :: a), cur, m, b. split; [rewrite E; auto | auto].
Qed.

Lemma phys_mono a b : (a <= b)%N -> (phys a <= phys b)%N.
Proof. intros H. unfold phys. rewrite !N.shiftr_div_pow2. apply N.div_le_mono; [apply N.pow_nonzero; discriminate | auto]. Qed.

Section Rec.
Variable sf : key -> sid.
Variable ns : N.

Definition slot_ok (L : latches) : Prop := forall s n, In n (squeue (slots L s)) -> sf (nkey n) = s.
Definition live_ok (L : latches) : Prop := forall k c, In c (live_rels k (glog L)) -> (c <= maxK sf L k)%N.

Lemma in_upd_node k v q x : In x (upd_node k v q) -> x = v \/ In x q.
Proof.
  induction q as [|a q IH]; simpl; [tauto|]. destruct (N.eqb (nkey a) k); simpl; intros [E|I]; auto.
  destruct (IH I); auto.
Qed.
Lemma find_node_in q n : NoDup (map nkey q) -> In n q -> find_node (nkey n) q = Some n.
Proof.
  induction q as [|a q IH]; simpl; [tauto|]. intros ND [E|I].
  - subst. rewrite N.eqb_refl. auto.
  - inversion ND; subst. destruct (N.eqb_spec (nkey a) (nkey n)) as [E|E]; [|auto].
    exfalso. apply H1. rewrite E. apply in_map. auto.
Qed.

Lemma recycle_recok L s t : qwf L -> slot_ok L -> live_ok L -> rec_ok (glog L) ->
  slot_ok (recycle_slot L s t) /\ rec_ok (glog (recycle_slot L s t)).
Proof.
  intros Q SO LO R. split.
  - intros s' n. unfold recycle_slot, add_log, set_slot; simpl. destruct (N.eqb_spec s' s); [subst|apply SO].
    simpl. intros X. apply filter_In in X. apply SO. tauto.
  - rewrite recycle_glog. apply rec_ok_app; auto.
    + intros e; apply recycle_events_shape.
    + intros k cur m X. unfold recycle_events in X. apply in_map_iff in X. destruct X as (n & E & F).
      inversion E; subst. apply filter_In in F. destruct F as [IN KP].
      assert (NK : nodeK sf L (nkey n) = Some n).
      { unfold nodeK. rewrite (SO _ _ IN). apply find_node_in; auto. }
      apply negb_true_iff, keep_node_false in KP. split; [apply KP|].
      intros c X. apply LO in X. unfold maxK in X. rewrite NK in X. auto.
Qed.

Lemma mr_recok L s t : qwf L -> slot_ok L -> live_ok L -> rec_ok (glog L) ->
  slot_ok (maybe_recycle L s t) /\ rec_ok (glog (maybe_recycle L s t)).
Proof. intros. destruct (maybe_recycle_cases L s t) as [-> | ->]; auto using recycle_recok. Qed.

Lemma acquire_core_recok L i L' r : slot_ok L -> rec_ok (glog L) -> acquire_core sf L i = (L', r) ->
  slot_ok L' /\ rec_ok (glog L').
Proof.
  intros SO R A. unfold acquire_core in A.
  destruct (key_at (locks L i)) as [k|]; [|inversion A; subst; auto].
  destruct (find_node k (squeue (slots L (sf k)))) as [n|] eqn:F.
  - destruct (N.ltb _ _); [inversion A; subst; auto|].
    destruct (nval n); inversion A; subst; clear A; simpl.
    + split; auto. intros s x. unfold set_slot; simpl. destruct (N.eqb_spec s (sf k)); [subst; simpl|]; apply SO.
    + split.
      * intros s x. simpl. destruct (N.eqb_spec s (sf k)); [subst; simpl|apply SO].
        intros X. apply in_upd_node in X. destruct X as [->|X]; [reflexivity | apply SO; auto].
      * apply rec_ok_cons; auto. discriminate.
  - inversion A; subst; clear A; simpl. split.
    + intros s x. simpl. destruct (N.eqb_spec s (sf k)); [subst; simpl|apply SO].
      intros [<-|X]; [reflexivity | apply SO; auto].
    + apply rec_ok_cons; auto. discriminate.
Qed.

Lemma release_slot_recok L i L' r : slot_ok L -> rec_ok (glog L) -> release_slot sf L i = (L', r) ->
  slot_ok L' /\ rec_ok (glog L').
Proof.
  intros SO R A. unfold release_slot in A.
  assert (UPD : forall L2 k v w', (forall s, slots L2 s = slots L s) -> nkey v = k ->
            slot_ok (set_slot L2 (sf k) (mkSlot (upd_node k v (squeue (slots L (sf k)))) w'))).
  { intros L2 k v w' S2 NK s x. unfold set_slot; simpl. destruct (N.eqb_spec s (sf k)); [subst s; simpl|rewrite S2; apply SO].
    intros X. apply in_upd_node in X. destruct X as [->|X]; [rewrite NK; reflexivity | apply SO; auto]. }
  destruct (lacq (locks L i)); [inversion A; subst; auto|].
  destruct (nth_error (lkeys (locks L i)) n) as [k|]; [|inversion A; subst; auto].
  destruct (find_node k (squeue (slots L (sf k)))) as [nd|]; [|inversion A; subst; auto].
  destruct (nval nd) as [h|]; [|inversion A; subst; auto].
  destruct (negb (Nat.eqb h i)); [inversion A; subst; auto|].
  destruct (pick_waiter _ k _) as [[w rest]|].
  - destruct (N.ltb _ _); inversion A; subst; clear A; (split; [apply UPD; auto; reflexivity | simpl; apply rec_ok_cons; auto; discriminate]).
  - inversion A; subst; clear A. split; [apply UPD; auto; reflexivity | simpl; apply rec_ok_cons; auto; discriminate].
Qed.

Lemma acquire_slot_recok L i L' r : qwf L -> slot_ok L -> live_ok L -> rec_ok (glog L) ->
  acquire_slot sf L i = (L', r) -> slot_ok L' /\ rec_ok (glog L').
Proof.
  intros Q SO LO R A. unfold acquire_slot in A. destruct (key_at (locks L i)) as [k|]; [|inversion A; subst; auto].
  destruct (mr_recok L (sf k) (lstart (locks L i)) Q SO LO R) as [SO0 R0].
  eapply acquire_core_recok; eauto.
Qed.

Variable AK : list key -> Prop.
Variable KP : list key -> Prop.
Hypothesis KP_nil : KP [].
Hypothesis AK_KP : forall ks, AK ks -> KP (sort_keys ks).

Lemma reachable_recok s : reachable sf ns AK s -> slot_ok (lat s) /\ rec_ok (glog (lat s)).
Proof.
  induction 1 as [|s l s' R IH AL EX].
  - split; [intros s n [] | apply rec_ok_nil].
  - destruct IH as [SO RO].
    destruct (reachable_Inv sf ns AK KP KP_nil AK_KP s R) as [[I _] _].
    pose proof (i_q I) as Q. pose proof (i_live I) as LO.
    exec_cases EX; cbn [lat]; auto;
    try (eapply acquire_slot_recok; eauto; fail);
    try (eapply release_slot_recok; eauto; fail);
    try (eapply recycle_recok; eauto; fail).
Qed.

End Rec.
