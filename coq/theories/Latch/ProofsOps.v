(* Latch/ProofsOps.v — per-key view of a latches value (holder / max commit ts of a key's node, a
   missing node = no holder, max 0) and the effect of the three atomic methods on that view. *)
From Coq Require Import NArith List Bool Arith.
From Verif Require Import Latch.Model.
Import ListNotations.

Lemma find_node_key k q n : find_node k q = Some n -> nkey n = k.
Proof.
  induction q as [|a q IH]; simpl; [discriminate|].
  destruct (N.eqb_spec (nkey a) k); [intros H; inversion H; subst; auto | auto].
Qed.
Lemma find_node_notin k q : ~ In k (map nkey q) -> find_node k q = None.
Proof.
  induction q as [|a q IH]; simpl; auto. intros H.
  destruct (N.eqb_spec (nkey a) k); [exfalso; auto | apply IH; auto].
Qed.
Lemma find_node_none k q : find_node k q = None -> ~ In k (map nkey q).
Proof.
  induction q as [|a q IH]; simpl; auto.
  destruct (N.eqb_spec (nkey a) k); [discriminate|]. intros H [E|I]; [auto | apply IH; auto].
Qed.
Lemma find_upd_same k v q n : find_node k q = Some n -> nkey v = k -> find_node k (upd_node k v q) = Some v.
Proof.
  induction q as [|a q IH]; simpl; [discriminate|]. intros H E.
  destruct (N.eqb_spec (nkey a) k) as [E1|E1]; simpl.
  - rewrite E, N.eqb_refl. reflexivity.
  - destruct (N.eqb_spec (nkey a) k); [contradiction|]. auto.
Qed.
Lemma find_upd_other k k' v q : k' <> k -> nkey v = k -> find_node k' (upd_node k v q) = find_node k' q.
Proof.
  induction q as [|a q IH]; simpl; auto. intros H E.
  destruct (N.eqb_spec (nkey a) k) as [E1|E1]; simpl.
  - rewrite E. destruct (N.eqb_spec k k'); [congruence|].
    destruct (N.eqb_spec (nkey a) k'); [congruence|]. reflexivity.
  - destruct (N.eqb_spec (nkey a) k'); auto.
Qed.
Lemma map_nkey_upd k v q : nkey v = k -> map nkey (upd_node k v q) = map nkey q.
Proof.
  induction q as [|a q IH]; simpl; auto. intros E.
  destruct (N.eqb_spec (nkey a) k); simpl; [congruence | rewrite IH; auto].
Qed.
Lemma in_map_filter (f : node -> bool) k q : In k (map nkey (filter f q)) -> In k (map nkey q).
Proof.
  rewrite !in_map_iff. intros [n [E I]]. apply filter_In in I. exists n; tauto.
Qed.
Lemma nodup_map_filter (f : node -> bool) q : NoDup (map nkey q) -> NoDup (map nkey (filter f q)).
Proof.
  induction q as [|a q IH]; simpl; auto. intros H. inversion H; subst.
  destruct (f a); simpl; auto. constructor; auto. intros I. apply in_map_filter in I. auto.
Qed.
Lemma find_filter (f : node -> bool) k q : NoDup (map nkey q) ->
  find_node k (filter f q) = match find_node k q with Some n => if f n then Some n else None | None => None end.
Proof.
  induction q as [|a q IH]; simpl; auto. intros H. inversion H; subst.
  destruct (f a) eqn:F; simpl; destruct (N.eqb_spec (nkey a) k) as [E|E]; auto.
  - rewrite F. reflexivity.
  - rewrite F. apply find_node_notin. intros I. apply in_map_filter in I. congruence.
Qed.

Lemma pick_none lk k w : pick_waiter lk k w = None -> forall x, In x w -> key_is k (lk x) = false.
Proof.
  induction w as [|a w IH]; simpl; [tauto|].
  destruct (key_is k (lk a)) eqn:K; [discriminate|].
  destruct (pick_waiter lk k w) as [[y r]|]; [discriminate|].
  intros _ x [E|I]; [subst; auto | auto].
Qed.
Lemma pick_some lk k w y r : pick_waiter lk k w = Some (y, r) ->
  In y w /\ key_is k (lk y) = true /\ (forall x, In x r -> In x w) /\ (forall x, In x w -> x = y \/ In x r)
  /\ (NoDup w -> NoDup r /\ ~ In y r).
Proof.
  revert y r. induction w as [|a w IH]; simpl; [discriminate|]. intros y r.
  destruct (key_is k (lk a)) eqn:K.
  - intros H; inversion H; subst. repeat split; auto.
    + intros x [E|I]; auto.
    + inversion H0; auto.
    + inversion H0; auto.
  - destruct (pick_waiter lk k w) as [[y' r']|] eqn:P; [|discriminate].
    intros H; inversion H; subst. destruct (IH _ _ eq_refl) as (A & B & C & D & E).
    repeat split; auto.
    + intros x [X|X]; [left; auto | right; auto].
    + intros x [X|X]; [right; left; auto | destruct (D x X); [left; auto | right; right; auto]].
    + inversion H0; subst. destruct (E H4). constructor; auto.
    + inversion H0; subst. destruct (E H4). intros [X|X]; [subst; auto | auto].
Qed.

(* [simpl] and [auto] must not meet [phys]/[expired] applied to variables: they try to evaluate N.shiftr _ 18
   and the comparison with the large constants, at great cost and to no effect.  Hence these two lemmas. *)
Lemma keep_node_false t n :
  keep_node t n = false <-> nval n = None /\ (phys (nmax n) + expire_ms <= phys t)%N.
Proof.
  unfold keep_node, expired. destruct (nval n).
  - split; [discriminate | intros [X _]; discriminate X].
  - rewrite negb_false_iff, N.leb_le. split; [intros H; split; [reflexivity | exact H] | intros [_ H]; exact H].
Qed.
Lemma trigger_cases l g :
  (trigger l g = mkGlue (closed g) (lcommit l) 1%N (rtasks g ++ [(lcommit l, 0%N)]) (cur g) /\ (lstart l < lcommit l)%N) \/
  trigger l g = mkGlue (closed g) (lastrec g) (counter g + 1)%N (rtasks g) (cur g).
Proof.
  unfold trigger. destruct (N.ltb_spec (lstart l) (lcommit l)) as [LT|_]; [|right; reflexivity].
  destruct (_ || _); [left; split; [reflexivity | exact LT] | right; reflexivity].
Qed.

Section Ops.
Variable sf : key -> sid.

Definition nodeK (L : latches) (k : key) : option node := find_node k (squeue (slots L (sf k))).
Definition holderK (L : latches) (k : key) : option lid := match nodeK L k with Some n => nval n | None => None end.
Definition maxK (L : latches) (k : key) : ts := match nodeK L k with Some n => nmax n | None => 0%N end.
Definition waitS (L : latches) (s : sid) : list lid := swaiting (slots L s).
Definition qwf (L : latches) : Prop := forall s, NoDup (map nkey (squeue (slots L s))).
Definition held (l : lock) : list key := firstn (lacq l) (lkeys l).

Lemma nodeK_set_slot L s v k :
  nodeK (set_slot L s v) k = if N.eqb (sf k) s then find_node k (squeue v) else nodeK L k.
Proof. unfold nodeK, set_slot; simpl. destruct (N.eqb (sf k) s); reflexivity. Qed.
Lemma waitS_set_slot L s v s' : waitS (set_slot L s v) s' = if N.eqb s' s then swaiting v else waitS L s'.
Proof. unfold waitS, set_slot; simpl. destruct (N.eqb s' s); reflexivity. Qed.

Lemma recycle_qwf L s t : qwf L -> qwf (recycle_slot L s t).
Proof.
  intros Q s'. unfold recycle_slot, add_log, set_slot; simpl.
  destruct (N.eqb s' s); simpl; auto. apply nodup_map_filter. apply Q.
Qed.
Lemma recycle_nodeK L s t k : qwf L ->
  nodeK (recycle_slot L s t) k =
  if N.eqb (sf k) s then match nodeK L k with Some n => if keep_node t n then Some n else None | None => None end
  else nodeK L k.
Proof.
  intros Q. unfold recycle_slot, add_log, nodeK; simpl.
  destruct (N.eqb_spec (sf k) s) as [E|E]; auto. simpl. rewrite find_filter by apply Q. rewrite E. reflexivity.
Qed.
Lemma recycle_holderK L s t k : qwf L -> holderK (recycle_slot L s t) k = holderK L k.
Proof.
  intros Q. unfold holderK. rewrite recycle_nodeK by auto.
  destruct (N.eqb (sf k) s); auto. destruct (nodeK L k) as [n|]; auto.
  destruct (keep_node t n) eqn:K; [reflexivity|]. apply keep_node_false in K. symmetry. apply K.
Qed.
Definition recycle_events (L : latches) (s : sid) (t : ts) : list event :=
  map (fun n => ERecycle (nkey n) t (nmax n)) (filter (fun n => negb (keep_node t n)) (squeue (slots L s))).
Lemma recycle_glog L s t : glog (recycle_slot L s t) = recycle_events L s t ++ glog L.
Proof. reflexivity. Qed.
Lemma recycle_events_shape L s t e : In e (recycle_events L s t) -> exists k c m, e = ERecycle k c m.
Proof. unfold recycle_events. rewrite in_map_iff. intros [n [E _]]. eauto. Qed.
Lemma recycle_maxK L s t k : qwf L ->
  maxK (recycle_slot L s t) k = maxK L k \/ (maxK (recycle_slot L s t) k = 0%N /\ In (ERecycle k t (maxK L k)) (recycle_events L s t)).
Proof.
  intros Q. unfold maxK. rewrite recycle_nodeK by auto.
  destruct (N.eqb_spec (sf k) s) as [E|E]; auto.
  destruct (nodeK L k) as [n|] eqn:F; auto. destruct (keep_node t n) eqn:K; auto.
  right. split; auto. unfold recycle_events. apply in_map_iff. exists n. split.
  - f_equal. eapply find_node_key; eauto.
  - apply filter_In. split; [|rewrite K; auto]. unfold nodeK in F. rewrite E in F.
    clear - F. induction (squeue (slots L s)) as [|a q IH]; simpl in *; [discriminate|].
    destruct (N.eqb (nkey a) k); [inversion F; auto | auto].
Qed.
Lemma recycle_waitS L s t s' : waitS (recycle_slot L s t) s' = waitS L s'.
Proof. unfold recycle_slot, add_log, waitS; simpl. destruct (N.eqb s' s) eqn:E; auto. apply N.eqb_eq in E; subst; auto. Qed.
Lemma recycle_locks L s t : locks (recycle_slot L s t) = locks L.
Proof. reflexivity. Qed.

Lemma maybe_recycle_cases L s t : maybe_recycle L s t = L \/ maybe_recycle L s t = recycle_slot L s t.
Proof. unfold maybe_recycle. destruct (Nat.leb _ _); auto. Qed.
Lemma mr_qwf L s t : qwf L -> qwf (maybe_recycle L s t).
Proof. destruct (maybe_recycle_cases L s t) as [-> | ->]; auto using recycle_qwf. Qed.
Lemma mr_holderK L s t k : qwf L -> holderK (maybe_recycle L s t) k = holderK L k.
Proof. destruct (maybe_recycle_cases L s t) as [-> | ->]; auto using recycle_holderK. Qed.
Lemma mr_waitS L s t s' : waitS (maybe_recycle L s t) s' = waitS L s'.
Proof. destruct (maybe_recycle_cases L s t) as [-> | ->]; auto using recycle_waitS. Qed.
Lemma mr_locks L s t : locks (maybe_recycle L s t) = locks L.
Proof. destruct (maybe_recycle_cases L s t) as [-> | ->]; reflexivity. Qed.

Definition upd_lock (f : lid -> lock) (i : lid) (v : lock) : lid -> lock := fun x => if Nat.eqb x i then v else f x.
Lemma upd_lock_same f i v : upd_lock f i v i = v.
Proof. unfold upd_lock. rewrite Nat.eqb_refl. reflexivity. Qed.
Lemma upd_lock_other f i v x : x <> i -> upd_lock f i v x = f x.
Proof. unfold upd_lock. destruct (Nat.eqb_spec x i); [contradiction | reflexivity]. Qed.

Lemma key_at_some l : lacq l < length (lkeys l) -> exists k, key_at l = Some k.
Proof. intros H. apply nth_error_Some in H. unfold key_at. destruct (nth_error _ _) as [k|]; [eauto | contradiction]. Qed.

Lemma holder_max_upd L L2 k v n w' :
  (forall s, slots L2 s = slots L s) -> nkey v = k -> find_node k (squeue (slots L (sf k))) = Some n ->
  let L3 := set_slot L2 (sf k) (mkSlot (upd_node k v (squeue (slots L (sf k)))) w') in
  (forall k', holderK L3 k' = if N.eqb k' k then nval v else holderK L k') /\
  (forall k', maxK L3 k' = if N.eqb k' k then nmax v else maxK L k').
Proof.
  intros S NK F L3. subst L3.
  split; intros k'; unfold holderK, maxK; rewrite nodeK_set_slot; simpl;
    (destruct (N.eqb_spec k' k) as [E|E];
     [ subst k'; rewrite N.eqb_refl; erewrite find_upd_same; eauto
     | destruct (N.eqb_spec (sf k') (sf k)) as [E2|E2];
       [ rewrite find_upd_other by auto; unfold nodeK; rewrite E2; reflexivity
       | unfold nodeK; rewrite S; reflexivity ] ]).
Qed.

Definition acq_lock (r : ares) (l : lock) : lock :=
  match r with ASuccess => set_acq l (S (lacq l)) | AStale => set_stale l | ALocked => l end.

(* acquireSlot of lock i on its next key k, by outcome: when it happens, and what it does to the per-key view *)
Definition acq_effect (L : latches) (i : lid) (k : key) (L' : latches) (r : ares) : Prop :=
  match r with
  | ASuccess => holderK L k = None /\ (maxK L k <= lstart (locks L i))%N
  | AStale => (lstart (locks L i) < maxK L k)%N
  | ALocked => holderK L k <> None /\ (maxK L k <= lstart (locks L i))%N
  end /\
  (forall k', holderK L' k' = if N.eqb k' k then match r with ASuccess => Some i | _ => holderK L k end else holderK L k') /\
  (forall k', maxK L' k' = maxK L k') /\
  (forall s, waitS L' s = if N.eqb s (sf k) then waitS L s ++ match r with ALocked => [i] | _ => [] end else waitS L s) /\
  (forall j, locks L' j = upd_lock (locks L) i (acq_lock r (locks L i)) j) /\
  glog L' = match r with ASuccess => [EAcq k i] | _ => [] end ++ glog L.

Lemma acquire_core_spec L i k L' r :
  key_at (locks L i) = Some k -> acquire_core sf L i = (L', r) -> qwf L ->
  acq_effect L i k L' r /\ qwf L'.
Proof.
  intros K A Q. unfold acquire_core in A. rewrite K in A.
  assert (SAME : forall L1, (forall s, squeue (slots L1 s) = squeue (slots L s)) ->
            (forall k', holderK L1 k' = if N.eqb k' k then holderK L k else holderK L k') /\ (forall k', maxK L1 k' = maxK L k')).
  { intros L1 S. split; intros k'; unfold holderK, maxK, nodeK; rewrite S; [destruct (N.eqb_spec k' k) as [->|]|]; reflexivity. }
  destruct (find_node k (squeue (slots L (sf k)))) as [n|] eqn:F.
  - assert (HK : holderK L k = nval n) by (unfold holderK, nodeK; rewrite F; auto).
    assert (MK : maxK L k = nmax n) by (unfold maxK, nodeK; rewrite F; auto).
    destruct (N.ltb_spec (lstart (locks L i)) (nmax n)) as [LT|GE].
    + inversion A; subst L' r; clear A. split; [|exact Q].
      destruct (SAME (set_lock L i (set_stale (locks L i))) (fun _ => eq_refl)) as [HH HM].
      split; [rewrite MK; exact LT|]. repeat split; auto.
      intros s. unfold waitS; cbn [slots set_lock]. rewrite app_nil_r. destruct (N.eqb s (sf k)); reflexivity.
    + destruct (nval n) as [h|] eqn:V; inversion A; subst L' r; clear A.
      * split.
        -- destruct (SAME (set_slot L (sf k) (mkSlot (squeue (slots L (sf k))) (swaiting (slots L (sf k)) ++ [i])))) as [HH HM].
           { intros s. cbn [slots set_slot]. destruct (N.eqb_spec s (sf k)); subst; reflexivity. }
           split; [split; [congruence | rewrite MK; exact GE]|]. repeat split; auto.
           ++ intros s. rewrite waitS_set_slot. destruct (N.eqb_spec s (sf k)); subst; reflexivity.
           ++ intros j. unfold upd_lock. cbn [acq_lock]. destruct (Nat.eqb_spec j i); subst; reflexivity.
        -- intros s. unfold set_slot; simpl. destruct (N.eqb_spec s (sf k)); subst; simpl; apply Q.
      * destruct (holder_max_upd L L k (mkNode k (nmax n) (Some i)) n (swaiting (slots L (sf k))) (fun _ => eq_refl) eq_refl F) as [HH HM].
        split.
        -- split; [split; [congruence | rewrite MK; exact GE]|]. repeat split.
           ++ exact HH.
           ++ intros k'. transitivity (if N.eqb k' k then nmax n else maxK L k'); [apply HM|].
              destruct (N.eqb_spec k' k); subst; [symmetry; exact MK | reflexivity].
           ++ intros s. unfold waitS; simpl. rewrite app_nil_r. destruct (N.eqb_spec s (sf k)); subst; reflexivity.
        -- intros s. unfold set_lock, set_slot, add_log; simpl. destruct (N.eqb_spec s (sf k)); subst; simpl; [|apply Q].
           rewrite map_nkey_upd by auto. apply Q.
  - inversion A; subst L' r; clear A.
    assert (HK : holderK L k = None) by (unfold holderK, nodeK; rewrite F; auto).
    assert (MK : maxK L k = 0%N) by (unfold maxK, nodeK; rewrite F; auto).
    split.
    + split; [split; [exact HK | rewrite MK; apply N.le_0_l]|]. repeat split.
      * intros k'. unfold holderK, nodeK; simpl.
        destruct (N.eqb_spec k' k) as [E|E].
        -- subst k'. rewrite N.eqb_refl. simpl. rewrite N.eqb_refl. auto.
        -- destruct (N.eqb_spec (sf k') (sf k)) as [E2|E2]; auto. simpl.
           destruct (N.eqb_spec k k'); [congruence|]. rewrite E2. auto.
      * intros k'. unfold maxK, nodeK; simpl.
        destruct (N.eqb_spec (sf k') (sf k)) as [E2|E2]; auto. simpl.
        destruct (N.eqb_spec k k') as [E|E].
        -- subst k'. rewrite F. auto.
        -- rewrite E2. auto.
      * intros s. unfold waitS; simpl. rewrite app_nil_r. destruct (N.eqb_spec s (sf k)); subst; auto.
    + intros s. unfold set_lock, set_slot, add_log; simpl. destruct (N.eqb_spec s (sf k)); subst; simpl; [|apply Q].
      constructor; [|apply Q]. apply find_node_none; auto.
Qed.

Lemma acquire_slot_locks L i L' r : lacq (locks L i) < length (lkeys (locks L i)) -> acquire_slot sf L i = (L', r) ->
  forall x, locks L' x = upd_lock (locks L) i (acq_lock r (locks L i)) x.
Proof.
  intros LT A. unfold acquire_slot in A. destruct (key_at_some _ LT) as [k E]. rewrite E in A.
  unfold acquire_core in A. rewrite mr_locks, E in A.
  destruct (find_node k _) as [n|]; [destruct (N.ltb _ _); [|destruct (nval n)]|];
    inversion A; subst L' r; cbn [locks set_lock set_slot add_log acq_lock]; rewrite mr_locks; try reflexivity.
  intros x. unfold upd_lock. destruct (Nat.eqb_spec x i); [subst|]; reflexivity.
Qed.

Lemma key_is_true k l : key_is k l = true <-> key_at l = Some k.
Proof.
  unfold key_is. destruct (key_at l) as [k'|]; [|split; discriminate].
  rewrite N.eqb_eq. split; congruence.
Qed.

(* releaseSlot of lock i (not itself a waiter of the slot) on its last acquired key k, all outcomes at once:
   wk = the waiters picked ([] or [w]), rest = what is left of the slot's waiting list, hk = the new holder of k
   (the picked waiter when it is handed the latch stale, nobody otherwise) *)
Definition rel_effect (L : latches) (i : lid) (k : key) (a : nat) (L' : latches) (r : rres) : Prop :=
  let m := N.max (maxK L k) (lcommit (locks L i)) in
  exists wk rest hk,
    match r with RNone => wk = [] | RWake w => wk = [w] | RPanic => False end /\
    (forall s, waitS L' s = if N.eqb s (sf k) then rest else waitS L s) /\
    (forall x, In x (waitS L (sf k)) <-> In x wk \/ In x rest) /\
    (NoDup (waitS L (sf k)) -> NoDup rest /\ forall w, In w wk -> ~ In w rest) /\
    (forall k', holderK L' k' = if N.eqb k' k then hk else holderK L k') /\
    (wk = [] -> hk = None /\ forall x, In x rest -> key_at (locks L x) <> Some k) /\
    (forall w, In w wk -> key_at (locks L w) = Some k /\
       ((hk = Some w /\ (lstart (locks L w) < m)%N /\
         locks L' w = set_stale (set_acq (locks L w) (S (lacq (locks L w)))))
        \/ (hk = None /\ (m <= lstart (locks L w))%N /\ locks L' w = locks L w))) /\
    locks L' i = set_acq (locks L i) a /\
    (forall x, x <> i -> ~ In x wk -> locks L' x = locks L x) /\
    (forall k', maxK L' k' = if N.eqb k' k then m else maxK L k') /\
    glog L' = ERel k i (lcommit (locks L i)) :: glog L.

Lemma release_slot_spec L i k a L' r :
  lacq (locks L i) = S a -> nth_error (lkeys (locks L i)) a = Some k -> holderK L k = Some i ->
  ~ In i (waitS L (sf k)) -> release_slot sf L i = (L', r) -> qwf L ->
  rel_effect L i k a L' r /\ qwf L'.
Proof.
  intros A K H NIW R Q. unfold release_slot in R. rewrite A, K in R.
  unfold holderK, nodeK in H.
  destruct (find_node k (squeue (slots L (sf k)))) as [n|] eqn:F; [|discriminate].
  rewrite H in R. rewrite Nat.eqb_refl in R. simpl negb in R. cbv iota in R.
  assert (MK : nmax n = maxK L k) by (unfold maxK, nodeK; rewrite F; auto). rewrite MK in R.
  set (m := N.max (maxK L k) (lcommit (locks L i))) in *.
  set (L2 := add_log (set_lock L i (set_acq (locks L i) a)) [ERel k i (lcommit (locks L i))]) in *.
  assert (L2I : locks L2 i = set_acq (locks L i) a) by apply (upd_lock_same (locks L)).
  assert (L2O : forall x, x <> i -> locks L2 x = locks L x) by (intros x NE; apply (upd_lock_other (locks L)), NE).
  (* the slot after the release, for any new holder and waiting list; the lock records do not matter here *)
  assert (FIN : forall hk rest',
      let L3 := set_slot L2 (sf k) (mkSlot (upd_node k (mkNode k m hk) (squeue (slots L (sf k)))) rest') in
      (forall s, waitS L3 s = if N.eqb s (sf k) then rest' else waitS L s) /\
      (forall k', holderK L3 k' = if N.eqb k' k then hk else holderK L k') /\
      (forall k', maxK L3 k' = if N.eqb k' k then m else maxK L k') /\ qwf L3).
  { intros hk rest' L3.
    destruct (holder_max_upd L L2 k (mkNode k m hk) n rest' (fun _ => eq_refl) eq_refl F) as [HH HM].
    split; [|split; [exact HH | split; [exact HM|]]].
    - intros s. unfold waitS; simpl. destruct (N.eqb_spec s (sf k)); subst; auto.
    - intros s. unfold L3, set_slot; simpl. destruct (N.eqb_spec s (sf k)); subst; simpl; [|apply Q].
      rewrite map_nkey_upd by auto. apply Q. }
  destruct (pick_waiter (locks L2) k (swaiting (slots L (sf k)))) as [[w rest]|] eqn:P.
  - destruct (pick_some _ _ _ _ _ P) as (P1 & P2 & P3 & P4 & P5).
    assert (WI : w <> i) by (intros ->; exact (NIW P1)).
    rewrite (L2O w WI) in *. apply key_is_true in P2.
    assert (RIFF : forall x, In x (waitS L (sf k)) <-> In x [w] \/ In x rest).
    { intros x. split; [intros X; destruct (P4 x X) as [->|]; [left; left; auto | right; auto]|].
      intros [[<-|[]]|X]; [exact P1 | apply P3, X]. }
    assert (RND : NoDup (waitS L (sf k)) -> NoDup rest /\ forall w0, In w0 [w] -> ~ In w0 rest).
    { intros ND. destruct (P5 ND) as [B C]. split; [exact B | intros w0 [<-|[]]; exact C]. }
    destruct (N.ltb_spec (lstart (locks L w)) m) as [LT|GE]; inversion R; subst L' r; clear R.
    + destruct (FIN (Some w) rest) as (WW & HH & HM & QQ). split; [|exact QQ].
      exists [w], rest, (Some w). repeat (split; [first [reflexivity | assumption | discriminate]|]).
      split; [intros w0 [<-|[]]; split; [exact P2|]; left; repeat split; auto; apply (upd_lock_same (locks L2))|].
      split; [rewrite <- L2I; apply (upd_lock_other (locks L2)); auto|]. split; [|split; [exact HM | reflexivity]].
      intros x XI XW. rewrite <- (L2O x XI). apply (upd_lock_other (locks L2)). intros ->. apply XW. left. auto.
    + destruct (FIN None rest) as (WW & HH & HM & QQ). split; [|exact QQ].
      exists [w], rest, None. repeat (split; [first [reflexivity | assumption | discriminate]|]).
      split; [intros w0 [<-|[]]; split; [exact P2|]; right; repeat split; auto; exact (L2O w WI)|].
      split; [exact L2I|]. split; [intros x XI _; apply (L2O x XI) | split; [exact HM | reflexivity]].
  - inversion R; subst L' r; clear R.
    destruct (FIN None (swaiting (slots L (sf k)))) as (WW & HH & HM & QQ).
    split; [|exact QQ].
    exists [], (swaiting (slots L (sf k))), None. split; [reflexivity|]. split; [exact WW|].
    split; [intros x; split; [right; auto | intros [[]|X]; exact X]|].
    split; [intros ND; split; [exact ND | intros w0 []]|]. split; [exact HH|].
    split; [|split; [intros w0 [] | split; [exact L2I | split; [intros x XI _; apply (L2O x XI) | split; [exact HM | reflexivity]]]]].
    intros _. split; [reflexivity|]. intros x X KX. apply key_is_true in KX.
    assert (XI : x <> i) by (intros ->; exact (NIW X)).
    rewrite <- (L2O x XI), (pick_none _ _ _ P x X) in KX. discriminate.
Qed.

End Ops.
