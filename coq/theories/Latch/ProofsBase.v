(* Latch/ProofsBase.v — list facts: sorted key lists, the acquired prefix, genLock's sort,
   the ghost log (live releases of a key, acquisition records). *)
From Coq Require Import NArith List Bool Arith Lia Sorting.Sorted.
From Verif Require Import Latch.Model.
Import ListNotations.

Lemma firstn_S_nth {A} (l : list A) n x : nth_error l n = Some x -> firstn (S n) l = firstn n l ++ [x].
Proof.
  revert n. induction l as [|a l IH]; intros [|n]; simpl; try discriminate.
  - intros H; inversion H; auto.
  - intros H. f_equal. apply IH; auto.
Qed.
Lemma split_nth {A} (l : list A) n x : nth_error l n = Some x -> l = firstn n l ++ x :: skipn (S n) l.
Proof.
  revert n. induction l as [|a l IH]; intros [|n]; simpl; try discriminate.
  - intros H; inversion H; auto.
  - intros H. f_equal. apply IH; auto.
Qed.
Lemma ss_app_lt l1 x l2 : StronglySorted N.lt (l1 ++ x :: l2) -> forall y, In y l1 -> (y < x)%N.
Proof.
  induction l1 as [|a l1 IH]; simpl; [tauto|]. intros H y [E|I].
  - subst. apply StronglySorted_inv in H. destruct H as [_ F]. rewrite Forall_forall in F. apply F.
    apply in_or_app. right. left. auto.
  - apply StronglySorted_inv in H. destruct H as [H _]. auto.
Qed.
Lemma sorted_prefix_lt l a k : StronglySorted N.lt l -> nth_error l a = Some k -> forall y, In y (firstn a l) -> (y < k)%N.
Proof. intros S N. rewrite (split_nth _ _ _ N) in S. eapply ss_app_lt; eauto. Qed.
Lemma sorted_prefix_notin l a k : StronglySorted N.lt l -> nth_error l a = Some k -> ~ In k (firstn a l).
Proof. intros S N I. apply (sorted_prefix_lt _ _ _ S N) in I. lia. Qed.

Lemma nodup_snoc {A} (l : list A) x : NoDup l -> ~ In x l -> NoDup (l ++ [x]).
Proof.
  induction l as [|a l IH]; simpl; intros N NI; [constructor; auto; constructor|].
  inversion N; subst. constructor.
  - intros X. apply in_app_or in X. destruct X as [X|[X|[]]]; [auto | subst; apply NI; left; auto].
  - apply IH; auto.
Qed.
Lemma nodup_app_l {A} (l1 l2 : list A) : NoDup (l1 ++ l2) -> NoDup l1.
Proof.
  induction l1 as [|a l1 IH]; simpl; intros N; [constructor|]. inversion N; subst. constructor; auto.
  intros X. apply H1. apply in_or_app; auto.
Qed.
Lemma nodup_snoc_notin {A} (l : list A) x : NoDup (l ++ [x]) -> ~ In x l.
Proof.
  induction l as [|a l IH]; simpl; intros N; [tauto|]. inversion N; subst. intros [X|X].
  - subst. apply H1. apply in_or_app. right. left. auto.
  - apply IH; auto.
Qed.

Lemma insert_key_in k l x : In x (insert_key k l) <-> x = k \/ In x l.
Proof.
  induction l as [|a l IH]; simpl; [intuition|].
  destruct (N.leb k a); simpl; [intuition|]. rewrite IH. intuition.
Qed.
Lemma insert_key_sorted k l : StronglySorted N.lt l -> ~ In k l -> StronglySorted N.lt (insert_key k l).
Proof.
  induction l as [|a l IH]; simpl; intros S NI.
  - constructor; auto.
  - apply StronglySorted_inv in S. destruct S as [S F].
    destruct (N.leb_spec k a).
    + assert (k < a)%N by (assert (a <> k) by tauto; lia).
      constructor; [constructor; auto|]. constructor; auto.
      rewrite Forall_forall in *. intros y I. specialize (F y I). lia.
    + constructor; [apply IH; tauto|].
      rewrite Forall_forall in *. intros y I. apply insert_key_in in I. destruct I; [subst; auto | auto].
Qed.
Lemma sort_keys_in l x : In x (sort_keys l) <-> In x l.
Proof.
  induction l as [|a l IH]; simpl; [tauto|]. rewrite insert_key_in, IH. intuition.
Qed.
Lemma sort_keys_sorted l : NoDup l -> StronglySorted N.lt (sort_keys l).
Proof.
  induction l as [|a l IH]; simpl; intros H; [constructor|].
  inversion H; subst. apply insert_key_sorted; auto. rewrite sort_keys_in. auto.
Qed.

Fixpoint live_rels (k : key) (h : list event) : list ts :=
  match h with
  | [] => []
  | ERel k' _ c :: r => if N.eqb k' k then c :: live_rels k r else live_rels k r
  | ERecycle k' _ _ :: r => if N.eqb k' k then [] else live_rels k r
  | EAcq _ _ :: r => live_rels k r
  end.
(* lock i acquired key k at a moment when every earlier, not yet recycled release of k had commit <= st *)
Definition acq_ok (h : list event) (i : lid) (k : key) (st : ts) : Prop :=
  exists h1 h2, h = h1 ++ EAcq k i :: h2 /\ forall c, In c (live_rels k h2) -> (c <= st)%N.
Lemma acq_ok_app ev h i k st : acq_ok h i k st -> acq_ok (ev ++ h) i k st.
Proof. intros (h1 & h2 & E & F). exists (ev ++ h1), h2. rewrite E, app_assoc. auto. Qed.
Lemma acq_ok_cons e h i k st : acq_ok h i k st -> acq_ok (e :: h) i k st.
Proof. apply (acq_ok_app [e]). Qed.
Definition rec_shape (ev : list event) : Prop := forall e, In e ev -> exists k' c m, e = ERecycle k' c m.
Lemma live_rels_recycle_app ev h k c :
  rec_shape ev ->
  In c (live_rels k (ev ++ h)) -> (forall c0 m0, ~ In (ERecycle k c0 m0) ev) /\ In c (live_rels k h).
Proof.
  induction ev as [|e ev IH]; simpl; intros SH I; [split; auto; intros ? ? []|].
  destruct (SH e (or_introl eq_refl)) as (k' & c' & m' & E). subst e. simpl in I.
  destruct (N.eqb_spec k' k); [destruct I|].
  destruct (IH (fun e H => SH e (or_intror H)) I). split; auto.
  intros c0 m0 [X|X]; [inversion X; congruence | eapply H; eauto].
Qed.
Lemma in_app_recycle_rel ev h k j c :
  rec_shape ev -> In (ERel k j c) (ev ++ h) -> In (ERel k j c) h.
Proof.
  intros SH I. apply in_app_or in I. destruct I as [I|I]; auto.
  destruct (SH _ I) as (k' & c' & m' & E). discriminate.
Qed.
