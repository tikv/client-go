(* Latch/ProofsInv.v — the inductive invariant over an abstract view of the system state
   (latches, role of every lock, scheduler's wake-up list, channel, lock being released) and its
   preservation by recycle and by the simple steps (start, unlock, pop, wake of a stale lock). *)
From Coq Require Import NArith List Bool Arith Lia.
From Verif Require Import Latch.Model Latch.ProofsOps Latch.ProofsBase.
Import ListNotations.

Inductive role := RNew | RAcq | RWait | RDone | RUnl | RRel.

(* [dinv I]: the fields of an invariant I under the names i_q0 ... i_acqok0; [xi x i]: is x the lock i? *)
Ltac dinv I := destruct I as [i_q0 i_sorted0 i_hnd0 i_acq0 i_hold0 i_role0 i_wait0 i_wnd0 i_wl_nd0 i_wl0 i_rel0 i_chan_nd0 i_chan0 i_started0 i_maxsrc0 i_relpc0 i_stale0 i_live0 i_acqok0].
Ltac xi x i := destruct (Nat.eqb_spec x i) as [?E|?NE]; [try subst x | ].

Section Inv.
Variable sf : key -> sid.
(* what is known about the key list of every Lock: True, or strictly sorted when the caller passes distinct keys *)
Variable KP : list key -> Prop.
Hypothesis KP_nil : KP [].
Notation holderK := (holderK sf).
Notation maxK := (maxK sf).
Notation qwf := (qwf).

Definition pending (L : latches) (wl : list lid) (k : key) : Prop :=
  exists j, In j wl /\ lstale (locks L j) = false /\ key_at (locks L j) = Some k.

Set Implicit Arguments.
Record inv (L : latches) (rl : lid -> role) (wl ch : list lid) (rel : option lid) (st : list lid) : Prop := mkInv {
  i_q : qwf L;
  i_sorted : forall i, KP (lkeys (locks L i));
  i_hnd : forall i, NoDup (held (locks L i));
  i_acq : forall i, lacq (locks L i) <= length (lkeys (locks L i));
  i_hold : forall i k, In k (held (locks L i)) <-> holderK L k = Some i;
  i_role : forall i, match rl i with
      | RNew => lacq (locks L i) = 0 /\ lstale (locks L i) = false
      | RAcq => lstale (locks L i) = false /\ lacq (locks L i) < length (lkeys (locks L i))
      | RWait => In i wl \/ exists k, key_at (locks L i) = Some k /\ In i (waitS L (sf k))
      | RDone => lstale (locks L i) = true \/ lacq (locks L i) = length (lkeys (locks L i))
      | RUnl => In i ch \/ rel = Some i
      | RRel => lacq (locks L i) = 0
      end;
  (* a waiter is blocked on its next key and will be picked: by the key's holder when it releases, or else a lock
     already picked for that key is on its way to take it *)
  i_wait : forall s i, In i (waitS L s) ->
      rl i = RWait /\ lstale (locks L i) = false /\ ~ In i wl /\
      exists k, key_at (locks L i) = Some k /\ sf k = s /\ (holderK L k <> None \/ pending L wl k);
  i_wnd : forall s, NoDup (waitS L s);
  i_wl_nd : NoDup wl;
  (* why a picked waiter is not refused as stale at its wake-up: releaseSlot compared the key's maxCommitTS with its
     start ts, and the release() under way does not touch that key again *)
  i_wl : forall j, In j wl -> rl j = RWait /\
      (lstale (locks L j) = false ->
       exists k, key_at (locks L j) = Some k /\ (maxK L k <= lstart (locks L j))%N /\
                 forall i, rel = Some i -> ~ In k (held (locks L i)));
  i_rel : forall i, rel = Some i -> rl i = RUnl /\ ~ In i ch /\ 0 < lacq (locks L i);
  i_chan_nd : NoDup ch;
  i_chan : forall i, In i ch -> rl i = RUnl;
  i_started : forall i, rl i <> RNew -> In i st;
  (* the ghost log against the nodes: a maxCommitTS is the commit ts of a logged release and dominates the releases
     of its key since the node was created *)
  i_maxsrc : forall k, maxK L k = 0%N \/ exists j, In (ERel k j (maxK L k)) (glog L);
  i_relpc : forall k j c, In (ERel k j c) (glog L) -> rl j = RUnl \/ rl j = RRel;
  i_stale : forall i, lstale (locks L i) = true ->
      exists k j c, In k (lkeys (locks L i)) /\ j <> i /\ In (ERel k j c) (glog L) /\ (lstart (locks L i) < c)%N;
  i_live : forall k c, In c (live_rels k (glog L)) -> (c <= maxK L k)%N;
  i_acqok : forall i k, lstale (locks L i) = false -> In k (held (locks L i)) ->
      acq_ok (glog L) i k (lstart (locks L i))
}.
Unset Implicit Arguments.

Lemma inv_init : inv init_lat (fun _ => RNew) [] [] None [].
Proof.
  constructor.
  - intros s. simpl. constructor.
  - intros i. simpl. exact KP_nil.
  - intros i. simpl. constructor.
  - intros i. simpl. auto.
  - intros i k. unfold held; simpl. split; [tauto|]. unfold holderK, ProofsOps.holderK, nodeK; simpl. discriminate.
  - intros i; simpl. auto.
  - intros s i. simpl. tauto.
  - intros s. simpl. constructor.
  - constructor.
  - intros j. simpl. tauto.
  - intros i. discriminate.
  - constructor.
  - intros i. simpl. tauto.
  - intros i H. congruence.
  - intros k. left. reflexivity.
  - intros k j c. simpl. tauto.
  - intros i. simpl. discriminate.
  - intros k c. simpl. tauto.
  - intros i k _ H. unfold held in H; simpl in H. tauto.
Qed.

Lemma inv_ext_role L rl rl' wl ch rel st :
  inv L rl wl ch rel st -> (forall x, rl' x = rl x) -> inv L rl' wl ch rel st.
Proof.
  intros [] E. constructor; auto.
  - intros i. rewrite E. apply i_role0.
  - intros s i X. rewrite E. auto.
  - intros j X. rewrite E. auto.
  - intros i X. rewrite E. auto.
  - intros i X. rewrite E. auto.
  - intros i X. rewrite E in X. auto.
  - intros k j c X. rewrite !E. eauto.
Qed.

(* recycle: the external step and the in-line one of acquireSlot *)
Lemma inv_recycle_like L L' ev rl wl ch rel st :
  inv L rl wl ch rel st ->
  qwf L' -> (forall k, holderK L' k = holderK L k) ->
  (forall k, maxK L' k = maxK L k \/ (maxK L' k = 0%N /\ exists c m, In (ERecycle k c m) ev)) ->
  (forall s, waitS L' s = waitS L s) -> locks L' = locks L -> glog L' = ev ++ glog L ->
  rec_shape ev ->
  inv L' rl wl ch rel st.
Proof.
  intros [] Q H M W LK G SH.
  assert (P : forall k, pending L wl k -> pending L' wl k).
  { intros k (j & A & B & C). exists j. rewrite LK. auto. }
  constructor; try rewrite LK; auto.
  - intros i k. rewrite H. auto.
  - intros i. specialize (i_role0 i). destruct (rl i); auto.
    destruct i_role0 as [A|(k & A & B)]; auto. right. exists k. rewrite W. auto.
  - intros s i. rewrite W. intros X. destruct (i_wait0 s i X) as (A & B & C & k & D & E & F).
    repeat split; auto. exists k. rewrite H. repeat split; auto. destruct F; auto.
  - intros s. rewrite W. auto.
  - intros j X. destruct (i_wl0 j X) as (A & B). split; auto. intros S. destruct (B S) as (k & C & D & E).
    exists k. repeat split; auto. destruct (M k) as [M1|[M1 _]]; rewrite M1; auto. apply N.le_0_l.
  - intros k. destruct (M k) as [M1|[M1 _]]; rewrite M1; auto.
    destruct (i_maxsrc0 k) as [A|[j A]]; auto. right. exists j. rewrite G. apply in_or_app. auto.
  - intros k j c. rewrite G. intros X. apply in_app_recycle_rel in X; eauto.
  - intros i S. destruct (i_stale0 i S) as (k & j & c & A & B & C & D). exists k, j, c. rewrite G.
    repeat split; auto. apply in_or_app; auto.
  - intros k c. rewrite G. intros X. apply live_rels_recycle_app in X; auto. destruct X as [X1 X2].
    destruct (M k) as [M1|[_ (c0 & m0 & M1)]]; [rewrite M1; auto | exfalso; eapply X1; eauto].
  - intros i k S X. rewrite G. apply acq_ok_app. auto.
Qed.

Lemma inv_recycle L s t rl wl ch rel st :
  inv L rl wl ch rel st -> inv (recycle_slot L s t) rl wl ch rel st.
Proof.
  intros I. assert (Q := i_q I).
  eapply inv_recycle_like with (ev := recycle_events L s t); eauto.
  - apply recycle_qwf; auto.
  - intros k. apply recycle_holderK; auto.
  - intros k. destruct (recycle_maxK sf L s t k Q) as [A|[A B]]; [left; auto | right; split; eauto].
  - intros s'. apply recycle_waitS.
  - intros e; apply recycle_events_shape.
Qed.
Lemma inv_maybe_recycle L s t rl wl ch rel st :
  inv L rl wl ch rel st -> inv (maybe_recycle L s t) rl wl ch rel st.
Proof. intros I. destruct (maybe_recycle_cases L s t) as [-> | ->]; [exact I | apply inv_recycle, I]. Qed.

Lemma inv_start L rl wl ch rel st i ks t rl' :
  inv L rl wl ch rel st -> rl i = RNew -> KP (sort_keys ks) ->
  (forall x, rl' x = if Nat.eqb x i then (if complete (gen_lock ks t) then RDone else RAcq) else rl x) ->
  inv (set_lock L i (gen_lock ks t)) rl' wl ch rel (i :: st).
Proof.
  intros [] RI ND R'.
  assert (LK : forall x, locks (set_lock L i (gen_lock ks t)) x = if Nat.eqb x i then gen_lock ks t else locks L x) by reflexivity.
  assert (NW : forall s, ~ In i (waitS L s)).
  { intros s X. destruct (i_wait0 s i X) as (A & _). congruence. }
  assert (NL : ~ In i wl).
  { intros X. destruct (i_wl0 i X) as (A & _). congruence. }
  assert (H0 : held (locks L i) = []).
  { specialize (i_role0 i). rewrite RI in i_role0. unfold held. destruct i_role0 as [A _]. rewrite A. reflexivity. }
  assert (P : forall k, pending L wl k -> pending (set_lock L i (gen_lock ks t)) wl k).
  { intros k (j & A & B & C). exists j. rewrite LK. destruct (Nat.eqb_spec j i); [subst; contradiction | auto]. }
  constructor; try assumption.
  - intros x. rewrite LK. destruct (Nat.eqb_spec x i); auto.
  - intros x. rewrite LK. destruct (Nat.eqb_spec x i); auto. unfold held; simpl. constructor.
  - intros x. rewrite LK. destruct (Nat.eqb_spec x i); auto. simpl. lia.
  - intros x k. rewrite LK. change (holderK (set_lock L i (gen_lock ks t)) k) with (holderK L k).
    destruct (Nat.eqb_spec x i); auto. subst x. unfold held; simpl. rewrite <- i_hold0, H0. tauto.
  - intros x. rewrite R', LK. destruct (Nat.eqb_spec x i).
    + subst. unfold complete. simpl. destruct (Nat.leb_spec (length (sort_keys ks)) 0); simpl; [right; lia | split; auto].
    + apply i_role0.
  - intros s x X. change (waitS (set_lock L i (gen_lock ks t)) s) with (waitS L s) in X.
    destruct (i_wait0 s x X) as (A & B & C & k & D & E & F).
    assert (x <> i) by (intros ->; apply (NW s); auto).
    rewrite R', LK. destruct (Nat.eqb_spec x i); [contradiction|].
    repeat split; auto. exists k. repeat split; auto. destruct F; auto.
  - intros j X. destruct (i_wl0 j X) as (A & B).
    assert (j <> i) by (intros ->; contradiction).
    rewrite R', LK. destruct (Nat.eqb_spec j i); [contradiction|]. split; auto.
    intros S. destruct (B S) as (k & C & D & E). exists k. repeat split; auto.
    intros i0 RE. rewrite LK. destruct (Nat.eqb_spec i0 i); [|auto].
    subst i0. destruct (i_rel0 i RE). congruence.
  - intros i0 RE. destruct (i_rel0 i0 RE) as (A & B & C).
    assert (i0 <> i) by (intros ->; congruence).
    rewrite R', LK. destruct (Nat.eqb_spec i0 i); [contradiction|]. auto.
  - intros x X. specialize (i_chan0 x X). rewrite R'. destruct (Nat.eqb_spec x i); [subst; congruence | auto].
  - intros x X. rewrite R' in X. destruct (Nat.eqb_spec x i); [left; auto | right; auto].
  - intros k j c X. specialize (i_relpc0 k j c X). rewrite R'.
    destruct (Nat.eqb_spec j i); [subst; rewrite RI in i_relpc0; destruct i_relpc0; discriminate | auto].
  - intros x. rewrite LK. destruct (Nat.eqb_spec x i); [simpl; discriminate | apply i_stale0].
  - intros x k. rewrite LK. destruct (Nat.eqb_spec x i); [unfold held; simpl; tauto | apply i_acqok0].
Qed.

(* SetCommitTS: only lcommit changes, of which the invariant says nothing *)
Lemma inv_commit L rl wl ch rel st i c :
  inv L rl wl ch rel st -> inv (set_lock L i (set_commit (locks L i) c)) rl wl ch rel st.
Proof.
  intros [].
  set (L' := set_lock L i (set_commit (locks L i) c)).
  assert (LK : forall x, locks L' x = if Nat.eqb x i then set_commit (locks L i) c else locks L x) by reflexivity.
  assert (E1 : forall x, lkeys (locks L' x) = lkeys (locks L x)) by (intros x; rewrite LK; destruct (Nat.eqb_spec x i); subst; auto).
  assert (E2 : forall x, lacq (locks L' x) = lacq (locks L x)) by (intros x; rewrite LK; destruct (Nat.eqb_spec x i); subst; auto).
  assert (E3 : forall x, lstale (locks L' x) = lstale (locks L x)) by (intros x; rewrite LK; destruct (Nat.eqb_spec x i); subst; auto).
  assert (E4 : forall x, lstart (locks L' x) = lstart (locks L x)) by (intros x; rewrite LK; destruct (Nat.eqb_spec x i); subst; auto).
  assert (E5 : forall x, held (locks L' x) = held (locks L x)) by (intros x; unfold held; rewrite E1, E2; auto).
  assert (E6 : forall x, key_at (locks L' x) = key_at (locks L x)) by (intros x; unfold key_at; rewrite E1, E2; auto).
  assert (P : forall k, pending L wl k -> pending L' wl k).
  { intros k (j & A & B & C). exists j. rewrite E3, E6. auto. }
  constructor; try assumption.
  - intros x. rewrite E1. auto.
  - intros x. rewrite E5. auto.
  - intros x. rewrite E1, E2. auto.
  - intros x k. rewrite E5. apply i_hold0.
  - intros x. rewrite E1, E2, E3, E6. apply i_role0.
  - intros s x X. destruct (i_wait0 s x X) as (A & B & C & k & D & E & F).
    rewrite E3, E6. repeat split; auto. exists k. repeat split; auto. destruct F; auto.
  - intros j X. destruct (i_wl0 j X) as (A & B). rewrite E3, E6, E4. split; auto.
    intros S. destruct (B S) as (k & C & D & E). exists k. repeat split; auto. intros i0 RE. rewrite E5. auto.
  - intros i0 RE. rewrite E2. auto.
  - intros x. rewrite E3, E1, E4. apply i_stale0.
  - intros x k. rewrite E3, E5, E4. apply i_acqok0.
Qed.

Lemma inv_send L rl wl ch rel st i rl' :
  inv L rl wl ch rel st -> rl i = RDone ->
  (forall x, rl' x = if Nat.eqb x i then RUnl else rl x) ->
  inv L rl' wl (ch ++ [i]) rel st.
Proof.
  intros [] RI R'.
  assert (NC : ~ In i ch) by (intros X; specialize (i_chan0 i X); congruence).
  constructor; try assumption.
  - intros x. rewrite R'. specialize (i_role0 x). destruct (Nat.eqb_spec x i).
    + subst. left. apply in_or_app. right. left. auto.
    + destruct (rl x); auto. destruct i_role0; auto. left. apply in_or_app; auto.
  - intros s x X. destruct (i_wait0 s x X) as (A & B). rewrite R'. destruct (Nat.eqb_spec x i); [subst; congruence | auto].
  - intros j X. destruct (i_wl0 j X) as (A & B). rewrite R'. destruct (Nat.eqb_spec j i); [subst; congruence | auto].
  - intros i0 RE. destruct (i_rel0 i0 RE) as (A & B & C). rewrite R'.
    destruct (Nat.eqb_spec i0 i); [subst; congruence|]. repeat split; auto.
    intros X. apply in_app_or in X. destruct X as [X|[X|[]]]; auto.
  - apply nodup_snoc; auto.
  - intros x X. rewrite R'. destruct (Nat.eqb_spec x i); auto.
    apply in_app_or in X. destruct X as [X|[X|[]]]; [auto | congruence].
  - intros x X. rewrite R' in X. destruct (Nat.eqb_spec x i); [subst; apply i_started0; congruence | auto].
  - intros k j c0 X. specialize (i_relpc0 k j c0 X). rewrite R'. destruct (Nat.eqb_spec j i); auto.
Qed.

Lemma inv_pop_rel L rl ch st i :
  inv L rl [] (i :: ch) None st -> 0 < lacq (locks L i) -> inv L rl [] ch (Some i) st.
Proof.
  intros [] A.
  assert (NI : ~ In i ch) by (inversion i_chan_nd0; auto).
  constructor; try assumption.
  - intros x. specialize (i_role0 x). destruct (rl x); auto.
    destruct i_role0 as [[X|X]|X]; [subst; auto | auto | discriminate].
  - intros j [].
  - intros i0 E. inversion E; subst. repeat split; auto. apply i_chan0. left; auto.
  - inversion i_chan_nd0; auto.
  - intros x X. apply i_chan0. right; auto.
Qed.
Lemma inv_pop_done L rl ch st i rl' :
  inv L rl [] (i :: ch) None st -> lacq (locks L i) = 0 ->
  (forall x, rl' x = if Nat.eqb x i then RRel else rl x) ->
  inv L rl' [] ch None st.
Proof.
  intros [] A R'.
  assert (NI : ~ In i ch) by (inversion i_chan_nd0; auto).
  assert (RI : rl i = RUnl) by (apply i_chan0; left; auto).
  constructor; try assumption.
  - intros x. rewrite R'. specialize (i_role0 x). destruct (Nat.eqb_spec x i); [subst; auto|].
    destruct (rl x); auto. destruct i_role0 as [[X|X]|X]; [congruence | auto | discriminate].
  - intros s x X. destruct (i_wait0 s x X) as (B & C & D & E). rewrite R'.
    destruct (Nat.eqb_spec x i); [subst; congruence | auto].
  - intros j [].
  - intros i0 E. discriminate.
  - inversion i_chan_nd0; auto.
  - intros x X. rewrite R'. destruct (Nat.eqb_spec x i); [subst; contradiction | apply i_chan0; right; auto].
  - intros x X. rewrite R' in X. destruct (Nat.eqb_spec x i); [subst; apply i_started0; congruence | auto].
  - intros k j c X. specialize (i_relpc0 k j c X). rewrite R'. destruct (Nat.eqb_spec j i); auto.
Qed.

(* wakeup() of a lock that releaseSlot handed the latch stale: Lock() returns, nothing else changes *)
Lemma inv_wake_stale L rl wl ch st j rl' :
  inv L rl (j :: wl) ch None st -> lstale (locks L j) = true ->
  (forall x, rl' x = if Nat.eqb x j then RDone else rl x) ->
  inv L rl' wl ch None st.
Proof.
  intros [] S R'.
  assert (NJ : ~ In j wl) by (inversion i_wl_nd0; auto).
  assert (RJ : rl j = RWait) by (apply i_wl0; left; auto).
  assert (P : forall k, pending L (j :: wl) k -> pending L wl k).
  { intros k (x & [A|A] & B & C); [subst; congruence | exists x; auto]. }
  constructor; try assumption.
  - intros x. rewrite R'. specialize (i_role0 x). destruct (Nat.eqb_spec x j); [subst; auto|].
    destruct (rl x); auto. destruct i_role0 as [[X|X]|X]; [congruence | auto | auto].
  - intros s x X. destruct (i_wait0 s x X) as (A & B & C & k & D & E & F). rewrite R'.
    destruct (Nat.eqb_spec x j); [subst; exfalso; apply C; left; auto|].
    repeat split; auto. { intros Y; apply C; right; auto. }
    exists k. repeat split; auto. destruct F; auto.
  - inversion i_wl_nd0; auto.
  - intros x X. destruct (i_wl0 x (or_intror X)) as (A & B). rewrite R'.
    destruct (Nat.eqb_spec x j); [subst; contradiction | auto].
  - intros i0 E. discriminate.
  - intros x X. rewrite R'. destruct (Nat.eqb_spec x j); [subst; specialize (i_chan0 j X); congruence | auto].
  - intros x X. rewrite R' in X. destruct (Nat.eqb_spec x j); [subst; apply i_started0; congruence | auto].
  - intros k x c X. specialize (i_relpc0 k x c X). rewrite R'.
    destruct (Nat.eqb_spec x j); [subst; rewrite RJ in i_relpc0; destruct i_relpc0; discriminate | auto].
Qed.

End Inv.
