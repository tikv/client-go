(* Latch/ProofsAcq.v — the invariant is preserved by one acquireSlot, executed either by the
   lock's own thread (role RAcq) or by the scheduler for the head of its wake-up list. *)
From Coq Require Import NArith List Bool Arith Lia.
From Verif Require Import Latch.Model Latch.ProofsOps Latch.ProofsBase Latch.ProofsInv.
Import ListNotations.

Section Acq.
Variable sf : key -> sid.
Variable KP : list key -> Prop.
Notation holderK := (holderK sf).
Notation maxK := (maxK sf).
Notation inv := (inv sf KP).

Definition acq_pre (L : latches) (rl : lid -> role) (wl wl' : list lid) (rel : option lid) (i : lid) : Prop :=
  (rl i = RAcq /\ wl' = wl) \/ (rl i = RWait /\ wl = i :: wl' /\ lstale (locks L i) = false /\ rel = None).

Lemma acq_pre_facts L rl wl wl' ch rel st i k :
  inv L rl wl ch rel st -> key_at (locks L i) = Some k -> acq_pre L rl wl wl' rel i ->
  lstale (locks L i) = false /\ (forall s, ~ In i (waitS L s)) /\ ~ In i wl' /\
  (forall x, In x wl' -> In x wl) /\ (forall x, In x wl -> x = i \/ In x wl') /\
  lacq (locks L i) < length (lkeys (locks L i)) /\ In k (lkeys (locks L i)) /\
  rel <> Some i /\ ~ In i ch /\ (rl i = RAcq \/ rl i = RWait) /\ NoDup wl' /\
  (In i wl -> (maxK L k <= lstart (locks L i))%N).
Proof.
  intros I K PRE. dinv I.
  assert (LT : lacq (locks L i) < length (lkeys (locks L i))) by (apply nth_error_Some; unfold key_at in K; congruence).
  assert (KI : In k (lkeys (locks L i))) by (eapply nth_error_In; eauto).
  destruct PRE as [[R E]|(R & E & S & RN)].
  - subst wl'. specialize (i_role0 i) as RI. rewrite R in RI. destruct RI as [S _].
    repeat split; auto.
    + intros s X. destruct (i_wait0 s i X). congruence.
    + intros X. destruct (i_wl0 i X). congruence.
    + intros E. destruct (i_rel0 i E). congruence.
    + intros X. specialize (i_chan0 i X). congruence.
    + intros X. destruct (i_wl0 i X). congruence.
  - subst wl rel. inversion i_wl_nd0; subst.
    repeat split; auto.
    + intros s X. destruct (i_wait0 s i X) as (_ & _ & N & _). apply N. left; auto.
    + intros x X. right; auto.
    + intros x [X|X]; auto.
    + discriminate.
    + intros X. specialize (i_chan0 i X). congruence.
    + intros X. destruct (i_wl0 i X) as (_ & B). destruct (B S) as (k0 & C & D & _).
      assert (k0 = k) by congruence. subst. auto.
Qed.

Definition acq_role (r : ares) (l' : lock) : role :=
  match r with ASuccess => if complete l' then RDone else RAcq | ALocked => RWait | AStale => RDone end.

(* The three outcomes share everything that concerns the other locks; the record, the role and the place of lock i
   itself are treated by outcome. *)
Lemma inv_acquire L rl wl wl' ch rel st i k L' r rl' :
  inv L rl wl ch rel st -> key_at (locks L i) = Some k -> acq_pre L rl wl wl' rel i ->
  acq_effect sf L i k L' r -> qwf L' ->
  (forall x, rl' x = if Nat.eqb x i then acq_role r (locks L' i) else rl x) ->
  inv L' rl' wl' ch rel st.
Proof.
  intros I K PRE EF Q' R'.
  destruct (acq_pre_facts _ _ _ _ _ _ _ _ _ I K PRE) as (SI & NIW & NIWL & SUB & WLX & LT & KI & NRI & NCI & ROLEI & ND' & DD).
  dinv I.
  destruct EF as (PC & HH & MM & WW & LL & GG).
  set (li := locks L i) in *.
  assert (LKI : locks L' i = acq_lock r li) by (rewrite LL; apply upd_lock_same).
  assert (LKX : forall x, x <> i -> locks L' x = locks L x) by (intros x NE; rewrite LL; apply upd_lock_other, NE).
  assert (RX : forall x, x <> i -> rl' x = rl x).
  { intros x NE. rewrite R'. destruct (Nat.eqb_spec x i); [contradiction | reflexivity]. }
  assert (KEYS : forall x, lkeys (locks L' x) = lkeys (locks L x)).
  { intros x. xi x i; [rewrite LKI; destruct r; reflexivity | rewrite LKX by auto; reflexivity]. }
  assert (STARTS : forall x, lstart (locks L' x) = lstart (locks L x)).
  { intros x. xi x i; [rewrite LKI; destruct r; reflexivity | rewrite LKX by auto; reflexivity]. }
  assert (REL : forall k0 j c, In (ERel k0 j c) (glog L') <-> In (ERel k0 j c) (glog L)).
  { intros k0 j c. rewrite GG. destruct r; simpl; [|tauto..]. split; [intros [X|X]; [discriminate | auto] | auto]. }
  assert (HNS : r <> ASuccess -> forall k0, holderK L' k0 = holderK L k0).
  { intros NS k0. rewrite HH. destruct (N.eqb_spec k0 k) as [->|]; [destruct r; congruence | reflexivity]. }
  assert (HSUB : forall k0, holderK L k0 <> None -> holderK L' k0 <> None).
  { intros k0. rewrite HH. destruct (N.eqb_spec k0 k) as [->|]; auto. destruct r; auto. discriminate. }
  assert (HK' : r <> AStale -> holderK L' k <> None).
  { intros NS. rewrite HH, N.eqb_refl. destruct r; [discriminate | apply PC | congruence]. }
  assert (WSUB : forall s x, In x (waitS L s) -> In x (waitS L' s)).
  { intros s x X. rewrite WW. destruct (N.eqb s (sf k)); auto. apply in_or_app; auto. }
  (* a waiter behind a key is still served: by the holder, or by a lock on the wake-up list *)
  assert (P : forall k0, pending L wl k0 -> holderK L' k0 <> None \/ pending L' wl' k0).
  { intros k0 (j & A & B & C). destruct (Nat.eq_dec j i) as [->|NE].
    - left. assert (k0 = k) by (unfold li in *; congruence). subst k0. apply HK'.
      intros ->. specialize (DD A). unfold li in *. lia.
    - right. exists j. rewrite LKX by auto. repeat split; auto. destruct (WLX j A); [contradiction | auto]. }
  constructor.
  - exact Q'.
  - intros x. rewrite KEYS. apply i_sorted0.
  - intros x. xi x i; [|rewrite LKX by auto; apply i_hnd0]. rewrite LKI.
    destruct r; [|apply (i_hnd0 i)..]. unfold held. cbn [acq_lock set_acq lacq lkeys].
    rewrite (firstn_S_nth _ _ _ K). apply nodup_snoc; [apply i_hnd0|]. intros X. apply i_hold0 in X. destruct PC. congruence.
  - intros x. rewrite KEYS. xi x i; [|rewrite LKX by auto; apply i_acq0]. rewrite LKI.
    destruct r; [exact LT | apply i_acq0..].
  - intros x k0. destruct r; [|rewrite HNS by discriminate; (xi x i; [rewrite LKI | rewrite LKX by auto]); apply i_hold0..].
    destruct PC as [HN _]. rewrite HH. xi x i.
    + rewrite LKI. unfold held. cbn [acq_lock set_acq lacq lkeys]. rewrite (firstn_S_nth _ _ _ K), in_app_iff. simpl.
      destruct (N.eqb_spec k0 k) as [->|NK]; [split; auto|].
      rewrite <- i_hold0. split; [intros [X|[X|[]]]; [auto | congruence] | auto].
    + rewrite LKX by auto. destruct (N.eqb_spec k0 k) as [->|NK]; [|apply i_hold0].
      split; [intros X; apply i_hold0 in X; congruence | intros X; congruence].
  - intros x. xi x i.
    + rewrite R', Nat.eqb_refl, LKI. destruct r; cbn [acq_role acq_lock].
      * unfold complete. simpl. destruct (Nat.leb_spec (length (lkeys li)) (S (lacq li))); simpl; [right; lia | split; auto].
      * right. exists k. split; [exact K|]. rewrite WW, N.eqb_refl. apply in_or_app. right. left. auto.
      * left. reflexivity.
    + rewrite RX, LKX by auto. specialize (i_role0 x). destruct (rl x); auto.
      destruct i_role0 as [X|(k0 & A & B)]; [destruct (WLX x X); [contradiction | left; auto] | right; exists k0; auto].
  - intros s x X.
    assert (OLD : In x (waitS L s) -> rl' x = RWait /\ lstale (locks L' x) = false /\ ~ In x wl' /\
       exists k0, key_at (locks L' x) = Some k0 /\ sf k0 = s /\ (holderK L' k0 <> None \/ pending L' wl' k0)).
    { intros Y. destruct (i_wait0 s x Y) as (A & B & C & k0 & D & E & F).
      assert (x <> i) by (intros ->; eapply NIW; eauto).
      rewrite RX, LKX by auto. repeat split; auto. exists k0. repeat split; auto. destruct F as [F|F]; auto. }
    rewrite WW in X. destruct (N.eqb_spec s (sf k)); auto. apply in_app_or in X. destruct X as [X|X]; auto.
    destruct r; try contradiction. destruct X as [<-|[]]. subst s.
    rewrite R', Nat.eqb_refl, LKI. repeat split; auto. exists k. repeat split; auto. left. apply HK'. discriminate.
  - intros s. rewrite WW. destruct (N.eqb_spec s (sf k)); auto. subst s.
    destruct r; rewrite ?app_nil_r; auto. apply nodup_snoc; [apply i_wnd0 | apply NIW].
  - exact ND'.
  - intros j X. assert (j <> i) by (intros ->; contradiction).
    destruct (i_wl0 j (SUB _ X)) as (A & B). rewrite RX, LKX by auto. split; auto.
    intros S. destruct (B S) as (k0 & C & D & E). exists k0. rewrite MM. repeat split; auto.
    intros i0 RE. assert (i0 <> i) by congruence. rewrite LKX by auto. auto.
  - intros i0 RE. assert (i0 <> i) by congruence. rewrite RX, LKX by auto. auto.
  - exact i_chan_nd0.
  - intros x X. rewrite RX; [auto | intros ->; contradiction].
  - intros x X. xi x i; [apply i_started0; destruct ROLEI; congruence | rewrite RX in X by auto; auto].
  - intros k0. rewrite MM. destruct (i_maxsrc0 k0) as [A|[j A]]; auto. right. exists j. apply REL, A.
  - intros k0 j c X. apply REL in X. specialize (i_relpc0 _ _ _ X).
    xi j i; [exfalso; destruct ROLEI as [Z|Z]; rewrite Z in i_relpc0; destruct i_relpc0; discriminate | rewrite RX by auto; auto].
  - intros x. rewrite KEYS, STARTS. xi x i.
    + rewrite LKI. destruct r; cbn [acq_lock set_acq set_stale lstale]; [intros S; unfold li in *; congruence..|].
      intros _. destruct (i_maxsrc0 k) as [A|[j A]]; [unfold li in *; lia|].
      exists k, j, (maxK L k). repeat split; auto; [|apply REL, A].
      intros ->. specialize (i_relpc0 _ _ _ A). destruct ROLEI as [Z|Z]; rewrite Z in i_relpc0; destruct i_relpc0; discriminate.
    + rewrite LKX by auto. intros S. destruct (i_stale0 x S) as (k0 & j & c & A & B & C & D).
      exists k0, j, c. repeat split; auto. apply REL, C.
  - intros k0 c. rewrite GG, MM. destruct r; simpl; auto.
  - intros x k0. rewrite GG, STARTS. xi x i; [|rewrite LKX by auto; intros S X; apply acq_ok_app; auto].
    rewrite LKI. destruct r; cbn [acq_lock]; [|intros S X; apply acq_ok_app; auto | discriminate].
    unfold held. cbn [set_acq lacq lkeys lstale]. rewrite (firstn_S_nth _ _ _ K). intros S X.
    apply in_app_or in X. destruct X as [X|[X|[]]]; [apply acq_ok_app; auto|].
    subst k0. exists [], (glog L). split; auto. intros c X. apply i_live0 in X. destruct PC. unfold li in *. lia.
Qed.

(* acquireSlot as a whole: the in-line recycle, then the core *)
Lemma inv_acquire_slot L rl wl wl' ch rel st i L' r rl' :
  inv L rl wl ch rel st -> acq_pre L rl wl wl' rel i ->
  lacq (locks L i) < length (lkeys (locks L i)) ->
  acquire_slot sf L i = (L', r) ->
  (forall x, rl' x = if Nat.eqb x i then acq_role r (locks L' i) else rl x) ->
  inv L' rl' wl' ch rel st.
Proof.
  intros I PRE LT A R'. destruct (key_at_some _ LT) as [k K].
  unfold acquire_slot in A. rewrite K in A.
  set (L0 := maybe_recycle L (sf k) (lstart (locks L i))) in *.
  assert (I0 : inv L0 rl wl ch rel st) by (apply inv_maybe_recycle; auto).
  assert (LK0 : locks L0 = locks L) by apply mr_locks.
  assert (K0 : key_at (locks L0 i) = Some k) by (rewrite LK0; auto).
  assert (PRE0 : acq_pre L0 rl wl wl' rel i) by (unfold acq_pre in *; rewrite LK0; auto).
  destruct (acquire_core_spec sf L0 i k L' r K0 A (i_q I0)) as [EF Q'].
  eapply inv_acquire; eauto.
Qed.

End Acq.
