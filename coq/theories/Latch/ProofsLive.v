(* Latch/ProofsLive.v — termination measure: every step of a client thread or of the scheduler goroutine
   (everything except starting a new Lock, Close and recycling) strictly decreases [pot]; hence every schedule
   that keeps taking enabled steps reaches a state where none is enabled after at most [pot s] steps. *)
From Coq Require Import NArith List Bool Arith Lia.
From Verif Require Import Latch.Model Latch.ProofsOps Latch.ProofsBase Latch.ProofsInv Latch.ProofsAcq Latch.ProofsRel Latch.ProofsSys.
Import ListNotations.

Definition lockpot (p : tpc) (l : lock) : nat :=
  let n := length (lkeys l) in
  let a := lacq l in
  match p with
  | TNew => 0
  | TAcq => 4 * (n - a) + 3 * n + 10
  | TWait => 4 * (n - a) + 3 * n + 9
  | TDone => 3 * a + 9
  | TUnl => 3 * a + 4
  | TRel => 0
  | TDrop => 0
  end.
Definition schpot (c : spc) : nat :=
  match c with
  | SIdle => 0
  | STrig => 1
  | SWake wl => 2 * length wl + 2
  | SRun _ wl => 2 * length wl + 3
  | SRel _ wl => 2 * length wl + 3
  end.
Fixpoint sumf (f : lid -> nat) (l : list lid) : nat := match l with [] => 0 | x :: r => f x + sumf f r end.
Definition pot (s : state) : nat :=
  sumf (fun i => lockpot (pc s i) (locks (lat s) i)) (started s) + 4 * length (chan s) + schpot (sch s).

(* the steps of the client threads and of run(): not the arrival of a new Lock, not Close, not recycling *)
Definition progress_label (l : label) : Prop :=
  match l with LAcq _ | LUnlock _ _ | LPop | LRel | LWake | LTrig => True | _ => False end.

Lemma sumf_le f g l : (forall x, g x <= f x) -> sumf g l <= sumf f l.
Proof. intros H. induction l as [|a l IH]; simpl; auto. specialize (H a). lia. Qed.
Lemma sumf_dec f g l i d : In i l -> (forall x, g x <= f x) -> g i + d <= f i -> sumf g l + d <= sumf f l.
Proof.
  intros I H D. induction l as [|a l IH]; simpl; [destruct I|].
  destruct I as [->|I].
  - pose proof (sumf_le f g l H). lia.
  - specialize (IH I). specialize (H a). lia.
Qed.

Section Live.
Variable sf : key -> sid.
Variable ns : N.
Variable KP : list key -> Prop.
Notation holderK := (holderK sf).

(* arithmetic of one acquireSlot on lock l (n keys, a < n acquired) *)
Lemma acq_pot_bounds (l : lock) r : lacq l < length (lkeys l) ->
  (* thread: TAcq -> ... *)
  lockpot (match r with ASuccess => if complete (acq_lock r l) then TDone else TAcq | ALocked => TWait | AStale => TDone end)
          (acq_lock r l) + 1 <= lockpot TAcq l /\
  (* woken: TWait -> ... never increases; a success that is not complete gains 4 *)
  lockpot (match r with ASuccess => if complete (acq_lock r l) then TDone else TWait | ALocked => TWait | AStale => TDone end)
          (acq_lock r l) <= lockpot TWait l /\
  (r = ASuccess -> complete (acq_lock r l) = false -> lockpot TWait (acq_lock r l) + 4 <= lockpot TWait l).
Proof.
  intros LT. unfold lockpot, complete.
  destruct r; cbn [acq_lock set_acq set_stale lkeys lacq]; repeat split; try discriminate; intros;
    try (destruct (Nat.leb_spec (length (lkeys l)) (S (lacq l)))); lia.
Qed.

(* a step in which the term of one started lock i drops by d, no other term rises, and the channel and
   scheduler terms rise by less than d *)
Lemma pot_lt s i d L' pc' ch' sch' g' :
  Inv sf KP s -> pc s i <> TNew ->
  (forall x, x <> i -> lockpot (pc' x) (locks L' x) <= lockpot (pc s x) (locks (lat s) x)) ->
  lockpot (pc' i) (locks L' i) + d <= lockpot (pc s i) (locks (lat s) i) ->
  4 * length ch' + schpot sch' < d + 4 * length (chan s) + schpot (sch s) ->
  pot (mkSt L' pc' ch' sch' (started s) g') < pot s.
Proof.
  intros [[I _] _] P O D C. unfold pot. cbn [lat pc chan sch started].
  assert (sumf (fun x => lockpot (pc' x) (locks L' x)) (started s) + d
          <= sumf (fun x => lockpot (pc s x) (locks (lat s) x)) (started s)); [|lia].
  apply sumf_dec with (i := i); [apply (pc_started I i P) | | exact D].
  intros x. destruct (Nat.eq_dec x i) as [->|NE]; [lia | auto].
Qed.

Lemma schpot_next wl : schpot (next_sch wl) <= 2 * length wl + 2.
Proof. destruct wl; simpl; lia. Qed.

(* wakeup() runs one acquireSlot for the waiter j: either the scheduler moves on (its term drops by 1 at least),
   or it stays with j, whose own term then drops by 4 *)
Lemma pot_sched_acq s j wl :
  Inv sf KP s -> pc s j = TWait -> lacq (locks (lat s) j) < length (lkeys (locks (lat s) j)) ->
  2 * length wl + 3 <= schpot (sch s) -> (sch s = SRun j wl \/ 2 * length wl + 4 <= schpot (sch s)) ->
  pot (sched_acq sf s j wl) < pot s.
Proof.
  intros IV PJ LT S1 S2. unfold sched_acq.
  destruct (acquire_slot sf (lat s) j) as [L' r] eqn:A.
  assert (LL := acquire_slot_locks sf _ _ _ _ LT A).
  destruct (acq_pot_bounds _ r LT) as (_ & B2 & B3).
  pose proof (schpot_next wl) as SN.
  assert (FIN : forall pc' sch' d, (forall x, x <> j -> pc' x = pc s x) ->
            lockpot (pc' j) (acq_lock r (locks (lat s) j)) + d <= lockpot TWait (locks (lat s) j) ->
            schpot sch' < d + schpot (sch s) -> pot (mkSt L' pc' (chan s) sch' (started s) (gl s)) < pot s).
  { intros pc' sch' d O D C. apply pot_lt with (i := j) (d := d); [exact IV | congruence | | | lia].
    - intros x NE. rewrite O, LL, upd_lock_other by exact NE. lia.
    - rewrite LL, upd_lock_same, PJ. exact D. }
  destruct r; [destruct (complete (locks L' j)) eqn:CP; rewrite LL, upd_lock_same in CP; rewrite CP in B2|..].
  - apply FIN with (d := 0); [auto using set_pc_other | rewrite set_pc_same; lia | lia].
  - destruct S2 as [S2|S2].
    + apply FIN with (d := 4); [auto | rewrite PJ; apply B3; auto | rewrite S2; simpl; lia].
    + apply FIN with (d := 0); [auto | rewrite PJ; lia | simpl; lia].
  - apply FIN with (d := 0); [auto | rewrite PJ; lia | lia].
  - apply FIN with (d := 0); [auto using set_pc_other | rewrite set_pc_same; lia | lia].
Qed.

Theorem pot_step s l s' :
  Inv sf KP s -> exec sf ns s l = Some s' -> progress_label l -> pot s' < pot s.
Proof.
  intros IV EX PL. pose proof IV as [[I R2] DR].
  destruct l; simpl in PL; try contradiction.
  - (* LAcq *)
    simpl in EX. destruct (pc s i) eqn:P; try discriminate.
    destruct (acquire_slot sf (lat s) i) as [L' r] eqn:A. inversion EX; subst s'; clear EX.
    pose proof (pc_role I i) as X. rewrite P in X. destruct X as [_ LT]. assert (LL := acquire_slot_locks sf _ _ _ _ LT A).
    apply pot_lt with (i := i) (d := 1); [exact IV | congruence | | | lia].
    + intros x NE. rewrite set_pc_other, LL, upd_lock_other by exact NE. lia.
    + rewrite set_pc_same, LL, upd_lock_same, P. apply acq_pot_bounds, LT.
  - (* LUnlock *)
    simpl in EX. destruct (pc s i) eqn:P; try discriminate.
    assert (O : forall v x, x <> i -> lockpot (set_pc (pc s) i v x) (locks (set_lock (lat s) i (set_commit (locks (lat s) i) c)) x)
                                    <= lockpot (pc s x) (locks (lat s) x)).
    { intros v x NE. rewrite set_pc_other by exact NE. cbn [locks set_lock]. destruct (Nat.eqb_spec x i); [contradiction | lia]. }
    destruct (closed (gl s)); [|destruct (Nat.ltb _ _); try discriminate]; inversion EX; subst s'; clear EX.
    + apply pot_lt with (i := i) (d := 1); [exact IV | congruence | apply O | | lia].
      rewrite set_pc_same, P. cbn [locks set_lock]. rewrite Nat.eqb_refl. unfold lockpot. lia.
    + apply pot_lt with (i := i) (d := 5); [exact IV | congruence | apply O | | ].
      * rewrite set_pc_same, P. cbn [locks set_lock]. rewrite Nat.eqb_refl. unfold lockpot. cbn [lacq set_commit]. lia.
      * rewrite app_length. simpl. lia.
  - (* LPop *)
    simpl in EX. destruct (sch s) eqn:SC; try discriminate. destruct (chan s) as [|i rest] eqn:CH; try discriminate.
    simpl in I. pose proof (vrole_unl _ _ (i_chan I i (or_introl eq_refl))) as PI.
    destruct (lacq (locks (lat s) i)) eqn:AQ; inversion EX; subst s'; clear EX.
    + apply pot_lt with (i := i) (d := 4); [exact IV | congruence | | | ].
      * intros x NE. rewrite set_pc_other by exact NE. lia.
      * rewrite set_pc_same, PI. unfold lockpot. lia.
      * rewrite SC, CH. simpl. lia.
    + unfold pot. cbn [lat pc chan sch started]. rewrite SC, CH. simpl. lia.
  - (* LRel *)
    assert (exists i wl, sch s = SRel i wl) as (i & wl & SC) by (simpl in EX; destruct (sch s); try discriminate; eauto).
    destruct (rel_step sf ns KP s i wl (conj I R2) SC) as (a & k & L' & r & AQ & K & _ & _ & _ & _ & PI & LI & LX & E).
    rewrite E in EX. inversion EX; subst s'; clear EX E.
    assert (WL : length (match r with RWake w => wl ++ [w] | _ => wl end) <= S (length wl)).
    { destruct r; try rewrite app_length; simpl; lia. }
    assert (O : forall pc' x, x <> i -> pc' x = pc s x -> lockpot (pc' x) (locks L' x) <= lockpot (pc s x) (locks (lat s) x)).
    { intros pc' x NE ->. destruct (LX x NE) as [->|[PW ->]]; [lia|]. rewrite PW. unfold lockpot. simpl. lia. }
    destruct a.
    + pose proof (schpot_next (match r with RWake w => wl ++ [w] | _ => wl end)) as SN.
      apply pot_lt with (i := i) (d := 7); [exact IV | congruence | | | ].
      * intros x NE. apply O; auto using set_pc_other.
      * rewrite set_pc_same, PI. unfold lockpot. rewrite AQ. lia.
      * rewrite SC. simpl schpot. lia.
    + apply pot_lt with (i := i) (d := 3); [exact IV | congruence | | | ].
      * intros x NE. apply O; auto.
      * rewrite PI, LI. unfold lockpot. rewrite AQ. simpl. lia.
      * rewrite SC. simpl schpot. lia.
  - (* LWake *)
    destruct (wake_step sf ns KP s s' (conj I R2) EX) as [(SC & ->)|(j & wl & PJ & [(SC & ST & ->)|(LT & -> & SC)])].
    + unfold pot. cbn [lat pc chan sch started]. rewrite SC. simpl. lia.
    + pose proof (schpot_next wl) as SN.
      apply pot_lt with (i := j) (d := 0); [exact IV | congruence | | | ].
      * intros x NE. rewrite set_pc_other by exact NE. lia.
      * rewrite set_pc_same, PJ. unfold lockpot. pose proof (i_acq I j). lia.
      * rewrite SC. simpl. lia.
    + destruct SC as [[SC _]|SC]; apply pot_sched_acq; auto; rewrite SC; simpl; auto; lia.
  - (* LTrig *)
    simpl in EX. destruct (sch s) eqn:SC; try discriminate. inversion EX; subst s'; clear EX.
    unfold pot. cbn [lat pc chan sch started]. rewrite SC. simpl. lia.
Qed.

End Live.
