(* Latch/ProofsClient.v — the caller contract [client_okb] (Model.v, over traces of client actions) tied to the
   system automaton: the client actions of a run are its projection [cproj]; the monitor state of [client_run] on that
   projection agrees with the program counters; hence a run whose projection is client_ok leaves no lock in TDone
   (returned but not handed back). *)
From Coq Require Import NArith List Bool Arith.
From Verif Require Import Latch.Model Latch.ProofsOps Latch.ProofsBase Latch.ProofsInv Latch.ProofsAcq Latch.ProofsRel Latch.ProofsSys.
Import ListNotations.

Definition is_done (p : tpc) : bool := match p with TDone => true | _ => false end.
(* Lock() of lock i returned during the step s -> s' *)
Definition ret_evt (s s' : state) (i : lid) : list cact :=
  if negb (is_done (pc s i)) && is_done (pc s' i) then [CRet i (lstale (locks (lat s') i))] else [].
Definition cstep (s : state) (l : label) (s' : state) : list cact :=
  match l with
  | LStart i _ st => CLock i st :: ret_evt s s' i
  | LAcq i => ret_evt s s' i
  | LUnlock i c => [CUnlock i c]
  | LWake => match sch s with SWake (j :: _) => ret_evt s s' j | SRun j _ => ret_evt s s' j | _ => [] end
  | _ => []
  end.

Definition expected (s : state) (i : lid) : option cst :=
  match pc s i with
  | TNew => None
  | TAcq | TWait => Some (CSLocked (lstart (locks (lat s) i)))
  | TDone => Some (CSReturned (lstart (locks (lat s) i)) (lstale (locks (lat s) i)))
  | TUnl | TRel | TDrop => Some CSUnlocked
  end.
Definition agree (m : list (lid * cst)) (s : state) : Prop := forall i, cfind i m = expected s i.

Lemma cfind_cset i c m x : cfind x (cset i c m) = if Nat.eqb i x then Some c else cfind x m.
Proof. reflexivity. Qed.
Lemma client_run_app a b m : client_run (a ++ b) m = match client_run a m with Some m' => client_run b m' | None => None end.
Proof.
  revert m. induction a as [|e a IH]; intros m; simpl; auto.
  destruct e; destruct (cfind i m) as [[| |]|]; auto. destruct (_ || _); auto.
Qed.

Section Client.
Variable sf : key -> sid.
Variable ns : N.
Variable KP : list key -> Prop.

Fixpoint cproj (tr : list label) (s : state) : list cact :=
  match tr with
  | [] => []
  | l :: r => match exec sf ns s l with Some s' => cstep s l s' ++ cproj r s' | None => [] end
  end.

Lemma agree_upd m m' s s' i :
  agree m s -> (forall x, x <> i -> expected s' x = expected s x) ->
  (forall x, x <> i -> cfind x m' = cfind x m) -> cfind i m' = expected s' i -> agree m' s'.
Proof. intros A F C E x. destruct (Nat.eq_dec x i) as [->|NE]; auto. rewrite C, F; auto. Qed.

Definition others_same (s s' : state) (i : lid) : Prop :=
  forall x, x <> i -> pc s' x = pc s x /\ locks (lat s') x = locks (lat s) x.
Lemma others_expected s s' i : others_same s s' i -> forall x, x <> i -> expected s' x = expected s x.
Proof. intros O x NE. destruct (O x NE) as [A B]. unfold expected. rewrite A, B. reflexivity. Qed.

(* an acquiring step of lock i (own thread or scheduler): monitor after the possible CRet *)
Lemma acquire_agree m s s' i :
  agree m s -> (pc s i = TAcq \/ pc s i = TWait) -> others_same s s' i ->
  lstart (locks (lat s') i) = lstart (locks (lat s) i) ->
  (pc s' i = TAcq \/ pc s' i = TWait \/ pc s' i = TDone) ->
  forall m', client_run (ret_evt s s' i) m = Some m' -> agree m' s'.
Proof.
  intros A P O ST P' m' R. unfold ret_evt in R.
  assert (C : cfind i m = Some (CSLocked (lstart (locks (lat s') i)))).
  { rewrite (A i), ST. unfold expected. destruct P as [-> | ->]; reflexivity. }
  replace (is_done (pc s i)) with false in R by (destruct P as [-> | ->]; reflexivity).
  apply agree_upd with (m := m) (s := s) (i := i); eauto using others_expected.
  - intros x NE. destruct (is_done (pc s' i)); simpl in R; [rewrite C in R|]; injection R as <-; auto.
    rewrite cfind_cset. destruct (Nat.eqb_spec i x); [congruence | auto].
  - unfold expected. destruct P' as [P2|[P2|P2]]; rewrite P2 in R |- *; simpl in R; try rewrite C in R; injection R as <-; auto.
    rewrite cfind_cset, Nat.eqb_refl. reflexivity.
Qed.

(* wakeup() running one acquireSlot for the waiter j *)
Lemma agree_sched_acq m s j wl m' :
  agree m s -> pc s j = TWait -> lacq (locks (lat s) j) < length (lkeys (locks (lat s) j)) ->
  client_run (ret_evt s (sched_acq sf s j wl) j) m = Some m' -> agree m' (sched_acq sf s j wl).
Proof.
  intros A PJ LT. unfold sched_acq. destruct (acquire_slot sf (lat s) j) as [L' r] eqn:AS.
  assert (LL := acquire_slot_locks sf _ _ _ _ LT AS).
  apply acquire_agree; auto.
  - intros x NE. rewrite <- (upd_lock_other (locks (lat s)) j (acq_lock r (locks (lat s) j)) x NE), <- LL.
    destruct r; [destruct (complete (locks L' j))|..]; simpl; rewrite ?set_pc_other by auto; auto.
  - replace (lstart (locks (lat s) j)) with (lstart (locks L' j)) by (rewrite LL, upd_lock_same; destruct r; reflexivity).
    destruct r; [destruct (complete (locks L' j))|..]; reflexivity.
  - destruct r; [destruct (complete (locks L' j))|..]; simpl; rewrite ?set_pc_same; auto.
Qed.

Lemma step_agree s l s' m m' :
  Inv sf KP s -> agree m s -> exec sf ns s l = Some s' -> client_run (cstep s l s') m = Some m' -> agree m' s'.
Proof.
  intros [[I R2] _] A EX CR. destruct l; simpl in EX; unfold cstep in CR.
  - (* LStart *)
    destruct (pc s i) eqn:P; try discriminate. inversion EX; subst s'; clear EX.
    pose proof (A i) as Ai. unfold expected in Ai. rewrite P in Ai.
    simpl in CR. rewrite Ai in CR. unfold ret_evt in CR. cbn [lat pc] in CR. rewrite P in CR. simpl in CR.
    unfold set_pc in CR at 1. rewrite Nat.eqb_refl in CR.
    match goal with |- agree _ ?s1 => assert (OS : others_same s s1 i) end.
    { intros x NE. simpl. rewrite set_pc_other by auto. destruct (Nat.eqb_spec x i); [contradiction | auto]. }
    destruct (complete (gen_lock ks st)) eqn:CP; simpl in CR; rewrite ?Nat.eqb_refl in CR; inversion CR; subst m';
      (eapply agree_upd with (i := i); eauto using others_expected;
       [ intros x NE; rewrite !cfind_cset; destruct (Nat.eqb_spec i x); [congruence | auto]
       | rewrite cfind_cset, Nat.eqb_refl; unfold expected; simpl; rewrite set_pc_same, Nat.eqb_refl; reflexivity ]).
  - (* LAcq *)
    destruct (pc s i) eqn:P; try discriminate.
    destruct (acquire_slot sf (lat s) i) as [L' r] eqn:AS. inversion EX; subst s'; clear EX.
    pose proof (pc_role I i) as X. rewrite P in X.
    assert (LL := acquire_slot_locks sf _ _ _ _ (proj2 X) AS).
    eapply acquire_agree; eauto.
    + intros x NE. simpl. rewrite set_pc_other, LL, upd_lock_other by auto. auto.
    + simpl. rewrite LL, upd_lock_same. destruct r; reflexivity.
    + simpl. rewrite set_pc_same. destruct r; auto. destruct (complete (locks L' i)); auto.
  - (* LUnlock *)
    destruct (pc s i) eqn:P; try discriminate.
    pose proof (A i) as Ai. unfold expected in Ai. rewrite P in Ai. simpl in CR. rewrite Ai in CR.
    destruct (_ || _) in CR; [|discriminate]. inversion CR; subst m'. clear CR.
    assert (AG : forall p' ch', (p' = TUnl \/ p' = TDrop) -> agree (cset i CSUnlocked m)
               (mkSt (set_lock (lat s) i (set_commit (locks (lat s) i) c)) (set_pc (pc s) i p') ch' (sch s) (started s) (gl s))).
    { intros p' ch' PP. eapply agree_upd with (i := i); eauto.
      - intros x NE. unfold expected; simpl. rewrite set_pc_other by auto. destruct (Nat.eqb_spec x i); [contradiction | reflexivity].
      - intros x NE. rewrite cfind_cset. destruct (Nat.eqb_spec i x); [congruence | auto].
      - rewrite cfind_cset, Nat.eqb_refl. unfold expected; simpl. rewrite set_pc_same. destruct PP as [-> | ->]; reflexivity. }
    destruct (closed (gl s)).
    + inversion EX; subst s'. apply AG; auto.
    + destruct (Nat.ltb _ _); try discriminate. inversion EX; subst s'. apply AG; auto.
  - (* LPop *)
    simpl in CR. inversion CR; subst m'. clear CR.
    destruct (sch s) eqn:SC; try discriminate. destruct (chan s) as [|i rest] eqn:CH; try discriminate.
    simpl in I. try rewrite CH in I.
    pose proof (vrole_unl _ _ (i_chan I i (or_introl eq_refl))) as PI.
    destruct (lacq (locks (lat s) i)); inversion EX; subst s'; clear EX; intros x; rewrite (A x); unfold expected; simpl; auto.
    unfold set_pc. destruct (Nat.eqb_spec x i); [subst; rewrite PI; reflexivity | reflexivity].
  - (* LRel *)
    simpl in CR. inversion CR; subst m'. clear CR.
    assert (exists i wl, sch s = SRel i wl) as (i & wl & SC) by (destruct (sch s); try discriminate; eauto).
    destruct (rel_step sf ns KP s i wl (conj I R2) SC) as (a & k & L' & r & _ & _ & _ & _ & _ & _ & PI & _ & LX & E).
    change (exec sf ns s LRel = Some s') in EX. rewrite E in EX. inversion EX; subst s'; clear EX E.
    intros x. rewrite (A x). unfold expected. cbn [lat pc]. destruct (Nat.eq_dec x i) as [->|NE].
    + rewrite PI. destruct a; [rewrite set_pc_same|rewrite PI]; reflexivity.
    + replace (match a with 0 => set_pc (pc s) i TRel | S _ => pc s end x) with (pc s x)
        by (destruct a; [rewrite set_pc_other by exact NE|]; reflexivity).
      destruct (LX x NE) as [->|[PW ->]]; [|rewrite PW]; reflexivity.
  - (* LWake *)
    destruct (wake_step sf ns KP s s' (conj I R2) EX) as [(SC & ->)|(j & wl & PJ & [(SC & ST & ->)|(LT & -> & SC)])].
    + rewrite SC in CR. inversion CR; subst m'. intros x. rewrite (A x). reflexivity.
    + rewrite SC in CR. eapply acquire_agree; eauto.
      * intros x NE. simpl. rewrite set_pc_other by auto. auto.
      * simpl. rewrite set_pc_same. auto.
    + eapply agree_sched_acq; eauto. destruct SC as [[SC _]|SC]; rewrite SC in CR; exact CR.
  - (* LTrig *)
    simpl in CR. inversion CR; subst m'. destruct (sch s); try discriminate. inversion EX; subst s'.
    intros x. rewrite (A x). reflexivity.
  - (* LClose *)
    simpl in CR. inversion CR; subst m'. destruct (closed (gl s)); try discriminate. inversion EX; subst s'.
    intros x. rewrite (A x). reflexivity.
  - (* LRecTask *)
    simpl in CR. inversion CR; subst m'. destruct (nth_error _ _) as [[t sl]|]; try discriminate. inversion EX; subst s'.
    intros x. rewrite (A x). reflexivity.
  - (* LRecycle *)
    simpl in CR. inversion CR; subst m'. inversion EX; subst s'. intros x. rewrite (A x). reflexivity.
Qed.

End Client.
