(* Oracle/ProofsInt.v — GetStaleTimestamp arithmetic, the adaptive update-interval state machine, the arrival rule at
   call level *)
From Verif Require Import Oracle.Model Oracle.ModelSys Oracle.ModelInt Oracle.ProofsArith Oracle.ProofsSys.
From Coq Require Import Lia ZifyBool.
Open Scope Z_scope.

Definition stale_dom (tso arr now prev : Z) : Prop :=
  0 <= tso < two64 /\ extract_physical tso < 8796093022208 /\ 0 <= prev < 8589934592 /\ 0 <= arr <= now /\ now < two62.

(* inside the domain nothing wraps: the estimate is the physical time stale_ns / 10^6 ms with logical part 0 *)
Lemma stale_value : forall tso arr now prev r,
  stale_dom tso arr now prev -> stale_ts tso arr now prev = Some r ->
  0 <= stale_ns tso arr now prev /\ r = (stale_ns tso arr now prev / 1000000) * two18 /\
  extract_physical r = stale_ns tso arr now prev / 1000000 /\ extract_logical r = 0.
Proof.
  intros tso arr now prev r [Ht [Hp [Hprev [Harr Hnow]]]] H. unfold stale_ts in H.
  destruct (extract_physical tso / 1000 <=? prev) eqn:E; [discriminate|]. injection H as <-.
  assert (P0 : prev < extract_physical tso / 1000) by lia.
  assert (N : 0 <= stale_ns tso arr now prev) by (unfold stale_ns; Z.div_mod_to_equations; lia).
  rewrite Z.quot_div_nonneg by lia. set (q := stale_ns tso arr now prev / 1000000).
  assert (Q : 0 <= q < two45) by (unfold q, stale_ns, two62, two45 in *; Z.div_mod_to_equations; lia).
  rewrite wrap_i64_id by (unfold two45, two18, two63 in *; lia).
  rewrite wrap_u64_id by (unfold two45, two18, two64 in *; lia).
  replace (q * two18) with (q * two18 + 0) by lia.
  destruct (extract_shift q 0) as [-> ->]; [split; discriminate || reflexivity|]. repeat split; lia.
Qed.

Lemma stale_ts_spec : forall tso arr now prev,
  (stale_ts tso arr now prev = None <-> extract_physical tso / 1000 <= prev) /\
  (forall r, stale_dom tso arr now prev -> stale_ts tso arr now prev = Some r ->
     extract_logical r = 0 /\
     (now - arr <= prev * 1000000000 -> r <= tso) /\
     (forall now' r', stale_dom tso arr now' prev -> now <= now' -> stale_ts tso arr now' prev = Some r' -> r <= r')).
Proof.
  intros tso arr now prev. split.
  - unfold stale_ts. destruct (extract_physical tso / 1000 <=? prev) eqn:E; split; intros; try discriminate; try reflexivity; lia.
  - intros r D H. destruct (stale_value _ _ _ _ _ D H) as [N [-> [_ L]]]. split; [exact L|split].
    + intros Hage. destruct (extract_spec tso). unfold stale_ns, two18 in *. Z.div_mod_to_equations. lia.
    + intros now' r' D' Hle H'. destruct (stale_value _ _ _ _ _ D' H') as [_ [-> _]].
      apply Z.mul_le_mono_nonneg_r; [discriminate|]. apply Z.div_le_mono; [reflexivity|unfold stale_ns; lia].
Qed.

(* without the age condition of stale_ts_spec the estimate can be beyond the cached timestamp: prevSecond = 0, the
   record is 5 ms old *)
Lemma stale_beyond_last_refuted : exists tso arr now prev r,
  stale_dom tso arr now prev /\ stale_ts tso arr now prev = Some r /\ tso < r.
Proof.
  exists (compose_ts 1700000000000 7), 1000000000, 1005000000, 0. eexists.
  split; [unfold stale_dom; vm_compute; repeat split; congruence|]. split; [vm_compute; reflexivity|]. vm_compute. reflexivity.
Qed.

(* non-future: the record's timestamp had been issued when it arrived (pd_ns arr = PD's clock at local time
   arr, in ns) and PD's clock is not slower than the local one; then the estimate never exceeds PD's current
   physical time minus prevSecond — it is never beyond what PD has issued or could issue now *)
Lemma stale_not_future : forall (pd_ns : Z -> Z) tso arr now prev r,
  stale_dom tso arr now prev ->
  extract_physical tso * 1000000 <= pd_ns arr ->
  pd_ns arr + (now - arr) <= pd_ns now ->
  stale_ts tso arr now prev = Some r ->
  extract_physical r <= pd_ns now / 1000000 - prev * 1000 /\ extract_logical r = 0.
Proof.
  intros pd_ns tso arr now prev r D H1 H2 H. destruct (stale_value _ _ _ _ _ D H) as [N [_ [E L]]].
  split; [|exact L]. rewrite E. unfold stale_ns in *. Z.div_mod_to_equations. lia.
Qed.

Definition int_inv (s : ist) : Prop := 0 < cfg s /\ Z.min min_interval (cfg s) <= ada s <= cfg s.

Lemma rec_amount_nonneg : forall dt, 0 <= dt -> 0 <= rec_amount dt.
Proof. intros. apply Z.quot_pos; lia. Qed.

Definition in_bounds (s : ist) (ni : Z) : Prop := Z.min min_interval (cfg s) <= ni <= cfg s.

Lemma ok_unadj : forall s st ni, int_inv s -> check_unadjustable s = Some (st, ni) -> in_bounds s ni.
Proof. intros s st ni [C [L U]] H. unfold check_unadjustable in H. unfold in_bounds.
  destruct (cfg s <=? min_interval) eqn:E; [|discriminate H]. injection H as _ H2. rewrite <- H2.
  unfold min_interval in *. lia. Qed.
Lemma ok_normal : forall s cur st ni, in_bounds s cur -> check_normal s cur = Some (st, ni) -> in_bounds s ni.
Proof. intros s cur st ni O H. unfold check_normal in H.
  destruct ((min_interval <? cfg s) && (cur =? cfg s)); [|discriminate H]. injection H as _ H2. rewrite <- H2. exact O. Qed.
Lemma ok_adapting : forall s now req st ni, int_inv s -> check_adapting s now req = Some (st, ni) -> in_bounds s ni.
Proof. intros s now req st ni [C [L U]] H. unfold check_adapting in H. unfold in_bounds.
  destruct (negb (req =? 0) && (req <? ada s) && (min_interval <? ada s)) eqn:E.
  - injection H as _ H2. rewrite <- H2. unfold min_interval, shrink_preserve in *. lia.
  - destruct (negb (ada s =? cfg s) && recent s now); [|discriminate H]. injection H as _ H2. rewrite <- H2. lia.
Qed.
Lemma ok_recovering : forall s now st ni, int_inv s -> last_tick s <= now -> check_recovering s now = Some (st, ni) -> in_bounds s ni.
Proof. intros s now st ni [C [L U]] Ht H. pose proof (rec_amount_nonneg (now - last_tick s) ltac:(lia)) as R.
  unfold check_recovering in H. unfold in_bounds.
  destruct ((ada s =? cfg s) || recent s now); [discriminate H|].
  injection H as _ H2. rewrite <- H2. set (ra := rec_amount (now - last_tick s)) in *.
  destruct (cfg s <? ada s + ra) eqn:E; lia.
Qed.

Lemma first_some_ok : forall A (P : A -> Prop) (a b : option A),
  (forall x, a = Some x -> P x) -> (forall x, b = Some x -> P x) -> forall x, first_some a b = Some x -> P x.
Proof. intros A P [a|] b Ha Hb x H; cbn in H; auto. Qed.

Lemma next_interval_inv : forall s now req,
  int_inv s -> last_tick s <= now ->
  int_inv (fst (next_interval s now req)) /\ snd (next_interval s now req) = ada (fst (next_interval s now req)) /\
  cfg (fst (next_interval s now req)) = cfg s /\ last_tick (fst (next_interval s now req)) = last_tick s.
Proof.
  intros s now req I Ht. pose proof I as [C [L U]]. unfold next_interval.
  set (chosen := if negb (req =? 0) then _ else _).
  assert (A : in_bounds s (ada s)) by (unfold in_bounds; lia).
  assert (O : forall x, chosen = Some x -> in_bounds s (snd x)).
  { unfold chosen. destruct (negb (req =? 0)); repeat apply first_some_ok; intros [st ni] E;
      eauto using ok_unadj, ok_adapting, ok_normal, ok_recovering. }
  destruct chosen as [[st ni]|]; [|cbn [fst snd cfg ada last_tick]; repeat split; auto].
  specialize (O _ eq_refl). cbn [snd] in O.
  assert (O' : forall st' ni', match st with
        | ISRecovering => match check_normal s ni with Some r => r | None => (st, ni) end
        | _ => (st, ni) end = (st', ni') -> in_bounds s ni').
  { intros st' ni' H. destruct st; try (injection H as _ <-; exact O).
    destruct (check_normal s ni) as [[a b]|] eqn:E; injection H as _ <-; [eapply ok_normal; eauto|exact O]. }
  destruct (match st with ISRecovering => _ | _ => _ end) as [st' ni']. specialize (O' st' ni' eq_refl).
  cbn [fst snd cfg ada last_tick]. unfold int_inv, in_bounds in *. cbn [cfg ada]. repeat split; lia.
Qed.

Lemma next_interval_shrinks : forall s now req,
  int_inv s -> req <> 0 -> req < ada s -> min_interval < ada s ->
  let s' := fst (next_interval s now req) in
  ada s' = Z.max (req - shrink_preserve) min_interval /\ ada s' < ada s /\ min_interval <= ada s' /\ istt s' = ISAdapting /\
  snd (next_interval s now req) = ada s'.
Proof.
  intros s now req [C [L U]] Hreq Hlt Hmin. cbv zeta.
  unfold next_interval, first_some, check_unadjustable, check_adapting, min_interval, shrink_preserve in *.
  assert (E0 : (req =? 0) = false) by lia. rewrite E0. cbn [negb andb].
  assert (E1 : (cfg s <=? 500000000) = false) by lia. rewrite E1.
  assert (E2 : (req <? ada s) = true) by lia. rewrite E2.
  assert (E3 : (500000000 <? ada s) = true) by lia. rewrite E3. cbn [andb fst snd ada istt]. repeat split; lia.
Qed.

Lemma set_interval_inv : forall s nw s', int_inv s -> set_interval s nw = Some s' -> int_inv s' /\ cfg s' = nw.
Proof.
  intros s nw s' [C [L U]] H. unfold set_interval, int_inv, min_interval in *.
  destruct (nw <=? 0) eqn:E0; [discriminate|].
  destruct (nw =? cfg s) eqn:E1; [inversion H; subst; repeat split; lia|].
  destruct ((ada s =? cfg s) || (nw <? ada s)) eqn:E2; inversion H; subst; cbn [cfg ada]; repeat split; lia.
Qed.

(* 1ms: adjust never sends less (Z.max req 1000000) *)
Definition linv (s : lstate) : Prop := int_inv (li s) /\ (forall r, lch s = Some r -> 1000000 <= r).

Lemma adjust_spec : forall s read cur now,
  int_inv s -> int_inv (fst (adjust s read cur now)) /\
  cfg (fst (adjust s read cur now)) = cfg s /\ ada (fst (adjust s read cur now)) = ada s /\
  (forall r, snd (adjust s read cur now) = Some r -> 1000000 <= r).
Proof.
  intros s read cur now I. unfold adjust. cbn [fst snd].
  split; [|split; [|split]].
  - destruct (_ <=? ada s + block_recover); exact I.
  - destruct (_ <=? ada s + block_recover); reflexivity.
  - destruct (_ <=? ada s + block_recover); reflexivity.
  - intros r H. destruct ((_ <=? ada s) && (min_interval <? ada s)); [|discriminate]. injection H as <-. lia.
Qed.

Lemma lstep_inv : forall s o, linv s -> linv (lstep s o).
Proof.
  intros s o L. pose proof L as [I Ch]. destruct o as [now|now1 now2 now3|nw|read cur now]; cbn [lstep].
  - destruct (now <? last_tick (li s)) eqn:E; [exact L|].
    destruct (next_interval_inv (li s) now 0 I ltac:(lia)) as [J _].
    destruct (next_interval (li s) now 0) as [i' ni]. cbn [fst] in J. split; cbn [li lch]; [exact J|exact Ch].
  - destruct (lch s) as [req|] eqn:Hc; [|exact L].
    destruct ((now1 <? last_tick (li s)) || (now2 <? now1) || (now3 <? now2)) eqn:E; [exact L|].
    destruct (next_interval_inv (li s) now1 req I ltac:(lia)) as [J _].
    destruct (next_interval (li s) now1 req) as [i' ni]. cbn [fst] in J.
    destruct (ni =? lcur s); [split; cbn [li lch]; [exact J|intros; discriminate]|].
    split; cbn [li lch]; [|intros; discriminate]. destruct (ni <=? now2 - last_tick i'); exact J.
  - destruct (set_interval (li s) nw) as [i'|] eqn:E; [|exact L].
    split; cbn [li lch]; [exact (proj1 (set_interval_inv _ _ _ I E))|exact Ch].
  - destruct (adjust_spec (li s) read cur now I) as [J [_ [_ R]]].
    destruct (adjust (li s) read cur now) as [i' sent]. cbn [fst snd] in *. split; cbn [li lch]; [exact J|].
    intros r H. destruct (lch s) as [c|] eqn:Hc; [apply Ch; exact H|]. destruct sent as [r'|]; [injection H as <-; apply R; reflexivity|discriminate].
Qed.

Lemma lrun_inv : forall ops s, linv s -> linv (fold_left lstep ops s).
Proof. exact (fold_inv _ _ lstep linv lstep_inv). Qed.

Lemma linv_init : forall c t0, 0 < c -> linv (init_lstate c t0).
Proof. intros c t0 H. split; cbn; [unfold int_inv, min_interval; cbn; lia|intros; discriminate]. Qed.

Lemma ltick_syncs : forall s now, linv s -> last_tick (li s) <= now ->
  lcur (lstep s (LTick now)) = ada (li (lstep s (LTick now))) /\ last_tick (li (lstep s (LTick now))) = now.
Proof.
  intros s now [I _] H. cbn [lstep]. assert (E : (now <? last_tick (li s)) = false) by lia. rewrite E.
  destruct (next_interval_inv (li s) now 0 I H) as [_ [S _]].
  destruct (next_interval (li s) now 0) as [i' ni]. cbn [fst snd] in S. cbn [lcur li with_tick ada last_tick].
  destruct (ni =? lcur s) eqn:E2; split; try reflexivity; lia.
Qed.

Lemma lrecv_shrinks : forall s req now1 now2 now3,
  linv s -> lch s = Some req -> req < ada (li s) -> min_interval < ada (li s) ->
  last_tick (li s) <= now1 -> now1 <= now2 -> now2 <= now3 ->
  let s' := lstep s (LRecv now1 now2 now3) in
  ada (li s') = Z.max (req - shrink_preserve) min_interval /\ ada (li s') < ada (li s) /\ min_interval <= ada (li s') /\
  istt (li s') = ISAdapting /\ lcur s' = ada (li s') /\ lch s' = None.
Proof.
  intros s req now1 now2 now3 [I Ch] Hc Hlt Hmin H1 H2 H3. cbv zeta. cbn [lstep]. rewrite Hc.
  assert (E : ((now1 <? last_tick (li s)) || (now2 <? now1) || (now3 <? now2)) = false) by lia. rewrite E.
  pose proof (Ch req Hc) as Hr.
  destruct (next_interval_shrinks (li s) now1 req I ltac:(lia) Hlt Hmin) as [A [B [C [D F]]]].
  destruct (next_interval (li s) now1 req) as [i' ni]. cbn [fst snd] in *.
  destruct (ni =? lcur s) eqn:E2; cbn [li lcur lch].
  - repeat split; auto; lia.
  - destruct (ni <=? now2 - last_tick i'); cbn [with_tick ada istt]; repeat split; auto.
Qed.

Section Arrival.
Variable pd_ns : Z -> Z.                                   (* PD's clock (ns) at local time t *)

(* calls = (ts, clock reading at the call); every ts had been issued when its call read the clock *)
Definition call_ok (c : Z * Z) : Prop := extract_physical (fst c) * 1000000 <= pd_ns (snd c).
Definition rec_ok (r : option (Z * Z)) (hi : Z) : Prop :=
  match r with None => True | Some (l, a) => extract_physical l * 1000000 <= pd_ns a /\ a <= hi end.
Definition rec_le (r r' : option (Z * Z)) : Prop :=
  match r, r' with
  | None, _ => True
  | Some _, None => False
  | Some (l, a), Some (l', a') => l <= l' /\ a <= a'
  end.

Lemma rec_le_refl : forall r, rec_le r r.
Proof. intros [[l a]|]; cbn; [lia|exact Logic.I]. Qed.

Lemma rec_le_trans : forall a b c, rec_le a b -> rec_le b c -> rec_le a c.
Proof.
  intros [[l a]|] [[l1 a1]|] [[l2 a2]|]; cbn; intros; try lia; try contradiction; auto.
Qed.

Lemma set_last_arr_step : forall r ts now hi,
  rec_ok r hi -> call_ok (ts, now) -> hi <= now ->
  rec_ok (set_last_arr r ts now) now /\ rec_le r (set_last_arr r ts now).
Proof.
  intros r ts now hi R C H. unfold call_ok in C. cbn [fst snd] in C. destruct r as [[l a]|]; cbn [set_last_arr rec_ok rec_le] in *.
  - destruct R as [R1 R2]. destruct (ts <=? l) eqn:E; cbn [rec_ok rec_le].
    + repeat split; lia.
    + assert (Z.max now a = now) by lia. rewrite H0. repeat split; lia.
  - split; [split; lia|exact Logic.I].
Qed.

Fixpoint clock_sorted (hi : Z) (cs : list (Z * Z)) : Prop :=
  match cs with [] => True | (ts, now) :: r => hi <= now /\ clock_sorted now r end.
Fixpoint last_clock (hi : Z) (cs : list (Z * Z)) : Z := match cs with [] => hi | (_, now) :: r => last_clock now r end.

Lemma arrival_run : forall cs r hi,
  rec_ok r hi -> Forall call_ok cs -> clock_sorted hi cs ->
  let r' := fold_left (fun r c => set_last_arr r (fst c) (snd c)) cs r in
  rec_ok r' (last_clock hi cs) /\ rec_le r r'.
Proof.
  induction cs as [|[ts now] cs IH]; intros r hi R F S; cbn [fold_left last_clock clock_sorted fst snd] in *.
  - split; [exact R|apply rec_le_refl].
  - destruct S as [S1 S2]. inversion F; subst.
    destruct (set_last_arr_step r ts now hi R H1 S1) as [R' L'].
    destruct (IH _ now R' H2 S2) as [R'' L'']. split; [exact R''|].
    eapply rec_le_trans; eauto.
Qed.

(* the future-staleness guard (TestNonFutureStaleTSO), PD's clock not being slower than the local one *)
Lemma stale_not_future_call_level : forall calls t0, Forall call_ok calls -> clock_sorted t0 calls ->
  forall l a, fold_left (fun r c => set_last_arr r (fst c) (snd c)) calls None = Some (l, a) ->
  a <= last_clock t0 calls /\
  forall now prev r, stale_dom l a now prev -> pd_ns a + (now - a) <= pd_ns now ->
    stale_ts l a now prev = Some r ->
    extract_physical r <= pd_ns now / 1000000 - prev * 1000 /\ extract_logical r = 0.
Proof.
  intros calls t0 F S l a H.
  destruct (arrival_run calls None t0 Logic.I F S) as [R _]. cbv zeta in R. rewrite H in R. destruct R as [R1 R2].
  split; [exact R2|]. intros now prev r D. exact (stale_not_future pd_ns l a now prev r D R1).
Qed.
End Arrival.

Lemma prun_proj : forall pd es s,
  fst (prun pd s es) = run pd (fst s) (sys_events es) /\ snd (prun pd s es) = fold_left lstep (int_ops es) (snd s).
Proof.
  intros pd. induction es as [|e es IH]; intros s; cbn [prun fold_left sys_events int_ops flat_map]; auto.
  destruct e as [e|o]; cbn [pstep app].
  - destruct (IH (step pd (fst s) e, snd s)) as [A B]. unfold prun in *. rewrite A, B. split; reflexivity.
  - destruct (IH (fst s, lstep (snd s) o)) as [A B]. unfold prun in *. rewrite A, B. split; reflexivity.
Qed.

(* hence GetLowResolutionTimestamp keeps its bounds whatever happens to the interval *)
Lemma lowres_bounds_intervals : forall (pd : nat -> Z),
  (forall i j, (i < j)%nat -> pd i < pd j) ->
  forall n l0 es1 es2 v1 v2, linv l0 ->
    let s1 := prun pd (init_sys n, l0) es1 in
    let s2 := prun pd s1 es2 in
    linv (snd s2) /\
    (lowres (fst s1) = Some v1 -> lowres (fst s2) = Some v2 -> v1 <= v2 /\ v2 <= pd (issued (fst s2) - 1)%nat).
Proof.
  intros pd strict n l0 es1 es2 v1 v2 I s1 s2.
  destruct (prun_proj pd es1 (init_sys n, l0)) as [A1 B1]. destruct (prun_proj pd es2 s1) as [A2 B2].
  fold s1 in A1, B1. fold s2 in A2, B2. cbn [fst snd] in A1, B1. split.
  - rewrite B2, B1. apply lrun_inv, lrun_inv, I.
  - rewrite A2, A1. apply (lowres_bounds pd strict), reach_plain.
Qed.
