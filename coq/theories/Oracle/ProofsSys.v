(* Oracle/ProofsSys.v — the GetTimestamp / setLastTS interleaving semantics.
   Inv: every record in sight (published, loaded, about to be swapped in) is held by the call that owns it, and what a
   call holds is the PD answer it received.  It is stated over step_role (callers and refresher rounds); ModelSys.step
   is the case without refresher rounds (run_role_none).  Each step keeps Inv and does not lower the published value
   (inv_step): monotonicity, "always an issued timestamp" and "an entry, once there, stays" are read off that one lemma.
   Its last two fields are about the ghost time stamps: every stamp is a past point of the run and PD's counter grows
   with the clock; with the rest they give the real-time order of returned timestamps (passthrough). *)
From Verif Require Import Oracle.Model Oracle.ModelSys.
From Coq Require Import Lia Arith.
Open Scope Z_scope.

Lemma nth_error_set_nth : forall A (l : list A) i j x,
  nth_error (set_nth l i x) j =
  if Nat.eqb i j then match nth_error l i with Some _ => Some x | None => None end else nth_error l j.
Proof.
  induction l as [|a r IH]; intros i j x.
  - destruct i, j; cbn [set_nth nth_error Nat.eqb]; try reflexivity; try (destruct (Nat.eqb i j); reflexivity).
  - destruct i, j; cbn [set_nth nth_error Nat.eqb]; auto.
Qed.

Lemma set_nth_all : forall A (P : nat -> A -> Prop) (l : list A) t x0 x,
  nth_error l t = Some x0 -> (forall u y, u <> t -> nth_error l u = Some y -> P u y) -> P t x ->
  forall u y, nth_error (set_nth l t x) u = Some y -> P u y.
Proof.
  intros A P l t x0 x Ht Hl Hx u y Hu. rewrite nth_error_set_nth in Hu. destruct (Nat.eqb t u) eqn:E.
  - apply Nat.eqb_eq in E. subst u. rewrite Ht in Hu. injection Hu as <-. exact Hx.
  - apply Nat.eqb_neq in E. apply Hl; auto.
Qed.

Lemma fold_inv : forall A B (f : A -> B -> A) (P : A -> Prop),
  (forall a b, P a -> P (f a b)) -> forall l a, P a -> P (fold_left f l a).
Proof. intros A B f P H. induction l as [|b l IH]; intros a Pa; cbn; auto. Qed.

Lemma pd_mono : forall pd : nat -> Z, (forall i j, (i < j)%nat -> pd i < pd j) ->
  forall i j, (i <= j)%nat -> pd i <= pd j.
Proof.
  intros pd strict i j H. destruct (Nat.eq_dec i j) as [->|]; [lia|]. apply Z.lt_le_incl, strict. lia.
Qed.

Lemma ole_refl : forall a, ole a a.
Proof. intros [a|]; cbn; lia. Qed.
Lemma ole_trans : forall a b c, ole a b -> ole b c -> ole a c.
Proof. intros [a|] [b|] [c|]; cbn; try lia; contradiction. Qed.

Definition lr (c : option (nat * Z)) : option Z := match c with Some (_, v) => Some v | None => None end.
Lemma lowres_lr : forall s, lowres s = lr (cell s).
Proof. reflexivity. Qed.

Definition held (p : pc) : option Z :=
  match p with
  | PMapLoad ts | PLoadOrStore ts | PLoad ts | PCmp ts _ _ | PCas ts _ _ | PRet ts => Some ts
  | PDone r => r
  | _ => None
  end.

Definition holds (l : list thread) (o : nat) (v : Z) : Prop :=
  exists th, nth_error l o = Some th /\ held (tpc th) = Some v.

Lemma holds_fun : forall l o v w, holds l o v -> holds l o w -> v = w.
Proof. intros l o v w [th [H1 H2]] [th' [H1' H2']]. congruence. Qed.

Lemma lowres_none : forall s, lowres s = None <-> cell s = None.
Proof. intros s. unfold lowres. destruct (cell s) as [[o v]|]; split; congruence. Qed.

(* A call is stamped with (clock, PD's counter) when it is invoked and when it returns.  Every stamp is a past
   point of the run, and PD's counter only grows with the clock: that is all the invariant says. *)
Definition pdone (p : pc) : bool := match p with PDone _ => true | _ => false end.
Definition pidle (p : pc) : bool := match p with PIdle => true | _ => false end.
Definition stamps (th : thread) : list (nat * nat) :=
  (if pidle (tpc th) then [] else [(tinvt th, tinvk th)]) ++ (if pdone (tpc th) then [(trett th, tretk th)] else []).
Definition stamp (l : list thread) (x : nat * nat) : Prop := exists t th, nth_error l t = Some th /\ In x (stamps th).

Lemma stamp_set_nth : forall l t th th' now x, nth_error l t = Some th ->
  (forall y, In y (stamps th') -> In y (now :: stamps th)) ->
  stamp (set_nth l t th') x -> x = now \/ stamp l x.
Proof.
  intros l t th th' now x Ht Hs [u [thu [Hu Hx]]]. revert Hx.
  apply (set_nth_all _ (fun _ y => In x (stamps y) -> x = now \/ stamp l x) _ _ _ th' Ht) with (u := u) (y := thu); [| |exact Hu].
  - intros v y _ Hv Hx. right. exists v, y. auto.
  - intros Hx. destruct (Hs x Hx) as [<-|Hx']; [left; reflexivity|right; exists t, th; auto].
Qed.

Section Proofs.
Variable pd : nat -> Z.
Variable role : nat -> bool.

(* what the place in the code adds: a loaded record (o, v) is what call o holds; the swap is tried only on an older
   record; a call that returned was answered before it returned *)
Definition pgood (l : list thread) (th : thread) : Prop :=
  match tpc th with
  | PCmp _ o v => holds l o v
  | PCas ts o v => holds l o v /\ v < ts
  | PDone (Some _) => (tidx th < tretk th)%nat
  | _ => True
  end.

(* what thread t (record th) knows, with PD's counter at k, the cell c and the threads l.  The third clause is about
   refresher rounds only: a launched round has found the scope's entry, so it never creates one. *)
Definition tgood (k : nat) (c : option (nat * Z)) (l : list thread) (t : nat) (th : thread) : Prop :=
  (forall ts, held (tpc th) = Some ts -> ts = pd (tidx th) /\ (tidx th < k)%nat /\ (tinvk th <= tidx th)%nat) /\
  (tinvk th <= k)%nat /\
  (role t = true -> (tpc th <> PIdle -> c <> None) /\ forall ts, tpc th <> PLoadOrStore ts) /\
  pgood l th.

Record Inv (s : sys) : Prop := {
  I_cell : forall o v, cell s = Some (o, v) -> holds (thr s) o v;
  I_thr : forall t th, nth_error (thr s) t = Some th -> tgood (issued s) (cell s) (thr s) t th;
  I_past : forall x, stamp (thr s) x -> (fst x < clock s)%nat /\ (snd x <= issued s)%nat;
  I_mono : forall x y, stamp (thr s) x -> stamp (thr s) y -> (fst x < fst y)%nat -> (snd x <= snd y)%nat
}.

Lemma holds_set_nth : forall l t th th' o v,
  nth_error l t = Some th ->
  (forall w, held (tpc th) = Some w -> held (tpc th') = Some w) ->
  holds l o v -> holds (set_nth l t th') o v.
Proof.
  intros l t th th' o v Ht Hst [tho [Ho Hh]]. unfold holds. rewrite nth_error_set_nth.
  destruct (Nat.eqb t o) eqn:E.
  - apply Nat.eqb_eq in E; subst o. rewrite Ht in *. inversion Ho; subst tho. eexists; split; [reflexivity|auto].
  - exists tho; auto.
Qed.

(* a thread's facts survive what others do: PD's counter grows, an entry stays, holders keep what they hold *)
Lemma tgood_frame : forall k k' c c' l l' t th,
  tgood k c l t th -> (k <= k')%nat -> (c <> None -> c' <> None) -> (forall o v, holds l o v -> holds l' o v) ->
  tgood k' c' l' t th.
Proof.
  intros k k' c c' l l' t th [G1 [G2 [G3 G4]]] Hk Hc Hl. split; [|split; [lia|split]].
  - intros ts H. destruct (G1 ts H) as [A [B D]]. repeat split; auto; lia.
  - intros Hr. destruct (G3 Hr) as [A B]. split; auto.
  - unfold pgood in *. destruct (tpc th) as [| | | | |ts o v|ts o v| |r]; auto. destruct G4; auto.
Qed.

(* thread t moves from th to th' and keeps what it held; the cell stays, or t publishes what it holds, not below the
   published value; the new stamps of t are its old ones or the present moment *)
Lemma inv_update : forall s t th c' k' th',
  Inv s -> nth_error (thr s) t = Some th ->
  (issued s <= k')%nat ->
  (forall w, held (tpc th) = Some w -> held (tpc th') = Some w) ->
  (c' = cell s \/ exists ts, c' = Some (t, ts) /\ held (tpc th') = Some ts /\ ole (lowres s) (Some ts)) ->
  tgood k' c' (thr s) t th' ->
  (forall x, In x (stamps th') -> In x ((clock s, issued s) :: stamps th)) ->
  Inv (mkSys c' k' (S (clock s)) (set_nth (thr s) t th')) /\ ole (lowres s) (lr c').
Proof.
  intros s t th c' k' th' [Ic It Ip Im] Ht Hk Hst Hc Hg Hs. split; [constructor; cbn [cell thr issued clock]|].
  - intros o v E. destruct Hc as [Hc|[ts [Hc [Hh _]]]].
    + subst c'. eapply holds_set_nth; eauto.
    + rewrite Hc in E. inversion E; subst o v. unfold holds. rewrite nth_error_set_nth, Nat.eqb_refl, Ht. eauto.
  - assert (F : forall o v, holds (thr s) o v -> holds (set_nth (thr s) t th') o v)
      by (intros o v; eapply holds_set_nth; eauto).
    assert (C : cell s <> None -> c' <> None) by (destruct Hc as [->|[ts [-> _]]]; [auto|discriminate]).
    apply (set_nth_all _ _ _ _ _ _ Ht).
    + intros u thu _ Hu. exact (tgood_frame _ _ _ _ _ _ _ _ (It u thu Hu) Hk C F).
    + exact (tgood_frame _ _ _ _ _ _ _ _ Hg (le_n _) (fun H => H) F).
  - intros x Hx. destruct (stamp_set_nth _ _ _ _ _ _ Ht Hs Hx) as [->|O]; [cbn; lia|destruct (Ip x O); lia].
  - intros x y Hx Hy Hlt.
    destruct (stamp_set_nth _ _ _ _ _ _ Ht Hs Hx) as [->|Ox], (stamp_set_nth _ _ _ _ _ _ Ht Hs Hy) as [->|Oy]; cbn [fst snd] in *.
    + lia.
    + destruct (Ip y Oy); lia.
    + destruct (Ip x Ox); lia.
    + exact (Im x y Ox Oy Hlt).
  - destruct Hc as [->|[ts [-> [_ Hle]]]]; [apply ole_refl|exact Hle].
Qed.

Lemma inv_tick : forall s, Inv s -> Inv (tick s) /\ ole (lowres s) (lowres (tick s)).
Proof.
  intros s [Ic It Ip Im]. split; [constructor; auto|apply ole_refl]. cbn [tick thr clock issued]. intros x Hx. destruct (Ip x Hx). lia.
Qed.

Lemma inv_init : forall n, Inv (init_sys n).
Proof.
  assert (E : forall n x, ~ stamp (thr (init_sys n)) x).
  { intros n x [t [th [H Hx]]]. apply nth_error_In, repeat_spec in H. subst th. exact Hx. }
  intros n. constructor; cbn [init_sys cell thr]; try (intros x; intros; destruct (E n x); assumption).
  - intros o v H; discriminate.
  - intros t th H. apply nth_error_In, repeat_spec in H. subst th.
    repeat split; cbn; intros; try discriminate; try lia; congruence.
Qed.

(* the new record th' holds what th held, th being past its launch *)
Lemma tgood_same : forall k c c' l t th th',
  tgood k c l t th -> held (tpc th') = held (tpc th) -> tidx th' = tidx th -> tinvk th' = tinvk th ->
  tpc th <> PIdle -> (c <> None -> c' <> None /\ forall ts, tpc th' <> PLoadOrStore ts) ->
  pgood l th' -> tgood k c' l t th'.
Proof.
  intros k c c' l t th th' [G1 [G2 [G3 _]]] Hh Hi Hk Hn H3 H4. rewrite <- Hh, <- Hi, <- Hk in *.
  split; [exact G1|split; [exact G2|split; [|exact H4]]]. intros Hr. destruct (H3 (proj1 (G3 Hr) Hn)) as [A B]. split; [intros _; exact A|exact B].
Qed.

(* upd: the step rewrites thread t only — the side conditions of inv_update, the usual ones closed at once; the new
   stamps are always the old ones or the present moment.
   same: the new thread record holds what the old one held; left over is pgood of the new record where it says something. *)
Ltac upd I Ht Hpc := eapply (inv_update _ _ _ _ _ _ I Ht); cbn [tpc tidx tinvk with_pc held]; rewrite ?Hpc; cbn [held];
  [ lia | intros w Hw; first [exact Hw | discriminate] | try (left; first [reflexivity | symmetry; eassumption]) |
  | unfold stamps; cbn [tpc tinvk tinvt tretk trett with_pc]; rewrite ?Hpc; cbn [pidle pdone app In]; intros x; tauto ].
Ltac same G Hpc := eapply tgood_same; [exact G | cbn [tpc with_pc held]; rewrite ?Hpc; reflexivity | reflexivity | reflexivity
  | rewrite Hpc; discriminate | cbn [tpc with_pc]; intros C; split; [congruence|intros ? HH; first [discriminate HH|congruence]]
  | unfold pgood; cbn [tpc tidx tretk with_pc]; try exact Logic.I ].

Lemma inv_step : forall s e, Inv s ->
  Inv (step_role pd role s e) /\ ole (lowres s) (lowres (step_role pd role s e)).
Proof.
  intros s e I. pose proof I as [Ic It _ _].
  destruct e as [t|t]; cbn [step_role step]; destruct (nth_error (thr s) t) as [th|] eqn:Ht; try (apply inv_tick; assumption).
  - pose proof (It t th Ht) as G. pose proof G as [G1 [G2 [G3 G4]]]. unfold pgood in G4.
    unfold thread_step. destruct (tpc th) eqn:Hpc.
    + (* PIdle: a refresher round is not launched while the scope has no entry *)
      destruct (cell s) eqn:Hc; [|destruct (role t) eqn:Hr; [apply inv_tick; assumption|]];
        upd I Ht Hpc; repeat split; cbn; intros; try discriminate; try lia; congruence.
    + upd I Ht Hpc. repeat split; cbn [tpc tidx tinvk held] in *; intros; try discriminate; try lia.
      * congruence.
      * apply (G3 H). discriminate.
    + destruct (cell s) eqn:Hc; upd I Ht Hpc; same G Hpc.
    + (* PLoadOrStore: the first record of the scope *) destruct (cell s) eqn:Hc.
      * upd I Ht Hpc. same G Hpc.
      * upd I Ht Hpc; [right; eexists; repeat split; unfold lowres; rewrite Hc; exact Logic.I|]. same G Hpc.
    + destruct (cell s) as [[o v]|] eqn:Hc.
      * upd I Ht Hpc. same G Hpc. apply Ic. reflexivity.
      * upd I Ht Hpc. exact G.
    + destruct (ts <=? v) eqn:Hle; upd I Ht Hpc; same G Hpc. split; [exact G4|lia].
    + (* PCas: the swap succeeds on the record this call loaded, and that one is older *)
      destruct G4 as [Hh Hlt]. destruct (cell s) as [[o' v']|] eqn:Hc.
      * destruct (Nat.eqb o' o) eqn:Ho.
        -- apply Nat.eqb_eq in Ho; subst o'.
           assert (v' = v) by (eapply holds_fun; [apply Ic; reflexivity|exact Hh]). subst v'.
           upd I Ht Hpc; [right; eexists; repeat split; unfold lowres; rewrite Hc; apply Z.lt_le_incl, Hlt|].
           same G Hpc.
        -- upd I Ht Hpc. same G Hpc.
      * upd I Ht Hpc. same G Hpc.
    + upd I Ht Hpc. same G Hpc. apply (G1 ts eq_refl).
    + upd I Ht Hpc. exact G.
  - destruct (tpc th) eqn:Hpc; try (apply inv_tick; assumption).
    destruct (It t th Ht) as [_ [G2 [G3 _]]].
    upd I Ht Hpc. repeat split; cbn; intros; try discriminate; try assumption.
    apply (G3 H). rewrite Hpc. discriminate.
Qed.

Lemma run_inv : forall es s, Inv s ->
  Inv (run_role pd role s es) /\ ole (lowres s) (lowres (run_role pd role s es)).
Proof.
  intros es s I. apply (fold_inv _ _ (step_role pd role) (fun s' => Inv s' /\ ole (lowres s) (lowres s'))).
  - intros a e [Ia La]. destruct (inv_step a e Ia) as [Ib Lb]. split; [exact Ib|exact (ole_trans _ _ _ La Lb)].
  - split; [exact I|apply ole_refl].
Qed.

Lemma lowres_issued : forall s v, Inv s -> lowres s = Some v -> exists i, (i < issued s)%nat /\ v = pd i.
Proof.
  intros s v [Ic It _ _] H. unfold lowres in H. destruct (cell s) as [[o w]|] eqn:Hc; [|discriminate]. inversion H; subst w.
  destruct (Ic o v eq_refl) as [th [Hth Hh]]. destruct (It o th Hth) as [G1 _].
  destruct (G1 v Hh) as [A [B _]]. eauto.
Qed.

Lemma reach : forall n es, Inv (run_role pd role (init_sys n) es).
Proof. intros n es. apply run_inv, inv_init. Qed.

(* Callers and refresher rounds, from any state that satisfies Inv (reach: a scope without an entry and n idle threads,
   then any interleaving, PD failures anywhere): the cached value never decreases, stays once present and is a timestamp
   PD issued; a launched refresher round finds the entry and never takes the LoadOrStore branch. *)
Theorem refresher : forall s es, Inv s ->
  let s' := run_role pd role s es in
  ole (lowres s) (lowres s') /\
  (lowres s <> None -> lowres s' <> None) /\
  (forall v, lowres s' = Some v -> exists i, (i < issued s')%nat /\ v = pd i) /\
  (forall t th, nth_error (thr s') t = Some th -> role t = true ->
     (tpc th <> PIdle -> lowres s' <> None) /\ (forall ts, tpc th <> PLoadOrStore ts)).
Proof.
  intros s es I s'. destruct (run_inv es s I) as [I' M]. fold s' in I', M. split; [exact M|split; [|split]].
  - destruct (lowres s), (lowres s'); cbn in M; congruence || contradiction.
  - intros v. apply lowres_issued, I'.
  - intros t th Ht Hr. destruct (I_thr _ I' t th Ht) as [_ [_ [G3 _]]]. destruct (G3 Hr) as [A B].
    split; [rewrite lowres_none; exact A|exact B].
Qed.

(* GetTimestamp returns what PD handed to this call; a call that returned before another one was invoked was
   answered earlier by PD *)
Lemma passthrough : (forall i j, (i < j)%nat -> pd i < pd j) ->
  forall s a b tha thb va vb, Inv s ->
    nth_error (thr s) a = Some tha -> nth_error (thr s) b = Some thb ->
    tpc tha = PDone (Some va) -> tpc thb = PDone (Some vb) ->
    va = pd (tidx tha) /\ (tidx tha < issued s)%nat /\ ((trett tha < tinvt thb)%nat -> va < vb).
Proof.
  intros strict s a b tha thb va vb [_ It _ Im] Ha Hb Hda Hdb.
  destruct (It _ _ Ha) as [Ga [_ [_ Da]]]. destruct (It _ _ Hb) as [Gb _]. unfold pgood in Da. rewrite Hda in Ga, Da. rewrite Hdb in Gb.
  destruct (Ga va eq_refl) as [Ea [La _]]. destruct (Gb vb eq_refl) as [Eb [_ Ib]].
  split; [exact Ea|split; [exact La|]]. intros Hlt.
  assert (M : (tretk tha <= tinvk thb)%nat).
  { apply (Im (trett tha, tretk tha) (tinvt thb, tinvk thb)); [| |exact Hlt].
    - exists a, tha. split; [exact Ha|]. unfold stamps. rewrite Hda. apply in_or_app. right. left. reflexivity.
    - exists b, thb. split; [exact Hb|]. unfold stamps. rewrite Hdb. left. reflexivity. }
  rewrite Ea, Eb. apply strict. lia.
Qed.

End Proofs.

Lemma run_role_none : forall pd es s, run_role pd (fun _ => false) s es = run pd s es.
Proof.
  intros pd. induction es as [|e es IH]; intros s; [reflexivity|].
  change (run_role pd (fun _ => false) (step_role pd (fun _ => false) s e) es = run pd (step pd s e) es). rewrite IH. f_equal.
  destruct e as [t|t]; [|reflexivity]. cbn [step_role]. destruct (nth_error (thr s) t) as [th|]; [|reflexivity].
  destruct (tpc th); try reflexivity. destruct (cell s); reflexivity.
Qed.

Section Plain.
Variable pd : nat -> Z.

Lemma reach_plain : forall n es, Inv pd (fun _ => false) (run pd (init_sys n) es).
Proof. intros n es. rewrite <- run_role_none. apply reach. Qed.

Lemma cache_run : forall s es, Inv pd (fun _ => false) s ->
  let s' := run pd s es in
  ole (lowres s) (lowres s') /\ (lowres s <> None -> lowres s' <> None) /\
  (forall v, lowres s' = Some v -> exists i, (i < issued s')%nat /\ v = pd i).
Proof.
  intros s es I. destruct (refresher pd (fun _ => false) s es I) as [M [St [B _]]].
  rewrite run_role_none in M, St, B. auto.
Qed.

Lemma lowres_bounds : (forall i j, (i < j)%nat -> pd i < pd j) ->
  forall s es v1 v2, Inv pd (fun _ => false) s ->
    lowres s = Some v1 -> lowres (run pd s es) = Some v2 ->
    v1 <= v2 /\ v2 <= pd (issued (run pd s es) - 1)%nat.
Proof.
  intros strict s es v1 v2 I H1 H2. destruct (cache_run s es I) as [M [_ B]].
  rewrite H1, H2 in M. split; [exact M|].
  destruct (B v2 H2) as [i [Hi ->]]. apply (pd_mono pd strict). lia.
Qed.

End Plain.
