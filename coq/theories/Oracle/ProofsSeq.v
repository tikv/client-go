(* Oracle/ProofsSeq.v — the call-level setLastTS (Model.set_last: publish the maximum) is what the CAS-level
   system computes when the calls run one after the other. *)
From Verif Require Import Oracle.Model Oracle.ModelSys Oracle.ProofsArith Oracle.ProofsSys.
From Coq Require Import Lia Arith.
Open Scope Z_scope.

Lemma set_nth_twice : forall A (l : list A) t x y, set_nth (set_nth l t x) t y = set_nth l t y.
Proof. induction l as [|a r IH]; intros [|t] x y; cbn; auto. f_equal. apply IH. Qed.
Lemma set_nth_same : forall A (l : list A) t x, nth_error l t = Some x -> set_nth l t x = l.
Proof. induction l as [|a r IH]; intros [|t] x H; cbn in *; try discriminate; [congruence|]. f_equal. apply IH, H. Qed.
Lemma nth_set_nth_eq : forall A (l : list A) t x0 x, nth_error l t = Some x0 -> nth_error (set_nth l t x) t = Some x.
Proof. intros. rewrite nth_error_set_nth, Nat.eqb_refl, H. reflexivity. Qed.
Lemma nth_set_nth_ne : forall A (l : list A) t u x, t <> u -> nth_error (set_nth l t x) u = nth_error l u.
Proof. intros. rewrite nth_error_set_nth. destruct (Nat.eqb t u) eqn:E; [apply Nat.eqb_eq in E; contradiction|reflexivity]. Qed.

Section Seq.
Variable pd : nat -> Z.

Lemma step_norm : forall l t th0 c k clk th, nth_error l t = Some th0 ->
  step pd (mkSys c k clk (set_nth l t th)) (Ev t) = thread_step pd (mkSys c k clk (set_nth l t th)) t th.
Proof. intros. cbn [step thr]. rewrite (nth_set_nth_eq _ l t th0 th H). reflexivity. Qed.

Definition done_thread (ts : Z) (k clk : nat) (rk rt : nat) : thread := mkThread (PDone (Some ts)) k k clk rk rt.
Definition pub (c : option (nat * Z)) (ts : Z) : Z :=
  match c with Some (_, v) => if ts <=? v then v else ts | None => ts end.

(* one scheduler slot of thread t on a state in the form of step_norm: look the thread up, take its step, and merge the
   two writes to slot t *)
Ltac st H := rewrite (step_norm _ _ _ _ _ _ _ H); unfold thread_step;
  cbn [tpc tidx tinvk tinvt tretk trett cell issued clock thr with_pc]; rewrite ?set_nth_twice.

(* thread t alone, from idle to done: nine scheduler slots are enough *)
Lemma run_alone_spec : forall c k clk l t,
  nth_error l t = Some idle_thread ->
  exists o th',
    run pd (mkSys c k clk l) (repeat (Ev t) 9) = mkSys (Some (o, pub c (pd k))) (S k) (9 + clk) (set_nth l t th') /\
    tpc th' = PDone (Some (pd k)).
Proof.
  intros c k clk l t H. replace (mkSys c k clk l) with (mkSys c k clk (set_nth l t idle_thread)) by (rewrite (set_nth_same _ l t idle_thread H); reflexivity).
  cbn [repeat run fold_left]. unfold idle_thread at 1.
  st H. st H.
  destruct c as [[o v]|]; cbn [pub].
  - st H. st H. st H. destruct (pd k <=? v) eqn:E.
    + st H. st H. st H. st H. eexists o, _. split; [reflexivity|reflexivity].
    + st H. rewrite Nat.eqb_refl. st H. st H. st H. eexists t, _. split; [reflexivity|reflexivity].
  - st H. st H. st H. st H. rewrite Z.leb_refl. st H. st H. st H. eexists t, _. split; [reflexivity|reflexivity].
Qed.

Definition seq_sched (m : nat) : list event := concat (map (fun t => repeat (Ev t) 9) (seq 0 m)).
Definition seq_state (m : nat) : list (Z * Z) := fold_left (fun st k => set_last st 1 (pd k)) (seq 0 m) [].

Lemma lr_pub : forall c ts st, lr c = get_last st 1 -> Some (pub c ts) = get_last (set_last st 1 ts) 1.
Proof.
  intros c ts st H. rewrite set_last_max, <- H. unfold lr, pub.
  destruct c as [[o v]|]; [|reflexivity]. destruct (ts <=? v) eqn:E; f_equal; lia.
Qed.

Lemma seq_refines : forall n m, (m <= n)%nat ->
  let s := run pd (init_sys n) (seq_sched m) in
  lowres s = get_last (seq_state m) 1 /\ issued s = m /\
  (forall j, (m <= j < n)%nat -> nth_error (thr s) j = Some idle_thread) /\
  (forall j, (j < m)%nat -> exists th, nth_error (thr s) j = Some th /\ tpc th = PDone (Some (pd j))).
Proof.
  intros n m. induction m as [|m IH]; intros Hm; cbv zeta.
  - cbn. repeat split; auto; [|intros; lia]. intros j Hj. apply nth_error_repeat. lia.
  - specialize (IH ltac:(lia)). cbv zeta in IH. destruct IH as [L [K [Idle Done]]].
    unfold seq_sched, seq_state in *. rewrite seq_S, map_app, concat_app, fold_left_app. cbn [map concat Nat.add fold_left].
    rewrite app_nil_r. unfold run in *. rewrite fold_left_app.
    set (s := fold_left (step pd) (concat (map (fun t => repeat (Ev t) 9) (seq 0 m))) (init_sys n)) in *.
    destruct s as [c k clk l] eqn:Es. cbn [issued thr] in *. subst k.
    destruct (run_alone_spec c m clk l m (Idle m ltac:(lia))) as [o [th' [R Hd]]]. unfold run in R. rewrite R.
    cbn [issued thr]. repeat split.
    + apply lr_pub. exact L.
    + intros j Hj. rewrite nth_set_nth_ne by lia. apply Idle. lia.
    + intros j Hj. destruct (Nat.eq_dec j m) as [->|Hne].
      * exists th'. split; [eapply nth_set_nth_eq; apply Idle; lia|exact Hd].
      * rewrite nth_set_nth_ne by lia. apply Done. lia.
Qed.

End Seq.
