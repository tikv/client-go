(* Oracle/ProofsTxn.v — the commit-wait clause on the caller's side *)
From Verif Require Import Oracle.Model Oracle.ModelTxn Oracle.ProofsArith.
From Coq Require Import Lia ZifyBool.
Open Scope Z_scope.

Lemma ts_with_retry_spec : forall answers fuel calls r c,
  ts_with_retry fuel answers calls = (r, c) ->
  (c <= calls + S fuel)%nat /\
  (forall ts, r = Some ts ->
     exists k, nth_error answers k = Some (Some ts) /\ (forall j, (j < k)%nat -> nth_error answers j = Some None) /\
               c = (calls + S k)%nat /\ (k <= fuel)%nat).
Proof.
  induction answers as [|a rest IH]; intros fuel calls r c H; cbn [ts_with_retry] in H.
  - injection H as <- <-. split; [lia|intros ts E; discriminate].
  - destruct a as [ts|].
    + injection H as <- <-. split; [lia|]. intros ts0 E. injection E as <-.
      exists O. repeat split; try lia.
    + destruct fuel as [|f].
      * injection H as <- <-. split; [lia|intros ts E; discriminate].
      * destruct (IH f (S calls) r c H) as [A B]. split; [lia|].
        intros ts E. destruct (B ts E) as [k [K1 [K2 [K3 K4]]]].
        exists (S k). repeat split; auto; try lia. intros [|j] Hj; [reflexivity|apply K2; lia].
Qed.

(* where the commit ts of a successful commit comes from: GetTimestampForCommit answered t (2PC commits at t, the others
   prewrite with min_commit_ts t + 1), or an async-commit / 1PC transaction did not ask and prewrites with start ts + 1 *)
Lemma commit_txn_cases : forall clause tk m causal start regs ms fuel script ts reqmin c,
  commit_txn clause tk m causal start regs ms fuel script = (Some ts, reqmin, c) ->
  (exists t, commit_wait (cw_bound regs) ms fuel script = (CwOk t, c) /\
     (m = M2PC /\ ts = t \/ m <> M2PC /\ ts = tk reqmin /\ reqmin = t + 1)) \/
  (m <> M2PC /\ negb causal || (clause && (0 <? cw_bound regs)) = false /\ ts = tk reqmin /\ reqmin = start + 1).
Proof.
  intros clause tk m causal start regs ms fuel script ts reqmin c H. unfold commit_txn, pre_fetch in H.
  destruct m; [|assert (N : MAsync <> M2PC) by discriminate|assert (N : M1PC <> M2PC) by discriminate].
  1: { destruct (commit_wait (cw_bound regs) ms fuel script) as [[t|] c'] eqn:E; [|discriminate].
       injection H as <- <- <-. left. exists t. split; [reflexivity|left; split; reflexivity]. }
  all: destruct (negb causal || (clause && (0 <? cw_bound regs))) eqn:P;
    [|injection H as <- <- <-; right; repeat split; exact N].
  all: destruct (commit_wait (cw_bound regs) ms fuel script) as [[t|] c'] eqn:E; [|discriminate].
  all: injection H as <- <- <-; left; exists t; split; [reflexivity|right; repeat split; exact N].
Qed.

Lemma commit_txn_all : forall tk m causal start regs ms fuel script ts reqmin c,
  (forall x, x <= tk x) -> 0 <= start ->
  commit_txn true tk m causal start regs ms fuel script = (Some ts, reqmin, c) ->
  (forall r, In r regs -> r < ts) /\ 0 < ts.
Proof.
  intros tk m causal start regs ms fuel script ts reqmin c Htk Hs H.
  destruct (set_cw_fold regs 0) as [B0 [B1 _]]. fold (cw_bound regs) in B0, B1.
  assert (K : cw_bound regs < ts).
  { destruct (commit_txn_cases _ _ _ _ _ _ _ _ _ _ _ _ H) as [[t [E D]]|[_ [P [-> ->]]]].
    - destruct (proj2 (commit_wait_spec _ _ _ _ _ _ E) t eq_refl) as [A _].
      destruct D as [[_ ->]|[_ [-> ->]]]; [exact A|]. pose proof (Htk (t + 1)). lia.
    - pose proof (Htk (start + 1)). lia. }
  split; [|lia]. intros r Hin. specialize (B1 r Hin). lia.
Qed.

(* without the commit-wait clause an async-commit transaction under causal consistency commits below its constraint *)
Lemma commit_txn_no_clause_refuted :
  exists tk m causal start regs ms fuel script ts reqmin c,
    (forall x, x <= tk x) /\ 0 <= start /\
    commit_txn false tk m causal start regs ms fuel script = (Some ts, reqmin, c) /\ exists r, In r regs /\ ts <= r.
Proof.
  exists (fun x => x), MAsync, true, 10, [100], 1000000000, 3%nat, [Some 90; Some 101], 11, 11, O.
  repeat split; try lia. exists 100. split; [left; reflexivity|lia].
Qed.

(* with a registered constraint the prewrite of an async-commit / 1PC transaction already carries a min_commit_ts
   beyond every registered value — whatever TiKV answers later *)
Lemma commit_txn_reqmin : forall tk m causal start regs ms fuel script ts reqmin c,
  m <> M2PC -> 0 < cw_bound regs ->
  commit_txn true tk m causal start regs ms fuel script = (Some ts, reqmin, c) ->
  (forall r, In r regs -> r < reqmin) /\ ts = tk reqmin /\ In (Some (reqmin - 1)) script.
Proof.
  intros tk m causal start regs ms fuel script ts reqmin c Hm Hb H.
  destruct (set_cw_fold regs 0) as [_ [B1 _]]. fold (cw_bound regs) in B1.
  destruct (commit_txn_cases _ _ _ _ _ _ _ _ _ _ _ _ H) as [[t [E [[D _]|[_ [-> ->]]]]]|[_ [P _]]];
    [contradiction| |destruct causal; cbn in P; lia].
  destruct (proj2 (commit_wait_spec _ _ _ _ _ _ E) t eq_refl) as [A I].
  split; [intros r Hin; specialize (B1 r Hin); lia|split; [reflexivity|]]. replace (t + 1 - 1) with t by lia. exact I.
Qed.
