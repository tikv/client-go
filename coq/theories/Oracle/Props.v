(* Oracle/Props.v — property C13: the theorems, nothing else.
   Each is closed by [exact <lemma>] (or a two-line combination of lemmas) and followed by Print Assumptions.
   PD's behaviour is an explicit hypothesis:  pd : nat -> Z  is the sequence of timestamps PD hands out,
   pd_strict says it is strictly increasing. *)
From Verif Require Import Oracle.Model Oracle.ModelSys Oracle.ModelVal Oracle.ModelInt Oracle.ProofsArith Oracle.ProofsSys Oracle.ProofsVal Oracle.ModelArr Oracle.ModelTxn Oracle.ProofsTxn Oracle.ProofsInt Oracle.ProofsSeq Oracle.ProofsFresh Oracle.ProofsArr.
From Coq Require Import Lia.
Open Scope Z_scope.

(* --- oracle.go: ComposeTS / ExtractPhysical / ExtractLogical --- *)
Theorem C13_compose_extract : forall p l, 0 <= p < two45 -> 0 <= l < two18 ->
  extract_physical (compose_ts p l) = p /\ extract_logical (compose_ts p l) = l /\
  (forall p' l', 0 <= p' < two45 -> 0 <= l' < two18 ->
     (compose_ts p l < compose_ts p' l' <-> (p < p' \/ (p = p' /\ l < l')))).
Proof. exact compose_extract. Qed.
Print Assumptions C13_compose_extract.

Theorem C13_extract_compose : forall ts, 0 <= ts < two63 ->
  compose_ts (extract_physical ts) (extract_logical ts) = ts.
Proof. exact extract_compose. Qed.
Print Assumptions C13_extract_compose.

(* --- GetTimestamp returns exactly what PD handed to this call; with PD strictly increasing, a call that
       returned before another one was invoked returned a smaller timestamp — any n, any interleaving --- *)
Theorem C13_passthrough : forall (pd : nat -> Z),
  (forall i j, (i < j)%nat -> pd i < pd j) ->
  forall n es a b tha thb va vb,
    let s := run pd (init_sys n) es in
    nth_error (thr s) a = Some tha -> nth_error (thr s) b = Some thb ->
    tpc tha = PDone (Some va) -> tpc thb = PDone (Some vb) ->
    va = pd (tidx tha) /\ (tidx tha < issued s)%nat /\ ((trett tha < tinvt thb)%nat -> va < vb).
Proof. exact (fun pd strict n es a b tha thb va vb =>
         passthrough pd (fun _ => false) strict _ a b tha thb va vb (reach_plain pd n es)). Qed.
Print Assumptions C13_passthrough.

(* --- setLastTS (Load / compare / CAS loop), n concurrent calls, any interleaving: the published value never
       decreases and is always one of the timestamps PD issued --- *)
Theorem C13_lastts_monotone : forall (pd : nat -> Z) n es1 es2,
  let s1 := run pd (init_sys n) es1 in
  let s2 := run pd s1 es2 in
  ole (lowres s1) (lowres s2) /\
  (forall v, lowres s2 = Some v -> exists i, (i < issued s2)%nat /\ v = pd i).
Proof. exact (fun pd n es1 es2 => match cache_run pd _ es2 (reach_plain pd n es1) with conj M (conj _ B) => conj M B end). Qed.
Print Assumptions C13_lastts_monotone.

(* --- GetLowResolutionTimestamp (one Load of the published record): never decreases along a run and never
       exceeds the largest timestamp PD has issued --- *)
Theorem C13_lowres_bounds : forall (pd : nat -> Z),
  (forall i j, (i < j)%nat -> pd i < pd j) ->
  forall n es1 es2 v1 v2,
    let s1 := run pd (init_sys n) es1 in
    let s2 := run pd s1 es2 in
    lowres s1 = Some v1 -> lowres s2 = Some v2 ->
    v1 <= v2 /\ v2 <= pd (issued s2 - 1)%nat.
Proof. exact (fun pd strict n es1 es2 v1 v2 => lowres_bounds pd strict _ es2 v1 v2 (reach_plain pd n es1)). Qed.
Print Assumptions C13_lowres_bounds.

(* --- IsExpired <-> UntilExpired <= 0, the int64 conversion of TTL and the int64 additions written out.
       Exact domain guard:  0 <= TTL < 2^63 - physical(lockTS)  (lockTS, lastTS any uint64; physical < 2^46, so every
       TTL < 2^63 - 2^46 ms qualifies; TTL < 2^62 is the corollary below).  TTL values at or beyond
       the guard are outside the property's input domain (lock TTLs are bounded by the managed TTL / max txn lifetime;
       2^62 ms is about 146 million years): C13_expiry_boundary shows the guard is sharp. --- *)
Theorem C13_expiry_consistent : forall last lock ttl,
  0 <= lock < two64 -> (forall l, last = Some l -> 0 <= l < two64) ->
  0 <= ttl < two63 - extract_physical lock ->
  (is_expired last lock ttl = true <-> until_expired last lock ttl <= 0).
Proof. exact expiry_consistent. Qed.
Print Assumptions C13_expiry_consistent.

Theorem C13_expiry_consistent_ttl62 : forall last lock ttl,
  0 <= lock < two64 -> (forall l, last = Some l -> 0 <= l < two64) -> 0 <= ttl < two62 ->
  (is_expired last lock ttl = true <-> until_expired last lock ttl <= 0).
Proof. exact expiry_consistent_ttl62. Qed.
Print Assumptions C13_expiry_consistent_ttl62.

(* at the boundary: the first TTL outside the domain, 2^63 - physical(lockTS), gives IsExpired = true with a positive
   UntilExpired, for every lock and every cached ts whose physical part is positive *)
Theorem C13_expiry_boundary : forall lock l,
  0 <= lock < two64 -> 0 <= l < two64 -> 1 <= extract_physical l ->
  let ttl := two63 - extract_physical lock in
  is_expired (Some l) lock ttl = true /\ 0 < until_expired (Some l) lock ttl.
Proof. exact expiry_boundary_sharp. Qed.
Print Assumptions C13_expiry_boundary.

(* why the guard on TTL is there (outside the property's input domain): for TTL = MaxInt64 the two answers disagree *)
Theorem C13_expiry_wide_ttl_refuted : exists last lock ttl,
  0 <= lock < two64 /\ 0 <= last < two64 /\ 0 <= ttl < two64 /\
  ~ (is_expired (Some last) lock ttl = true <-> until_expired (Some last) lock ttl <= 0).
Proof. exact expiry_wide_ttl_refuted. Qed.
Print Assumptions C13_expiry_wide_ttl_refuted.

(* --- GetTimestampForCommit: whatever PD answers and however many back-offs the Backoffer grants, a returned
       commit ts is strictly greater than commitWaitUntilTSO and is one of PD's answers; the loop makes at
       most fuel+1 calls --- *)
Theorem C13_commit_wait : forall bound max_sleep_ns fuel script,
  (forall ts c, commit_wait bound max_sleep_ns fuel script = (CwOk ts, c) -> bound < ts /\ In (Some ts) script) /\
  (forall r c, commit_wait bound max_sleep_ns fuel script = (r, c) -> (c <= 1 + fuel)%nat).
Proof. exact (fun bound ms fuel script => conj (fun ts c H => proj2 (commit_wait_spec _ _ _ _ _ _ H) ts eq_refl)
         (fun r c H => proj1 (commit_wait_spec bound ms fuel script r c H))). Qed.
Print Assumptions C13_commit_wait.

(* --- SetCommitWaitUntilTSO may be called any number of times on one transaction (raise, lower, zero, repeat): the
       constraint in effect is the maximum of everything registered (zero never erases), and a commit timestamp
       returned by GetTimestampForCommit exceeds EVERY registered value, is positive and is one of PD's answers --- *)
Theorem C13_commit_wait_registrations : forall regs max_sleep_ns fuel script,
  (0 <= cw_bound regs /\ (forall r, In r regs -> r <= cw_bound regs) /\ (cw_bound regs = 0 \/ In (cw_bound regs) regs)) /\
  (forall ts c, commit_wait_regs regs max_sleep_ns fuel script = (CwOk ts, c) ->
     (forall r, In r regs -> r < ts) /\ 0 < ts /\ In (Some ts) script).
Proof. exact (fun regs ms fuel script => conj (set_cw_fold regs 0) (commit_wait_regs_ok regs ms fuel script)). Qed.
Print Assumptions C13_commit_wait_registrations.

(* --- the consumers.  tikv/kv.go getTimestampWithRetry (CurrentTimestamp, GetTimestampWithRetry): the result is the
       FIRST answer of the oracle that is not an error, reached after at most fuel back-offs; one call per attempt --- *)
Theorem C13_ts_with_retry : forall answers fuel calls r c,
  ts_with_retry fuel answers calls = (r, c) ->
  (c <= calls + S fuel)%nat /\
  (forall ts, r = Some ts ->
     exists k, nth_error answers k = Some (Some ts) /\ (forall j, (j < k)%nat -> nth_error answers j = Some None) /\
               c = (calls + S k)%nat /\ (k <= fuel)%nat).
Proof. exact ts_with_retry_spec. Qed.
Print Assumptions C13_ts_with_retry.

(* twoPhaseCommitter.execute, all three commit modes, causal consistency on or off, any registration sequence, any PD
   answers, any back-off budget, any TiKV answer tk with tk m >= m: a commit that succeeds has a commit ts beyond EVERY
   registered commit-wait value (and positive) *)
Theorem C13_commit_consumer : forall tk m causal start regs ms fuel script ts reqmin c,
  (forall x, x <= tk x) -> 0 <= start -> (forall r, In r regs -> 0 <= r) ->
  commit_txn true tk m causal start regs ms fuel script = (Some ts, reqmin, c) ->
  (forall r, In r regs -> r < ts) /\ 0 < ts.
Proof. exact (fun tk m causal start regs ms fuel script ts reqmin c Htk Hs _ =>
         commit_txn_all tk m causal start regs ms fuel script ts reqmin c Htk Hs). Qed.
Print Assumptions C13_commit_consumer.

(* with a constraint registered, the prewrite of an async-commit / 1PC transaction already carries a min_commit_ts
   beyond every registered value: min_commit_ts - 1 is a PD answer obtained through GetTimestampForCommit *)
Theorem C13_commit_consumer_min_commit_ts : forall tk m causal start regs ms fuel script ts reqmin c,
  m <> M2PC -> 0 < cw_bound regs ->
  commit_txn true tk m causal start regs ms fuel script = (Some ts, reqmin, c) ->
  (forall r, In r regs -> r < reqmin) /\ ts = tk reqmin /\ In (Some (reqmin - 1)) script.
Proof. exact commit_txn_reqmin. Qed.
Print Assumptions C13_commit_consumer_min_commit_ts.

(* the code without the `commitWaitUntilTSO > 0` clause: async commit under causal consistency commits below it *)
Theorem C13_commit_consumer_no_clause_refuted :
  exists tk m causal start regs ms fuel script ts reqmin c,
    (forall x, x <= tk x) /\ 0 <= start /\
    commit_txn false tk m causal start regs ms fuel script = (Some ts, reqmin, c) /\ exists r, In r regs /\ ts <= r.
Proof. exact commit_txn_no_clause_refuted. Qed.
Print Assumptions C13_commit_consumer_no_clause_refuted.

(* --- ValidateReadTS + single flight, any number of validators, any schedule, any order of PD answers --- *)
(* accept-complete: a rejected read timestamp is larger than everything PD had issued when the call began *)
Theorem C13_validate_accept_complete : forall (pd : nat -> Z),
  (forall i j, (i < j)%nat -> pd i < pd j) ->
  forall n es t th c,
    nth_error (vthr (vrun pd true (init_vsys n) es)) t = Some th -> vp th = VDone (OReject c) ->
    forall i, (i < vbegk th)%nat -> pd i < vread th.
Proof. exact (fun pd strict n es t th c Ht => proj1 (validate_outcome pd _ t th (vreach pd strict n es) Ht) c). Qed.
Print Assumptions C13_validate_accept_complete.

(* reject-sound: an accepted read timestamp (other than the MaxUint64 sentinel) does not exceed what PD has
   issued — in the state where the call returned and in every later state *)
Theorem C13_validate_reject_sound : forall (pd : nat -> Z),
  (forall i j, (i < j)%nat -> pd i < pd j) ->
  forall n es t th,
    let s := vrun pd true (init_vsys n) es in
    nth_error (vthr s) t = Some th -> vp th = VDone OAccept -> vread th <> max_uint64 ->
    exists i, (i < vk s)%nat /\ vread th <= pd i.
Proof. exact (fun pd strict n es t th Ht => proj2 (validate_outcome pd _ t th (vreach pd strict n es) Ht)). Qed.
Print Assumptions C13_validate_reject_sound.

(* the retry is needed: with the retry removed a timestamp issued before the call began is rejected *)
Theorem C13_validate_no_retry_refuted :
  exists (pd : nat -> Z), (forall i j, (i < j)%nat -> pd i < pd j) /\
  exists n es t th c i,
    nth_error (vthr (vrun pd false (init_vsys n) es)) t = Some th /\ vp th = VDone (OReject c) /\
    (i < vbegk th)%nat /\ vread th = pd i.
Proof. exact no_retry_refuted. Qed.
Print Assumptions C13_validate_no_retry_refuted.

(* cancellation is isolated: the shared fetch runs under no caller's context, a cancel step of one validator only
   fails that validator.  For every schedule that contains no PD failure of a flight and no cancellation of
   validator u itself (any number of other validators may be cancelled at any point), u never returns the
   "fail to validate" error; together with C13_validate_accept_complete: a read ts issued before u's call is
   never refused. *)
Theorem C13_validate_cancel_isolated : forall (pd : nat -> Z) (u : nat) retry n es,
  Forall (fun e => e <> EFlightFail /\ e <> ECancel u) es ->
  voutcome_of (vrun pd retry (init_vsys n) es) u <> Some OErr.
Proof. exact cancel_isolated. Qed.
Print Assumptions C13_validate_cancel_isolated.

(* --- first use of a txn scope: init_sys n has NO entry for the scope; every caller runs lastTSMap.Load and, on a
       miss, LoadOrStore as separate interleavable steps.  For any number n of concurrent FIRST callers and any
       interleaving: the cached value starts absent, is installed at most by the one LoadOrStore that still finds no
       entry (the losers keep the winner's record and fall into the CAS loop), once installed it stays, it never
       decreases and is always a timestamp PD issued --- *)
Theorem C13_fresh_scope : forall (pd : nat -> Z) n es1 es2,
  let s1 := run pd (init_sys n) es1 in
  let s2 := run pd s1 es2 in
  lowres (init_sys n) = None /\
  (lowres s1 <> None -> lowres s2 <> None) /\
  ole (lowres s1) (lowres s2) /\
  (forall v, lowres s2 = Some v -> exists i, (i < issued s2)%nat /\ v = pd i) /\
  (forall t th ts, nth_error (thr s1) t = Some th -> tpc th = PLoadOrStore ts ->
     (cell s1 = None -> cell (step pd s1 (Ev t)) = Some (t, ts)) /\
     (forall c, cell s1 = Some c -> cell (step pd s1 (Ev t)) = Some c) /\
     exists th', nth_error (thr (step pd s1 (Ev t))) t = Some th' /\ tpc th' = PLoad ts).
Proof. exact (fun pd n es1 es2 => match cache_run pd _ es2 (reach_plain pd n es1) with conj M (conj St B) =>
         conj eq_refl (conj St (conj M (conj B (load_or_store_spec pd _)))) end). Qed.
Print Assumptions C13_fresh_scope.

(* publishing the first timestamp of a scope with Store + return instead (two first callers, both miss, the newer
   one stores, the older one stores last) makes the cached value go back *)
Theorem C13_fresh_scope_store_refuted :
  exists (pd : nat -> Z), (forall i j, (i < j)%nat -> pd i < pd j) /\
  exists n es1 es2 v1 v2,
    lowres (fold_left (step_store pd) es1 (init_sys n)) = Some v1 /\
    lowres (fold_left (step_store pd) (es1 ++ es2) (init_sys n)) = Some v2 /\ v2 < v1.
Proof. exact store_variant_refuted. Qed.
Print Assumptions C13_fresh_scope_store_refuted.

(* --- the background refresher (updateTS.doUpdate) is a further writer of the same cell.  ModelSys.step_role: role is
       an ARBITRARY predicate on the threads; a thread with role t = true is a refresher round: it can only be launched
       for a scope that already has an entry (doUpdate ranges over lastTSMap), then runs getTimestamp + setLastTS like
       any caller; the schedule is arbitrary and may contain PD failures (EvFail) of refresher rounds and of callers.
       For every role, n and schedule: the cached value never decreases, stays once present, is a timestamp PD issued;
       a launched refresher round always finds the entry and never takes the LoadOrStore (first-use) branch.
       If a refresher round publishes with a plain Store instead, the value can go back (_store_refuted). --- *)
Theorem C13_refresher : forall (pd : nat -> Z) (role : nat -> bool) n es1 es2,
  let s1 := run_role pd role (init_sys n) es1 in
  let s2 := run_role pd role s1 es2 in
  ole (lowres s1) (lowres s2) /\
  (lowres s1 <> None -> lowres s2 <> None) /\
  (forall v, lowres s2 = Some v -> exists i, (i < issued s2)%nat /\ v = pd i) /\
  (forall t th, nth_error (thr s2) t = Some th -> role t = true ->
     (tpc th <> PIdle -> lowres s2 <> None) /\ (forall ts, tpc th <> PLoadOrStore ts)).
Proof. exact (fun pd role n es1 es2 => refresher pd role _ es2 (reach pd role n es1)). Qed.
Print Assumptions C13_refresher.

Theorem C13_refresher_store_refuted :
  exists (pd : nat -> Z), (forall i j, (i < j)%nat -> pd i < pd j) /\
  exists n refresher es1 es2 v1 v2,
    lowres (fold_left (step_rstore pd refresher) es1 (init_sys n)) = Some v1 /\
    lowres (fold_left (step_rstore pd refresher) (es1 ++ es2) (init_sys n)) = Some v2 /\ v2 < v1.
Proof. exact rstore_variant_refuted. Qed.
Print Assumptions C13_refresher_store_refuted.

(* --- the published record is the pair lastTSO{tso, arrival}: ModelArr = the CAS system with the clock read
       (current.arrival = time.Now()), the arrival rule of the compare step and the pair in the cell; n threads
       (foreground GetTimestamp / Wait callers and refresher rounds alike), fresh scope, any interleaving, any clock
       advances.  PD's clock pd_ns is non-decreasing; PD never issues a timestamp ahead of its own clock (enabling
       condition of the issue step).  Both components of the published record never go back. --- *)
Theorem C13_arrival_monotone : forall (pd : nat -> Z) (pd_ns : Z -> Z),
  (forall a b, a <= b -> pd_ns a <= pd_ns b) ->
  forall n w0 es1 es2,
    let s1 := arun pd pd_ns (init_asys n w0) es1 in
    let s2 := arun pd pd_ns s1 es2 in
    rec_le (arec s1) (arec s2) /\ wall s1 <= wall s2.
Proof. exact (fun pd pd_ns mono n w0 es1 es2 => proj2 (arun_keeps pd pd_ns mono es2 _ (areach pd pd_ns mono n w0 es1))). Qed.
Print Assumptions C13_arrival_monotone.

(* the future-staleness guard over any interleaving: the published record arrived in the past, its timestamp had been
   issued (by PD's clock) when it arrived; hence, PD's clock not being slower than the local one, the estimate of
   GetStaleTimestamp at any later reading never exceeds PD's current physical time minus prevSecond *)
Theorem C13_stale_not_future : forall (pd : nat -> Z) (pd_ns : Z -> Z),
  (forall a b, a <= b -> pd_ns a <= pd_ns b) ->
  forall n w0 es l a,
    let s := arun pd pd_ns (init_asys n w0) es in
    arec s = Some (l, a) ->
    a <= wall s /\ extract_physical l * 1000000 <= pd_ns a /\
    forall now prev r, stale_dom l a now prev -> pd_ns a + (now - a) <= pd_ns now ->
      stale_ts l a now prev = Some r ->
      extract_physical r <= pd_ns now / 1000000 - prev * 1000 /\ extract_logical r = 0.
Proof. exact (fun pd pd_ns mono n w0 es l a H => match arec_good pd_ns _ (l, a) (areach pd pd_ns mono n w0 es) H with
         conj G1 G2 => conj G2 (conj G1 (fun now prev r D => stale_not_future pd_ns l a now prev r D G1)) end). Qed.
Print Assumptions C13_stale_not_future.

(* --- a failed refresh: in any run with any role assignment, take a refresher round t that has been launched and waits
       for PD, and let its PD request fail: the published record is untouched, the scope's entry is there (the round was
       launched for it) and stays, the round ends with an error, and whatever happens afterwards the cached value does
       not go below what it was and remains a timestamp PD issued (per scope: every scope is its own instance).  The
       variant that drops the scope's entry on a failed refresher round is refuted (_delete_refuted): a PD answer issued
       earlier but arriving later re-creates the entry with an older timestamp. --- *)
Theorem C13_refresher_failure : forall (pd : nat -> Z) (role : nat -> bool) n es t th es2,
  let s := run_role pd role (init_sys n) es in
  role t = true -> nth_error (thr s) t = Some th -> tpc th = PWaitPD ->
  let s' := step_role pd role s (EvFail t) in
  let s2 := run_role pd role s' es2 in
  cell s' = cell s /\ lowres s <> None /\
  (exists th', nth_error (thr s') t = Some th' /\ tpc th' = PDone None) /\
  ole (lowres s) (lowres s2) /\ lowres s2 <> None /\
  (forall v, lowres s2 = Some v -> exists i, (i < issued s2)%nat /\ v = pd i).
Proof. exact (fun pd role n es t th es2 => refresher_failure pd role _ t th es2 (reach pd role n es)). Qed.
Print Assumptions C13_refresher_failure.

Theorem C13_refresher_delete_refuted :
  exists (pd : nat -> Z), (forall i j, (i < j)%nat -> pd i < pd j) /\
  exists n refresher es1 es2 v1 v2,
    lowres (fold_left (step_rdelete pd refresher) es1 (init_sys n)) = Some v1 /\
    lowres (fold_left (step_rdelete pd refresher) (es1 ++ es2) (init_sys n)) = Some v2 /\ v2 < v1.
Proof. exact rdelete_variant_refuted. Qed.
Print Assumptions C13_refresher_delete_refuted.

(* --- the cached timestamp catches up: when a call (GetTimestamp, Wait, a refresher round) has returned ts — or has
       left setLastTS and is about to — the cached timestamp is >= ts, then and in every later state, for any number of
       threads, a fresh scope and any interleaving.  (This is what makes the fast paths sound: a timestamp the oracle has
       returned is validated / compared against the cache without asking PD: C13_validate_from_cache.) --- *)
Theorem C13_lowres_catches_up : forall (pd : nat -> Z) (pd_ns : Z -> Z),
  (forall a b, a <= b -> pd_ns a <= pd_ns b) ->
  forall n w0 es1 es2 t ts,
    let s1 := arun pd pd_ns (init_asys n w0) es1 in
    let s2 := arun pd pd_ns s1 es2 in
    (nth_error (athr s1) t = Some (ADone (Some ts)) \/ nth_error (athr s1) t = Some (ARet ts)) ->
    exists l a, arec s2 = Some (l, a) /\ ts <= l.
Proof. exact (fun pd pd_ns mono n w0 es1 es2 t ts => lowres_catches_up pd pd_ns mono _ es2 t ts (areach pd pd_ns mono n w0 es1)). Qed.
Print Assumptions C13_lowres_catches_up.

Theorem C13_validate_from_cache : forall st scope read stale pds l,
  get_last st scope = Some l -> read <= l -> validate_pre read stale = None ->
  validate_seq true st scope read stale pds = (st, VAccept, O).
Proof. exact validate_from_cache. Qed.
Print Assumptions C13_validate_from_cache.

(* --- the SEQUENTIAL case of "the CAS-level system implements the call-level fold": for the schedule seq_sched m that
       runs the calls one after the other (each thread gets nine scheduler slots) the system publishes exactly what
       Model.set_last (publish the maximum) computes, every call returns PD's answer, untouched threads stay idle.
       This is NOT a refinement proof for every schedule; for arbitrary schedules the corresponding facts are
       C13_lastts_monotone / C13_fresh_scope (never decreases, always issued) and C13_lowres_catches_up (>= every
       returned timestamp).  It justifies the call-level model used by the sequential driver classes. --- *)
Theorem C13_setlast_refines_sequential : forall (pd : nat -> Z) n m, (m <= n)%nat ->
  let s := run pd (init_sys n) (seq_sched m) in
  lowres s = get_last (seq_state pd m) 1 /\ issued s = m /\
  (forall j, (m <= j < n)%nat -> nth_error (thr s) j = Some idle_thread) /\
  (forall j, (j < m)%nat -> exists th, nth_error (thr s) j = Some th /\ tpc th = PDone (Some (pd j))).
Proof. exact seq_refines. Qed.
Print Assumptions C13_setlast_refines_sequential.

(* --- GetLowResolutionTimestamp over interval changes: the oracle as a whole = the GetTimestamp/setLastTS system next
       to the exact updateTS loop state (interval record, the loop's currentInterval, the shrink channel);
       SetLowResolutionTimestampUpdateInterval, ticks, received shrink requests and concurrent staleness adjustments may
       be interleaved anywhere: the cached value still never decreases and never exceeds the largest timestamp PD
       issued, and the loop keeps its invariant --- *)
Theorem C13_lowres_bounds_intervals : forall (pd : nat -> Z),
  (forall i j, (i < j)%nat -> pd i < pd j) ->
  forall n l0 es1 es2 v1 v2, linv l0 ->
    let s1 := prun pd (init_sys n, l0) es1 in
    let s2 := prun pd s1 es2 in
    linv (snd s2) /\
    (lowres (fst s1) = Some v1 -> lowres (fst s2) = Some v2 -> v1 <= v2 /\ v2 <= pd (issued (fst s2) - 1)%nat).
Proof. exact lowres_bounds_intervals. Qed.
Print Assumptions C13_lowres_bounds_intervals.

(* --- the adaptive update interval on the EXACT updateTS loop (ModelInt.lstep: ticker case, shrink-channel case with
       its three clock readings and the currentInterval comparison, SetLowResolutionTimestampUpdateInterval from any
       goroutine, non-blocking sends of concurrent staleness adjustments into the capacity-1 channel): for every
       sequence of these events from any configured interval, 0 < configured, min(500ms, configured) <= actual <=
       configured, and every request waiting in the channel is >= 1ms --- *)
Theorem C13_interval_bounds : forall c t0 ops, 0 < c ->
  let s := fold_left lstep ops (init_lstate c t0) in
  0 < cfg (li s) /\ Z.min min_interval (cfg (li s)) <= ada (li s) <= cfg (li s) /\
  (forall r, lch s = Some r -> 1000000 <= r).
Proof. exact (fun c t0 ops H => match lrun_inv ops _ (linv_init c t0 H) with conj (conj A B) C => conj A (conj B C) end). Qed.
Print Assumptions C13_interval_bounds.

(* a request waiting in the channel that is below the current interval shrinks it when the loop receives it — in that
   one step, whatever the three clock readings; the loop's currentInterval follows, the channel is free again; and a
   tick re-synchronises currentInterval with the record *)
Theorem C13_interval_shrinks : forall s req now1 now2 now3,
  linv s -> lch s = Some req -> min_interval < cfg (li s) -> req < ada (li s) -> min_interval < ada (li s) ->
  last_tick (li s) <= now1 -> now1 <= now2 -> now2 <= now3 ->
  let s' := lstep s (LRecv now1 now2 now3) in
  ada (li s') = Z.max (req - shrink_preserve) min_interval /\ ada (li s') < ada (li s) /\ min_interval <= ada (li s') /\
  istt (li s') = ISAdapting /\ lcur s' = ada (li s') /\ lch s' = None.
Proof. exact (fun s req now1 now2 now3 I Hc _ => lrecv_shrinks s req now1 now2 now3 I Hc). Qed.
Print Assumptions C13_interval_shrinks.

Theorem C13_interval_tick_syncs : forall s now, linv s -> last_tick (li s) <= now ->
  lcur (lstep s (LTick now)) = ada (li (lstep s (LTick now))) /\ last_tick (li (lstep s (LTick now))) = now.
Proof. exact ltick_syncs. Qed.
Print Assumptions C13_interval_tick_syncs.

(* the function nextUpdateInterval itself (what the differential drives through the in-package export) *)
Theorem C13_next_interval_shrinks : forall s now req,
  int_inv s -> min_interval < cfg s -> req <> 0 -> req < ada s -> min_interval < ada s ->
  let s' := fst (next_interval s now req) in
  ada s' = Z.max (req - shrink_preserve) min_interval /\ ada s' < ada s /\ min_interval <= ada s' /\ istt s' = ISAdapting /\
  snd (next_interval s now req) = ada s'.
Proof. exact (fun s now req I _ => next_interval_shrinks s now req I). Qed.
Print Assumptions C13_next_interval_shrinks.

(* --- GetStaleTimestamp (domain: prev < 2^33 s, physical < 2^43 ms, arrival <= now): error exactly when the cached
       physical second is not beyond prevSecond; monotone in the clock; not beyond the cached timestamp when the
       record is at most prevSecond old (and possibly beyond otherwise: _refuted); never in PD's future --- *)
Theorem C13_stale_ts : forall tso arr now prev,
  (stale_ts tso arr now prev = None <-> extract_physical tso / 1000 <= prev) /\
  (forall r, stale_dom tso arr now prev -> stale_ts tso arr now prev = Some r ->
     extract_logical r = 0 /\
     (now - arr <= prev * 1000000000 -> r <= tso) /\
     (forall now' r', stale_dom tso arr now' prev -> now <= now' -> stale_ts tso arr now' prev = Some r' -> r <= r')).
Proof. exact stale_ts_spec. Qed.
Print Assumptions C13_stale_ts.

Theorem C13_stale_beyond_last_refuted : exists tso arr now prev r,
  stale_dom tso arr now prev /\ stale_ts tso arr now prev = Some r /\ tso < r.
Proof. exact stale_beyond_last_refuted. Qed.
Print Assumptions C13_stale_beyond_last_refuted.

(* the future-staleness guard (TestNonFutureStaleTSO): pd_ns t = PD's clock (ns) at local time t, non-decreasing and
   not slower than the local clock; every setLastTS call (one at a time, clock readings not going backwards) carries
   a timestamp PD had issued by then.  Then the published record's arrival never goes back, its timestamp had been
   issued when it arrived, and the estimate computed from it at any later time never exceeds PD's current physical
   time minus prevSecond. *)
Theorem C13_stale_not_future_call_level : forall (pd_ns : Z -> Z),
  (forall a b, a <= b -> pd_ns a <= pd_ns b) ->
  forall calls t0, Forall (call_ok pd_ns) calls -> clock_sorted t0 calls ->
  forall l a, fold_left (fun r c => set_last_arr r (fst c) (snd c)) calls None = Some (l, a) ->
  a <= last_clock t0 calls /\
  forall now prev r, stale_dom l a now prev -> pd_ns a + (now - a) <= pd_ns now ->
    stale_ts l a now prev = Some r ->
    extract_physical r <= pd_ns now / 1000000 - prev * 1000 /\ extract_logical r = 0.
Proof. exact (fun pd_ns _ => stale_not_future_call_level pd_ns). Qed.
Print Assumptions C13_stale_not_future_call_level.

(* the arrival of the published record never goes back (call level) *)
Theorem C13_arrival_monotone_call_level : forall (pd_ns : Z -> Z), (forall a b, a <= b -> pd_ns a <= pd_ns b) -> forall calls t0 r,
  rec_ok pd_ns r t0 -> Forall (call_ok pd_ns) calls -> clock_sorted t0 calls ->
  rec_le r (fold_left (fun r c => set_last_arr r (fst c) (snd c)) calls r).
Proof. exact (fun pd_ns _ calls t0 r R F S => proj2 (arrival_run pd_ns calls r t0 R F S)). Qed.
Print Assumptions C13_arrival_monotone_call_level.

(* --- local.go: the local oracle is strictly increasing while its clock does not go backwards and fewer than
       2^18 calls fall into one millisecond (state = (lastTimeStampTS, n), previous result = their sum) --- *)
Theorem C13_local_monotone : forall m n now,
  0 <= m <= now -> now < two45 -> 0 <= n -> n + 1 < two18 ->
  let res := local_get_ts (go_time_to_ts m, n) now in
  go_time_to_ts m + n < snd res /\
  fst (fst res) = go_time_to_ts now /\ snd res = fst (fst res) + snd (fst res) /\ 0 <= snd (fst res) <= n + 1.
Proof. exact local_monotone. Qed.
Print Assumptions C13_local_monotone.

(* --- mock.go: MockOracle.GetTimestamp (serialised by its mutex): strictly increasing while clock+offset does not go
       back and fewer than 2^18 calls fall into one millisecond --- *)
Theorem C13_mock_monotone : forall last now,
  0 <= last -> extract_physical last <= now -> now < two45 -> extract_logical last + 1 < two18 ->
  last < mock_get_ts last now /\ extract_physical (mock_get_ts last now) = now.
Proof. exact mock_monotone. Qed.
Print Assumptions C13_mock_monotone.

(* --- local_external_timestamp.go (local and mock oracle), one call at a time: an accepted external timestamp is the
       requested one, never below the previous one and never beyond the oracle's current timestamp --- *)
Theorem C13_external_ts_call_level : forall ext cur nw e,
  set_external ext cur nw = Some e -> e = nw /\ ext <= e <= cur.
Proof. exact set_external_spec. Qed.
Print Assumptions C13_external_ts_call_level.

(* --- non-vacuity --- *)
Example ex_compose : compose_ts 1700000000000 5 = 445644800000000005 /\ extract_physical 445644800000000005 = 1700000000000.
Proof. vm_compute. split; reflexivity. Qed.
Example ex_expired : is_expired (Some (compose_ts 100 0)) (compose_ts 90 7) 10 = true /\ until_expired (Some (compose_ts 100 0)) (compose_ts 90 7) 11 = 1.
Proof. vm_compute. split; reflexivity. Qed.
Example ex_commit_wait_ok : commit_wait 100 1000000000 3 [Some 90; Some 100; Some 101] = (CwOk 101, 3%nat).
Proof. vm_compute. reflexivity. Qed.
Example ex_cw_registrations : cw_bound [100; 0; 50; 0] = 100 /\ commit_wait_regs [100; 0] 1000000000 3 [Some 90; Some 101] = (CwOk 101, 2%nat).
Proof. vm_compute. split; reflexivity. Qed.
Example ex_commit_consumer :
  commit_txn true (fun x => x) MAsync true 10 [100; 0] 1000000000 3 [Some 90; Some 101] = (Some 102, 102, 2%nat) /\
  commit_txn true (fun x => x) M1PC true 10 [] 1000000000 3 [Some 90] = (Some 11, 11, 0%nat) /\
  commit_txn true (fun x => x) M2PC true 10 [100] 1000000000 0 [Some 90; Some 101] = (None, 11, 1%nat) /\
  ts_with_retry 3 [None; None; Some 7] 0 = (Some 7, 3%nat).
Proof. vm_compute. repeat split; reflexivity. Qed.
Example ex_commit_wait_fuel : commit_wait 100 1000000000 1 [Some 90; Some 100; Some 101] = (CwErr, 2%nat).
Proof. vm_compute. reflexivity. Qed.
(* two calls race: the call holding the larger timestamp publishes first, the stale CAS of the other fails *)
Example ex_cas_race :
  let pd := fun k => Z.of_nat (10 + k) in
  let s := run pd (init_sys 2) [Ev 0; Ev 1; Ev 0; Ev 1; Ev 0; Ev 0; Ev 0; Ev 1; Ev 1; Ev 1; Ev 1; Ev 1; Ev 0; Ev 0; Ev 0; Ev 0; Ev 0] in
  lowres s = Some 11 /\ option_map tpc (nth_error (thr s) 0) = Some (PDone (Some 10)) /\ option_map tpc (nth_error (thr s) 1) = Some (PDone (Some 11)).
Proof. vm_compute. repeat split; reflexivity. Qed.
(* A starts a flight, B joins, A is cancelled, PD answers: only A fails *)
Example ex_cancel_isolated :
  let s := vrun Z.of_nat true (init_vsys 2)
     [EIssueEnv; EPublish 0; EBegin 0 1 false; EStep 0; EStep 0; EFlightIssue; EBegin 1 1 true; EStep 1; EStep 1;
      ECancel 0; EFlightFinish; EStep 1] in
  voutcome_of s 0 = Some OErr /\ voutcome_of s 1 = Some OAccept.
Proof. vm_compute. split; reflexivity. Qed.
Example ex_interval : let s0 := mkI 2000000000 2000000000 0 0 ISNormal in
  ada (fst (next_interval s0 1000000000 800000000)) = 700000000 /\ istt (fst (next_interval s0 1000000000 800000000)) = ISAdapting.
Proof. vm_compute. split; reflexivity. Qed.
(* a validator's adjustment queues a 800ms request, a second one is dropped (channel full), the loop receives it *)
Example ex_loop :
  let s0 := init_lstate 2000000000 0 in
  let now := 1700000000000000000 in
  let cur := compose_ts 1700000000000 0 in
  let s1 := lstep s0 (LAdjust (compose_ts (1700000000000 - 800) 0) cur now) in
  let s2 := lstep s1 (LAdjust (compose_ts (1700000000000 - 900) 0) cur now) in
  let s3 := lstep s2 (LRecv now now now) in
  lch s1 = Some 800000000 /\ lch s2 = Some 800000000 /\ ada (li s3) = 700000000 /\ lcur s3 = 700000000 /\ lch s3 = None.
Proof. vm_compute. repeat split; reflexivity. Qed.
Example ex_stale : stale_ts (compose_ts 1700000000000 7) 5000000000 5250000000 10 = Some (compose_ts 1699999990250 0).
Proof. vm_compute. reflexivity. Qed.
(* the arrival rule at work: thread 1 (newer ts 11) read the clock at 5, thread 0 (ts 10) at 9 and installed first *)
Example ex_arrival_rule :
  arec (arun (fun k => Z.of_nat (10 + k)) (fun w => w) (init_asys 2 0)
    [AEv 0; AEv 1; AEv 0; AEv 1; EClock 5; AEv 1; EClock 9; AEv 0; AEv 0; AEv 0; AEv 1; AEv 1; AEv 1; AEv 1]) = Some (11, 9).
Proof. vm_compute. reflexivity. Qed.
(* the last TTL inside the domain and the first one outside, lock physical 5, cached physical 7 *)
Example ex_expiry_boundary :
  let lock := compose_ts 5 2 in let last := Some (compose_ts 7 0) in
  (is_expired last lock (two63 - 5 - 1) = false /\ until_expired last lock (two63 - 5 - 1) = two63 - 1 - 7) /\
  (is_expired last lock (two63 - 5) = true /\ until_expired last lock (two63 - 5) = two63 - 7).
Proof. vm_compute. repeat split; reflexivity. Qed.
(* thread 1 lost the race (its ts 10 is older than the published 11) and returns: the cache is already ahead *)
Example ex_catches_up :
  let s := arun (fun k => Z.of_nat (10 + k)) (fun w => w) (init_asys 2 0)
             ([AEv 0; AEv 1; AEv 1; AEv 0] ++ repeat (AEv 0) 8 ++ repeat (AEv 1) 8) in
  nth_error (athr s) 1 = Some (ADone (Some 10)) /\ arec s = Some (11, 0).
Proof. vm_compute. split; reflexivity. Qed.
(* a refresher round (thread 1) scheduled first is not launched while the scope has no entry; after thread 0 has created
   it the round runs, and its PD failure leaves the cached 10 alone *)
Example ex_refresher_role :
  let role := fun t => Nat.eqb t 1 in
  let s := run_role (fun k => Z.of_nat (10 + k)) role (init_sys 2) ([Ev 1; Ev 1] ++ repeat (Ev 0) 9 ++ [Ev 1; EvFail 1]) in
  lowres s = Some 10 /\ option_map tpc (nth_error (thr s) 1) = Some (PDone None) /\
  option_map tpc (nth_error (thr (run_role (fun k => Z.of_nat (10 + k)) role (init_sys 2) [Ev 1; Ev 1])) 1) = Some PIdle.
Proof. vm_compute. repeat split; reflexivity. Qed.
Example ex_retry_accepts :
  voutcome_of (vrun Z.of_nat true (init_vsys 2) (no_retry_sched ++ [EStep 1; EStep 1; EFlightIssue; EFlightFinish; EStep 1])) 1 = Some OAccept.
Proof. exact retry_same_schedule. Qed.
