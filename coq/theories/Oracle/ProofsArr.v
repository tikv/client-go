(* Oracle/ProofsArr.v — the interleaving system with the (tso, arrival) record.  AInv keeps a ghost log of publications:
   a thread publishes at most once, so the owner of a record identifies it (AP) — which is what a successful
   CompareAndSwap on the pointer tells.  Every step keeps AInv and lowers neither the record nor the clock (ainv_step). *)
From Verif Require Import Oracle.Model Oracle.ModelSys Oracle.ModelArr Oracle.ModelInt Oracle.ProofsSys Oracle.ProofsInt.
From Coq Require Import Lia Arith.
Open Scope Z_scope.

Definition cell_ge (c : option (nat * (Z * Z))) (v la : Z) : Prop :=
  exists o v' la', c = Some (o, (v', la')) /\ v <= v' /\ la <= la'.
Definition inkey (t : nat) (l : list (nat * (Z * Z))) : Prop := exists r, In (t, r) l.

Section Proofs.
Variable pd : nat -> Z.
Variable pd_ns : Z -> Z.
Hypothesis pd_ns_mono : forall a b, a <= b -> pd_ns a <= pd_ns b.

Definition good (w : Z) (r : Z * Z) : Prop := extract_physical (fst r) * 1000000 <= pd_ns (snd r) /\ snd r <= w.

Definition agood (w : Z) (c : option (nat * (Z * Z))) (pb : list (nat * (Z * Z))) (t : nat) (p : apc) : Prop :=
  match p with
  | AIdle | AWaitPD => ~ inkey t pb
  | AClockRead ts => extract_physical ts * 1000000 <= pd_ns w /\ ~ inkey t pb
  | AMapLoad ts a | ALoadOrStore ts a => good w (ts, a) /\ ~ inkey t pb
  | ALoad ts a => good w (ts, a) /\ (inkey t pb -> cell_ge c ts a)
  | ACmp ts a o v la => good w (ts, a) /\ In (o, (v, la)) pb /\ cell_ge c v la /\ (inkey t pb -> ts <= v)
  | ACas ts a o v la => good w (ts, a) /\ In (o, (v, la)) pb /\ cell_ge c v la /\ v < ts /\ la <= a /\ ~ inkey t pb
  | ARet ts | ADone (Some ts) => exists la, cell_ge c ts la      (* the cached timestamp has caught up with ts *)
  | ADone None => True
  end.

Record AInv (s : asys) : Prop := {
  AP : forall o r r', In (o, r) (pubs s) -> In (o, r') (pubs s) -> r = r';
  AG : forall o r, In (o, r) (pubs s) -> good (wall s) r;
  AC : forall o r, acell s = Some (o, r) -> In (o, r) (pubs s);
  AT : forall t p, nth_error (athr s) t = Some p -> agood (wall s) (acell s) (pubs s) t p
}.

Lemma good_mono : forall w w' r, good w r -> w <= w' -> good w' r.
Proof. intros w w' r [A B] H. split; [exact A|lia]. Qed.

(* a thread's facts survive changes made by others: clock forward, cell upward, log extended by another key *)
Lemma agood_frame : forall w w' c c' pb pb' t p,
  agood w c pb t p -> w <= w' ->
  (forall v la, cell_ge c v la -> cell_ge c' v la) ->
  (forall x, In x pb -> In x pb') -> (inkey t pb' -> inkey t pb) ->
  agood w' c' pb' t p.
Proof.
  intros w w' c c' pb pb' t p H Hw Hc Hsub Hkey.
  assert (NK : ~ inkey t pb -> ~ inkey t pb') by (intros N K; apply N, Hkey, K).
  destruct p; cbn [agood] in *; auto.
  - destruct H as [A B]. split; [pose proof (pd_ns_mono w w' Hw); lia|auto].
  - destruct H as [A B]. split; [eapply good_mono; eauto|auto].
  - destruct H as [A B]. split; [eapply good_mono; eauto|auto].
  - destruct H as [A B]. split; [eapply good_mono; eauto|auto].
  - destruct H as [A [B [C D]]]. split; [eapply good_mono; eauto|]. split; [auto|]. split; [auto|]. auto.
  - destruct H as [A [B [C [D [E F]]]]]. split; [eapply good_mono; eauto|]. repeat split; auto.
  - destruct H as [la H]. exists la. auto.
  - destruct r as [ts|]; [destruct H as [la H]; exists la; auto|exact Logic.I].
Qed.

Lemma ainv_init : forall n w0, AInv (init_asys n w0).
Proof.
  intros n w0. constructor; cbn; try contradiction; try discriminate.
  intros t p H. apply nth_error_In, repeat_spec in H. subst p. cbn. intros [r []].
Qed.

Lemma cell_ge_refl : forall o v la, cell_ge (Some (o, (v, la))) v la.
Proof. intros. exists o, v, la. repeat split; lia. Qed.

Definition keeps (s s' : asys) : Prop := AInv s' /\ rec_le (arec s) (arec s') /\ wall s <= wall s'.

Lemma keeps_refl : forall s, AInv s -> keeps s s.
Proof. intros s I. split; [exact I|split; [apply rec_le_refl|lia]]. Qed.

Lemma ainv_put : forall s t p p',
  AInv s -> nth_error (athr s) t = Some p ->
  agood (wall s) (acell s) (pubs s) t p' ->
  keeps s (mkA (acell s) (aissued s) (wall s) (pubs s) (set_nth (athr s) t p')).
Proof.
  intros s t p p' [P G C T] Ht H. split; [constructor; cbn [acell pubs wall athr]; auto|split; [apply rec_le_refl|cbn; lia]].
  apply (set_nth_all _ _ _ _ _ _ Ht); auto.
Qed.

Lemma ainv_publish : forall s t p ts a p',
  AInv s -> nth_error (athr s) t = Some p ->
  ~ inkey t (pubs s) -> good (wall s) (ts, a) ->
  (forall v la, cell_ge (acell s) v la -> v <= ts /\ la <= a) ->
  agood (wall s) (Some (t, (ts, a))) ((t, (ts, a)) :: pubs s) t p' ->
  keeps s (mkA (Some (t, (ts, a))) (aissued s) (wall s) ((t, (ts, a)) :: pubs s) (set_nth (athr s) t p')).
Proof.
  intros s t p ts a p' [P G C T] Ht Hk Hg Hup H. split; [constructor; cbn [acell pubs wall athr]|split; [|cbn; lia]].
  - intros o r r' [E|I] [E'|I']; try congruence.
    + inversion E; subst. exfalso. apply Hk. eexists; eauto.
    + inversion E'; subst. exfalso. apply Hk. eexists; eauto.
    + eauto.
  - intros o r [E|I]; [inversion E; subst; exact Hg|eauto].
  - intros o r E. inversion E; subst. left; reflexivity.
  - apply (set_nth_all _ _ _ _ _ _ Ht); [|exact H]. intros u q E Hu.
    eapply agood_frame; [apply (T u q Hu)|lia| | |].
    + intros v la Hc. destruct (Hup v la Hc). exists t, ts, a. repeat split; auto.
    + intros x Hx. right; exact Hx.
    + intros [r [Er|Ir]]; [inversion Er; congruence|eexists; eauto].
  - unfold arec at 1. destruct (acell s) as [[o [v la]]|]; [apply (Hup v la), cell_ge_refl|exact Logic.I].
Qed.

Lemma ainv_step : forall s e, AInv s -> keeps s (astep pd pd_ns s e).
Proof.
  intros s e I. pose proof I as [P G C T]. pose proof (keeps_refl s I) as R.
  destruct e as [t|t|w]; cbn [astep].
  - destruct (nth_error (athr s) t) as [p|] eqn:Ht; [|exact R].
    pose proof (T t p Ht) as H. unfold athread_step.
    destruct p as [| |ts|ts a|ts a|ts a|ts a o v la|ts a o v la|ts|r]; cbn [agood] in H.
    + apply (ainv_put s t _ _ I Ht). exact H.
    + destruct (issue_ok pd pd_ns (aissued s) (wall s)) eqn:Ok; [|exact R].
      destruct (ainv_put s t _ (AClockRead (pd (aissued s))) I Ht) as [[P' G' C' T'] L].
      { cbn. split; [unfold issue_ok in Ok; lia|exact H]. }
      split; [constructor; auto|exact L].
    + destruct H as [A B]. apply (ainv_put s t _ _ I Ht). cbn. split; [split; cbn; [exact A|lia]|exact B].
    + destruct H as [A B]. destruct (acell s) as [c|] eqn:Hc; rewrite <- Hc; apply (ainv_put s t _ _ I Ht); cbn; auto. split; [exact A|intros K; contradiction].
    + destruct H as [A B]. destruct (acell s) as [c|] eqn:Hc.
      * rewrite <- Hc. apply (ainv_put s t _ _ I Ht). cbn. split; [exact A|intros K; contradiction].
      * eapply ainv_publish; eauto.
        -- rewrite Hc. intros v la [o [v' [la' [E _]]]]. discriminate.
        -- cbn. split; [exact A|]. intros _. apply cell_ge_refl.
    + destruct H as [A B]. destruct (acell s) as [[o [v la]]|] eqn:Hc; [|exact R].
      rewrite <- Hc. apply (ainv_put s t _ _ I Ht). cbn [agood]. rewrite Hc.
      split; [exact A|]. split; [apply C; reflexivity|]. split; [apply cell_ge_refl|].
      intros K. destruct (B K) as [o' [v' [la' [E [L1 L2]]]]]. inversion E; subst. lia.
    + destruct H as [A [B [Cg D]]]. destruct (ts <=? v) eqn:Le.
      * apply (ainv_put s t _ _ I Ht). cbn [agood]. destruct Cg as [o' [v' [la' [Ec [L1 L2]]]]].
        exists la'. exists o', v', la'. repeat split; auto; lia.
      * (* the arrival rule: the record to be swapped in takes the later of the two arrivals *)
        apply (ainv_put s t _ _ I Ht). cbn. pose proof (G o (v, la) B) as [_ Gla]. cbn in Gla.
        destruct A as [A1 A2]. cbn in A1, A2. set (m := if a <? la then la else a).
        assert (Ha : a <= m /\ la <= m /\ m <= wall s) by (unfold m; destruct (a <? la) eqn:Ea; lia).
        destruct Ha as [Ha1 [Ha2 Ha3]].
        split; [split; cbn [fst snd]; [pose proof (pd_ns_mono _ _ Ha1); lia|lia]|].
        split; [exact B|]. split; [exact Cg|]. split; [lia|]. split; [lia|].
        intros K. specialize (D K). lia.
    + destruct H as [A [B [Cg [D [E F]]]]]. destruct (acell s) as [[o' r']|] eqn:Hc.
      * destruct (Nat.eqb o' o) eqn:Eo.
        -- (* the swap succeeds on the record this call loaded: each thread publishes once, so owner o means (v, la) *)
           apply Nat.eqb_eq in Eo; subst o'. eapply ainv_publish; eauto.
           ++ rewrite Hc. intros v0 la0 [o1 [v1 [la1 [E1 [L1 L2]]]]]. injection E1 as E1a E1b. subst o1 r'.
              pose proof (P o (v1, la1) (v, la) (C o (v1, la1) eq_refl) B) as Er. injection Er as Er1 Er2. lia.
           ++ cbn [agood]. exists a. apply cell_ge_refl.
        -- rewrite <- Hc. apply (ainv_put s t _ _ I Ht). cbn. split; [exact A|intros K; contradiction].
      * rewrite <- Hc. apply (ainv_put s t _ _ I Ht). cbn. split; [exact A|intros K; contradiction].
    + apply (ainv_put s t _ _ I Ht). exact H.
    + exact R.
  - destruct (nth_error (athr s) t) as [p|] eqn:Ht; [|exact R]. destruct p; try exact R.
    apply (ainv_put s t _ _ I Ht). exact Logic.I.
  - destruct (wall s <? w) eqn:E; [|exact R]. split; [constructor; cbn [acell pubs wall athr]; auto|split; [apply rec_le_refl|cbn; lia]].
    + intros o r H. eapply good_mono; [apply (G o r H)|lia].
    + intros t p H. eapply agood_frame; [apply (T t p H)|lia|auto|auto|auto].
Qed.

Lemma arun_keeps : forall es s, AInv s -> keeps s (arun pd pd_ns s es).
Proof.
  intros es s I. apply (fold_inv _ _ (astep pd pd_ns) (keeps s)); [|exact (keeps_refl s I)].
  intros a e [Ia [La Wa]]. destruct (ainv_step a e Ia) as [Ib [Lb Wb]].
  split; [exact Ib|split; [exact (rec_le_trans _ _ _ La Lb)|lia]].
Qed.

(* n threads (callers and refresher rounds alike), fresh scope, any interleaving, any clock advances *)
Lemma areach : forall n w0 es, AInv (arun pd pd_ns (init_asys n w0) es).
Proof. intros n w0 es. apply arun_keeps, ainv_init. Qed.

(* the published record arrived in the past, and its timestamp had been issued (by PD's clock) when it arrived *)
Lemma arec_good : forall s r, AInv s -> arec s = Some r -> good (wall s) r.
Proof.
  intros s r [_ G C _] H. unfold arec in H. destruct (acell s) as [[o r']|] eqn:Hc; [|discriminate]. injection H as ->.
  exact (G o r (C o r eq_refl)).
Qed.

(* the cached timestamp has caught up with every timestamp a call returned (or is about to return), at the return and
   forever after *)
Lemma lowres_catches_up : forall s es t ts, AInv s ->
  (nth_error (athr s) t = Some (ADone (Some ts)) \/ nth_error (athr s) t = Some (ARet ts)) ->
  exists l a, arec (arun pd pd_ns s es) = Some (l, a) /\ ts <= l.
Proof.
  intros s es t ts I H.
  assert (K : exists la, cell_ge (acell s) ts la) by (destruct H as [H|H]; exact (AT _ I t _ H)).
  destruct K as [la [o [v' [la' [E [L1 L2]]]]]]. destruct (arun_keeps es s I) as [_ [M _]].
  unfold arec in M at 1. rewrite E in M. destruct (arec (arun pd pd_ns s es)) as [[l2 a2]|]; [|contradiction].
  exists l2, a2. split; [reflexivity|cbn in M; lia].
Qed.

End Proofs.
