(* Oracle/ProofsArith.v — ComposeTS / Extract, expiry, commit wait, the call-level cache, local and mock oracle.
   All division and remainder by 2^18 goes through extract_spec: with two18 unfolded to its numeral the
   decomposition ts = physical * 2^18 + logical is linear, and plain lia does the rest. *)
From Verif Require Import Oracle.Model.
From Coq Require Import Lia ZifyBool.
Open Scope Z_scope.

Lemma wrap_i64_id : forall z, - two63 <= z < two63 -> wrap_i64 z = z.
Proof. intros z H. unfold wrap_i64. rewrite Z.mod_small; unfold two63, two64 in *; lia. Qed.
Lemma wrap_u64_id : forall z, 0 <= z < two64 -> wrap_u64 z = z.
Proof. intros z H. apply Z.mod_small, H. Qed.

Lemma extract_spec : forall ts,
  ts = extract_physical ts * two18 + extract_logical ts /\ 0 <= extract_logical ts < two18.
Proof.
  intros ts. unfold extract_physical, extract_logical. split.
  - rewrite Z.mul_comm. apply Z.div_mod. discriminate.
  - apply Z.mod_pos_bound. reflexivity.
Qed.

Lemma extract_shift : forall p l, 0 <= l < two18 ->
  extract_physical (p * two18 + l) = p /\ extract_logical (p * two18 + l) = l.
Proof. intros p l H. pose proof (extract_spec (p * two18 + l)). unfold two18 in *. lia. Qed.

Definition u64 (z : Z) : Prop := 0 <= z < two64.

Lemma extract_physical_u64 : forall ts, u64 ts -> 0 <= extract_physical ts < two46.
Proof. intros ts H. pose proof (extract_spec ts). unfold u64, two18, two46, two64 in *. lia. Qed.

Definition two45 : Z := 35184372088832.
Definition pl_range (p l : Z) : Prop := 0 <= p < two45 /\ 0 <= l < two18.

Lemma compose_exact : forall p l, pl_range p l -> compose_ts p l = p * two18 + l.
Proof.
  intros p l [Hp Hl]. unfold compose_ts.
  rewrite (wrap_i64_id (p * two18)) by (unfold two45, two18, two63 in *; lia).
  rewrite wrap_i64_id by (unfold two45, two18, two63 in *; lia).
  apply wrap_u64_id. unfold two45, two18, two64 in *; lia.
Qed.

Lemma compose_extract : forall p l, 0 <= p < two45 -> 0 <= l < two18 ->
  extract_physical (compose_ts p l) = p /\ extract_logical (compose_ts p l) = l /\
  (forall p' l', 0 <= p' < two45 -> 0 <= l' < two18 ->
     (compose_ts p l < compose_ts p' l' <-> (p < p' \/ (p = p' /\ l < l')))).
Proof.
  intros p l Hp Hl. rewrite (compose_exact p l (conj Hp Hl)). destruct (extract_shift p l Hl) as [-> ->].
  split; [reflexivity|split; [reflexivity|]]. intros p' l' Hp' Hl'. rewrite (compose_exact p' l' (conj Hp' Hl')).
  unfold two18 in *. lia.
Qed.

Lemma compose_injective : forall p l p' l', pl_range p l -> pl_range p' l' ->
  compose_ts p l = compose_ts p' l' -> p = p' /\ l = l'.
Proof.
  intros p l p' l' H H'. rewrite (compose_exact _ _ H), (compose_exact _ _ H').
  destruct H as [Hp Hl], H' as [Hp' Hl']. unfold two18 in *. lia.
Qed.

Lemma extract_compose : forall ts, 0 <= ts < two63 ->
  compose_ts (extract_physical ts) (extract_logical ts) = ts.
Proof.
  intros ts H. destruct (extract_spec ts) as [E L]. rewrite compose_exact; [symmetry; exact E|].
  split; [unfold two45, two18, two63 in *; lia|exact L].
Qed.

(* inside the domain neither the int64 conversion of TTL nor the two int64 additions wrap *)
Lemma expiry_exact : forall l lock ttl,
  u64 lock -> u64 l -> 0 <= ttl < two63 - extract_physical lock ->
  is_expired (Some l) lock ttl = (extract_physical lock + ttl <=? extract_physical l) /\
  until_expired (Some l) lock ttl = extract_physical lock + ttl - extract_physical l.
Proof.
  intros l lock ttl Hlock Hl Httl. cbn [is_expired until_expired].
  pose proof (extract_physical_u64 lock Hlock). pose proof (extract_physical_u64 l Hl).
  rewrite (wrap_i64_id ttl) by (unfold two46, two63 in *; lia).
  rewrite (wrap_i64_id (extract_physical lock + ttl)) by (unfold two46, two63 in *; lia).
  rewrite wrap_i64_id by (unfold two46, two63 in *; lia). split; reflexivity.
Qed.

(* the exact domain: TTL < 2^63 - physical(lockTS)  (physical < 2^46, so every TTL < 2^63 - 2^46 qualifies) *)
Lemma expiry_consistent : forall last lock ttl,
  u64 lock -> (forall l, last = Some l -> u64 l) -> 0 <= ttl < two63 - extract_physical lock ->
  (is_expired last lock ttl = true <-> until_expired last lock ttl <= 0).
Proof.
  intros [l|] lock ttl Hlock Hlast Httl; [|cbn; split; [lia|reflexivity]].
  destruct (expiry_exact l lock ttl Hlock (Hlast l eq_refl) Httl) as [-> ->]. lia.
Qed.

Lemma expiry_consistent_ttl62 : forall last lock ttl,
  u64 lock -> (forall l, last = Some l -> u64 l) -> 0 <= ttl < two62 ->
  (is_expired last lock ttl = true <-> until_expired last lock ttl <= 0).
Proof.
  intros last lock ttl Hlock Hlast Httl. apply expiry_consistent; [exact Hlock|exact Hlast|].
  pose proof (extract_physical_u64 lock Hlock). unfold two46, two62, two63 in *. lia.
Qed.

(* the boundary is sharp: for every lock and every cached ts with a positive physical part, the first TTL outside
   the domain, 2^63 - physical(lockTS), makes the int64 sum wrap to -2^63 and the two answers disagree *)
Lemma expiry_boundary_sharp : forall lock l,
  u64 lock -> u64 l -> 1 <= extract_physical l ->
  let ttl := two63 - extract_physical lock in
  is_expired (Some l) lock ttl = true /\ 0 < until_expired (Some l) lock ttl.
Proof.
  intros lock l Hlock Hl Hp. cbn [is_expired until_expired].
  pose proof (extract_physical_u64 lock Hlock). pose proof (extract_physical_u64 l Hl).
  set (p := extract_physical lock) in *. set (q := extract_physical l) in *.
  assert (W1 : wrap_i64 (p + wrap_i64 (two63 - p)) = - two63)
    by (unfold wrap_i64, two63, two64, two46 in *; Z.div_mod_to_equations; lia).
  assert (W2 : wrap_i64 (- two63 - q) = two63 - q)
    by (unfold wrap_i64, two63, two64, two46 in *; Z.div_mod_to_equations; lia).
  rewrite W1, W2. unfold two63, two46 in *. lia.
Qed.

(* TTL = MaxInt64 is that boundary for a lock whose physical part is 1 *)
Lemma expiry_wide_ttl_refuted : exists last lock ttl,
  u64 lock /\ u64 last /\ u64 ttl /\
  ~ (is_expired (Some last) lock ttl = true <-> until_expired (Some last) lock ttl <= 0).
Proof.
  assert (U : u64 two18) by (split; discriminate || reflexivity).
  exists two18, two18, max_int64. split; [exact U|split; [exact U|split; [split; discriminate || reflexivity|]]].
  destruct (expiry_boundary_sharp two18 two18 U U) as [E P]; [discriminate|].
  change (two63 - extract_physical two18) with max_int64 in E, P. intros [H _]. specialize (H E). lia.
Qed.

Lemma cw_loop_spec : forall fuel bound ts script calls r c,
  cw_loop fuel bound ts script calls = (r, c) ->
  (c <= calls + fuel)%nat /\ forall ts', r = CwOk ts' -> bound < ts' /\ (ts' = ts \/ In (Some ts') script).
Proof.
  induction fuel as [|f IH]; intros bound ts script calls r c H; cbn [cw_loop] in H;
    (destruct (ts <=? bound) eqn:E;
       [|injection H as <- <-; split; [lia|intros ts' [= <-]; split; [lia|left; reflexivity]]]).
  - injection H as <- <-. split; [lia|discriminate].
  - destruct script as [|[ts1|] rest]; try (injection H as <- <-; split; [lia|discriminate]).
    destruct (IH _ _ _ _ _ _ H) as [A B]. split; [lia|]. intros ts' Hr. destruct (B ts' Hr) as [B1 [->|B2]].
    + split; [exact B1|right; left; reflexivity].
    + split; [exact B1|right; right; exact B2].
Qed.

Lemma commit_wait_spec : forall bound ms fuel script r c, commit_wait bound ms fuel script = (r, c) ->
  (c <= 1 + fuel)%nat /\ forall ts, r = CwOk ts -> bound < ts /\ In (Some ts) script.
Proof.
  intros bound ms fuel script r c H. unfold commit_wait in H.
  destruct script as [|[first|] rest]; try (injection H as <- <-; split; [lia|discriminate]).
  destruct (bound <? first) eqn:E1.
  - injection H as <- <-. split; [lia|]. intros ts [= <-]. split; [lia|left; reflexivity].
  - destruct (ms =? 0); [injection H as <- <-; split; [lia|discriminate]|].
    destruct (ms <? ts_time_sub bound first); [injection H as <- <-; split; [lia|discriminate]|].
    destruct (cw_loop_spec _ _ _ _ _ _ _ H) as [A B]. split; [lia|]. intros ts Hr.
    destruct (B ts Hr) as [B1 [->|B2]]; (split; [exact B1|]); [left; reflexivity|right; exact B2].
Qed.

(* SetCommitWaitUntilTSO: the constraint in effect is the maximum over the registration sequence *)
Lemma set_cw_fold : forall regs c, c <= fold_left set_cw regs c /\ (forall r, In r regs -> r <= fold_left set_cw regs c) /\
  (fold_left set_cw regs c = c \/ In (fold_left set_cw regs c) regs).
Proof.
  induction regs as [|x regs IH]; intros c; cbn [fold_left].
  - split; [lia|split; [intros r []|left; reflexivity]].
  - destruct (IH (set_cw c x)) as [A [B C]]. unfold set_cw in *. destruct (c <? x) eqn:E.
    + split; [lia|split].
      * intros r [<-|H]; [exact A|apply B, H].
      * destruct C as [C|C]; [right; left; symmetry; exact C|right; right; exact C].
    + split; [exact A|split].
      * intros r [<-|H]; [lia|apply B, H].
      * destruct C as [C|C]; [left; exact C|right; right; exact C].
Qed.

Lemma commit_wait_regs_ok : forall regs ms fuel script ts c,
  commit_wait_regs regs ms fuel script = (CwOk ts, c) ->
  (forall r, In r regs -> r < ts) /\ 0 < ts /\ In (Some ts) script.
Proof.
  intros regs ms fuel script ts c H. destruct (proj2 (commit_wait_spec _ _ _ _ _ _ H) ts eq_refl) as [A B].
  destruct (set_cw_fold regs 0) as [F0 [F1 _]]. unfold cw_bound in A. split; [|split; [lia|exact B]].
  intros r Hr. specialize (F1 r Hr). lia.
Qed.

Lemma lookup_update_same : forall st s v, lookup (update st s v) s = Some v.
Proof. induction st as [|[k w] r IH]; intros s v; cbn [update lookup]; [rewrite Z.eqb_refl; reflexivity|].
  destruct (k =? s) eqn:E; cbn [lookup]; rewrite E; auto. Qed.
Lemma lookup_update_other : forall st s s' v, s <> s' -> lookup (update st s v) s' = lookup st s'.
Proof. induction st as [|[k w] r IH]; intros s s' v H; cbn [update lookup].
  - destruct (s =? s') eqn:E; [lia|reflexivity].
  - destruct (k =? s) eqn:E; cbn [lookup]; [|rewrite IH by assumption; reflexivity].
    assert (k = s) by lia; subst. destruct (s =? s') eqn:E'; [lia|reflexivity]. Qed.

Lemma set_last_max : forall st scope ts,
  get_last (set_last st scope ts) scope =
  Some (match get_last st scope with Some l => Z.max l ts | None => ts end).
Proof.
  intros st scope ts. unfold set_last. destruct (get_last st scope) as [l|] eqn:E.
  - destruct (ts <=? l) eqn:C.
    + rewrite E. f_equal. lia.
    + unfold get_last. rewrite lookup_update_same. f_equal. lia.
  - unfold get_last. rewrite lookup_update_same. reflexivity.
Qed.

Lemma validate_from_cache : forall st scope read stale pds l,
  get_last st scope = Some l -> read <= l -> validate_pre read stale = None ->
  validate_seq true st scope read stale pds = (st, VAccept, O).
Proof.
  intros st scope read stale pds l H Hle Hpre. unfold validate_seq. cbn [negb]. rewrite Hpre.
  cbn [validate_loop]. rewrite H. assert (E : (read <=? l) = true) by lia. rewrite E. reflexivity.
Qed.

Lemma go_time_exact : forall m, 0 <= m < two45 -> go_time_to_ts m = m * two18.
Proof.
  intros m H. unfold go_time_to_ts. rewrite wrap_i64_id by (unfold two45, two18, two63 in *; lia).
  apply wrap_u64_id. unfold two45, two18, two64 in *; lia.
Qed.

(* state (lastTimeStampTS, n) with lastTimeStampTS = GoTimeToTS(m): the previous call returned
   lastTimeStampTS + n.  The next call at time now >= m returns something larger, provided fewer
   than 2^18 calls fall into one millisecond. *)
Lemma local_monotone : forall m n now,
  0 <= m <= now -> now < two45 -> 0 <= n -> n + 1 < two18 ->
  let res := local_get_ts (go_time_to_ts m, n) now in
  go_time_to_ts m + n < snd res /\
  fst (fst res) = go_time_to_ts now /\ snd res = fst (fst res) + snd (fst res) /\ 0 <= snd (fst res) <= n + 1.
Proof.
  intros m n now Hm Hnow Hn Hn1. cbv zeta. unfold local_get_ts.
  rewrite (go_time_exact m) by lia. rewrite (go_time_exact now) by lia.
  destruct (m * two18 =? now * two18) eqn:E; cbn [fst snd].
  - assert (m = now) by (unfold two18 in *; lia). subst.
    rewrite wrap_u64_id by (unfold two45, two18, two64 in *; lia). repeat split; lia.
  - assert (m < now) by (unfold two18 in *; lia). unfold two18 in *. repeat split; lia.
Qed.

Lemma mock_monotone : forall last now,
  0 <= last -> extract_physical last <= now -> now < two45 -> extract_logical last + 1 < two18 ->
  last < mock_get_ts last now /\ extract_physical (mock_get_ts last now) = now.
Proof.
  intros last now H0 Hp Hn Hl. unfold mock_get_ts.
  pose proof (extract_spec last). pose proof (extract_spec (now * two18)). pose proof (extract_spec (last + 1)).
  rewrite (go_time_exact now) by (unfold two18 in *; lia).
  destruct (extract_physical last =? extract_physical (now * two18)) eqn:C.
  - rewrite wrap_u64_id by (unfold two18, two45, two64 in *; lia). unfold two18 in *. lia.
  - unfold two18 in *. lia.
Qed.

Lemma set_external_spec : forall ext cur nw e, set_external ext cur nw = Some e -> e = nw /\ ext <= e <= cur.
Proof.
  intros ext cur nw e H. unfold set_external in H.
  destruct (cur <? nw) eqn:A; [discriminate|]. destruct (nw <? ext) eqn:B; [discriminate|]. injection H as <-. lia.
Qed.
