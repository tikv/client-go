(* Oracle/ProofsFresh.v — first use of a txn scope.  ModelSys starts from init_sys n whose cell is None:
   the scope has NO entry yet, lastTSMap.Load (PMapLoad) and LoadOrStore (PLoadOrStore) are separate
   interleavable steps of every caller, so all the theorems about run pd (init_sys n) es are theorems about n
   concurrent FIRST users of a fresh scope.  This file spells out the LoadOrStore facts and refutes the variant
   that publishes the first timestamp with Store + return. *)
From Verif Require Import Oracle.Model Oracle.ModelSys Oracle.ProofsSys.
From Coq Require Import Lia Arith.
Open Scope Z_scope.

Section Fresh.
Variable pd : nat -> Z.

(* LoadOrStore: a first caller installs its own record only if there is still no entry; a caller that lost the
   race installs nothing, keeps the winner's record and falls into the CAS loop (PLoad) *)
Lemma load_or_store_spec : forall s t th ts,
  nth_error (thr s) t = Some th -> tpc th = PLoadOrStore ts ->
  let s' := step pd s (Ev t) in
  (cell s = None -> cell s' = Some (t, ts)) /\
  (forall c, cell s = Some c -> cell s' = Some c) /\
  exists th', nth_error (thr s') t = Some th' /\ tpc th' = PLoad ts.
Proof.
  intros s t th ts Ht Hp. cbv zeta. cbn [step]. rewrite Ht. unfold thread_step. rewrite Hp.
  destruct (cell s) as [c|] eqn:Hc; cbn [cell thr]; (split; [intros; congruence|split; [intros; congruence|]]);
    rewrite nth_error_set_nth, Nat.eqb_refl, Ht; eexists; split; reflexivity.
Qed.

End Fresh.

(* same system, except that a caller that saw no entry publishes with an unconditional Store and returns *)
Definition step_store (pd : nat -> Z) (s : sys) (e : event) : sys :=
  match e with
  | Ev t =>
      match nth_error (thr s) t with
      | Some th =>
          match tpc th with
          | PLoadOrStore ts => mkSys (Some (t, ts)) (issued s) (S (clock s)) (set_nth (thr s) t (with_pc th (PRet ts)))
          | _ => step pd s e
          end
      | None => step pd s e
      end
  | _ => step pd s e
  end.

(* two first callers: both miss, the newer one stores, the older one stores last: the cached value goes back *)
Definition store_sched : list event := [Ev 0; Ev 1; Ev 0; Ev 1; Ev 0; Ev 1; Ev 1; Ev 0].

Lemma store_variant_refuted :
  exists (pd : nat -> Z), (forall i j, (i < j)%nat -> pd i < pd j) /\
  exists n es1 es2 v1 v2,
    lowres (fold_left (step_store pd) es1 (init_sys n)) = Some v1 /\
    lowres (fold_left (step_store pd) (es1 ++ es2) (init_sys n)) = Some v2 /\ v2 < v1.
Proof.
  exists (fun k => Z.of_nat (10 + k)). split; [intros; lia|].
  exists 2%nat, (firstn 7 store_sched), (skipn 7 store_sched), 11, 10. vm_compute. repeat split; reflexivity.
Qed.

(* the same schedule on the real system: the loser of LoadOrStore falls into the CAS loop and gives up *)
Lemma store_sched_real : lowres (run (fun k => Z.of_nat (10 + k)) (init_sys 2) (store_sched ++ [Ev 0; Ev 0; Ev 0])) = Some 11.
Proof. vm_compute. reflexivity. Qed.

(* updateTS.doUpdate, for every scope that has an entry: ts := getTimestamp(); setLastTS(ts, scope) — the same
   steps as a foreground GetTimestamp: a refresher round IS one of the n threads of ModelSys (it is merely never
   the first user of a scope), so every theorem over run pd (init_sys n) es quantifies over it as well.
   The variant below lets the threads flagged by `refresher` publish with a plain Store on the entry instead of
   the CAS loop; with no thread flagged it is the real system, with one flagged it is refuted. *)
Definition step_rstore (pd : nat -> Z) (refresher : nat -> bool) (s : sys) (e : event) : sys :=
  match e with
  | Ev t =>
      match nth_error (thr s) t with
      | Some th =>
          match tpc th, cell s with
          | PMapLoad ts, Some _ =>
              if refresher t
              then mkSys (Some (t, ts)) (issued s) (S (clock s)) (set_nth (thr s) t (with_pc th (PRet ts)))
              else step pd s e
          | _, _ => step pd s e
          end
      | None => step pd s e
      end
  | _ => step pd s e
  end.

Lemma step_rstore_none : forall pd s e, step_rstore pd (fun _ => false) s e = step pd s e.
Proof.
  intros pd s e. destruct e as [t|t]; cbn [step_rstore]; auto.
  destruct (nth_error (thr s) t) as [th|]; auto. destruct (tpc th); auto. destruct (cell s); auto.
Qed.

(* thread 0 = foreground caller that created the entry, thread 1 = refresher round whose PD answer (allocated
   first among the two later ones) lands after foreground thread 2 has cached a later timestamp *)
Definition rstore_sched : list event :=
  repeat (Ev 0) 9 ++ [Ev 1; Ev 1; Ev 2; Ev 2] ++ repeat (Ev 2) 7 ++ [Ev 1].

Lemma rstore_variant_refuted :
  exists (pd : nat -> Z), (forall i j, (i < j)%nat -> pd i < pd j) /\
  exists n refresher es1 es2 v1 v2,
    lowres (fold_left (step_rstore pd refresher) es1 (init_sys n)) = Some v1 /\
    lowres (fold_left (step_rstore pd refresher) (es1 ++ es2) (init_sys n)) = Some v2 /\ v2 < v1.
Proof.
  exists (fun k => Z.of_nat (10 + k)). split; [intros; lia|].
  exists 3%nat, (fun t => Nat.eqb t 1), (firstn 20 rstore_sched), (skipn 20 rstore_sched), 12, 11.
  vm_compute. repeat split; reflexivity.
Qed.

Lemma rstore_sched_real :
  lowres (run (fun k => Z.of_nat (10 + k)) (init_sys 3) (rstore_sched ++ repeat (Ev 1) 6)) = Some 12.
Proof. vm_compute. reflexivity. Qed.

(* the variant that drops the entry of the scope when a refresher round fails *)
Definition step_rdelete (pd : nat -> Z) (refresher : nat -> bool) (s : sys) (e : event) : sys :=
  match e with
  | EvFail t =>
      let s' := step pd s e in
      match nth_error (thr s) t with
      | Some th => match tpc th with
                   | PWaitPD => if refresher t then mkSys None (issued s') (clock s') (thr s') else s'
                   | _ => s'
                   end
      | None => s'
      end
  | _ => step pd s e
  end.

Lemma step_rdelete_none : forall pd s e, step_rdelete pd (fun _ => false) s e = step pd s e.
Proof.
  intros pd s e. destruct e as [t|t]; cbn [step_rdelete]; auto.
  destruct (nth_error (thr s) t) as [th|]; auto. destruct (tpc th); auto.
Qed.

(* thread 0 creates the entry (10); thread 1's answer (11) is issued but arrives late; thread 2 caches 12;
   refresher round 3 fails and drops the entry; thread 1's late answer re-creates it with 11 *)
Definition rdelete_sched : list event :=
  repeat (Ev 0) 9 ++ [Ev 1; Ev 1] ++ repeat (Ev 2) 9 ++ [Ev 3; EvFail 3] ++ repeat (Ev 1) 7.

Lemma rdelete_variant_refuted :
  exists (pd : nat -> Z), (forall i j, (i < j)%nat -> pd i < pd j) /\
  exists n refresher es1 es2 v1 v2,
    lowres (fold_left (step_rdelete pd refresher) es1 (init_sys n)) = Some v1 /\
    lowres (fold_left (step_rdelete pd refresher) (es1 ++ es2) (init_sys n)) = Some v2 /\ v2 < v1.
Proof.
  exists (fun k => Z.of_nat (10 + k)). split; [intros; lia|].
  exists 4%nat, (fun t => Nat.eqb t 3), (firstn 20 rdelete_sched), (skipn 20 rdelete_sched), 12, 11.
  vm_compute. repeat split; reflexivity.
Qed.

Lemma rdelete_sched_real :
  lowres (run (fun k => Z.of_nat (10 + k)) (init_sys 4) rdelete_sched) = Some 12.
Proof. vm_compute. reflexivity. Qed.

(* updateTS.doUpdate logs a failed getTimestamp and goes on.  A refresher round that was launched (it waits for PD) and
   whose PD request fails: the published record is untouched, the round ends with an error, and the run goes on as
   any run does (ProofsSys.refresher) *)
Lemma refresher_failure : forall (pd : nat -> Z) (role : nat -> bool) s t th es2, Inv pd role s ->
  role t = true -> nth_error (thr s) t = Some th -> tpc th = PWaitPD ->
  let s' := step_role pd role s (EvFail t) in
  let s2 := run_role pd role s' es2 in
  cell s' = cell s /\ lowres s <> None /\
  (exists th', nth_error (thr s') t = Some th' /\ tpc th' = PDone None) /\
  ole (lowres s) (lowres s2) /\ lowres s2 <> None /\
  (forall v, lowres s2 = Some v -> exists i, (i < issued s2)%nat /\ v = pd i).
Proof.
  intros pd role s t th es2 I Hr Ht Hp s' s2.
  destruct (refresher pd role s [] I) as [_ [_ [_ R]]].
  assert (L : lowres s <> None) by (apply (R t th Ht Hr); rewrite Hp; discriminate).
  destruct (refresher pd role s (EvFail t :: es2) I) as [M [St [B _]]].
  assert (E : s' = mkSys (cell s) (issued s) (S (clock s))
                (set_nth (thr s) t (mkThread (PDone None) O (tinvk th) (tinvt th) (issued s) (clock s))))
    by (unfold s'; cbn [step_role step]; rewrite Ht, Hp; reflexivity).
  split; [rewrite E; reflexivity|split; [exact L|split]].
  - rewrite E. cbn [thr]. rewrite nth_error_set_nth, Nat.eqb_refl, Ht. eexists; split; reflexivity.
  - split; [exact M|split; [exact (St L)|exact B]].
Qed.
