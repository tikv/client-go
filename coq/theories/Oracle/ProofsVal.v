(* Oracle/ProofsVal.v — ValidateReadTS + single flight.  VInv: a validator that is retrying, or holds a result, only
   meets flights created after its call began (late), so what such a flight fetches exceeds everything PD had issued
   before the call — that is why one retry is enough.  CInv: a failed result reaches validator u only through a failed
   flight or u's own cancellation. *)
From Verif Require Import Oracle.Model Oracle.ModelSys Oracle.ModelVal Oracle.ProofsSys.
From Coq Require Import Lia Arith.
Open Scope Z_scope.

Lemma pre_outcome_spec : forall read stale o, pre_outcome read stale = Some o ->
  (o = OAccept -> read = max_uint64) /\ (forall c, o <> OReject c) /\ o <> OErr.
Proof.
  intros read stale o H. unfold pre_outcome, validate_pre in H.
  destruct ((max_int64 <=? read) && (read <? max_uint64)); [injection H as <-; repeat split; intros; discriminate|].
  destruct (read =? max_uint64) eqn:E; [|discriminate].
  destruct stale; injection H as <-; repeat split; intros; try discriminate. lia.
Qed.

Section Proofs.
Variable pd : nat -> Z.
Hypothesis pd_strict : forall i j, (i < j)%nat -> pd i < pd j.

(* the flight in the map, if any, was created after th's call began: what it fetches is news to th *)
Definition late (fl : option flightrec) (th : vthread) : Prop :=
  forall f, fl = Some f -> (vbegk th <= ffloor f)%nat.

(* A retrying validator only accepts news.  A result in hand (VGot) is an issued timestamp, and news if the validator
   was retrying when it joined; the flight that delivered it has left the map, so whatever is there now is late. *)
Definition vgood (k : nat) (fl : option flightrec) (th : vthread) : Prop :=
  (vbegk th <= k)%nat /\
  match vp th with
  | VIdle => True
  | VCheck | VJoin => vretry th = true -> late fl th
  | VWait g => (exists f, fl = Some f /\ fid f = g) /\ (vretry th = true -> late fl th)
  | VGot r => late fl th /\ forall v, r = Some v ->
      (exists i, (i < k)%nat /\ v = pd i) /\ (vretry th = true -> forall i, (i < vbegk th)%nat -> pd i < v)
  | VDone (OReject c) => forall i, (i < vbegk th)%nat -> pd i < vread th
  | VDone OAccept => vread th <> max_uint64 -> exists i, (i < k)%nat /\ vread th <= pd i
  | VDone _ => True
  end.

Definition fgood (k c : nat) (f : flightrec) : Prop :=
  (ffloor f <= k)%nat /\ (fid f < c)%nat /\ (forall i, fts f = Some i -> (ffloor f <= i < k)%nat).

Record VInv (s : vsys) : Prop := {
  V1 : forall l, vlast s = Some l -> exists i, (i < vk s)%nat /\ l = pd i;
  V2 : forall f, flight s = Some f -> fgood (vk s) (fcount s) f;
  V3 : forall t th, nth_error (vthr s) t = Some th -> vgood (vk s) (flight s) th
}.

Lemma vinv_init : forall n, VInv (init_vsys n).
Proof.
  intros n. constructor; cbn; try discriminate.
  intros t th H. apply nth_error_In, repeat_spec in H. subst th. split; [apply le_n|exact I].
Qed.

(* a thread's facts survive: PD issues more; the flight in the map is created (now: floor k), or keeps its id and floor *)
Lemma vgood_frame : forall k k' fl fl' th, vgood k fl th -> (k <= k')%nat ->
  (forall f, fl = Some f -> exists f', fl' = Some f' /\ fid f' = fid f) ->
  (forall f', fl' = Some f' -> (k <= ffloor f')%nat \/ exists f, fl = Some f /\ ffloor f = ffloor f') ->
  vgood k' fl' th.
Proof.
  intros k k' fl fl' th [A B] Hk Hid Hfl. split; [lia|].
  assert (L : late fl th -> late fl' th).
  { intros H f' E. destruct (Hfl f' E) as [X|[f [Ef Ex]]]; [lia|rewrite <- Ex; auto]. }
  destruct (vp th) as [| | |g|r|[]]; auto.
  - destruct B as [[f [E1 E2]] B2]. split; [|auto]. destruct (Hid f E1) as [f' [E1' E2']]. exists f'. split; congruence.
  - destruct B as [B1 B2]. split; [auto|]. intros v Ev. destruct (B2 v Ev) as [[i [X Y]] Z]. split; [exists i; split; [lia|auto]|auto].
  - intros Hne. destruct (B Hne) as [i [X Y]]. exists i. split; [lia|auto].
Qed.

Lemma vinv_put : forall s t th th',
  VInv s -> nth_error (vthr s) t = Some th -> vgood (vk s) (flight s) th' -> VInv (vput s t th').
Proof.
  intros s t th th' [A B C] Ht G. constructor; cbn [vput vlast vk flight fcount vthr]; auto.
  apply (set_nth_all _ _ _ _ _ _ Ht); [intros u y _; apply C|exact G].
Qed.

(* the flight returns r: it leaves the map, and its waiters (and nobody else) get r *)
Lemma vinv_deliver : forall s f r, VInv s -> flight s = Some f ->
  (forall v, r = Some v -> exists i, fts f = Some i /\ v = pd i) ->
  VInv (mkVS (vk s) (vlast s) None (fcount s) (map (deliver (fid f) r) (vthr s))).
Proof.
  intros s f r [A B C] Hf Hr. constructor; cbn [vlast vk flight fcount vthr]; [exact A|discriminate|].
  intros t th' H. rewrite nth_error_map in H. destruct (nth_error (vthr s) t) as [th|] eqn:Ht; [|discriminate].
  injection H as <-. destruct (B f Hf) as [F1 [F2 F3]]. destruct (C t th Ht) as [Ga Gb]. rewrite Hf in Gb.
  assert (N : forall th', late None th') by (intros th' f' E; discriminate).
  unfold deliver. destruct (vp th) as [| | |g|r'|o] eqn:Hp; try (split; [exact Ga|rewrite Hp; auto]).
  - destruct Gb as [[f' [E1 E2]] B2]. injection E1 as <-. rewrite <- E2, Nat.eqb_refl. split; [exact Ga|]. cbn. split; [apply N|].
    intros v Ev. destruct (Hr v Ev) as [i [Hi ->]]. destruct (F3 i Hi). split; [exists i; split; [lia|reflexivity]|].
    intros Hre j Hj. apply pd_strict. specialize (B2 Hre f eq_refl). lia.
  - split; [apply N|apply Gb].
Qed.

Lemma vinv_step : forall s e, VInv s -> VInv (vstep pd true s e).
Proof.
  intros s e I. pose proof I as [A B C].
  assert (Same : forall f : flightrec, flight s = Some f -> exists f', flight s = Some f' /\ fid f' = fid f) by eauto.
  destruct e as [t read stale|t|t| |i| | |]; cbn [vstep].
  - destruct (nth_error (vthr s) t) as [th|] eqn:Ht; [|exact I].
    destruct (vp th) eqn:Hp; try exact I.
    destruct (pre_outcome read stale) as [o|] eqn:Hpre; apply (vinv_put s t th _ I Ht); (split; [apply le_n|cbn]).
    + destruct (pre_outcome_spec _ _ _ Hpre) as [P1 [P2 _]]. destruct o; auto; [intros Hne; destruct (Hne (P1 eq_refl))|destruct (P2 _ eq_refl)].
    + discriminate.
  - destruct (nth_error (vthr s) t) as [th|] eqn:Ht; [|exact I].
    destruct (C t th Ht) as [Ga Gb]. unfold vthread_step. destruct (vp th) eqn:Hp; try exact I.
    + (* VCheck: a hit is not beyond the cached timestamp, which PD issued *)
      destruct (match vlast s with Some l => vread th <=? l | None => false end) eqn:Hit;
        apply (vinv_put s t th _ I Ht); (split; [exact Ga|cbn]); [|exact Gb].
      destruct (vlast s) as [l|] eqn:Hl; [|discriminate]. destruct (A l eq_refl) as [i [X Y]].
      intros _. exists i; split; [exact X|lia].
    + (* VJoin: join the flight in the map, or create one — created now, so late for everybody *)
      destruct (flight s) as [f|] eqn:Hf.
      * apply (vinv_put s t th _ I Ht). rewrite Hf. split; [exact Ga|cbn]. split; [eexists; split; reflexivity|exact Gb].
      * assert (New : forall th', vgood (vk s) None th' -> vgood (vk s) (Some (mkF (fcount s) (vk s) None)) th').
        { intros th' G. apply (vgood_frame _ _ _ _ _ G (le_n _)); [discriminate|]. intros f' [= <-]. left. apply le_n. }
        constructor; cbn [vlast vk flight fcount vthr]; auto.
        -- intros f [= <-]. unfold fgood; cbn. repeat split; try lia; intros; discriminate.
        -- apply (set_nth_all _ _ _ _ _ _ Ht); [intros u thu _ Hu; exact (New thu (C u thu Hu))|].
           split; [exact Ga|cbn]. split; [eexists; split; reflexivity|]. intros _ f [= <-]. exact Ga.
    + destruct Gb as [Gl Gv]. destruct r as [cur|]; [|apply (vinv_put s t th _ I Ht); split; [exact Ga|exact Logic.I]].
      destruct (Gv cur eq_refl) as [[j [X Y]] K].
      destruct (cur <? vread th) eqn:Hlt; [destruct (negb (vretry th)) eqn:Hre; cbn [andb]|];
        apply (vinv_put s t th _ I Ht); (split; [exact Ga|cbn]).
      * intros _. exact Gl.
      * intros i Hi. assert (Hr : vretry th = true) by (destruct (vretry th); [reflexivity|discriminate]).
        specialize (K Hr i Hi). lia.
      * intros _. exists j; split; [exact X|lia].
  - destruct (nth_error (vthr s) t) as [th|] eqn:Ht; [|exact I].
    destruct (C t th Ht) as [Ga _].
    destruct (vp th) eqn:Hp; try exact I; apply (vinv_put s t th _ I Ht); (split; [exact Ga|exact Logic.I]).
  - constructor; cbn [vlast vk flight fcount vthr].
    + intros l H. destruct (A l H) as [j [X Y]]. exists j; split; [lia|auto].
    + intros f H. destruct (B f H) as [F1 [F2 F3]]. repeat split; try lia; destruct (F3 i H0); lia.
    + intros t th H. apply (vgood_frame _ _ _ _ _ (C t th H)); eauto.
  - destruct ((i <? vk s)%nat && match vlast s with Some l => l <=? pd i | None => true end) eqn:Hg; [|exact I].
    apply andb_prop in Hg. destruct Hg as [Hi _]. apply Nat.ltb_lt in Hi.
    constructor; cbn [vlast vk flight fcount vthr]; auto.
    intros l H. inversion H; subst. eauto.
  - destruct (flight s) as [f|] eqn:Hf; [|exact I]. destruct (fts f) eqn:Hts; [exact I|].
    destruct (B f eq_refl) as [F1 [F2 F3]].
    constructor; cbn [vlast vk flight fcount vthr].
    + intros l H. destruct (A l H) as [j [X Y]]. exists j; split; [lia|auto].
    + intros f' [= <-]. unfold fgood; cbn. repeat split; try lia; inversion H; subst; lia.
    + intros t th H. apply (vgood_frame _ _ _ _ _ (C t th H)); [lia| |].
      * intros f0 [= <-]. eexists; split; reflexivity.
      * intros f' [= <-]. right. exists f. split; reflexivity.
  - destruct (flight s) as [f|] eqn:Hf; [|exact I]. apply (vinv_deliver s f None I Hf). discriminate.
  - destruct (flight s) as [f|] eqn:Hf; [|exact I]. destruct (fts f) as [i|] eqn:Hts; [|exact I].
    apply (vinv_deliver s f _ I Hf). intros v [= <-]. eauto.
Qed.

Lemma vreach : forall n es, VInv (vrun pd true (init_vsys n) es).
Proof. intros n es. exact (fold_inv _ _ _ _ vinv_step es _ (vinv_init n)). Qed.

(* what a validator that has returned knows, in every state that satisfies VInv: a rejected read timestamp is beyond
   everything PD had issued when the call began; an accepted one (other than the sentinel) is not beyond what PD has issued *)
Theorem validate_outcome : forall s t th, VInv s -> nth_error (vthr s) t = Some th ->
  (forall c, vp th = VDone (OReject c) -> forall i, (i < vbegk th)%nat -> pd i < vread th) /\
  (vp th = VDone OAccept -> vread th <> max_uint64 -> exists i, (i < vk s)%nat /\ vread th <= pd i).
Proof.
  intros s t th I Ht. destruct (V3 _ I t th Ht) as [_ G]. split; [intros c Hp|intros Hp]; rewrite Hp in G; exact G.
Qed.

(* vk only grows: the bound of an accepted read timestamp stays valid in every later state *)
Lemma vk_step : forall r s e, (vk s <= vk (vstep pd r s e))%nat.
Proof.
  intros r s e. destruct e; cbn [vstep]; try lia.
  - destruct (nth_error (vthr s) t) as [th|]; [|lia]. destruct (vp th); try lia. destruct (pre_outcome read stale); cbn; lia.
  - destruct (nth_error (vthr s) t) as [th|]; [|lia]. unfold vthread_step.
    destruct (vp th); try lia.
    + destruct (match vlast s with Some l => vread th <=? l | None => false end); cbn; lia.
    + destruct (flight s); cbn; lia.
    + destruct r0 as [cur|]; [|cbn; lia]. destruct (cur <? vread th); [destruct (r && negb (vretry th))|]; cbn; lia.
  - destruct (nth_error (vthr s) t) as [th|]; [|lia]. destruct (vp th); cbn; lia.
  - cbn; lia.
  - destruct ((i <? vk s)%nat && match vlast s with Some l => l <=? pd i | None => true end); cbn; lia.
  - destruct (flight s) as [f|]; [|lia]. destruct (fts f); cbn; lia.
  - destruct (flight s) as [f|]; cbn; lia.
  - destruct (flight s) as [f|]; [|lia]. destruct (fts f); cbn; lia.
Qed.

End Proofs.

(* without the retry a timestamp issued before the call can be rejected: a stale single-flight result *)
Definition no_retry_sched : list vevent :=
  [EIssueEnv; EPublish 0; EBegin 0 1 false; EStep 0; EStep 0; EFlightIssue; EIssueEnv;
   EBegin 1 2 true; EStep 1; EStep 1; EFlightFinish; EStep 1].

Lemma no_retry_refuted :
  exists (pd : nat -> Z), (forall i j, (i < j)%nat -> pd i < pd j) /\
  exists n es t th c i,
    nth_error (vthr (vrun pd false (init_vsys n) es)) t = Some th /\ vp th = VDone (OReject c) /\
    (i < vbegk th)%nat /\ vread th = pd i.
Proof.
  exists Z.of_nat. split; [intros; lia|].
  exists 2%nat, no_retry_sched, 1%nat. eexists. exists 1, 2%nat.
  split; [vm_compute; reflexivity|]. cbn. repeat split; lia.
Qed.

(* the same schedule with the retry: the validator is not rejected, it starts a second flight *)
Lemma retry_same_schedule :
  voutcome_of (vrun Z.of_nat true (init_vsys 2) (no_retry_sched ++ [EStep 1; EStep 1; EFlightIssue; EFlightFinish; EStep 1])) 1 = Some OAccept.
Proof. vm_compute. reflexivity. Qed.

(* cancellation is isolated:
   the flight's fetch is independent of every caller's context, so a cancel step of one validator
   fails that validator only.  OErr (a failed validation) can reach validator u only through a PD
   failure of a flight (EFlightFail) or through its own cancellation (ECancel u). *)
Section Cancel.
Variable pd : nat -> Z.
Variable u : nat.

Definition quiet (e : vevent) : Prop := e <> EFlightFail /\ e <> ECancel u.

Definition cgood (t : nat) (th : vthread) : Prop := vp th <> VGot None /\ (t = u -> vp th <> VDone OErr).
Definition CInv (s : vsys) : Prop := forall t th, nth_error (vthr s) t = Some th -> cgood t th.

Lemma cinv_put : forall s t th th', CInv s -> nth_error (vthr s) t = Some th -> cgood t th' -> CInv (vput s t th').
Proof.
  intros s t th th' I Ht H. unfold CInv. cbn [vput vthr]. apply (set_nth_all _ _ _ _ _ _ Ht); [intros x y _; apply I|exact H].
Qed.

Lemma cgood_deliver : forall f v t th, cgood t th -> cgood t (deliver f (Some v) th).
Proof.
  intros f v t th G. unfold deliver. destruct (vp th) eqn:Hp; try exact G. destruct (Nat.eqb _ f); [|exact G].
  split; cbn; [discriminate|intros _; discriminate].
Qed.

Lemma cinv_step : forall r s e, quiet e -> CInv s -> CInv (vstep pd r s e).
Proof.
  intros r s e [Q1 Q2] I.
  destruct e as [t read stale|t|t| |i| | |]; cbn [vstep]; try congruence.
  - destruct (nth_error (vthr s) t) as [th|] eqn:Ht; [|exact I]. destruct (vp th); try exact I.
    destruct (pre_outcome read stale) as [o|] eqn:Hpre; apply (cinv_put _ _ _ _ I Ht); (split; cbn; [discriminate|intros _]);
      [|discriminate].
    intros [= ->]. exact (proj2 (proj2 (pre_outcome_spec _ _ _ Hpre)) eq_refl).
  - destruct (nth_error (vthr s) t) as [th|] eqn:Ht; [|exact I]. unfold vthread_step.
    destruct (vp th) eqn:Hp; try exact I.
    + destruct (match vlast s with Some l => vread th <=? l | None => false end); apply (cinv_put _ _ _ _ I Ht);
        (split; cbn; [discriminate|intros _; discriminate]).
    + destruct (flight s).
      * apply (cinv_put _ _ _ _ I Ht). split; cbn; [discriminate|intros _; discriminate].
      * apply (cinv_put s t th (vwith th (VWait (fcount s))) I Ht). split; cbn; [discriminate|intros _; discriminate].
    + (* a result in hand is not a failure *)
      destruct r0 as [cur|]; [|destruct (proj1 (I t th Ht) Hp)].
      destruct (cur <? vread th); [destruct (r && negb (vretry th))|]; apply (cinv_put _ _ _ _ I Ht);
        (split; cbn; [discriminate|intros _; discriminate]).
  - destruct (nth_error (vthr s) t) as [th|] eqn:Ht; [|exact I].
    assert (t <> u) by congruence.
    destruct (vp th); try exact I; apply (cinv_put _ _ _ _ I Ht); (split; cbn; [discriminate|contradiction]).
  - exact I.
  - destruct ((i <? vk s)%nat && match vlast s with Some l => l <=? pd i | None => true end); exact I.
  - destruct (flight s) as [f|]; [|exact I]. destruct (fts f); exact I.
  - destruct (flight s) as [f|]; [|exact I]. destruct (fts f) as [i|]; [|exact I].
    intros t th H. cbn [vthr] in H. rewrite nth_error_map in H. destruct (nth_error (vthr s) t) as [th0|] eqn:Ht; [|discriminate].
    injection H as <-. apply cgood_deliver, (I t th0 Ht).
Qed.

Lemma cancel_isolated : forall r n es,
  Forall quiet es -> voutcome_of (vrun pd r (init_vsys n) es) u <> Some OErr.
Proof.
  intros r n es Hq.
  assert (I : CInv (vrun pd r (init_vsys n) es)).
  { assert (I0 : CInv (init_vsys n)).
    { intros t th H. apply nth_error_In, repeat_spec in H. subst. split; [discriminate|intros _; discriminate]. }
    revert I0. generalize (init_vsys n). induction Hq as [|e es He _ IH]; intros s I0; cbn; auto.
    apply IH, cinv_step; auto. }
  unfold voutcome_of. destruct (nth_error (vthr _) u) as [th|] eqn:Ht; [|discriminate].
  destruct (I u th Ht) as [_ B]. specialize (B eq_refl). destruct (vp th); try discriminate. congruence.
Qed.
End Cancel.
