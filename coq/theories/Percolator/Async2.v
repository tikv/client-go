(* Percolator/Async2.v — ainv is preserved by steps that leave the prewrite bookkeeping alone and move
   the keys only in justified ways (jstep, ainv_stable); what its event owes the invariant is ajust. *)
From Verif Require Export Percolator.Async.

Definition jstep (s s' : sys) (T k : N) : Prop :=
  kget s' T k = kget s T k \/
  (kget s T k = Unlocked /\ kget s' T k = RolledBack) \/
  (exists m c, kget s T k = Locked m /\ kget s' T k = Committed c /\ Sealed s T /\ c = cstar s T) \/
  (exists m, kget s T k = Locked m /\ kget s' T k = RolledBack /\ NSa s T).

Lemma fold_max_ext_in : forall (f g : N -> N) l, (forall k, In k l -> f k = g k) ->
  fold_right (fun k acc => N.max (f k) acc) 0 l = fold_right (fun k acc => N.max (g k) acc) 0 l.
Proof.
  induction l as [| a l IH]; intros H; cbn [fold_right]; auto. rewrite H by (left; auto). rewrite IH; auto. intros; apply H; right; auto.
Qed.

(* Sealed and cstar read only the ghost map and the mutation list *)
Lemma lam_lm_same : forall s s' T, c_lam (getc s' T) = c_lam (getc s T) -> c_lm (getc s' T) = c_lm (getc s T) ->
  (forall k, lamk s' T k = lamk s T k) /\ lm s' T = lm s T /\ (Sealed s' T <-> Sealed s T) /\ cstar s' T = cstar s T.
Proof.
  intros s s' T A B.
  assert (El : forall k, lamk s' T k = lamk s T k) by (intros; unfold lamk, lam; rewrite A; reflexivity).
  split; [exact El |]. split; [exact B |]. unfold Sealed, cstar, lm. rewrite B. split.
  - split; intros S k Hk; specialize (S k Hk); rewrite ?El in *; auto.
  - apply fold_max_ext_in. intros k _. unfold lam0. rewrite El. reflexivity.
Qed.

Section Transfer.
  Variables (s s' : sys) (T : N).
  Hypothesis L : linv s T.
  Hypothesis K : forall k, jstep s s' T k.
  Hypothesis SA : same_acct (getc s T) (getc s' T).
  Lemma tr_same : (forall k, lamk s' T k = lamk s T k) /\ lm s' T = lm s T /\ (Sealed s' T <-> Sealed s T) /\ cstar s' T = cstar s T.
  Proof. apply lam_lm_same; [apply (sa_lam _ _ SA) | apply (sa_lm _ _ SA)]. Qed.
  Lemma tr_lamk : forall k, lamk s' T k = lamk s T k. Proof. apply tr_same. Qed.
  Lemma tr_lm : lm s' T = lm s T. Proof. apply tr_same. Qed.
  Lemma tr_F : forall f, modef f = true -> F s' T f = F s T f. Proof. intros. unfold F. apply (sa_f _ _ SA). auto. Qed.
  Lemma tr_kc : forall t k, kc s' T t k = kc s T t k. Proof. intros. unfold kc, kcnt. rewrite (sa_kl _ _ SA). auto. Qed.
  Lemma tr_Sealed : Sealed s' T <-> Sealed s T. Proof. apply tr_same. Qed.
  Lemma tr_cstar : cstar s' T = cstar s T. Proof. apply tr_same. Qed.
  Lemma tr_committed : forall k c, kget s T k = Committed c -> kget s' T k = Committed c.
  Proof.
    intros k c E. destruct (K k) as [H | [[H _] | [[m [c' [H _]]] | [m [H _]]]]]; try congruence.
  Qed.
  Lemma tr_rolledback : forall k, kget s T k = RolledBack -> kget s' T k = RolledBack.
  Proof.
    intros k E. destruct (K k) as [H | [[H _] | [[m [c' [H _]]] | [m [H _]]]]]; try congruence.
  Qed.
  Lemma tr_NSa : NSa s T -> NSa s' T.
  Proof.
    intros [k0 [K1 [K2 K3]]]. exists k0. rewrite tr_lm, tr_lamk. repeat split; auto.
    destruct K3 as [K3 | [K3 [K4 K5]]]; [left; apply tr_rolledback; auto |].
    destruct (K k0) as [H | [[_ H] | [[m [c' [H _]]] | [m [H _]]]]]; try congruence; [| left; auto].
    right. rewrite H. repeat split; auto.
    - rewrite !tr_F by reflexivity. auto.
    - rewrite !tr_kc. auto.
  Qed.
  Lemma tr_lam_or : forall k m, lamk s T k = Some m \/ kget s T k = Committed m -> lamk s' T k = Some m \/ kget s' T k = Committed m.
  Proof. intros k m [H | H]; [left; rewrite tr_lamk; auto | right; apply tr_committed; auto]. Qed.
End Transfer.

(* what an event of T owes ainv when it leaves the prewrite bookkeeping alone: it is no prewrite request, delivery or
   rollback request; a commit-capable request or answer carries cstar of a sealed transaction, a rolling-back one comes
   with NSa; a reported async lock or lock list agrees with the ghost map *)
Definition ajust (s s' : sys) (T : N) (e : event) : Prop :=
  let decided C := (C <> 0 -> Sealed s' T /\ C = cstar s' T) /\ (C = 0 -> NSa s' T) in
  match e with
  | ECmSend _ _ C _ => Sealed s' T /\ C = cstar s' T
  | ERsSend _ _ C _ => forall j, s_rs s' = (T, C, j) :: s_rs s -> match j with JKey p => p = prim s' T | JAsync => decided C end
  | ECtsDeliver _ _ p (StLocked _ m true secs) =>
      p = prim s' T /\ lamk s' T p = Some m /\ forall k, In k secs <-> (In k (lm s' T) /\ k <> p)
  | ECslDeliver _ _ ks (CslLocks l) => (forall k M, In (k, M) l -> lamk s' T k = Some M) /\ (forall k, In k ks -> exists M, In (k, M) l)
  | ECslDeliver _ _ _ (CslCommit C) => decided C
  | ECslSend _ _ ks => forall k, In k ks -> In k (lm s' T)
  | _ => calm e
  end.

Lemma ainv_stable : forall s e s' T, stepr s e = Ok s' -> linv s T -> (forall k, jstep s s' T k) ->
  same_acct (getc s T) (getc s' T) -> (txn_of e = Some T -> ajust s s' T e) -> ainv s T -> ainv s' T.
Proof.
  intros s e s' T St L K SA J A.
  assert (Hs : forall x, In x (s_sent s') -> txn_of x = Some T -> In x (s_sent s) \/ (x = e /\ ajust s s' T x)).
  { intros x Hx Ht. destruct (stepr_sent_new _ _ _ St _ Hx) as [B | <-]; auto. }
  assert (Hd : forall x, In x (s_dlv s') -> txn_of x = Some T -> In x (s_dlv s) \/ (reply_of e = Some x /\ ajust s s' T e)).
  { intros x Hx Ht. destruct (stepr_dlv_new _ _ _ St _ Hx) as [B | B]; auto. right. split; auto. apply J. rewrite <- (reply_of_txn _ _ B). exact Ht. }
  assert (Hr : forall C j, In (T, C, j) (s_rs s') -> In (T, C, j) (s_rs s) \/
                 match j with JKey p => p = prim s' T | JAsync => (C <> 0 -> Sealed s' T /\ C = cstar s' T) /\ (C = 0 -> NSa s' T) end).
  { intros C j Hx. destruct (stepr_lists _ _ _ St) as [_ [_ [_ [_ [[R | [r [T1 [c1 [ks [j1 [Ee R]]]]]]] _]]]]]; rewrite R in Hx; auto.
    destruct Hx as [Hx | Hx]; auto. inversion Hx. subst. right. apply (J eq_refl). exact R. }
  pose proof (tr_lamk s s' T SA) as El. pose proof (tr_lm s s' T SA) as Em. pose proof (tr_F s s' T SA) as Ef.
  pose proof (tr_kc s s' T SA) as Ek. pose proof (tr_Sealed s s' T SA) as Es. pose proof (tr_cstar s s' T SA) as Ec.
  pose proof (tr_NSa s s' T K SA) as En. pose proof (tr_lam_or s s' T K SA) as Eo.
  assert (Ep : prim s' T = prim s T) by (apply Ef; reflexivity).
  assert (Epw : pwok s' T = pwok s T) by (unfold pwok; apply (sa_pwok _ _ SA)).
  assert (Eal : call s' T = call s T) by (unfold call; apply (sa_all _ _ SA)).
  constructor; intros; try rewrite ?El, ?Em, ?Ek, ?Es, ?Ec, ?Ep, ?Epw, ?Eal in H; try rewrite ?El, ?Em, ?Ek, ?Es, ?Ec, ?Ep, ?Epw, ?Eal in H0;
    rewrite ?El, ?Em, ?Ek, ?Es, ?Ec, ?Ep, ?Epw, ?Eal; repeat rewrite Ef in * by reflexivity.
  - destruct (Hs _ H eq_refl) as [B | [_ []]]. eapply (a_send _ _ A); eauto.
  - destruct (Hd _ H eq_refl) as [B | [B J']]; [| destruct e; try discriminate B; destruct J'].
    destruct (a_entry _ _ A _ _ _ _ B) as [B1 [B2 B4]]. repeat split; auto;
    try (intros k Hk; specialize (B4 k Hk); apply Eo in B4; rewrite El in B4; auto).
  - apply (a_1pcts _ _ A).
  - eapply (a_lam _ _ A); eauto.
  - apply (a_cnt _ _ A).
  - destruct (K k) as [E | [[_ E] | [[m [c' [_ [E [S1 S2]]]]] | [m [_ [E _]]]]]].
    + rewrite E in H. apply (a_commit _ _ A _ _ H).
    + congruence.
    + rewrite E in H. inversion H. subst. auto.
    + congruence.
  - destruct (K k) as [E | [[E0 E] | [[m [c' [_ [E _]]]] | [m [_ [_ N]]]]]].
    + apply En. rewrite E in H0. eapply (a_rb _ _ A); eauto.
    + (* a fresh rollback marker on a key that was never locked *)
      exists k. rewrite El, Em. repeat split; auto.
      destruct (lamk s T k) eqn:E1; auto. exfalso. eapply (l_nu _ _ L); eauto.
    + congruence.
    + apply En. auto.
  - destruct (Hs _ H eq_refl) as [B | [_ B]]; [apply (a_cmsent _ _ A) in B | cbn [ajust] in B; rewrite ?Es, ?Ec in B]; auto.
  - destruct (Hr _ _ H) as [B | B]; [apply (a_rsk _ _ A) in B | rewrite ?Ep in B]; auto.
  - destruct (Hr _ _ H) as [B | B]; [apply (a_rsa _ _ A) in B | rewrite ?Es, ?Ec in B]; destruct B as [B1 B2]; split; auto.
  - destruct (Hd _ H eq_refl) as [B | [B J']]; [apply (a_ctsl _ _ A) in B; auto |].
    destruct e; try discriminate B. inversion B. subst. cbn [ajust] in J'. rewrite ?Ep, ?El, ?Em in J'. auto.
  - destruct (Hd _ H eq_refl) as [B | [B J']]; [apply (a_csll _ _ A) in B; destruct B as [B1 B2] |
      destruct e; try discriminate B; inversion B; subst; destruct J' as [B1 B2]]; split; auto;
      intros k M Hk; specialize (B1 k M Hk); rewrite ?El in *; auto.
  - destruct (Hd _ H eq_refl) as [B | [B J']]; [apply (a_cslc _ _ A) in B |
      destruct e; try discriminate B; inversion B; subst; cbn [ajust] in J'; rewrite ?Es, ?Ec in J'; clear B; rename J' into B];
      destruct B as [B1 B2]; split; auto.
  - destruct (Hs _ H eq_refl) as [B | [_ B]]; [eapply (a_cslsent _ _ A); eauto | cbn [ajust] in B; rewrite ?Em in B; auto].
  - destruct (a_minc _ _ A _ H H0) as [m [B1 B2]]. exists m; split; auto; apply Eo in B2; rewrite ?El in B2; auto.
  - destruct (a_minc2 _ _ A) as [B | [k [B1 B2]]]; [left; auto | right]. exists k; split; auto; apply Eo in B2; rewrite ?El in B2; auto.
  - apply En. apply (a_dead _ _ A). destruct H as [H | [r [ks H]]]; [left; auto | right; exists r, ks].
    destruct (Hs _ H eq_refl) as [B | [_ []]]. exact B.
  - destruct (a_told _ _ A H) as [B1 B2]. split; auto. intros k Hk. rewrite !Ek. auto.
Qed.
