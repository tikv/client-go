(* Percolator/View.v — the part of the state the trace predicates depend on ([view]) and what an accepted
   step checks and does on it: [guard]; the next view outside the client records is a function of the
   event ([vnet]); at most the record of one transaction is replaced ([cl_step]). *)
From Verif Require Percolator.AddKeys.
From Verif Require Import Percolator.Event Percolator.System Percolator.Basics Percolator.Trace
  Percolator.ProofsTrace2.

Record view := { v_tso : N; v_sent : list event; v_dlv : list event; v_cl : list (N * crec);
                 v_cts : list event; v_csl : list event; v_seen : list (N * N * N); v_gc : list (N * N) }.
Definition view_of (s : sys) : view :=
  {| v_tso := s_tso s; v_sent := s_sent s; v_dlv := s_dlv s; v_cl := s_cl s;
     v_cts := s_cts s; v_csl := s_csl s; v_seen := s_seen s; v_gc := s_gc s |}.
Definition vgetc (v : view) (T : N) : crec := getc_l (v_cl v) T.
Definition vput (v : view) (oc : option (N * crec)) : view :=
  {| v_tso := v_tso v; v_sent := v_sent v; v_dlv := v_dlv v;
     v_cl := match oc with Some Tc => Tc :: v_cl v | None => v_cl v end;
     v_cts := v_cts v; v_csl := v_csl v; v_seen := v_seen v; v_gc := v_gc v |}.

Definition is_send (e : event) : bool :=
  match e with
  | EPwSend _ _ _ _ _ _ _ _ _ | ECmSend _ _ _ _ | ERbSend _ _ _ | EPlSend _ _ _ _ _ | EPrSend _ _ _ _
  | ECtsSend _ _ _ _ _ _ _ _ | ECslSend _ _ _ | ERsSend _ _ _ _ | EHbSend _ _ _ _ => true
  | _ => false
  end.
(* the reply a delivery puts on the wire (a delivered heartbeat is not answered) *)
Definition reply_of (e : event) : option event :=
  match e with
  | EPwDeliver r T ks x => Some (EPwReply r T ks x)
  | ECmDeliver r T C ks x => Some (ECmReply r T C ks x)
  | ERbDeliver r T ks x => Some (ERbReply r T ks x)
  | EPlDeliver r T f ks x => Some (EPlReply r T f ks x)
  | EPrDeliver r T f ks x => Some (EPrReply r T f ks x)
  | ECtsDeliver r T p st => Some (ECtsReply r T p st)
  | ECslDeliver r T ks st => Some (ECslReply r T ks st)
  | ERsDeliver r T C ks x => Some (ERsReply r T C ks x)
  | _ => None
  end.
Definition vnet (v : view) (e : event) : view :=
  {| v_tso := match e with ETso t => t | _ => v_tso v end;
     v_sent := if is_send e then e :: v_sent v else v_sent v;
     v_dlv := match reply_of e with Some x => x :: v_dlv v | None => v_dlv v end;
     v_cl := v_cl v;
     v_cts := match e with ECtsReply _ _ _ _ => e :: v_cts v | _ => v_cts v end;
     v_csl := match e with ECslReply _ _ _ _ => e :: v_csl v | _ => v_csl v end;
     v_seen := match e with ELockSeen r T ttl => (r, T, ttl) :: v_seen v | _ => v_seen v end;
     v_gc := match e with
             | EGcBegin r sp => (r, sp) :: v_gc v
             | EGcEnd r => filter (fun g => negb (fst g =? r)) (v_gc v)
             | _ => v_gc v
             end |}.

(* The items of a client record that a guard reads and the history determines fall into four classes,
   each written by the events of one class: mutations, commit point, prewrites, the owner's calls. *)
Inductive grp := GM | GC | GP | GO.
Definition grp_of (f : fld) : option grp :=
  match f with
  | FHasm | FPrim => Some GM
  | FPcSent | FPcNeg | FPcRep | FPcOk | FPcRb => Some GC
  | FTriedA | FTried1 | FFb | FFb1 | FPwSent | FPwRep | FMinc | F1pcTs => Some GP
  | FCalled | FCausal | FWm | FDead => Some GO
  | _ => None
  end.
(* [c'] differs from [c] at most in untracked parts and in the parts of class [X] *)
Record same_but (X : option grp) (c c' : crec) : Prop := {
  sb_cn : forall f Y, grp_of f = Some Y -> X <> Some Y -> cn c' f = cn c f;
  sb_lm : X <> Some GM -> c_lm c' = c_lm c;
  sb_pwok : X <> Some GP -> c_pwok c' = c_pwok c;
  sb_kcnt : X <> Some GP -> forall k, kcnt c' KSent k = kcnt c KSent k /\ kcnt c' KNeg k = kcnt c KNeg k }.
Lemma same_but_refl X c : same_but X c c.
Proof. constructor; auto. Qed.
Lemma same_but_trans X a b c : same_but X a b -> same_but X b c -> same_but X a c.
Proof.
  intros [A1 A2 A3 A4] [B1 B2 B3 B4]. constructor.
  - intros f Y Hf HY. rewrite (B1 f Y), (A1 f Y); auto.
  - intros HX. rewrite B2, A2; auto.
  - intros HX. rewrite B3, A3; auto.
  - intros HX k. destruct (A4 HX k), (B4 HX k). split; congruence.
Qed.
(* for a chain of field updates: compare field by field *)
Ltac sb_tac :=
  constructor;
  [ let f := fresh "f" in let Y := fresh "Y" in let Hf := fresh "Hf" in let HY := fresh "HY" in
    intros f Y Hf HY; destruct f; try reflexivity; inversion Hf; subst Y; destruct (HY eq_refl)
  | let HX := fresh "HX" in
    intros HX; first [destruct (HX eq_refl) | reflexivity | intros ?; split; reflexivity] .. ].

Definition pw_send_rec (c : crec) (ks : list N) (async onepc : bool) : crec :=
  let c := add_kl (incn c FPwSent) KSent ks in
  let c := if async then setn c FTriedA 1 else setn c FFb 1 in
  if onepc then setn c FTried1 1 else setn c FFb1 1.
Definition pw_reply_rec (c0 : crec) (ks : list N) (x : pw_res) : crec :=
  let c := add_kl (incn c0 FPwRep) KRep ks in
  match x with
  | PwOk m o =>
      let c := add_pwok c ks in
      let c := if negb (fb c FHasm) || existsb (fun k => mem k (c_lm c)) ks then setn c FMinc (N.max (cn c FMinc) m) else c in
      let c := if o =? 0 then (if onepc_on c then setn (setn c FFb1 1) FFb 1 else setn c FFb1 1) else setn c F1pcTs o in
      if m =? 0 then setn c FFb 1 else c
  | PwErr _ => setn (add_kl c KNeg ks) FPwErr 1
  | PwRegion => add_kl c KNeg ks
  end.
Definition cm_reply_rec (c : crec) (C : N) (x : cm_res) : crec :=
  match x with
  | CmOk => setn (incn c FPcRep) FPcOk C
  | CmGone => setn (incn (incn c FPcRep) FPcNeg) FPcRb 1
  | _ => incn (incn c FPcRep) FPcNeg
  end.
Definition told_guard (c : crec) (t : told_res) : bool :=
  match t with
  | TOk => negb (cn c FPcOk =? 0) || negb (cn c F1pcTs =? 0) ||
           (async_kept c && fb c FHasm && subset (c_lm c) (c_pwok c) && pw_closed c) ||
           (negb (fb c FHasm) && (cn c FPcSent =? 0) && (cn c FPwSent <=? cn c FPwRep) && negb (fb c FPwErr))
  | TErr => neg_ok c && (negb (cp_active c) || err_ok c) && (cn c F1pcTs =? 0)
  | TUndet => (cn c FPcRep <? cn c FPcSent) || (commit_point_pw c && (cn c FPwRep <? cn c FPwSent))
  end.
Definition told_rec (c : crec) (t : told_res) : crec :=
  match t with
  | TOk => setn c FTold 1
  | TErr => setn (setn c FTold 3) FDead 1
  | TUndet => setn (setn c FTold 2) FDead 1
  end.
Definition expire_ok (v : view) (r T : N) : Prop :=
  (exists ttl, In (r, T, ttl) (v_seen v) /\ (ttl = 0 \/ phys T + ttl <= phys (v_tso v))) \/
  (exists sp, In (r, sp) (v_gc v) /\ T <= sp).
Definition rs_just (v : view) (r T C : N) : Prop :=
  (C <> 0 /\ exists p, In (ECtsReply r T p (StCommitted C)) (v_cts v)) \/
  (C = 0 /\ exists p, In (ECtsReply r T p StRolledBack) (v_cts v)) \/
  ((exists ks, In (ECslReply r T ks (CslCommit C)) (v_csl v)) /\
   (exists p ttl m secs, In (ECtsReply r T p (StLocked ttl m true secs)) (v_cts v))) \/
  (exists p ttl m secs, In (ECtsReply r T p (StLocked ttl m true secs)) (v_cts v) /\ m <= C /\
     forall k, In k secs ->
       exists ks l m', In (ECslReply r T ks (CslLocks l)) (v_csl v) /\ In (k, m') l /\ m' <= C /\ m' <> 0).

Definition guard (v : view) (e : event) : Prop :=
  match e with
  | ETso t => v_tso v < t
  | EMutations T p ms =>
      let c := vgetc v T in
      fb c FHasm = false /\ cn c FPwSent = 0 /\ cn c FPcSent = 0 /\ In p (lock_keys ms)
  | EPwDeliver r T ks x => has_send (v_sent v) (EPwReply r T ks x)
  | ECmDeliver r T C ks x => has_send (v_sent v) (ECmReply r T C ks x)
  | EPwReply _ _ _ _ | ECmReply _ _ _ _ _ => In e (v_dlv v)
  | ECmSend r T C ks =>
      let c := vgetc v T in
      fb c FDead = false /\
      (fb c FHasm = true ->
       subset (c_lm c) (c_pwok c) = true /\ T < C /\ cn c FMinc <= C /\
       (negb (async_kept c) || (C =? cn c FMinc)) = true /\
       (negb (fb c FCalled) || fb c FCausal || (cn c FWm <? C)) = true /\
       (mem (cn c FPrim) ks = false -> ((cn c FPcOk =? C) || async_kept c) = true))
  | ERbSend r T ks => (neg_ok (vgetc v T) && (negb (cp_active (vgetc v T)) || err_ok (vgetc v T))) = true
  | ECtsSend r T p caller cur rbine fo rp =>
      (cur = maxts \/ rbine = true -> expire_ok v r T) /\
      (fo = true -> exists ks l k, In (ECslReply r T ks (CslLocks l)) (v_csl v) /\ In (k, 0) l)
  | ECslSend r T ks => async_cts (v_cts v) r T ks = true
  | ERsSend r T C ks => rs_just v r T C
  | ETold T t => told_guard (vgetc v T) t = true
  | _ => True
  end.
(* the transaction and the class of the events that write tracked items *)
Definition ev_grp (e : event) : option (N * grp) :=
  match e with
  | EMutations s _ _ => Some (s, GM)
  | ECmSend _ s _ _ | ECmReply _ s _ _ _ => Some (s, GC)
  | EPwSend _ s _ _ _ _ _ _ _ | EPwReply _ s _ _ => Some (s, GP)
  | ECommitCall s _ | ERbSend _ s _ | ETold s _ => Some (s, GO)
  | _ => None
  end.
(* [oc]: the record that replaces the one of its transaction, if any.  An event of a class has one
   outcome; every other event leaves what the history determines alone. *)
Definition cl_step (v : view) (e : event) (oc : option (N * crec)) : Prop :=
  match e with
  | ECommitCall T cz =>
      oc = Some (T, setn (setn (setn (vgetc v T) FCalled 1) FCausal (if cz then 1 else 0)) FWm (v_tso v))
  | EMutations T p ms =>
      oc = Some (T, set_muts (setn (setn (vgetc v T) FHasm 1) FPrim p) (lock_keys ms) (map fst ms))
  | EPwSend r T p ks a o m f secs => oc = Some (T, pw_send_rec (vgetc v T) ks a o)
  | EPwReply r T ks x => oc = Some (T, pw_reply_rec (vgetc v T) ks x)
  | ECmSend r T C ks =>
      let c := vgetc v T in
      oc = if negb (fb c FHasm) || mem (cn c FPrim) ks then Some (T, incn c FPcSent) else None
  | ECmReply r T C ks x =>
      let c := vgetc v T in oc = if has_prim c ks then Some (T, cm_reply_rec c C x) else None
  | ERbSend r T ks => oc = Some (T, setn (vgetc v T) FDead 1)
  | ETold T t => oc = Some (T, told_rec (vgetc v T) t)
  | _ => match oc with Some (T, c) => same_but None (vgetc v T) c | None => True end
  end.
Lemma cl_step_untracked v e T c : ev_grp e = None -> cl_step v e (Some (T, c)) -> same_but None (vgetc v T) c.
Proof. destruct e; intros Eg Cl; try discriminate Eg; exact Cl. Qed.

Definition vstep (v : view) (e : event) (v' : view) : Prop :=
  guard v e /\ exists oc, cl_step v e oc /\ v' = vput (vnet v e) oc.

Lemma vstep_intro v e oc v' : guard v e -> cl_step v e oc -> v' = vput (vnet v e) oc -> vstep v e v'.
Proof. intros G C E. exact (conj G (ex_intro _ oc (conj C E))). Qed.
(* closes [vstep] for an event without a guard that replaces no record *)
Ltac quiet := apply (vstep_intro _ _ None); [exact I | exact I | reflexivity].

(* the record updates field by field: the nested conditionals of the acceptor are split here, once *)
Lemma pw_send_rec_cn c ks a o f : cn (pw_send_rec c ks a o) f =
  match f with
  | FPwSent => cn c FPwSent + 1
  | FTriedA => if a then 1 else cn c FTriedA
  | FFb => if negb a then 1 else cn c FFb
  | FTried1 => if o then 1 else cn c FTried1
  | FFb1 => if negb o then 1 else cn c FFb1
  | _ => cn c f
  end.
Proof. destruct a, o, f; reflexivity. Qed.
Lemma pw_send_rec_lists c ks a o :
  c_lm (pw_send_rec c ks a o) = c_lm c /\ c_pwok (pw_send_rec c ks a o) = c_pwok c /\
  c_kl (pw_send_rec c ks a o) = map (fun k => (KSent, k)) ks ++ c_kl c.
Proof. destruct a, o; repeat split. Qed.

Lemma pw_reply_rec_cn c ks m o f : cn (pw_reply_rec c ks (PwOk m o)) f =
  match f with
  | FPwRep => cn c FPwRep + 1
  | FMinc => if negb (fb c FHasm) || existsb (fun k => mem k (c_lm c)) ks then N.max (cn c FMinc) m else cn c FMinc
  | FFb1 => if o =? 0 then 1 else cn c FFb1
  | F1pcTs => if o =? 0 then cn c F1pcTs else o
  | FFb => if (m =? 0) || (o =? 0) && onepc_on c then 1 else cn c FFb
  | _ => cn c f
  end.
Proof.
  unfold pw_reply_rec, onepc_on, fb. cbv zeta. cbn [cn c_lm add_pwok add_kl incn setn fld_eqb].
  destruct (negb (negb (cn c FHasm =? 0)) || existsb (fun k => mem k (c_lm c)) ks); cbn [cn c_lm add_pwok add_kl incn setn fld_eqb];
    (destruct (o =? 0); [destruct (negb (cn c FTried1 =? 0) && negb (negb (cn c FFb1 =? 0))) |]);
    destruct (m =? 0); destruct f; reflexivity.
Qed.
Lemma pw_reply_rec_lists c ks m o :
  c_lm (pw_reply_rec c ks (PwOk m o)) = c_lm c /\ c_pwok (pw_reply_rec c ks (PwOk m o)) = ks ++ c_pwok c /\
  c_kl (pw_reply_rec c ks (PwOk m o)) = map (fun k => (KRep, k)) ks ++ c_kl c.
Proof.
  unfold pw_reply_rec. cbv zeta.
  destruct (negb _ || _); (destruct (o =? 0); [destruct (onepc_on _) |]); destruct (m =? 0); repeat split.
Qed.

Lemma cm_reply_rec_cn c C x f : cn (cm_reply_rec c C x) f =
  match f with
  | FPcRep => cn c FPcRep + 1
  | FPcOk => if is_cmok x then C else cn c FPcOk
  | FPcNeg => if is_cmok x then cn c FPcNeg else cn c FPcNeg + 1
  | FPcRb => match x with CmGone => 1 | _ => cn c FPcRb end
  | _ => cn c f
  end.
Proof. destruct x, f; reflexivity. Qed.

Lemma kcnt_l_add_same tag k ks l :
  kcnt_l tag k (map (fun k' => (tag, k')) ks ++ l) = N.of_nat (occ k ks) + kcnt_l tag k l.
Proof.
  induction ks as [|x ks IH]; [reflexivity|].
  cbn [map app kcnt_l occ]. rewrite IH, N.eqb_refl. cbn [andb]. destruct (x =? k); lia.
Qed.
Lemma kcnt_l_add_other tag tag' k ks l :
  (tag' =? tag) = false -> kcnt_l tag k (map (fun k' => (tag', k')) ks ++ l) = kcnt_l tag k l.
Proof.
  intros E. induction ks as [|x ks IH]; [reflexivity|].
  cbn [map app kcnt_l]. rewrite IH, E. reflexivity.
Qed.
Lemma same_kl c tag ks : (tag =? KSent) = false -> (tag =? KNeg) = false -> same_but None c (add_kl c tag ks).
Proof.
  intros E1 E2. constructor; try reflexivity.
  intros _ k. unfold kcnt. cbn [c_kl add_kl]. split; apply kcnt_l_add_other; assumption.
Qed.

Lemma step_key_view s T k tr s' : step_key s T k tr = Some s' -> view_of s' = view_of s.
Proof.
  intros H. apply step_key_spec in H. destruct H as (v & -> & _). reflexivity.
Qed.
Lemma step_keys_view T tr ks : forall s s', step_keys s T ks tr = Some s' -> view_of s' = view_of s.
Proof.
  induction ks as [|k ks IH]; intros s s' H; cbn [step_keys] in H.
  - inversion H. reflexivity.
  - destruct (step_key s T k tr) eqn:E; try discriminate.
    rewrite (IH _ _ H). eapply step_key_view; eauto.
Qed.
Lemma step_csl_locks_view T l : forall s s', step_csl_locks s T l = Some s' -> view_of s' = view_of s.
Proof.
  induction l as [|[k m] l IH]; intros s s' H; cbn [step_csl_locks] in H.
  - inversion H. reflexivity.
  - destruct (step_key s T k (tr_csl_lock m)) eqn:E; try discriminate.
    rewrite (IH _ _ H). eapply step_key_view; eauto.
Qed.

Ltac chk1 H E := match type of H with (if ?b then _ else _) = _ => destruct b eqn:E; [| discriminate H] end.
Ltac ok_inv H := inversion H; subst; clear H.

Lemma sent_by_cm s r T C ks :
  sent_by s (fun e => match e with ECmSend r' s' c' ks' => (r' =? r) && (s' =? T) && (c' =? C) && leqb ks' ks | _ => false end) = true ->
  In (ECmSend r T C ks) (s_sent s).
Proof.
  intros H. apply sent_by_In in H. destruct H as [e [H1 H2]].
  destruct e; try discriminate. beq. subst. assumption.
Qed.

Lemma v_pw_send s r T p ks a o m f secs s' :
  step_pw_send s (EPwSend r T p ks a o m f secs) r T p ks a o secs = Ok s' ->
  vstep (view_of s) (EPwSend r T p ks a o m f secs) (view_of s').
Proof.
  unfold step_pw_send. intros H.
  chk1 H E1. chk1 H E2. chk1 H E2b. chk1 H E3. chk1 H E4. chk1 H E5. chk1 H E6.
  ok_inv H. eapply vstep_intro; [exact I | reflexivity ..].
Qed.

Lemma sent_by_pw s r T ks :
  sent_by s (fun e => match e with EPwSend r' s' _ ks' _ _ _ _ _ => (r' =? r) && (s' =? T) && leqb ks' ks | _ => false end) = true ->
  exists p a o m f secs, In (EPwSend r T p ks a o m f secs) (s_sent s).
Proof.
  intros H. apply sent_by_In in H. destruct H as [e [H1 H2]].
  destruct e; try discriminate. beq. subst. do 6 eexists. exact H1.
Qed.

Lemma v_pw_tail s1 T ks x s' :
  match x with
  | PwOk m o =>
      if o =? 0 then match step_keys s1 T ks (tr_pw m) with Some s' => Ok s' | None => Rej S_prewrite_after_rollback end
      else match step_keys s1 T ks (tr_1pc o) with Some s' => Ok s' | None => Rej S_onepc end
  | _ => Ok s1
  end = Ok s' -> view_of s' = view_of s1.
Proof.
  intros H. destruct x as [m o| |].
  - destruct (o =? 0).
    + destruct (step_keys _ T ks (tr_pw m)) eqn:K; try discriminate. ok_inv H.
      exact (step_keys_view _ _ _ _ _ K).
    + destruct (step_keys _ T ks (tr_1pc o)) eqn:K; try discriminate. ok_inv H.
      exact (step_keys_view _ _ _ _ _ K).
  - ok_inv H. reflexivity.
  - ok_inv H. reflexivity.
Qed.

Lemma v_pw_deliver s r T ks x s' :
  step_pw_deliver s r T ks x = Ok s' -> vstep (view_of s) (EPwDeliver r T ks x) (view_of s').
Proof.
  unfold step_pw_deliver. intros H.
  chk1 H E1. chk1 H E2. cbv zeta in H. chk1 H E3. chk1 H E4. chk1 H E5.
  apply v_pw_tail in H. rewrite H.
  eapply (vstep_intro _ _ (Some (T, _))); [exact (sent_by_pw _ _ _ _ E1) | cbn [cl_step] | reflexivity].
  change (vgetc (view_of s) T) with (getc s T).
  eapply same_but_trans; [apply (same_kl _ KDlv ks); reflexivity |].
  destruct x as [m o| |]; [| apply same_kl; reflexivity ..].
  match goal with |- same_but _ _ (if ?b then _ else _) => destruct b end; destruct (o =? 0); sb_tac.
Qed.

Lemma v_pw_reply s r T ks x s' :
  step_pw_reply s (EPwReply r T ks x) r T ks x = Ok s' ->
  vstep (view_of s) (EPwReply r T ks x) (view_of s').
Proof.
  unfold step_pw_reply. intros H. chk1 H E1. chk1 H E2. chk1 H E3. chk1 H E4.
  (* the record is named so that the two sides are compared as written *)
  remember (getc s T) as c eqn:Ec. injection H as <-.
  eapply vstep_intro; [exact (delivered_In _ _ E2) | reflexivity |].
  change (vgetc (view_of s) T) with (getc s T). rewrite <- Ec. reflexivity.
Qed.

Lemma v_cm_send s r T C ks s' :
  step_cm_send s (ECmSend r T C ks) r T C ks = Ok s' -> vstep (view_of s) (ECmSend r T C ks) (view_of s').
Proof.
  unfold step_cm_send. intros H. chk1 H E1. chk1 H E2. apply negb_true_iff in E2.
  eapply vstep_intro; [split; [exact E2 | intros Eh] | reflexivity |];
    cbv zeta in *; change (vgetc (view_of s) T) with (getc s T) in *.
  - rewrite Eh in H. chk1 H E3. chk1 H E4. chk1 H E5. chk1 H E6. chk1 H E6b. chk1 H E7.
    apply N.ltb_lt in E5. apply N.leb_le in E6. repeat apply conj; try assumption; try reflexivity.
    intros Em. rewrite Em in H. chk1 H E8. reflexivity.
  - destruct (fb (getc s T) FHasm); cbn [negb orb]; [| ok_inv H; reflexivity].
    chk1 H E3. chk1 H E4. chk1 H E5. chk1 H E6. chk1 H E6b. chk1 H E7.
    destruct (mem (cn (getc s T) FPrim) ks); [| chk1 H E8]; ok_inv H; reflexivity.
Qed.

Lemma view_setc s T c : view_of (setc s T c) = vput (view_of s) (Some (T, c)).
Proof. reflexivity. Qed.

Lemma v_cm_deliver s r T C ks x s' :
  step_cm_deliver s r T C ks x = Ok s' -> vstep (view_of s) (ECmDeliver r T C ks x) (view_of s').
Proof.
  unfold step_cm_deliver. intros H. chk1 H E1. apply sent_by_cm in E1. cbv zeta in H. chk1 H E2.
  (* s2: the state after the store transition, if the result calls for one *)
  assert (K : exists s2 f, view_of s2 = vnet (view_of s) (ECmDeliver r T C ks x) /\ (f = FPcOkd \/ f = FPcFaild) /\
                s' = if has_prim (getc s T) ks then setc s2 T (incn (incn (getc s T) FPcDlv) f) else s2).
  { destruct x.
    - destruct (step_keys _ T ks (tr_cm C)) as [s2|] eqn:K; [| discriminate]. ok_inv H. exists s2, FPcOkd.
      split; [exact (step_keys_view _ _ _ _ _ K) |]. split; [auto |]. destruct (has_prim _ _); reflexivity.
    - destruct (step_keys _ T ks (tr_push m)) as [s2|] eqn:K; [| discriminate]. ok_inv H. exists s2, FPcFaild.
      split; [exact (step_keys_view _ _ _ _ _ K) |]. split; [auto |]. destruct (has_prim _ _); reflexivity.
    - chk1 H E3. ok_inv H. eexists _, FPcFaild. split; [| split; [auto | destruct (has_prim _ _); reflexivity]]. reflexivity.
    - ok_inv H. eexists _, FPcFaild. split; [| split; [auto | destruct (has_prim _ _); reflexivity]]. reflexivity.
    - ok_inv H. eexists _, FPcFaild. split; [| split; [auto | destruct (has_prim _ _); reflexivity]]. reflexivity. }
  destruct K as (s2 & f & K1 & K2 & ->).
  destruct (has_prim (getc s T) ks).
  - apply (vstep_intro _ _ (Some (T, incn (incn (getc s T) FPcDlv) f))); [exact E1 | | rewrite view_setc, K1; reflexivity].
    destruct K2; subst f; sb_tac.
  - apply (vstep_intro _ _ None); [exact E1 | exact I | exact K1].
Qed.

Lemma v_cm_reply s r T C ks x s' :
  step_cm_reply s (ECmReply r T C ks x) r T C ks x = Ok s' -> vstep (view_of s) (ECmReply r T C ks x) (view_of s').
Proof.
  unfold step_cm_reply. intros H. chk1 H E1. chk1 H E2. cbv zeta in H.
  eapply vstep_intro; [exact (delivered_In _ _ E2) | reflexivity |].
  cbv zeta. change (vgetc (view_of s) T) with (getc s T).
  destruct (has_prim (getc s T) ks); [destruct x; try chk1 H E3 |]; injection H as <-; reflexivity.
Qed.

Lemma v_rb_deliver s r T ks x s' :
  step_rb_deliver s r T ks x = Ok s' -> view_of s' = vnet (view_of s) (ERbDeliver r T ks x).
Proof.
  unfold step_rb_deliver. intros H. chk1 H E1.
  destruct x; try (ok_inv H; reflexivity).
  destruct (step_keys _ T ks tr_rb) eqn:K; try discriminate. ok_inv H.
  apply step_keys_view in K. rewrite K. reflexivity.
Qed.

Lemma v_cts_send s r T p caller cur rbine fo rp s' :
  step_cts_send s (ECtsSend r T p caller cur rbine fo rp) r T cur rbine fo = Ok s' ->
  vstep (view_of s) (ECtsSend r T p caller cur rbine fo rp) (view_of s').
Proof.
  unfold step_cts_send. intros H. chk1 H E1. chk1 H E2. chk1 H E2f. ok_inv H.
  apply (vstep_intro _ _ None); [split | exact I | reflexivity].
  2: { intros ->. cbn [negb orb] in E2f. unfold nonasync_seen in E2f. apply existsb_exists in E2f.
       destruct E2f as [[k M] [J1 J2]]. cbn [snd] in J2. apply N.eqb_eq in J2. subst M.
       destruct (csl_lock_ms_spec _ _ _ _ _ J1) as (ks & l & K1 & K2). exists ks, l, k. split; assumption. }
  intros Hc.
  assert (Hb : ((cur =? maxts) || rbine) = true).
  { destruct Hc as [Hc | Hc]; subst; [rewrite N.eqb_refl; reflexivity | apply orb_true_r]. }
  rewrite Hb in E2. cbn [negb orb] in E2.
  unfold expire_allowed in E2. apply orb_true_iff in E2. destruct E2 as [E2 | E2].
  - left. apply existsb_exists in E2. destruct E2 as [[[r' s'] ttl] [I1 I2]].
    apply andb_true_iff in I2. destruct I2 as [I2 I3]. apply andb_true_iff in I2. destruct I2 as [I2 I4].
    apply N.eqb_eq in I2. apply N.eqb_eq in I4. subst. exists ttl. split; [exact I1 |].
    apply orb_true_iff in I3. destruct I3 as [I3 | I3]; [left; apply N.eqb_eq | right; apply N.leb_le]; exact I3.
  - right. apply existsb_exists in E2. destruct E2 as [[r' sp] [I1 I2]]. cbn [fst snd] in I2.
    apply andb_true_iff in I2. destruct I2 as [I2 I3]. apply N.eqb_eq in I2. apply N.leb_le in I3.
    subst. exists sp. split; auto.
Qed.

Lemma v_cts_deliver s r T p st s' :
  step_cts_deliver s r T p st = Ok s' -> vstep (view_of s) (ECtsDeliver r T p st) (view_of s').
Proof.
  unfold step_cts_deliver. intros H. chk1 H E1. cbv zeta in H.
  destruct st; try (ok_inv H; quiet).
  - chk1 H F1. chk1 H F2. chk1 H F3. chk1 H F4.
    destruct (step_key _ T p (tr_cts_locked m)) eqn:K; try discriminate. ok_inv H.
    apply step_key_view in K. rewrite K. quiet.
  - destruct (step_key _ T p (tr_cts_committed c)) eqn:K; try discriminate. ok_inv H.
    apply step_key_view in K. rewrite K. quiet.
  - chk1 H E2. chk1 H E3. destruct (step_key _ T p tr_rb) eqn:K; try discriminate. ok_inv H.
    apply step_key_view in K. rewrite K.
    match goal with |- context [if ?b then _ else _] => destruct b end; [| quiet].
    apply (vstep_intro _ _ (Some (T, setn (getc s T) FStFb 1))); [exact I | sb_tac | reflexivity].
Qed.

Lemma v_csl_deliver s r T ks st s' :
  step_csl_deliver s r T ks st = Ok s' -> view_of s' = vnet (view_of s) (ECslDeliver r T ks st).
Proof.
  unfold step_csl_deliver. intros H. chk1 H E1. cbv zeta in H.
  destruct st.
  - chk1 H F1. chk1 H F2. destruct (step_csl_locks _ T l) eqn:K; try discriminate. ok_inv H.
    apply step_csl_locks_view in K. rewrite K. reflexivity.
  - destruct (c =? 0); [| chk1 H F1; ok_inv H; reflexivity].
    chk1 H F1. destruct (step_keys _ T _ tr_csl_rb) eqn:K; try discriminate. ok_inv H.
    apply step_keys_view in K. rewrite K. reflexivity.
  - ok_inv H. reflexivity.
Qed.

Lemma v_rs_deliver s r T C ks x s' :
  step_rs_deliver s r T C ks x = Ok s' -> view_of s' = vnet (view_of s) (ERsDeliver r T C ks x).
Proof.
  unfold step_rs_deliver. intros H. chk1 H E1. cbv zeta in H.
  destruct x; try (ok_inv H; reflexivity).
  destruct ks.
  - ok_inv H. reflexivity.
  - destruct (step_keys _ T (n :: ks) (tr_rs C)) eqn:K; try discriminate. ok_inv H.
    apply step_keys_view in K. rewrite K. reflexivity.
Qed.

Lemma v_told s T t s' :
  step_told s T t = Ok s' -> vstep (view_of s) (ETold T t) (view_of s').
Proof.
  unfold step_told. intros H. chk1 H E1. chk1 H E2. cbv zeta in H.
  destruct t; chk1 H E3; try chk1 H E4; ok_inv H; (eapply vstep_intro; [assumption | reflexivity ..]).
Qed.

Lemma v_rs_send s r T C ks s' :
  step_rs_send s (ERsSend r T C ks) r T C = Ok s' -> vstep (view_of s) (ERsSend r T C ks) (view_of s').
Proof.
  unfold step_rs_send. intros H. chk1 H E1. cbv zeta in H.
  assert (G : rs_just (view_of s) r T C); [| destruct (just_cts s r T C); chk1 H E2; ok_inv H; (apply (vstep_intro _ _ None); [exact G | exact I | reflexivity])].
  destruct (just_cts s r T C) eqn:J.
  - chk1 H E2. clear H.
    unfold just_cts in J. destruct (find _ (s_cts s)) eqn:F; try discriminate.
    apply find_some in F. destruct F as [F1 F2].
    destruct e; try discriminate. ok_inv J. destruct st; try discriminate.
    + beq. subst. left. split; [intros -> ; discriminate | exists n; exact F1].
    + beq. subst. right. left. split; [reflexivity | exists n; exact F1].
  - chk1 H E2. clear H.
    apply orb_true_iff in E2. destruct E2 as [E2 | E2].
    + right. right. left. apply andb_true_iff in E2. destruct E2 as [E2 E3].
      apply async_cts_spec in E3. destruct E3 as (p & ttl & m & secs & E3 & _).
      split; [| exists p, ttl, m, secs; exact E3].
      unfold csl_missing in E2. apply existsb_exists in E2.
      destruct E2 as [e0 [I1 I2]]. destruct e0; try discriminate. destruct st; try discriminate.
      beq. subst. eexists. exact I1.
    + right. right. right. unfold csl_all_locked in E2. apply existsb_exists in E2.
      destruct E2 as [e0 [I1 I2]]. destruct e0; try discriminate. destruct st; try discriminate.
      destruct async; try discriminate. cbv zeta in I2.
      apply andb_true_iff in I2. destruct I2 as [I2 I3].
      apply andb_true_iff in I2. destruct I2 as [I2 I4].
      apply andb_true_iff in I3. destruct I3 as [I3 I5].
      apply andb_true_iff in I3. destruct I3 as [I3 I6].
      apply N.eqb_eq in I2. apply N.eqb_eq in I4. apply N.eqb_eq in I5. subst r0 s0.
      exists p, ttl, m, secs. split; [exact I1|].
      pose proof (AddKeys.fold_max_ge (map snd (filter (fun km => mem (fst km) secs) (csl_lock_ms s r T))) m) as [G1 G2].
      rewrite <- I5 in G1, G2. split; [exact G1|].
      intros k Hk. rewrite forallb_forall in I3. specialize (I3 k Hk).
      apply existsb_exists in I3. destruct I3 as [[k' m'] [J1 J2]]. cbn [fst] in J2.
      apply N.eqb_eq in J2. subst k'.
      assert (Hm : m' <= C).
      { apply G2. apply in_map_iff. exists (k, m'). split; [reflexivity|].
        apply filter_In. split; [exact J1|]. cbn [fst]. apply mem_In. exact Hk. }
      assert (Hnz : m' <> 0).
      { rewrite forallb_forall in I6. specialize (I6 (k, m')). cbn [snd] in I6. apply N.eqb_neq. apply negb_true_iff. apply I6.
        apply filter_In. split; [exact J1|]. cbn [fst]. apply mem_In. exact Hk. }
      destruct (csl_lock_ms_spec _ _ _ _ _ J1) as (ks0 & l & K1 & K2).
      exists ks0, l, m'. split; [exact K1|]. split; [exact K2 |]. split; [exact Hm | exact Hnz].
Qed.

Theorem stepr_vstep s e s' : stepr s e = Ok s' -> vstep (view_of s) e (view_of s').
Proof.
  destruct e; unfold stepr; intros H.
  - chk1 H E. ok_inv H. apply N.ltb_lt in E. apply (vstep_intro _ _ None); [exact E | exact I | reflexivity].
  - chk1 H E. ok_inv H. quiet.
  - ok_inv H. eapply vstep_intro; [exact I | reflexivity ..].
  - cbv zeta in H. chk1 H E1. chk1 H E2. chk1 H E3. ok_inv H.
    repeat (apply andb_true_iff in E1; destruct E1 as [E1 ?]).
    apply negb_true_iff in E1.
    repeat match goal with X : (_ =? _) = true |- _ => apply N.eqb_eq in X end.
    eapply vstep_intro; [| reflexivity ..].
    split; [exact E1|]. split; [assumption|]. split; [assumption | apply mem_In; exact E2].
  - exact (v_pw_send _ _ _ _ _ _ _ _ _ _ _ H).
  - exact (v_pw_deliver _ _ _ _ _ _ H).
  - exact (v_pw_reply _ _ _ _ _ _ H).
  - exact (v_cm_send _ _ _ _ _ _ H).
  - exact (v_cm_deliver _ _ _ _ _ _ _ H).
  - exact (v_cm_reply _ _ _ _ _ _ _ H).
  - unfold step_rb_send in H. chk1 H E1. chk1 H E2. ok_inv H. eapply vstep_intro; [exact E2 | reflexivity ..].
  - apply v_rb_deliver in H. rewrite H. quiet.
  - unfold plain_reply in H. chk1 H E1. chk1 H E2. ok_inv H. quiet.
  - cbv zeta in H. chk1 H E1. chk1 H E2. ok_inv H.
    eapply (vstep_intro _ _ (Some (s0, _))); [exact I | | reflexivity]; sb_tac.
  - chk1 H E1. ok_inv H. quiet.
  - unfold plain_reply in H. chk1 H E1. chk1 H E2. ok_inv H. quiet.
  - unfold plain_send in H. chk1 H E1. ok_inv H. quiet.
  - chk1 H E1. ok_inv H. quiet.
  - unfold plain_reply in H. chk1 H E1. chk1 H E2. ok_inv H. quiet.
  - exact (v_cts_send _ _ _ _ _ _ _ _ _ _ H).
  - exact (v_cts_deliver _ _ _ _ _ _ H).
  - chk1 H E1. chk1 H E2. ok_inv H. quiet.
  - chk1 H E1. chk1 H E2. ok_inv H. apply (vstep_intro _ _ None); [exact E2 | exact I | reflexivity].
  - apply v_csl_deliver in H. rewrite H. quiet.
  - chk1 H E1. chk1 H E2. ok_inv H. quiet.
  - exact (v_rs_send _ _ _ _ _ _ H).
  - apply v_rs_deliver in H. rewrite H. quiet.
  - unfold plain_reply in H. chk1 H E1. chk1 H E2. ok_inv H. quiet.
  - unfold step_hb_send in H. chk1 H E1. chk1 H E2. chk1 H E3. chk1 H E4. chk1 H E5. ok_inv H.
    eapply (vstep_intro _ _ (Some (s0, _))); [exact I | | reflexivity]; sb_tac.
  - chk1 H E1. ok_inv H. quiet.
  - ok_inv H. quiet.
  - exact (v_told _ _ _ _ H).
  - ok_inv H. eapply (vstep_intro _ _ (Some (s0, _))); [exact I | | reflexivity]; sb_tac.
  - ok_inv H. quiet.
  - ok_inv H. quiet.
  - ok_inv H. quiet.
Qed.
