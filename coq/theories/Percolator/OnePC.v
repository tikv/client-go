(* Percolator/OnePC.v — invariants of a one-phase-commit transaction that has not fallen back:
   the store applies the whole request in one step, so all keys are committed together. *)
From Verif Require Export Percolator.Layer2e.

Definition onepcm (s : sys) (T : N) : Prop :=
  hasm s T /\ F s T FTried1 <> 0 /\ F s T FFb1 = 0 /\ F s T FStFb = 0.
Definition call (s : sys) (T : N) : list N := c_all (getc s T).
Lemma onepcm_cp : forall s T, onepcm s T -> cp_active (getc s T) = true.
Proof.
  intros s T [_ [H1 [H2 _]]]. unfold cp_active, onepc_on, F in *. apply fb_true in H1. rewrite H1.
  rewrite (proj2 (fb_false _ _) H2). apply orb_true_r.
Qed.

Record oinv (s : sys) (T : N) : Prop := {
  o_send : forall r p ks a o m f secs, In (EPwSend r T p ks a o m f secs) (s_sent s) ->
           o = true /\ forall k, In k (call s T) -> In k ks;
  o_entry : forall r ks m o, In (EPwReply r T ks (PwOk m o)) (s_dlv s) ->
            o <> 0 /\ forall k, In k (call s T) -> kget s T k = Committed o;
  o_nolock : forall k m, kget s T k <> Locked m;
  o_commit : forall k c, kget s T k = Committed c -> exists r ks m, In (EPwReply r T ks (PwOk m c)) (s_dlv s);
  o_cnt : forall k, kc s T KDlv k <= kc s T KSent k /\ kc s T KNeg k <= kc s T KNegD k;
  o_dead : (F s T FTold = 3 \/ exists r ks, In (ERbSend r T ks) (s_sent s)) ->
           exists k0, In k0 (lm s T) /\ kc s T KSent k0 = kc s T KNegD k0;
  o_1pcts : F s T F1pcTs <> 0 -> exists r ks m, In (EPwReply r T ks (PwOk m (F s T F1pcTs))) (s_dlv s);
  o_told : F s T FTold = 1 -> exists c, kget s T (prim s T) = Committed c
}.

Section Cons.
  Variables (s : sys) (T : N).
  Hypothesis G : ginv s T.
  Hypothesis L : linv s T.
  Hypothesis Hm : hasm s T.
  Hypothesis O : oinv s T.
  Lemma o_prim_all : In (prim s T) (call s T).
  Proof. apply (l_lm_all _ _ L). apply (l_prim _ _ L). auto. Qed.
  Lemma o_all_committed : forall k c, kget s T k = Committed c -> forall k', In k' (call s T) -> kget s T k' = Committed c.
  Proof. intros k c H k' Hk. destruct (o_commit _ _ O _ _ H) as [r [ks [m E]]]. apply (o_entry _ _ O) in E. apply E. auto. Qed.
  Lemma o_one_ts : forall k1 k2 c1 c2, kget s T k1 = Committed c1 -> kget s T k2 = Committed c2 -> c1 = c2.
  Proof.
    intros k1 k2 c1 c2 H1 H2. pose proof (o_all_committed _ _ H1 _ o_prim_all) as A. pose proof (o_all_committed _ _ H2 _ o_prim_all) as B.
    congruence.
  Qed.
  Lemma o_all_or_nothing : forall k1 k2 c, kget s T k1 = Committed c -> In k2 (lm s T) -> kget s T k2 <> RolledBack.
  Proof. intros k1 k2 c H Hk E. rewrite (o_all_committed _ _ H k2) in E; [discriminate |]. apply (l_lm_all _ _ L). auto. Qed.
  (* a closed key: no entry can exist, hence nothing is committed *)
  Lemma o_closed_no_commit : forall k0, In k0 (lm s T) -> kc s T KSent k0 = kc s T KNegD k0 -> forall k c, kget s T k <> Committed c.
  Proof.
    intros k0 Hk0 Hc k c E. destruct (o_commit _ _ O _ _ E) as [r [ks [m En]]].
    destruct (g_pw_sent _ _ G _ _ _ En) as [p [a [o [m0 [f [secs Hs]]]]]].
    destruct (o_send _ _ O _ _ _ _ _ _ _ _ Hs) as [_ Hall]. assert (Hin : In k0 ks) by (apply Hall; apply (l_lm_all _ _ L); auto).
    pose proof (l_okcnt _ _ L _ _ _ _ _ En Hin) as Lt. destruct (o_cnt _ _ O k0) as [A _]. lia.
  Qed.
End Cons.

(* before its first prewrite request nothing of a transaction exists that oinv speaks about *)
Lemma oinv_fresh : forall s T, ginv s T -> l0inv s T -> F s T FPwSent = 0 -> F s T FTold = 0 -> F s T FDead = 0 -> oinv s T.
Proof.
  intros s T G Z E0 Et Ed.
  destruct (fresh_no_pw s T G E0) as [NoS NoD].
  assert (KF : forall k, kget s T k = Unlocked \/ kget s T k = RolledBack) by (intros; apply (g_kst_fresh _ _ G); auto).
  constructor; intros.
  - exfalso. eapply NoS; eauto.
  - exfalso. eapply NoD; eauto.
  - intros E. destruct (KF k); congruence.
  - exfalso. destruct (KF k); congruence.
  - unfold kc, kcnt. rewrite (z_cnt0 _ _ Z E0). cbn. split; lia.
  - exfalso. destruct H as [H | [r [ks H]]]; [congruence | apply (g_rb_dead _ _ G) in H; contradiction].
  - exfalso. apply (g_1pcts _ _ G) in H. apply (z_tried _ _ Z); auto.
  - congruence.
Qed.

Lemma onepcm_back : forall s s' T, same_acct (getc s T) (getc s' T) -> onepcm s' T -> onepcm s T.
Proof.
  intros s s' T [_ _ _ _ _ A] [H1 [H2 [H3 H4]]]. unfold onepcm, hasm, F in *.
  rewrite (A FHasm), (A FTried1), (A FFb1), (A FStFb) in * by reflexivity. auto.
Qed.

(* a step that does not touch the prewrite bookkeeping of T, moves T's keys by kevo, and is neither a prewrite request,
   nor its delivery, nor a rollback request of T *)
Definition calm (e : event) : Prop :=
  match e with EPwSend _ _ _ _ _ _ _ _ _ | ERbSend _ _ _ | EPwDeliver _ _ _ _ => False | _ => True end.
Lemma oinv_stable : forall s e s' T, stepr s e = Ok s' ->
  (forall k, kevo (kget s T k) (kget s' T k)) -> same_acct (getc s T) (getc s' T) -> (txn_of e = Some T -> calm e) ->
  oinv s T -> oinv s' T.
Proof.
  intros s e s' T St K [A1 A2 A3 A4 A5 A6] Ca O.
  assert (Hs : forall x, In x (s_sent s') -> txn_of x = Some T -> ~ calm x -> In x (s_sent s)).
  { intros x Hx Ht Hc. destruct (stepr_sent_new _ _ _ St _ Hx) as [B | <-]; [exact B | destruct (Hc (Ca Ht))]. }
  assert (Hd : forall r ks x, In (EPwReply r T ks x) (s_dlv s') -> In (EPwReply r T ks x) (s_dlv s)).
  { intros r ks x Hx. destruct (stepr_dlv_new _ _ _ St _ Hx) as [B | B]; [exact B |].
    destruct e; try discriminate B. inversion B. subst. destruct (Ca eq_refl). }
  pose proof (stepr_dlv_incl _ _ _ St) as Hd'.
  assert (KM : forall k c, kget s T k = Committed c -> kget s' T k = Committed c).
  { intros k c E. specialize (K k). rewrite E in K. destruct K as [K | [[m [K _]] | [[m [K _]] | [K _]]]]; auto; discriminate. }
  assert (EF : forall f, modef f = true -> F s' T f = F s T f) by (intros; unfold F; auto).
  constructor; unfold call, kc, lm, prim, kcnt in *; intros; rewrite ?A1, ?A3, ?A4 in *; repeat rewrite EF in * by reflexivity.
  - apply Hs in H; auto. apply (o_send _ _ O) in H. auto.
  - apply Hd in H. destruct (o_entry _ _ O _ _ _ _ H) as [B1 B2]. split; auto.
  - intros E. specialize (K k). rewrite E in K. apply kevo_locked in K. eapply (o_nolock _ _ O); eauto.
  - specialize (K k). rewrite H in K. apply kevo_committed in K. destruct K as [K | [m K]]; [| exfalso; eapply (o_nolock _ _ O); eauto].
    destruct (o_commit _ _ O _ _ K) as [r [ks [m E]]]. exists r, ks, m. auto.
  - apply (o_cnt _ _ O).
  - apply (o_dead _ _ O). destruct H as [H | [r [ks H]]]; [left; auto | right; exists r, ks; apply Hs; auto].
  - destruct (o_1pcts _ _ O H) as [r [ks [m E]]]. exists r, ks, m. auto.
  - destruct (o_told _ _ O H) as [c E]. exists c. auto.
Qed.

Lemma oinv_quiet : forall s e s' T, quiet e = true -> stepr s e = Ok s' -> oinv s T -> oinv s' T.
Proof.
  intros s e s' T Hq H O.
  assert (Hn : npw e = true) by (destruct e; try reflexivity; discriminate Hq).
  apply (oinv_stable s e s' T H); [| | | exact O].
  - intros k. apply (stepr_kevos _ _ _ Hn H).
  - eapply stepr_quiet; eauto.
  - intros _. destruct e; try discriminate Hq; exact I.
Qed.

Lemma oinv_other : forall s e s' T, stepr s e = Ok s' -> txn_of e <> Some T -> oinv s T -> oinv s' T.
Proof.
  intros s e s' T H Hne O. apply (oinv_stable s e s' T H); [| | | exact O].
  - intros k. rewrite (a_k _ _ _ (step_agree _ _ _ T H Hne)). apply kevo_refl.
  - rewrite (stepr_getc_other _ _ _ T H Hne). apply same_acct_refl.
  - intros Et. contradiction.
Qed.
