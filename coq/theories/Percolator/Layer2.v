(* Percolator/Layer2.v — second invariant layer, general part: what one accepted step can do. How the abstract
   store evolves outside prewrite deliveries (kevo), which parts of the client record of its transaction an event
   may write (footprint), how the message sets grow (grows). The three facts are proved in one case analysis of the
   acceptor (stepr_frame); everything else in this layer reads a step through them. *)
From Verif Require Export Percolator.Atomic.

(* evolution of a key outside prewrite deliveries: a lock is committed or rolled back, an unlocked
   key gets a rollback marker; nothing else *)
Definition kevo (v v' : kstate) : Prop :=
  v' = v \/ (exists m, v = Locked m /\ exists c, v' = Committed c) \/
  (exists m, v = Locked m /\ v' = RolledBack) \/ (v = Unlocked /\ v' = RolledBack).
Lemma kevo_refl : forall v, kevo v v. Proof. left. auto. Qed.
Lemma kevo_trans : forall a b c, kevo a b -> kevo b c -> kevo a c.
Proof.
  unfold kevo. intros a b c H1 H2.
  destruct H1 as [-> | [[m [-> [c1 ->]]] | [[m [-> ->]] | [-> ->]]]]; auto.
  - destruct H2 as [-> | [[m' [E _]] | [[m' [E _]] | [E _]]]]; try discriminate. right. left. eauto.
  - destruct H2 as [-> | [[m' [E _]] | [[m' [E _]] | [E _]]]]; try discriminate. right. right. left. eauto.
  - destruct H2 as [-> | [[m' [E _]] | [[m' [E _]] | [E _]]]]; try discriminate. right. right. right. auto.
Qed.
Lemma kevo_locked : forall v m, kevo v (Locked m) -> v = Locked m.
Proof. intros v m [H | [[m' [_ [c H]]] | [[m' [_ H]] | [_ H]]]]; auto; discriminate. Qed.
Lemma kevo_committed : forall v c, kevo v (Committed c) -> v = Committed c \/ exists m, v = Locked m.
Proof. intros v c [H | [[m' [H _]] | [[m' [_ H]] | [_ H]]]]; eauto; discriminate. Qed.
Lemma kevo_unlocked : forall v, kevo v Unlocked -> v = Unlocked.
Proof. intros v [H | [[m' [_ [c H]]] | [[m' [_ H]] | [_ H]]]]; auto; discriminate. Qed.

Definition tr_evo (tr : kstate -> option kstate) : Prop :=
  (forall v v', tr v = Some v' -> kevo v v') /\
  (forall m c v', tr (Locked m) = None -> tr (alt_of c) = Some v' -> kevo (Locked m) v').
Ltac evo_tac :=
  split; [ intros v0 v0' H; destruct v0; cbn in H;
           repeat match type of H with context [if ?b then _ else _] => destruct b eqn:? end;
           inversion H; subst; clear H; unfold kevo; eauto 8
         | intros ? ? ? H0 H1; try discriminate H0 ].
Lemma tr_cm_evo : forall c, tr_evo (tr_cm c). Proof. intros c. evo_tac. Qed.
Lemma tr_push_evo : forall m, tr_evo (tr_push m). Proof. intros m. split; [intros v v' H; inversion H; apply kevo_refl | intros ? ? ? H0; discriminate H0]. Qed.
Lemma tr_rb_evo : tr_evo tr_rb. Proof. evo_tac. Qed.
Lemma tr_rs_evo : forall c, tr_evo (tr_rs c).
Proof.
  intros c. split; [| intros ? ? ? H0; discriminate H0]. intros v v' H. destruct v; cbn in H; inversion H; try apply kevo_refl.
  destruct (alt_of_final c) as [E | E]; rewrite E; unfold kevo; eauto 8.
Qed.
Lemma tr_cts_committed_evo : forall c, tr_evo (tr_cts_committed c).
Proof.
  intros c. split.
  - intros v v' H. apply tr_cts_committed_res in H. destruct H as [-> ->]. apply kevo_refl.
  - intros m c0 v' _ H. apply tr_cts_committed_res in H. destruct H as [-> _]. unfold kevo. eauto 8.
Qed.
Lemma tr_cts_locked_evo : forall m, tr_evo (tr_cts_locked m). Proof. intros m. evo_tac. Qed.
Lemma tr_csl_lock_evo : forall m, tr_evo (tr_csl_lock m). Proof. intros m. evo_tac. Qed.
Lemma tr_csl_rb_evo : tr_evo tr_csl_rb. Proof. evo_tac. Qed.

Definition kevos (s s' : sys) : Prop := forall T k, kevo (kget s T k) (kget s' T k).
Lemma kevos_refl : forall s, kevos s s. Proof. intros s T k. apply kevo_refl. Qed.
Section KE.
  Variables (s x : sys).
  Hypothesis K : kevos s x.
  Lemma ke_same : forall y, (forall T k, kget y T k = kget x T k) -> kevos s y.
  Proof. intros y E T k. rewrite E. apply (K T k). Qed.
  Lemma ke_step_keys : forall T ks tr y, tr_evo tr -> step_keys x T ks tr = Some y -> kevos s y.
  Proof.
    intros T ks tr y [H1 H2] E T' k. eapply kevo_trans; [apply (K T' k) |].
    eapply (step_keys_rel kevo kevo_refl kevo_trans tr H1 H2); eauto.
  Qed.
  Lemma ke_step_key : forall T k0 tr y, tr_evo tr -> step_key x T k0 tr = Some y -> kevos s y.
  Proof.
    intros T k0 tr y [H1 H2] E T' k. eapply kevo_trans; [apply (K T' k) |].
    eapply (step_key_rel kevo kevo_refl tr H1 H2); eauto.
  Qed.
End KE.

Lemma step_csl_locks_kevos : forall l x T y, step_csl_locks x T l = Some y -> kevos x y.
Proof.
  induction l as [| [k m] l IH]; intros x T y E; cbn [step_csl_locks] in E.
  - inversion E. apply kevos_refl.
  - destruct (step_key x T k (tr_csl_lock m)) as [x1 |] eqn:E1; try discriminate.
    intros T' k'. eapply kevo_trans; [| apply (IH _ _ _ E T' k')].
    apply (ke_step_key x x (kevos_refl x) T k (tr_csl_lock m) x1 (tr_csl_lock_evo m) E1 T' k').
Qed.
Lemma ke_step_csl : forall s x T l y, kevos s x -> step_csl_locks x T l = Some y -> kevos s y.
Proof. intros s x T l y K E T' k. eapply kevo_trans; [apply (K T' k) | apply (step_csl_locks_kevos _ _ _ _ E T' k)]. Qed.


(* every update other than a key step leaves the store as it is *)
Ltac ke_tac :=
  repeat lazymatch goal with
         | |- kevos ?s ?s => apply kevos_refl
         | E : step_keys _ _ _ _ = Some ?y |- kevos _ ?y =>
             eapply ke_step_keys; [| | exact E];
             [| first [apply tr_cm_evo | apply tr_rb_evo | apply tr_rs_evo | apply tr_push_evo | apply tr_csl_rb_evo ]]
         | E : step_key _ _ _ _ = Some ?y |- kevos _ ?y =>
             eapply ke_step_key; [| | exact E];
             [| first [apply tr_cts_committed_evo | apply tr_rb_evo | apply tr_cts_locked_evo ]]
         | E : step_csl_locks _ _ _ = Some ?y |- kevos _ ?y => eapply ke_step_csl; [| exact E]
         | |- kevos _ (setc ?x _ _) => apply (ke_same _ x); [| reflexivity]
         | |- kevos _ (?w ?x _) => apply (ke_same _ x); [| reflexivity]
         end.

Definition npw (e : event) : bool := match e with EPwDeliver _ _ _ _ => false | _ => true end.

Lemma occ_pos : forall k ks, In k ks -> 0 < occ k ks.
Proof.
  induction ks as [| k' ks IH]; intros H; [destruct H |]. cbn [occ]. destruct H as [-> | H].
  - rewrite N.eqb_refl. lia.
  - specialize (IH H). destruct (k' =? k); lia.
Qed.
Lemma kcnt_l_app : forall t k a b, kcnt_l t k (a ++ b) = kcnt_l t k a + kcnt_l t k b.
Proof. induction a as [| [t' k'] a IH]; intros; cbn [kcnt_l app]; auto. rewrite IH. lia. Qed.
Lemma kcnt_l_map : forall t t' k ks, kcnt_l t' k (map (fun k0 => (t, k0)) ks) = if t =? t' then occ k ks else 0.
Proof.
  induction ks as [| k0 ks IH]; cbn [kcnt_l map occ]; [destruct (t =? t'); auto |].
  rewrite IH. destruct (t =? t'); cbn [andb]; lia.
Qed.
Lemma kcnt_add_kl : forall c t ks t' k, kcnt (add_kl c t ks) t' k = (if t =? t' then occ k ks else 0) + kcnt c t' k.
Proof. intros. unfold kcnt, add_kl. cbn [c_kl]. rewrite kcnt_l_app, kcnt_l_map. reflexivity. Qed.

(* which parts of its client record an event may write *)
Definition writes (e : event) : list fld :=
  match e with
  | ECommitCall _ _ => [FCalled; FCausal; FWm]
  | EMutations _ _ _ => [FHasm; FPrim]
  | EPwSend _ _ _ _ _ _ _ _ _ => [FPwSent; FTriedA; FFb; FTried1; FFb1]
  | EPwDeliver _ _ _ _ | ECtsDeliver _ _ _ _ => [FStFb]
  | EPwReply _ _ _ _ => [FPwRep; FMinc; FFb1; FFb; F1pcTs; FPwErr]
  | ECmSend _ _ _ _ => [FPcSent]
  | ECmDeliver _ _ _ _ _ => [FPcDlv; FPcOkd; FPcFaild]
  | ECmReply _ _ _ _ _ => [FPcRep; FPcOk; FPcNeg; FPcRb]
  | ERbSend _ _ _ => [FDead]
  | EPlSend _ _ _ _ _ => [FPlAny; FPlPrim]
  | EHbSend _ _ _ _ => [FHb]
  | ETold _ _ => [FTold; FDead]
  | ERollbackTold _ => [FRbTold]
  | _ => []
  end.
Definition wr (e : event) (f : fld) : bool := existsb (fld_eqb f) (writes e).
(* tags of the per-key prewrite accounting an event may add to *)
Definition wtag (e : event) (t : N) : bool :=
  match e with
  | EPwSend _ _ _ _ _ _ _ _ _ => t =? KSent
  | EPwDeliver _ _ _ _ => (t =? KDlv) || (t =? KNegD)
  | EPwReply _ _ _ _ => (t =? KNeg) || (t =? KRep)
  | _ => false
  end.
Definition quiet3 (e : event) : bool :=
  match e with EPwSend _ _ _ _ _ _ _ _ _ | EPwDeliver _ _ _ _ | EPwReply _ _ _ _ => false | _ => true end.
Definition nmuts (e : event) : bool := match e with EMutations _ _ _ => false | _ => true end.
Definition npwrep (e : event) : bool := match e with EPwReply _ _ _ _ => false | _ => true end.

Record footprint (e : event) (c c' : crec) : Prop := {
  fp_cn : forall f, wr e f = false -> cn c' f = cn c f;
  fp_lm : nmuts e = true -> c_lm c' = c_lm c;
  fp_all : nmuts e = true -> c_all c' = c_all c;
  fp_pwok : npwrep e = true -> c_pwok c' = c_pwok c;
  fp_kl : quiet3 e = true -> c_kl c' = c_kl c;
  fp_kcnt : forall t k, wtag e t = false -> kcnt c' t k = kcnt c t k;
  fp_lam : npw e = true -> c_lam c' = c_lam c }.

Lemma wtag_quiet3 : forall e t, wtag e t = true -> quiet3 e = false.
Proof. intros e t H. destruct e; try discriminate H; reflexivity. Qed.

Section Footprint.
  Variables (e : event) (c : crec).
  Lemma fp_refl : footprint e c c. Proof. constructor; auto. Qed.
  Variable c1 : crec.
  Hypothesis P : footprint e c c1.
  Lemma fp_setn : forall f v, wr e f = true -> footprint e c (setn c1 f v).
  Proof.
    intros f v W. destruct P. constructor; auto. intros g Hg. rewrite cn_setn.
    destruct (fld_eqb g f) eqn:E; auto. apply fld_eqb_eq in E. congruence.
  Qed.
  Lemma fp_incn : forall f, wr e f = true -> footprint e c (incn c1 f).
  Proof. intros. apply fp_setn. auto. Qed.
  Lemma fp_add_kl : forall t ks, wtag e t = true -> footprint e c (add_kl c1 t ks).
  Proof.
    intros t ks W. destruct P. constructor; auto.
    - intros Q. rewrite (wtag_quiet3 _ _ W) in Q. discriminate Q.
    - intros t' k W'. rewrite kcnt_add_kl. destruct (N.eqb_spec t t') as [-> | _]; [congruence | rewrite N.add_0_l; auto].
  Qed.
  Lemma fp_add_lam : forall ks m, npw e = false -> footprint e c (add_lam c1 ks m).
  Proof. intros ks m W. destruct P. constructor; auto. congruence. Qed.
  Lemma fp_add_pwok : forall ks, npwrep e = false -> footprint e c (add_pwok c1 ks).
  Proof. intros ks W. destruct P. constructor; auto. congruence. Qed.
  Lemma fp_set_muts : forall a b, nmuts e = false -> footprint e c (set_muts c1 a b).
  Proof. intros a b W. destruct P. constructor; auto; congruence. Qed.
  Lemma fp_if : forall (d : bool) c2, footprint e c c2 -> footprint e c (if d then c1 else c2).
  Proof. intros d c2 P2. destruct d; auto. Qed.
End Footprint.

(* the same for the record of transaction T0 inside a state; other transactions keep theirs *)
Definition fps (e : event) (T0 : N) (s x : sys) : Prop :=
  footprint e (getc s T0) (getc x T0) /\ (txn_of e <> Some T0 -> getc x T0 = getc s T0).
Section Fps.
  Variables (e : event) (T0 : N) (s : sys).
  Lemma fps_refl : fps e T0 s s. Proof. split; [apply fp_refl | auto]. Qed.
  Lemma fps_eq : forall x y, fps e T0 s x -> getc y T0 = getc x T0 -> fps e T0 s y.
  Proof. intros x y [A B] E. unfold fps. rewrite E. auto. Qed.
  Lemma fps_if : forall (d : bool) x y, fps e T0 s x -> fps e T0 s y -> fps e T0 s (if d then x else y).
  Proof. intros d x y A B. destruct d; auto. Qed.
  Lemma fps_setc : forall x T c, txn_of e = Some T -> fps e T0 s x -> footprint e (getc s T) c -> fps e T0 s (setc x T c).
  Proof.
    intros x T c Et [A B] P. unfold fps. destruct (N.eq_dec T T0) as [-> | Hne].
    - rewrite getc_setc_eq. split; [auto | intros H; contradiction].
    - rewrite getc_setc_ne by auto. auto.
  Qed.
End Fps.

(* an invariant P that every step preserves under an auxiliary invariant Q holds along a run *)
Lemma run_from_preserves : forall (Q P : sys -> Prop),
  (forall s e s', Q s -> stepr s e = Ok s' -> Q s') -> (forall s e s', Q s -> P s -> stepr s e = Ok s' -> P s') ->
  forall evs s s', Q s -> P s -> run_from s evs = Some s' -> Q s' /\ P s'.
Proof.
  intros Q P HQ HP evs s s' q p. apply (run_from_preserved (fun x => Q x /\ P x)); [| auto].
  intros x e y [qx px] E. split; eauto.
Qed.

(* the new record is a nest of setters and conditionals around the old one: no boolean is ever split *)
Ltac fp_rec :=
  repeat first [ apply fp_refl
               | apply fp_setn; [| reflexivity] | apply fp_incn; [| reflexivity] | apply fp_add_kl; [| reflexivity]
               | apply fp_add_lam; [| reflexivity] | apply fp_add_pwok; [| reflexivity] | apply fp_set_muts; [| reflexivity]
               | apply fp_if
               | match goal with |- footprint _ _ (match ?x with _ => _ end) => destruct x end ].
Ltac fp_tac :=
  repeat lazymatch goal with
         | |- fps _ _ _ (setc _ _ _) => apply fps_setc; [reflexivity | | fp_rec]
         | |- fps _ _ _ (if _ then _ else _) => apply fps_if
         | |- fps _ _ ?s ?s => apply fps_refl
         | E : step_keys ?x _ _ _ = Some ?y |- fps _ _ _ ?y => apply (fps_eq _ _ _ x); [| exact (step_keys_getc _ _ _ _ _ _ E)]
         | E : step_key ?x _ _ _ = Some ?y |- fps _ _ _ ?y => apply (fps_eq _ _ _ x); [| exact (step_key_getc _ _ _ _ _ _ E)]
         | E : step_csl_locks ?x _ _ = Some ?y |- fps _ _ _ ?y => apply (fps_eq _ _ _ x); [| exact (step_csl_getc _ _ _ _ _ E)]
         | |- fps _ _ _ (?w ?x _) => apply (fps_eq _ _ _ x); [| reflexivity]
         end.

Definition reply_of (e : event) : option event :=
  match e with
  | EPwDeliver r T ks x => Some (EPwReply r T ks x)
  | ECmDeliver r T c ks x => Some (ECmReply r T c ks x)
  | ERbDeliver r T ks x => Some (ERbReply r T ks x)
  | EPlDeliver r T f ks x => Some (EPlReply r T f ks x)
  | EPrDeliver r T f ks x => Some (EPrReply r T f ks x)
  | ECtsDeliver r T p st => Some (ECtsReply r T p st)
  | ECslDeliver r T ks st => Some (ECslReply r T ks st)
  | ERsDeliver r T c ks x => Some (ERsReply r T c ks x)
  | _ => None
  end.

(* how the message sets grow in one step *)
Definition grows (s : sys) (e : event) (s' : sys) : Prop :=
  (s_sent s' = s_sent s \/ s_sent s' = e :: s_sent s) /\
  match reply_of e with Some x => s_dlv s' = x :: s_dlv s | None => s_dlv s' = s_dlv s end /\
  (s_cts s' = s_cts s \/ ((exists r T p st, e = ECtsReply r T p st) /\ s_cts s' = e :: s_cts s)) /\
  (s_csl s' = s_csl s \/ ((exists r T ks st, e = ECslReply r T ks st) /\ s_csl s' = e :: s_csl s)) /\
  (s_rs s' = s_rs s \/ exists r T c ks j, e = ERsSend r T c ks /\ s_rs s' = (T, c, j) :: s_rs s) /\
  (s_wr s' = s_wr s \/ exists r T c, e = ERsDeliver r T c [] GOk /\ s_wr s' = (T, c) :: s_wr s).
Ltac ls_tac :=
  repeat match goal with
         | E : step_keys _ _ _ _ = Some _ |- _ => apply step_keys_sbk in E; rewrite E; clear E
         | E : step_key _ _ _ _ = Some _ |- _ => apply step_key_sbk in E; rewrite E; clear E
         | E : step_csl_locks _ _ _ = Some _ |- _ => apply step_csl_locks_char in E; destruct E as [E _]; rewrite E; clear E
         end;
  unfold grows; sproj_g; cbn [reply_of]; repeat split; first [reflexivity | left; reflexivity | right; eauto 12].

Definition kchange (e : event) : bool :=
  match e with
  | EPwDeliver _ _ _ _ | ECmDeliver _ _ _ _ _ | ERbDeliver _ _ _ _ | ECtsDeliver _ _ _ _ | ECslDeliver _ _ _ _
  | ERsDeliver _ _ _ _ _ => true
  | _ => false
  end.
(* one accepted step: the store (untouched by most events, moving by kevo outside prewrite deliveries), the record of T0,
   the message sets *)
Definition frame (s : sys) (e : event) (T0 : N) (s' : sys) : Prop :=
  (kchange e = false -> s_kst s' = s_kst s) /\ (npw e = true -> kevos s s') /\ fps e T0 s s' /\ grows s e s'.
(* The case analysis follows the control flow of the acceptor down to the expression of the final state; at every leaf
   [s'] has been replaced by that expression and the equations of the key updates ([step_keys _ _ _ _ = Some y], ...)
   are in the context, so each component is settled by its own closure lemmas without splitting any further boolean. *)
Lemma stepr_frame : forall s e s' T0, stepr s e = Ok s' -> frame s e T0 s'.
Proof.
  intros s e s' T0 H. destruct_event e; cbn [stepr] in H; unfold_step H; chks H;
    repeat match type of H with
           | (match ?d with _ => _ end) = Ok _ => destruct d eqn:?; chks H; try discriminate H
           | (if ?d then _ else _) = Ok _ => destruct d eqn:?; chks H; try discriminate H
           end;
    okinv H;
    repeat match goal with
           | |- context [if ?d then setc _ _ _ else _] => destruct d
           | E : context [if ?d then setc _ _ _ else _] |- _ => destruct d
           end.
  all: split; [intros Hk; first [discriminate Hk | reflexivity] |].
  all: split; [intros Hn; first [discriminate Hn | ke_tac] | split; [fp_tac | ls_tac]].
Qed.

Lemma stepr_kst_same : forall s e s', kchange e = false -> stepr s e = Ok s' -> s_kst s' = s_kst s.
Proof. intros s e s' Hk H. apply (stepr_frame s e s' 0 H). exact Hk. Qed.
Lemma kget_of_kst : forall s s' T k, s_kst s' = s_kst s -> kget s' T k = kget s T k.
Proof. intros. unfold kget. rewrite H. auto. Qed.

Lemma stepr_kevos : forall s e s', npw e = true -> stepr s e = Ok s' -> kevos s s'.
Proof. intros s e s' Hn H. apply (stepr_frame s e s' 0 H). exact Hn. Qed.
Lemma stepr_fps : forall s e s' T0, stepr s e = Ok s' -> fps e T0 s s'.
Proof. intros s e s' T0 H. apply (stepr_frame s e s' T0 H). Qed.
Lemma stepr_cn : forall s e s' T f, stepr s e = Ok s' -> F s' T f = F s T f \/ (txn_of e = Some T /\ wr e f = true).
Proof.
  intros s e s' T f H. unfold F. destruct (stepr_fps _ _ _ T H) as [A B].
  destruct (txn_of_dec e T) as [Et | Hn]; [| left; rewrite (B Hn); reflexivity].
  destruct (wr e f) eqn:W; [right; auto | left; exact (fp_cn _ _ _ A f W)].
Qed.
Lemma wr_inv : forall e T f, txn_of e = Some T -> wr e f = true ->
  match f with
  | FHasm => exists p ms, e = EMutations T p ms
  | FTold => exists x, e = ETold T x
  | FPcSent => exists r c ks, e = ECmSend r T c ks
  | FPcRb => exists r c ks x, e = ECmReply r T c ks x
  | FTriedA => exists r p ks a o m f secs, e = EPwSend r T p ks a o m f secs
  | F1pcTs => exists r ks x, e = EPwReply r T ks x
  | FFb => (exists r p ks a o m f secs, e = EPwSend r T p ks a o m f secs) \/ exists r ks x, e = EPwReply r T ks x
  | _ => True
  end.
Proof. intros e T f Et W. destruct e; try discriminate W; injection Et as ->; destruct f; try discriminate W; eauto 12. Qed.
Lemma stepr_lists : forall s e s', stepr s e = Ok s' -> grows s e s'.
Proof. intros s e s' H. apply (stepr_frame s e s' 0 H). Qed.

Definition modef (f : fld) : bool :=
  match f with
  | FHasm | FPrim | FTriedA | FTried1 | FFb | FFb1 | FStFb | FMinc | F1pcTs | FTold | FDead | FPwSent => true
  | _ => false
  end.
Record same_acct (c c' : crec) : Prop := {
  sa_kl : c_kl c' = c_kl c; sa_lam : c_lam c' = c_lam c; sa_lm : c_lm c' = c_lm c; sa_all : c_all c' = c_all c;
  sa_pwok : c_pwok c' = c_pwok c; sa_f : forall f, modef f = true -> cn c' f = cn c f }.
Lemma same_acct_refl : forall c, same_acct c c. Proof. intros. constructor; auto. Qed.
Definition quiet (e : event) : bool :=
  match e with
  | EMutations _ _ _ | EPwSend _ _ _ _ _ _ _ _ _ | EPwDeliver _ _ _ _ | EPwReply _ _ _ _ | ETold _ _ | ERbSend _ _ _
  | ECtsDeliver _ _ _ _ => false
  | _ => true
  end.

Lemma stepr_quiet : forall s e s' T0, quiet e = true -> stepr s e = Ok s' -> same_acct (getc s T0) (getc s' T0).
Proof.
  intros s e s' T0 Hq H. destruct (stepr_fps _ _ _ T0 H) as [[A1 A2 A3 A4 A5 _ A7] _].
  constructor; [apply A5 | apply A7 | apply A2 | apply A3 | apply A4 |]; try (destruct e; try discriminate Hq; reflexivity).
  intros f Hf. apply A1. destruct f; try discriminate Hf; destruct e; try discriminate Hq; reflexivity.
Qed.

Lemma reply_of_txn : forall e x, reply_of e = Some x -> txn_of x = txn_of e.
Proof. destruct e; intros x H; inversion H; reflexivity. Qed.

(* what is new in the message sets after a step *)
Section Grow.
  Variables (s : sys) (e : event) (s' : sys).
  Hypothesis H : stepr s e = Ok s'.
  Lemma stepr_sent_new : forall x, In x (s_sent s') -> In x (s_sent s) \/ e = x.
  Proof. intros x Hx. destruct (stepr_lists _ _ _ H) as [[L | L] _]; rewrite L in Hx; [| destruct Hx]; auto. Qed.
  Lemma stepr_sent_incl : incl (s_sent s) (s_sent s').
  Proof. destruct (stepr_lists _ _ _ H) as [[L | L] _]; rewrite L; [apply incl_refl | apply incl_tl, incl_refl]. Qed.
  Lemma stepr_dlv_in : forall x, reply_of e = Some x -> In x (s_dlv s').
  Proof. intros x R. destruct (stepr_lists _ _ _ H) as [_ [L _]]. rewrite R in L. rewrite L. left. reflexivity. Qed.
  Lemma stepr_dlv_new : forall x, In x (s_dlv s') -> In x (s_dlv s) \/ reply_of e = Some x.
  Proof.
    intros x Hx. destruct (stepr_lists _ _ _ H) as [_ [L _]]. destruct (reply_of e); rewrite L in Hx; [destruct Hx as [<- |] |]; auto.
  Qed.
  Lemma stepr_dlv_incl : incl (s_dlv s) (s_dlv s').
  Proof.
    destruct (stepr_lists _ _ _ H) as [_ [L _]]. destruct (reply_of e); rewrite L; [apply incl_tl |]; apply incl_refl.
  Qed.
  Lemma stepr_csl_new : forall x, In x (s_csl s') -> In x (s_csl s) \/ x = e.
  Proof.
    intros x Hx. destruct (stepr_lists _ _ _ H) as [_ [_ [_ [[L | [_ L]] _]]]]; rewrite L in Hx; [| destruct Hx]; auto.
  Qed.
  Lemma stepr_rs_new : forall T c j, In (T, c, j) (s_rs s') -> In (T, c, j) (s_rs s) \/ exists r ks, e = ERsSend r T c ks.
  Proof.
    intros T c j Hx. destruct (stepr_lists _ _ _ H) as [_ [_ [_ [_ [[L | [r [T1 [c1 [ks [j1 [E L]]]]]]] _]]]]]; rewrite L in Hx; auto.
    destruct Hx as [Hx |]; auto. inversion Hx. subst. eauto.
  Qed.
  Lemma stepr_dlv_other : forall T x, txn_of e <> Some T -> In x (s_dlv s') -> txn_of x = Some T -> In x (s_dlv s).
  Proof.
    intros T x Hne Hx Ht. destruct (stepr_dlv_new x Hx) as [B | B]; [exact B |]. apply reply_of_txn in B. congruence.
  Qed.
End Grow.
