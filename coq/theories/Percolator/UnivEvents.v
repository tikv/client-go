(* Percolator/UnivEvents.v — one accepted event, seen from its transaction's record: how the list pwok grows, and what
   a resolve request, a CheckSecondaryLocks answer `commit C` and a `told ok` presuppose in terms of what was delivered. *)
From Verif Require Export Percolator.Async8 Percolator.Closed.

(* x is the answer that the delivery e puts on record *)
Definition delivers (e x : event) : Prop :=
  match x with
  | ECslReply r T ks st => e = ECslDeliver r T ks st
  | ECmReply r T c ks y => e = ECmDeliver r T c ks y
  | ECtsReply r T p st => e = ECtsDeliver r T p st
  | EPwReply r T ks y => e = EPwDeliver r T ks y
  | _ => True
  end.
Lemma reply_of_eq : forall e x, reply_of e = Some x -> delivers e x.
Proof. intros e x H. destruct e; cbn [reply_of] in H; try discriminate H; inversion H; subst; cbn; auto. Qed.

Lemma stepr_pwok : forall s e s' T0, stepr s e = Ok s' ->
  pwok s' T0 = pwok s T0 \/ exists r ks m o, e = EPwReply r T0 ks (PwOk m o) /\ pwok s' T0 = ks ++ pwok s T0.
Proof.
  intros s e s' T0 H. unfold pwok. destruct (stepr_fps _ _ _ T0 H) as [A B].
  destruct (txn_of_dec e T0) as [Et | Hn]; [| left; rewrite (B Hn); reflexivity].
  destruct (npwrep e) eqn:Q; [left; exact (fp_pwok _ _ _ A Q) |].
  destruct e; try discriminate Q. injection Et as ->. rewrite (pr_pwok _ _ _ _ _ _ _ _ (pw_reply_spec _ _ _ _ _ _ H)).
  destruct res; [right; eauto 8 | left; reflexivity ..].
Qed.
Lemma pwok_mono : forall s e s' T k, stepr s e = Ok s' -> In k (pwok s T) -> In k (pwok s' T).
Proof.
  intros s e s' T k H Hk. destruct (stepr_pwok _ _ _ T H) as [-> | [r [ks [m [o [_ ->]]]]]]; [| apply in_or_app; right]; exact Hk.
Qed.

(* a CheckSecondaryLocks answer `commit C` needs a key committed at C, or a lock with the decision C on record *)
Lemma csl_commit_ok : forall s e s' r T ks C, stepr s e = Ok s' -> e = ECslDeliver r T ks (CslCommit C) -> C <> 0 -> ginv s T ->
  (exists k, kget s T k = Committed C) \/ exists j, In (T, C, j) (s_rs s).
Proof.
  intros s e s' r T ks C H Ee HC G. open_at H Ee H2. apply N.eqb_neq in HC. rewrite HC in H2. chks H2.
  apply existsb_exists in C1. destruct C1 as [k [K1 K2]]. destruct (kget s T k) eqn:Ek; try discriminate.
  - right. apply existsb_exists in K2. destruct K2 as [[T' c] [W1 W2]]. cbn [fst snd] in W2. b2p. subst. exact (g_wr _ _ G _ W1).
  - left. apply N.eqb_eq in K2. subst. eauto.
Qed.

(* why Commit may answer success for a transaction with logged mutations: a successful primary commit, a 1PC success,
   or async commit still in force with every locked mutation answered *)
Lemma told_ok_step : forall s e s' T, stepr s e = Ok s' -> hasm s T -> F s' T FTold = 1 ->
  F s T FTold = 1 \/ F s T FPcOk <> 0 \/ F s T F1pcTs <> 0 \/
  (async_kept (getc s T) = true /\ forall k, In k (lm s T) -> In k (pwok s T)).
Proof.
  intros s e s' T H Hh Ht. destruct (stepr_cn _ _ _ T FTold H) as [Same | [Et W]]; [left; congruence | right].
  destruct (wr_inv _ _ _ Et W) as [x Ee]. rewrite Ee in H. destruct (told_spec _ _ _ _ H) as [_ Hx]. destruct x.
  - destruct Hx as [_ [_ [A | [A | [A | A]]]]]; [auto .. | contradiction].
  - exfalso. rewrite Hx in Ht. unfold F in Ht. rd_h Ht. discriminate Ht.
  - exfalso. rewrite (proj1 Hx) in Ht. unfold F in Ht. rd_h Ht. discriminate Ht.
Qed.

(* an entry is added only for an unlocked key, and a key on the owner's pwok list has been prewritten *)
Lemma lam_pwok_back : forall s e s' T k m, stepr s e = Ok s' -> ginv s T -> linv s T ->
  lamk s' T k = Some m -> In k (pwok s' T) -> lamk s T k = Some m.
Proof.
  intros s e s' T k m H G L Hl Hp.
  destruct (proj2 (stepr_lam _ _ _ T k H L) _ Hl) as [B | [Eu [r [ks [Ee _]]]]]; [exact B | exfalso].
  destruct (stepr_pwok _ _ _ T H) as [Pw | [r1 [ks1 [m1 [o1 [Ee1 _]]]]]]; [| rewrite Ee in Ee1; discriminate Ee1].
  rewrite Pw in Hp. apply (g_pwok _ _ G) in Hp. exact (pwdlv_not_unlocked s T k G Hp Eu).
Qed.

(* what a resolver must have seen before it may send a resolve request deciding C for T: a CheckTxnStatus answer that
   settles the key it names, a CheckSecondaryLocks answer `commit C`, or an async-commit primary lock and a lock
   report with a non-zero min-commit ts for each of its secondaries *)
Lemma rs_send_just : forall s e s' r T C ks, stepr s e = Ok s' -> e = ERsSend r T C ks -> ginv s T -> linv s T ->
  (exists p, kget s T p = alt_of C /\ (hasm s T -> p = prim s T)) \/
  (exists ks0, In (ECslReply r T ks0 (CslCommit C)) (s_dlv s)) \/
  (exists p ttl m secs, In (ECtsReply r T p (StLocked ttl m true secs)) (s_dlv s) /\ m <= C /\
     forall k, In k secs -> exists ks0 l M, In (ECslReply r T ks0 (CslLocks l)) (s_dlv s) /\ In (k, M) l /\ M <> 0).
Proof.
  intros s e s' r T C ks H Ee G L. subst e.
  destruct (rs_send_open _ _ _ _ _ _ H) as [[p [J [_ Hp]]] | [_ [_ [[ks0 E1] | CJ]]]].
  - left. exists p. split; [| exact Hp].
    destruct (just_cts_spec _ _ _ _ _ J) as [[Hc Hi] | [-> Hi]]; apply (g_cts_sub _ _ G) in Hi.
    + rewrite (alt_of_nz _ Hc). exact (g_cts_c _ _ G _ _ _ Hi).
    + exact (g_cts_r _ _ G _ _ Hi).
  - right. left. apply (l_csl_sub _ _ L) in E1. eauto.
  - right. right. destruct (csl_all_locked_spec _ _ _ _ CJ) as [p [ttl [m [secs [E1 [Cov [Nz ->]]]]]]].
    apply (g_cts_sub _ _ G) in E1. exists p, ttl, m, secs. split; [exact E1 |]. split; [exact (proj1 (fold_left_max_ge _ _)) |].
    intros k Hk. destruct (Cov k Hk) as [M X1]. pose proof (Nz _ _ X1 Hk) as HM.
    apply csl_lock_ms_spec in X1. destruct X1 as [ks0 [l [X1 X3]]]. apply (l_csl_sub _ _ L) in X1. eauto 6.
Qed.
