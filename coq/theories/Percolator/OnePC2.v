(* Percolator/OnePC2.v — oinv is preserved by the events that touch the prewrite bookkeeping, hence by every accepted
   step; C02/C03 for one-phase commit. *)
From Verif Require Export Percolator.OnePC.

(* CheckTxnStatus changes the record of its transaction only when it rolls back an async-commit lock that no
   whole-region resolve has removed: that marks the fallback *)
Definition cts_asyncl (s : sys) (T p : N) : bool :=
  match kget s T p with
  | Locked m0 => negb (m0 =? 0) && negb (existsb (fun sc => (fst sc =? T) && (snd sc =? 0)) (s_wr s))
  | _ => false
  end.
Lemma ctsd_rec : forall s s' r T p st, stepr s (ECtsDeliver r T p st) = Ok s' ->
  getc s' T = match st with StRolledBack => if cts_asyncl s T p then setn (getc s T) FStFb 1 else getc s T | _ => getc s T end.
Proof.
  intros s s' r T p st H. cbn [stepr] in H. unfold step_cts_deliver in H. chks H. fold (cts_asyncl s T p) in H.
  destruct st; chks H; try (okinv H; reflexivity);
    (destruct (step_key _ _ _ _) as [s2 |] eqn:E; try discriminate; okinv H; rewrite (step_key_getc _ _ _ _ _ T E)); try reflexivity.
  destruct (cts_asyncl s T p); [apply getc_setc_eq | reflexivity].
Qed.

Lemma ctsd_acct : forall s s' r T p st T0, stepr s (ECtsDeliver r T p st) = Ok s' ->
  (st = StRolledBack -> forall m, kget s T p = Locked m ->
     m = 0 \/ existsb (fun sc => (fst sc =? T) && (snd sc =? 0)) (s_wr s) = true) -> same_acct (getc s T0) (getc s' T0).
Proof.
  intros s s' r T p st T0 H NL. destruct (N.eq_dec T T0) as [<- | Hne].
  2: { rewrite (stepr_getc_other _ _ _ T0 H); [apply same_acct_refl | cbn [txn_of]; congruence]. }
  rewrite (ctsd_rec _ _ _ _ _ _ H). destruct st; try apply same_acct_refl.
  replace (cts_asyncl s T p) with false; [apply same_acct_refl |]. unfold cts_asyncl.
  destruct (kget s T p) eqn:Ek; auto. destruct (NL eq_refl m eq_refl) as [-> | ->]; [reflexivity | symmetry; apply andb_false_r].
Qed.

Lemma oinv_cts_deliver : forall s s' r T0 p st T, stepr s (ECtsDeliver r T0 p st) = Ok s' -> oinv s T -> oinv s' T.
Proof.
  intros s s' r T0 p st T H O.
  destruct (N.eq_dec T0 T) as [-> | Hne]; [| eapply oinv_other; eauto; cbn [txn_of]; congruence].
  apply (oinv_stable s _ s' T H); [| | | exact O].
  - intros k. apply (stepr_kevos s (ECtsDeliver r T p st) s' eq_refl H).
  - eapply ctsd_acct; eauto. intros _ m E. exfalso. eapply (o_nolock _ _ O); eauto.
  - intros _. exact I.
Qed.

(* the closing argument shared by told err and rollback_send *)
Lemma err_ok_closed : forall s T, linv s T -> oinv s T -> hasm s T -> err_ok (getc s T) = true ->
  exists k0, In k0 (lm s T) /\ kc s T KSent k0 = kc s T KNegD k0.
Proof.
  intros s T L O Hm H. unfold err_ok in H. apply orb_true_iff in H. destruct H as [H | H].
  - exfalso. unfold hasm, F in Hm. apply negb_true_iff in H. apply fb_false in H. contradiction.
  - apply existsb_exists in H. destruct H as [k0 [H1 H2]]. apply N.eqb_eq in H2. exists k0. split; auto.
    destruct (o_cnt _ _ O k0) as [A B]. pose proof (l_cntle _ _ L k0) as C. unfold kc in *. lia.
Qed.

Lemma oinv_rb_send : forall s s' r T ks, Linv s -> stepr s (ERbSend r T ks) = Ok s' -> onepcm s T -> oinv s T -> oinv s' T.
Proof.
  intros s s' r T ks HL H Om O. pose proof (onepcm_cp _ _ Om) as Hcp. destruct Om as [Hm [H1 [H2 H3]]].
  cbn [stepr] in H. unfold step_rb_send in H. chks H. okinv H.
  apply andb_true_iff in C0. destruct C0 as [_ C0]. rewrite Hcp in C0. cbn [negb orb] in C0.
  destruct (err_ok_closed _ _ (HL T) O Hm C0) as [k0 [K1 K2]].
  constructor; unfold call, kc, lm, prim, F in *; intros; rd; insplit.
  - eapply (o_send _ _ O); eauto.
  - eapply (o_entry _ _ O); eauto.
  - apply (o_nolock _ _ O).
  - eapply (o_commit _ _ O); eauto.
  - apply (o_cnt _ _ O).
  - exists k0. auto.
  - apply (o_1pcts _ _ O); auto.
  - apply (o_told _ _ O); auto.
Qed.

Lemma oinv_told : forall s s' T x, Inv s -> Linv s -> stepr s (ETold T x) = Ok s' -> onepcm s T -> oinv s T -> oinv s' T.
Proof.
  intros s s' T x HI HL H Om O. pose proof (onepcm_cp _ _ Om) as Hcp. destruct Om as [Hm [H1 [H2 H3]]].
  destruct (HI T) as [G _]. pose proof (HL T) as L.
  destruct (told_spec _ _ _ _ H) as [_ Hx]. clear H.
  destruct x; [destruct Hx as [-> [_ CR]] | subst s' | destruct Hx as [-> [_ [Herr _]]]];
    constructor; unfold call, kc, lm, prim, F in *; intros; rd.
  all: try (eapply (o_send _ _ O); eauto; fail).
  all: try (eapply (o_entry _ _ O); eauto; fail).
  all: try (apply (o_nolock _ _ O); fail).
  all: try (eapply (o_commit _ _ O); eauto; fail).
  all: try (apply (o_cnt _ _ O); fail).
  all: try (apply (o_1pcts _ _ O); auto; fail).
  all: try discriminate.
  - (* told ok: dead only through an earlier rollback_send *)
    apply (o_dead _ _ O). destruct H as [H | H]; [discriminate H | right; auto].
  - (* told ok: the primary is committed *)
    destruct CR as [CR | [CR | [[_ CR] | CR]]]; [| | | contradiction].
    + exists (cn (getc s T) FPcOk). apply (l_pcok _ _ L); auto.
    + destruct (o_1pcts _ _ O CR) as [r [ks [m E]]]. exists (cn (getc s T) F1pcTs). apply (o_entry _ _ O _ _ _ _ E).
      apply (o_prim_all s T L Hm).
    + pose proof (CR _ (l_prim _ _ L Hm)) as Hp.
      apply (g_pwok _ _ G) in Hp. destruct Hp as [r [ks [m [o [E1 E2]]]]]. exists o. apply (o_entry _ _ O _ _ _ _ E1).
      apply (o_prim_all s T L Hm).
  - apply (o_dead _ _ O). destruct H as [H | H]; [discriminate H | right; auto].
  - apply (err_ok_closed _ _ L O Hm (Herr Hcp)).
Qed.

Lemma oinv_pw_send : forall s s' r T p ks a o m f secs, Inv s -> Zinv s ->
  stepr s (EPwSend r T p ks a o m f secs) = Ok s' -> (onepcm s T -> oinv s T) -> onepcm s' T -> oinv s' T.
Proof.
  intros s s' r T p ks a o m f secs HI HZ H OI [Hm' [H1' [H2' H3']]]. destruct (HI T) as [G _]. pose proof (HZ T) as Z.
  destruct (stepr_fps _ _ _ T H) as [[Af Alm Aall _ _ _ _] _].
  destruct (pw_send_spec _ _ _ _ _ _ _ _ _ _ _ H) as [Es Ct Cd Csplit _ _ _ _ E5 _].
  destruct (setc_frame _ _ _ _ Es) as [Kg [Esn [Ed _]]]. clear Es.
  change (forall T0 k, kget s' T0 k = kget s T0 k) in Kg. change (s_sent s' = EPwSend r T p ks a o m f secs :: s_sent s) in Esn.
  change (s_dlv s' = s_dlv s) in Ed.
  unfold hasm, F in *. rewrite (Af FHasm eq_refl) in Hm'. rewrite (Af FStFb eq_refl) in H3'. rewrite E5 in H2'.
  destruct o; [| discriminate H2'].
  assert (Hall : forall k, In k (c_all (getc s T)) -> In k ks) by (apply Csplit; auto).
  assert (NoRb : forall r0 ks0, ~ In (ERbSend r0 T ks0) (s_sent s)).
  { intros r0 ks0 Hi. apply (g_rb_dead _ _ G) in Hi. unfold F in Hi. congruence. }
  assert (HO : oinv s T).
  { destruct (N.eq_dec (cn (getc s T) FPwSent) 0) as [E0 | En0]; [apply oinv_fresh; auto |].
    apply OI. destruct (z_mode _ _ Z En0) as [[B | B] _]; repeat split; auto; unfold F in *; congruence. }
  constructor; unfold call, kc, lm, prim, F; intros;
    rewrite ?Kg, ?Ed, ?Esn, ?(Af FPrim eq_refl), ?(Af FTold eq_refl), ?(Af F1pcTs eq_refl), ?(Alm eq_refl), ?(Aall eq_refl) in *; insplit.
  - split; auto.
  - eapply (o_send _ _ HO); eauto.
  - destruct (o_entry _ _ HO _ _ _ _ H0) as [B1 B2]. split; auto. intros k Hk. rewrite Kg. auto.
  - apply (o_nolock _ _ HO).
  - eapply (o_commit _ _ HO); eauto.
  - apply (pw_send_cnt _ _ _ _ _ _ _ _ _ _ _ H (o_cnt _ _ HO)).
  - destruct H0 as [H0 | [r0 [ks0 H0]]]; [congruence | insplit; exfalso; eapply NoRb; eauto].
  - apply (o_1pcts _ _ HO); auto.
  - apply (o_told _ _ HO); auto.
Qed.

Lemma oinv_pw_reply : forall s s' r T ks x, Inv s -> stepr s (EPwReply r T ks x) = Ok s' ->
  (onepcm s T -> oinv s T) -> onepcm s' T -> oinv s' T.
Proof.
  intros s s' r T ks x HI H OI [Hm' [H1' [H2' H3']]]. destruct (HI T) as [G _].
  destruct (stepr_fps _ _ _ T H) as [[Af Alm Aall _ _ Akc _] _].
  destruct (pw_reply_spec _ _ _ _ _ _ H) as [Es C0 _ _ R6 R11 _ _ _].
  destruct (setc_frame _ _ _ _ Es) as [Kg [Esn [Ed _]]]. clear Es.
  unfold hasm, F in *. rewrite (Af FHasm eq_refl) in Hm'. rewrite (Af FTried1 eq_refl) in H1'. rewrite (Af FStFb eq_refl) in H3'.
  destruct (R6 H2') as [H2 Hox].
  assert (HO : oinv s T) by (apply OI; repeat split; auto).
  assert (Hcp : commit_point_pw (getc s T) = true) by (unfold commit_point_pw; apply fb_true in H1'; rewrite H1'; apply orb_true_r).
  constructor; unfold call, kc, lm, prim, F; intros;
    rewrite ?Kg, ?Ed, ?Esn, ?(Aall eq_refl), ?(Alm eq_refl), ?(Af FPrim eq_refl), ?(Af FTold eq_refl) in *.
  - eapply (o_send _ _ HO); eauto.
  - destruct (o_entry _ _ HO _ _ _ _ H0) as [B1 B2]. split; auto. intros k Hk. rewrite Kg. auto.
  - apply (o_nolock _ _ HO).
  - eapply (o_commit _ _ HO); eauto.
  - apply (pw_reply_cnt _ _ _ _ _ _ H Hcp (o_cnt _ _ HO)).
  - destruct (o_dead _ _ HO H0) as [k0 [K1 K2]]. exists k0. split; auto.
    rewrite (Akc KSent k0 eq_refl), (Akc KNegD k0 eq_refl). auto.
  - rewrite R11 in *. destruct x as [m o | |]; try (apply (o_1pcts _ _ HO); auto).
    destruct (o =? 0); [apply (o_1pcts _ _ HO); auto | exists r, ks, m; exact C0].
  - destruct (o_told _ _ HO H0) as [c E]. exists c. exact E.
Qed.

(* a closed key cannot be delivered to any more *)
Lemma pw_deliver_not_closed : forall s s' r T ks x k0, Linv s -> onepcm s T -> oinv s T ->
  stepr s (EPwDeliver r T ks x) = Ok s' -> In k0 (lm s T) -> kc s T KSent k0 = kc s T KNegD k0 -> False.
Proof.
  intros s s' r T ks x k0 HL [_ [H1 _]] O H K1 K2. pose proof (HL T) as L.
  destruct (pw_deliver_spec _ _ _ _ _ _ H) as [[p [a [o [m [f [secs Hs]]]]]] _ _ _ _ Hcnt _ _ _ _].
  assert (Hcp : commit_point_pw (getc s T) = true) by (unfold commit_point_pw; apply fb_true in H1; rewrite H1; apply orb_true_r).
  assert (Hk : In k0 ks) by (apply (o_send _ _ O _ _ _ _ _ _ _ _ Hs); apply (l_lm_all _ _ L); auto).
  pose proof (Hcnt Hcp k0 Hk). pose proof (occ_pos _ _ Hk). pose proof (l_cntle _ _ L k0) as D. unfold kc in *. lia.
Qed.

Lemma oinv_pw_deliver : forall s s' r T ks x, Inv s -> Linv s -> stepr s (EPwDeliver r T ks x) = Ok s' ->
  (onepcm s T -> oinv s T) -> onepcm s' T -> oinv s' T.
Proof.
  intros s s' r T ks x HI HL H OI [Hm' [H1' [H2' H3']]]. destruct (HI T) as [G _]. pose proof (HL T) as L.
  pose proof (stepr_kmono _ _ _ H) as KM.
  destruct (stepr_fps _ _ _ T H) as [[Af Alm Aall _ _ _ _] _].
  destruct (pw_deliver_spec _ _ _ _ _ _ H) as [[p0 [a0 [o0 [mm [f0 [secs0 Ce1]]]]]] Hd' Hsn _ _ _ Ch R9 _ _].
  unfold hasm, F in *. rewrite (Af FHasm eq_refl) in Hm'. rewrite (Af FTried1 eq_refl) in H1'. rewrite (Af FFb1 eq_refl) in H2'.
  destruct (R9 H3') as [H3 Hox0].
  assert (HO : oinv s T) by (apply OI; repeat split; auto).
  assert (Hcp : commit_point_pw (getc s T) = true) by (unfold commit_point_pw; apply fb_true in H1'; rewrite H1'; apply orb_true_r).
  destruct (o_send _ _ HO _ _ _ _ _ _ _ _ Ce1) as [-> Hall].
  (* the request asked for a one-phase commit, so a success that is not one would have set FStFb *)
  assert (Hox : forall m o, x = PwOk m o -> o =? 0 = false).
  { intros m o -> . apply N.eqb_neq. intros ->. destruct (Hox0 m eq_refl Hcp) as [_ Hn]. eapply Hn; eauto. }
  assert (Old : forall y, In y (s_dlv s) -> In y (s_dlv s')) by (intros; rewrite Hd'; right; auto).
  constructor; unfold call, kc, lm, prim, F;
    rewrite ?(Af FPrim eq_refl), ?(Af FTold eq_refl), ?(Af F1pcTs eq_refl), ?(Alm eq_refl), ?(Aall eq_refl), ?Hsn; intros.
  - eapply (o_send _ _ HO); eauto.
  - rewrite Hd' in H0. destruct H0 as [H0 | H0].
    + inversion H0. subst x. pose proof (Hox _ _ eq_refl) as Ho. split; [apply N.eqb_neq; exact Ho |]. intros k Hk.
      destruct (Ch k) as [[_ [A _]] | [A _]]; [| exfalso; apply A; apply Hall; auto]. rewrite Ho in A. apply tr_1pc_res2 in A. auto.
    + destruct (o_entry _ _ HO _ _ _ _ H0) as [B1 B2]. split; auto. intros k Hk. eapply km_committed; eauto.
  - intros E1. specialize (Ch k). destruct x as [m1 o1 | |]; [| rewrite Ch in E1; eapply (o_nolock _ _ HO); eauto ..].
    destruct Ch as [[Hk [A _]] | [Hk A]].
    + rewrite (Hox _ _ eq_refl) in A. apply tr_1pc_res2 in A. congruence.
    + rewrite A in E1. eapply (o_nolock _ _ HO); eauto.
  - specialize (Ch k). destruct x as [m1 o1 | |];
      [| rewrite Ch in H0; destruct (o_commit _ _ HO _ _ H0) as [r0 [ks0 [m1 E1]]]; exists r0, ks0, m1; auto ..].
    destruct Ch as [[Hk [A _]] | [Hk A]].
    + rewrite (Hox _ _ eq_refl) in A. apply tr_1pc_res2 in A. rewrite H0 in A. inversion A. subst c.
      exists r, ks, m1. rewrite Hd'. left. reflexivity.
    + rewrite A in H0. destruct (o_commit _ _ HO _ _ H0) as [r0 [ks0 [m2 E1]]]. exists r0, ks0, m2. auto.
  - apply (pw_deliver_cnt _ _ _ _ _ _ H L Hcp (o_cnt _ _ HO)).
  - exfalso. destruct (o_dead _ _ HO H0) as [k0 [K1 K2]]. eapply (pw_deliver_not_closed s s' r T ks x k0 HL); eauto. repeat split; auto.
  - destruct (o_1pcts _ _ HO H0) as [r0 [ks0 [m1 E1]]]. exists r0, ks0, m1. auto.
  - destruct (o_told _ _ HO H0) as [c E1]. exists c. eapply km_committed; eauto.
Qed.

Definition Oinv (s : sys) : Prop := forall T, onepcm s T -> oinv s T.

Lemma onepcm_fields : forall s s' T,
  cn (getc s' T) FHasm = cn (getc s T) FHasm -> cn (getc s' T) FTried1 = cn (getc s T) FTried1 ->
  cn (getc s' T) FFb1 = cn (getc s T) FFb1 -> cn (getc s' T) FStFb = cn (getc s T) FStFb -> onepcm s' T -> onepcm s T.
Proof. intros s s' T A B C D. unfold onepcm, hasm, F. rewrite A, B, C, D. auto. Qed.

Lemma ctsd_fields : forall s s' r T p st T0, stepr s (ECtsDeliver r T p st) = Ok s' ->
  (forall f, f <> FStFb -> cn (getc s' T0) f = cn (getc s T0) f) /\ (cn (getc s' T0) FStFb = 0 -> cn (getc s T0) FStFb = 0).
Proof.
  intros s s' r T p st T0 H. destruct (N.eq_dec T T0) as [<- | Hne].
  2: { rewrite (stepr_getc_other _ _ _ T0 H); [auto | cbn [txn_of]; congruence]. }
  rewrite (ctsd_rec _ _ _ _ _ _ H). destruct st; auto. destruct (cts_asyncl s T p); auto.
  split; [intros f Hf; rewrite cn_setn_ne; auto | rd; discriminate].
Qed.

Theorem oinv_stepr : forall s e s', Inv s -> Linv s -> Zinv s -> Oinv s -> stepr s e = Ok s' -> Oinv s'.
Proof.
  intros s e s' HI HL HZ HO H T0 Hm'.
  destruct (txn_of_dec e T0) as [Et' | Hne].
  2: { pose proof (stepr_getc_other _ _ _ T0 H Hne) as Gc. eapply oinv_other; eauto. apply HO.
       unfold onepcm, hasm, F in *. rewrite Gc in Hm'. auto. }
  destruct (quiet e) eqn:Q.
  { eapply oinv_quiet; eauto. apply HO. eapply onepcm_back; eauto. eapply stepr_quiet; eauto. }
  destruct_event e; cbn [quiet] in Q; try discriminate Q; cbn [txn_of] in Et'; inversion Et'; subst.
  - (* mutations: a transaction that already sent a 1PC prewrite cannot log its mutations *)
    exfalso. destruct (stepr_quiet3 s (EMutations T0 p ms) s' T0 eq_refl H) as [_ [_ A]]. destruct Hm' as [_ [B _]]. unfold F in B.
    rewrite (A FTried1 eq_refl) in B. pose proof (z_tried _ _ (HZ T0) (or_intror B)) as D.
    cbn [stepr] in H. chks H. b2p. unfold F in D. congruence.
  - eapply oinv_pw_send; eauto.
  - eapply oinv_pw_deliver; eauto.
  - eapply oinv_pw_reply; eauto.
  - assert (Hm : onepcm s T0) by (eapply (onepcm_fields s s'); [apply (fp_cn _ _ _ (proj1 (stepr_fps _ _ _ T0 H))); reflexivity .. | exact Hm']).
    eapply oinv_rb_send; eauto.
  - assert (Hm : onepcm s T0).
    { destruct (ctsd_fields _ _ _ _ _ _ T0 H) as [A B]. destruct Hm' as [B1 [B2 [B3 B4]]]. unfold onepcm, hasm, F in *.
      rewrite (A FHasm), (A FTried1), (A FFb1) in * by discriminate. auto. }
    eapply oinv_cts_deliver; eauto.
  - assert (Hm : onepcm s T0) by (eapply (onepcm_fields s s'); [apply (fp_cn _ _ _ (proj1 (stepr_fps _ _ _ T0 H))); reflexivity .. | exact Hm']).
    eapply oinv_told; eauto.
Qed.

Theorem oinv_init : Oinv init.
Proof. intros T [H _]. exfalso. apply H. reflexivity. Qed.

Lemma base_oinv_stepr : forall s e s', Base s /\ Oinv s -> stepr s e = Ok s' -> Base s' /\ Oinv s'.
Proof.
  intros s e s' [B HO] H. split; [eapply base_stepr; eauto |]. destruct B as [HI [HL [HZ _]]]. eapply oinv_stepr; eauto.
Qed.
Theorem oinv_run : forall evs s, run evs = Some s -> Oinv s.
Proof.
  intros evs s H.
  exact (proj2 (run_from_preserved _ base_oinv_stepr evs init s (conj base_init oinv_init) H)).
Qed.

(* told err under 1PC: the mode and the closed key persist, so nothing is ever committed *)
Lemma onepcm_persist : forall s e s' T, Inv s -> Linv s -> onepcm s T -> oinv s T -> F s T FTold = 3 ->
  stepr s e = Ok s' -> onepcm s' T.
Proof.
  intros s e s' T0 HI HL Hm O Ht H. pose proof Hm as [Hh [H1 [H2 H3]]].
  destruct (txn_of_dec e T0) as [Et' | Hne].
  2: { pose proof (stepr_getc_other _ _ _ T0 H Hne) as Gc. unfold onepcm, hasm, F in *. rewrite Gc. auto. }
  destruct (quiet e) eqn:Q.
  { destruct (stepr_quiet _ _ _ T0 Q H) as [_ _ _ _ _ A]. unfold onepcm, hasm, F in *.
    rewrite (A FHasm), (A FTried1), (A FFb1), (A FStFb) by reflexivity. auto. }
  destruct (o_dead _ _ O (or_introl Ht)) as [k0 [K1 K2]].
  destruct_event e; cbn [quiet] in Q; try discriminate Q; cbn [txn_of] in Et'; inversion Et'; subst.
  - exfalso. cbn [stepr] in H. chks H. b2p. unfold hasm, F in *. congruence.
  - exfalso. cbn [stepr] in H. unfold step_pw_send in H. chks H. b2p. unfold F in Ht. rewrite Ht in C0. discriminate.
  - exfalso. eapply pw_deliver_not_closed; eauto.
  - (* a late reply: it cannot be a successful 1PC fallback because no such entry exists *)
    cbn [stepr] in H. unfold step_pw_reply in H. chks H. okinv H. apply delivered_In in C0.
    destruct x as [m o | kd |].
    + destruct (o_entry _ _ O _ _ _ _ C0) as [Ho _]. apply N.eqb_neq in Ho.
      match goal with |- context [if ?b then setn _ FMinc _ else _] => destruct b end;
        (unfold onepcm, hasm, F in *; rd; rewrite Ho; destruct (m =? 0); rd; auto).
    + unfold onepcm, hasm, F in *. rd. auto.
    + unfold onepcm, hasm, F in *. rd. auto.
  - cbn [stepr] in H. unfold step_rb_send in H. chks H. okinv H. unfold onepcm, hasm, F in *. rd. auto.
  - destruct (ctsd_acct _ _ _ _ _ _ T0 H) as [_ _ _ _ _ A].
    { intros _ m E. exfalso. eapply (o_nolock _ _ O); eauto. }
    unfold onepcm, hasm, F in *. rewrite (A FHasm), (A FTried1), (A FFb1), (A FStFb) by reflexivity. auto.
  - exfalso. cbn [stepr] in H. unfold step_told in H. chks H. b2p. unfold F in Ht. congruence.
Qed.

Section OnePcAtomic.
  Variables (evs : list event) (s : sys) (T : N).
  Hypothesis R : run evs = Some s.
  Hypothesis Hm : onepcm s T.
  Let G : ginv s T := proj1 (inv_run evs s R T).
  Let L : linv s T := linv_run evs s R T.
  Let O : oinv s T := oinv_run evs s R T Hm.
  Let Hh : hasm s T := proj1 Hm.

  Lemma onepc_one_ts : forall k1 k2 c1 c2, kget s T k1 = Committed c1 -> kget s T k2 = Committed c2 -> c1 = c2.
  Proof. apply (o_one_ts s T L Hh O). Qed.
  Lemma onepc_all_or_nothing : forall k1 k2 c, kget s T k1 = Committed c -> In k2 (lm s T) -> kget s T k2 <> RolledBack.
  Proof. apply (o_all_or_nothing s T L O). Qed.
  Lemma onepc_all_committed : forall k c, kget s T k = Committed c -> forall k', In k' (call s T) -> kget s T k' = Committed c.
  Proof. apply (o_all_committed s T O). Qed.
  Lemma onepc_told_ok : F s T FTold = 1 -> exists c, (forall k, In k (call s T) -> kget s T k = Committed c) /\
    forall evs' s', run_from s evs' = Some s' -> forall k, In k (call s T) -> kget s' T k = Committed c.
  Proof.
    intros Ht. destruct (o_told _ _ O Ht) as [c E]. exists c.
    assert (A : forall k, In k (call s T) -> kget s T k = Committed c) by (apply (onepc_all_committed _ _ E)).
    split; auto. intros evs' s' R' k Hk. eapply km_committed; [eapply run_from_kmono; eauto | auto].
  Qed.
  Lemma onepc_told_err : F s T FTold = 3 ->
    forall evs' s', run_from s evs' = Some s' -> F s' T FTold = 3 /\ forall k c, kget s' T k <> Committed c.
  Proof.
    intros Ht evs' s' R'.
    destruct (run_from_preserves (fun s => Base s /\ Oinv s) (fun s => onepcm s T /\ F s T FTold = 3) base_oinv_stepr) with (evs := evs') (s := s) (s' := s')
      as [[[HI' [HL' _]] HO'] [Hm' Ht']]; auto.
    { intros s0 e s1 [[HI [HL _]] HO] [Hm0 Ht0] E. split; [eapply onepcm_persist; eauto |].
      destruct (stepr_frozen _ _ _ T E) as [A _]. destruct A as [A _]; [rewrite Ht0; discriminate | congruence]. }
    { split; [apply (base_run _ _ R) | apply (oinv_run _ _ R)]. }
    split; auto. destruct (o_dead _ _ (HO' T Hm') (or_introl Ht')) as [k0 [K1 K2]].
    apply (o_closed_no_commit s' T (proj1 (HI' T)) (HL' T) (HO' T Hm') k0 K1 K2).
  Qed.
End OnePcAtomic.
