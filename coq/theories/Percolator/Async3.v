(* Percolator/Async3.v — how a step moves the keys of an async-commit transaction (jstep), from its causes (kj). *)
From Verif Require Export Percolator.Async2 Percolator.Motion.

Lemma jstep_same : forall s s' T k, kget s' T k = kget s T k -> jstep s s' T k.
Proof. intros. left. auto. Qed.

Section JS.
  Variables (s s' : sys) (T : N).
  Hypothesis G : ginv s T.
  Hypothesis L : linv s T.
  Hypothesis Hm : hasm s T.
  Hypothesis A : ainv s T.

  (* what a resolve with commit ts C may do to a lock *)
  Lemma rs_just : forall C j, In (T, C, j) (s_rs s) -> (C <> 0 -> Sealed s T /\ C = cstar s T) /\ (C = 0 -> NSa s T).
  Proof.
    intros C j H. destruct j as [p |]; [| apply (a_rsa _ _ A); auto].
    pose proof (a_rsk _ _ A _ _ H) as ->. pose proof (g_rs _ _ G _ _ H) as E. unfold alt_of in E. split; intros HC.
    - apply N.eqb_neq in HC. rewrite HC in E. apply (a_commit _ _ A _ _ E).
    - subst C. cbn in E. eapply (a_rb _ _ A); eauto. apply (l_prim _ _ L Hm).
  Qed.

  (* the moves of the store that stepr_kj lists, read under ainv: a commit carries cstar of a sealed transaction, the
     rollback of a lock comes with NSa; a prewrite delivery is not covered, and the rollback of a lock that
     CheckTxnStatus reports gone is left to the caller *)
  Lemma kj_jstep : forall e k, npw e = true ->
    (forall r m, e = ECtsDeliver r T k StRolledBack -> kget s T k = Locked m -> NSa s T) ->
    kj s e s' T k -> jstep s s' T k.
  Proof.
    intros e k Hn Hc [Same | [[r [ks [m [o [Ee _]]]]] | [[m [c [El [Ec Cause]]]] | [Er [Was Cause]]]]].
    - left. exact Same.
    - subst e. discriminate Hn.
    - right. right. left. exists m, c. split; [exact El |]. split; [exact Ec |].
      destruct Cause as [[r [ks [_ [_ Hs]]]] | [Hc0 [j Hj]]]; [exact (a_cmsent _ _ A _ _ _ Hs) | exact (proj1 (rs_just _ _ Hj) Hc0)].
    - destruct Was as [Eu | [m El]]; [right; left; auto |]. right. right. right. exists m. split; [exact El |]. split; [exact Er |].
      destruct Cause as [[r [ks [_ [_ Hs]]]] | [[j Hj] | [[Eu _] | [r Ee]]]].
      + apply (a_dead _ _ A). right. eauto.
      + exact (proj2 (rs_just _ _ Hj) eq_refl).
      + congruence.
      + eapply Hc; eauto.
  Qed.
End JS.
