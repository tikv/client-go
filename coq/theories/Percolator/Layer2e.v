(* Percolator/Layer2e.v — the commit mode is fixed by the first prewrite request and there is no accounting before it
   (l0inv); what the acceptor's guards of a commit, a resolve and a CheckSecondaryLocks request presuppose; more facts
   about the state before the first prewrite request and about the requests that presuppose an async-commit prewrite
   (l1inv); Base bundles the invariants that hold whatever the commit mode. *)
From Verif Require Export Percolator.Layer2b.

Definition modef3 (f : fld) : bool :=
  match f with FPwSent | FTriedA | FTried1 | FFb | FFb1 | FMinc | F1pcTs => true | _ => false end.

Lemma stepr_quiet3 : forall s e s' T0, quiet3 e = true -> stepr s e = Ok s' ->
  c_kl (getc s' T0) = c_kl (getc s T0) /\ c_pwok (getc s' T0) = c_pwok (getc s T0) /\
  forall f, modef3 f = true -> cn (getc s' T0) f = cn (getc s T0) f.
Proof.
  intros s e s' T0 Hq H. destruct (stepr_fps _ _ _ T0 H) as [[A1 _ _ A4 A5 _ _] _].
  split; [apply A5; exact Hq |]. split; [apply A4; destruct e; try discriminate Hq; reflexivity |].
  intros f Hf. apply A1. destruct f; try discriminate Hf; destruct e; try discriminate Hq; reflexivity.
Qed.

Record l0inv (s : sys) (T : N) : Prop := {
  z_tried : F s T FTriedA <> 0 \/ F s T FTried1 <> 0 -> F s T FPwSent <> 0;
  z_mode : F s T FPwSent <> 0 -> (F s T FTried1 <> 0 \/ F s T FFb1 <> 0) /\ (F s T FTriedA <> 0 \/ F s T FFb <> 0);
  z_cnt0 : F s T FPwSent = 0 -> c_kl (getc s T) = []
}.

Lemma z_untried : forall s T, l0inv s T -> F s T FPwSent = 0 -> F s T FTriedA = 0 /\ F s T FTried1 = 0.
Proof.
  intros s T Z E0. destruct (N.eq_dec (F s T FTriedA) 0), (N.eq_dec (F s T FTried1) 0); auto; exfalso; apply (z_tried _ _ Z); auto.
Qed.

(* before the first prewrite request of T there is neither a prewrite request nor a prewrite answer of T *)
Lemma fresh_no_pw : forall s T, ginv s T -> F s T FPwSent = 0 ->
  (forall r p ks a o m f secs, ~ In (EPwSend r T p ks a o m f secs) (s_sent s)) /\
  (forall r ks x, ~ In (EPwReply r T ks x) (s_dlv s)).
Proof.
  intros s T G E0.
  assert (NoS : forall r p ks a o m f secs, ~ In (EPwSend r T p ks a o m f secs) (s_sent s)).
  { intros r p ks a o m f secs Hi. apply (g_pwsent_cnt _ _ G) in Hi. contradiction. }
  split; [exact NoS |]. intros r ks x Hi. apply (g_pw_sent _ _ G) in Hi. destruct Hi as [p [a [o [m [f [secs Hi]]]]]]. exact (NoS _ _ _ _ _ _ _ _ Hi).
Qed.

Lemma l0inv_stepr : forall s e s' T0, Inv s -> stepr s e = Ok s' -> l0inv s T0 -> l0inv s' T0.
Proof.
  intros s e s' T0 HI H Z. destruct (quiet3 e) eqn:Q.
  { destruct (stepr_quiet3 _ _ _ T0 Q H) as [A1 [_ A2]]. destruct Z as [Z1 Z2 Z3].
    constructor; unfold F in *; rewrite ?A1; repeat rewrite A2 by reflexivity; auto. }
  destruct (N.eq_dec (match txn_of e with Some T => T | None => T0 end) T0) as [Et | Hne].
  2: { destruct Z as [Z1 Z2 Z3]. constructor; unfold F in *; rewrite (stepr_getc_other _ _ _ T0 H); auto;
         intros E'; rewrite E' in Hne; apply Hne; reflexivity. }
  destruct (HI T0) as [G _]. destruct (stepr_fps _ _ _ T0 H) as [[Af _ _ _ _ _ _] _]. destruct Z as [Z1 Z2 Z3].
  destruct_event e; cbn [quiet3] in Q; try discriminate Q; cbn [txn_of] in Et; subst T.
  - (* prewrite send: the mode flags are set together with the counter *)
    destruct (pw_send_spec _ _ _ _ _ _ _ _ _ _ _ H) as [_ _ _ _ E1 E2 E3 E4 E5 _].
    constructor; unfold F; rewrite ?E1, ?E2, ?E3, ?E4, ?E5; intros; try lia.
    split; [destruct o | destruct a]; first [left; discriminate | right; discriminate].
  - (* prewrite deliver: only for a request that was sent *)
    destruct (pd_req _ _ _ _ _ _ _ _ (pw_deliver_spec _ _ _ _ _ _ H)) as [p [a [o [m [f [secs Hs]]]]]].
    pose proof (g_pwsent_cnt _ _ G _ _ _ _ _ _ _ _ Hs) as HS.
    constructor; unfold F in *; rewrite ?(Af FPwSent eq_refl), ?(Af FTriedA eq_refl), ?(Af FTried1 eq_refl), ?(Af FFb eq_refl), ?(Af FFb1 eq_refl);
      auto; intros; contradiction.
  - (* prewrite reply: the fallback flags are only ever set *)
    destruct (pw_reply_spec _ _ _ _ _ _ H) as [_ Hd _ B1 B2 _ _ _ _].
    apply (g_pw_sent _ _ G) in Hd. destruct Hd as [p [a [o [m [f [secs Hs]]]]]].
    pose proof (g_pwsent_cnt _ _ G _ _ _ _ _ _ _ _ Hs) as HS.
    constructor; unfold F in *; rewrite ?(Af FPwSent eq_refl), ?(Af FTriedA eq_refl), ?(Af FTried1 eq_refl); auto; [| intros; contradiction].
    intros _. destruct (Z2 HS) as [[C1 | C1] [C2 | C2]]; split; auto; right; intros E0; first [apply B2 in E0 | apply B1 in E0]; tauto.
Qed.

Lemma l0inv_init : forall T, l0inv init T.
Proof. intros T. constructor; unfold F; cbn; intros; try reflexivity; try tauto. Qed.

Definition Zinv (s : sys) : Prop := forall T, l0inv s T.
Lemma stepr_mono_fields : forall s e s' T0, stepr s e = Ok s' ->
  (F s T0 FPwSent <> 0 -> F s' T0 FPwSent <> 0) /\ (F s T0 FTriedA <> 0 -> F s' T0 FTriedA <> 0).
Proof.
  intros s e s' T0 H. unfold F. destruct (stepr_fps _ _ _ T0 H) as [[Af _ _ _ _ _ _] B].
  destruct_event e; try (rewrite !Af by reflexivity; auto).
  destruct (N.eq_dec T T0) as [-> | Hne]; [| rewrite B; [auto | cbn [txn_of]; congruence]].
  destruct (pw_send_spec _ _ _ _ _ _ _ _ _ _ _ H) as [_ _ _ _ E1 E2 _ _ _ _]. rewrite E1, E2.
  split; [lia | destruct a; [discriminate | auto]].
Qed.

Record l1inv (s : sys) (T : N) : Prop := {
  y_lam0 : F s T FPwSent = 0 -> c_lam (getc s T) = [] /\ c_pwok (getc s T) = [] /\ F s T FMinc = 0;
  y_cm : hasm s T -> forall r C ks, In (ECmSend r T C ks) (s_sent s) -> F s T FPwSent <> 0;
  y_rsk : hasm s T -> forall C p, In (T, C, JKey p) (s_rs s) -> p = prim s T;
  y_csl : forall r ks, In (ECslSend r T ks) (s_sent s) -> F s T FTriedA <> 0
}.

(* a resolve request is accepted on a CheckTxnStatus answer that settles a key (and then names it in the log), on a
   CheckSecondaryLocks answer `commit C`, or on the fold over the lock reports of an async-commit primary lock *)
Lemma rs_send_open : forall s s' r T C ks, stepr s (ERsSend r T C ks) = Ok s' ->
  (exists p, just_cts s r T C = Some p /\ s_rs s' = (T, C, JKey p) :: s_rs s /\ (hasm s T -> p = prim s T)) \/
  (just_cts s r T C = None /\ s_rs s' = (T, C, JAsync) :: s_rs s /\
   ((exists ks0, In (ECslReply r T ks0 (CslCommit C)) (s_csl s)) \/ csl_all_locked s r T C = true)).
Proof.
  intros s s' r T C ks H. cbn [stepr] in H. unfold step_rs_send in H. chks H.
  destruct (just_cts s r T C) as [p |] eqn:J; chks H; okinv H.
  - left. exists p. split; [reflexivity |]. split; [reflexivity |]. intros Hh. unfold prim, F.
    apply orb_true_iff in C1. destruct C1 as [C1 | C1]; [| apply N.eqb_eq in C1; exact C1].
    exfalso. apply negb_true_iff in C1. apply fb_false in C1. exact (Hh C1).
  - right. split; [reflexivity |]. split; [reflexivity |]. apply orb_true_iff in C1. destruct C1 as [C1 | C1]; [left | right; exact C1].
    apply andb_true_iff in C1. destruct C1 as [C1 _]. unfold csl_missing in C1. apply existsb_exists in C1.
    destruct C1 as [e [E1 E2]]. destruct e; try discriminate. destruct st; try discriminate. b2p. subst. eauto.
Qed.

(* a CheckSecondaryLocks request is accepted on a delivered report of an async-commit primary lock that lists its keys *)
Lemma csl_send_open : forall s s' r T ks, ginv s T -> stepr s (ECslSend r T ks) = Ok s' ->
  exists p ttl m secs, In (ECtsReply r T p (StLocked ttl m true secs)) (s_dlv s) /\ forall k, In k ks -> In k secs.
Proof.
  intros s s' r T ks G H. cbn [stepr] in H. chks H. apply async_cts_spec in C0. destruct C0 as [p [ttl [m [secs [C0 C1]]]]].
  apply (g_cts_sub _ _ G) in C0. exists p, ttl, m, secs. split; [exact C0 |]. intros k Hk. eapply subset_In; eauto.
Qed.

Lemma csl_all_locked_spec : forall s r T C, csl_all_locked s r T C = true ->
  exists p ttl m secs, In (ECtsReply r T p (StLocked ttl m true secs)) (s_cts s) /\
    (forall k, In k secs -> exists M, In (k, M) (csl_lock_ms s r T)) /\
    (forall k M, In (k, M) (csl_lock_ms s r T) -> In k secs -> M <> 0) /\
    C = fold_left N.max (map snd (filter (fun km => mem (fst km) secs) (csl_lock_ms s r T))) m.
Proof.
  intros s r T C H. unfold csl_all_locked in H. apply existsb_exists in H. destruct H as [e [H1 H2]].
  destruct e; try discriminate. destruct st; try discriminate. destruct async; try discriminate. cbv zeta in H2. b2p. subst.
  exists p, ttl, m, secs. split; [exact H1 |]. split; [| split; [| reflexivity]].
  - intros k Hk. match goal with Hx : forallb _ secs = true |- _ => pose proof (forallb_In _ _ _ Hx Hk) as Cx end. cbn beta in Cx.
    apply existsb_exists in Cx. destruct Cx as [[k' M] [X1 X2]]. cbn [fst] in X2. apply N.eqb_eq in X2. subst k'. eauto.
  - intros k M X1 Hk. match goal with Hx : forallb _ (filter _ _) = true |- _ => rewrite forallb_forall in Hx; specialize (Hx (k, M)); cbn [snd fst] in Hx end.
    apply N.eqb_neq. apply negb_true_iff. match goal with Hx : _ -> negb _ = true |- _ => apply Hx end.
    apply filter_In. split; [exact X1 | apply mem_In; exact Hk].
Qed.

(* [open_at H Ee H2]: H2 is the accepted step H at the event that Ee : e = ... names, its guards opened *)
Ltac open_at H Ee H2 := pose proof H as H2; rewrite Ee in H2; clear Ee; cbn [stepr] in H2; unfold_step H2; chks H2.

(* what the owner of a transaction with logged mutations must have before a commit request is accepted *)
Lemma cm_send_ok : forall s e s' r T c ks, stepr s e = Ok s' -> e = ECmSend r T c ks -> hasm s T ->
  (forall k, In k ks -> In k (lm s T)) /\ (forall k, In k (lm s T) -> In k (pwok s T)) /\ T < c /\
  (In (prim s T) ks \/ F s T FPcOk = c \/ async_kept (getc s T) = true) /\
  (async_kept (getc s T) = true -> c = F s T FMinc).
Proof.
  intros s e s' r T c ks H Ee Hh. open_at H Ee H2. rewrite (proj2 (fb_true _ _) Hh) in H2. chks H2. b2p.
  assert (Kept : async_kept (getc s T) = true -> c = F s T FMinc).
  { intros Ek. match goal with Hx : negb (async_kept _) || _ = true |- _ => rewrite Ek in Hx; cbn [negb orb] in Hx; apply N.eqb_eq in Hx; exact Hx end. }
  split; [intros k Hk; eapply subset_In; eauto |]. split; [intros k Hk; eapply subset_In; eauto |]. split; [assumption |].
  split; [| exact Kept].
  destruct (mem (cn (getc s T) FPrim) ks) eqn:Emem; [left; apply mem_In; exact Emem | right]. chks H2.
  match goal with Hx : _ || async_kept _ = true |- _ => apply orb_true_iff in Hx; destruct Hx as [CJ | CJ] end; [left; b2p; exact CJ | right; exact CJ].
Qed.

(* what the owner's answer to Commit changes and what it needs. Success: a successful primary commit, a 1PC success,
   async commit still in force with every locked mutation answered, or nothing logged (read-only, or CheckNotExists
   keys only: no commit point). Failure: no commit request that may still succeed, and no 1PC success. *)
Lemma told_spec : forall s s' T x, stepr s (ETold T x) = Ok s' ->
  F s T FTold = 0 /\
  match x with
  | TOk => s' = setc s T (setn (getc s T) FTold 1) /\
      (async_kept (getc s T) = true -> pw_closed (getc s T) = true) /\
      (F s T FPcOk <> 0 \/ F s T F1pcTs <> 0 \/
       (async_kept (getc s T) = true /\ forall k, In k (lm s T) -> In k (pwok s T)) \/ ~ hasm s T)
  | TUndet => s' = setc s T (setn (setn (getc s T) FTold 2) FDead 1)
  | TErr => s' = setc s T (setn (setn (getc s T) FTold 3) FDead 1) /\ neg_ok (getc s T) = true /\
      (cp_active (getc s T) = true -> err_ok (getc s T) = true) /\ F s T F1pcTs = 0
  end.
Proof.
  intros s s' T x H. cbn [stepr] in H. unfold step_told in H. chks H. b2p. split; [assumption |].
  destruct x; chks H; okinv H.
  - split; [reflexivity |]. split; [intros Ek; rewrite Ek in C1; exact C1 |].
    apply orb_true_iff in C2. destruct C2 as [C2 | CD]; [| right; right; right; intros Hh; b2p; unfold hasm, F in Hh; congruence].
    apply orb_true_iff in C2. destruct C2 as [C2 | C2]; [apply orb_true_iff in C2; destruct C2 as [C2 | C2] |]; b2p; auto.
    right. right. left. split; auto. intros k Hk. eapply subset_In; eauto.
  - reflexivity.
  - apply andb_true_iff in C1. destruct C1 as [C1 C3]. apply andb_true_iff in C1. destruct C1 as [C1 C2].
    split; [reflexivity |]. split; [exact C1 |]. split; [intros Ec; rewrite Ec in C2; exact C2 | apply N.eqb_eq; exact C3].
Qed.

Lemma l1inv_stepr : forall s e s' T0, Inv s -> Linv s -> stepr s e = Ok s' -> l1inv s T0 -> l1inv s' T0.
Proof.
  intros s e s' T0 HI HL H Y. destruct (HI T0) as [G _]. pose proof (HL T0) as L. destruct Y as [Y1 Y2 Y3 Y4].
  destruct (stepr_mono_fields _ _ _ T0 H) as [M1 M2]. destruct (stepr_frozen _ _ _ T0 H) as [_ Fz].
  pose proof (stepr_hasm_back _ _ _ T0 H) as HB. destruct (stepr_fps _ _ _ T0 H) as [[Af _ _ Apw _ _ Alam] Bo].
  constructor.
  - (* nothing before the first prewrite: a delivery or a reply presupposes a request *)
    intros E0. assert (E0s : F s T0 FPwSent = 0) by (destruct (N.eq_dec (F s T0 FPwSent) 0); auto; exfalso; apply M1; auto).
    destruct (Y1 E0s) as [A1 [A2 A3]]. unfold F in *.
    destruct_event e; try (rewrite (Alam eq_refl), (Apw eq_refl), (Af FMinc eq_refl); auto).
    all: destruct (N.eq_dec T T0) as [-> | Hne]; [exfalso | rewrite Bo; [auto | cbn [txn_of]; congruence]].
    + destruct (pd_req _ _ _ _ _ _ _ _ (pw_deliver_spec _ _ _ _ _ _ H)) as [p [a [o [m [f [secs Hs]]]]]]. exact (proj1 (fresh_no_pw s T0 G E0s) _ _ _ _ _ _ _ _ Hs).
    + exact (proj2 (fresh_no_pw s T0 G E0s) _ _ _ (pr_dlv _ _ _ _ _ _ _ _ (pw_reply_spec _ _ _ _ _ _ H))).
  - (* a commit request presupposes prewrites *)
    intros Hh r C ks Hi.
    assert (Old : In (ECmSend r T0 C ks) (s_sent s) -> F s' T0 FPwSent <> 0).
    { intros Ho. destruct (HB Hh) as [Hs | [p [ms Ee]]]; [apply M1; eapply Y2; eauto |].
      exfalso. subst e. cbn [stepr] in H. chks H. b2p. apply (g_cmsent_p _ _ G) in Ho. unfold hasm, F in *.
      destruct Ho as [Ho | [Ho _]]; congruence. }
    destruct (stepr_sent_new _ _ _ H _ Hi) as [Ho | ->]; auto.
    apply M1. destruct (HB Hh) as [Hs | [p [ms Ee]]]; [| discriminate Ee].
    destruct (cm_send_ok _ _ _ _ _ _ _ H eq_refl Hs) as [_ [Sub _]]. pose proof (Sub _ (l_prim _ _ L Hs)) as Hp.
    apply (g_pwok _ _ G) in Hp. destruct Hp as [r0 [ks0 [m0 [o0 [E1 _]]]]]. apply (g_pw_sent _ _ G) in E1.
    destruct E1 as [p0 [a0 [o1 [m1 [f1 [secs1 E1]]]]]]. eapply (g_pwsent_cnt _ _ G); eauto.
  - (* a resolve justified by CheckTxnStatus names the primary *)
    intros Hh C p Hi.
    assert (Old : In (T0, C, JKey p) (s_rs s) -> p = prim s' T0).
    { intros Ho. destruct (HB Hh) as [Hs | [p0 [ms Ee]]].
      - destruct (Fz Hs) as [_ [Ep _]]. rewrite Ep. eapply Y3; eauto.
      - subst e. cbn [stepr] in H. chks H. okinv H. rewrite forallb_forall in C2. specialize (C2 _ Ho). cbn in C2.
        rewrite N.eqb_refl in C2. cbn in C2. apply N.eqb_eq in C2. unfold prim, F. rd. auto. }
    destruct (stepr_rs_new _ _ _ H _ _ _ Hi) as [Ho | [r [ks ->]]]; auto.
    destruct (HB Hh) as [Hs | [p0 [ms Ee]]]; [| discriminate Ee].
    destruct (rs_send_open _ _ _ _ _ _ H) as [[p1 [_ [R Hp]]] | [_ [R _]]]; rewrite R in Hi; (destruct Hi as [Hi | Hi]; [inversion Hi; subst | auto]).
    destruct (Fz Hs) as [_ [Ep _]]. rewrite Ep. auto.
  - (* CheckSecondaryLocks presupposes an async-commit primary lock *)
    intros r ks Hi. apply M2. destruct (stepr_sent_new _ _ _ H _ Hi) as [Ho | ->]; [eapply Y4; eauto |].
    destruct (csl_send_open _ _ _ _ _ G H) as [p [ttl [m [secs [C0 _]]]]]. eapply (g_async_cts _ _ G); eauto.
Qed.

Lemma l1inv_init : forall T, l1inv init T.
Proof.
  intros T. constructor; unfold F, hasm; cbn; intros; try contradiction; auto; try (exfalso; apply H; reflexivity).
Qed.

Definition Yinv (s : sys) : Prop := forall T, l1inv s T.
(* the invariants of every transaction, whatever its commit mode *)
Definition Base (s : sys) : Prop := Inv s /\ Linv s /\ Zinv s /\ Yinv s.
Lemma base_stepr : forall s e s', Base s -> stepr s e = Ok s' -> Base s'.
Proof.
  intros s e s' [HI [HL [HZ HY]]] H. split; [eapply inv_stepr; eauto |]. split; [eapply linv_stepr; eauto |].
  split; intros T; [eapply l0inv_stepr | eapply l1inv_stepr]; eauto.
Qed.
Lemma base_init : Base init.
Proof. split; [apply inv_init |]. split; [apply linv_init |]. split; intros T; [apply l0inv_init | apply l1inv_init]. Qed.
Lemma base_run : forall evs s, run evs = Some s -> Base s.
Proof. intros evs s H. exact (run_from_preserved Base base_stepr evs init s base_init H). Qed.
Theorem yinv_run : forall evs s, run evs = Some s -> Yinv s.
Proof. intros evs s H. apply (base_run evs s H). Qed.
