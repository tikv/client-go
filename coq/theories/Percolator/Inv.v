(* Percolator/Inv.v — the invariants (J1–J6 of docs/DESIGN_ROUND1.md, Appendix B, adapted to System.v's state)
   and their consequences. Preservation is proved in OwnA.v, OwnB.v, Deliver*.v and assembled in Stable.v. *)
From Verif Require Export Percolator.Basics.

Definition F (s : sys) (T : N) (f : fld) : N := cn (getc s T) f.
Definition hasm (s : sys) (T : N) : Prop := F s T FHasm <> 0.
Definition prim (s : sys) (T : N) : N := F s T FPrim.
Definition lm (s : sys) (T : N) : list N := c_lm (getc s T).
Definition pwok (s : sys) (T : N) : list N := c_pwok (getc s T).
(* classic two-phase commit: never tried async commit / 1PC, no resolve justified by the async fold *)
Definition classic (s : sys) (T : N) : Prop :=
  F s T FTriedA = 0 /\ F s T FTried1 = 0 /\ (forall c, ~ In (T, c, JAsync) (s_rs s)).
Definition pwdlv (s : sys) (T k : N) : Prop :=
  exists r ks m o, In (EPwReply r T ks (PwOk m o)) (s_dlv s) /\ In k ks.
Definition some_rb (s : sys) (T : N) : Prop := exists k, In k (lm s T) /\ kget s T k = RolledBack.
(* a locked mutation was rolled back before any prewrite reached it: the commit phase is unreachable *)
Definition NS (s : sys) (T : N) : Prop :=
  exists k, In k (lm s T) /\ kget s T k = RolledBack /\ ~ pwdlv s T k.
Definition closed (s : sys) (T : N) : Prop := F s T FDead <> 0 /\ F s T FPcNeg = F s T FPcSent.
(* "the primary can never be committed" *)
Definition Dd (s : sys) (T : N) : Prop := kget s T (prim s T) = RolledBack \/ closed s T \/ NS s T.
(* what the owner knows when it cleans up / answers a definite error (J5) *)
Definition Dn (s : sys) (T : N) : Prop :=
  F s T FDead <> 0 /\ (F s T FPcNeg = F s T FPcSent \/ some_rb s T).

(* ---- invariants that hold for every transaction T ---- *)
Record ginv (s : sys) (T : N) : Prop := {
  g_pw : forall r ks m o k, In (EPwReply r T ks (PwOk m o)) (s_dlv s) -> In k ks -> kget s T k <> Unlocked;
  g_cm : forall r c ks k, In (ECmReply r T c ks CmOk) (s_dlv s) -> In k ks -> kget s T k = Committed c;
  g_cts_c : forall r p c, In (ECtsReply r T p (StCommitted c)) (s_dlv s) -> kget s T p = Committed c;
  g_cts_r : forall r p, In (ECtsReply r T p StRolledBack) (s_dlv s) -> kget s T p = RolledBack;
  g_cts_sub : forall r p st, In (ECtsReply r T p st) (s_cts s) -> In (ECtsReply r T p st) (s_dlv s);
  g_rs : forall c p, In (T, c, JKey p) (s_rs s) -> kget s T p = alt_of c;          (* J3, J4 *)
  g_rs_sent : forall r c ks, In (ERsSend r T c ks) (s_sent s) -> exists j, In (T, c, j) (s_rs s);
  g_wr : forall c, In (T, c) (s_wr s) -> exists j, In (T, c, j) (s_rs s);
  g_cm_sent : forall r c ks x, In (ECmReply r T c ks x) (s_dlv s) -> In (ECmSend r T c ks) (s_sent s);
  g_pw_sent : forall r ks x, In (EPwReply r T ks x) (s_dlv s) ->
              exists p a o m f secs, In (EPwSend r T p ks a o m f secs) (s_sent s);
  g_pwsent_cnt : forall r p ks a o m f secs, In (EPwSend r T p ks a o m f secs) (s_sent s) -> F s T FPwSent <> 0;
  g_1pc_sent : forall r p ks a m f secs, In (EPwSend r T p ks a true m f secs) (s_sent s) -> F s T FTried1 <> 0;
  g_1pc : forall r ks m o, In (EPwReply r T ks (PwOk m o)) (s_dlv s) -> o <> 0 -> F s T FTried1 <> 0;
  g_kst_fresh : forall k, F s T FPwSent = 0 -> kget s T k = Unlocked \/ kget s T k = RolledBack;
  g_cmsent_p : forall r c ks, In (ECmSend r T c ks) (s_sent s) ->
               F s T FPcSent <> 0 \/ (hasm s T /\ ~ In (prim s T) ks);
  g_fresh_cnt : ~ hasm s T ->
               F s T FPcDlv = 0 /\ F s T FPcOkd = 0 /\ F s T FPcFaild = 0 /\ F s T FPcNeg = 0 /\
               F s T FPcRep = 0 /\ F s T FPcOk = 0 /\ F s T FPcRb = 0;
  g_rb_dead : forall r ks, In (ERbSend r T ks) (s_sent s) -> F s T FDead <> 0;
  g_pwok : forall k, In k (pwok s T) -> pwdlv s T k;
  g_told_dead : F s T FTold = 2 \/ F s T FTold = 3 -> F s T FDead <> 0;
  g_1pcts : F s T F1pcTs <> 0 -> F s T FTried1 <> 0;
  g_async_cts : forall r p ttl m secs, In (ECtsReply r T p (StLocked ttl m true secs)) (s_dlv s) -> F s T FTriedA <> 0;
  g_jasync : forall c, In (T, c, JAsync) (s_rs s) -> F s T FTriedA <> 0
}.

(* ---- invariants of a classic transaction whose mutations are known ---- *)
Record tinv (s : sys) (T : N) : Prop := {
  t_prim_lm : In (prim s T) (lm s T);
  t_cnt : F s T FPcNeg <= F s T FPcFaild /\ F s T FPcFaild + F s T FPcOkd = F s T FPcDlv /\ F s T FPcDlv <= F s T FPcSent;
  t_pwok : F s T FPcSent <> 0 -> forall k, In k (lm s T) -> In k (pwok s T);
  t_cmsent : forall r c ks, In (ECmSend r T c ks) (s_sent s) ->
             (forall k, In k ks -> In k (lm s T)) /\ (~ In (prim s T) ks -> kget s T (prim s T) = Committed c);   (* J2 *)
  t_okd : forall r c ks, In (ECmReply r T c ks CmOk) (s_dlv s) -> In (prim s T) ks -> F s T FPcOkd <> 0;
  t_pcok : F s T FPcOk <> 0 -> kget s T (prim s T) = Committed (F s T FPcOk);
  t_rs_p : forall c p, In (T, c, JKey p) (s_rs s) -> p = prim s T;
  t_one : forall k c, kget s T k = Committed c -> kget s T (prim s T) = Committed c;
  t_pcommit : forall c, kget s T (prim s T) = Committed c -> F s T FPcOkd <> 0;                              (* J1 *)
  t_gone : forall r c ks, In (ECmReply r T c ks CmGone) (s_dlv s) -> In (prim s T) ks -> some_rb s T;
  t_rbflag : F s T FPcRb <> 0 -> some_rb s T;
  t_rb_sent : forall r ks, In (ERbSend r T ks) (s_sent s) -> Dn s T;                                          (* J5 *)
  t_told_err : F s T FTold = 3 -> Dn s T;
  t_rb_dead : forall k, In k (lm s T) -> kget s T k = RolledBack -> Dd s T;
  t_told_ok : F s T FTold = 1 -> exists c, kget s T (prim s T) = Committed c
}.

(* the third clause of classic follows from the first: a resolve derived from the CheckSecondaryLocks
   fold needs an async-commit attempt (g_jasync) *)
Lemma classic_flags : forall s T, ginv s T -> (classic s T <-> F s T FTriedA = 0 /\ F s T FTried1 = 0).
Proof.
  intros s T G. unfold classic. split; [tauto |]. intros [A B]. repeat split; auto.
  intros c Hc. apply (g_jasync _ _ G) in Hc. contradiction.
Qed.

Definition Inv (s : sys) : Prop := forall T, ginv s T /\ (hasm s T -> classic s T -> tinv s T).

Lemma pwdlv_not_unlocked : forall s T k, ginv s T -> pwdlv s T k -> kget s T k <> Unlocked.
Proof. intros s T k G [r [ks [m [o [H1 H2]]]]]. eapply g_pw; eauto. Qed.

Lemma committed_pwdlv : forall s T c k, ginv s T -> tinv s T -> kget s T (prim s T) = Committed c ->
  In k (lm s T) -> pwdlv s T k.
Proof.
  intros s T c k G I HC Hk. pose proof (t_pcommit _ _ I _ HC) as HO. destruct (t_cnt _ _ I) as [A [B C]].
  assert (HS : F s T FPcSent <> 0) by lia.
  apply (g_pwok _ _ G). apply (t_pwok _ _ I HS). exact Hk.
Qed.

Lemma Dd_not_committed : forall s T c, ginv s T -> tinv s T -> Dd s T -> kget s T (prim s T) <> Committed c.
Proof.
  intros s T c G I [H | [[H1 H2] | [k [H1 [H2 H3]]]]] HC.
  - rewrite H in HC. discriminate.
  - apply (t_pcommit _ _ I) in HC. destruct (t_cnt _ _ I) as [A [B C]]. lia.
  - apply H3. eapply committed_pwdlv; eauto.
Qed.

Lemma Dn_Dd : forall s T, tinv s T -> Dn s T -> Dd s T.
Proof.
  intros s T I [H1 [H2 | [k [H2 H3]]]].
  - right. left. split; auto.
  - eapply t_rb_dead; eauto.
Qed.

(* C02 (i) one commit timestamp; (ii) never one key committed and a locked mutation rolled back *)
Lemma one_commit_ts : forall s T k1 k2 c1 c2, tinv s T ->
  kget s T k1 = Committed c1 -> kget s T k2 = Committed c2 -> c1 = c2.
Proof.
  intros s T k1 k2 c1 c2 I H1 H2. apply (t_one _ _ I) in H1. apply (t_one _ _ I) in H2. congruence.
Qed.
Lemma all_or_nothing : forall s T k1 k2 c, ginv s T -> tinv s T ->
  kget s T k1 = Committed c -> In k2 (lm s T) -> kget s T k2 = RolledBack -> False.
Proof.
  intros s T k1 k2 c G I H1 H2 H3. apply (t_one _ _ I) in H1.
  eapply Dd_not_committed; eauto. eapply t_rb_dead; eauto.
Qed.
Lemma told_err_never_committed : forall s T k c, ginv s T -> tinv s T -> F s T FTold = 3 -> kget s T k <> Committed c.
Proof.
  intros s T k c G I H HC. apply (t_one _ _ I) in HC. eapply Dd_not_committed; eauto.
  apply Dn_Dd; auto. apply (t_told_err _ _ I). auto.
Qed.
