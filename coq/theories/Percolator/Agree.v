(* Percolator/Agree.v — every accepted event is a chain of elementary updates about its own transaction
   (upd, stepr_upd: where all event kinds are opened for structural facts); hence it agrees,
   for every other transaction, with the state before it (so Frame.v applies). Plus the step-inversion tactics. *)
From Verif Require Export Percolator.Frame.

Lemma agree_refl : forall s T, agree s s T.
Proof. intros. constructor; intros; try apply lext_refl; tauto. Qed.

(* y is x up to the components the invariants do not read (clock, owners, crashes, lock sightings, gc) *)
Definition same_core (x y : sys) : Prop :=
  s_kst y = s_kst x /\ s_cl y = s_cl x /\ s_sent y = s_sent x /\ s_dlv y = s_dlv x /\ s_cts y = s_cts x /\
  s_rs y = s_rs x /\ s_wr y = s_wr x.

Section Outer.
  Variables (s x : sys) (T' : N).
  Hypothesis A : agree s x T'.
  Lemma ag_setc : forall T c, T <> T' -> agree s (setc x T c) T'.
  Proof.
    intros T c H. destruct A as [a_k0 a_c0 a_lm0 a_pwok0 a_sent0 a_dlv0 a_cts0 a_rs0 a_wr0].
    constructor; sproj; auto; rewrite getc_setc_ne; auto.
  Qed.
  Lemma ag_setc_rel : forall c, (forall f, rel f = true -> cn c f = cn (getc x T') f) ->
    c_lm c = c_lm (getc x T') -> c_pwok c = c_pwok (getc x T') -> agree s (setc x T' c) T'.
  Proof.
    intros c H1 H2 H3. destruct A as [a_k0 a_c0 a_lm0 a_pwok0 a_sent0 a_dlv0 a_cts0 a_rs0 a_wr0].
    constructor; sproj; auto; rewrite getc_setc_eq; try congruence.
    intros f Hf. rewrite H1; auto.
  Qed.
  Lemma ag_add_sent : forall e, (txn_of e <> Some T' \/ relev e = false) -> agree s (add_sent x e) T'.
  Proof.
    intros e H. destruct A as [a_k0 a_c0 a_lm0 a_pwok0 a_sent0 a_dlv0 a_cts0 a_rs0 a_wr0]. constructor; sproj; auto.
    intros y Hy Hr. rewrite <- (a_sent0 y Hy Hr). apply (lext_cons T' (s_sent x) e H y Hy Hr).
  Qed.
  Lemma ag_add_dlv : forall e, (txn_of e <> Some T' \/ relev e = false) -> agree s (add_dlv x e) T'.
  Proof.
    intros e H. destruct A as [a_k0 a_c0 a_lm0 a_pwok0 a_sent0 a_dlv0 a_cts0 a_rs0 a_wr0]. constructor; sproj; auto.
    intros y Hy Hr. rewrite <- (a_dlv0 y Hy Hr). apply (lext_cons T' (s_dlv x) e H y Hy Hr).
  Qed.
  Lemma ag_w_cts : forall e, (txn_of e <> Some T' \/ relev e = false) -> agree s (w_cts x (e :: s_cts x)) T'.
  Proof.
    intros e H. destruct A as [a_k0 a_c0 a_lm0 a_pwok0 a_sent0 a_dlv0 a_cts0 a_rs0 a_wr0]. constructor; sproj; auto.
    intros y Hy Hr. rewrite <- (a_cts0 y Hy Hr). apply (lext_cons T' (s_cts x) e H y Hy Hr).
  Qed.
  Lemma ag_w_rs : forall T c j, T <> T' -> agree s (w_rs x ((T, c, j) :: s_rs x)) T'.
  Proof.
    intros T c j H. destruct A as [a_k0 a_c0 a_lm0 a_pwok0 a_sent0 a_dlv0 a_cts0 a_rs0 a_wr0]. constructor; sproj; auto.
    intros c' j'. rewrite <- a_rs0. cbn [In]. split; auto. intros [E | E]; auto. inversion E. congruence.
  Qed.
  Lemma ag_w_wr : forall T c, T <> T' -> agree s (w_wr x ((T, c) :: s_wr x)) T'.
  Proof.
    intros T c H. destruct A as [a_k0 a_c0 a_lm0 a_pwok0 a_sent0 a_dlv0 a_cts0 a_rs0 a_wr0]. constructor; sproj; auto.
    intros c'. rewrite <- a_wr0. cbn [In]. split; auto. intros [E | E]; auto. inversion E. congruence.
  Qed.
  Lemma ag_same_core : forall y, same_core x y -> agree s y T'.
  Proof.
    intros y [E1 [E2 [E3 [E4 [E5 [E6 E7]]]]]]. destruct A as [a_k0 a_c0 a_lm0 a_pwok0 a_sent0 a_dlv0 a_cts0 a_rs0 a_wr0].
    constructor; unfold kget, getc in *; rewrite ?E1, ?E2, ?E3, ?E4, ?E5, ?E6, ?E7; assumption.
  Qed.

  Lemma ag_same_but_kst : forall y, same_but_kst x y -> (forall k, kget y T' k = kget x T' k) -> agree s y T'.
  Proof.
    intros y H K. destruct A as [a_k0 a_c0 a_lm0 a_pwok0 a_sent0 a_dlv0 a_cts0 a_rs0 a_wr0]. rewrite H. constructor; sproj; auto.
    intros k. rewrite <- a_k0. rewrite <- K. rewrite H. reflexivity.
  Qed.
  Lemma ag_step_key : forall T k tr y, T <> T' -> tr_ok tr -> step_key x T k tr = Some y -> agree s y T'.
  Proof.
    intros T k tr y H Ho E. apply step_key_kmono in E; auto. destruct E as [E1 [_ E3]].
    apply ag_same_but_kst; auto.
  Qed.
  Lemma ag_step_keys : forall T ks tr y, T <> T' -> tr_ok tr -> step_keys x T ks tr = Some y -> agree s y T'.
  Proof.
    intros T ks tr y H Ho E. apply step_keys_kmono in E; auto. destruct E as [E1 [_ E3]].
    apply ag_same_but_kst; auto.
  Qed.
End Outer.

(* ---- step inversion: open the guards of an accepted step ---- *)
Ltac chk1 H :=
  match type of H with
  | (if ?b then _ else Rej _) = Ok _ => let C := fresh "C" in destruct b eqn:C; [| discriminate H]
  | (let x := _ in _) = Ok _ => cbv zeta in H
  end.
Ltac chks H := repeat chk1 H.
Ltac okinv H := match type of H with Ok _ = Ok _ => inversion H; subst; clear H end.

Ltac unfold_step H :=
  unfold step_pw_send, step_pw_deliver, step_pw_reply, step_cm_send, step_cm_deliver, step_cm_reply, step_rb_send,
         step_rb_deliver, step_cts_send, step_cts_deliver, step_csl_deliver, step_rs_send, step_rs_deliver, step_hb_send,
         step_told, plain_send, plain_reply in H.

Ltac destruct_event e :=
  destruct e as [t | r T | T causal | T p ms | r T p ks a o m f secs | r T ks x | r T ks x
                | r T c ks | r T c ks x | r T c ks x | r T ks | r T ks x | r T ks x
                | r T p f ks | r T f ks x | r T f ks x | r T f ks | r T f ks x | r T f ks x
                | r T p caller cur rbine force respess | r T p st | r T p st
                | r T ks | r T ks st | r T ks st | r T c ks | r T c ks x | r T c ks x
                | r T p ttl | r T p ok ttl | r T ttl | T x | T | r | r sp | r ].

Inductive upd (To : option N) (s : sys) : sys -> Prop :=
| u_refl : upd To s s
| u_setc : forall x T c, upd To s x -> To = Some T -> upd To s (setc x T c)
| u_sent : forall x e, upd To s x -> txn_of e = To -> upd To s (add_sent x e)
| u_dlv : forall x e, upd To s x -> txn_of e = To -> upd To s (add_dlv x e)
| u_cts : forall x e l, upd To s x -> txn_of e = To -> l = s_cts x -> upd To s (w_cts x (e :: l))
| u_rs : forall x T c j l, upd To s x -> To = Some T -> l = s_rs x -> upd To s (w_rs x ((T, c, j) :: l))
| u_wr : forall x T c l, upd To s x -> To = Some T -> l = s_wr x -> upd To s (w_wr x ((T, c) :: l))
| u_core : forall x y, upd To s x -> same_core x y -> upd To s y
| u_keys : forall x T ks tr y, upd To s x -> To = Some T -> tr_ok tr -> step_keys x T ks tr = Some y -> upd To s y
| u_key : forall x T k tr y, upd To s x -> To = Some T -> tr_ok tr -> step_key x T k tr = Some y -> upd To s y
| u_locks : forall x T l y, upd To s x -> To = Some T -> step_csl_locks x T l = Some y -> upd To s y.

(* peels the setters and store walks off the final state, outermost first *)
Ltac upd_tac :=
  repeat first [ apply u_refl
               | apply u_setc; [| reflexivity] | apply u_sent; [| reflexivity] | apply u_dlv; [| reflexivity]
               | apply u_cts; [| reflexivity | reflexivity] | apply u_rs; [| reflexivity | reflexivity]
               | apply u_wr; [| reflexivity | reflexivity]
               | match goal with
                 | |- upd _ _ (w_tso ?x _) => apply (u_core _ _ x)
                 | |- upd _ _ (w_own ?x _) => apply (u_core _ _ x)
                 | |- upd _ _ (w_crashed ?x _) => apply (u_core _ _ x)
                 | |- upd _ _ (w_csl ?x _) => apply (u_core _ _ x)
                 | |- upd _ _ (w_seen ?x _) => apply (u_core _ _ x)
                 | |- upd _ _ (w_gc ?x _) => apply (u_core _ _ x)
                 end; [| repeat split]
               | match goal with
                 | E : step_keys _ _ _ _ = Some ?y |- upd _ _ ?y =>
                     eapply u_keys; [| reflexivity | | exact E];
                     [| first [apply tr_pw_ok | apply tr_1pc_ok | apply tr_cm_ok | apply tr_rb_ok | apply tr_rs_ok
                              | apply tr_push_ok | apply tr_csl_rb_ok ]]
                 | E : step_key _ _ _ _ = Some ?y |- upd _ _ ?y =>
                     eapply u_key; [| reflexivity | | exact E];
                     [| first [apply tr_cts_committed_ok | apply tr_rb_ok | apply tr_cts_locked_ok ]]
                 | E : step_csl_locks _ _ _ = Some ?y |- upd _ _ ?y => eapply u_locks; [| reflexivity | exact E]
                 end ].

Lemma stepr_upd : forall s e s', stepr s e = Ok s' -> upd (txn_of e) s s'.
Proof.
  intros s e s' H. destruct_event e; cbn [txn_of]; cbn [stepr] in H; unfold_step H; chks H.
  (* the events whose step is guards and one chain of setters *)
  all: try solve [okinv H; upd_tac].
  (* the others branch on the answer, on whether the request is the commit point, or walk the store *)
  - (* pw deliver *) destruct x as [m0 o0 | |]; try (okinv H; upd_tac).
    destruct (o0 =? 0); [destruct (step_keys _ _ _ (tr_pw m0)) eqn:E | destruct (step_keys _ _ _ (tr_1pc o0)) eqn:E];
      try discriminate; okinv H; upd_tac.
  - (* cm send *) destruct (fb (getc s T) FHasm); chks H; [destruct (mem _ ks); chks H |]; okinv H; upd_tac.
  - (* cm deliver *) destruct x; chks H;
      try (destruct (step_keys _ _ _ _) eqn:E; try discriminate);
      destruct (has_prim (getc s T) ks); okinv H; upd_tac.
  - (* cm reply *) destruct (has_prim (getc s T) ks); [| okinv H; upd_tac].
    destruct x; chks H; okinv H; upd_tac.
  - (* rb deliver *) destruct x; try (okinv H; upd_tac).
    destruct (step_keys _ _ _ _) eqn:E; try discriminate. okinv H. upd_tac.
  - (* cts deliver *) destruct st; chks H; try (okinv H; upd_tac);
      try match type of H with context [if ?b then setc _ _ _ else _] => destruct b end;
      (destruct (step_key _ _ _ _) eqn:E; try discriminate; okinv H; upd_tac).
  - (* csl deliver *) destruct st; chks H; try (okinv H; upd_tac).
    + destruct (step_csl_locks _ _ _) eqn:E; try discriminate. okinv H. upd_tac.
    + destruct (c =? 0); chks H; [destruct (step_keys _ _ _ _) eqn:E; try discriminate |]; okinv H; upd_tac.
  - (* rs send *) destruct (just_cts s r T c); chks H; okinv H; upd_tac.
  - (* rs deliver *) destruct x; try (okinv H; upd_tac).
    destruct ks; [okinv H; upd_tac |]. destruct (step_keys _ _ _ _) eqn:E; try discriminate. okinv H. upd_tac.
  - (* told *) destruct x; chks H; okinv H; upd_tac.
Qed.

Lemma step_agree : forall s e s' T', stepr s e = Ok s' -> txn_of e <> Some T' -> agree s s' T'.
Proof.
  intros s e s' T' H Hne. apply stepr_upd in H.
  induction H as [| x T c _ IH E | x e0 _ IH E | x e0 _ IH E | x e0 l _ IH E -> | x T c j l _ IH E -> | x T c l _ IH E ->
                  | x y _ IH E
                  | x T ks tr y _ IH E Ho Hs | x T k tr y _ IH E Ho Hs | x T l y _ IH E Hs ].
  - apply agree_refl.
  - apply ag_setc; congruence.
  - apply ag_add_sent; [exact IH | left; congruence].
  - apply ag_add_dlv; [exact IH | left; congruence].
  - apply ag_w_cts; [exact IH | left; congruence].
  - apply ag_w_rs; congruence.
  - apply ag_w_wr; congruence.
  - apply (ag_same_core s x T' IH y E).
  - apply (ag_step_keys s x T' IH T ks tr y); [congruence | exact Ho | exact Hs].
  - apply (ag_step_key s x T' IH T k tr y); [congruence | exact Ho | exact Hs].
  - destruct (step_csl_locks_same _ _ _ _ Hs) as [S C]. exact (ag_same_but_kst s x T' IH y S (C T')).
Qed.

(* events that touch nothing the invariants talk about: they agree even for their own transaction *)
Definition irrel (e : event) : bool :=
  match e with
  | EBegin _ _ | ECommitCall _ _ | ERbReply _ _ _ _ | EPlSend _ _ _ _ _ | EPlDeliver _ _ _ _ _ | EPlReply _ _ _ _ _
  | EPrSend _ _ _ _ | EPrDeliver _ _ _ _ _ | EPrReply _ _ _ _ _ | ECtsSend _ _ _ _ _ _ _ _ | ECslSend _ _ _
  | ECslReply _ _ _ _ | ERsReply _ _ _ _ _ | EHbSend _ _ _ _ | EHbDeliver _ _ _ _ _ | ELockSeen _ _ _
  | ERollbackTold _ => true
  | _ => false
  end.

Ltac ag_own :=
  repeat first [ apply agree_refl
               | apply ag_setc_rel; [| intros f0 Hf0; destruct f0; try discriminate Hf0; reflexivity | reflexivity | reflexivity]
               | apply ag_add_sent; [| right; reflexivity]
               | apply ag_add_dlv; [| right; reflexivity]
               | match goal with
                 | |- agree _ (w_own ?x _) _ => apply (ag_same_core _ x)
                 | |- agree _ (w_csl ?x _) _ => apply (ag_same_core _ x)
                 | |- agree _ (w_seen ?x _) _ => apply (ag_same_core _ x)
                 end; [| repeat split] ].

Lemma step_agree_irrel : forall s e s' T', stepr s e = Ok s' -> irrel e = true -> agree s s' T'.
Proof.
  intros s e s' T' H Hi.
  destruct (txn_of_dec e T') as [E | Hn]; [| exact (step_agree s e s' T' H Hn)].
  destruct_event e; cbn [irrel] in Hi; try discriminate Hi; injection E as <-; cbn [stepr] in H; unfold_step H; chks H;
    okinv H; try (destruct (fb (getc s T) FPlAny)); ag_own.
Qed.
