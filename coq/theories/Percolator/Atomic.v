(* Percolator/Atomic.v — C02 / C03 statements for classic two-phase commit, derived from the invariant;
   the store step of one-phase commit; reject_of, the first rejection of a trace (the Examples of Props.v). *)
From Verif Require Export Percolator.Stable.

Lemma run_from_inv : forall evs s s', Inv s -> run_from s evs = Some s' -> Inv s'.
Proof. exact inv_run_from. Qed.

(* In whatever regime: with one commit ts, all or nothing, and every locked mutation prewritten, a committed
   primary leaves each locked mutation committed at the same ts or still locked (and then to be resolved to that
   commit only, by the same two facts in every extension). *)
Lemma committed_keys_of : forall s T, ginv s T ->
  (forall k1 k2 c1 c2, kget s T k1 = Committed c1 -> kget s T k2 = Committed c2 -> c1 = c2) ->
  (forall k1 k2 c, kget s T k1 = Committed c -> In k2 (lm s T) -> kget s T k2 <> RolledBack) ->
  forall c, kget s T (prim s T) = Committed c -> (forall k, In k (lm s T) -> pwdlv s T k) ->
  forall k, In k (lm s T) -> kget s T k = Committed c \/ exists m, kget s T k = Locked m.
Proof.
  intros s T G One All c HP Pw k Hk. destruct (kget s T k) eqn:E.
  - exfalso. eapply pwdlv_not_unlocked; eauto.
  - right. eauto.
  - left. f_equal. eapply One; eauto.
  - exfalso. eapply All; eauto.
Qed.

(* "told ok" and the committed primary persist along every accepted extension *)
Lemma told_ok_persists : forall s T c, hasm s T -> F s T FTold = 1 -> kget s T (prim s T) = Committed c ->
  forall evs' s', run_from s evs' = Some s' -> F s' T FTold = 1 /\ kget s' T (prim s' T) = Committed c.
Proof.
  intros s T c Hm Ht HP evs' s' R'. destruct (run_from_frozen _ _ _ T R') as [A1 A2]. destruct (A2 Hm) as [_ [A3 _]].
  split; [destruct A1 as [A1 _]; [rewrite Ht; discriminate | congruence] |]. rewrite A3.
  eapply km_committed; [eapply run_from_kmono; eauto | auto].
Qed.

Section Atomic.
  Variables (evs : list event) (s : sys) (T : N).
  Hypothesis R : run evs = Some s.
  Hypothesis Hm : hasm s T.
  Hypothesis Hc : classic s T.

  Let HI := inv_run evs s R.
  Let G : ginv s T := proj1 (HI T).
  Let I : tinv s T := proj2 (HI T) Hm Hc.

  Lemma atomic_one_ts : forall k1 k2 c1 c2, kget s T k1 = Committed c1 -> kget s T k2 = Committed c2 -> c1 = c2.
  Proof. intros. eapply one_commit_ts; eauto. Qed.

  Lemma atomic_all_or_nothing : forall k1 k2 c, kget s T k1 = Committed c -> In k2 (lm s T) -> kget s T k2 <> RolledBack.
  Proof. intros k1 k2 c H1 H2 H3. eapply all_or_nothing; eauto. Qed.

  Lemma committed_keys : forall c, kget s T (prim s T) = Committed c ->
    forall k, In k (lm s T) -> kget s T k = Committed c \/ exists m, kget s T k = Locked m.
  Proof.
    intros c HP. apply (committed_keys_of s T G atomic_one_ts atomic_all_or_nothing c HP).
    intros k Hk. eapply committed_pwdlv; eauto.
  Qed.

  Lemma told_ok_committed : F s T FTold = 1 ->
    exists c, kget s T (prim s T) = Committed c /\
      (forall k, In k (lm s T) -> kget s T k = Committed c \/ exists m, kget s T k = Locked m) /\
      forall evs' s', run_from s evs' = Some s' ->
        F s' T FTold = 1 /\ kget s' T (prim s' T) = Committed c.
  Proof.
    intros Ht. destruct (t_told_ok _ _ I Ht) as [c HP]. exists c. split; auto.
    split; [apply committed_keys; auto | apply told_ok_persists; auto].
  Qed.

  Lemma told_err_never : F s T FTold = 3 ->
    forall evs' s', run_from s evs' = Some s' ->
      F s' T FTold = 3 /\ forall k c, kget s' T k <> Committed c.
  Proof.
    intros Ht evs' s' R'. destruct (run_from_frozen _ _ _ T R') as [A1 A2]. destruct (A2 Hm) as [A3 _].
    destruct A1 as [A4 [A5 A6]]; [rewrite Ht; discriminate |].
    assert (Ht' : F s' T FTold = 3) by congruence.
    split; auto. pose proof (inv_run_from _ _ _ HI R' T) as [G' I'].
    assert (Hc' : classic s' T).
    { apply (classic_flags _ _ G'). destruct (proj1 (classic_flags _ _ G) Hc) as [Fa F1]. split; congruence. }
    specialize (I' A3 Hc').
    intros k c. eapply told_err_never_committed; eauto.
  Qed.
End Atomic.

(* one-phase commit: the store applies the whole request in one atomic step *)
Lemma onepc_atomic_step : forall s s' r T ks m o, o <> 0 ->
  stepr s (EPwDeliver r T ks (PwOk m o)) = Ok s' -> forall k, In k ks -> kget s' T k = Committed o.
Proof.
  intros s s' r T ks m o Ho H k Hk. cbn [stepr] in H. unfold step_pw_deliver in H. chks H.
  apply N.eqb_neq in Ho. rewrite Ho in H. destruct (step_keys _ _ _ _) as [s2 |] eqn:E; try discriminate. okinv H.
  pose proof (step_keys_exact _ _ _ _ _ (tr_1pc_ok o) (tr_1pc_idem o) (tr_1pc_total o) E k Hk) as A.
  rewrite kget_setc, kget_add_dlv in A.
  destruct (kget s T k) as [| m0 | c0 |]; cbn in A; try (inversion A; auto; fail).
  destruct (c0 =? o) eqn:Ec; inversion A. apply N.eqb_eq in Ec. subst. auto.
Qed.

(* first rejection of a trace: index and reason (None = accepted) *)
Fixpoint reject_from (s : sys) (i : nat) (evs : list event) : option (nat * reason) :=
  match evs with
  | [] => None
  | e :: r => match stepr s e with Ok s' => reject_from s' (S i) r | Rej x => Some (i, x) end
  end.
Definition reject_of (evs : list event) : option (nat * reason) := reject_from init 0 evs.
Lemma reject_from_run : forall evs s i, reject_from s i evs = None <-> exists s', run_from s evs = Some s'.
Proof.
  induction evs as [| e evs IH]; intros s i; cbn [reject_from run_from].
  - split; eauto.
  - unfold step. destruct (stepr s e) as [s1 | x].
    + apply IH.
    + split; [discriminate | intros [s' H]; discriminate].
Qed.
Lemma reject_of_run : forall evs, reject_of evs = None <-> exists s, run evs = Some s.
Proof. intros. apply reject_from_run. Qed.
