(* Percolator/Univ.v — the invariant that holds for every transaction whose mutations are logged, whatever
   its commit mode: why a locked mutation can be rolled back (uinv). *)
From Verif Require Export Percolator.UnivEvents.

Section Step.
  Variables (s : sys) (e : event) (s' : sys) (T : N).
  Hypothesis H : stepr s e = Ok s'.
  Hypothesis Hh : hasm s T.
  Let KM : kmono s s' := stepr_kmono _ _ _ H.

  Lemma st_hasm : hasm s' T. Proof. destruct (stepr_frozen _ _ _ T H) as [_ Fz]. apply (Fz Hh). Qed.
  Lemma st_prim : prim s' T = prim s T. Proof. destruct (stepr_frozen _ _ _ T H) as [_ Fz]. apply (Fz Hh). Qed.
  Lemma st_lm : lm s' T = lm s T. Proof. destruct (stepr_frozen _ _ _ T H) as [_ Fz]. apply (Fz Hh). Qed.
  Lemma st_dlv_new : forall x, In x (s_dlv s') -> In x (s_dlv s) \/ delivers e x.
  Proof. intros x Hx. destruct (stepr_dlv_new _ _ _ H x Hx) as [B | B]; [left; exact B | right; exact (reply_of_eq _ _ B)]. Qed.
  Lemma st_sent : forall x, In x (s_sent s) -> In x (s_sent s').
  Proof. exact (stepr_sent_incl _ _ _ H). Qed.
  Lemma st_rs : forall x, In x (s_rs s) -> In x (s_rs s').
  Proof.
    intros x Hx. pose proof (stepr_lists _ _ _ H) as [_ [_ [_ [_ [Lr _]]]]].
    destruct Lr as [Lr | [r [T1 [c [ks [j [_ Lr]]]]]]]; rewrite Lr; auto. right. auto.
  Qed.

  Lemma st_rolledback : forall k, kget s T k = RolledBack -> kget s' T k = RolledBack.
  Proof. intros. eapply km_rolledback; eauto. Qed.
  Lemma st_committed : forall k c, kget s T k = Committed c -> kget s' T k = Committed c.
  Proof. intros. eapply km_committed; eauto. Qed.
End Step.

Record uinv (s : sys) (T : N) : Prop := {
  u_rb : forall k, In k (lm s T) -> kget s T k = RolledBack -> Dd s T;
  u_rbsent : forall r ks, In (ERbSend r T ks) (s_sent s) -> Dn s T;
  u_tolderr : F s T FTold = 3 -> Dn s T;
  u_rbflag : F s T FPcRb <> 0 -> some_rb s T;
  u_dec0 : forall j, In (T, 0, j) (s_rs s) -> some_rb s T;
  u_cslc0 : forall r ks, In (ECslReply r T ks (CslCommit 0)) (s_dlv s) -> some_rb s T;
  u_gone : forall r c ks, In (ECmReply r T c ks CmGone) (s_dlv s) -> In (prim s T) ks -> some_rb s T;
  u_cmsent : forall r c ks, In (ECmSend r T c ks) (s_sent s) ->
             (forall k, In k ks -> In k (lm s T)) /\ (forall k, In k (lm s T) -> In k (pwok s T));
  u_cslsent : forall r ks, In (ECslSend r T ks) (s_sent s) -> forall k, In k ks -> In k (lm s T);
  u_csll : forall r ks l, In (ECslReply r T ks (CslLocks l)) (s_dlv s) -> forall k M, In (k, M) l -> lamk s T k = Some M;
  u_ctsl : forall r p ttl m secs, In (ECtsReply r T p (StLocked ttl m true secs)) (s_dlv s) ->
           m <> 0 /\ lamk s T p = Some m /\ p = prim s T /\ forall k, In k secs <-> (In k (lm s T) /\ k <> p);
  u_entry : forall r ks m, In (EPwReply r T ks (PwOk m 0)) (s_dlv s) -> forall k, In k ks ->
            lamk s T k = Some m \/ m = 0 \/ kget s T k = Committed m;
  u_1pcsend : forall r p ks a m f secs, In (EPwSend r T p ks a true m f secs) (s_sent s) -> forall k, In k (lm s T) -> In k ks;
  u_1pcdlv : forall r ks m o, In (EPwReply r T ks (PwOk m o)) (s_dlv s) -> o <> 0 -> forall k, In k (lm s T) -> In k ks;
  u_1pcts : F s T F1pcTs <> 0 -> exists r ks m o, In (EPwReply r T ks (PwOk m o)) (s_dlv s) /\ o <> 0;
  u_pwok : F s T FPcSent <> 0 -> forall k, In k (lm s T) -> In k (pwok s T)
}.

Lemma Dn_Dd_u : forall s T, uinv s T -> Dn s T -> Dd s T.
Proof.
  intros s T U [H1 [H2 | [k [H2 H3]]]].
  - right. left. split; auto.
  - eapply u_rb; eauto.
Qed.
Lemma some_rb_Dd : forall s T, uinv s T -> some_rb s T -> Dd s T.
Proof. intros s T U [k [H2 H3]]. eapply u_rb; eauto. Qed.

Section UStep.
  Variables (s : sys) (e : event) (s' : sys) (T : N).
  Hypothesis H : stepr s e = Ok s'.
  Hypothesis HI : Inv s.
  Hypothesis HL : Linv s.
  Hypothesis Hh : hasm s T.
  Hypothesis PC : pcinv s T.
  Hypothesis U : uinv s T.
  Let G : ginv s T := proj1 (HI T).
  Let L : linv s T := HL T.
  Let L' : linv s' T := linv_stepr _ _ _ HI HL H T.
  Let Ep : prim s' T = prim s T := st_prim s e s' T H Hh.
  Let Em : lm s' T = lm s T := st_lm s e s' T H Hh.
  Let KM : kmono s s' := stepr_kmono _ _ _ H.
  Let Ef : fb (getc s T) FHasm = true := proj2 (fb_true _ _) Hh.

  Lemma st_some_rb : some_rb s T -> some_rb s' T.
  Proof. apply some_rb_mono; [exact KM | exact Em]. Qed.
  Lemma st_dead : F s T FDead <> 0 -> F s' T FDead <> 0. Proof. apply (stepr_dead _ _ _ T H). Qed.
  Lemma st_closed : F s T FDead <> 0 -> F s T FPcNeg = F s T FPcSent -> F s' T FPcNeg = F s' T FPcSent.
  Proof.
    intros Hd Hn. destruct (stepr_pcn _ _ _ T H G (pc_cnt _ _ PC) (st_hasm s e s' T H Hh)) as [[A [B C]] [Sent [Mono _]]].
    specialize (Sent Hh Hd). destruct (Mono Hh) as [M1 _]. unfold F in *. lia.
  Qed.
  Lemma st_pwdlv_back : forall k, kget s T k = RolledBack -> pwdlv s' T k -> pwdlv s T k.
  Proof.
    intros k Ek [r [ks [m [o [H1 H2]]]]]. destruct (st_dlv_new s e s' H _ H1) as [B | B]; [exists r, ks, m, o; auto |].
    exfalso. pose proof H as H3. rewrite B in H3. eapply pw_deliver_not_rb; eauto.
  Qed.
  Lemma st_Dn : Dn s T -> Dn s' T.
  Proof. apply Dn_mono; [exact KM | exact Em | apply st_dead | apply st_closed]. Qed.
  Lemma st_Dd : Dd s T -> Dd s' T.
  Proof.
    apply Dd_mono; [exact KM | exact Em | apply st_dead | apply st_closed | exact Ep | apply st_pwdlv_back].
  Qed.

  Lemma npw_pwdlv_back : (forall r ks x, e <> EPwDeliver r T ks x) -> forall k, pwdlv s' T k -> pwdlv s T k.
  Proof.
    intros Hn k [r [ks [m [o [H1 H2]]]]]. destruct (st_dlv_new s e s' H _ H1) as [B | B]; [exists r, ks, m, o; auto |].
    exfalso. eapply Hn; eauto.
  Qed.
  (* a key that was never locked gets a rollback marker: it can never be prewritten *)
  Lemma mark_NS : (forall r ks x, e <> EPwDeliver r T ks x) -> forall k, In k (lm s T) -> kget s T k = Unlocked ->
    kget s' T k = RolledBack -> Dd s' T.
  Proof.
    intros Hn k Hk Eu Er. right. right. exists k. split; [rewrite Em; auto |]. split; [auto |]. intros Hp.
    apply (npw_pwdlv_back Hn) in Hp. eapply (pwdlv_not_unlocked s T k); eauto.
  Qed.

  Lemma us_rb : forall k, In k (lm s' T) -> kget s' T k = RolledBack -> Dd s' T.
  Proof.
    intros k Hk Ek'. rewrite Em in Hk.
    destruct (stepr_kj _ _ _ T H G k) as [Same | [[r [ks [m [o [_ [_ [[_ [_ E]] | [_ E]]]]]]]] | [[m [c [_ [E _]]]] | [_ [Was Cause]]]]]; try congruence.
    - apply st_Dd. apply (u_rb _ _ U k); congruence.
    - destruct Cause as [[r [ks [_ [_ Hs]]]] | [[j Hj] | [[Eu [r [ks [Ee Hi]]]] | [r Ee]]]].
      + apply st_Dd. apply (Dn_Dd_u _ _ U). eapply (u_rbsent _ _ U); eauto.
      + apply st_Dd. apply (some_rb_Dd _ _ U). eapply (u_dec0 _ _ U); eauto.
      + eapply mark_NS; eauto. intros; subst; discriminate.
      + destruct Was as [Eu | [m El]]; [eapply mark_NS; eauto; intros; subst; discriminate |].
        open_at H Ee H2. rewrite El in C0.
        rewrite Ef in C0. cbn [andb negb] in C0.
        rewrite andb_true_r in C0. apply negb_true_iff, negb_false_iff in C0. apply N.eqb_eq in C0. left. rewrite Ep. unfold prim, F. congruence.
  Qed.

  Lemma neg_ok_Dn : forall c', neg_ok (getc s T) = true -> getc s' T = c' -> cn c' FDead <> 0 ->
    cn c' FPcNeg = cn (getc s T) FPcNeg -> cn c' FPcSent = cn (getc s T) FPcSent -> Dn s' T.
  Proof.
    intros c' Hn Gc Hd E1 E2. unfold neg_ok in Hn. b2p. split; [unfold F; rewrite Gc; auto |].
    apply orb_true_iff in Hn0. destruct Hn0 as [Hx | Hx]; b2p.
    - left. unfold F. rewrite Gc. congruence.
    - right. apply st_some_rb. apply (u_rbflag _ _ U). exact Hx.
  Qed.

  Lemma us_rbsent : forall r ks, In (ERbSend r T ks) (s_sent s') -> Dn s' T.
  Proof.
    intros r ks Hi. destruct (stepr_sent_new _ _ _ H _ Hi) as [B | B]; [apply st_Dn; eapply (u_rbsent _ _ U); eauto |].
    open_at H B H2. injection H2 as Es.
    apply andb_true_iff in C0. destruct C0 as [C0 _].
    eapply (neg_ok_Dn (setn (getc s T) FDead 1)); eauto; [rewrite <- Es | ..]; rd; try reflexivity. discriminate.
  Qed.

  Lemma us_tolderr : F s' T FTold = 3 -> Dn s' T.
  Proof.
    intros Ht. destruct (stepr_cn _ _ _ T FTold H) as [Same | [Et W]]; [apply st_Dn; apply (u_tolderr _ _ U); congruence |].
    destruct (wr_inv _ _ _ Et W) as [x Ee]. open_at H Ee H2.
    destruct x; chks H2; injection H2 as Es; try (exfalso; rewrite <- Es in Ht; unfold F in Ht; rd_h Ht; discriminate Ht).
    - apply andb_true_iff in C1. destruct C1 as [C1 _]. apply andb_true_iff in C1. destruct C1 as [C1 _].
      eapply (neg_ok_Dn (setn (setn (getc s T) FTold 3) FDead 1)); eauto; [rewrite <- Es | ..]; rd; try reflexivity. discriminate.
  Qed.

  Lemma us_rbflag : F s' T FPcRb <> 0 -> some_rb s' T.
  Proof.
    intros Hf. apply st_some_rb. destruct (N.eq_dec (F s T FPcRb) 0) as [Hz | Hz]; [| exact (u_rbflag _ _ U Hz)].
    destruct (stepr_cn _ _ _ T FPcRb H) as [Same | [Et W]]; [congruence |].
    destruct (wr_inv _ _ _ Et W) as [r [c [ks [x Ee]]]]. open_at H Ee H2. apply delivered_In in C0.
    destruct (has_prim (getc s T) ks) eqn:Hp; [| injection H2 as <-; contradiction].
    destruct x; chks H2; injection H2 as Es; try (exfalso; apply Hf; rewrite <- Es; unfold F; rd_g; exact Hz).
    unfold has_prim in Hp. b2p. eapply (u_gone _ _ U); eauto.
  Qed.
  Lemma wr0_some_rb : In (T, 0) (s_wr s) -> some_rb s T.
  Proof. intros W. destruct (g_wr _ _ G _ W) as [j Hj]. eapply (u_dec0 _ _ U); eauto. Qed.

  Lemma us_dec0 : forall j, In (T, 0, j) (s_rs s') -> some_rb s' T.
  Proof.
    intros j Hj. apply st_some_rb. destruct (stepr_rs_new _ _ _ H _ _ _ Hj) as [B | [r [ks Ee]]]; [eapply (u_dec0 _ _ U); eauto |].
    destruct (rs_send_just _ _ _ _ _ _ _ H Ee G L) as [[p [Ek Hp]] | [[ks0 Hi] | [p [ttl [m [secs [Hi [Hm _]]]]]]]].
    - rewrite (Hp Hh) in Ek. exists (prim s T). split; [apply (l_prim _ _ L Hh) | exact Ek].
    - eapply (u_cslc0 _ _ U); eauto.
    - exfalso. destruct (u_ctsl _ _ U _ _ _ _ _ Hi) as [Hm0 _]. lia.
  Qed.

  Lemma gone_some_rb : forall ks, (forall k, In k ks -> In k (lm s T)) -> (forall k, In k ks -> kget s T k <> Unlocked \/ kget s' T k = RolledBack) ->
    existsb (gone_key s T) ks = true -> some_rb s' T.
  Proof.
    intros ks Hsub Hun Hg. apply existsb_exists in Hg. destruct Hg as [k [K1 K2]]. unfold gone_key in K2.
    destruct (kget s T k) eqn:Ek; try discriminate.
    - destruct (Hun k K1) as [Hx | Hx]; [congruence |]. exists k. rewrite Em. auto.
    - apply st_some_rb. apply wr0_some_rb. apply existsb_exists in K2. destruct K2 as [[T' c] [W1 W2]]. cbn [fst snd] in W2. b2p. subst. auto.
    - apply st_some_rb. exists k. auto.
  Qed.

  Lemma us_cslc0 : forall r ks, In (ECslReply r T ks (CslCommit 0)) (s_dlv s') -> some_rb s' T.
  Proof.
    intros r ks Hi. destruct (st_dlv_new s e s' H _ Hi) as [B | B]; [apply st_some_rb; eapply (u_cslc0 _ _ U); eauto |].
    open_at H B H2. cbn [N.eqb] in H2. chks H2.
    apply sent_by_In in C. destruct C as [e0 [Ce1 Ce2]]. destruct e0; try discriminate. beq. subst.
    destruct (first_gone_spec _ _ _ C0) as [k0 [Fg [K1 K2]]]. rewrite Fg in H2.
    destruct (step_keys _ _ _ _) as [s2 |] eqn:E; try discriminate. injection H2 as Es.
    apply (gone_some_rb [k0]); [intros k [<- | []]; eapply (u_cslsent _ _ U); eauto | | cbn [existsb]; rewrite K2; reflexivity].
    intros k [<- | []]. destruct (kget s T k0) eqn:Ek; try (left; discriminate). right. rewrite <- Es.
    destruct (step_keys_char _ _ _ _ _ _ tr_csl_rb_ok tr_csl_rb_idem tr_csl_rb_total E k0) as [[_ Ch] | [Hn _]]; [| exfalso; apply Hn; left; reflexivity].
    change (kget (add_dlv s _) T k0) with (kget s T k0) in Ch. rewrite Ek in Ch. cbn in Ch. inversion Ch. auto.
  Qed.

  Lemma us_gone : forall r c ks, In (ECmReply r T c ks CmGone) (s_dlv s') -> In (prim s' T) ks -> some_rb s' T.
  Proof.
    intros r c ks Hi Hp. rewrite Ep in Hp. destruct (st_dlv_new s e s' H _ Hi) as [B | B]; [apply st_some_rb; eapply (u_gone _ _ U); eauto |].
    open_at H B H2.
    apply sent_by_In in C. destruct C as [e0 [Ce1 Ce2]]. destruct e0; try discriminate. beq. subst.
    destruct (u_cmsent _ _ U _ _ _ Ce1) as [S1 S2].
    apply (gone_some_rb ks); [auto | | auto]. intros k Hk. left. apply (pwdlv_not_unlocked s T k G). apply (g_pwok _ _ G). auto.
  Qed.

  Lemma us_cmsent : forall r c ks, In (ECmSend r T c ks) (s_sent s') ->
    (forall k, In k ks -> In k (lm s' T)) /\ (forall k, In k (lm s' T) -> In k (pwok s' T)).
  Proof.
    intros r c ks Hi. rewrite Em. pose proof (fun k => pwok_mono _ _ _ T k H) as Pw.
    destruct (stepr_sent_new _ _ _ H _ Hi) as [B | B].
    - destruct (u_cmsent _ _ U _ _ _ B) as [S1 S2]. split; auto.
    - destruct (cm_send_ok _ _ _ _ _ _ _ H B Hh) as [S1 [S2 _]]. split; auto.
  Qed.

  Lemma us_cslsent : forall r ks, In (ECslSend r T ks) (s_sent s') -> forall k, In k ks -> In k (lm s' T).
  Proof.
    intros r ks Hi k Hk. rewrite Em. destruct (stepr_sent_new _ _ _ H _ Hi) as [B | B]; [eapply (u_cslsent _ _ U); eauto |].
    pose proof H as H2. rewrite B in H2. destruct (csl_send_open _ _ _ _ _ G H2) as [p [ttl [m [secs [E1 E2]]]]].
    destruct (u_ctsl _ _ U _ _ _ _ _ E1) as [_ [_ [_ Hs]]]. apply Hs. auto.
  Qed.

  Lemma us_csll : forall r ks l, In (ECslReply r T ks (CslLocks l)) (s_dlv s') -> forall k M, In (k, M) l -> lamk s' T k = Some M.
  Proof.
    intros r ks l Hi k M Hk. apply (proj1 (stepr_lam _ _ _ T k H L)).
    destruct (st_dlv_new s e s' H _ Hi) as [B | B]; [eapply (u_csll _ _ U); eauto |].
    open_at H B H2.
    rewrite forallb_forall in C1. specialize (C1 _ Hk). cbn [fst snd] in C1.
    destruct (kget s T k) eqn:Ek; try discriminate. apply N.eqb_eq in C1. subst. apply (l_locked _ _ L). auto.
  Qed.

  Lemma us_ctsl : forall r p ttl m secs, In (ECtsReply r T p (StLocked ttl m true secs)) (s_dlv s') ->
    m <> 0 /\ lamk s' T p = Some m /\ p = prim s' T /\ forall k, In k secs <-> (In k (lm s' T) /\ k <> p).
  Proof.
    intros r p ttl m secs Hi. rewrite Ep, Em.
    assert (Hl : forall mm, lamk s T p = Some mm -> lamk s' T p = Some mm) by (apply (proj1 (stepr_lam _ _ _ T p H L))).
    destruct (st_dlv_new s e s' H _ Hi) as [B | B].
    { destruct (u_ctsl _ _ U _ _ _ _ _ B) as [B1 [B2 [B3 B4]]]. auto. }
    open_at H B H2. cbn [negb andb orb] in *. rewrite Ef in *. cbn [negb andb orb] in *.
    destruct (kget s T p) eqn:Ek; try discriminate. b2p. subst m0.
    split; [auto |]. split; [apply Hl; apply (l_locked _ _ L); auto |]. split; [unfold prim, F; auto |].
    intros k. split.
    - intros Hk. split; [match goal with Hs : subset secs _ = true |- _ => eapply subset_In; eauto end |]. intros ->.
      match goal with Hx : mem p secs = false |- _ => apply mem_false in Hx; contradiction end.
    - intros [Hk Hne]. match goal with Hx : forallb _ (c_lm _) = true |- _ => pose proof (forallb_In _ _ _ Hx Hk) as Cx end.
      cbn beta in Cx. apply orb_true_iff in Cx.
      destruct Cx as [Cx | Cx]; [apply N.eqb_eq in Cx; contradiction | apply mem_In; auto].
  Qed.
  Lemma us_entry : forall r ks m, In (EPwReply r T ks (PwOk m 0)) (s_dlv s') -> forall k, In k ks ->
    lamk s' T k = Some m \/ m = 0 \/ kget s' T k = Committed m.
  Proof.
    intros r ks m Hi k Hk. destruct (st_dlv_new s e s' H _ Hi) as [B | B].
    - destruct (u_entry _ _ U _ _ _ B k Hk) as [E | [E | E]]; auto.
      + left. apply (proj1 (stepr_lam _ _ _ T k H L)). auto.
      + right. right. eapply st_committed; eauto.
    - pose proof H as H2. rewrite B in H2.
      destruct (pw_deliver_exact _ _ _ _ _ _ H2 k Hk) as [Tr Mc]. unfold mc_consistent in Mc.
      destruct (kget s T k) eqn:Ek; cbn in Tr; inversion Tr as [Ek'].
      + left. apply (l_locked _ _ L'). auto.
      + apply orb_true_iff in Mc. destruct Mc as [Mc | Mc]; apply N.eqb_eq in Mc; [| auto]. subst. left. apply (l_locked _ _ L'). auto.
      + apply orb_true_iff in Mc. destruct Mc as [Mc | Mc]; apply N.eqb_eq in Mc; [auto |]. subst. auto.
  Qed.

  Lemma us_1pcsend : forall r p ks a m f secs, In (EPwSend r T p ks a true m f secs) (s_sent s') -> forall k, In k (lm s' T) -> In k ks.
  Proof.
    intros r p ks a m f secs Hi k Hk. rewrite Em in Hk. destruct (stepr_sent_new _ _ _ H _ Hi) as [B | B]; [eapply (u_1pcsend _ _ U); eauto |].
    pose proof H as H2. rewrite B in H2.
    apply (ps_all _ _ _ _ _ _ _ _ _ (pw_send_spec _ _ _ _ _ _ _ _ _ _ _ H2) Hh eq_refl). apply (l_lm_all _ _ L). auto.
  Qed.

  Lemma us_1pcdlv : forall r ks m o, In (EPwReply r T ks (PwOk m o)) (s_dlv s') -> o <> 0 -> forall k, In k (lm s' T) -> In k ks.
  Proof.
    intros r ks m o Hi Ho k Hk. destruct (st_dlv_new s e s' H _ Hi) as [B | B]; [rewrite Em in Hk; eapply (u_1pcdlv _ _ U); eauto |].
    open_at H B H2.
    apply N.eqb_neq in Ho. rewrite Ho in C0. cbn [orb] in C0. apply sent_by_In in C0. destruct C0 as [e0 [E1 E2]].
    destruct e0; try discriminate. destruct onepc; try discriminate. beq. subst. rewrite Em in Hk. eapply (u_1pcsend _ _ U); eauto.
  Qed.

  Lemma us_1pcts : F s' T F1pcTs <> 0 -> exists r ks m o, In (EPwReply r T ks (PwOk m o)) (s_dlv s') /\ o <> 0.
  Proof.
    intros Hf. destruct (N.eq_dec (F s T F1pcTs) 0) as [Hz | Hz].
    2: { destruct (u_1pcts _ _ U Hz) as [r [ks [m [o [B1 B2]]]]]. exists r, ks, m, o. split; auto. eapply stepr_dlv_incl; eauto. }
    destruct (stepr_cn _ _ _ T F1pcTs H) as [Same | [Et W]]; [congruence |].
    destruct (wr_inv _ _ _ Et W) as [r [ks [x Ee]]]. pose proof H as H2. rewrite Ee in H2.
    pose proof (pw_reply_spec _ _ _ _ _ _ H2) as P. pose proof (pr_dlv _ _ _ _ _ _ _ _ P) as C0.
    unfold F in Hf, Hz. rewrite (pr_1pcts _ _ _ _ _ _ _ _ P) in Hf. destruct x as [m o | |]; try contradiction.
    exists r, ks, m, o. split; [eapply stepr_dlv_incl; eauto |]. intros ->. cbn [N.eqb] in Hf. contradiction.
  Qed.

  Lemma us_pwok : F s' T FPcSent <> 0 -> forall k, In k (lm s' T) -> In k (pwok s' T).
  Proof.
    intros Hf k Hk. rewrite Em in Hk. apply (pwok_mono _ _ _ T k H).
    destruct (stepr_cn _ _ _ T FPcSent H) as [Same | [Et W]]; [apply (u_pwok _ _ U); congruence |].
    destruct (wr_inv _ _ _ Et W) as [r [c [ks Ee]]]. exact (proj1 (proj2 (cm_send_ok _ _ _ _ _ _ _ H Ee Hh)) k Hk).
  Qed.

  Theorem uinv_step : uinv s' T.
  Proof.
    constructor; [exact us_rb | exact us_rbsent | exact us_tolderr | exact us_rbflag | exact us_dec0 | exact us_cslc0 | exact us_gone
                 | exact us_cmsent | exact us_cslsent | exact us_csll | exact us_ctsl | exact us_entry | exact us_1pcsend | exact us_1pcdlv
                 | exact us_1pcts | exact us_pwok].
  Qed.
End UStep.

Lemma uinv_mutations : forall s s' T p ms, Inv s -> Linv s -> Zinv s -> Yinv s ->
  stepr s (EMutations T p ms) = Ok s' -> uinv s' T.
Proof.
  intros s s' T p ms HI HL HZ HY H. destruct (HI T) as [G _]. pose proof (HL T) as L. pose proof (HZ T) as Z. pose proof (HY T) as Y.
  cbn [stepr] in H. chks H. okinv H. b2p.
  destruct (z_untried s T Z) as [NoA No1]; [assumption | unfold F in NoA, No1].
  destruct (fresh_no_pw s T G) as [NoS NoD]; [unfold F; congruence |].
  assert (NoCm : forall r c ks, ~ In (ECmSend r T c ks) (s_sent s)).
  { intros r c ks Hi. apply (g_cmsent_p _ _ G) in Hi. unfold hasm, F in Hi. destruct Hi as [Hi | [Hi _]]; congruence. }
  assert (NoCsl : forall r ks, ~ In (ECslSend r T ks) (s_sent s)).
  { intros r ks Hi. apply (y_csl _ _ Y) in Hi. unfold F in Hi. congruence. }
  assert (NoCslR : forall r ks st, ~ In (ECslReply r T ks st) (s_dlv s)).
  { intros r ks st Hi. apply (l_csl_sent _ _ L) in Hi. eapply NoCsl; eauto. }
  destruct (g_fresh_cnt _ _ G) as [_ [_ [_ [_ [_ [_ Zrb]]]]]]; [unfold hasm, F; intros Hx; apply Hx; auto |].
  constructor; unfold lm, prim, pwok, F, lamk, Dd, Dn, some_rb, NS, closed, pwdlv, lm, prim, F; intros; rd.
  - right. right. exists k. repeat split; auto. intros [r [ks [m [o [Hi _]]]]]. eapply NoD; eauto.
  - exfalso. apply (g_rb_dead _ _ G) in H. unfold F in H. congruence.
  - exfalso. congruence.
  - exfalso. unfold F in Zrb. congruence.
  - destruct j as [p' |]; [| exfalso; apply (g_jasync _ _ G) in H; unfold F in H; congruence].
    rewrite forallb_forall in C1. pose proof (C1 _ H) as Cx. cbn beta iota in Cx. rewrite N.eqb_refl in Cx. cbn [negb orb] in Cx.
    apply N.eqb_eq in Cx. subst p'. exists p. split; auto. apply (g_rs _ _ G) in H. auto.
  - exfalso. eapply NoCslR; eauto.
  - exfalso. apply (g_cm_sent _ _ G) in H. eapply NoCm; eauto.
  - exfalso. eapply NoCm; eauto.
  - exfalso. eapply NoCsl; eauto.
  - exfalso. eapply NoCslR; eauto.
  - exfalso. apply (g_async_cts _ _ G) in H. unfold F in H. congruence.
  - exfalso. eapply NoD; eauto.
  - exfalso. eapply NoS; eauto.
  - exfalso. eapply NoD; eauto.
  - exfalso. apply (g_1pcts _ _ G) in H. unfold F in H. congruence.
  - exfalso. congruence.
Qed.

Definition Uinv (s : sys) : Prop := forall T, hasm s T -> uinv s T.
Definition Pinv (s : sys) : Prop := forall T, pcinv s T.

Theorem uinv_stepr : forall s e s', Inv s -> Linv s -> Zinv s -> Yinv s -> Pinv s -> Uinv s -> stepr s e = Ok s' -> Uinv s'.
Proof.
  intros s e s' HI HL HZ HY HP HU H T Hh'. destruct (stepr_hasm_back _ _ _ T H Hh') as [Hh | [p [ms ->]]].
  - eapply uinv_step; eauto.
  - eapply uinv_mutations; eauto.
Qed.
