(* Percolator/ProofsTrace.v — every trace accepted by System.run satisfies the automaton-independent
   trace predicates of Trace.v. *)
From Verif Require Import Percolator.Event Percolator.System Percolator.Basics Percolator.Trace
  Percolator.ProofsTrace2 Percolator.View Percolator.ProofsTrace3.

Lemma step_stepr s e s' : step s e = Some s' -> stepr s e = Ok s'.
Proof. unfold step. destruct (stepr s e); intros E; inversion E; reflexivity. Qed.

(* the state an accepted trace ends in, left unevaluated: the Examples here and in Props.v evaluate it
   anew for each observation, so that no proof term holds a whole state *)
Definition final (tr : list event) : sys := match run tr with Some s => s | None => init end.
Lemma run_final tr : (if run tr then true else false) = true -> run tr = Some (final tr).
Proof. unfold final. destruct (run tr); [reflexivity | discriminate]. Qed.

Lemma H_step pre s e s' : H pre (view_of s) -> stepr s e = Ok s' -> H (pre ++ [e]) (view_of s').
Proof.
  intros Hh St. destruct (stepr_vstep _ _ _ St) as (Gd & oc & Cl & ->). split.
  - apply HG_step; [exact (proj1 Hh) | exact Gd].
  - apply HT_step; assumption.
Qed.

Lemma H_run evs : forall pre s s', H pre (view_of s) -> run_from s evs = Some s' -> H (pre ++ evs) (view_of s').
Proof.
  induction evs as [|e evs IH]; intros pre s s' Hh R; cbn [run_from] in R.
  - inversion R; subst. rewrite app_nil_r. exact Hh.
  - destruct (step s e) eqn:E; try discriminate. apply step_stepr in E.
    change (pre ++ e :: evs) with (pre ++ [e] ++ evs). rewrite app_assoc.
    eapply IH; [eapply H_step; eauto | exact R].
Qed.

Lemma run_from_app a : forall s b,
  run_from s (a ++ b) = match run_from s a with Some s1 => run_from s1 b | None => None end.
Proof.
  induction a as [|x a IH]; intros s b; cbn [app run_from]; [reflexivity |].
  destruct (step s x); [apply IH | reflexivity].
Qed.

Lemma at_event evs s0 pre e post :
  run evs = Some s0 -> evs = pre ++ e :: post -> exists v, H pre v /\ guard v e.
Proof.
  intros R ->. unfold run in R. rewrite run_from_app in R.
  destruct (run_from init pre) as [s1 |] eqn:R1; [| discriminate]. cbn [run_from] in R.
  destruct (step s1 e) as [s2 |] eqn:R2; [| discriminate]. apply step_stepr in R2.
  exists (view_of s1). split.
  - apply (H_run pre [] init s1 H_init R1).
  - apply (stepr_vstep _ _ _ R2).
Qed.

(* what an accepted commit_send of a transaction with logged mutations has checked *)
Lemma cm_send_facts pre v r T C ks p ms :
  H pre v -> guard v (ECmSend r T C ks) -> In (EMutations T p ms) pre ->
  let c := vgetc v T in
  HT T pre c /\ cn c FDead = 0 /\ cn c FPrim = p /\ c_lm c = lock_keys ms /\
  subset (c_lm c) (c_pwok c) = true /\ T < C /\ cn c FMinc <= C /\
  (negb (fb c FCalled) || fb c FCausal || (cn c FWm <? C)) = true /\
  (mem p ks = false -> ((cn c FPcOk =? C) || async_kept c) = true) /\
  (negb (async_kept c) || (C =? cn c FMinc)) = true.
Proof.
  intros [G A] [Hd St] Hm. cbv zeta. apply fb_false in Hd.
  destruct (A T GM _ _ Hm) as (Hh & Hp & Hl & Hpl).
  apply fb_true in Hh. destruct (St Hh) as (S1 & S2 & S3 & S3b & S4 & S5).
  split; [exact (A T)|]. split; [exact Hd|]. split; [exact Hp|]. split; [exact Hl|].
  split; [exact S1|]. split; [exact S2|]. split; [exact S3|]. split; [exact S4|].
  split; [| exact S3b].
  intros Em. rewrite Hp in S5. exact (S5 Em).
Qed.

(* the owner's mode flags, from what the history shows *)
Lemma async_in_force pre T c : HP T pre c ->
  (exists r p ks a o m f secs, In (EPwSend r T p ks a o m f secs) pre) ->
  (forall r p ks a o m f secs, In (EPwSend r T p ks a o m f secs) pre -> a = true /\ o = false) ->
  (forall r ks o, ~ In (EPwReply r T ks (PwOk 0 o)) pre) -> async_kept c = true.
Proof.
  intros P (r & p & ks & a & o & m & f & secs & Hi) Hall Hno.
  destruct (Hall _ _ _ _ _ _ _ _ Hi) as [-> ->].
  pose proof (t_trieda2 _ _ _ P _ _ _ _ _ _ _ Hi) as Hta.
  assert (Hfb : cn c FFb = 0).
  { destruct (N.eq_dec (cn c FFb) 0) as [Hz | Hz]; [exact Hz | exfalso].
    destruct (t_fb _ _ _ P Hz) as [(r2 & p2 & ks2 & o3 & m3 & f3 & secs3 & Hi2) | [(r2 & ks2 & o3 & Hi2) | (r2 & p2 & ks2 & a3 & m3 & f3 & secs3 & Hi2)]].
    - destruct (Hall _ _ _ _ _ _ _ _ Hi2) as [Hx _]. discriminate.
    - exact (Hno _ _ _ Hi2).
    - destruct (Hall _ _ _ _ _ _ _ _ Hi2) as [_ Hx]. discriminate. }
  unfold async_kept. apply fb_true in Hta. apply fb_false in Hfb. rewrite Hta, Hfb. reflexivity.
Qed.
Lemma onepc_in_force pre T c : HP T pre c ->
  (exists r p ks a o m f secs, In (EPwSend r T p ks a o m f secs) pre) ->
  (forall r p ks a o m f secs, In (EPwSend r T p ks a o m f secs) pre -> o = true) ->
  (forall r ks m, ~ In (EPwReply r T ks (PwOk m 0)) pre) -> onepc_on c = true.
Proof.
  intros P (r & p & ks & a & o & m & f & secs & Hi) Hall Hno.
  pose proof (Hall _ _ _ _ _ _ _ _ Hi) as ->.
  pose proof (t_tried12 _ _ _ P _ _ _ _ _ _ _ Hi) as Ht1.
  assert (Hfb1 : cn c FFb1 = 0).
  { destruct (N.eq_dec (cn c FFb1) 0) as [Hz | Hz]; [exact Hz | exfalso].
    destruct (t_fb1 _ _ _ P Hz) as [(r2 & p2 & ks2 & a3 & m3 & f3 & secs3 & Hi2) | (r2 & ks2 & m3 & Hi2)].
    - pose proof (Hall _ _ _ _ _ _ _ _ Hi2). discriminate.
    - exact (Hno _ _ _ Hi2). }
  unfold onepc_on. apply fb_true in Ht1. apply fb_false in Hfb1. rewrite Ht1, Hfb1. reflexivity.
Qed.

Lemma neg_ok_facts pre T c : HC T pre c -> cn c FHasm <> 0 -> neg_ok c = true ->
  (forall r C ks, In (ECmReply r T C ks CmOk) pre -> ~ In (cn c FPrim) ks) /\
  (count_if (is_pc_send T (cn c FPrim)) pre = count_if (is_pc_neg T (cn c FPrim)) pre \/
   exists r C ks, In (ECmReply r T C ks CmGone) pre /\ In (cn c FPrim) ks).
Proof.
  intros HCc Hh Hn. apply andb_true_iff in Hn. destruct Hn as [H0 Hn]. apply N.eqb_eq in H0.
  split; [exact (t_pcok0 _ _ _ HCc Hh H0) |].
  apply orb_true_iff in Hn. destruct Hn as [Hn | Hn].
  - left. apply N.eqb_eq in Hn. pose proof (t_sent _ _ _ HCc) as Hs. pose proof (t_neg _ _ _ HCc Hh) as Hg.
    apply N.eqb_neq in Hh. rewrite Hh in Hs. lia.
  - right. apply fb_true in Hn. exact (t_rb _ _ _ HCc Hn).
Qed.

Theorem commit_after_all_prewrites_holds evs s0 : run evs = Some s0 -> commit_after_all_prewrites evs.
Proof.
  intros R pre post r T C ks p ms E Hm k Hk.
  destruct (at_event _ _ _ _ _ R E) as (v & Hh & St).
  destruct (cm_send_facts _ _ _ _ _ _ _ _ Hh St Hm) as (HTc & _ & _ & Hl & Hsub & _).
  rewrite lock_keys_agree, <- Hl in Hk.
  apply (subset_In _ _ Hsub) in Hk. exact (t_pwok _ _ _ (HTc GP) _ Hk).
Qed.

Theorem secondaries_after_primary_holds evs s0 : run evs = Some s0 -> secondaries_after_primary evs.
Proof.
  intros R pre post r T C ks p ms E Hm Hnp.
  destruct (at_event _ _ _ _ _ R E) as (v & Hh & St).
  destruct (cm_send_facts _ _ _ _ _ _ _ _ Hh St Hm) as (HTc & _ & Hp & _ & _ & Hts & _ & _ & Hsec & _).
  assert (Em : mem p ks = false).
  { destruct (mem p ks) eqn:Em; [|reflexivity]. apply mem_In in Em. contradiction. }
  specialize (Hsec Em). apply orb_true_iff in Hsec. destruct Hsec as [Hs | Hs].
  - left. apply N.eqb_eq in Hs.
    assert (Hnz : cn (vgetc v T) FPcOk <> 0) by lia.
    pose proof (t_pcok _ _ _ (HTc GC) Hnz) as Hc. rewrite Hs, Hp in Hc. exact Hc.
  - right. unfold async_kept in Hs. apply andb_true_iff in Hs. destruct Hs as [Hs _].
    apply fb_true in Hs. exact (t_trieda _ _ _ (HTc GP) Hs).
Qed.

Theorem no_rollback_after_possible_commit_holds evs s0 :
  run evs = Some s0 -> no_rollback_after_possible_commit evs.
Proof.
  intros R. split.
  - intros pre post r T ks p ms E Hm.
    destruct (at_event _ _ _ _ _ R E) as (v & [G A] & St).
    cbn [guard] in St. apply andb_true_iff in St. destruct St as [Hn _].
    destruct (A T GM _ _ Hm) as (Hh & <- & _). exact (neg_ok_facts _ _ _ (A T GC) Hh Hn).
  - intros pre post r T C ks p ms E Hm r' ks' Hi.
    destruct (at_event _ _ _ _ _ R E) as (v & Hh & St).
    destruct (cm_send_facts _ _ _ _ _ _ _ _ Hh St Hm) as (HTc & Hd & _).
    exact (t_dead _ _ _ (HTc GO) _ _ Hi Hd).
Qed.

Theorem resolve_uses_reported_status_holds evs s0 : run evs = Some s0 -> resolve_uses_reported_status evs.
Proof.
  intros R pre post r T C ks E.
  destruct (at_event _ _ _ _ _ R E) as (v & [G A] & St).
  cbn [guard] in St.
  destruct St as [(Hc & p & Hi) | [(Hc & p & Hi) | [((ks' & Hi) & (p & ttl & m & secs & Hj)) | (p & ttl & m & secs & Hi & Hm & Hs)]]].
  - left. split; [exact Hc|]. exists p. exact (g_cts _ _ G _ Hi).
  - right. left. split; [exact Hc|]. exists p. exact (g_cts _ _ G _ Hi).
  - right. right. left. split; [exists ks'; exact (g_csl _ _ G _ Hi) | exists p, ttl, m, secs; exact (g_cts _ _ G _ Hj)].
  - right. right. right. exists p, ttl, m, secs. split; [exact (g_cts _ _ G _ Hi)|]. split; [exact Hm|].
    intros k Hk. destruct (Hs k Hk) as (ks' & l & m' & I1 & I2 & I3 & I4).
    exists ks', l, m'. split; [exact (g_csl _ _ G _ I1)|]. split; [assumption |]. split; assumption.
Qed.

Theorem commit_ts_bounds_holds evs s0 : run evs = Some s0 -> commit_ts_bounds evs.
Proof.
  intros R pre post r T C ks p ms E Hm.
  destruct (at_event _ _ _ _ _ R E) as (v & Hh & St).
  destruct (cm_send_facts _ _ _ _ _ _ _ _ Hh St Hm) as (HTc & _ & _ & Hl & Hsub & Hts & Hmin & Hwm & _ & Hak).
  split; [exact Hts|]. split; [| split].
  - intros r' ks' m o Hi [k [Hk1 Hk2]].
    assert (m <= cn (vgetc v T) FMinc).
    { apply (t_minc _ _ _ (HTc GP) _ _ _ _ Hi). right. exists k. split; [exact Hk1 |]. rewrite Hl, <- lock_keys_agree. exact Hk2. }
    lia.
  - intros pre1 pre2 Hd Hno t Ht.
    destruct (t_call _ _ _ (HTc GO) _ _ _ Hd Hno) as (Hc & Hcz & Hw).
    assert (Hcausal : cn (vgetc v T) FCausal = 0).
    { destruct (N.eq_dec (cn (vgetc v T) FCausal) 0) as [Hz | Hz]; [exact Hz|].
      apply Hcz in Hz. discriminate. }
    apply fb_true in Hc. apply fb_false in Hcausal. rewrite Hc, Hcausal in Hwm. cbn [negb orb] in Hwm.
    apply N.ltb_lt in Hwm. specialize (Hw t Ht). lia.
  - intros Hall Hno0. destruct Hh as [G A].
    (* the primary is a locked mutation, so some prewrite reply, hence some prewrite request exists *)
    pose proof (proj2 (proj2 (proj2 (HTc GM _ _ Hm)))) as Hpl. rewrite <- Hl in Hpl.
    apply (subset_In _ _ Hsub) in Hpl. destruct (t_pwok _ _ _ (HTc GP) _ Hpl) as (r1 & ks1 & m1 & o1 & Hi1 & _).
    destruct (pw_reply_has_send _ _ _ _ _ _ G Hi1) as (p1 & a1 & o2 & m2 & f2 & secs2 & Hs1).
    assert (Hk : async_kept (vgetc v T) = true) by (apply (async_in_force pre T _ (HTc GP)); eauto 10).
    rewrite Hk in Hak. cbn [negb orb] in Hak. apply N.eqb_eq in Hak.
    assert (Hnz : cn (vgetc v T) FMinc <> 0) by lia.
    destruct (t_minc2 _ _ _ (HTc GP) Hnz) as (r2 & ks2 & o3 & Hi). rewrite <- Hak in Hi. exists r2, ks2, o3. exact Hi.
Qed.

Theorem expire_only_expired_holds evs s0 : run evs = Some s0 -> expire_only_expired evs.
Proof.
  intros R pre post r T p caller cur rbine force respess E Hc.
  destruct (at_event _ _ _ _ _ R E) as (v & [G A] & St).
  cbn [guard] in St. destruct St as [Hx _]. specialize (Hx Hc).
  destruct Hx as [(ttl & Hi & Ht) | (sp & Hi & Hle)].
  - left. exists ttl. split; [exact (g_seen _ _ G _ _ _ Hi)|].
    destruct Ht as [Ht | Ht]; [left; exact Ht|].
    destruct (g_tso2 _ _ G) as [Hz | Hz].
    + left. rewrite Hz in Ht. unfold phys in Ht. rewrite N.div_0_l in Ht by discriminate.
      generalize dependent (T / 262144). intros q Ht. lia.
    + right. exists (v_tso v). split; [exact Hz | exact Ht].
  - right. exists sp. split; [exact (g_gc _ _ G _ _ Hi) | exact Hle].
Qed.

Theorem told_ok_after_commit_holds evs s0 : run evs = Some s0 -> told_ok_after_commit evs.
Proof.
  intros R pre post T p ms E Hm.
  destruct (at_event _ _ _ _ _ R E) as (v & [G A] & Hg).
  cbn [guard told_guard] in Hg.
  pose proof (A T) as HTc. destruct (HTc GM _ _ Hm) as (Hh & Hp & Hl & Hpl).
  apply orb_true_iff in Hg. destruct Hg as [Hg | Hd].
  2: { exfalso. repeat (apply andb_true_iff in Hd; destruct Hd as [Hd _]). apply negb_true_iff, fb_false in Hd. contradiction. }
  apply orb_true_iff in Hg. destruct Hg as [Hg | Hg]; [apply orb_true_iff in Hg; destruct Hg as [Hg | Hg]|].
  - left. apply negb_true_iff, N.eqb_neq in Hg.
    destruct (t_pcok _ _ _ (HTc GC) Hg) as (r & ks & Hi & Hk). rewrite Hp in Hk. exists r, (cn (vgetc v T) FPcOk), ks. split; assumption.
  - right. left. apply negb_true_iff, N.eqb_neq in Hg.
    destruct (t_1pc _ _ _ (HTc GP) Hg) as (r & ks & m & Hi). exists r, ks, m, (cn (vgetc v T) F1pcTs). split; assumption.
  - right. right. apply andb_true_iff in Hg. destruct Hg as [Hg _].
    apply andb_true_iff in Hg. destruct Hg as [Hg Hsub].
    apply andb_true_iff in Hg. destruct Hg as [Hg _].
    unfold async_kept in Hg. apply andb_true_iff in Hg. destruct Hg as [Hg Hfb].
    apply fb_true in Hg. apply negb_true_iff, fb_false in Hfb.
    split; [exact (t_trieda _ _ _ (HTc GP) Hg) |]. split; [| split].
    + intros r' p' ks' a o m f secs Hi. destruct a; [reflexivity | exfalso]. exact (t_fbc1 _ _ _ (HTc GP) _ _ _ _ _ _ _ Hi Hfb).
    + intros r' ks' o Hi. exact (t_fbc2 _ _ _ (HTc GP) _ _ _ Hi Hfb).
    + intros k Hk. rewrite lock_keys_agree, <- Hl in Hk. apply (subset_In _ _ Hsub) in Hk. exact (t_pwok _ _ _ (HTc GP) _ Hk).
Qed.

Theorem undetermined_only_if_holds evs s0 : run evs = Some s0 -> undetermined_only_if evs.
Proof.
  intros R pre post T p ms E Hm.
  destruct (at_event _ _ _ _ _ R E) as (v & [G A] & Hg).
  cbn [guard told_guard] in Hg.
  pose proof (A T) as HTc. destruct (HTc GM _ _ Hm) as (Hh & Hp & _).
  apply orb_true_iff in Hg. destruct Hg as [Hg | Hg].
  - left. apply N.ltb_lt in Hg.
    pose proof (t_sent _ _ _ (HTc GC)) as Hs. pose proof (t_rep _ _ _ (HTc GC) Hh) as Hr.
    apply N.eqb_neq in Hh. rewrite Hh, Hp in Hs. rewrite Hp in Hr. lia.
  - right. apply andb_true_iff in Hg. destruct Hg as [Hcp Hlt]. apply N.ltb_lt in Hlt. split.
    + unfold commit_point_pw in Hcp. apply orb_true_iff in Hcp. destruct Hcp as [Hc | Hc]; apply fb_true in Hc.
      * destruct (t_trieda _ _ _ (HTc GP) Hc) as (r & p' & ks & o & m & f & secs & Hi).
        exists r, p', ks, true, o, m, f, secs. split; [exact Hi | left; reflexivity].
      * destruct (t_tried1 _ _ _ (HTc GP) Hc) as (r & p' & ks & a & m & f & secs & Hi).
        exists r, p', ks, a, true, m, f, secs. split; [exact Hi | right; reflexivity].
    + pose proof (t_pws _ _ _ (HTc GP)). pose proof (t_pwr _ _ _ (HTc GP)). lia.
Qed.

Theorem told_err_only_if_occ_holds evs s0 : run evs = Some s0 -> told_err_only_if_occ evs.
Proof.
  intros R pre post T p ms E Hm Hcp.
  destruct (at_event _ _ _ _ _ R E) as (v & [G A] & Hg).
  cbn [guard told_guard] in Hg.
  pose proof (A T) as HTc. destruct (HTc GM _ _ Hm) as (Hh & Hp & Hl & Hpl).
  apply andb_true_iff in Hg. destruct Hg as [Hg _]. apply andb_true_iff in Hg. destruct Hg as [_ Hg].
  assert (Hcpw : cp_active (vgetc v T) = true).
  { unfold cp_active. destruct Hcp as [Hs [[Hall Hno] | [Hall Hno]]].
    - rewrite (async_in_force pre T _ (HTc GP) Hs Hall Hno). reflexivity.
    - rewrite (onepc_in_force pre T _ (HTc GP) Hs Hall Hno). apply orb_true_r. }
  rewrite Hcpw in Hg. cbn [negb orb] in Hg. unfold err_ok in Hg.
  apply fb_true in Hh. rewrite Hh in Hg. cbn [negb orb] in Hg.
  apply existsb_exists in Hg. destruct Hg as (k & Hk & Heq). apply N.eqb_eq in Heq.
  exists k. split; [rewrite lock_keys_agree, <- Hl; exact Hk|].
  rewrite (t_ksent _ _ _ (HTc GP)), (t_kneg _ _ _ (HTc GP)) in Heq. lia.
Qed.

(* for duplicate-free key lists, counting with multiplicity = counting the events that mention k *)
Lemma occ_counts pre v T k :
  HG pre v -> (forall r p' ks a o m f secs, In (EPwSend r T p' ks a o m f secs) pre -> NoDup ks) ->
  sum_of (pw_send_occ T k) pre = count_if (is_pw_send_k T k) pre /\
  sum_of (pw_negreply_occ T k) pre = count_if (is_pw_negreply_k T k) pre.
Proof.
  intros G Hnd. split; apply sum_of_count; intros e He; destruct e; try reflexivity.
  - cbn [pw_send_occ is_pw_send_k]. destruct (s =? T) eqn:Es; [|reflexivity].
    apply N.eqb_eq in Es. subst s. cbn [andb]. apply occ_nodup. eapply Hnd. exact He.
  - cbn [pw_negreply_occ is_pw_negreply_k]. destruct (s =? T) eqn:Es; [|reflexivity].
    apply N.eqb_eq in Es. subst s. cbn [andb].
    destruct (is_pwneg res); [| rewrite andb_false_r; reflexivity]. rewrite andb_true_r.
    apply occ_nodup.
    destruct (pw_reply_has_send _ _ _ _ _ _ G He) as (p1 & a1 & o1 & m1 & f1 & secs1 & Hs).
    eapply Hnd. exact Hs.
Qed.

Theorem told_err_only_if_holds evs s0 : run evs = Some s0 -> told_err_only_if evs.
Proof.
  intros R pre post T p ms E Hm.
  destruct (at_event _ _ _ _ _ R E) as (v & [G A] & Hg).
  cbn [guard told_guard] in Hg.
  destruct (A T GM _ _ Hm) as (Hh & <- & _).
  apply andb_true_iff in Hg. destruct Hg as [Hg _]. apply andb_true_iff in Hg. destruct Hg as [Hn _].
  destruct (neg_ok_facts _ _ _ (A T GC) Hh Hn) as [N1 N2]. split; [exact N1 | split; [exact N2 |]].
  intros Hcp Hnd.
  destruct (told_err_only_if_occ_holds _ _ R _ _ _ _ _ E Hm Hcp) as (k & Hk & Heq).
  exists k. split; [exact Hk|].
  destruct (occ_counts pre v T k G Hnd) as [Q1 Q2]. rewrite <- Q1, <- Q2. exact Heq.
Qed.

Theorem csl_only_listed_holds evs s0 : run evs = Some s0 -> csl_only_listed evs.
Proof.
  intros R pre post r T ks E.
  destruct (at_event _ _ _ _ _ R E) as (v & [G A] & Hg).
  cbn [guard] in Hg.
  apply async_cts_spec in Hg. destruct Hg as (p & ttl & m & secs & Hi & Hs).
  exists p, ttl, m, secs. split; [exact (g_cts _ _ G _ Hi) | exact (subset_In _ _ Hs)].
Qed.

Theorem force_only_after_nonasync_holds evs s0 : run evs = Some s0 -> force_only_after_nonasync evs.
Proof.
  intros R pre post r T p caller cur rbine respess E.
  destruct (at_event _ _ _ _ _ R E) as (v & [G A] & St).
  cbn [guard] in St. destruct St as [_ Hf]. destruct (Hf eq_refl) as (ks & l & k & I1 & I2).
  exists ks, l, k. split; [exact (g_csl _ _ G _ I1) | exact I2].
Qed.

Theorem accept_sound : forall evs s, run evs = Some s ->
  commit_after_all_prewrites evs /\ secondaries_after_primary evs /\
  no_rollback_after_possible_commit evs /\ resolve_uses_reported_status evs /\
  commit_ts_bounds evs /\ expire_only_expired evs /\ told_ok_after_commit evs /\
  undetermined_only_if evs /\ told_err_only_if evs /\ csl_only_listed evs /\ force_only_after_nonasync evs.
Proof.
  intros evs s R. repeat apply conj;
    eauto using commit_after_all_prewrites_holds, secondaries_after_primary_holds, resolve_uses_reported_status_holds,
      commit_ts_bounds_holds, expire_only_expired_holds, told_ok_after_commit_holds, undetermined_only_if_holds,
      told_err_only_if_holds, csl_only_listed_holds, force_only_after_nonasync_holds;
    apply (no_rollback_after_possible_commit_holds _ _ R).
Qed.

(* classic 2PC (no async / 1PC prewrite sent): if every commit request holding the primary that was sent
   before [told] has its reply before [told], the answer is not "undetermined" *)
Theorem fault_free_never_undetermined : forall evs s0 pre post s p ms,
  run evs = Some s0 -> evs = pre ++ ETold s TUndet :: post -> In (EMutations s p ms) pre ->
  (forall r p' ks a o m f secs, In (EPwSend r s p' ks a o m f secs) pre -> a = false /\ o = false) ->
  count_if (is_pc_send s p) pre = count_if (is_pc_reply s p) pre ->
  False.
Proof.
  intros evs s0 pre post s p ms R E Hm Hno Hcnt.
  destruct (undetermined_only_if_holds _ _ R _ _ _ _ _ E Hm) as [Hlt | [(r & p' & ks & a & o & m & f & secs & Hi & Hao) _]].
  - lia.
  - destruct (Hno _ _ _ _ _ _ _ _ Hi) as [-> ->]. destruct Hao; discriminate.
Qed.

(* non-vacuity: a 2PC commit of transaction 1 on keys 7 (primary), 8 is accepted, up to the request that
   commits the secondary (sent after the answer to the caller, not delivered) *)
Example accepted_2pc :
  exists s, run [ ETso 1; EBegin 9 1; ECommitCall 1 false; EMutations 1 7 [(7, OpPut); (8, OpPut)];
                  EPwSend 9 1 7 [7; 8] false false 0 0 []; EPwDeliver 9 1 [7; 8] (PwOk 0 0);
                  EPwReply 9 1 [7; 8] (PwOk 0 0); ETso 2;
                  ECmSend 9 1 2 [7]; ECmDeliver 9 1 2 [7] CmOk; ECmReply 9 1 2 [7] CmOk;
                  ETold 1 TOk; ECmSend 9 1 2 [8] ] = Some s.
Proof. eexists. apply run_final. vm_compute. reflexivity. Qed.

(* non-vacuity of the async-commit parts (5: commit ts = max min-commit ts, 10: csl_send only for listed
   secondaries, 4: async resolve route): transaction 1 on keys 7 (primary), 8, observed by resolver 4 *)
Example accepted_async :
  exists s, run [ ETso 1; EBegin 9 1; ECommitCall 1 false; EMutations 1 7 [(7, OpPut); (8, OpPut)];
                  EPwSend 9 1 7 [7] true false 0 0 [8]; EPwSend 9 1 7 [8] true false 0 0 [];
                  EPwDeliver 9 1 [7] (PwOk 5 0); EPwDeliver 9 1 [8] (PwOk 6 0);
                  EPwReply 9 1 [7] (PwOk 5 0); EPwReply 9 1 [8] (PwOk 6 0); ETold 1 TOk;
                  ECtsSend 4 1 7 0 0 false false false; ECtsDeliver 4 1 7 (StLocked 3 5 true [8]);
                  ECtsReply 4 1 7 (StLocked 3 5 true [8]);
                  ECslSend 4 1 [8]; ECslDeliver 4 1 [8] (CslLocks [(8, 6)]); ECslReply 4 1 [8] (CslLocks [(8, 6)]);
                  ERsSend 4 1 6 []; ECmSend 9 1 6 [7] ] = Some s.
Proof. eexists. apply run_final. vm_compute. reflexivity. Qed.
(* ... and of 9(c): an async prewrite answered with a region error, then a definite error *)
Example accepted_async_err :
  exists s, run [ EMutations 1 7 [(7, OpPut)]; EPwSend 9 1 7 [7] true false 0 0 [];
                  EPwDeliver 9 1 [7] PwRegion; EPwReply 9 1 [7] PwRegion; ETold 1 TErr ] = Some s.
Proof. eexists. apply run_final. vm_compute. reflexivity. Qed.

(* stronger readings of three predicates that System.v does NOT imply, each with an accepted trace that breaks it *)
(* 9(c) without the duplicate-free premise: System counts once per OCCURRENCE of a key in a request *)
Definition told_err_draft (evs : list event) : Prop :=
  forall pre post s p ms, evs = pre ++ ETold s TErr :: post -> In (EMutations s p ms) pre ->
    (exists r p' ks a o m f secs, In (EPwSend r s p' ks a o m f secs) pre /\ (a = true \/ o = true)) ->
    exists k, In k (lock_keys_of ms) /\
      count_if (is_pw_send_k s k) pre = count_if (is_pw_negreply_k s k) pre.
Definition cex_told_err_pre : list event :=
  [ EMutations 1 7 [(7, OpPut)]; EPwSend 9 1 7 [7; 7] true false 0 0 []; EPwSend 9 1 7 [7] true false 0 0 [];
    EPwDeliver 9 1 [7] PwRegion; EPwDeliver 9 1 [7] PwRegion; EPwDeliver 9 1 [7] PwRegion;
    EPwReply 9 1 [7] PwRegion; EPwReply 9 1 [7] PwRegion; EPwReply 9 1 [7] PwRegion ].
Theorem told_err_draft_refuted :
  (exists s, run (cex_told_err_pre ++ [ETold 1 TErr]) = Some s) /\ ~ told_err_draft (cex_told_err_pre ++ [ETold 1 TErr]).
Proof.
  split; [eexists; apply run_final; vm_compute; reflexivity |].
  intros D.
  destruct (D cex_told_err_pre [] 1 7 [(7, OpPut)] eq_refl (or_introl eq_refl)) as (k & Hk & Heq).
  - exists 9, 7, [7], true, false, 0, 0, []. split; [right; right; left; reflexivity | left; reflexivity].
  - destruct Hk as [<- | []]. vm_compute in Heq. discriminate Heq.
Qed.

(* 4 with "some CheckSecondaryLocks reply" as the async route: when no secondary is listed none is needed *)
Definition resolve_draft (evs : list event) : Prop :=
  forall pre post r s c ks, evs = pre ++ ERsSend r s c ks :: post ->
    (c <> 0 /\ exists p, In (ECtsReply r s p (StCommitted c)) pre) \/
    (c = 0 /\ exists p, In (ECtsReply r s p StRolledBack) pre) \/
    (exists ks' st, In (ECslReply r s ks' st) pre).
Definition cex_resolve : list event :=
  [ EPwSend 9 1 7 [7] true false 0 0 []; EPwDeliver 9 1 [7] (PwOk 5 0);
    ECtsSend 9 1 7 0 0 false false false; ECtsDeliver 9 1 7 (StLocked 5 5 true []);
    ECtsReply 9 1 7 (StLocked 5 5 true []); ERsSend 9 1 5 [] ].
Theorem resolve_draft_refuted : (exists s, run cex_resolve = Some s) /\ ~ resolve_draft cex_resolve.
Proof.
  split; [eexists; apply run_final; vm_compute; reflexivity |].
  intros D.
  specialize (D (removelast cex_resolve) [] 9 1 5 [] eq_refl). cbn in D.
  destruct D as [(_ & p & D) | [(D & _) | (ks & st & D)]]; try discriminate;
    repeat (destruct D as [D | D]; try discriminate D); exact D.
Qed.

(* 5 with the tso bound for every commit_call of s: System keeps the watermark of the last one *)
Definition ts_bound_draft (evs : list event) : Prop :=
  forall pre post r s c ks p ms, evs = pre ++ ECmSend r s c ks :: post ->
    In (EMutations s p ms) pre ->
    forall pre1 pre2, pre = pre1 ++ ECommitCall s false :: pre2 -> forall t, In (ETso t) pre1 -> t < c.
Definition cex_ts_bound : list event :=
  [ ETso 10; ECommitCall 1 false; ECommitCall 1 true; EMutations 1 7 [(7, OpPut)];
    EPwSend 9 1 7 [7] false false 0 0 []; EPwDeliver 9 1 [7] (PwOk 0 0); EPwReply 9 1 [7] (PwOk 0 0);
    ECmSend 9 1 5 [7] ].
Theorem ts_bound_draft_refuted : (exists s, run cex_ts_bound = Some s) /\ ~ ts_bound_draft cex_ts_bound.
Proof.
  split; [eexists; apply run_final; vm_compute; reflexivity |].
  intros D.
  specialize (D (removelast cex_ts_bound) [] 9 1 5 [7] 7 [(7, OpPut)] eq_refl).
  cbn [cex_ts_bound removelast In] in D.
  specialize (D ltac:(auto) [ETso 10] _ eq_refl 10 (or_introl eq_refl)).
  lia.
Qed.

Print Assumptions accept_sound.
Print Assumptions fault_free_never_undetermined.
