(* Percolator/DeliverB.v — rollback, check-txn-status, check-secondary-locks and resolve deliveries. *)
From Verif Require Export Percolator.DeliverA.

(* a locked mutation that no prewrite reached and that is now marked rolled back: the commit phase is unreachable *)
Lemma mark_NS : forall b s2 T e' k, dshape b s2 T e' -> ginv b T ->
  (forall r ks x, e' <> EPwReply r T ks x) ->
  In k (c_lm (getc b T)) -> kget b T k = Unlocked -> kget s2 T k = RolledBack -> Dd s2 T.
Proof.
  intros b s2 T e' k D G Hne Hk U R. right. right. exists k. unfold lm. rewrite (d_c _ _ _ _ D). repeat split; auto.
  intros [r [ks [m [o [H1 H2]]]]]. rewrite (d_dlv _ _ _ _ D) in H1. destruct H1 as [H1 | H1].
  - eapply Hne; eauto.
  - eapply (g_pw _ _ G); eauto.
Qed.

Lemma own_rb_deliver : forall s s' r T ks x, invT s T -> stepr s (ERbDeliver r T ks x) = Ok s' -> invT s' T.
Proof.
  intros s s' r T ks x HI H. cbn [stepr] in H. unfold step_rb_deliver in H. chks H.
  apply sent_by_In in C. destruct C as [e [Ce Cm]]. destruct e; try discriminate. b2p. beq. subst.
  set (e' := ERbReply r T ks x) in *.
  assert (exists s2, step_keys (add_dlv s e') T (match x with RbOk => ks | _ => [] end) tr_rb = Some s2 /\ s' = s2) as [s2 [E ->]].
  { destruct x; try (okinv H; eexists; split; reflexivity).
    destruct (step_keys _ _ _ _) as [s2 |] eqn:E; try discriminate. okinv H. eauto. }
  pose proof (step_keys_char _ _ _ _ _ _ tr_rb_ok tr_rb_idem tr_rb_total E) as Ch.
  assert (D : dshape s s2 T e') by (eapply dshape_keys; eauto using tr_rb_ok, tr_rb_fresh).
  apply (deliver_inv _ _ T e' D HI); unfold e'; vac; auto.
  intros Ib Hcb Hhb. split; [| repeat split; vac].
  - intros k c A B. exfalso. destruct (Ch k) as [[_ A'] | [_ A']]; [| congruence]. apply tr_rb_res in A'. destruct A'. congruence.
  - intros k Hk A B. destruct HI as [G _]. apply (dl_Dd _ _ _ _ D); vac. apply Dn_Dd; auto. eapply (t_rb_sent _ _ Ib); eauto.
Qed.

(* a whole-region resolve is recorded; its request was recorded when it was sent *)
Lemma inv_w_wr : forall s T c, invT s T -> (exists j, In (T, c, j) (s_rs s)) -> invT (w_wr s ((T, c) :: s_wr s)) T.
Proof.
  intros s T c [G I] Hj. split.
  - destruct G. constructor; try assumption. intros c0 H. destruct H as [H | H]; [inversion H; subst; exact Hj | eauto].
  - intros Hh Hc. specialize (I Hh Hc). destruct I. constructor; assumption.
Qed.

Lemma own_rs_deliver : forall s s' r T C ks x, invT s T -> stepr s (ERsDeliver r T C ks x) = Ok s' -> invT s' T.
Proof.
  intros s s' r T C ks x HI H. cbn [stepr] in H. unfold step_rs_deliver in H. chks H.
  apply sent_by_In in C0. destruct C0 as [e [Ce Cm]]. destruct e; try discriminate. b2p. beq. subst.
  destruct HI as [G I]. destruct (g_rs_sent _ _ G _ _ _ Ce) as [j Hj].
  set (e' := ERsReply r T C ks x) in *.
  destruct (match x with GOk => match ks with [] => true | _ => false end | _ => false end) eqn:WR.
  - (* whole-region resolve: recorded, applied lazily *)
    destruct x; try discriminate. destruct ks; try discriminate. okinv H.
    apply (inv_w_wr (add_dlv s e') T C); [| exists j; exact Hj].
    apply (frame_inv s _ T); [| exact (conj G I)]. apply ag_add_dlv; [apply agree_refl | right; reflexivity].
  - assert (exists s2, step_keys (add_dlv s e') T (match x with GOk => ks | _ => [] end) (tr_rs C) = Some s2 /\ s' = s2) as [s2 [E ->]].
    { destruct x; try (okinv H; eexists; split; reflexivity). destruct ks; try discriminate.
      destruct (step_keys _ _ _ _) as [s2 |] eqn:E; try discriminate. okinv H. eauto. }
    pose proof (step_keys_char _ _ _ _ _ _ (tr_rs_ok C) (tr_rs_idem C) (tr_rs_total C) E) as Ch.
    assert (D : dshape s s2 T e') by (eapply dshape_keys; eauto using tr_rs_ok, tr_rs_fresh).
    apply (deliver_inv _ _ T e' D (conj G I)); unfold e'; vac; auto.
    intros Ib Hcb Hhb.
    assert (HP : kget s T (cn (getc s T) FPrim) = alt_of C).
    { destruct j as [p |]; [| exfalso; destruct Hcb as [_ [_ B]]; eapply B; eauto].
      pose proof (t_rs_p _ _ Ib _ _ Hj) as ->. apply (g_rs _ _ G). auto. }
    assert (CH : forall k, kget s2 T k <> kget s T k -> kget s2 T k = alt_of C).
    { intros k Hk. destruct (Ch k) as [[_ A'] | [_ A']]; [| congruence]. apply tr_rs_res in A'.
      destruct A' as [A' | [m [A1 A2]]]; congruence. }
    split; [| repeat split; vac].
    + intros k c A B. assert (E1 : kget s2 T k = alt_of C) by (apply CH; congruence). rewrite A in E1.
      split; [rewrite E1; eapply km_alt; [apply (d_k _ _ _ _ D) | exact HP] | intros ->; exfalso; apply B; congruence].
    + intros k Hk A B. left. unfold prim, F. rewrite (d_c _ _ _ _ D).
      assert (E1 : kget s2 T k = alt_of C) by (apply CH; congruence). rewrite A in E1.
      eapply km_rolledback; [apply (d_k _ _ _ _ D) |]. congruence.
Qed.

Lemma cts_rb_core : forall s s2 r T p, invT s T ->
  negb (fb (getc s T) FHasm && negb (p =? cn (getc s T) FPrim) && match kget s T p with Locked _ => true | _ => false end) = true ->
  step_key (add_dlv s (ECtsReply r T p StRolledBack)) T p tr_rb = Some s2 -> invT s2 T.
Proof.
  intros s s2 r T p HI C E. set (e' := ECtsReply r T p StRolledBack) in *. pose proof HI as [G I].
  assert (NE : forall r0 ks0 x0, e' <> EPwReply r0 T ks0 x0) by (intros; discriminate).
  assert (D : dshape s s2 T e') by (eapply dshape_key; eauto using tr_rb_ok, tr_rb_fresh).
  apply step_key_char in E. destruct E as [v [K [E | [E [m0 [c0 [E1 _]]]]]]]; [| rewrite E1 in E; discriminate].
  apply tr_rb_res in E. destruct E as [-> NC].
  apply (deliver_inv _ _ T e' D HI); unfold e'; vac; auto.
  + intros r0 p0 E0. inversion E0. subst. rewrite K, N.eqb_refl. auto.
  + intros Ib Hcb Hhb. split; [| repeat split; vac].
    * intros k c A B. exfalso. rewrite K in A. destruct (p =? k); congruence.
    * intros k Hk A B. rewrite K in A. destruct (N.eqb_spec p k) as [-> | Hne]; [| congruence].
      destruct (N.eq_dec k (cn (getc s T) FPrim)) as [-> | HnP].
      -- left. unfold prim, F. rewrite (d_c _ _ _ _ D). rewrite K, N.eqb_refl. auto.
      -- apply (mark_NS s s2 T e' k D G NE Hk); [| rewrite K, N.eqb_refl; auto].
         destruct (kget s T k) eqn:Ek; auto; try congruence; exfalso.
         all: try (eapply NC; eauto; fail).
         all: unfold hasm, F in Hhb; apply fb_true in Hhb; rewrite Hhb in C; apply N.eqb_neq in HnP; rewrite HnP in C; discriminate.
Qed.

Lemma own_cts_deliver : forall s s' r T p st, invT s T -> stepr s (ECtsDeliver r T p st) = Ok s' -> invT s' T.
Proof.
  intros s s' r T p st HI H. cbn [stepr] in H. unfold step_cts_deliver in H. chks H. clear C.
  set (e' := ECtsReply r T p st) in *. pose proof HI as [G _].
  (* four of the statuses say nothing about the store *)
  destruct st as [ttl m a secs | C | | | | |];
    try (okinv H; apply (deliver_inv_quiet _ _ T e' (dshape_nokeys s e' T) HI); unfold e'; vac; auto).
  - (* locked: the key stays as it is *)
    chks H. rename C into CA.
    destruct (step_key _ _ _ _) as [s2 |] eqn:E; try discriminate. injection H as H'; subst s'.
    assert (D : dshape s s2 T e') by (eapply dshape_key; eauto using tr_cts_locked_ok, tr_cts_locked_fresh).
    apply step_key_char in E. destruct E as [v [K [E | [E [m0 [c0 [E1 _]]]]]]]; [| rewrite E1 in E; discriminate].
    apply tr_cts_locked_res in E.
    apply (deliver_inv_quiet _ _ T e' D HI); unfold e'; vac; auto.
    + intros r0 p0 ttl0 m0 secs0 E0. inversion E0. subst. cbn [negb orb] in CA. apply fb_true in CA. auto.
    + intros k. left. rewrite K. destruct (N.eqb_spec p k) as [<- |]; [exact E | reflexivity].
  - (* committed *)
    destruct (step_key _ _ _ _) as [s2 |] eqn:E; try discriminate. injection H as H'; subst s'.
    assert (D : dshape s s2 T e') by (eapply dshape_key; eauto using tr_cts_committed_ok, tr_cts_committed_fresh).
    apply step_key_char in E. destruct E as [v [K E]].
    destruct E as [E | [_ [m0 [c0 [L [W E]]]]]]; apply tr_cts_committed_res in E; destruct E as [-> E].
    + (* p is committed at C already: nothing moves *)
      assert (Same : forall k, kget s2 T k = kget s T k) by (intros k; rewrite K; destruct (N.eqb_spec p k); congruence).
      apply (deliver_inv_quiet _ _ T e' D HI); unfold e'; vac; auto.
      intros r0 p0 c0 E0. inversion E0. subst. rewrite Same. exact E.
    + (* p is locked and a whole-region resolve of T at c0 is on record, with alt_of c0 = Committed C:
         the store applies it now *)
      unfold alt_of in E. destruct (N.eqb_spec c0 0) as [| HC0]; inversion E. subst c0.
      assert (CH : forall k, kget s2 T k <> kget s T k -> k = p).
      { intros k Hk. rewrite K in Hk. destruct (N.eqb_spec p k); congruence. }
      apply (deliver_inv _ _ T e' D HI); unfold e'; vac; auto.
      * intros r0 p0 c0 E0. inversion E0. subst. rewrite K, N.eqb_refl. auto.
      * intros Ib Hcb Hhb.
        assert (X : kget s T (cn (getc s T) FPrim) = Committed C).
        { apply (g_wr _ _ G) in W. destruct W as [j W].
          destruct j as [p' |]; [| exfalso; destruct Hcb as [_ [_ B]]; eapply B; eauto].
          pose proof (t_rs_p _ _ Ib _ _ W) as ->. apply (g_rs _ _ G) in W. unfold alt_of in W.
          apply N.eqb_neq in HC0. rewrite HC0 in W. exact W. }
        split; [| repeat split; vac].
        -- intros k c A B. assert (k = p) as -> by (apply CH; congruence).
           rewrite K, N.eqb_refl in A. inversion A. subst c.
           split; [eapply km_committed; [apply (d_k _ _ _ _ D) | exact X] | intros Ep; rewrite Ep in B; contradiction].
        -- intros k Hk A B. exfalso. assert (k = p) as -> by (apply CH; congruence).
           rewrite K, N.eqb_refl in A. discriminate.
  - (* rolled back *)
    chks H.
    match type of H with context [if ?bb then _ else _] => destruct bb end.
    + destruct (step_key _ _ _ _) as [s2 |] eqn:E; try discriminate. injection H as H'; subst s'.
      change (setc (add_dlv s e') T (setn (getc s T) FStFb 1)) with (add_dlv (setc s T (setn (getc s T) FStFb 1)) e') in E.
      eapply (cts_rb_core (setc s T (setn (getc s T) FStFb 1))); [| | exact E].
      * apply invT_acct; auto. intros f0 Hf0; destruct f0; try discriminate Hf0; reflexivity.
      * rewrite getc_setc_eq. exact C.
    + destruct (step_key _ _ _ _) as [s2 |] eqn:E; try discriminate. injection H as H'; subst s'.
      eapply (cts_rb_core s); eauto.
Qed.

Lemma step_csl_locks_char : forall l x T s2, step_csl_locks x T l = Some s2 ->
  same_but_kst x s2 /\
  forall T' k, kget s2 T' k = kget x T' k \/ exists a b, kget x T' k = Locked a /\ kget s2 T' k = Locked b.
Proof. intros l x T s2 H. destruct (step_csl_locks_same _ _ _ _ H) as [S C]. split; [exact S | left; apply C]. Qed.

Lemma own_csl_deliver : forall s s' r T ks st, invT s T -> stepr s (ECslDeliver r T ks st) = Ok s' -> invT s' T.
Proof.
  intros s s' r T ks st HI H. cbn [stepr] in H. unfold step_csl_deliver in H. chks H. clear C.
  set (e' := ECslReply r T ks st) in *. pose proof HI as [G I].
  assert (NE : forall r0 ks0 x0, e' <> EPwReply r0 T ks0 x0) by (intros; discriminate).
  destruct st as [l | C |].
  - chks H. destruct (step_csl_locks _ _ _) as [s2 |] eqn:E; try discriminate. injection H as H'; subst s'.
    destruct (step_csl_locks_same _ _ _ _ E) as [S CH].
    assert (D : dshape s s2 T e').
    { constructor; try (rewrite S; reflexivity); [apply kmono_same; exact CH | left; intros k A; rewrite (CH T k); exact A]. }
    apply (deliver_inv_quiet _ _ T e' D HI); unfold e'; vac; auto.
    intros k. left. apply (CH T k).
  - destruct (N.eq_dec C 0) as [-> | HC].
    + cbn [N.eqb] in H. chks H. destruct (step_keys _ _ _ _) as [s2 |] eqn:E; try discriminate. injection H as H'; subst s'.
      pose proof (step_keys_char _ _ _ _ _ _ tr_csl_rb_ok tr_csl_rb_idem tr_csl_rb_total E) as Ch.
      assert (D : dshape s s2 T e') by (eapply dshape_keys; eauto using tr_csl_rb_ok, tr_csl_rb_fresh).
      assert (CH : forall k, kget s2 T k = kget s T k \/ (kget s T k = Unlocked /\ kget s2 T k = RolledBack)).
      { intros k. destruct (Ch k) as [[_ A] | [_ A]]; auto. apply tr_csl_rb_res in A. destruct A as [A | [A1 A2]]; auto. }
      apply (deliver_inv _ _ T e' D HI); unfold e'; vac; auto.
      intros Ib Hcb Hhb. split; [| repeat split; vac].
      * intros k c A B. exfalso. destruct (CH k) as [A' | [A1 A2]]; congruence.
      * intros k Hk A B. destruct (CH k) as [A' | [A1 A2]]; [congruence |]. eapply mark_NS; eauto.
    + apply N.eqb_neq in HC. rewrite HC in H. chks H. okinv H.
      apply (deliver_inv_quiet _ _ T e' (dshape_nokeys s e' T) HI); unfold e'; vac; auto.
  - okinv H. apply (deliver_inv_quiet _ _ T e' (dshape_nokeys s e' T) HI); unfold e'; vac; auto.
Qed.
