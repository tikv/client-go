(* Percolator/OwnA.v — T's own events that leave the abstract store alone. Each of them replaces T's
   client record and then, at most, adds one request to the sent list; the invariants are carried
   over these two kinds of change once (inv_setc, inv_add_sent), and every event below only says
   what it does to the record and why the new request is allowed. *)
From Verif Require Export Percolator.Upd.

(* counters and flags that never return to 0 *)
Definition sticky (f : fld) : bool :=
  match f with FPwSent | FTried1 | FTriedA | FDead | FPcSent | FPcOkd => true | _ => false end.

(* the clauses of ginv that speak of the client record alone *)
Definition cinv (c : crec) : Prop :=
  (~ cn c FHasm <> 0 ->
     cn c FPcDlv = 0 /\ cn c FPcOkd = 0 /\ cn c FPcFaild = 0 /\ cn c FPcNeg = 0 /\
     cn c FPcRep = 0 /\ cn c FPcOk = 0 /\ cn c FPcRb = 0) /\
  (cn c FTold = 2 \/ cn c FTold = 3 -> cn c FDead <> 0) /\
  (cn c F1pcTs <> 0 -> cn c FTried1 <> 0).
Lemma ginv_cinv : forall s T, ginv s T -> cinv (getc s T).
Proof. intros s T G. exact (conj (g_fresh_cnt _ _ G) (conj (g_told_dead _ _ G) (g_1pcts _ _ G))). Qed.

(* reading a field of a record built from setters: the field comparison is decided by computation *)
Ltac crd := cbn [cn c_lm c_all c_pwok c_kl c_lam setn incn set_muts add_pwok add_kl add_lam fld_eqb].
Ltac crdh H := cbn [cn c_lm c_all c_pwok c_kl c_lam setn incn set_muts add_pwok add_kl add_lam fld_eqb] in H.

Section SetC.
  Variables (s : sys) (T : N) (c' : crec).
  Hypothesis HI : invT s T.
  Hypothesis St : forall f, sticky f = true -> cn (getc s T) f <> 0 -> cn c' f <> 0.
  Hypothesis Eh : cn c' FHasm = cn (getc s T) FHasm.
  Hypothesis Ep : cn c' FPrim = cn (getc s T) FPrim.
  Hypothesis El : c_lm c' = c_lm (getc s T).
  Hypothesis Pw : forall k, In k (c_pwok c') -> pwdlv s T k.
  Hypothesis Ci : cinv c'.

  Lemma setc_F : forall f, F (setc s T c') T f = cn c' f.
  Proof. intros f. unfold F. rewrite getc_setc_eq. reflexivity. Qed.
  Lemma setc_nz : forall f, sticky f = true -> F s T f <> 0 -> F (setc s T c') T f <> 0.
  Proof. intros f Hf H. rewrite setc_F. apply St; auto. Qed.
  Lemma setc_hasm : hasm (setc s T c') T <-> hasm s T.
  Proof. unfold hasm. rewrite setc_F, Eh. reflexivity. Qed.
  Lemma setc_prim : prim (setc s T c') T = prim s T.
  Proof. unfold prim. rewrite setc_F. exact Ep. Qed.
  Lemma setc_lm : lm (setc s T c') T = lm s T.
  Proof. unfold lm. rewrite getc_setc_eq. exact El. Qed.
  Lemma setc_classic : classic (setc s T c') T -> classic s T.
  Proof.
    unfold classic. rewrite !setc_F. intros [A [B D]]. split; [| split; [| exact D]].
    - destruct (N.eq_dec (F s T FTriedA) 0) as [E | E]; auto. exfalso. apply (St FTriedA eq_refl E A).
    - destruct (N.eq_dec (F s T FTried1) 0) as [E | E]; auto. exfalso. apply (St FTried1 eq_refl E B).
  Qed.

  Lemma setc_ginv : ginv s T -> ginv (setc s T c') T.
  Proof.
    intros G. destruct Ci as [C1 [C2 C3]]. destruct G.
    constructor; try assumption; intros; rewrite ?setc_hasm, ?setc_prim; try (apply setc_nz; [reflexivity | eauto; fail]).
    - apply g_kst_fresh. rewrite setc_F in H.
      destruct (N.eq_dec (F s T FPwSent) 0) as [E | E]; auto. exfalso. apply (St FPwSent eq_refl E H).
    - destruct (g_cmsent_p _ _ _ H) as [A | A]; auto. left. apply setc_nz; auto.
    - rewrite !setc_F. apply C1. unfold hasm in H. rewrite setc_F in H. exact H.
    - apply Pw. unfold pwok in H. rewrite getc_setc_eq in H. exact H.
    - rewrite !setc_F in *. auto.
    - rewrite !setc_F in *. auto.
  Qed.

  (* what a classic transaction with known mutations needs beyond that *)
  Hypothesis HT : tinv s T -> classic s T -> hasm s T ->
    (cn c' FPcNeg <= cn c' FPcFaild /\ cn c' FPcFaild + cn c' FPcOkd = cn c' FPcDlv /\ cn c' FPcDlv <= cn c' FPcSent) /\
    (cn c' FPcSent <> 0 -> forall k, In k (c_lm c') -> In k (c_pwok c')) /\
    (cn c' FPcOk <> 0 -> kget s T (prim s T) = Committed (cn c' FPcOk)) /\
    (cn c' FPcRb <> 0 -> some_rb s T) /\
    (cn (getc s T) FDead <> 0 -> cn (getc s T) FPcNeg = cn (getc s T) FPcSent -> cn c' FPcNeg = cn c' FPcSent) /\
    (cn c' FTold = 3 -> cn c' FDead <> 0 /\ (cn c' FPcNeg = cn c' FPcSent \/ some_rb s T)) /\
    (cn c' FTold = 1 -> exists c, kget s T (prim s T) = Committed c).

  Lemma inv_setc : invT (setc s T c') T.
  Proof.
    destruct HI as [G I]. split; [apply setc_ginv; exact G |].
    intros Hh Hc. apply setc_hasm in Hh. apply setc_classic in Hc. specialize (I Hh Hc).
    destruct (HT I Hc Hh) as [Cnt [Pwok [Pcok [Rb [Cl [Terr Tok]]]]]].
    assert (K : kmono s (setc s T c')) by (apply kmono_same; reflexivity).
    assert (L : c_lm (getc (setc s T c') T) = c_lm (getc s T)) by (rewrite getc_setc_eq; exact El).
    assert (HD : cn (getc s T) FDead <> 0 -> cn (getc (setc s T c') T) FDead <> 0)
      by (rewrite getc_setc_eq; apply St; reflexivity).
    assert (HC : cn (getc s T) FDead <> 0 -> cn (getc s T) FPcNeg = cn (getc s T) FPcSent ->
                 cn (getc (setc s T c') T) FPcNeg = cn (getc (setc s T c') T) FPcSent)
      by (rewrite getc_setc_eq; exact Cl).
    pose proof (some_rb_mono s _ T K L) as Srb. pose proof (Dn_mono s _ T K L HD HC) as SDn.
    assert (SDd : Dd s T -> Dd (setc s T c') T)
      by (apply (Dd_mono s _ T K L HD HC); [rewrite getc_setc_eq; exact Ep | auto]).
    destruct I. constructor; intros; rewrite ?setc_prim, ?setc_lm in *; try (eauto; fail).
    - rewrite !setc_F. exact Cnt.
    - unfold pwok. rewrite getc_setc_eq. rewrite setc_F in H. apply Pwok; auto. rewrite El. exact H0.
    - apply setc_nz; eauto.
    - rewrite setc_F in *. auto.
    - apply setc_nz; eauto.
    - apply Srb. rewrite setc_F in H. auto.
    - rewrite setc_F in H. destruct (Terr H) as [A B]. split; [rewrite setc_F; exact A |].
      rewrite !setc_F. destruct B as [B | B]; [left; exact B | right; apply Srb; exact B].
    - rewrite setc_F in H. auto.
  Qed.
End SetC.

(* one more sent request: what its kind demands of the state it is added to *)
Section AddSent.
  Variables (s : sys) (T : N) (e : event).
  Hypothesis HI : invT s T.
  Hypothesis Npw : forall r p ks a o m f secs, e = EPwSend r T p ks a o m f secs ->
    F s T FPwSent <> 0 /\ (o = true -> F s T FTried1 <> 0).
  Hypothesis Ncm : forall r c ks, e = ECmSend r T c ks ->
    (F s T FPcSent <> 0 \/ (hasm s T /\ ~ In (prim s T) ks)) /\
    (tinv s T -> classic s T -> hasm s T ->
       (forall k, In k ks -> In k (lm s T)) /\ (~ In (prim s T) ks -> kget s T (prim s T) = Committed c)).
  Hypothesis Nrb : forall r ks, e = ERbSend r T ks -> F s T FDead <> 0 /\ (tinv s T -> classic s T -> hasm s T -> Dn s T).
  Hypothesis Nrs : forall r c ks, e = ERsSend r T c ks -> exists j, In (T, c, j) (s_rs s).

  Lemma inv_add_sent : invT (add_sent s e) T.
  Proof.
    destruct HI as [G I]. split.
    - destruct G. constructor; try assumption; intros.
      + destruct H as [H | H]; [apply (Nrs _ _ _ H) | eauto].
      + right. eauto.
      + destruct (g_pw_sent _ _ _ H) as [p [a [o [m [f [secs Hs]]]]]]. exists p, a, o, m, f, secs. right. exact Hs.
      + destruct H as [H | H]; [apply (Npw _ _ _ _ _ _ _ _ H) | eauto].
      + destruct H as [H | H]; [apply (Npw _ _ _ _ _ _ _ _ H); reflexivity | eauto].
      + destruct H as [H | H]; [exact (proj1 (Ncm _ _ _ H)) | eauto].
      + destruct H as [H | H]; [exact (proj1 (Nrb _ _ H)) | eauto].
    - intros Hh Hc. specialize (I Hh Hc). pose proof I as I0. destruct I. constructor; try assumption; intros.
      + destruct H as [H | H]; [exact (proj2 (Ncm _ _ _ H) I0 Hc Hh) | eauto].
      + destruct H as [H | H]; [exact (proj2 (Nrb _ _ H) I0 Hc Hh) | exact (t_rb_sent _ _ H)].
  Qed.
End AddSent.

Lemma setc_add_sent : forall s e T c, setc (add_sent s e) T c = add_sent (setc s T c) e.
Proof. reflexivity. Qed.

(* obligations about a reply or request of another kind *)
Ltac vac := try (intros; discriminate).
(* an update that keeps FHasm, FPrim and the key lists and no sticky field at 0, checked field by field:
   what is left is the part of inv_setc that needs the invariants of a classic transaction *)
Ltac by_setc HI G :=
  let Ci := fresh "Ci" in
  pose proof (ginv_cinv _ _ G) as Ci; unfold cinv in Ci;
  apply inv_setc;
  [ exact HI | intros [] Hf; try discriminate Hf; crd; lia | reflexivity | reflexivity | reflexivity | exact (g_pwok _ _ G)
  | unfold cinv; crd; intuition discriminate | crd ].

(* one more commit-point request may be counted while nothing was rolled back and every locked
   mutation is covered by a successful prewrite *)
Lemma count_pcsent : forall s T, invT s T -> cn (getc s T) FDead = 0 ->
  (hasm s T -> forall k, In k (lm s T) -> In k (pwok s T)) ->
  invT (setc s T (incn (getc s T) FPcSent)) T.
Proof.
  intros s T HI D0 Hp. pose proof HI as [G _]. by_setc HI G.
  intros I Hc Hm. destruct I. destruct t_cnt as [? [? ?]]. unf2. repeat split; intros; auto; try lia.
Qed.

Lemma own_cm_send : forall s s' r T C ks, invT s T -> stepr s (ECmSend r T C ks) = Ok s' -> invT s' T.
Proof.
  intros s s' r T C ks HI H. cbn [stepr] in H. unfold step_cm_send in H. chks H.
  assert (D0 : cn (getc s T) FDead = 0) by (b2p; auto).
  destruct (fb (getc s T) FHasm) eqn:Hh; chks H.
  - apply fb_true in Hh. destruct (mem (cn (getc s T) FPrim) ks) eqn:Hp; chks H; okinv H; b2p.
    + (* the commit-point request *)
      rewrite setc_add_sent. apply inv_add_sent; vac.
      * apply count_pcsent; auto. intros _ k Hk. eapply subset_In; eauto.
      * intros r0 c0 ks0 E. inversion E; subst. split; [left; rewrite setc_F; crd; lia |].
        intros _ _ _. unfold lm, prim. rewrite setc_F, getc_setc_eq. crd. split; [| intros Hn; contradiction].
        intros k Hk. eapply subset_In; eauto.
    + apply mem_false in Hp. apply inv_add_sent; vac; auto.
      intros r0 c0 ks0 E. inversion E; subst. split; [right; split; auto |].
      intros I [A _] _. split; [intros k Hk; eapply subset_In; eauto | intros _].
      match goal with Hx : (cn _ FPcOk =? _) || async_kept _ = true |- _ =>
        apply orb_true_iff in Hx; destruct Hx as [Ok | Ak] end.
      * b2p. subst c0. apply (t_pcok _ _ I). unfold F. lia.
      * unfold async_kept in Ak. b2p. contradiction.
  - okinv H. apply fb_false in Hh. rewrite setc_add_sent. apply inv_add_sent; vac.
    + apply count_pcsent; auto. intros Hm. contradiction.
    + intros r0 c0 ks0 E. split; [left; rewrite setc_F; crd; lia |].
      intros _ _ Hm. unfold hasm in Hm. rewrite setc_F in Hm. contradiction.
Qed.

Lemma own_cm_reply : forall s s' r T C ks x, invT s T -> stepr s (ECmReply r T C ks x) = Ok s' -> invT s' T.
Proof.
  intros s s' r T C ks x HI H. cbn [stepr] in H. unfold step_cm_reply in H. chks H.
  destruct (has_prim (getc s T) ks) eqn:HP; [| okinv H; exact HI].
  unfold has_prim in HP. apply delivered_In in C1. b2p.
  pose proof HI as [G _].
  destruct x; chks H; okinv H; b2p; try match goal with Hx : cn (incn _ _) _ < _ |- _ => crdh Hx end.
  all: by_setc HI G.
  all: intros I Hc Hm; destruct I; destruct t_cnt as [? [? ?]]; unf2.
  1: { (* ok: the primary is committed at C *)
    pose proof t_told_err as Hd. unfold Dn, F in Hd.
    repeat split; intros; auto; try (apply Hd; assumption). eapply g_cm; eauto. }
  (* a negative answer: the counters leave no room for "every commit-point request refused" *)
  all: assert (Hd : cn (getc s T) FTold = 3 -> cn (getc s T) FDead <> 0 /\ some_rb s T)
         by (intros Ht; destruct (t_told_err Ht) as [A [B | B]]; unf2; [exfalso; lia | auto]).
  all: repeat split; intros; auto; try lia; try (apply Hd; assumption); try (right; apply Hd; assumption).
  eapply t_gone; eauto.
Qed.

Lemma neg_ok_closed : forall s T, tinv s T -> neg_ok (getc s T) = true ->
  cn (getc s T) FPcNeg = cn (getc s T) FPcSent \/ some_rb s T.
Proof.
  intros s T I Hn. unfold neg_ok in Hn. b2p. apply orb_true_iff in Hn0. destruct Hn0 as [Hn0 | Hn0]; b2p; auto.
  right. apply (t_rbflag _ _ I Hn0).
Qed.

Lemma own_rb_send : forall s s' r T ks, invT s T -> stepr s (ERbSend r T ks) = Ok s' -> invT s' T.
Proof.
  intros s s' r T ks HI H. cbn [stepr] in H. unfold step_rb_send in H. chks H. okinv H.
  apply andb_true_iff in C0. destruct C0 as [C0 _].
  pose proof HI as [G _].
  rewrite setc_add_sent. apply inv_add_sent; vac.
  - by_setc HI G.
    intros I Hc Hm. pose proof (t_told_err _ _ I) as Hd. unfold Dn, F in Hd. destruct I. unf2.
    repeat split; intros; auto; try discriminate; try apply t_cnt; try (apply Hd; assumption).
  - intros r0 ks0 _. split; [rewrite setc_F; crd; discriminate |]. intros I _ _.
    split; [rewrite setc_F; crd; discriminate |]. apply (neg_ok_closed _ _ I). rewrite getc_setc_eq. exact C0.
Qed.

Lemma own_told : forall s s' T x, invT s T -> stepr s (ETold T x) = Ok s' -> invT s' T.
Proof.
  intros s s' T x HI H. cbn [stepr] in H. unfold step_told in H. chks H. b2p.
  pose proof HI as [G _].
  destruct x; chks H; okinv H; b2p.
  all: by_setc HI G.
  all: intros I Hc Hm; pose proof (t_told_err _ _ I) as Hd; unfold Dn, F in Hd; pose proof I as I'; destruct I'; unf2.
  all: repeat split; intros; auto; try discriminate; try apply t_cnt; try (apply Hd; assumption).
  - (* told ok: the primary is committed *)
    destruct Hc as [A [B _]]. destruct Ci as [_ [_ Ci]]. unf2.
    apply orb_true_iff in C2. destruct C2 as [CR | CD]; [| exfalso; b2p; congruence].
    apply orb_true_iff in CR. destruct CR as [CR | CR]; [apply orb_true_iff in CR; destruct CR as [CR | CR] |]; b2p.
    + eexists. apply t_pcok. auto.
    + exfalso. apply Ci in CR. congruence.
    + exfalso. unfold async_kept in CR. b2p. congruence.
  - apply (neg_ok_closed _ _ I). assumption.
Qed.
