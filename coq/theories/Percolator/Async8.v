(* Percolator/Async8.v — the async-commit invariant holds after every accepted trace; C02/C03 for async commit. *)
From Verif Require Export Percolator.Async4.

Definition Ainv (s : sys) : Prop := forall T, asyncm s T -> ainv s T.

Lemma asyncm_fields : forall s s' T,
  cn (getc s' T) FHasm = cn (getc s T) FHasm -> cn (getc s' T) FTriedA = cn (getc s T) FTriedA ->
  incl (s_dlv s) (s_dlv s') -> cn (getc s' T) FFb = cn (getc s T) FFb ->
  cn (getc s' T) FStFb = cn (getc s T) FStFb -> asyncm s' T -> asyncm s T.
Proof.
  intros s s' T A B C D E [H1 [H2 [H3 [H4 H5]]]]. apply (no1pc_incl _ _ _ C) in H3.
  unfold asyncm, hasm, F in *. rewrite A, B, D, E in *. auto.
Qed.

Theorem ainv_stepr : forall s e s', Inv s -> Linv s -> Zinv s -> Yinv s -> Ainv s -> stepr s e = Ok s' -> Ainv s'.
Proof.
  intros s e s' HI HL HZ HY HA H T0 Am'.
  destruct (txn_of_dec e T0) as [Et' | Hne].
  2: { pose proof (stepr_getc_other _ _ _ T0 H Hne) as Gc. eapply ainv_other; eauto. apply HA.
       destruct Am' as [B1 [B2 [B3 [B4 B5]]]]. apply (no1pc_back _ _ _ _ H) in B3. unfold asyncm, hasm, F in *. rewrite Gc in *. auto. }
  destruct (quiet e) eqn:Q.
  { assert (Am : asyncm s T0) by (eapply asyncm_back; eauto; eapply stepr_quiet; eauto). eapply ainv_quiet; eauto. }
  destruct_event e; cbn [quiet] in Q; try discriminate Q; cbn [txn_of] in Et'; inversion Et'; subst.
  - exfalso. destruct (stepr_quiet3 s (EMutations T0 p ms) s' T0 eq_refl H) as [_ [_ A]]. destruct Am' as [_ [B _]]. unfold F in B.
    rewrite (A FTriedA eq_refl) in B. pose proof (z_tried _ _ (HZ T0) (or_introl B)) as D.
    cbn [stepr] in H. chks H. b2p. unfold F in D. congruence.
  - eapply ainv_pw_send; eauto.
  - eapply ainv_pw_deliver; eauto.
  - eapply ainv_pw_reply; eauto.
  - assert (Am : asyncm s T0)
      by (eapply (asyncm_fields s s'); [| | apply (stepr_dlv_incl _ _ _ H) | | | exact Am']; apply (fp_cn _ _ _ (proj1 (stepr_fps _ _ _ T0 H))); reflexivity).
    eapply ainv_rb_send; eauto.
  - eapply ainv_cts_deliver; eauto.
  - assert (Am : asyncm s T0)
      by (eapply (asyncm_fields s s'); [| | apply (stepr_dlv_incl _ _ _ H) | | | exact Am']; apply (fp_cn _ _ _ (proj1 (stepr_fps _ _ _ T0 H))); reflexivity).
    eapply ainv_told; eauto.
Qed.

Theorem ainv_init : Ainv init.
Proof. intros T [H _]. exfalso. apply H. reflexivity. Qed.

Theorem ainv_run : forall evs s, run evs = Some s -> Ainv s.
Proof.
  intros evs s H. apply (run_from_preserves Base Ainv base_stepr) with (evs := evs) (s := init); auto using base_init, ainv_init.
  intros s0 e s1 [HI [HL [HZ HY]]] HA E. eapply ainv_stepr; eauto.
Qed.

Section AsyncAtomic.
  Variables (evs : list event) (s : sys) (T : N).
  Hypothesis R : run evs = Some s.
  Hypothesis Am : asyncm s T.
  Let L : linv s T := linv_run evs s R T.
  Let A : ainv s T := ainv_run evs s R T Am.

  Lemma async_one_ts : forall k1 k2 c1 c2, kget s T k1 = Committed c1 -> kget s T k2 = Committed c2 -> c1 = c2.
  Proof. apply (a_one_ts s T A). Qed.
  Lemma async_commit_ts : forall k c, kget s T k = Committed c -> Sealed s T /\ c = cstar s T.
  Proof. apply (a_commit s T A). Qed.
  Lemma async_all_or_nothing : forall k1 k2 c, kget s T k1 = Committed c -> In k2 (lm s T) -> kget s T k2 <> RolledBack.
  Proof. apply (a_all_or_nothing s T A). Qed.
  Lemma async_sealed_keys : Sealed s T -> forall k, In k (lm s T) ->
    (exists m, kget s T k = Locked m /\ lamk s T k = Some m /\ m <= cstar s T) \/ kget s T k = Committed (cstar s T).
  Proof. apply (a_sealed_keys s T L A). Qed.
  (* every commit-capable request that was sent carries cstar: the owner's commits and every resolver decision *)
  Lemma async_owner_commit : forall r C ks, In (ECmSend r T C ks) (s_sent s) -> Sealed s T /\ C = cstar s T.
  Proof. apply (a_cmsent s T A). Qed.
  Lemma async_resolver_decision : forall r C ks, In (ERsSend r T C ks) (s_sent s) ->
    (C <> 0 -> Sealed s T /\ C = cstar s T) /\ (C = 0 -> NSa s T).
  Proof.
    intros r C ks H. destruct (inv_run evs s R T) as [G _]. destruct (g_rs_sent _ _ G _ _ _ H) as [j Hj].
    eapply (rs_just s T G L (proj1 Am) A); eauto.
  Qed.
  Lemma async_told_ok : F s T FTold = 1 ->
    Sealed s T /\
    (forall k, In k (lm s T) -> (exists m, kget s T k = Locked m /\ m <= cstar s T) \/ kget s T k = Committed (cstar s T)) /\
    (forall r C ks, In (ERsSend r T C ks) (s_sent s) -> C = cstar s T /\ C <> 0).
  Proof.
    intros Ht. destruct (a_told _ _ A Ht) as [S _]. split; auto. split.
    - intros k Hk. destruct (async_sealed_keys S k Hk) as [[m [E1 [_ E3]]] | E]; eauto.
    - intros r C ks H. destruct (async_resolver_decision _ _ _ H) as [D1 D2]. destruct (N.eq_dec C 0) as [-> | HC].
      + exfalso. eapply Sealed_NSa; eauto.
      + destruct (D1 HC). auto.
  Qed.
  Lemma async_told_err : F s T FTold = 3 ->
    (forall k c, kget s T k <> Committed c) /\ (forall r C ks, In (ERsSend r T C ks) (s_sent s) -> C = 0).
  Proof.
    intros Ht. assert (N : NSa s T) by (apply (a_dead _ _ A); auto). split.
    - apply (a_nsa_no_commit s T A N).
    - intros r C ks H. destruct (async_resolver_decision _ _ _ H) as [D1 _]. destruct (N.eq_dec C 0) as [-> | HC]; auto.
      exfalso. destruct (D1 HC) as [S _]. eapply Sealed_NSa; eauto.
  Qed.
End AsyncAtomic.
