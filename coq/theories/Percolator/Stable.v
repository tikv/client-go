(* Percolator/Stable.v — the invariant holds initially and is preserved by every accepted event, hence
   holds after every accepted trace. Facts that persist along every accepted extension of a trace:
   the abstract store only moves forward; after Commit has returned, its answer and the flags
   "tried async commit" / "tried 1PC" are frozen (the fallback flags FFb / FFb1 are not: a late
   prewrite reply may still set them); the mutation list and the primary are frozen once logged. *)
From Verif Require Export Percolator.DeliverB.

Lemma step_own : forall s e s' T0, invT s T0 -> stepr s e = Ok s' -> txn_of e = Some T0 -> invT s' T0.
Proof.
  intros s e s' T0 HI H Ht.
  destruct (irrel e) eqn:Ir; [eapply frame_inv; [eapply step_agree_irrel; eauto | auto] |].
  destruct_event e; cbn [irrel] in Ir; try discriminate Ir; cbn [txn_of] in Ht; inversion Ht; subst.
  - eapply own_mutations; eauto.
  - eapply own_pw_send; eauto.
  - eapply own_pw_deliver; eauto.
  - eapply own_pw_reply; eauto.
  - eapply own_cm_send; eauto.
  - eapply own_cm_deliver; eauto.
  - eapply own_cm_reply; eauto.
  - eapply own_rb_send; eauto.
  - eapply own_rb_deliver; eauto.
  - eapply own_cts_deliver; eauto.
  - eapply own_cts_reply; eauto.
  - eapply own_csl_deliver; eauto.
  - eapply own_rs_send; eauto.
  - eapply own_rs_deliver; eauto.
  - eapply own_told; eauto.
Qed.

Theorem inv_stepr : forall s e s', Inv s -> stepr s e = Ok s' -> Inv s'.
Proof.
  intros s e s' HI H T. specialize (HI T). fold (invT s T) in HI. fold (invT s' T).
  destruct (txn_of_dec e T) as [Et | Hn].
  - eapply step_own; eauto.
  - eapply frame_inv; [eapply step_agree; eauto | exact HI].
Qed.

Theorem inv_step : forall s e s', Inv s -> step s e = Some s' -> Inv s'.
Proof.
  unfold step. intros s e s' HI H. destruct (stepr s e) as [s1 | rr] eqn:E; inversion H. subst. eapply inv_stepr; eauto.
Qed.

Theorem inv_init : Inv init.
Proof.
  intros T. split.
  - constructor; unfold F, hasm, prim, pwok, pwdlv; cbn; intros; try contradiction; try tauto; try (exfalso; lia); auto.
  - intros Hh. exfalso. apply Hh. reflexivity.
Qed.

Lemma run_from_preserved : forall P : sys -> Prop, (forall s e s', P s -> stepr s e = Ok s' -> P s') ->
  forall evs s s', P s -> run_from s evs = Some s' -> P s'.
Proof.
  intros P Hs. induction evs as [| e evs IH]; intros s s' Ps H; cbn [run_from] in H.
  - inversion H. subst. exact Ps.
  - unfold step in H. destruct (stepr s e) as [s1 | rr] eqn:E; try discriminate. exact (IH _ _ (Hs _ _ _ Ps E) H).
Qed.

Theorem inv_run_from : forall evs s s', Inv s -> run_from s evs = Some s' -> Inv s'.
Proof. exact (run_from_preserved Inv inv_stepr). Qed.
Theorem inv_run : forall evs s, run evs = Some s -> Inv s.
Proof. intros evs s H. eapply inv_run_from; [apply inv_init | exact H]. Qed.

(* only the three store walks touch the abstract store, and each moves it forward *)
Lemma stepr_kmono : forall s e s', stepr s e = Ok s' -> kmono s s'.
Proof.
  intros s e s' H. apply stepr_upd in H.
  induction H as [| | | | | | | x y _ IH E | x T ks tr y _ IH _ Ho Hs | x T k tr y _ IH _ Ho Hs | x T l y _ IH _ Hs ];
    try (intros T' k'; apply IHupd); try apply kmono_refl; apply (kmono_trans _ _ _ IH).
  - apply kmono_same. intros T' k'. unfold kget. rewrite (proj1 E). reflexivity.
  - apply (step_keys_kmono _ _ _ _ _ Ho Hs).
  - apply (step_key_kmono _ _ _ _ _ Ho Hs).
  - apply kmono_same, (step_csl_locks_same _ _ _ _ Hs).
Qed.

Lemma run_from_kmono : forall evs s s', run_from s evs = Some s' -> kmono s s'.
Proof.
  intros evs s s'. apply (run_from_preserved (kmono s)); [| apply kmono_refl].
  intros x e x' K E. exact (kmono_trans _ _ _ K (stepr_kmono _ _ _ E)).
Qed.

Lemma step_key_sbk : forall k x T tr y, step_key x T k tr = Some y -> same_but_kst x y.
Proof. intros k x T tr y E. apply step_key_spec in E. destruct E as [v [-> _]]. apply same_but_kst_kset. Qed.
Lemma step_keys_sbk : forall ks x T tr y, step_keys x T ks tr = Some y -> same_but_kst x y.
Proof.
  induction ks as [| k ks IH]; intros x T tr y E; cbn [step_keys] in E.
  - inversion E. apply same_but_kst_refl.
  - destruct (step_key x T k tr) as [x1 |] eqn:E1; try discriminate.
    eapply same_but_kst_trans; [eapply step_key_sbk; eauto | eapply IH; eauto].
Qed.
Lemma step_keys_getc : forall ks x T tr y T0, step_keys x T ks tr = Some y -> getc y T0 = getc x T0.
Proof. intros ks x T tr y T0 E. apply sbk_getc. eapply step_keys_sbk; eauto. Qed.
Lemma step_key_getc : forall k x T tr y T0, step_key x T k tr = Some y -> getc y T0 = getc x T0.
Proof. intros k x T tr y T0 E. apply sbk_getc. eapply step_key_sbk; eauto. Qed.
Lemma step_csl_getc : forall l x T y T0, step_csl_locks x T l = Some y -> getc y T0 = getc x T0.
Proof. intros l x T y T0 E. apply sbk_getc. apply (step_csl_locks_same _ _ _ _ E). Qed.

Lemma stepr_getc_other : forall s e s' T0, stepr s e = Ok s' -> txn_of e <> Some T0 -> getc s' T0 = getc s T0.
Proof.
  intros s e s' T0 H Hne. apply stepr_upd in H.
  induction H as [| x T c _ IH E | | | | | | x y _ IH E | x T ks tr y _ IH _ _ Hs | x T k tr y _ IH _ _ Hs | x T l y _ IH _ Hs ];
    try exact IHupd.
  - reflexivity.
  - rewrite getc_setc_ne by congruence. exact IH.
  - unfold getc. rewrite (proj1 (proj2 E)). exact IH.
  - rewrite (step_keys_getc _ _ _ _ _ _ Hs). exact IH.
  - rewrite (step_key_getc _ _ _ _ _ _ Hs). exact IH.
  - rewrite (step_csl_getc _ _ _ _ _ Hs). exact IH.
Qed.

Ltac getc_keys :=
  repeat match goal with
         | E : step_keys _ _ _ _ = Some ?y |- context [getc ?y _] => rewrite !(step_keys_getc _ _ _ _ _ _ E)
         | E : step_key _ _ _ _ = Some ?y |- context [getc ?y _] => rewrite !(step_key_getc _ _ _ _ _ _ E)
         | E : step_csl_locks _ _ _ = Some ?y |- context [getc ?y _] => rewrite !(step_csl_getc _ _ _ _ _ E)
         end.

(* the client record of T in a state built from setters, read by computation *)
Ltac getc_g :=
  unfold getc; sproj_g; cbn [getc_l]; rewrite ?N.eqb_refl;
  repeat match goal with |- context [getc_l (s_cl ?s) ?T] => fold (getc s T) end; crd.

(* ETold and EPwSend are refused once Commit has returned, EMutations once the mutations are logged;
   nothing else writes these fields *)
Lemma stepr_frozen : forall s e s' T0, stepr s e = Ok s' ->
  (F s T0 FTold <> 0 -> F s' T0 FTold = F s T0 FTold /\ F s' T0 FTriedA = F s T0 FTriedA /\ F s' T0 FTried1 = F s T0 FTried1) /\
  (hasm s T0 -> hasm s' T0 /\ prim s' T0 = prim s T0 /\ lm s' T0 = lm s T0).
Proof.
  intros s e s' T0 H. unfold hasm, prim, lm, F.
  destruct (txn_of_dec e T0) as [Et | Hn].
  2: rewrite (stepr_getc_other _ _ _ T0 H Hn); split; intros; repeat split; auto.
  destruct_event e; cbn [txn_of] in Et; inversion Et; subst; cbn [stepr] in H; unfold_step H; chks H.
  all: repeat match type of H with
              | (match ?d with _ => _ end) = Ok _ => destruct d eqn:?; chks H; try discriminate H
              | (if ?d then _ else _) = Ok _ => destruct d eqn:?; chks H; try discriminate H
              end.
  all: try (okinv H).
  all: repeat match goal with |- context [match ?d with _ => _ end] => is_var d; destruct d eqn:? end.
  all: repeat match goal with |- context [if ?d then _ else _] => destruct d eqn:? end.
  all: getc_keys; getc_g; repeat match goal with |- context [if ?d then _ else _] => destruct d eqn:? end; getc_g;
       b2p; split; intros; repeat split; auto; try congruence; try contradiction.
Qed.

Lemma run_from_frozen : forall evs s s' T, run_from s evs = Some s' ->
  (F s T FTold <> 0 -> F s' T FTold = F s T FTold /\ F s' T FTriedA = F s T FTriedA /\ F s' T FTried1 = F s T FTried1) /\
  (hasm s T -> hasm s' T /\ prim s' T = prim s T /\ lm s' T = lm s T).
Proof.
  intros evs s s' T H. pattern s'. eapply run_from_preserved; [| | exact H]; cbv beta; [| tauto].
  intros x e x' [B1 B2] E. destruct (stepr_frozen _ _ _ T E) as [A1 A2]. split.
  - intros Hn. destruct (B1 Hn) as [B3 [B4 B5]]. destruct A1 as [A3 [A4 A5]]; [congruence |]. repeat split; congruence.
  - intros Hh. destruct (B2 Hh) as [B3 [B4 B5]]. destruct (A2 B3) as [A3 [A4 A5]]. repeat split; congruence.
Qed.
