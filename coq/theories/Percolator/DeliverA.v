(* Percolator/DeliverA.v — prewrite and commit deliveries preserve the invariants of their transaction. *)
From Verif Require Export Percolator.Deliver.

Lemma pw_deliver_core : forall b s' r T ks x p a o m f secs,
  invT b T -> In (EPwSend r T p ks a o m f secs) (s_sent b) ->
  (forall mm oo, x = PwOk mm oo -> oo <> 0 ->
     exists r0 p0 ks0 a0 m0 f0 secs0, In (EPwSend r0 T p0 ks0 a0 true m0 f0 secs0) (s_sent b)) ->
  match x with
  | PwOk mm oo => if oo =? 0 then step_keys (add_dlv b (EPwReply r T ks x)) T ks (tr_pw mm)
                  else step_keys (add_dlv b (EPwReply r T ks x)) T ks (tr_1pc oo)
  | _ => Some (add_dlv b (EPwReply r T ks x))
  end = Some s' ->
  invT s' T.
Proof.
  intros s s' r T ks x p a o m f secs HI Ce C1pc H. pose proof HI as [G _].
  assert (HS : cn (getc s T) FPwSent <> 0) by (eapply (g_pwsent_cnt _ _ G); eauto).
  assert (N6 : forall r' ks' x', EPwReply r T ks x = EPwReply r' T ks' x' ->
               exists p a o m f secs, In (EPwSend r' T p ks' a o m f secs) (s_sent s)).
  { intros r' ks' x' E. inversion E. subst. eauto 10. }
  destruct x as [mm oo | kd |].
  - destruct (N.eq_dec oo 0) as [-> | Ho].
    + cbn [N.eqb] in H. rename H into E.
      pose proof (step_keys_char _ _ _ _ _ _ (tr_pw_ok mm) (tr_pw_idem mm) (tr_pw_total mm) E) as Ch.
      assert (D : dshape s s' T (EPwReply r T ks (PwOk mm 0))) by (eapply dshape_keys; eauto; apply tr_pw_ok).
      (* a prewritten key is locked or was committed before and never was rolled back; no other key moves *)
      apply (deliver_inv_quiet s s' T _ D HI); vac; auto.
      * intros r' ks' m' o' E'. inversion E'. subst. split; [| congruence]. intros k Hk.
        destruct (Ch k) as [[_ A] | [A _]]; [| contradiction]. apply tr_pw_res in A. tauto.
      * intros k. destruct (Ch k) as [[_ A] | [_ A]]; [| auto]. apply tr_pw_res in A. destruct A as [A1 [A2 [_ A3]]].
        destruct (kget s' T k) as [| m1 | c1 |]; [congruence | eauto | left; symmetry; auto | congruence].
      * intros k r' ks' m' o' A E' Hk. inversion E'. subst.
        destruct (Ch k) as [[_ A'] | [A' _]]; [| contradiction]. apply tr_pw_res in A'. tauto.
    + destruct (C1pc mm oo eq_refl Ho) as [r0 [p0 [ks0 [a0 [m0 [f0 [secs0 Ce']]]]]]].
      apply N.eqb_neq in Ho. rewrite Ho in H. apply N.eqb_neq in Ho. rename H into E.
      assert (HT1 : cn (getc s T) FTried1 <> 0) by (eapply (g_1pc_sent _ _ G); eauto).
      pose proof (step_keys_char _ _ _ _ _ _ (tr_1pc_ok oo) (tr_1pc_idem oo) (tr_1pc_total oo) E) as Ch.
      assert (D : dshape s s' T (EPwReply r T ks (PwOk mm oo))) by (eapply dshape_keys; eauto; apply tr_1pc_ok).
      apply (deliver_inv s s' T _ D HI); vac; auto.
      * intros r' ks' m' o' E'. inversion E'. subst. split; auto. intros k Hk.
        destruct (Ch k) as [[_ A] | [A _]]; [| contradiction]. apply tr_1pc_res in A. auto.
      * intros _ [_ [B _]] _. exfalso. unfold F in B. congruence.
  - inversion H. subst s'. apply (deliver_inv_quiet _ _ T _ (dshape_nokeys s _ T) HI); vac; auto.
  - inversion H. subst s'. apply (deliver_inv_quiet _ _ T _ (dshape_nokeys s _ T) HI); vac; auto.
Qed.

(* a record update that only touches the prewrite accounting / ghost / fallback flag *)
Lemma invT_acct : forall s T c, invT s T ->
  (forall f, rel f = true -> cn c f = cn (getc s T) f) -> c_lm c = c_lm (getc s T) -> c_pwok c = c_pwok (getc s T) ->
  invT (setc s T c) T.
Proof.
  intros s T c HI H1 H2 H3. apply (frame_inv s (setc s T c) T); auto.
  apply ag_setc_rel; auto. apply agree_refl.
Qed.

Lemma own_pw_deliver : forall s s' r T ks x, invT s T -> stepr s (EPwDeliver r T ks x) = Ok s' -> invT s' T.
Proof.
  intros s s' r T ks x HI H. cbn [stepr] in H. unfold step_pw_deliver in H. chks H.
  apply sent_by_In in C. destruct C as [e [Ce Cm]]. destruct e; try discriminate. b2p. beq. subst.
  match type of H with context [setc (add_dlv s ?ee) T ?cc] => set (c' := cc) in *; set (e' := ee) in * end.
  change (setc (add_dlv s e') T c') with (add_dlv (setc s T c') e') in H.
  assert (HB : invT (setc s T c') T).
  { apply invT_acct; auto; unfold c'; destruct x as [mm oo | kd |];
      repeat match goal with |- context [if ?bb then _ else _] => destruct bb end;
      try (intros f0 Hf0; destruct f0; try discriminate Hf0; reflexivity); reflexivity. }
  eapply (pw_deliver_core (setc s T c') s' r T ks x); [exact HB | exact Ce | |].
  - intros mm oo -> Ho. apply N.eqb_neq in Ho. rewrite Ho in C0. cbn [orb] in C0.
    apply sent_by_In in C0. destruct C0 as [e0 [Ce' Cm']]. destruct e0; try discriminate.
    match type of Cm' with (if ?bb then _ else _) = true => destruct bb; try discriminate end.
    b2p. subst. eauto 10.
  - fold e'. destruct x as [mm oo | kd |]; [destruct (oo =? 0) | |];
      try (destruct (step_keys _ _ _ _) as [s2 |] eqn:E; [| discriminate]); inversion H; reflexivity.
Qed.

(* counting a delivery of the commit-point request is itself invariant preserving *)
Lemma cnt_step : forall s T f, invT s T -> fb (getc s T) FHasm = true -> (f = FPcOkd \/ f = FPcFaild) ->
  cn (getc s T) FPcDlv < cn (getc s T) FPcSent ->
  invT (setc s T (incn (incn (getc s T) FPcDlv) f)) T.
Proof.
  intros s T f HI Hh Hf Hlt. pose proof HI as [G _]. b2p. destruct Hf as [-> | ->]; by_setc HI G.
  all: intros I Hc Hm; pose proof (t_told_err _ _ I) as Hd; unfold Dn, F in Hd; destruct I; destruct t_cnt as [? [? ?]]; unf2.
  all: repeat split; intros; auto; try lia; try (apply Hd; assumption).
Qed.

Lemma gone_some_rb : forall s T ks, ginv s T -> tinv s T -> classic s T ->
  cn (getc s T) FPcSent <> 0 -> (forall k, In k ks -> In k (c_lm (getc s T))) ->
  existsb (gone_key s T) ks = true -> some_rb s T.
Proof.
  intros s T ks G I Hc HS Hsub H. apply existsb_exists in H. destruct H as [k [Hk Hg]].
  assert (Hl : In k (lm s T)) by (apply Hsub; auto).
  assert (Hn : kget s T k <> Unlocked).
  { eapply pwdlv_not_unlocked; eauto. apply (g_pwok _ _ G). apply (t_pwok _ _ I); auto. }
  unfold gone_key in Hg. destruct (kget s T k) eqn:E; try discriminate; try congruence.
  - apply existsb_exists in Hg. destruct Hg as [[T' c] [H1 H2]]. cbn [fst snd] in H2. b2p. subst.
    apply (g_wr _ _ G) in H1. destruct H1 as [j H1]. destruct j as [p |]; [| exfalso; destruct Hc as [_ [_ D]]; eapply D; eauto].
    pose proof (t_rs_p _ _ I _ _ H1) as ->. apply (g_rs _ _ G) in H1. exists (prim s T). split; auto. apply (t_prim_lm _ _ I).
  - exists k. auto.
Qed.

(* what a commit delivery that ends in s2 needs of the keys it moved, whatever the answer x; for the
   commit-point request the delivery is also counted (f says as what). The conclusion has the shape
   step_cm_deliver leaves, inner `if` included *)
Lemma cm_deliver_core : forall s s2 r T C ks x f, invT s T -> In (ECmSend r T C ks) (s_sent s) ->
  negb (has_prim (getc s T) ks) || (cn (getc s T) FPcDlv <? cn (getc s T) FPcSent) = true ->
  dshape s s2 T (ECmReply r T C ks x) ->
  (f = FPcOkd \/ f = FPcFaild) -> (x = CmOk -> f = FPcOkd) -> (x = CmGone -> existsb (gone_key s T) ks = true) ->
  (forall k c, kget s2 T k = Committed c -> kget s T k <> Committed c -> x = CmOk /\ c = C /\ In k ks) ->
  (forall k, kget s2 T k = RolledBack -> kget s T k = RolledBack) ->
  (x = CmOk -> forall k, In k ks -> kget s2 T k = Committed C) ->
  invT (if has_prim (getc s T) ks
        then setc s2 T (incn (if has_prim (getc s T) ks then incn (getc s T) FPcDlv else getc s T) f) else s2) T.
Proof.
  intros s s2 r T C ks x f HI Ce C1 D0 Hf X1 X3 CH1 CH2 CH3. set (e' := ECmReply r T C ks x) in *.
  assert (N5 : forall r' c' ks' x', e' = ECmReply r' T c' ks' x' -> In (ECmSend r' T c' ks') (s_sent s)).
  { intros r' c' ks' x' E. inversion E. subst. auto. }
  assert (N2 : forall r' c0 ks', e' = ECmReply r' T c0 ks' CmOk -> forall k, In k ks' -> kget s2 T k = Committed c0).
  { intros r' c0 ks' E'. inversion E'. subst. apply CH3. reflexivity. }
  destruct (has_prim (getc s T) ks) eqn:HP.
  - (* the commit-point request *)
    cbn [negb orb] in C1. b2p. unfold has_prim in HP. apply andb_true_iff in HP. destruct HP as [HP1 HP2]. apply mem_In in HP2.
    set (c' := incn (incn (getc s T) FPcDlv) f) in *.
    pose proof (cnt_step s T f HI HP1 Hf C1) as HB. fold c' in HB.
    assert (D : dshape (setc s T c') (setc s2 T c') T e').
    { apply dshape_setc; [exact D0 |]. unfold c'. destruct Hf as [-> | ->]; reflexivity. }
    assert (Pc : cn (getc (setc s T c') T) FPrim = cn (getc s T) FPrim).
    { rewrite getc_setc_eq. unfold c'. destruct Hf as [-> | ->]; reflexivity. }
    assert (Lc : c_lm (getc (setc s T c') T) = c_lm (getc s T)) by (rewrite getc_setc_eq; reflexivity).
    assert (Okd : x = CmOk -> cn (getc (setc s T c') T) FPcOkd <> 0).
    { intros Hx. rewrite getc_setc_eq. unfold c'. rewrite (X1 Hx). crd. lia. }
    apply (deliver_inv _ _ T e' D HB); unfold e'; vac; auto.
    intros Ib Hcb Hhb. rewrite Pc, Lc. split; [| repeat split].
    + intros k c A B. destruct (CH1 k c A B) as [Hx [-> _]]. split; [apply (CH3 Hx); exact HP2 | intros _; apply (Okd Hx)].
    + intros k Hk A B. exfalso. apply B, CH2, A.
    + intros r' c0 ks' E' _. inversion E'. apply Okd. auto.
    + intros r' c0 ks' E' _. inversion E'. subst. specialize (X3 eq_refl).
      apply (dl_some_rb _ _ _ _ D). destruct HB as [Gb _].
      apply (gone_some_rb _ T ks' Gb Ib Hcb).
      * rewrite getc_setc_eq. unfold c'. destruct Hf as [-> | ->]; crd; lia.
      * intros k Hk. destruct (t_cmsent _ _ Ib _ _ _ Ce) as [A _]. apply A. auto.
      * exact X3.
    + intros k0 r0 ks0 m0 o0 A0 E0. discriminate E0.
  - (* a secondary batch, or the mutations are unknown *)
    apply (deliver_inv _ _ T e' D0 HI); unfold e'; vac; auto.
    intros Ib Hcb Hhb.
    assert (HnP : ~ In (cn (getc s T) FPrim) ks).
    { intros Hi. unfold has_prim in HP. apply andb_false_iff in HP. destruct HP as [HP | HP].
      - apply fb_false in HP. unfold hasm, F in Hhb. congruence.
      - apply mem_false in HP. contradiction. }
    destruct (t_cmsent _ _ Ib _ _ _ Ce) as [_ PC]. specialize (PC HnP).
    split; [| repeat split].
    + intros k c A B. destruct (CH1 k c A B) as [_ [-> Hi]].
      split; [eapply km_committed; [apply (d_k _ _ _ _ D0) | exact PC] | intros ->; contradiction].
    + intros k Hk A B. exfalso. apply B, CH2, A.
    + intros r' c0 ks' E' Hi. inversion E'. subst. contradiction.
    + intros r' c0 ks' E' Hi. inversion E'. subst. contradiction.
    + intros k0 r0 ks0 m0 o0 A0 E0. discriminate E0.
Qed.

Lemma own_cm_deliver : forall s s' r T C ks x, invT s T -> stepr s (ECmDeliver r T C ks x) = Ok s' -> invT s' T.
Proof.
  intros s s' r T C ks x HI H. cbn [stepr] in H. unfold step_cm_deliver in H. chks H.
  apply sent_by_In in C0. destruct C0 as [e [Ce Cm]]. destruct e; try discriminate. b2p. beq. subst.
  destruct x as [| m | | |]; chks H; try (destruct (step_keys _ _ _ _) as [s2 |] eqn:E; [| discriminate]); okinv H.
  3-5: (* the other answers change no key *)
    (apply (cm_deliver_core s _ r T C ks _ FPcFaild HI Ce C1 (dshape_nokeys s _ T)); auto; try discriminate;
     intros k c A B; contradiction).
  - (* ok: exactly the keys of ks become committed at C *)
    pose proof (step_keys_char _ _ _ _ _ _ (tr_cm_ok C) (tr_cm_idem C) (tr_cm_total C) E) as Ch.
    apply (cm_deliver_core s s2 r T C ks CmOk FPcOkd HI Ce C1); auto; try discriminate.
    + eapply dshape_keys; eauto using tr_cm_ok. left. intros v' Ev. discriminate Ev.
    + intros k c A B. destruct (Ch k) as [[Hin A'] | [_ A']]; [| congruence].
      apply tr_cm_res in A'. rewrite A in A'. inversion A'. auto.
    + intros k A. destruct (Ch k) as [[_ A'] | [_ A']]; [| congruence]. apply tr_cm_res in A'. congruence.
    + intros _ k Hk. destruct (Ch k) as [[_ A] | [A _]]; [| contradiction]. apply tr_cm_res in A. exact A.
  - (* expired: the push leaves every key as it is *)
    pose proof (step_keys_char _ _ _ _ _ _ (tr_push_ok m) (tr_push_idem m) (tr_push_total m) E) as Ch.
    assert (Same : forall k, kget s2 T k = kget s T k).
    { intros k. destruct (Ch k) as [[_ A] | [_ A]]; [apply tr_push_res in A |]; exact A. }
    apply (cm_deliver_core s s2 r T C ks (CmExpired m) FPcFaild HI Ce C1); auto; try discriminate.
    + eapply dshape_keys; eauto using tr_push_ok. left. intros v' Ev. inversion Ev. auto.
    + intros k c A B. rewrite Same in A. contradiction.
    + intros k A. rewrite <- Same. exact A.
Qed.
