(* Percolator/ProofsTrace3.v — the history invariant [H] of the view.  Global part [HG]: network sets,
   resolver knowledge, tso and gc windows are reflected in the history.  Per-transaction part [HT]:
   every item of the client record that a guard reads is tied to the history; it has one part per
   class of items (View.grp), and a step keeps the parts it does not write by that part's frame lemma. *)
From Coq Require Import PeanoNat.
From Verif Require Import Percolator.Event Percolator.System Percolator.Basics Percolator.Trace
  Percolator.ProofsTrace2 Percolator.View.

Record HG (pre : list event) (v : view) : Prop := {
  g_sent : forall e, In e (v_sent v) -> In e pre;
  g_dlv : forall x, In x (v_dlv v) -> has_send (v_sent v) x;
  g_rep : forall e, tracked_reply e = true -> In e pre -> In e (v_dlv v);
  g_cts : forall e, In e (v_cts v) -> In e pre;
  g_csl : forall e, In e (v_csl v) -> In e pre;
  g_seen : forall r T ttl, In (r, T, ttl) (v_seen v) -> In (ELockSeen r T ttl) pre;
  g_gc : forall r sp, In (r, sp) (v_gc v) -> In (EGcBegin r sp) pre;
  g_tso : forall t, In (ETso t) pre -> t <= v_tso v;
  g_tso2 : v_tso v = 0 \/ In (ETso (v_tso v)) pre }.

Lemma HG_init : HG [] (view_of init).
Proof. constructor; cbn; intros; try contradiction; auto. Qed.

Lemma reply_has_send pre v r T C ks x : HG pre v -> In (ECmReply r T C ks x) pre -> In (ECmSend r T C ks) pre.
Proof. intros G H. apply (g_sent _ _ G). apply (g_dlv _ _ G _ (g_rep _ _ G (ECmReply r T C ks x) eq_refl H)). Qed.
Lemma pw_reply_has_send pre v r T ks x : HG pre v -> In (EPwReply r T ks x) pre -> pw_sent pre r T ks.
Proof.
  intros G H. destruct (g_dlv _ _ G _ (g_rep _ _ G (EPwReply r T ks x) eq_refl H)) as (p & a & o & m & f & secs & Hs).
  exists p, a, o, m, f, secs. exact (g_sent _ _ G _ Hs).
Qed.

(* what [HG] needs of a guard *)
Lemma guard_net v e : guard v e ->
  (forall t, e = ETso t -> v_tso v < t) /\ (forall x, reply_of e = Some x -> has_send (v_sent v) x) /\
  (tracked_reply e = true -> In e (v_dlv v)).
Proof.
  intros Gd. split; [intros t -> ; exact Gd |].
  destruct e; (split; [intros x Hx; inversion Hx; subst x; exact Gd | intros Ht; try discriminate Ht; exact Gd]).
Qed.

Lemma HG_step pre v e oc : HG pre v -> guard v e -> HG (pre ++ [e]) (vput (vnet v e) oc).
Proof.
  intros [G1 G2 G3 G4 G5 G6 G7 G8 G9] Gd. destruct (guard_net _ _ Gd) as (Nt & Nd & Nr).
  pose proof (in_last e pre) as Hl.
  constructor; cbn [vput vnet v_tso v_sent v_dlv v_cts v_csl v_seen v_gc].
  - intros x Hx. destruct (is_send e); [destruct Hx as [<- | Hx] |]; auto using in_snoc_l.
  - intros x Hx.
    assert (Hs : has_send (v_sent v) x) by (destruct (reply_of e); [destruct Hx as [<- | Hx] |]; auto).
    destruct (is_send e); [apply has_send_cons |]; exact Hs.
  - intros x Hx Hi. apply in_snoc in Hi.
    assert (Hd : In x (v_dlv v)) by (destruct Hi as [Hi | ->]; auto).
    destruct (reply_of e); [right |]; exact Hd.
  - (* D: the clause when the event leaves this component alone, as all events but one do (two for v_gc) *)
    assert (D : forall x, In x (v_cts v) -> In x (pre ++ [e])) by (intros x Hx; apply in_snoc_l, G4, Hx).
    destruct e; try exact D. intros x [<- | Hx]; [exact Hl | exact (D x Hx)].
  - assert (D : forall x, In x (v_csl v) -> In x (pre ++ [e])) by (intros x Hx; apply in_snoc_l, G5, Hx).
    destruct e; try exact D. intros x [<- | Hx]; [exact Hl | exact (D x Hx)].
  - assert (D : forall r T ttl, In (r, T, ttl) (v_seen v) -> In (ELockSeen r T ttl) (pre ++ [e]))
      by (intros r T ttl Hx; apply in_snoc_l, G6, Hx).
    destruct e; try exact D. intros r0 T ttl0 [Hq | Hx]; [inversion Hq; subst; exact Hl | exact (D _ _ _ Hx)].
  - assert (D : forall r sp, In (r, sp) (v_gc v) -> In (EGcBegin r sp) (pre ++ [e]))
      by (intros r sp Hx; apply in_snoc_l, G7, Hx).
    destruct e; try exact D; intros r0 sp0 Hx.
    + destruct Hx as [Hq | Hx]; [inversion Hq; subst; exact Hl | exact (D _ _ Hx)].
    + apply filter_In in Hx. exact (D _ _ (proj1 Hx)).
  - intros t Hi. apply in_snoc in Hi. destruct Hi as [Hi | <-]; [| apply N.le_refl].
    specialize (G8 t Hi). destruct e; try exact G8. specialize (Nt _ eq_refl). lia.
  - assert (D : v_tso v = 0 \/ In (ETso (v_tso v)) (pre ++ [e])) by (destruct G9; auto using in_snoc_l).
    destruct e; try exact D. right. exact Hl.
Qed.

Definition is_cm_send (T : N) (e : event) : bool :=
  match e with ECmSend _ s' _ _ => s' =? T | _ => false end.
Definition has_pwok pre T k := exists r ks m o, In (EPwReply r T ks (PwOk m o)) pre /\ In k ks.
Definition has_cmok pre T C p := exists r ks, In (ECmReply r T C ks CmOk) pre /\ In p ks.
Definition has_async pre T := exists r p ks o m f secs, In (EPwSend r T p ks true o m f secs) pre.
Definition has_onepc pre T := exists r p ks a m f secs, In (EPwSend r T p ks a true m f secs) pre.
Definition has_gone pre T p := exists r C ks, In (ECmReply r T C ks CmGone) pre /\ In p ks.
Definition has_1pc pre T o := exists r ks m, In (EPwReply r T ks (PwOk m o)) pre.

Definition fb_reason pre T :=
  (exists r p ks o m f secs, In (EPwSend r T p ks false o m f secs) pre) \/
  (exists r ks o, In (EPwReply r T ks (PwOk 0 o)) pre) \/ has_onepc pre T.
Definition fb1_reason pre T :=
  (exists r p ks a m f secs, In (EPwSend r T p ks a false m f secs) pre) \/
  (exists r ks m, In (EPwReply r T ks (PwOk m 0)) pre).
Definition has_minc pre T m := exists r ks o, In (EPwReply r T ks (PwOk m o)) pre.

Lemma has_pwok_mono pre l T k : has_pwok pre T k -> has_pwok (pre ++ l) T k.
Proof. intros (r & ks & m & o & H1 & H2). exists r, ks, m, o. split; [apply in_or_app; auto | auto]. Qed.
Lemma has_cmok_mono pre l T C p : has_cmok pre T C p -> has_cmok (pre ++ l) T C p.
Proof. intros (r & ks & H1 & H2). exists r, ks. split; [apply in_or_app; auto | auto]. Qed.
Lemma has_async_mono pre l T : has_async pre T -> has_async (pre ++ l) T.
Proof. intros (r & p & ks & o & m & f & secs & H). exists r, p, ks, o, m, f, secs. apply in_or_app; auto. Qed.
Lemma has_onepc_mono pre l T : has_onepc pre T -> has_onepc (pre ++ l) T.
Proof. intros (r & p & ks & o & m & f & secs & H). exists r, p, ks, o, m, f, secs. apply in_or_app; auto. Qed.
Lemma has_gone_mono pre l T p : has_gone pre T p -> has_gone (pre ++ l) T p.
Proof. intros (r & C & ks & H1 & H2). exists r, C, ks. split; [apply in_or_app; auto | auto]. Qed.
Lemma has_1pc_mono pre l T o : has_1pc pre T o -> has_1pc (pre ++ l) T o.
Proof. intros (r & ks & m & H). exists r, ks, m. apply in_or_app; auto. Qed.
Lemma has_minc_mono pre l T m : has_minc pre T m -> has_minc (pre ++ l) T m.
Proof. intros (r & ks & o & H). exists r, ks, o. apply in_or_app; auto. Qed.
Lemma fb_reason_mono pre l T : fb_reason pre T -> fb_reason (pre ++ l) T.
Proof.
  intros [(r & p & ks & o & m & f & secs & H) | [(r & ks & o & H) | H]].
  - left. exists r, p, ks, o, m, f, secs. apply in_or_app; auto.
  - right. left. exists r, ks, o. apply in_or_app; auto.
  - right. right. apply has_onepc_mono. exact H.
Qed.
Lemma fb1_reason_mono pre l T : fb1_reason pre T -> fb1_reason (pre ++ l) T.
Proof.
  intros [(r & p & ks & a & m & f & secs & H) | (r & ks & m & H)].
  - left. exists r, p, ks, a, m, f, secs. apply in_or_app; auto.
  - right. exists r, ks, m. apply in_or_app; auto.
Qed.
#[export] Hint Resolve has_minc_mono fb_reason_mono fb1_reason_mono : core.
#[export] Hint Resolve has_pwok_mono has_cmok_mono has_async_mono has_onepc_mono has_gone_mono has_1pc_mono : core.

Definition HM (T : N) (pre : list event) (c : crec) : Prop :=
  forall p ms, In (EMutations T p ms) pre ->
    cn c FHasm <> 0 /\ cn c FPrim = p /\ c_lm c = lock_keys ms /\ In p (lock_keys ms).
Record HC (T : N) (pre : list event) (c : crec) : Prop := {
  t_nohasm : cn c FHasm = 0 -> cn c FPcOk = 0 /\ cn c FPcNeg = 0 /\ cn c FPcRep = 0 /\ cn c FPcRb = 0;
  t_pcok : cn c FPcOk <> 0 -> has_cmok pre T (cn c FPcOk) (cn c FPrim);
  t_pcok0 : cn c FHasm <> 0 -> cn c FPcOk = 0 ->
            forall r C ks, In (ECmReply r T C ks CmOk) pre -> ~ In (cn c FPrim) ks;
  t_sent : cn c FPcSent = N.of_nat (count_if (if cn c FHasm =? 0 then is_cm_send T else is_pc_send T (cn c FPrim)) pre);
  t_neg : cn c FHasm <> 0 -> cn c FPcNeg = N.of_nat (count_if (is_pc_neg T (cn c FPrim)) pre);
  t_rep : cn c FHasm <> 0 -> cn c FPcRep = N.of_nat (count_if (is_pc_reply T (cn c FPrim)) pre);
  t_rb : cn c FPcRb <> 0 -> has_gone pre T (cn c FPrim);
  t_cmts : cn c FHasm <> 0 -> forall r C ks, In (ECmSend r T C ks) pre -> T < C }.
Record HP (T : N) (pre : list event) (c : crec) : Prop := {
  t_pwok : forall k, In k (c_pwok c) -> has_pwok pre T k;
  t_trieda : cn c FTriedA <> 0 -> has_async pre T;
  t_trieda2 : forall r p ks o m f secs, In (EPwSend r T p ks true o m f secs) pre -> cn c FTriedA <> 0;
  t_tried1 : cn c FTried1 <> 0 -> has_onepc pre T;
  t_tried12 : forall r p ks a m f secs, In (EPwSend r T p ks a true m f secs) pre -> cn c FTried1 <> 0;
  t_pws : cn c FPwSent = N.of_nat (count_if (is_pw_send T) pre);
  t_pwr : cn c FPwRep = N.of_nat (count_if (is_pw_reply T) pre);
  t_minc : forall r ks m o, In (EPwReply r T ks (PwOk m o)) pre ->
           (cn c FHasm = 0 \/ exists k, In k ks /\ In k (c_lm c)) -> m <= cn c FMinc;
  t_minc2 : cn c FMinc <> 0 -> has_minc pre T (cn c FMinc);
  t_1pc : cn c F1pcTs <> 0 -> has_1pc pre T (cn c F1pcTs);
  t_ksent : forall k, kcnt c KSent k = N.of_nat (sum_of (pw_send_occ T k) pre);
  t_kneg : forall k, kcnt c KNeg k = N.of_nat (sum_of (pw_negreply_occ T k) pre);
  t_fb : cn c FFb <> 0 -> fb_reason pre T;
  t_fbc1 : forall r p ks o m f secs, In (EPwSend r T p ks false o m f secs) pre -> cn c FFb <> 0;
  t_fbc2 : forall r ks o, In (EPwReply r T ks (PwOk 0 o)) pre -> cn c FFb <> 0;
  t_fb1 : cn c FFb1 <> 0 -> fb1_reason pre T }.
(* what the record keeps of the LAST commit_call of T *)
Definition last_call (T : N) (pre : list event) (called causal wm : N) : Prop :=
  forall pre1 pre2 cz, pre = pre1 ++ ECommitCall T cz :: pre2 ->
    (forall cz', ~ In (ECommitCall T cz') pre2) ->
    called <> 0 /\ (causal <> 0 <-> cz = true) /\ forall t, In (ETso t) pre1 -> t <= wm.
Record HO (T : N) (pre : list event) (c : crec) : Prop := {
  t_dead : forall r ks, In (ERbSend r T ks) pre -> cn c FDead <> 0;
  t_call : last_call T pre (cn c FCalled) (cn c FCausal) (cn c FWm) }.
Definition inv (X : grp) : N -> list event -> crec -> Prop :=
  match X with GM => HM | GC => HC | GP => HP | GO => HO end.
Definition HT (T : N) (pre : list event) (c : crec) : Prop := forall X, inv X T pre c.

Lemma HT_init T : HT T [] c0.
Proof.
  intros []; [intros p ms [] | constructor ..];
    unfold kcnt, last_call; cbn [c0 cn c_lm c_pwok c_kl kcnt_l sum_of In count_if N.eqb]; intros;
    try contradiction; try reflexivity; auto.
  destruct pre1; discriminate.
Qed.

Lemma pw_send_same c ks a o : same_but (Some GP) c (pw_send_rec c ks a o).
Proof. destruct a, o; sb_tac. Qed.
Lemma pw_reply_same c ks x : same_but (Some GP) c (pw_reply_rec c ks x).
Proof.
  destruct x as [m o | kd |]; [| sb_tac ..].
  constructor; try (intros HX; destruct (HX eq_refl)).
  - intros f Y Hf HY. rewrite pw_reply_rec_cn.
    destruct f; try reflexivity; inversion Hf; subst Y; destruct (HY eq_refl).
  - intros _. apply pw_reply_rec_lists.
Qed.

(* an event outside class X of T does not count for the parts of class X *)
Ltac notG e :=
  let Hne := fresh "Hne" in
  intros Hne; destruct e; cbn [is_cm_send is_pc_send is_pc_reply is_pc_neg is_pw_send is_pw_reply pw_send_occ pw_negreply_occ];
  try reflexivity;
  match goal with |- context [?s =? ?T] =>
    destruct (N.eqb_spec s T) as [-> | _]; [destruct Hne; reflexivity | reflexivity]
  end.
Lemma notG_send_occ T k e : ev_grp e <> Some (T, GP) -> pw_send_occ T k e = 0%nat.
Proof. notG e. Qed.
Lemma notG_negreply_occ T k e : ev_grp e <> Some (T, GP) -> pw_negreply_occ T k e = 0%nat.
Proof. notG e. Qed.
Lemma notG_pw_send T e : ev_grp e <> Some (T, GP) -> is_pw_send T e = false.
Proof. notG e. Qed.
Lemma notG_pw_reply T e : ev_grp e <> Some (T, GP) -> is_pw_reply T e = false.
Proof. notG e. Qed.
Lemma notG_cm_send T e : ev_grp e <> Some (T, GC) -> is_cm_send T e = false.
Proof. notG e. Qed.
Lemma notG_pc_send T p e : ev_grp e <> Some (T, GC) -> is_pc_send T p e = false.
Proof. notG e. Qed.
Lemma notG_pc_reply T p e : ev_grp e <> Some (T, GC) -> is_pc_reply T p e = false.
Proof. notG e. Qed.
Lemma notG_pc_neg T p e : ev_grp e <> Some (T, GC) -> is_pc_neg T p e = false.
Proof. notG e. Qed.

(* [H : In x (pre ++ [e])]: x is in pre, or it is e; the second case is closed when x and e differ
   in a constructor ([snoc_in]) or in their class ([snoc_other]) *)
Ltac snoc_in H := apply in_snoc in H; destruct H as [H | H]; [| try discriminate H].
Ltac snoc_other H Hne := apply in_snoc in H; destruct H as [H | H]; [| subst; destruct Hne; reflexivity].
Ltac in_pre := intros; match goal with H : In _ (_ ++ [_]) |- _ => snoc_in H end.
Ltac in_other Hne := intros; match goal with H : In _ (_ ++ [_]) |- _ => snoc_other H Hne end; eauto.

Lemma last_call_snoc T pre e a b w :
  (forall cz, e <> ECommitCall T cz) -> last_call T pre a b w -> last_call T (pre ++ [e]) a b w.
Proof.
  intros He L pre1 pre2 cz Hd Hno. apply snoc_split in Hd.
  destruct Hd as [(-> & <- & ->) | (q & -> & ->)]; [destruct (He cz eq_refl) |].
  apply (L pre1 q cz eq_refl). intros cz' Hi. apply (Hno cz'). apply in_or_app. auto.
Qed.

Lemma HM_frame X T pre c e c' :
  same_but X c c' -> X <> Some GM -> ev_grp e <> Some (T, GM) -> HM T pre c -> HM T (pre ++ [e]) c'.
Proof.
  intros S Xm Hne M p ms H. snoc_other H Hne.
  rewrite (sb_cn _ _ _ S FHasm GM), (sb_cn _ _ _ S FPrim GM), (sb_lm _ _ _ S) by trivial. auto.
Qed.
Lemma HC_frame X T pre c e c' :
  same_but X c c' -> X <> Some GM -> X <> Some GC -> ev_grp e <> Some (T, GC) -> HC T pre c -> HC T (pre ++ [e]) c'.
Proof.
  intros S Xm Xc Hne [C1 C2 C3 C4 C5 C6 C7 C8].
  assert (E : forall f, grp_of f = Some GM \/ grp_of f = Some GC -> cn c' f = cn c f).
  { intros f [Hf | Hf]; apply (sb_cn _ _ _ S f _ Hf); assumption. }
  constructor; rewrite ?E by (cbn; auto); auto.
  - in_other Hne.
  - rewrite count_if_snoc_false; [exact C4 |]. destruct (cn c FHasm =? 0); [apply notG_cm_send | apply notG_pc_send]; exact Hne.
  - intros Hh. rewrite count_if_snoc_false; auto using notG_pc_neg.
  - intros Hh. rewrite count_if_snoc_false; auto using notG_pc_reply.
  - in_other Hne.
Qed.
Lemma HP_frame X T pre c e c' :
  same_but X c c' -> X <> Some GM -> X <> Some GP -> ev_grp e <> Some (T, GP) -> HP T pre c -> HP T (pre ++ [e]) c'.
Proof.
  intros S Xm Xp Hne [].
  assert (E : forall f, grp_of f = Some GM \/ grp_of f = Some GP -> cn c' f = cn c f).
  { intros f [Hf | Hf]; apply (sb_cn _ _ _ S f _ Hf); assumption. }
  constructor; rewrite ?E by (cbn; auto); rewrite ?(sb_lm _ _ _ S), ?(sb_pwok _ _ _ S) by assumption; auto.
  - in_other Hne.
  - in_other Hne.
  - rewrite count_if_snoc_false; auto using notG_pw_send.
  - rewrite count_if_snoc_false; auto using notG_pw_reply.
  - intros r ks m o H Hx. snoc_other H Hne. eauto.
  - intros k. rewrite (proj1 (sb_kcnt _ _ _ S Xp k)), sum_of_snoc, notG_send_occ, Nat.add_0_r; auto.
  - intros k. rewrite (proj2 (sb_kcnt _ _ _ S Xp k)), sum_of_snoc, notG_negreply_occ, Nat.add_0_r; auto.
  - in_other Hne.
  - in_other Hne.
Qed.
Lemma HO_frame X T pre c e c' :
  same_but X c c' -> X <> Some GO -> ev_grp e <> Some (T, GO) -> HO T pre c -> HO T (pre ++ [e]) c'.
Proof.
  intros S Xo Hne [O1 O2].
  assert (E : forall f, grp_of f = Some GO -> cn c' f = cn c f) by (intros f Hf; exact (sb_cn _ _ _ S f _ Hf Xo)).
  constructor; rewrite ?E by reflexivity.
  - in_other Hne.
  - apply last_call_snoc; [| exact O2]. intros cz ->. destruct Hne. reflexivity.
Qed.

(* an event of class [X] of T (of no class: [X = None]) that writes only parts of class [X] leaves
   the parts of [HT] of the other classes to their frame lemmas; mutations are read by all parts *)
Lemma HT_upd X T pre c e c' :
  same_but X c c' -> X <> Some GM -> (forall Y, ev_grp e = Some (T, Y) -> X = Some Y) ->
  (forall Y, X = Some Y -> inv Y T (pre ++ [e]) c') -> HT T pre c -> HT T (pre ++ [e]) c'.
Proof.
  intros S Xm He Hown A Y.
  assert (D : X = Some Y \/ X <> Some Y) by (destruct X as [[] |], Y; (left; reflexivity) || (right; discriminate)).
  destruct D as [D | D]; [exact (Hown Y D) |].
  assert (Hne : ev_grp e <> Some (T, Y)) by (intros Hq; apply D, He, Hq).
  destruct Y; cbn [inv].
  - exact (HM_frame X T pre c e c' S Xm Hne (A GM)).
  - exact (HC_frame X T pre c e c' S Xm D Hne (A GC)).
  - exact (HP_frame X T pre c e c' S Xm D Hne (A GP)).
  - exact (HO_frame X T pre c e c' S D Hne (A GO)).
Qed.
Lemma HT_frame T pre c e c' :
  HT T pre c -> same_but None c c' -> (forall Y, ev_grp e <> Some (T, Y)) -> HT T (pre ++ [e]) c'.
Proof.
  intros A S He. revert A. apply (HT_upd None); [exact S | discriminate | intros Y Hq; destruct (He Y Hq) | discriminate].
Qed.
Lemma HT_own Y T pre c e c' :
  HT T pre c -> same_but (Some Y) c c' -> Y <> GM -> ev_grp e = Some (T, Y) -> inv Y T (pre ++ [e]) c' ->
  HT T (pre ++ [e]) c'.
Proof.
  intros A S Ym He Hy. revert A. apply (HT_upd (Some Y)); [exact S | congruence | congruence |].
  intros Z Hq. inversion Hq. subst Z. exact Hy.
Qed.

Lemma ho_commit_call pre v T cz c : HG pre v -> HO T pre c ->
  HO T (pre ++ [ECommitCall T cz]) (setn (setn (setn c FCalled 1) FCausal (if cz then 1 else 0)) FWm (v_tso v)).
Proof.
  intros G [O1 O2]. constructor; cbn [cn setn fld_eqb].
  - in_pre. eauto.
  - intros pre1 pre2 cz0 Hd Hno. apply snoc_split in Hd. destruct Hd as [(-> & Hd & ->) | (q & -> & ->)].
    + injection Hd as ->. split; [discriminate |]. split; [| exact (g_tso _ _ G)].
      destruct cz; split; intros Hq; try reflexivity; try discriminate; destruct (Hq eq_refl).
    + destruct (Hno cz). apply in_last.
Qed.
Lemma ho_rb_send pre T r ks c : HO T pre c -> HO T (pre ++ [ERbSend r T ks]) (setn c FDead 1).
Proof.
  intros [O1 O2]. constructor; cbn [cn setn fld_eqb]; [discriminate |].
  apply last_call_snoc; [discriminate | exact O2].
Qed.
Lemma ho_told pre T t c : HO T pre c -> HO T (pre ++ [ETold T t]) (told_rec c t).
Proof.
  intros [O1 O2]. constructor.
  - intros r ks H. snoc_in H. destruct t; cbn [told_rec cn setn fld_eqb]; [eauto | discriminate ..].
  - destruct t; cbn [told_rec cn setn fld_eqb]; (apply last_call_snoc; [discriminate | exact O2]).
Qed.

Lemma hm_mutations pre T p ms c : cn c FHasm = 0 -> In p (lock_keys ms) -> HM T pre c ->
  HM T (pre ++ [EMutations T p ms]) (set_muts (setn (setn c FHasm 1) FPrim p) (lock_keys ms) (map fst ms)).
Proof.
  intros Hh Hlk M p0 ms0 H. cbn [cn setn fld_eqb c_lm set_muts]. apply in_snoc in H. destruct H as [H | H].
  - destruct (M _ _ H) as [Hx _]. contradiction.
  - inversion H; subst. repeat split; [discriminate | exact Hlk].
Qed.

(* before its mutations are logged a transaction has sent no commit request at all *)
Lemma hc_mutations pre v T p ms c : HG pre v -> cn c FHasm = 0 -> cn c FPcSent = 0 -> HC T pre c ->
  HC T (pre ++ [EMutations T p ms]) (set_muts (setn (setn c FHasm 1) FPrim p) (lock_keys ms) (map fst ms)).
Proof.
  intros G Hh Hpc [C1 C2 C3 C4 C5 C6 C7 C8].
  assert (NS : forall r C ks, ~ In (ECmSend r T C ks) pre).
  { intros r C ks Hi. rewrite Hh, Hpc in C4. cbn [N.eqb] in C4.
    assert (Hz : count_if (is_cm_send T) pre = 0%nat) by lia.
    pose proof (count_if_zero _ _ Hz _ Hi) as Hf. cbn [is_cm_send] in Hf. rewrite N.eqb_refl in Hf. discriminate. }
  assert (NG : forall e, In e pre -> ev_grp e <> Some (T, GC)).
  { intros e He Hq. destruct e; try discriminate Hq; inversion Hq; subst;
      [| apply (reply_has_send _ _ _ _ _ _ _ G) in He]; exact (NS _ _ _ He). }
  destruct (C1 Hh) as (Z1 & Z2 & Z3 & Z4).
  constructor; cbn [cn setn fld_eqb set_muts N.eqb].
  - discriminate.
  - congruence.
  - intros _ _ r C ks H. snoc_in H. destruct (NG _ H). reflexivity.
  - rewrite count_if_snoc, count_if_none, Hpc; [reflexivity |]. intros e He. apply notG_pc_send, NG, He.
  - intros _. rewrite count_if_snoc, count_if_none, Z2; [reflexivity |]. intros e He. apply notG_pc_neg, NG, He.
  - intros _. rewrite count_if_snoc, count_if_none, Z3; [reflexivity |]. intros e He. apply notG_pc_reply, NG, He.
  - congruence.
  - intros _ r C ks H. snoc_in H. destruct (NS _ _ _ H).
Qed.
(* ... and every min-commit ts answered so far is accounted for, whatever the keys *)
Lemma hp_mutations pre T p ms c : cn c FHasm = 0 -> HP T pre c ->
  HP T (pre ++ [EMutations T p ms]) (set_muts (setn (setn c FHasm 1) FPrim p) (lock_keys ms) (map fst ms)).
Proof.
  intros Hh P. apply (HP_frame None T pre c (EMutations T p ms) c (same_but_refl _ _)) in P; try discriminate.
  destruct P as []. constructor; auto.
  intros r ks m o H _. eauto.
Qed.

Lemma set1_ne0 (b : bool) x : b = true \/ x <> 0 -> (if b then 1 else x) <> 0.
Proof. destruct b; intros [H | H]; auto; discriminate. Qed.
Lemma set1_inv (b : bool) x : (if b then 1 else x) <> 0 -> b = true \/ x <> 0.
Proof. destruct b; auto. Qed.

Lemma hp_pw_send pre T r p ks a o m f secs c :
  HP T pre c -> HP T (pre ++ [EPwSend r T p ks a o m f secs]) (pw_send_rec c ks a o).
Proof.
  intros [P1 P2 P3 P4 P5 P6 P7 P8 P9 P10 P11 P12 P13 P14 P15 P16].
  destruct (pw_send_rec_lists c ks a o) as (Elm & Epw & Ekl).
  pose proof (in_last (EPwSend r T p ks a o m f secs) pre) as Hl.
  constructor; unfold kcnt; rewrite ?pw_send_rec_cn, ?Elm, ?Epw, ?Ekl; cbv iota; auto.
  - intros H. apply set1_inv in H. destruct H as [-> | H]; [do 7 eexists; exact Hl | auto].
  - in_pre; apply set1_ne0; [right; eauto | left; congruence].
  - intros H. apply set1_inv in H. destruct H as [-> | H]; [do 7 eexists; exact Hl | auto].
  - in_pre; apply set1_ne0; [right; eauto | left; congruence].
  - rewrite count_if_snoc. cbn [is_pw_send]. rewrite N.eqb_refl. lia.
  - rewrite count_if_snoc. cbn [is_pw_reply]. lia.
  - intros r0 ks0 m0 o0 H Hx. snoc_in H. eauto.
  - intros k. rewrite kcnt_l_add_same, sum_of_snoc. cbn [pw_send_occ]. rewrite N.eqb_refl.
    specialize (P11 k). unfold kcnt in P11. lia.
  - intros k. rewrite kcnt_l_add_other, sum_of_snoc by reflexivity. cbn [pw_negreply_occ].
    rewrite Nat.add_0_r. exact (P12 k).
  - intros H. apply set1_inv in H. destruct H as [Ha | H]; [| auto].
    left. destruct a; [discriminate Ha |]. do 7 eexists. exact Hl.
  - intros r0 p0 ks0 o0 m0 f0 secs0 H. apply set1_ne0. snoc_in H; [right; eauto | left; inversion H; reflexivity].
  - in_pre. apply set1_ne0. right. eauto.
  - intros H. apply set1_inv in H. destruct H as [Ho | H]; [| auto].
    left. destruct o; [discriminate Ho |]. do 7 eexists. exact Hl.
Qed.

Lemma hp_pw_reply pre T r ks x c :
  HP T pre c -> HP T (pre ++ [EPwReply r T ks x]) (pw_reply_rec c ks x).
Proof.
  intros [P1 P2 P3 P4 P5 P6 P7 P8 P9 P10 P11 P12 P13 P14 P15 P16].
  pose proof (in_last (EPwReply r T ks x) pre) as Hl. destruct x as [m o | kd |].
  (* a negative reply is only counted *)
  2, 3: (constructor; unfold kcnt; cbn [pw_reply_rec cn setn incn fld_eqb c_lm c_pwok c_kl add_kl]; auto;
     [ in_pre; eauto
     | in_pre; eauto
     | rewrite count_if_snoc; cbn [is_pw_send]; lia
     | rewrite count_if_snoc; cbn [is_pw_reply]; rewrite N.eqb_refl; lia
     | intros r0 ks0 m0 o0 H Hx; snoc_in H; eauto
     | intros k; rewrite !kcnt_l_add_other, sum_of_snoc by reflexivity; cbn [pw_send_occ];
       rewrite Nat.add_0_r; exact (P11 k)
     | intros k; rewrite kcnt_l_add_same, kcnt_l_add_other, sum_of_snoc by reflexivity;
       cbn [pw_negreply_occ is_pwneg]; rewrite N.eqb_refl; cbn [andb]; specialize (P12 k); unfold kcnt in P12; lia
     | in_pre; eauto
     | in_pre; eauto ]).
  destruct (pw_reply_rec_lists c ks m o) as (Elm & Epw & Ekl).
  (* the new reply raises FMinc whenever its min-commit ts counts *)
  assert (Hlk : (cn c FHasm = 0 \/ exists k, In k ks /\ In k (c_lm c)) ->
                negb (fb c FHasm) || existsb (fun k => mem k (c_lm c)) ks = true).
  { intros [Hx | (k & K1 & K2)]; [apply fb_false in Hx; rewrite Hx; reflexivity |].
    apply orb_true_iff. right. apply existsb_exists. exists k. split; [exact K1 | apply mem_In; exact K2]. }
  constructor; unfold kcnt; rewrite ?pw_reply_rec_cn, ?Elm, ?Epw, ?Ekl; cbv iota; auto.
  - intros k Hk. apply in_app_or in Hk. destruct Hk as [Hk | Hk]; [exists r, ks, m, o; auto | auto].
  - in_pre. eauto.
  - in_pre. eauto.
  - rewrite count_if_snoc. cbn [is_pw_send]. lia.
  - rewrite count_if_snoc. cbn [is_pw_reply]. rewrite N.eqb_refl. lia.
  - intros r0 ks0 m0 o0 H Hx. snoc_in H.
    + specialize (P8 _ _ _ _ H Hx). destruct (negb _ || _); lia.
    + inversion H; subst. rewrite (Hlk Hx). lia.
  - destruct (negb _ || _); [| auto]. intros Hx.
    destruct (N.max_spec (cn c FMinc) m) as [[_ Hq] | [_ Hq]]; rewrite Hq in *; [exists r, ks, o; exact Hl | auto].
  - destruct (o =? 0); [auto | intros _; exists r, ks, m; exact Hl].
  - intros k. rewrite kcnt_l_add_other, sum_of_snoc by reflexivity. cbn [pw_send_occ]. rewrite Nat.add_0_r. exact (P11 k).
  - intros k. rewrite kcnt_l_add_other, sum_of_snoc by reflexivity. cbn [pw_negreply_occ is_pwneg].
    rewrite andb_false_r, Nat.add_0_r. exact (P12 k).
  - intros H. apply set1_inv in H. destruct H as [H | H]; [| auto].
    apply orb_true_iff in H. destruct H as [H | H].
    + apply N.eqb_eq in H. subst m. right. left. exists r, ks, o. exact Hl.
    + apply andb_true_iff in H. destruct H as [_ H]. apply andb_true_iff in H. destruct H as [H _].
      apply fb_true in H. right. right. auto.
  - in_pre. apply set1_ne0. right. eauto.
  - intros r0 ks0 o0 H. apply set1_ne0. snoc_in H; [right; eauto | left; inversion H; reflexivity].
  - intros H. apply set1_inv in H. destruct H as [H | H]; [| auto].
    apply N.eqb_eq in H. subst o. right. exists r, ks, m. exact Hl.
Qed.

Lemma hc_cm_send pre T r C ks c :
  HC T pre c -> (cn c FHasm <> 0 -> T < C) ->
  HC T (pre ++ [ECmSend r T C ks])
     (if negb (fb c FHasm) || mem (cn c FPrim) ks then incn c FPcSent else c).
Proof.
  intros [C1 C2 C3 C4 C5 C6 C7 C8] Hts.
  assert (Hcm : cn c FHasm <> 0 -> forall r0 C0 ks0, In (ECmSend r0 T C0 ks0) (pre ++ [ECmSend r T C ks]) -> T < C0).
  { intros Hh r0 C0 ks0 H. snoc_in H; [eauto | inversion H; subst; auto]. }
  unfold fb. rewrite negb_involutive.
  destruct (cn c FHasm =? 0) eqn:Eh; [| destruct (mem (cn c FPrim) ks) eqn:Em]; cbn [orb];
    (constructor; cbn [cn setn incn fld_eqb]; rewrite ?Eh; auto;
     [ in_pre; eauto
     | rewrite count_if_snoc; cbn [is_cm_send is_pc_send]; rewrite N.eqb_refl, ?Em; cbn [andb]; lia
     | intros Hh; rewrite count_if_snoc; cbn [is_pc_neg]; rewrite Nat.add_0_r; auto
     | intros Hh; rewrite count_if_snoc; cbn [is_pc_reply]; rewrite Nat.add_0_r; auto ]).
Qed.

Lemma hc_cm_reply_prim pre T r C ks x c :
  HC T pre c -> cn c FHasm <> 0 -> mem (cn c FPrim) ks = true -> (x = CmOk -> C <> 0) ->
  HC T (pre ++ [ECmReply r T C ks x]) (cm_reply_rec c C x).
Proof.
  intros [C1 C2 C3 C4 C5 C6 C7 C8] Hh Hm HC.
  pose proof (proj1 (mem_In _ _) Hm) as Hin. pose proof (in_last (ECmReply r T C ks x) pre) as Hl.
  pose proof (proj2 (N.eqb_neq _ _) Hh) as Eh. rewrite Eh in C4.
  constructor; rewrite ?cm_reply_rec_cn, ?Eh; cbv iota.
  - contradiction.
  - destruct x; cbn [is_cmok]; auto. intros _. exists r, ks. split; [exact Hl | exact Hin].
  - intros _ H0 r0 C0 ks0 H. destruct x; cbn [is_cmok] in H0; [destruct (HC eq_refl H0) | ..]; (snoc_in H; eauto).
  - rewrite count_if_snoc. cbn [is_pc_send]. rewrite Nat.add_0_r. exact C4.
  - intros _. rewrite count_if_snoc. cbn [is_pc_neg]. rewrite N.eqb_refl, Hm. specialize (C5 Hh).
    destruct x; cbn [is_cmok negb andb]; lia.
  - intros _. rewrite count_if_snoc. cbn [is_pc_reply]. rewrite N.eqb_refl, Hm. specialize (C6 Hh). cbn [andb]. lia.
  - destruct x; cbv iota; auto. intros _. exists r, C, ks. split; [exact Hl | exact Hin].
  - in_pre. eauto.
Qed.

Lemma hc_cm_reply_other pre T r C ks x c :
  HC T pre c -> has_prim c ks = false -> HC T (pre ++ [ECmReply r T C ks x]) c.
Proof.
  intros [C1 C2 C3 C4 C5 C6 C7 C8] Hp.
  assert (Hm : cn c FHasm <> 0 -> mem (cn c FPrim) ks = false).
  { intros Hh. unfold has_prim in Hp. apply fb_true in Hh. rewrite Hh in Hp. exact Hp. }
  constructor; auto.
  - intros Hh H0 r0 C0 ks0 H. snoc_in H; [eauto |]. inversion H; subst.
    intros Hi. apply mem_In in Hi. rewrite (Hm Hh) in Hi. discriminate.
  - rewrite count_if_snoc_false; [exact C4 |]. destruct (cn c FHasm =? 0); reflexivity.
  - intros Hh. rewrite count_if_snoc_false; auto. cbn [is_pc_neg]. rewrite (Hm Hh), andb_false_r. reflexivity.
  - intros Hh. rewrite count_if_snoc_false; auto. cbn [is_pc_reply]. rewrite (Hm Hh). apply andb_false_r.
  - in_pre. eauto.
Qed.

Definition H (pre : list event) (v : view) : Prop := HG pre v /\ forall T, HT T pre (vgetc v T).

Lemma H_init : H [] (view_of init).
Proof. split; [apply HG_init | intros T; apply HT_init]. Qed.

Lemma vgetc_vput v oc T :
  vgetc (vput v oc) T = match oc with Some (T0, c) => if T0 =? T then c else vgetc v T | None => vgetc v T end.
Proof. destruct oc as [[T0 c] |]; reflexivity. Qed.

Lemma HT_other T0 T pre c e :
  (T0 =? T) = false -> (forall T1 Y, ev_grp e = Some (T1, Y) -> T1 = T0) -> HT T pre c -> HT T (pre ++ [e]) c.
Proof.
  intros E He A. apply (HT_frame _ _ _ _ _ A (same_but_refl _ _)).
  intros Y Hq. apply He in Hq. subst. rewrite N.eqb_refl in E. discriminate.
Qed.

(* [split_T]: the record of T0 was replaced, is T that transaction?  [oth]: the event belongs to another
   transaction; [own]: an event of class X of T0: its record update stays within the class, and the
   part of class X holds again *)
Ltac split_T T0 T := let E := fresh "E" in destruct (T0 =? T) eqn:E; [apply N.eqb_eq in E; subst T | ].
Ltac oth A T0 T := apply (HT_other T0); [eassumption | intros ? ? Hq; inversion Hq; reflexivity | exact (A T)].
Ltac own A T0 X := apply (HT_own X _ _ _ _ _ (A T0)); [| discriminate | reflexivity |].

Lemma HT_step pre v e oc : H pre v -> guard v e -> cl_step v e oc -> forall T, HT T (pre ++ [e]) (vgetc (vput (vnet v e) oc) T).
Proof.
  intros [G A] Gd Cl T. rewrite vgetc_vput. change (vgetc (vnet v e) T) with (vgetc v T).
  destruct (ev_grp e) as [[T0 X] |] eqn:Eg.
  2: { apply (HT_frame _ _ (vgetc v T)); [exact (A T) | | intros Y; rewrite Eg; discriminate].
       destruct oc as [[T0 c] |]; [destruct (N.eqb_spec T0 T) as [-> |] |]; try apply same_but_refl.
       exact (cl_step_untracked _ _ _ _ Eg Cl). }
  destruct e; try discriminate Eg; clear Eg; cbn [cl_step guard] in Cl, Gd; cbv zeta in Cl, Gd.
  - subst oc. split_T s T; [| oth A s T].
    own A s GO; [sb_tac |].
    apply ho_commit_call; [exact G | exact (A s GO)].
  - destruct Gd as (Hh & Hpw & Hpc & Hlk). apply fb_false in Hh. subst oc. split_T s T; [| oth A s T].
    intros []; cbn [inv].
    + apply hm_mutations; auto. exact (A s GM).
    + apply (hc_mutations _ v); auto. exact (A s GC).
    + apply hp_mutations; auto. exact (A s GP).
    + apply (HO_frame (Some GM) _ _ (vgetc v s)); [sb_tac | discriminate | discriminate | exact (A s GO)].
  - subst oc. split_T s T; [| oth A s T].
    own A s GP; [apply pw_send_same |].
    apply hp_pw_send. exact (A s GP).
  - subst oc. split_T s T; [| oth A s T].
    own A s GP; [apply pw_reply_same |].
    apply hp_pw_reply. exact (A s GP).
  - assert (Hc : HC s (pre ++ [ECmSend r s c ks]) (if negb (fb (vgetc v s) FHasm) || mem (cn (vgetc v s) FPrim) ks then incn (vgetc v s) FPcSent else vgetc v s)).
    { apply hc_cm_send; [exact (A s GC) |]. intros Hh. apply fb_true in Hh. apply (proj2 Gd Hh). }
    destruct (negb (fb (vgetc v s) FHasm) || mem (cn (vgetc v s) FPrim) ks); subst oc.
    + split_T s T; [| oth A s T]. own A s GC; [sb_tac | exact Hc].
    + split_T s T; [| oth A s T]. own A s GC; [apply same_but_refl | exact Hc].
  - destruct (has_prim (vgetc v s) ks) eqn:Hp; subst oc.
    + split_T s T; [| oth A s T].
      unfold has_prim in Hp. apply andb_true_iff in Hp. destruct Hp as [Hh Hm]. apply fb_true in Hh.
      own A s GC; [destruct res; sb_tac |].
      apply hc_cm_reply_prim; auto; [exact (A s GC) |].
      intros _. pose proof (g_sent _ _ G _ (g_dlv _ _ G _ Gd)) as Hsd.
      pose proof (t_cmts _ _ _ (A s GC) Hh _ _ _ Hsd). lia.
    + split_T s T; [| oth A s T].
      own A s GC; [apply same_but_refl |].
      apply hc_cm_reply_other; [exact (A s GC) | exact Hp].
  - subst oc. split_T s T; [| oth A s T].
    own A s GO; [sb_tac |].
    apply ho_rb_send. exact (A s GO).
  - subst oc. split_T s T; [| oth A s T].
    own A s GO; [destruct res; sb_tac |].
    apply ho_told. exact (A s GO).
Qed.
