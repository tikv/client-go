(* Percolator/Async.v — invariants of an async-commit transaction that has not fallen back.
   The transaction is committed exactly when every locked mutation has been prewritten ("sealed");
   its commit ts is then the maximum of the min-commit ts of its locks (cstar), which no later event
   can change; it is dead (NSa) when some locked mutation can never be locked. *)
From Verif Require Export Percolator.OnePC2.

(* no prewrite request of T was applied as a one-phase commit *)
Definition no1pc (s : sys) (T : N) : Prop := forall r ks m o, In (EPwReply r T ks (PwOk m o)) (s_dlv s) -> o = 0.
(* async commit in force: tried, never given up by the owner (FFb), never declined by the store (FStFb);
   1PC may have been requested as well and abandoned (re-split), as long as it never took effect *)
Definition asyncm (s : sys) (T : N) : Prop :=
  hasm s T /\ F s T FTriedA <> 0 /\ no1pc s T /\ F s T FFb = 0 /\ F s T FStFb = 0.

Lemma no1pc_incl : forall s s' T, incl (s_dlv s) (s_dlv s') -> no1pc s' T -> no1pc s T.
Proof. intros s s' T I N r ks m o H. apply (N r ks m o). apply I. auto. Qed.
Lemma no1pc_back : forall s e s' T, stepr s e = Ok s' -> no1pc s' T -> no1pc s T.
Proof. intros s e s' T H. apply no1pc_incl. eapply stepr_dlv_incl; eauto. Qed.

Definition lam0 (s : sys) (T k : N) : N := match lamk s T k with Some m => m | None => 0 end.
Definition cstar (s : sys) (T : N) : N := fold_right (fun k acc => N.max (lam0 s T k) acc) 0 (lm s T).
Definition Sealed (s : sys) (T : N) : Prop := forall k, In k (lm s T) -> lamk s T k <> None.
Definition NSa (s : sys) (T : N) : Prop :=
  exists k0, In k0 (lm s T) /\ lamk s T k0 = None /\
    (kget s T k0 = RolledBack \/
     (kget s T k0 = Unlocked /\ (F s T FTold <> 0 \/ F s T FDead <> 0) /\ kc s T KSent k0 = kc s T KNegD k0)).

Lemma fold_max_ge : forall (f : N -> N) l k, In k l -> f k <= fold_right (fun k acc => N.max (f k) acc) 0 l.
Proof. induction l as [| a l IH]; intros k H; [destruct H |]. cbn [fold_right]. destruct H as [-> | H]; [lia | specialize (IH k H); lia]. Qed.
Lemma fold_max_le : forall (f : N -> N) l b, (forall k, In k l -> f k <= b) -> fold_right (fun k acc => N.max (f k) acc) 0 l <= b.
Proof.
  induction l as [| a l IH]; intros b H; cbn [fold_right]; [lia |].
  assert (A : f a <= b) by (apply H; left; auto). assert (B : fold_right (fun k acc => N.max (f k) acc) 0 l <= b) by (apply IH; intros; apply H; right; auto). lia.
Qed.
Lemma cstar_ge : forall s T k m, In k (lm s T) -> lamk s T k = Some m -> m <= cstar s T.
Proof. intros s T k m H E. unfold cstar. pose proof (fold_max_ge (lam0 s T) _ _ H) as A. unfold lam0 in A at 1. rewrite E in A. auto. Qed.
Lemma cstar_le : forall s T b, (forall k m, In k (lm s T) -> lamk s T k = Some m -> m <= b) -> cstar s T <= b.
Proof.
  intros s T b H. unfold cstar. apply fold_max_le. intros k Hk. unfold lam0. destruct (lamk s T k) eqn:E; [eapply H; eauto | lia].
Qed.
Lemma Sealed_NSa : forall s T, Sealed s T -> NSa s T -> False.
Proof. intros s T S [k0 [K1 [K2 _]]]. apply (S k0 K1). auto. Qed.

Record ainv (s : sys) (T : N) : Prop := {
  a_send : forall r p ks a o m f secs, In (EPwSend r T p ks a o m f secs) (s_sent s) -> a = true;
  a_entry : forall r ks m o, In (EPwReply r T ks (PwOk m o)) (s_dlv s) ->
            o = 0 /\ m <> 0 /\ forall k, In k ks -> lamk s T k = Some m \/ kget s T k = Committed m;
  a_1pcts : F s T F1pcTs = 0;
  a_lam : forall k m, lamk s T k = Some m -> m <> 0;
  a_cnt : forall k, kc s T KDlv k <= kc s T KSent k /\ kc s T KNeg k <= kc s T KNegD k;
  a_commit : forall k c, kget s T k = Committed c -> Sealed s T /\ c = cstar s T;
  a_rb : forall k, In k (lm s T) -> kget s T k = RolledBack -> NSa s T;
  a_cmsent : forall r C ks, In (ECmSend r T C ks) (s_sent s) -> Sealed s T /\ C = cstar s T;
  a_rsk : forall C p, In (T, C, JKey p) (s_rs s) -> p = prim s T;
  a_rsa : forall C, In (T, C, JAsync) (s_rs s) -> (C <> 0 -> Sealed s T /\ C = cstar s T) /\ (C = 0 -> NSa s T);
  a_ctsl : forall r p ttl m secs, In (ECtsReply r T p (StLocked ttl m true secs)) (s_dlv s) ->
           p = prim s T /\ lamk s T p = Some m /\ forall k, In k secs <-> (In k (lm s T) /\ k <> p);
  a_csll : forall r ks l, In (ECslReply r T ks (CslLocks l)) (s_dlv s) ->
           (forall k M, In (k, M) l -> lamk s T k = Some M) /\ (forall k, In k ks -> exists M, In (k, M) l);
  a_cslc : forall r ks C, In (ECslReply r T ks (CslCommit C)) (s_dlv s) ->
           (C <> 0 -> Sealed s T /\ C = cstar s T) /\ (C = 0 -> NSa s T);
  a_cslsent : forall r ks, In (ECslSend r T ks) (s_sent s) -> forall k, In k ks -> In k (lm s T);
  a_minc : forall k, In k (lm s T) -> In k (pwok s T) ->
           exists m, m <= F s T FMinc /\ (lamk s T k = Some m \/ kget s T k = Committed m);
  a_minc2 : F s T FMinc = 0 \/ exists k, In k (lm s T) /\ (lamk s T k = Some (F s T FMinc) \/ kget s T k = Committed (F s T FMinc));
  a_dead : (F s T FTold = 3 \/ exists r ks, In (ERbSend r T ks) (s_sent s)) -> NSa s T;
  a_told : F s T FTold = 1 -> Sealed s T /\ forall k, In k (call s T) -> kc s T KSent k = kc s T KRep k
}.

Section ACons.
  Variables (s : sys) (T : N).
  Hypothesis L : linv s T.
  Hypothesis A : ainv s T.
  Lemma a_one_ts : forall k1 k2 c1 c2, kget s T k1 = Committed c1 -> kget s T k2 = Committed c2 -> c1 = c2.
  Proof. intros k1 k2 c1 c2 H1 H2. destruct (a_commit _ _ A _ _ H1) as [_ E1]. destruct (a_commit _ _ A _ _ H2) as [_ E2]. congruence. Qed.
  Lemma a_all_or_nothing : forall k1 k2 c, kget s T k1 = Committed c -> In k2 (lm s T) -> kget s T k2 <> RolledBack.
  Proof. intros k1 k2 c H1 H2 H3. destruct (a_commit _ _ A _ _ H1) as [S _]. eapply Sealed_NSa; eauto. eapply a_rb; eauto. Qed.
  (* once sealed, every locked mutation is locked with its recorded min-commit ts or committed at cstar *)
  Lemma a_sealed_keys : Sealed s T -> forall k, In k (lm s T) ->
    (exists m, kget s T k = Locked m /\ lamk s T k = Some m /\ m <= cstar s T) \/ kget s T k = Committed (cstar s T).
  Proof.
    intros S k Hk. destruct (kget s T k) eqn:E.
    - exfalso. specialize (S k Hk). destruct (lamk s T k) eqn:El; [| contradiction]. eapply (l_nu _ _ L); eauto.
    - left. exists m. pose proof (l_locked _ _ L _ _ E) as El. repeat split; auto. eapply cstar_ge; eauto.
    - right. destruct (a_commit _ _ A _ _ E) as [_ ->]. auto.
    - exfalso. eapply Sealed_NSa; eauto. eapply a_rb; eauto.
  Qed.
  Lemma a_nsa_no_commit : NSa s T -> forall k c, kget s T k <> Committed c.
  Proof. intros N k c E. destruct (a_commit _ _ A _ _ E) as [S _]. eapply Sealed_NSa; eauto. Qed.
End ACons.
