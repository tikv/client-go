(* Percolator/Mixed2.v — all layers together after every accepted trace; C02 / C03 for transactions
   with a non-async lock on a locked mutation (fallen back to / never left two-phase commit). *)
From Verif Require Export Percolator.Mixed.

Definition Full (s : sys) : Prop :=
  Inv s /\ Linv s /\ Zinv s /\ Yinv s /\ Pinv s /\ Uinv s /\ Vinv s /\ Minv s.

Lemma full_init : Full init.
Proof.
  split; [apply inv_init |]. split; [apply linv_init |]. split; [intros T; apply l0inv_init |]. split; [intros T; apply l1inv_init |].
  split; [intros T; apply pcinv_init |].
  split; [intros T Hh; exfalso; apply Hh; reflexivity |]. split; [intros T Hh; exfalso; apply Hh; reflexivity |].
  intros T [Hh _]. exfalso. apply Hh. reflexivity.
Qed.

Lemma full_stepr : forall s e s', Full s -> stepr s e = Ok s' -> Full s'.
Proof.
  intros s e s' [HI [HL [HZ [HY [HP [HU [HV HM]]]]]]] H.
  assert (HI' : Inv s') by exact (inv_stepr _ _ _ HI H).
  assert (HL' : Linv s') by exact (linv_stepr _ _ _ HI HL H).
  assert (HP' : Pinv s') by (intros T; exact (pcinv_stepr _ _ _ T HI H (HP T))).
  assert (HU' : Uinv s') by exact (uinv_stepr _ _ _ HI HL HZ HY HP HU H).
  assert (HW' : Winv s') by exact (winv_stepr _ _ _ HI HL HZ HY HP HU (winv_of _ HV HM) H).
  split; auto. split; auto. split; [intros T; exact (l0inv_stepr _ _ _ T HI H (HZ T)) |].
  split; [intros T; exact (l1inv_stepr _ _ _ T HI HL H (HY T)) |]. split; auto. split; auto.
  split; [exact (winv_vinv _ HI' HP' HU' HW') | exact (winv_minv _ HW')].
Qed.

Lemma full_run_from : forall evs s s', Full s -> run_from s evs = Some s' -> Full s'.
Proof. exact (run_from_preserved Full full_stepr). Qed.
Lemma full_run : forall evs s, run evs = Some s -> Full s.
Proof. intros evs s H. eapply full_run_from; [apply full_init | exact H]. Qed.

Lemma run_from_lam : forall evs s s' T k m, Full s -> run_from s evs = Some s' -> lamk s T k = Some m -> lamk s' T k = Some m.
Proof.
  intros evs s s' T k m Fs H El.
  apply (run_from_preserved (fun x => Full x /\ lamk x T k = Some m)) with (evs := evs) (s := s) (s' := s'); auto.
  intros x e x' [Fx Ex] E. split; [exact (full_stepr _ _ _ Fx E) |].
  destruct Fx as [_ [HL _]]. exact (proj1 (stepr_lam _ _ _ T k E (HL T)) _ Ex).
Qed.

Section MixedAtomic.
  Variables (s : sys) (T : N).
  Hypothesis Fs : Full s.
  Hypothesis Mx : mixed s T.
  Let HI : Inv s := proj1 Fs.
  Let G : ginv s T := proj1 (HI T).
  Let Hh : hasm s T := proj1 Mx.
  Let PC : pcinv s T := proj1 (proj2 (proj2 (proj2 (proj2 Fs)))) T.
  Let U : uinv s T := proj1 (proj2 (proj2 (proj2 (proj2 (proj2 Fs))))) T Hh.
  Let M : minv s T := proj2 (proj2 (proj2 (proj2 (proj2 (proj2 (proj2 Fs)))))) T Mx.

  Lemma mx_one_ts : forall k1 k2 c1 c2, kget s T k1 = Committed c1 -> kget s T k2 = Committed c2 -> c1 = c2.
  Proof. intros k1 k2 c1 c2 H1 H2. apply (m_one _ _ M) in H1. apply (m_one _ _ M) in H2. congruence. Qed.

  Lemma mx_Dd_not_committed : Dd s T -> forall c, kget s T (prim s T) <> Committed c.
  Proof.
    intros [D | [[D1 D2] | [k [D1 [D2 D3]]]]] c HC.
    - congruence.
    - apply (m_pcommit _ _ M) in HC. destruct (pc_cnt _ _ PC Hh) as [A1 [A2 A3]]. unfold F in *. lia.
    - apply D3. apply (g_pwok _ _ G). eapply (committed_pwok s T Hh PC U M); eauto.
  Qed.

  Lemma mx_all_or_nothing : forall k1 k2 c, kget s T k1 = Committed c -> In k2 (lm s T) -> kget s T k2 <> RolledBack.
  Proof.
    intros k1 k2 c H1 H2 H3. apply (m_one _ _ M) in H1. eapply mx_Dd_not_committed; eauto. eapply (u_rb _ _ U); eauto.
  Qed.

  Lemma mx_committed_keys : forall c, kget s T (prim s T) = Committed c ->
    forall k, In k (lm s T) -> kget s T k = Committed c \/ exists m, kget s T k = Locked m.
  Proof.
    intros c HP. apply (committed_keys_of s T G mx_one_ts mx_all_or_nothing c HP).
    intros k Hk. apply (g_pwok _ _ G). eapply (committed_pwok s T Hh PC U M); eauto.
  Qed.

  Lemma mx_told_ok : F s T FTold = 1 -> exists c, kget s T (prim s T) = Committed c /\
    (forall k, In k (lm s T) -> kget s T k = Committed c \/ exists m, kget s T k = Locked m) /\
    forall evs' s', run_from s evs' = Some s' -> F s' T FTold = 1 /\ kget s' T (prim s' T) = Committed c.
  Proof.
    intros Ht. destruct (m_told_ok _ _ M Ht) as [c HP]. exists c. split; auto.
    split; [apply mx_committed_keys; auto | apply told_ok_persists; auto].
  Qed.

  Lemma mx_told_err_now : F s T FTold = 3 -> forall k c, kget s T k <> Committed c.
  Proof.
    intros Ht k c HC. apply (m_one _ _ M) in HC. eapply mx_Dd_not_committed; eauto.
    apply (Dn_Dd_u _ _ U). apply (u_tolderr _ _ U). auto.
  Qed.
End MixedAtomic.

Lemma mixed_persist : forall evs s s' T, Full s -> run_from s evs = Some s' -> mixed s T -> no1pc s' T -> mixed s' T.
Proof.
  intros evs s s' T Fs R [Hh [_ [k0 [K1 K2]]]] N'. destruct (run_from_frozen _ _ _ T R) as [_ A2]. destruct (A2 Hh) as [Hh' [_ El]].
  split; auto. split; auto. exists k0. rewrite El. split; auto. eapply run_from_lam; eauto.
Qed.

Theorem mixed_told_err : forall evs s T evs' s', run evs = Some s -> mixed s T -> F s T FTold = 3 ->
  run_from s evs' = Some s' -> no1pc s' T -> F s' T FTold = 3 /\ forall k c, kget s' T k <> Committed c.
Proof.
  intros evs s T evs' s' R Mx Ht R' N'. pose proof (full_run _ _ R) as Fs. pose proof (full_run_from _ _ _ Fs R') as Fs'.
  destruct (run_from_frozen _ _ _ T R') as [Fz _]. destruct Fz as [E _]; [rewrite Ht; discriminate |].
  assert (Ht' : F s' T FTold = 3) by congruence. split; auto.
  apply (mx_told_err_now s' T Fs' (mixed_persist _ _ _ _ Fs R' Mx N') Ht').
Qed.
