(* Percolator/Props.v — properties C02, C03, C04: the theorems (each closed by [exact] + Print Assumptions) and their
   non-vacuity Examples, nothing else. Proof scripts: ProofsTop.v and the files it exports; example traces: ExData.v.
   Model: System.v (acceptor over the event vocabulary of docs/PERC_EVENTS.md); a trace is any list of
   events; [run evs = Some s] = the acceptor accepts it. Loss = a send without deliver / a deliver
   without reply; duplication, delay, reordering = delivers in any number and order (the commit-point
   request: at most one delivery per send); crash = [ECrash]. [hasm s T] = T's mutations were logged,
   [classic s T] = T never used async commit / 1PC (then no resolve of T can be derived from the
   CheckSecondaryLocks fold: Inv.classic_flags). [F s T FTold] = 1 / 2 / 3 for Commit returning nil / undetermined / error. *)
From Verif Require Import Percolator.ProofsTop Percolator.ExData.
From Coq Require Import Sorting.Sorted Permutation.

(* ---------------- C02: crash atomicity (classic 2PC, optimistic and pessimistic prewrite) ---------------- *)
Theorem C02_atomic : forall evs s T, run evs = Some s -> hasm s T -> classic s T ->
  (* (i) one commit timestamp *)
  (forall k1 k2 c1 c2, kget s T k1 = Committed c1 -> kget s T k2 = Committed c2 -> c1 = c2) /\
  (* (ii) never one key committed and a locked mutation rolled back *)
  (forall k1 k2 c, kget s T k1 = Committed c -> In k2 (lm s T) -> kget s T k2 <> RolledBack) /\
  (* once the primary is committed every locked mutation is committed at that ts or still locked *)
  (forall c, kget s T (prim s T) = Committed c ->
     forall k, In k (lm s T) -> kget s T k = Committed c \/ exists m, kget s T k = Locked m) /\
  (* (iii) told success => primary committed, now and in every accepted extension *)
  (F s T FTold = 1 -> exists c, kget s T (prim s T) = Committed c /\
     forall evs' s', run_from s evs' = Some s' -> F s' T FTold = 1 /\ kget s' T (prim s' T) = Committed c) /\
  (* (iv) told a definite failure => no key is committed, now or in any accepted extension *)
  (F s T FTold = 3 -> forall evs' s', run_from s evs' = Some s' ->
     F s' T FTold = 3 /\ forall k c, kget s' T k <> Committed c).
Proof.
  exact (fun evs s T R Hm Hc =>
    conj (atomic_one_ts evs s T R Hm Hc) (conj (atomic_all_or_nothing evs s T R Hm Hc) (conj (committed_keys evs s T R Hm Hc)
    (conj (fun Ht => ex_drop_mid (told_ok_committed evs s T R Hm Hc Ht)) (told_err_never evs s T R Hm Hc))))).
Qed.
Print Assumptions C02_atomic.

(* the invariant behind it (J1-J6 of docs/DESIGN_ROUND1.md, Appendix B; the rules are those of docs/PERC_EVENTS.md) holds after every accepted trace *)
Theorem C02_invariant : Inv System.init /\ (forall s e s', Inv s -> step s e = Some s' -> Inv s') /\
                        (forall evs s, run evs = Some s -> Inv s).
Proof. exact (conj inv_init (conj inv_step inv_run)). Qed.
Print Assumptions C02_invariant.

(* ---- one-phase commit that has not fallen back: [onepcm s T] = mutations logged, every prewrite request
   asked for 1PC, the store never answered with a fallback (one-pc ts 0). The store applies the request in
   one step, so all keys of the transaction are committed together at the store-chosen ts. ---- *)
Theorem C02_atomic_onepc : forall evs s T, run evs = Some s -> onepcm s T ->
  (forall k1 k2 c1 c2, kget s T k1 = Committed c1 -> kget s T k2 = Committed c2 -> c1 = c2) /\
  (forall k1 k2 c, kget s T k1 = Committed c -> In k2 (lm s T) -> kget s T k2 <> RolledBack) /\
  (forall k c, kget s T k = Committed c -> forall k', In k' (call s T) -> kget s T k' = Committed c) /\
  (F s T FTold = 1 -> exists c, (forall k, In k (call s T) -> kget s T k = Committed c) /\
     forall evs' s', run_from s evs' = Some s' -> forall k, In k (call s T) -> kget s' T k = Committed c) /\
  (F s T FTold = 3 -> forall evs' s', run_from s evs' = Some s' ->
     F s' T FTold = 3 /\ forall k c, kget s' T k <> Committed c).
Proof.
  exact (fun evs s T R Hm =>
    conj (onepc_one_ts evs s T R Hm) (conj (onepc_all_or_nothing evs s T R Hm) (conj (onepc_all_committed evs s T R Hm)
    (conj (onepc_told_ok evs s T R Hm) (onepc_told_err evs s T R Hm))))).
Qed.
Print Assumptions C02_atomic_onepc.

(* ---- async commit that has not fallen back: [asyncm s T] = mutations logged, every prewrite request asked
   for async commit, no reply / delivery reported min-commit 0, no forced fallback, and no prewrite request was
   applied as a one-phase commit ([no1pc]; 1PC may have been requested too and abandoned after a re-split:
   example async1pc_resplit_accepted; while 1PC is still in force and succeeds, C02_atomic_onepc applies).
   [Sealed s T] = every locked mutation has been prewritten; [cstar s T] = max of the min-commit ts of its
   locks (ghost map [lamk], fixed when a key is first locked); [NSa s T] = some locked mutation can never be
   locked. The theorem holds for EVERY accepted trace, hence also after any accepted extension in which T is
   still in async mode (see C02_atomic_async_extension). ---- *)
Theorem C02_atomic_async : forall evs s T, run evs = Some s -> asyncm s T ->
  (* (i) one commit ts, and it is cstar *)
  (forall k c, kget s T k = Committed c -> Sealed s T /\ c = cstar s T) /\
  (* (ii) all or nothing *)
  (forall k1 k2 c, kget s T k1 = Committed c -> In k2 (lm s T) -> kget s T k2 <> RolledBack) /\
  (* the owner's commit requests and every resolver decision carry cstar (resp. roll back only a dead transaction) *)
  (forall r C ks, In (ECmSend r T C ks) (s_sent s) -> Sealed s T /\ C = cstar s T) /\
  (forall r C ks, In (ERsSend r T C ks) (s_sent s) -> (C <> 0 -> Sealed s T /\ C = cstar s T) /\ (C = 0 -> NSa s T)) /\
  (* (iii) told success => sealed: every locked mutation is locked or committed at cstar, every resolver commits at cstar *)
  (F s T FTold = 1 ->
     Sealed s T /\
     (forall k, In k (lm s T) -> (exists m, kget s T k = Locked m /\ m <= cstar s T) \/ kget s T k = Committed (cstar s T)) /\
     (forall r C ks, In (ERsSend r T C ks) (s_sent s) -> C = cstar s T /\ C <> 0)) /\
  (* (iv) told a definite failure => nothing committed, every resolver decision is a rollback *)
  (F s T FTold = 3 -> (forall k c, kget s T k <> Committed c) /\ (forall r C ks, In (ERsSend r T C ks) (s_sent s) -> C = 0)).
Proof.
  exact (fun evs s T R Am =>
    conj (async_commit_ts evs s T R Am) (conj (async_all_or_nothing evs s T R Am) (conj (async_owner_commit evs s T R Am)
    (conj (async_resolver_decision evs s T R Am) (conj (async_told_ok evs s T R Am) (async_told_err evs s T R Am)))))).
Qed.
Print Assumptions C02_atomic_async.

Theorem C02_atomic_async_extension : forall evs s T evs' s', run evs = Some s -> run_from s evs' = Some s' -> asyncm s' T ->
  (F s T FTold = 1 -> F s' T FTold = 1 /\ Sealed s' T /\
     (forall k, In k (lm s' T) -> (exists m, kget s' T k = Locked m /\ m <= cstar s' T) \/ kget s' T k = Committed (cstar s' T))) /\
  (F s T FTold = 3 -> F s' T FTold = 3 /\ forall k c, kget s' T k <> Committed c).
Proof. exact C02_atomic_async_extension_proof. Qed.
Print Assumptions C02_atomic_async_extension.

(* what is NOT covered by C02_atomic / _onepc / _async / _fallback: a transaction that left async commit / 1PC although no
   locked mutation ever got a non-async lock (min-commit 0 answered only for already committed keys or for a request that
   locks nothing; a 1PC request answered "not committed" with a positive min-commit ts), or in which a request was applied
   as 1PC after the owner gave 1PC up. For them only the request-stream rules (C04_accept_sound), C02_fallback_owner_closed
   and the stability of the store's records are proved: *)
Theorem C02_atomic_fallback_partial : forall evs s T evs' s' k, run evs = Some s -> run_from s evs' = Some s' ->
  (forall c, kget s T k = Committed c -> kget s' T k = Committed c) /\ (kget s T k = RolledBack -> kget s' T k = RolledBack).
Proof.
  exact (fun evs s T evs' s' k _ R' =>
    conj (fun c => km_committed s s' T k c (run_from_kmono _ _ _ R')) (km_rolledback s s' T k (run_from_kmono _ _ _ R'))).
Qed.
Print Assumptions C02_atomic_fallback_partial.

(* ... and, in EVERY commit mode (fallen back or not), the owner's own commit point is closed by a definite error:
   commit requests containing the primary are delivered at most once each, so when all of them were refused
   (none sent included: e.g. an async-commit transaction that fell back and failed during prewrite) none has
   succeeded or will ever succeed. What is not proved for fallen-back transactions is that no RESOLVER commits
   them through the CheckSecondaryLocks fold (see docs/PERC_EVENTS.md, "not covered"). *)
Theorem C02_fallback_owner_closed : forall evs s T, run evs = Some s -> hasm s T -> F s T FTold = 3 ->
  F s T FPcNeg = F s T FPcSent ->
  forall evs' s', run_from s evs' = Some s' ->
    F s' T FTold = 3 /\ forall r c ks, In (ECmReply r T c ks CmOk) (s_dlv s') -> ~ In (prim s T) ks.
Proof. exact C02_fallback_owner_closed_proof. Qed.
Print Assumptions C02_fallback_owner_closed.

(* ---- fallen back to (or never left) two-phase commit: [mixed s T] = mutations logged, some locked mutation holds
   or held a lock that is NOT an async-commit lock (its prewrite was answered min-commit 0: ghost map [lamk] = Some 0),
   and no prewrite request was applied as a one-phase commit ([no1pc]). The other keys may hold async-commit locks
   written before the fallback. Then the owner cannot have kept async commit and no resolver can commit through the
   CheckSecondaryLocks fold (a resolver that meets the non-async lock must force CheckTxnStatus on the primary):
   the transaction is a 2PC transaction for everybody. Classic transactions are the special case "all locks non-async". *)
Theorem C02_atomic_fallback : forall evs s T, run evs = Some s -> mixed s T ->
  (forall k1 k2 c1 c2, kget s T k1 = Committed c1 -> kget s T k2 = Committed c2 -> c1 = c2) /\
  (forall k1 k2 c, kget s T k1 = Committed c -> In k2 (lm s T) -> kget s T k2 <> RolledBack) /\
  (forall k c, kget s T k = Committed c -> kget s T (prim s T) = Committed c /\
     forall k', In k' (lm s T) -> kget s T k' = Committed c \/ exists m, kget s T k' = Locked m) /\
  (F s T FTold = 1 -> exists c, kget s T (prim s T) = Committed c /\
     forall evs' s', run_from s evs' = Some s' -> F s' T FTold = 1 /\ kget s' T (prim s' T) = Committed c) /\
  (F s T FTold = 3 -> forall evs' s', run_from s evs' = Some s' -> no1pc s' T ->
     F s' T FTold = 3 /\ forall k c, kget s' T k <> Committed c).
Proof.
  exact (fun evs s T R Mx => let Fs := full_run evs s R in
    conj (mx_one_ts s T Fs Mx) (conj (mx_all_or_nothing s T Fs Mx) (conj (fallback_committed_keys evs s T R Mx)
    (conj (fun Ht => ex_drop_mid (mx_told_ok s T Fs Mx Ht))
          (fun Ht evs' s' R' N' => mixed_told_err evs s T evs' s' R Mx Ht R' N'))))).
Qed.
Print Assumptions C02_atomic_fallback.

(* a locked mutation that currently holds a non-async lock makes the transaction mixed *)
Theorem C02_fallback_when : forall evs s T k, run evs = Some s -> hasm s T -> no1pc s T ->
  In k (lm s T) -> kget s T k = Locked 0 -> mixed s T.
Proof. exact C02_fallback_when_proof. Qed.
Print Assumptions C02_fallback_when.

(* how a transaction becomes mixed: the first prewrite that reaches a (so far unlocked) locked mutation is answered
   min-commit 0 (the store declined async commit / 1PC, or the request did not ask for it); from then on, for ever *)
Theorem C02_fallback_first_decline : forall pre s1 r T ks k s, run pre = Some s1 ->
  step s1 (EPwDeliver r T ks (PwOk 0 0)) = Some s -> In k ks -> kget s1 T k = Unlocked ->
  kget s T k = Locked 0 /\ forall evs' s', run_from s evs' = Some s' -> lamk s' T k = Some 0.
Proof. exact C02_fallback_first_decline_proof. Qed.
Print Assumptions C02_fallback_first_decline.

(* ---------------- C03: truthfulness of Commit's answer under faults ---------------- *)
Theorem C03_truthful : forall evs s T, run evs = Some s -> hasm s T -> classic s T ->
  (F s T FTold = 1 -> exists c, kget s T (prim s T) = Committed c /\
     (forall k, In k (lm s T) -> kget s T k = Committed c \/ exists m, kget s T k = Locked m) /\
     forall evs' s', run_from s evs' = Some s' -> F s' T FTold = 1 /\ kget s' T (prim s' T) = Committed c) /\
  (F s T FTold = 3 -> forall evs' s', run_from s evs' = Some s' ->
     F s' T FTold = 3 /\ forall k c, kget s' T k <> Committed c).
Proof. exact (fun evs s T R Hm Hc => conj (told_ok_committed evs s T R Hm Hc) (told_err_never evs s T R Hm Hc)). Qed.
Print Assumptions C03_truthful.

Theorem C03_truthful_onepc : forall evs s T, run evs = Some s -> onepcm s T ->
  (F s T FTold = 1 -> exists c, (forall k, In k (call s T) -> kget s T k = Committed c) /\
     forall evs' s', run_from s evs' = Some s' -> forall k, In k (call s T) -> kget s' T k = Committed c) /\
  (F s T FTold = 3 -> forall evs' s', run_from s evs' = Some s' -> F s' T FTold = 3 /\ forall k c, kget s' T k <> Committed c).
Proof. exact (fun evs s T R Hm => conj (onepc_told_ok evs s T R Hm) (onepc_told_err evs s T R Hm)). Qed.
Print Assumptions C03_truthful_onepc.

Theorem C03_truthful_async : forall evs s T, run evs = Some s -> asyncm s T ->
  (F s T FTold = 1 ->
     Sealed s T /\
     (forall k, In k (lm s T) -> (exists m, kget s T k = Locked m /\ m <= cstar s T) \/ kget s T k = Committed (cstar s T)) /\
     (forall r C ks, In (ERsSend r T C ks) (s_sent s) -> C = cstar s T /\ C <> 0)) /\
  (F s T FTold = 3 -> (forall k c, kget s T k <> Committed c) /\ (forall r C ks, In (ERsSend r T C ks) (s_sent s) -> C = 0)).
Proof. exact (fun evs s T R Am => conj (async_told_ok evs s T R Am) (async_told_err evs s T R Am)). Qed.
Print Assumptions C03_truthful_async.

Theorem C03_truthful_fallback : forall evs s T, run evs = Some s -> mixed s T ->
  (F s T FTold = 1 -> exists c, kget s T (prim s T) = Committed c /\
     (forall k, In k (lm s T) -> kget s T k = Committed c \/ exists m, kget s T k = Locked m) /\
     forall evs' s', run_from s evs' = Some s' -> F s' T FTold = 1 /\ kget s' T (prim s' T) = Committed c) /\
  (F s T FTold = 3 -> forall evs' s', run_from s evs' = Some s' -> no1pc s' T ->
     F s' T FTold = 3 /\ forall k c, kget s' T k <> Committed c).
Proof.
  exact (fun evs s T R Mx => conj (mx_told_ok s T (full_run evs s R) Mx)
                                (fun Ht evs' s' R' N' => mixed_told_err evs s T evs' s' R Mx Ht R' N')).
Qed.
Print Assumptions C03_truthful_fallback.

Theorem C03_undetermined_only_if : forall evs s, run evs = Some s -> undetermined_only_if evs.
Proof. exact undetermined_only_if_holds. Qed.
Print Assumptions C03_undetermined_only_if.

Theorem C03_fault_free_never_undetermined : forall evs s0 pre post s p ms,
  run evs = Some s0 -> evs = pre ++ ETold s TUndet :: post -> In (EMutations s p ms) pre ->
  (forall r p' ks a o m f secs, In (EPwSend r s p' ks a o m f secs) pre -> a = false /\ o = false) ->
  count_if (is_pc_send s p) pre = count_if (is_pc_reply s p) pre -> False.
Proof. exact fault_free_never_undetermined. Qed.
Print Assumptions C03_fault_free_never_undetermined.

(* ---------------- C04: request-stream rules ---------------- *)
Theorem C04_accept_sound : forall evs s, run evs = Some s ->
  commit_after_all_prewrites evs /\ secondaries_after_primary evs /\
  no_rollback_after_possible_commit evs /\ resolve_uses_reported_status evs /\
  commit_ts_bounds evs /\ expire_only_expired evs /\ told_ok_after_commit evs /\ undetermined_only_if evs /\
  told_err_only_if evs /\ csl_only_listed evs /\ force_only_after_nonasync evs.
Proof. exact accept_sound. Qed.
Print Assumptions C04_accept_sound.

Theorem C04_addKeys_order_independent : forall m0 rs rs',
  Permutation rs rs' -> consistent m0 rs -> fold_replies (AddKeys.init m0) rs = fold_replies (AddKeys.init m0) rs'.
Proof. exact addKeys_order_independent. Qed.
Print Assumptions C04_addKeys_order_independent.

Theorem C04_addKeys_order_independent_ok : forall m0 rs rs' a a',
  Permutation rs rs' -> fold_replies (AddKeys.init m0) rs = Some a -> fold_replies (AddKeys.init m0) rs' = Some a' -> a = a'.
Proof. exact addKeys_order_independent_ok. Qed.
Print Assumptions C04_addKeys_order_independent_ok.

Theorem C04_addKeys_result : forall m0 rs a, fold_replies (AddKeys.init m0) rs = Some a ->
  (missing a = true <-> exists c, In (Missing c) rs) /\
  ((forall c, ~ In (Missing c) rs) -> commit_ts a = max_all m0 rs) /\
  (forall c, In (Missing c) rs -> commit_ts a = c).
Proof. exact addKeys_result. Qed.
Print Assumptions C04_addKeys_result.

(* without the store-consistency hypothesis the ERROR status of the fold depends on the reply order *)
Theorem C04_addKeys_error_order_dependent_refuted : exists m0 rs rs',
  Permutation rs rs' /\ fold_replies (AddKeys.init m0) rs = None /\ fold_replies (AddKeys.init m0) rs' <> None.
Proof. exact addKeys_error_order_dependent_refuted. Qed.
Print Assumptions C04_addKeys_error_order_dependent_refuted.

Theorem C04_heartbeat_ttl : forall managed (ups : list N), 0 < managed -> StronglySorted N.le ups ->
  StronglySorted N.le (map (advise managed) ups) /\ (forall u, In u ups -> u < advise managed u).
Proof. exact heartbeat_ttl. Qed.
Print Assumptions C04_heartbeat_ttl.

(* ---------------- non-vacuity ---------------- *)

Example happy_accepted : exists s, run happy = Some s /\ hasm s S0 /\ classic s S0 /\ F s S0 FTold = 1 /\
  kget s S0 10 = Committed (S0 + 2) /\ kget s S0 11 = Committed (S0 + 2).
Proof.
  eexists. split; [apply run_final; vm_compute; reflexivity |].
  repeat apply conj; try (vm_compute; congruence); vm_compute; tauto.
Qed.

(* crash after the primary commit was delivered; a resolver finishes the secondary with the reported ts *)
Example crash_resolved_accepted : reject_of (happy_prefix ++
  [ ECmSend 1 S0 (S0 + 2) [10]; ECmDeliver 1 S0 (S0 + 2) [10] CmOk; ECrash 1; ELockSeen 2 S0 3000;
    ECtsSend 2 S0 10 0 (S0 + 16) false false false; ECtsDeliver 2 S0 10 (StCommitted (S0 + 2));
    ECtsReply 2 S0 10 (StCommitted (S0 + 2)); ERsSend 2 S0 (S0 + 2) [11]; ERsDeliver 2 S0 (S0 + 2) [11] GOk ]) = None.
Proof. vm_compute. reflexivity. Qed.

Example rejected_secondaries_before_primary_reply : reject_of (happy_prefix ++
  [ ECmSend 1 S0 (S0 + 2) [10]; ECmDeliver 1 S0 (S0 + 2) [10] CmOk; ECmSend 1 S0 (S0 + 2) [11] ]) = Some (14%nat, R1_secondary_first).
Proof. vm_compute. reflexivity. Qed.
Example rejected_commit_before_prewrite : reject_of
  [ ETso S0; EBegin 1 S0; ECommitCall S0 false; EMutations S0 10 [(10, OpPut); (11, OpPut)];
    EPwSend 1 S0 10 [10] false false (S0 + 1) 0 []; EPwDeliver 1 S0 [10] (PwOk 0 0); EPwReply 1 S0 [10] (PwOk 0 0);
    ETso (S0 + 2); ECmSend 1 S0 (S0 + 2) [10] ] = Some (8%nat, R1_unprewritten).
Proof. vm_compute. reflexivity. Qed.
Example rejected_rollback_after_commit_sent : reject_of (happy_prefix ++
  [ ECmSend 1 S0 (S0 + 2) [10]; ERbSend 1 S0 [10; 11] ]) = Some (13%nat, R2_rollback_after_commit).
Proof. vm_compute. reflexivity. Qed.
Example rejected_resolve_unreported_ts : reject_of (happy_prefix ++
  [ ECmSend 1 S0 (S0 + 2) [10]; ECmDeliver 1 S0 (S0 + 2) [10] CmOk; ECrash 1; ELockSeen 2 S0 3000;
    ECtsSend 2 S0 10 0 (S0 + 16) false false false; ECtsDeliver 2 S0 10 (StCommitted (S0 + 2));
    ECtsReply 2 S0 10 (StCommitted (S0 + 2)); ERsSend 2 S0 (S0 + 3) [11] ]) = Some (19%nat, R3_resolve_unreported).
Proof. vm_compute. reflexivity. Qed.
Example rejected_expire_live_lock : reject_of (happy_prefix ++
  [ ECrash 1; ELockSeen 2 S0 3000; ECtsSend 2 S0 10 (S0 + 16) maxts true false false ]) = Some (14%nat, R4_expire_live_lock).
Proof. vm_compute. reflexivity. Qed.
Example rejected_told_ok_without_commit : reject_of (happy_prefix ++
  [ ECmSend 1 S0 (S0 + 2) [10]; ECmDeliver 1 S0 (S0 + 2) [10] CmOk; ETold S0 TOk ]) = Some (14%nat, R7_ok_without_commit).
Proof. vm_compute. reflexivity. Qed.
Example rejected_told_err_with_pending_commit : reject_of (happy_prefix ++
  [ ECmSend 1 S0 (S0 + 2) [10]; ETold S0 TErr ]) = Some (13%nat, R7_err_with_pending).
Proof. vm_compute. reflexivity. Qed.
Example accepted_undetermined_on_lost_reply : reject_of (happy_prefix ++
  [ ECmSend 1 S0 (S0 + 2) [10]; ECmDeliver 1 S0 (S0 + 2) [10] CmOk; ETold S0 TUndet ]) = None.
Proof. vm_compute. reflexivity. Qed.

(* async commit and 1PC: the mode hypotheses are satisfiable by accepted traces *)
Example async_happy_accepted : exists s, run async_happy = Some s /\ asyncm s S0 /\ F s S0 FTold = 1 /\
  cstar s S0 = S0 + 4 /\ kget s S0 11 = Committed (S0 + 4) /\ kget s S0 10 = Locked (S0 + 3).
Proof.
  eexists. split; [apply run_final; vm_compute; reflexivity |]. split; [| repeat apply conj; vm_compute; congruence].
  unfold asyncm, hasm. split; [vm_compute; congruence |]. split; [vm_compute; congruence |]. split; [| split; vm_compute; congruence].
  vm_compute. intros r ks m o Hi. repeat (destruct Hi as [Hi | Hi]; [inversion Hi; reflexivity |]). destruct Hi.
Qed.
Example onepc_happy_accepted : exists s, run onepc_happy = Some s /\ onepcm s S0 /\ F s S0 FTold = 1 /\
  kget s S0 10 = Committed (S0 + 3) /\ kget s S0 11 = Committed (S0 + 3).
Proof.
  eexists. split; [apply run_final; vm_compute; reflexivity |]. unfold onepcm, hasm. repeat apply conj; vm_compute; congruence.
Qed.
(* async commit: a definite error while the primary's prewrite is unanswered is rejected; with the primary never sent it is accepted *)
Example async_err_primary_pending_rejected : reject_of
  [ ETso S0; EBegin 1 S0; ECommitCall S0 false; EMutations S0 10 [(10, OpPut); (11, OpPut)];
    EPwSend 1 S0 10 [10] true false (S0 + 2) 0 [11]; EPwSend 1 S0 10 [11] true false (S0 + 2) 0 [];
    EPwDeliver 1 S0 [11] (PwOk (S0 + 4) 0); EPwReply 1 S0 [11] (PwOk (S0 + 4) 0); ETold S0 TErr ] = Some (8%nat, R7_err_with_pending).
Proof. vm_compute. reflexivity. Qed.
Example async_err_primary_never_sent_accepted : reject_of
  [ ETso S0; EBegin 1 S0; ECommitCall S0 false; EMutations S0 10 [(10, OpPut); (11, OpPut)];
    EPwSend 1 S0 10 [11] true false (S0 + 2) 0 [];
    EPwDeliver 1 S0 [11] (PwOk (S0 + 4) 0); ETold S0 TErr ] = None.
Proof. vm_compute. reflexivity. Qed.
(* async commit + 1PC requested, the single request hit a region error, re-split: 1PC abandoned, async commit kept *)
Example async1pc_resplit_accepted : exists s, run async1pc_resplit = Some s /\ asyncm s S0 /\ F s S0 FTried1 <> 0 /\
  F s S0 FTold = 1 /\ cstar s S0 = S0 + 4 /\ kget s S0 11 = Committed (S0 + 4).
Proof.
  eexists. split; [apply run_final; vm_compute; reflexivity |]. split; [| repeat apply conj; vm_compute; congruence].
  unfold asyncm, hasm. split; [vm_compute; congruence |]. split; [vm_compute; congruence |]. split; [| split; vm_compute; congruence].
  vm_compute. intros r ks m o Hi. repeat (destruct Hi as [Hi | Hi]; [inversion Hi; reflexivity |]). destruct Hi.
Qed.
(* the owner saw min-commit 0 (store declined async commit): it is a 2PC committer, a definite error needs no closed key ... *)
Example fallback_err_primary_unanswered_accepted : reject_of
  [ ETso S0; EBegin 1 S0; ECommitCall S0 false; EMutations S0 10 [(10, OpPut); (11, OpPut)];
    EPwSend 1 S0 10 [11] true false (S0 + 2) 0 []; EPwDeliver 1 S0 [11] (PwOk 0 0); EPwReply 1 S0 [11] (PwOk 0 0);
    EPwSend 1 S0 10 [10] true false (S0 + 2) 0 [11]; EPwDeliver 1 S0 [10] (PwOk 0 0); ETold S0 TErr ] = None.
Proof. vm_compute. reflexivity. Qed.
Example fallback_owner_closed_hypotheses : exists s, run
  [ ETso S0; EBegin 1 S0; ECommitCall S0 false; EMutations S0 10 [(10, OpPut); (11, OpPut)];
    EPwSend 1 S0 10 [11] true false (S0 + 2) 0 []; EPwDeliver 1 S0 [11] (PwOk 0 0); EPwReply 1 S0 [11] (PwOk 0 0);
    EPwSend 1 S0 10 [10] true false (S0 + 2) 0 [11]; EPwDeliver 1 S0 [10] (PwOk 0 0); ETold S0 TErr ] = Some s /\
  hasm s S0 /\ F s S0 FTold = 3 /\ F s S0 FPcNeg = F s S0 FPcSent /\ F s S0 FTriedA <> 0 /\ F s S0 FFb <> 0.
Proof.
  eexists. split; [apply run_final; vm_compute; reflexivity |]. unfold hasm. repeat apply conj; vm_compute; congruence.
Qed.
(* ... but, as in 2PC, no primary commit request may be outstanding *)
Example fallback_err_with_pending_commit_rejected : reject_of
  [ ETso S0; EBegin 1 S0; ECommitCall S0 false; EMutations S0 10 [(10, OpPut); (11, OpPut)];
    EPwSend 1 S0 10 [10; 11] true false (S0 + 2) 0 [11]; EPwDeliver 1 S0 [10; 11] (PwOk 0 0); EPwReply 1 S0 [10; 11] (PwOk 0 0);
    ETso (S0 + 3); ECmSend 1 S0 (S0 + 3) [10]; ECmDeliver 1 S0 (S0 + 3) [10] CmOk; ETold S0 TErr ] = Some (10%nat, R7_err_with_pending).
Proof. vm_compute. reflexivity. Qed.
(* the fallback hypothesis is satisfiable: async commit declined on key 11 (2PC lock), the owner's error is final ... *)
Example fallback_mixed_told_err : exists s, run
  [ ETso S0; EBegin 1 S0; ECommitCall S0 false; EMutations S0 10 [(10, OpPut); (11, OpPut)];
    EPwSend 1 S0 10 [11] true false (S0 + 2) 0 []; EPwDeliver 1 S0 [11] (PwOk 0 0); EPwReply 1 S0 [11] (PwOk 0 0);
    EPwSend 1 S0 10 [10] true false (S0 + 2) 0 [11]; EPwDeliver 1 S0 [10] (PwOk (S0 + 3) 0); ETold S0 TErr ] = Some s /\
  mixed s S0 /\ F s S0 FTold = 3 /\ kget s S0 10 = Locked (S0 + 3) /\ kget s S0 11 = Locked 0.
Proof.
  eexists. split; [apply run_final; vm_compute; reflexivity |]. split; [| repeat apply conj; vm_compute; congruence].
  split; [unfold hasm; vm_compute; congruence |]. split.
  - vm_compute. intros r ks m o Hi. repeat (destruct Hi as [Hi | Hi]; [inversion Hi; reflexivity |]). destruct Hi.
  - exists 11. split; [vm_compute; auto | vm_compute; reflexivity].
Qed.
(* ... and the 2PC commit after the fallback *)
Example fallback_mixed_told_ok : exists s, run
  [ ETso S0; EBegin 1 S0; ECommitCall S0 false; ETso (S0 + 1); EMutations S0 10 [(10, OpPut); (11, OpPut)];
    EPwSend 1 S0 10 [10] true false (S0 + 2) 0 [11]; EPwSend 1 S0 10 [11] true false (S0 + 2) 0 [];
    EPwDeliver 1 S0 [10] (PwOk (S0 + 3) 0); EPwDeliver 1 S0 [11] (PwOk 0 0);
    EPwReply 1 S0 [10] (PwOk (S0 + 3) 0); EPwReply 1 S0 [11] (PwOk 0 0); ETso (S0 + 5);
    ECmSend 1 S0 (S0 + 5) [10]; ECmDeliver 1 S0 (S0 + 5) [10] CmOk; ECmReply 1 S0 (S0 + 5) [10] CmOk; ETold S0 TOk ] = Some s /\
  mixed s S0 /\ F s S0 FTold = 1 /\ kget s S0 10 = Committed (S0 + 5) /\ kget s S0 11 = Locked 0.
Proof.
  eexists. split; [apply run_final; vm_compute; reflexivity |]. split; [| repeat apply conj; vm_compute; congruence].
  split; [unfold hasm; vm_compute; congruence |]. split.
  - vm_compute. intros r ks m o Hi. repeat (destruct Hi as [Hi | Hi]; [inversion Hi; reflexivity |]). destruct Hi.
  - exists 11. split; [vm_compute; auto | vm_compute; reflexivity].
Qed.
(* why C02_atomic_fallback_partial stays partial: the corner is real ON THE MODEL. A store that answers min-commit 0 for a
   request that wrote no lock (here: a CheckNotExists-only batch) makes the owner a 2PC committer although every lock is an
   async-commit lock with the full secondaries list; a resolver folds to the locks' maximum, the owner commits its primary
   at a fresh ts: two commit timestamps. (TiKV answers max(requested, start+1) for such a request and writes non-async
   locks whenever it declines: no store in the test bed produces this trace.) *)
Example fallback_corner_two_commit_ts_on_the_model : exists s, run
  [ ETso S0; EBegin 1 S0; ECommitCall S0 false; ETso (S0 + 1); EMutations S0 10 [(10, OpPut); (11, OpPut); (12, OpCne)];
    EPwSend 1 S0 10 [10] true false (S0 + 2) 0 [11]; EPwSend 1 S0 10 [11] true false (S0 + 2) 0 []; EPwSend 1 S0 10 [12] true false (S0 + 2) 0 [];
    EPwDeliver 1 S0 [10] (PwOk (S0 + 3) 0); EPwDeliver 1 S0 [11] (PwOk (S0 + 4) 0); EPwDeliver 1 S0 [12] (PwOk 0 0);
    EPwReply 1 S0 [10] (PwOk (S0 + 3) 0); EPwReply 1 S0 [11] (PwOk (S0 + 4) 0); EPwReply 1 S0 [12] (PwOk 0 0);
    ELockSeen 2 S0 3000; ECtsSend 2 S0 10 (S0 + 5) (S0 + 5) false false false; ECtsDeliver 2 S0 10 (StLocked 3000 (S0 + 3) true [11]);
    ECtsReply 2 S0 10 (StLocked 3000 (S0 + 3) true [11]); ECslSend 2 S0 [11]; ECslDeliver 2 S0 [11] (CslLocks [(11, S0 + 4)]);
    ECslReply 2 S0 [11] (CslLocks [(11, S0 + 4)]); ERsSend 2 S0 (S0 + 4) [11]; ERsDeliver 2 S0 (S0 + 4) [11] GOk;
    ETso (S0 + 9); ECmSend 1 S0 (S0 + 9) [10]; ECmDeliver 1 S0 (S0 + 9) [10] CmOk ] = Some s /\
  kget s S0 11 = Committed (S0 + 4) /\ kget s S0 10 = Committed (S0 + 9) /\
  ~ mixed s S0 /\ ~ asyncm s S0 /\ ~ classic s S0.
Proof.
  eexists. split; [apply run_final; vm_compute; reflexivity |]. split; [vm_compute; reflexivity |]. split; [vm_compute; reflexivity |].
  split; [| split].
  - vm_compute. intros [_ [_ [k0 [[<- | [<- | []]] K2]]]]; discriminate K2.
  - vm_compute. intros [_ [_ [_ [Hf _]]]]. discriminate Hf.
  - vm_compute. intros [Ha _]. discriminate Ha.
Qed.

