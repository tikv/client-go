(* Percolator/Closed.v — the owner's own commit point, for EVERY commit mode (classic, async commit,
   1PC, fallen back): the commit requests that contain the primary are delivered at most once each,
   so once every one of them has a definite negative answer and the owner has given up (told err),
   no commit request containing the primary has taken or will ever take effect. *)
From Verif Require Export Percolator.Layer2e.

Definition pcn (c : crec) : Prop :=
  cn c FPcNeg <= cn c FPcFaild /\ cn c FPcFaild + cn c FPcOkd = cn c FPcDlv /\ cn c FPcDlv <= cn c FPcSent.

(* how one step changes the commit-point counters of T0 *)
Lemma stepr_pcn : forall s e s' T0, stepr s e = Ok s' -> ginv s T0 ->
  (hasm s T0 -> pcn (getc s T0)) -> hasm s' T0 ->
  pcn (getc s' T0) /\
  (hasm s T0 -> F s T0 FDead <> 0 -> F s' T0 FPcSent = F s T0 FPcSent) /\
  (hasm s T0 -> F s T0 FPcNeg <= F s' T0 FPcNeg /\ F s T0 FPcOkd <= F s' T0 FPcOkd) /\
  (forall r c ks, e = ECmDeliver r T0 c ks CmOk -> In (prim s' T0) ks -> F s' T0 FPcOkd <> 0).
Proof.
  intros s e s' T0 H G P Hh'. destruct (stepr_fps _ _ _ T0 H) as [[Af _ _ _ _ _ _] B].
  pose proof (g_fresh_cnt _ _ G) as Z. unfold hasm, prim, F, pcn in *.
  (* an event that writes none of the counters, or belongs to another transaction *)
  match goal with |- ?g =>
    assert (Same : (forall r c ks, e <> ECmDeliver r T0 c ks CmOk) ->
                   cn (getc s' T0) FHasm = cn (getc s T0) FHasm -> cn (getc s' T0) FPcNeg = cn (getc s T0) FPcNeg ->
                   cn (getc s' T0) FPcFaild = cn (getc s T0) FPcFaild -> cn (getc s' T0) FPcOkd = cn (getc s T0) FPcOkd ->
                   cn (getc s' T0) FPcDlv = cn (getc s T0) FPcDlv -> cn (getc s' T0) FPcSent = cn (getc s T0) FPcSent -> g)
  end.
  { intros Ne E0 E1 E2 E3 E4 E5. rewrite E0 in Hh'. rewrite E1, E2, E3, E4, E5. pose proof (P Hh'). repeat split; auto; try lia.
    intros r c ks Ee. destruct (Ne _ _ _ Ee). }
  destruct_event e;
    try (apply Same; [discriminate | apply Af; reflexivity ..]).
  all: destruct (N.eq_dec T T0) as [-> | Hne];
    [clear Same | assert (Gc : getc s' T0 = getc s T0) by (apply B; cbn [txn_of]; congruence);
                  apply Same; [congruence | rewrite Gc; reflexivity ..]].
  - (* mutations: all counters are still zero *)
    cbn [stepr] in H. chks H. b2p. okinv H. revert Hh'. rd. intros _.
    destruct Z as [Z1 [Z2 [Z3 [Z4 _]]]]; [congruence |]. repeat split; intros; try discriminate; try contradiction; lia.
  - (* commit send: the only event that raises FPcSent, and the owner has not given up *)
    assert (Eh := Af FHasm eq_refl). rewrite Eh in Hh'. pose proof (P Hh') as [P1 [P2 P3]].
    rewrite (Af FPcNeg eq_refl), (Af FPcFaild eq_refl), (Af FPcOkd eq_refl), (Af FPcDlv eq_refl).
    cbn [stepr] in H. unfold step_cm_send in H. chks H. b2p.
    destruct (fb (getc s T0) FHasm); chks H; [destruct (mem _ ks); chks H |]; okinv H; rd;
      repeat split; intros; try discriminate; try contradiction; try lia.
  - (* commit deliver: counted once per request that contains the primary, never beyond the requests sent *)
    assert (Eh := Af FHasm eq_refl). rewrite Eh in Hh'. pose proof (P Hh') as [P1 [P2 P3]].
    rewrite (Af FPcNeg eq_refl), (Af FPcSent eq_refl), (Af FPrim eq_refl).
    cbn [stepr] in H. unfold step_cm_deliver in H. chks H. unfold has_prim in *.
    destruct (fb (getc s T0) FHasm && mem (cn (getc s T0) FPrim) ks) eqn:Hp; cbn [negb orb] in C0; b2p.
    + destruct x; chks H; try (destruct (step_keys _ _ _ _) eqn:E; try discriminate); okinv H; rd;
        repeat split; intros; try discriminate; try lia.
    + assert (Gc : getc s' T0 = getc s T0).
      { destruct x; chks H; try (destruct (step_keys _ _ _ _) eqn:E; try discriminate); okinv H; getc_keys; reflexivity. }
      rewrite Gc. repeat split; auto; try lia. intros r0 c0 ks0 Ee Hi. inversion Ee. subst. exfalso.
      apply mem_In in Hi. rewrite Hi, andb_true_r in Hp. apply fb_false in Hp. contradiction.
  - (* commit reply: a negative answer is counted only if a negative delivery stands behind it *)
    assert (Eh := Af FHasm eq_refl). rewrite Eh in Hh'. pose proof (P Hh') as [P1 [P2 P3]].
    rewrite (Af FPcFaild eq_refl), (Af FPcOkd eq_refl), (Af FPcDlv eq_refl), (Af FPcSent eq_refl).
    cbn [stepr] in H. unfold step_cm_reply in H. chks H.
    destruct (has_prim (getc s T0) ks); [| okinv H; repeat split; intros; try discriminate; lia].
    destruct x; chks H; okinv H; rd; b2p; repeat split; intros; try discriminate; lia.
Qed.

Record pcinv (s : sys) (T : N) : Prop := {
  pc_cnt : hasm s T -> pcn (getc s T);
  pc_okd : hasm s T -> forall r c ks, In (ECmReply r T c ks CmOk) (s_dlv s) -> In (prim s T) ks -> F s T FPcOkd <> 0 }.

Lemma pcinv_stepr : forall s e s' T, Inv s -> stepr s e = Ok s' -> pcinv s T -> pcinv s' T.
Proof.
  intros s e s' T HI H [P1 P2]. destruct (HI T) as [G _].
  pose proof (stepr_hasm_back _ _ _ T H) as Hback.
  constructor; intros Hh'.
  - apply (stepr_pcn _ _ _ T H G P1 Hh').
  - intros r c ks Hi Hp. destruct (stepr_pcn _ _ _ T H G P1 Hh') as [_ [_ [Mono New]]].
    destruct (stepr_dlv_new _ _ _ H _ Hi) as [Ho | B].
    + destruct (Hback Hh') as [Hh | [p [ms ->]]].
      * destruct (stepr_frozen _ _ _ T H) as [_ Fz]. destruct (Fz Hh) as [_ [Ep _]]. rewrite Ep in Hp.
        pose proof (P2 Hh _ _ _ Ho Hp). destruct (Mono Hh). lia.
      * exfalso. apply (g_cm_sent _ _ G) in Ho. apply (g_cmsent_p _ _ G) in Ho. cbn [stepr] in H. chks H. b2p.
        unfold hasm, F in *. destruct Ho as [Ho | [Ho _]]; congruence.
    + destruct e; cbn [reply_of] in B; try discriminate B. inversion B. subst. eapply New; eauto.
Qed.

Lemma pcinv_init : forall T, pcinv init T.
Proof. intros T. constructor; intros H; exfalso; apply H; reflexivity. Qed.

Lemma pcinv_run_from : forall evs s s' T, Inv s -> pcinv s T -> run_from s evs = Some s' -> pcinv s' T.
Proof.
  intros evs s s' T HI P H. apply (run_from_preserves Inv (fun s => pcinv s T) inv_stepr) with (evs := evs) (s := s); auto.
  intros s0 e s1 HI0 P0 E. eapply pcinv_stepr; eauto.
Qed.
Lemma pcinv_run : forall evs s T, run evs = Some s -> pcinv s T.
Proof. intros evs s T H. eapply pcinv_run_from; [apply inv_init | apply pcinv_init | exact H]. Qed.

Lemma stepr_dead : forall s e s' T, stepr s e = Ok s' -> F s T FDead <> 0 -> F s' T FDead <> 0.
Proof.
  intros s e s1 T0 E Hd. unfold F in *. destruct (stepr_fps _ _ _ T0 E) as [[Af _ _ _ _ _ _] B].
  destruct_event e; try (rewrite Af by reflexivity; exact Hd).
  all: destruct (N.eq_dec T T0) as [-> | Hne]; [| rewrite B; [exact Hd | cbn [txn_of]; congruence]].
  - cbn [stepr] in E. unfold step_rb_send in E. chks E. okinv E. rd. discriminate.
  - cbn [stepr] in E. unfold step_told in E. chks E. destruct x; chks E; okinv E; rd; [exact Hd | discriminate ..].
Qed.

(* the owner gave up (FDead) with every primary commit request answered negatively: the counters are
   frozen, so no commit request containing the primary has succeeded or ever will *)
Lemma closed_run_from : forall evs s s' T, Inv s -> pcinv s T -> hasm s T -> F s T FDead <> 0 ->
  F s T FPcNeg = F s T FPcSent -> run_from s evs = Some s' ->
  hasm s' T /\ prim s' T = prim s T /\ F s' T FDead <> 0 /\ F s' T FPcNeg = F s' T FPcSent /\ pcinv s' T /\ F s' T FPcOkd = 0.
Proof.
  intros evs s s' T HI P Hh Hd Hn H.
  destruct (run_from_preserves (fun x => Inv x /\ pcinv x T)
              (fun x => hasm x T /\ prim x T = prim s T /\ F x T FDead <> 0 /\ F x T FPcNeg = F x T FPcSent)) with (evs := evs) (s := s) (s' := s')
    as [[_ P'] [Hh' [Ep' [Hd' Hn']]]]; auto.
  - intros x e y [HIx Px] E. split; [eapply inv_stepr | eapply pcinv_stepr]; eauto.
  - intros x e y [HIx Px] [Hx [Epx [Hdx Hnx]]] E.
    destruct (HIx T) as [G _]. destruct (stepr_frozen _ _ _ T E) as [_ Fz]. destruct (Fz Hx) as [Hy [Ep _]].
    destruct (stepr_pcn _ _ _ T E G (pc_cnt _ _ Px) Hy) as [[A [B C]] [Sent [Mono _]]].
    specialize (Sent Hx Hdx). destruct (Mono Hx) as [M1 _]. unfold F in *.
    split; [auto |]. split; [congruence |]. split; [apply (stepr_dead _ _ _ T E); exact Hdx | lia].
  - destruct (pc_cnt _ _ P' Hh') as [A [B C]]. do 5 (split; [assumption |]). unfold F in *. lia.
Qed.
