(* Percolator/Async4.v — ainv is preserved by every event of its own transaction. First the justification of the
   commit-capable requests (the owner's commit ts and the resolver's CheckSecondaryLocks fold both equal cstar), then
   the quiet events, CheckTxnStatus deliveries, rollback_send and told, and last the three prewrite events. *)
From Verif Require Export Percolator.Async3.

Section Just.
  Variables (s : sys) (T : N).
  Hypothesis G : ginv s T.
  Hypothesis L : linv s T.
  Hypothesis Am : asyncm s T.
  Hypothesis A : ainv s T.
  Let Hm : hasm s T := proj1 Am.

  Lemma cm_send_just : forall s' r C ks, stepr s (ECmSend r T C ks) = Ok s' -> Sealed s T /\ C = cstar s T.
  Proof.
    intros s' r C ks H. pose proof Am as [_ [A1 [A2 [A3 A4]]]].
    assert (Ek : async_kept (getc s T) = true).
    { unfold async_kept. unfold F in *. apply fb_true in A1. rewrite A1. rewrite (proj2 (fb_false _ _) A3). reflexivity. }
    destruct (cm_send_ok _ _ _ _ _ _ _ H eq_refl Hm) as [_ [Sub [_ [_ Kept]]]]. rewrite (Kept Ek). unfold F at 1. clear H Kept.
    assert (Hall : forall k, In k (lm s T) -> exists m, m <= F s T FMinc /\ (lamk s T k = Some m \/ kget s T k = Committed m)).
    { intros k Hk. apply (a_minc _ _ A); auto. }
    assert (S : Sealed s T).
    { intros k Hk. destruct (Hall k Hk) as [m [_ [E | E]]]; [congruence |]. destruct (a_commit _ _ A _ _ E) as [S _]. apply S. auto. }
    assert (Le1 : cn (getc s T) FMinc <= cstar s T).
    { destruct (a_minc2 _ _ A) as [E | [k [K1 [E | E]]]]; unfold F in *.
      - rewrite E. lia.
      - eapply cstar_ge; eauto.
      - destruct (a_commit _ _ A _ _ E) as [_ E2]. rewrite <- E2. lia. }
    assert (Le2 : cstar s T <= cn (getc s T) FMinc).
    { apply cstar_le. intros k m' Hk El. destruct (Hall k Hk) as [m [M1 [E | E]]]; unfold F in *.
      - assert (m = m') by congruence. subst. auto.
      - destruct (a_commit _ _ A _ _ E) as [_ E2]. pose proof (cstar_ge _ _ _ _ Hk El). lia. }
    split; auto. lia.
  Qed.

  Lemma csl_send_just : forall s' r ks, stepr s (ECslSend r T ks) = Ok s' -> forall k, In k ks -> In k (lm s T).
  Proof.
    intros s' r ks H k Hk. destruct (csl_send_open _ _ _ _ _ G H) as [p [ttl [m [secs [C1 C2]]]]].
    apply (a_ctsl _ _ A) in C1. destruct C1 as [_ [_ C1]]. apply C1. auto.
  Qed.

  Lemma fold_left_max_ge : forall l m, m <= fold_left N.max l m /\ forall x, In x l -> x <= fold_left N.max l m.
  Proof.
    induction l as [| a l IH]; intros m; cbn [fold_left]; [split; [lia | intros x []] |].
    destruct (IH (N.max m a)) as [I1 I2]. split; [lia |]. intros x [-> | Hx]; [lia | auto].
  Qed.
  Lemma fold_left_max_le : forall l m b, m <= b -> (forall x, In x l -> x <= b) -> fold_left N.max l m <= b.
  Proof.
    induction l as [| a l IH]; intros m b Hm0 Hl; cbn [fold_left]; auto.
    apply IH; [assert (a <= b) by (apply Hl; left; auto); lia | intros x Hx; apply Hl; right; auto].
  Qed.

  Lemma rs_async_just : forall r C, csl_all_locked s r T C = true -> Sealed s T /\ C = cstar s T /\ C <> 0.
  Proof.
    intros r C H. destruct (csl_all_locked_spec _ _ _ _ H) as [p [ttl [m [secs [H1 [Hcov [_ H0]]]]]]].
    apply (g_cts_sub _ _ G) in H1. apply (a_ctsl _ _ A) in H1. destruct H1 as [-> [Lp Hsecs]].
    set (P := prim s T) in *. set (l := csl_lock_ms s r T) in *.
    assert (Hl : forall k M, In (k, M) l -> lamk s T k = Some M).
    { intros k M Hk. apply csl_lock_ms_spec in Hk. destruct Hk as [ks [l0 [K1 K2]]].
      apply (l_csl_sub _ _ L) in K1. apply (a_csll _ _ A) in K1. apply K1. auto. }
    assert (S : Sealed s T).
    { intros k Hk. destruct (N.eq_dec k P) as [-> | Hne]; [congruence |].
      destruct (Hcov k) as [M HM]; [apply Hsecs; auto |]. rewrite (Hl _ _ HM). discriminate. }
    set (vals := map snd (filter (fun km => mem (fst km) secs) l)) in *.
    destruct (fold_left_max_ge vals m) as [F1 F2].
    assert (Ec : fold_left N.max vals m = cstar s T).
    { apply N.le_antisymm.
      - apply fold_left_max_le; [eapply cstar_ge; eauto; apply (l_prim _ _ L Hm) |].
        intros x Hx. unfold vals in Hx. apply in_map_iff in Hx. destruct Hx as [[k M] [X1 X2]]. cbn [snd] in X1. subst.
        apply filter_In in X2. destruct X2 as [X2 X3]. cbn [fst] in X3. apply mem_In in X3. apply Hsecs in X3.
        eapply cstar_ge; [apply X3 | apply Hl; auto].
      - apply cstar_le. intros k m' Hk El. destruct (N.eq_dec k P) as [-> | Hne]; [rewrite Lp in El; inversion El; subst; auto |].
        destruct (Hcov k) as [M HM]; [apply Hsecs; auto |]. rewrite (Hl _ _ HM) in El. inversion El. subst m'.
        apply F2. unfold vals. apply in_map_iff. exists (k, M). split; auto. apply filter_In. split; auto. cbn [fst].
        apply mem_In. apply Hsecs. auto. }
    repeat split; auto; [congruence |]. rewrite H0, Ec. pose proof (a_lam _ _ A _ _ Lp). pose proof (cstar_ge _ _ _ _ (l_prim _ _ L Hm) Lp). lia.
  Qed.

  Lemma rs_send_just : forall s' r C ks, stepr s (ERsSend r T C ks) = Ok s' ->
    (exists p, s_rs s' = (T, C, JKey p) :: s_rs s /\ p = prim s T) \/
    (s_rs s' = (T, C, JAsync) :: s_rs s /\ (C <> 0 -> Sealed s T /\ C = cstar s T) /\ (C = 0 -> NSa s T)).
  Proof.
    intros s' r C ks H. destruct (rs_send_open _ _ _ _ _ _ H) as [[p [_ [R Hp]]] | [_ [R [[ks0 E1] | C1]]]].
    - left. exists p. auto.
    - right. split; [exact R |]. apply (l_csl_sub _ _ L) in E1. apply (a_cslc _ _ A) in E1. exact E1.
    - right. split; [exact R |]. destruct (rs_async_just _ _ C1) as [S [E N]]. split; [auto | intros; contradiction].
  Qed.
End Just.

Section CslJust.
  Variables (s s' : sys) (T : N).
  Hypothesis G : ginv s T.
  Hypothesis L : linv s T.
  Hypothesis Am : asyncm s T.
  Hypothesis A : ainv s T.
  Let Hm : hasm s T := proj1 Am.

  Lemma wr_just : forall C, In (T, C) (s_wr s) -> (C <> 0 -> Sealed s T /\ C = cstar s T) /\ (C = 0 -> NSa s T).
  Proof. intros C H. destruct (g_wr _ _ G _ H) as [j Hj]. eapply (rs_just s T G L Hm A); eauto. Qed.

  Lemma csl_deliver_just : forall r ks st, stepr s (ECslDeliver r T ks st) = Ok s' ->
    match st with
    | CslLocks l => (forall k M, In (k, M) l -> lamk s T k = Some M) /\ (forall k, In k ks -> exists M, In (k, M) l)
    | CslCommit C => (C <> 0 -> Sealed s T /\ C = cstar s T) /\ (C = 0 -> NSa s' T)
    | CslRegion => True
    end.
  Proof.
    intros r ks st H.
    assert (J : forall k, jstep s s' T k).
    { intros k. apply (kj_jstep s s' T G L Hm A (ECslDeliver r T ks st) k eq_refl); [intros ? ? Ee; discriminate Ee | apply stepr_kj; auto]. }
    pose proof (stepr_quiet s (ECslDeliver r T ks st) s' T eq_refl H) as SA.
    cbn [stepr] in H. unfold step_csl_deliver in H. chks H.
    apply sent_by_In in C. destruct C as [e0 [Ce1 Ce2]]. destruct e0; try discriminate. beq. subst.
    pose proof (a_cslsent _ _ A _ _ Ce1) as Hks.
    destruct st as [l | cc |]; auto.
    - chks H. split.
      + intros k M Hk. rewrite forallb_forall in C0. specialize (C0 _ Hk). cbn [fst snd] in C0.
        destruct (kget s T k) eqn:Ek; try discriminate. pose proof (l_locked _ _ L _ _ Ek) as El.
        apply N.eqb_eq in C0. congruence.
      + intros k Hk. rewrite forallb_forall in C. specialize (C _ Hk). apply existsb_exists in C. destruct C as [[k' M] [C1 C2]].
        cbn [fst] in C2. apply N.eqb_eq in C2. subst. eauto.
    - destruct (N.eq_dec cc 0) as [-> | HC].
      + cbn [N.eqb] in H. chks H. split; [intros; contradiction | intros _].
        destruct (first_gone_spec _ _ _ C) as [k [Fg [K1 K2]]]. rewrite Fg in H. unfold gone_key in K2.
        destruct (step_keys _ _ _ _) as [s2 |] eqn:E; try discriminate. okinv H.
        destruct (kget s T k) eqn:Ek; try discriminate.
        * (* an unlocked key: it gets its rollback marker now *)
          exists k. rewrite (tr_lm s s' T SA), (tr_lamk s s' T SA). split; [apply Hks; auto |].
          split; [destruct (lamk s T k) eqn:El; auto; exfalso; eapply (l_nu _ _ L); eauto |]. left.
          destruct (step_keys_char _ _ _ _ _ _ tr_csl_rb_ok tr_csl_rb_idem tr_csl_rb_total E k) as [[_ Ch] | [Ch _]]; [| exfalso; apply Ch; left; reflexivity].
          change (kget (add_dlv s _) T k) with (kget s T k) in Ch. rewrite Ek in Ch. cbn in Ch. inversion Ch. auto.
        * apply existsb_exists in K2. destruct K2 as [[T' c] [W1 W2]]. cbn [fst snd] in W2. b2p. subst.
          apply (tr_NSa s s' T J SA). apply (wr_just 0 W1). auto.
        * apply (tr_NSa s s' T J SA). eapply (a_rb _ _ A); eauto.
      + apply N.eqb_neq in HC. rewrite HC in H. chks H. apply N.eqb_neq in HC. split; [intros _ | intros; contradiction].
        apply existsb_exists in C. destruct C as [k [K1 K2]]. destruct (kget s T k) eqn:Ek; try discriminate.
        * apply existsb_exists in K2. destruct K2 as [[T' c] [W1 W2]]. cbn [fst snd] in W2. b2p. subst. apply (wr_just cc W1). auto.
        * apply N.eqb_eq in K2. subst. apply (a_commit _ _ A _ _ Ek).
  Qed.
End CslJust.

Lemma asyncm_back : forall s e s' T, stepr s e = Ok s' -> same_acct (getc s T) (getc s' T) -> asyncm s' T -> asyncm s T.
Proof.
  intros s e s' T H [_ _ _ _ _ A] [H1 [H2 [H3 [H4 H5]]]]. apply (no1pc_back _ _ _ _ H) in H3. unfold asyncm, hasm, F in *.
  rewrite (A FHasm), (A FTriedA), (A FFb), (A FStFb) in * by reflexivity. auto.
Qed.

Lemma ainv_other : forall s e s' T, linv s T -> stepr s e = Ok s' -> txn_of e <> Some T -> ainv s T -> ainv s' T.
Proof.
  intros s e s' T L H Hne A. apply (ainv_stable s e s' T H L); [| | | exact A].
  - intros k. left. apply (a_k _ _ _ (step_agree _ _ _ T H Hne)).
  - rewrite (stepr_getc_other _ _ _ T H Hne). apply same_acct_refl.
  - intros Et. contradiction.
Qed.

Lemma ainv_quiet : forall s e s' T, Inv s -> Linv s -> quiet e = true -> txn_of e = Some T -> stepr s e = Ok s' ->
  asyncm s T -> ainv s T -> ainv s' T.
Proof.
  intros s e s' T HI HL Hq Ht H Am A. destruct (HI T) as [G _]. pose proof (HL T) as L. pose proof (proj1 Am) as Hm.
  pose proof (stepr_quiet _ _ _ T Hq H) as SA.
  assert (J : forall k, jstep s s' T k).
  { intros k. apply (kj_jstep s s' T G L Hm A e k); [destruct e; try reflexivity; discriminate Hq | | apply stepr_kj; auto].
    intros r m Ee. rewrite Ee in Hq. discriminate Hq. }
  pose proof (tr_Sealed s s' T SA) as Es. pose proof (tr_cstar s s' T SA) as Ec. pose proof (tr_lm s s' T SA) as Em.
  pose proof (tr_lamk s s' T SA) as El. pose proof (tr_NSa s s' T J SA) as En.
  assert (Ep : prim s' T = prim s T) by (apply (tr_F s s' T SA); reflexivity).
  apply (ainv_stable s e s' T H L J SA); [| exact A].
  intros _. destruct e; cbn [quiet] in Hq; try discriminate Hq; try exact I; cbn [txn_of] in Ht; inversion Ht; subst; cbn [ajust].
  - rewrite Es, Ec. eapply cm_send_just; eauto.
  - rewrite Em. eapply csl_send_just; eauto.
  - pose proof (csl_deliver_just s s' T G L Am A _ _ _ H) as Cj. destruct st as [l | C |]; [| rewrite Es, Ec; exact Cj | exact I].
    destruct Cj as [C1 C2]. split; auto. intros k M Hk. rewrite El. auto.
  - intros j R. destruct (rs_send_just s T G L Am A _ _ _ _ H) as [[p0 [R1 R2]] | [R1 [R2 R3]]]; rewrite R1 in R; inversion R; subst.
    + rewrite Ep. reflexivity.
    + rewrite Es, Ec. split; auto.
Qed.

Lemma ctsd_rb_async : forall s s' r T p m, stepr s (ECtsDeliver r T p StRolledBack) = Ok s' ->
  kget s T p = Locked m -> m <> 0 -> existsb (fun sc => (fst sc =? T) && (snd sc =? 0)) (s_wr s) = false -> F s' T FStFb <> 0.
Proof.
  intros s s' r T p m H E Hm Hw. unfold F. rewrite (ctsd_rec _ _ _ _ _ _ H). unfold cts_asyncl. rewrite E, Hw.
  apply N.eqb_neq in Hm. rewrite Hm. rd. discriminate.
Qed.

Lemma asyncm_ctsd_back : forall s s' r T p st, stepr s (ECtsDeliver r T p st) = Ok s' -> asyncm s' T -> asyncm s T.
Proof.
  intros s s' r T p st H [B1 [B2 [B3 [B4 B5]]]]. destruct (ctsd_fields _ _ _ _ _ _ T H) as [A B].
  apply (no1pc_back _ _ _ _ H) in B3. unfold asyncm, hasm, F in *.
  rewrite (A FHasm), (A FTriedA), (A FFb) in * by discriminate. repeat split; auto.
Qed.

Lemma ainv_cts_deliver : forall s s' r T p st, Inv s -> Linv s -> stepr s (ECtsDeliver r T p st) = Ok s' ->
  (asyncm s T -> ainv s T) -> asyncm s' T -> ainv s' T.
Proof.
  intros s s' r T p st HI HL H AI Am'. destruct (HI T) as [G _]. pose proof (HL T) as L.
  pose proof (asyncm_ctsd_back _ _ _ _ _ _ H Am') as Am. pose proof (AI Am) as A. pose proof (proj1 Am) as Hm.
  assert (NL : st = StRolledBack -> forall m, kget s T p = Locked m ->
               m = 0 \/ existsb (fun sc => (fst sc =? T) && (snd sc =? 0)) (s_wr s) = true).
  { intros -> m E. destruct (N.eq_dec m 0); auto. right.
    destruct (existsb (fun sc => (fst sc =? T) && (snd sc =? 0)) (s_wr s)) eqn:Ew; auto.
    exfalso. destruct Am' as [_ [_ [_ [_ B]]]]. eapply ctsd_rb_async; eauto. }
  pose proof (ctsd_acct _ _ _ _ _ _ T H NL) as SA.
  (* a locked primary reported "rolled back": a whole-region resolve with commit ts 0 removed the lock *)
  assert (NoLk : st = StRolledBack -> forall m, kget s T p = Locked m -> NSa s T).
  { intros E m El. destruct (NL E m El) as [-> | Ew]; [exfalso; apply (a_lam _ _ A _ _ (l_locked _ _ L _ _ El)); auto |].
    apply existsb_exists in Ew. destruct Ew as [[T' c] [W1 W2]]. cbn [fst snd] in W2. b2p. subst T' c.
    apply (wr_just s T G L Am A 0 W1). auto. }
  assert (J : forall k, jstep s s' T k).
  { intros k. apply (kj_jstep s s' T G L Hm A (ECtsDeliver r T p st) k eq_refl); [| apply stepr_kj; auto].
    intros r0 m Ee El. inversion Ee. subst. eapply NoLk; eauto. }
  apply (ainv_stable s _ s' T H L J SA); [| exact A].
  (* the reported async primary lock *)
  intros _. destruct st as [ttl m [|] secs | | | | | |]; try exact I. cbn [ajust].
  unfold prim. rewrite (tr_F s s' T SA FPrim eq_refl), (tr_lamk s s' T SA), (tr_lm s s' T SA). fold (prim s T).
  cbn [stepr] in H. unfold step_cts_deliver in H. chks H. cbn [negb andb orb] in *.
  assert (Hh : fb (getc s T) FHasm = true) by (apply fb_true; exact Hm). rewrite Hh in *. cbn [negb andb orb] in *.
  apply N.eqb_eq in C2. apply andb_true_iff in C3. destruct C3 as [C3 C5]. apply andb_true_iff in C3. destruct C3 as [C3 C4].
  apply negb_true_iff in C4. split; [unfold prim, F; auto |]. split.
  - destruct (kget s T p) eqn:Ek; try discriminate. pose proof (l_locked _ _ L _ _ Ek) as El.
    apply andb_true_iff in C1. destruct C1 as [C1 _]. apply N.eqb_eq in C1. congruence.
  - intros k. split.
    + intros Hk. split; [eapply subset_In; eauto |]. intros ->. apply mem_false in C4. contradiction.
    + intros [Hk Hne]. rewrite forallb_forall in C5. specialize (C5 k Hk). apply orb_true_iff in C5.
      destruct C5 as [C5 | C5]; [apply N.eqb_eq in C5; contradiction | apply mem_In; auto].
Qed.

Lemma err_ok_closed_a : forall s T, linv s T -> ainv s T -> hasm s T -> err_ok (getc s T) = true ->
  exists k0, In k0 (lm s T) /\ lamk s T k0 = None /\
    (kget s T k0 = RolledBack \/ (kget s T k0 = Unlocked /\ kc s T KSent k0 = kc s T KNegD k0)).
Proof.
  intros s T L A Hm H. unfold err_ok in H. apply orb_true_iff in H. destruct H as [H | H].
  - exfalso. unfold hasm, F in Hm. apply negb_true_iff in H. apply fb_false in H. contradiction.
  - apply existsb_exists in H. destruct H as [k0 [H1 H2]]. apply N.eqb_eq in H2. exists k0. split; auto.
    destruct (a_cnt _ _ A k0) as [B1 B2]. pose proof (l_cntle _ _ L k0) as B3. unfold kc in *.
    assert (El : lamk s T k0 = None).
    { destruct (lamk s T k0) eqn:E; auto. exfalso. pose proof (l_lamcnt _ _ L _ _ E) as Lt. unfold kc in Lt. lia. }
    split; auto. destruct (kget s T k0) eqn:Ek.
    + right. split; auto. lia.
    + exfalso. pose proof (l_locked _ _ L _ _ Ek). congruence.
    + exfalso. destruct (a_commit _ _ A _ _ Ek) as [S _]. apply (S k0 H1). auto.
    + left. auto.
Qed.

(* a step that leaves the store, the deliveries, the resolve log, the ghost map and the mutation list of T alone and sends at
   most a rollback request or an async prewrite request keeps the twelve fields of ainv that read only those; the six that
   read the counters, FMinc, F1pcTs or FTold are the caller's *)
Lemma ainv_keep : forall s s' T, ainv s T ->
  (forall k, kget s' T k = kget s T k) -> s_dlv s' = s_dlv s -> s_rs s' = s_rs s ->
  (forall x, In x (s_sent s') -> In x (s_sent s) \/ (exists r ks, x = ERbSend r T ks) \/
                                  exists r p ks o m f secs, x = EPwSend r T p ks true o m f secs) ->
  c_lam (getc s' T) = c_lam (getc s T) -> c_lm (getc s' T) = c_lm (getc s T) -> prim s' T = prim s T ->
  (NSa s T -> NSa s' T) ->
  F s' T F1pcTs = 0 ->
  (forall k, kc s' T KDlv k <= kc s' T KSent k /\ kc s' T KNeg k <= kc s' T KNegD k) ->
  (forall k, In k (lm s' T) -> In k (pwok s' T) -> exists m, m <= F s' T FMinc /\ (lamk s' T k = Some m \/ kget s' T k = Committed m)) ->
  (F s' T FMinc = 0 \/ exists k, In k (lm s' T) /\ (lamk s' T k = Some (F s' T FMinc) \/ kget s' T k = Committed (F s' T FMinc))) ->
  ((F s' T FTold = 3 \/ exists r ks, In (ERbSend r T ks) (s_sent s')) -> NSa s' T) ->
  (F s' T FTold = 1 -> Sealed s' T /\ forall k, In k (call s' T) -> kc s' T KSent k = kc s' T KRep k) ->
  ainv s' T.
Proof.
  intros s s' T A K Hd Hr Hs E2 E3 Ep En H1 Hc Hm Hm2 Hdead Htold.
  destruct (lam_lm_same s s' T E2 E3) as [El [Em [Es Ec]]].
  assert (Hs' : forall x, (forall r ks, x <> ERbSend r T ks) -> (forall r p ks o m f secs, x <> EPwSend r T p ks true o m f secs) ->
                 In x (s_sent s') -> In x (s_sent s)).
  { intros x Hx Hy Hi. destruct (Hs x Hi) as [B | [[r [ks B]] | [r [p [ks [o [m [f [secs B]]]]]]]]]; auto; exfalso; [eapply Hx | eapply Hy]; eauto. }
  (* six fields are hypotheses; elsewhere only the field's own premises need rewriting *)
  constructor; intros; auto; try rewrite ?El, ?Em, ?Es, ?Ec, ?Ep, ?K, ?Hd, ?Hr in H; try rewrite ?K in H0;
    rewrite ?El, ?Em, ?Es, ?Ec, ?Ep, ?K, ?Hd, ?Hr.
  - destruct (Hs _ H) as [B | [[r0 [ks0 B]] | [r0 [p0 [ks0 [o0 [m0 [f0 [secs0 B]]]]]]]]]; [eapply (a_send _ _ A); eauto | discriminate B | inversion B; auto].
  - destruct (a_entry _ _ A _ _ _ _ H) as [B1 [B2 B4]]. repeat split; auto. intros k Hk. rewrite ?K, ?El. auto.
  - eapply (a_lam _ _ A); eauto.
  - apply (a_commit _ _ A _ _ H).
  - apply En. eapply (a_rb _ _ A); eauto.
  - apply Hs' in H; [| discriminate ..]. apply (a_cmsent _ _ A _ _ _ H).
  - eapply (a_rsk _ _ A); eauto.
  - destruct (a_rsa _ _ A _ H) as [B1 B2]. split; auto.
  - apply (a_ctsl _ _ A _ _ _ _ _ H).
  - destruct (a_csll _ _ A _ _ _ H) as [B1 B2]. split; auto. intros k M Hk. rewrite El. auto.
  - destruct (a_cslc _ _ A _ _ _ H) as [B1 B2]. split; auto.
  - apply Hs' in H; [| discriminate ..]. eapply (a_cslsent _ _ A); eauto.
Qed.

(* the owner's record changes only in FTold / FDead *)
Lemma ainv_flags : forall s s' T, ainv s T ->
  (forall k, kget s' T k = kget s T k) -> s_dlv s' = s_dlv s -> s_rs s' = s_rs s ->
  (forall x, In x (s_sent s') -> In x (s_sent s) \/ ((exists r ks, x = ERbSend r T ks) /\ NSa s' T)) ->
  c_kl (getc s' T) = c_kl (getc s T) -> c_lam (getc s' T) = c_lam (getc s T) -> c_lm (getc s' T) = c_lm (getc s T) ->
  c_pwok (getc s' T) = c_pwok (getc s T) ->
  (forall f, f <> FTold -> f <> FDead -> cn (getc s' T) f = cn (getc s T) f) ->
  (cn (getc s T) FTold <> 0 -> cn (getc s' T) FTold = cn (getc s T) FTold) ->
  (cn (getc s T) FDead <> 0 -> cn (getc s' T) FDead <> 0) ->
  (F s' T FTold = 3 -> F s T FTold = 3 \/ NSa s' T) ->
  (F s' T FTold = 1 -> Sealed s' T /\ forall k, In k (call s' T) -> kc s' T KSent k = kc s' T KRep k) ->
  ainv s' T.
Proof.
  intros s s' T A K Hd Hr Hs E1 E2 E3 E5 Ef Et Ed Hdead Htold.
  destruct (lam_lm_same s s' T E2 E3) as [El [Em _]].
  assert (Ek : forall t k, kc s' T t k = kc s T t k) by (intros; unfold kc, kcnt; rewrite E1; auto).
  assert (Emc : F s' T FMinc = F s T FMinc) by (unfold F; apply Ef; discriminate).
  assert (En : NSa s T -> NSa s' T).
  { intros [k0 [K1 [K2 K3]]]. exists k0. rewrite Em, El, K. repeat split; auto.
    destruct K3 as [K3 | [K3 [K4 K5]]]; [left; auto | right]. repeat split; auto; [| rewrite !Ek; auto].
    unfold F in *. destruct K4 as [K4 | K4]; [left; rewrite Et; auto | right; auto]. }
  apply (ainv_keep s s' T A K Hd Hr); auto.
  - intros x Hx. destruct (Hs x Hx) as [B | [B _]]; auto.
  - unfold prim, F. apply Ef; discriminate.
  - unfold F. rewrite Ef by discriminate. apply (a_1pcts _ _ A).
  - intros k. rewrite !Ek. apply (a_cnt _ _ A).
  - intros k H H0. rewrite Em in H. unfold pwok in *. rewrite E5 in H0. destruct (a_minc _ _ A _ H H0) as [m [B1 B2]]. exists m. rewrite Emc, K, El. auto.
  - rewrite Emc, Em. destruct (a_minc2 _ _ A) as [B | [k [B1 B2]]]; [left; auto | right; exists k; rewrite K, El; auto].
  - intros [H | [r [ks H]]]; [destruct (Hdead H) as [B | B] | destruct (Hs _ H) as [B | [_ B]]]; auto; apply En; apply (a_dead _ _ A); eauto.
Qed.

Lemma asyncm_cp : forall s T, asyncm s T -> commit_point_pw (getc s T) = true /\ async_kept (getc s T) = true /\ fb (getc s T) FHasm = true.
Proof.
  intros s T [H0 [H1 [H2 [H3 H4]]]]. unfold commit_point_pw, async_kept, hasm, F in *.
  apply fb_true in H1. rewrite H1. rewrite (proj2 (fb_false _ _) H3). repeat split; auto. apply fb_true. auto.
Qed.

Lemma asyncm_cpa : forall s T, asyncm s T -> cp_active (getc s T) = true.
Proof. intros s T Am. destruct (asyncm_cp _ _ Am) as [_ [H _]]. unfold cp_active. rewrite H. reflexivity. Qed.

Lemma ainv_rb_send : forall s s' r T ks, Linv s -> stepr s (ERbSend r T ks) = Ok s' -> asyncm s T -> ainv s T -> ainv s' T.
Proof.
  intros s s' r T ks HL H Am A. pose proof (HL T) as L. pose proof (asyncm_cpa _ _ Am) as Hcp. pose proof (proj1 Am) as Hm.
  cbn [stepr] in H. unfold step_rb_send in H. chks H. okinv H.
  apply andb_true_iff in C0. destruct C0 as [_ C0]. rewrite Hcp in C0. cbn [negb orb] in C0.
  destruct (err_ok_closed_a _ _ L A Hm C0) as [k0 [K1 [K2 K3]]].
  assert (N : NSa (setc (add_sent s (ERbSend r T ks)) T (setn (getc s T) FDead 1)) T).
  { exists k0. unfold lm, lamk, kc, F. rd. repeat split; auto.
    destruct K3 as [K3 | [K3 K4]]; [left; auto | right]. repeat split; auto. right. discriminate. }
  apply (ainv_flags s _ T A); try reflexivity; rd; try reflexivity.
  - intros x [Hx | Hx]; [right; eauto | left; auto].
  - intros f Hf1 Hf2. rewrite cn_setn_ne; auto.
  - intros. rd. discriminate.
  - auto.
  - intros Ht. unfold F in Ht. rd. exfalso. destruct (a_told _ _ A Ht) as [S _]. apply (S k0 K1). auto.
Qed.

Lemma ainv_told : forall s s' T x, Inv s -> Linv s -> stepr s (ETold T x) = Ok s' -> asyncm s T -> ainv s T -> ainv s' T.
Proof.
  intros s s' T x HI HL H Am A. destruct (HI T) as [G _]. pose proof (HL T) as L.
  destruct (asyncm_cp _ _ Am) as [_ [Hak Hh]]. pose proof (asyncm_cpa _ _ Am) as Hcp. pose proof (proj1 Am) as Hm.
  destruct (told_spec _ _ _ _ H) as [C0 Hx]. clear H. unfold F in C0.
  destruct x; [destruct Hx as [-> [C1 CR]] | subst s' | destruct Hx as [-> [_ [Herr _]]]].
  - specialize (C1 Hak).
    apply (ainv_flags s _ T A); try reflexivity; rd; try reflexivity; auto.
    + intros f Hf1 Hf2. rewrite cn_setn_ne; auto.
    + intros. congruence.
    + intros Ht. unfold F in Ht. rd. discriminate.
    + intros _. split.
      * destruct CR as [CR | [CR | [[_ CR] | CR]]]; [| | | contradiction].
        -- pose proof (l_pcok _ _ L Hm CR) as E. destruct (a_commit _ _ A _ _ E) as [S _].
           unfold Sealed, lm, lamk in *. rd. auto.
        -- exfalso. apply CR. apply (a_1pcts _ _ A).
        -- intros k Hk. unfold lm, lamk in *. rd. pose proof (CR k Hk) as Hp.
           destruct (a_minc _ _ A _ Hk Hp) as [m [_ [E | E]]]; [unfold lamk, lam in *; cbn [c_lam setn] in *; congruence |].
           destruct (a_commit _ _ A _ _ E) as [S _]. apply (S k Hk).
      * intros k Hk. unfold call, kc in *. rd. unfold pw_closed in C1. pose proof (forallb_In _ _ _ C1 Hk) as B. apply N.eqb_eq in B. auto.
  - apply (ainv_flags s _ T A); try reflexivity; rd; try reflexivity; auto.
    + intros f Hf1 Hf2. rewrite !cn_setn_ne; auto.
    + intros. congruence.
    + intros. discriminate.
    + intros Ht. unfold F in Ht. rd. discriminate.
    + intros Ht. unfold F in Ht. rd. discriminate.
  - destruct (err_ok_closed_a _ _ L A Hm (Herr Hcp)) as [k0 [K1 [K2 K3]]].
    apply (ainv_flags s _ T A); try reflexivity; rd; try reflexivity; auto.
    + intros f Hf1 Hf2. rewrite !cn_setn_ne; auto.
    + intros. congruence.
    + intros. discriminate.
    + intros _. right. exists k0. unfold lm, lamk, kc, F. rd. repeat split; auto.
      destruct K3 as [K3 | [K3 K4]]; [left; auto | right]. repeat split; auto. left. discriminate.
    + intros Ht. unfold F in Ht. rd. discriminate.
Qed.

(* while the owner has neither told nor given up, NSa can only rest on a rollback marker *)
Lemma NSa_rolledback : forall s T, F s T FTold = 0 -> F s T FDead = 0 -> NSa s T ->
  exists k0, In k0 (lm s T) /\ lamk s T k0 = None /\ kget s T k0 = RolledBack.
Proof. intros s T H1 H2 [k0 [K1 [K2 [K3 | [_ [[K3 | K3] _]]]]]]; eauto; contradiction. Qed.

(* before its first prewrite request nothing of a transaction exists that ainv speaks about *)
Lemma ainv_fresh : forall s T, ginv s T -> linv s T -> l0inv s T -> l1inv s T -> hasm s T ->
  F s T FPwSent = 0 -> F s T FTold = 0 -> F s T FDead = 0 -> ainv s T.
Proof.
  intros s T G L Z Y Hm E0 Et Ed.
  destruct (fresh_no_pw s T G E0) as [NoS NoD].
  destruct (y_lam0 _ _ Y E0) as [Y1 [Y2 Y3]].
  assert (L0 : forall k, lamk s T k = None) by (intros; unfold lamk, lam; rewrite Y1; reflexivity).
  destruct (z_untried s T Z E0) as [NoA _].
  assert (KF : forall k, kget s T k = Unlocked \/ kget s T k = RolledBack) by (intros; apply (g_kst_fresh _ _ G); auto).
  constructor; intros.
  - exfalso. eapply NoS; eauto.
  - exfalso. eapply NoD; eauto.
  - destruct (N.eq_dec (F s T F1pcTs) 0) as [Ez | Ez]; auto.
    exfalso. apply (z_tried _ _ Z); [right; apply (g_1pcts _ _ G); auto | auto].
  - rewrite L0 in H. discriminate.
  - unfold kc, kcnt. rewrite (z_cnt0 _ _ Z E0). cbn. split; lia.
  - exfalso. destruct (KF k); congruence.
  - exists k. auto.
  - exfalso. apply (y_cm _ _ Y Hm) in H. contradiction.
  - eapply (y_rsk _ _ Y); eauto.
  - exfalso. apply (g_jasync _ _ G) in H. contradiction.
  - exfalso. apply (g_async_cts _ _ G) in H. contradiction.
  - exfalso. apply (l_csl_sent _ _ L) in H. apply (y_csl _ _ Y) in H. contradiction.
  - exfalso. apply (l_csl_sent _ _ L) in H. apply (y_csl _ _ Y) in H. contradiction.
  - exfalso. apply (y_csl _ _ Y) in H. contradiction.
  - exfalso. unfold pwok in H0. rewrite Y2 in H0. destruct H0.
  - left. exact Y3.
  - exfalso. destruct H as [H | [r [ks H]]]; [congruence | apply (g_rb_dead _ _ G) in H; contradiction].
  - exfalso. congruence.
Qed.

Lemma ainv_pw_send : forall s s' r T p ks a o m f secs, Inv s -> Linv s -> Zinv s -> Yinv s ->
  stepr s (EPwSend r T p ks a o m f secs) = Ok s' -> (asyncm s T -> ainv s T) -> asyncm s' T -> ainv s' T.
Proof.
  intros s s' r T p ks a o m f secs HI HL HZ HY H AI [Hm' [H1' [H2' [H3' H4']]]].
  destruct (HI T) as [G _]. pose proof (HL T) as L. pose proof (HZ T) as Z. pose proof (HY T) as Y.
  destruct (stepr_fps _ _ _ T H) as [[Af R8 R9 R10 _ _ R11] _].
  specialize (R8 eq_refl). specialize (R9 eq_refl). specialize (R10 eq_refl). specialize (R11 eq_refl).
  destruct (pw_send_spec _ _ _ _ _ _ _ _ _ _ _ H) as [Es0 Ct Cd _ _ _ E3 _ _ _].
  unfold hasm, F in *. rewrite E3 in H3'. destruct a; [| discriminate H3'].
  pose proof (pw_send_cnt _ _ _ _ _ _ _ _ _ _ _ H) as Cn. remember (getc s' T) as c' eqn:Gc. clear Gc H. subst s'.
  assert (Rf : forall f0, f0 <> FPwSent -> f0 <> FTriedA -> f0 <> FFb1 -> f0 <> FTried1 -> cn c' f0 = cn (getc s T) f0).
  { intros f0 A1 A2 A3 A4. destruct f0; try (apply Af; reflexivity); try contradiction. exact E3. }
  assert (H2 : no1pc s T) by (intros r0 ks0 m0 o0 Hi; apply (H2' r0 ks0 m0 o0); exact Hi). clear H2' Af E3.
  rewrite (Rf FHasm), (Rf FStFb) in * by discriminate.
  assert (NoRb : forall r0 ks0, ~ In (ERbSend r0 T ks0) (s_sent s)).
  { intros r0 ks0 Hi. apply (g_rb_dead _ _ G) in Hi. unfold F in Hi. congruence. }
  assert (El : forall k, lam c' k = lam (getc s T) k) by (intros; unfold lam; rewrite R11; auto).
  assert (HA : ainv s T).
  { destruct (N.eq_dec (cn (getc s T) FPwSent) 0) as [E0 | En0]; [apply ainv_fresh; auto |].
    apply AI. destruct (z_mode _ _ Z En0) as [_ [B | B]]; repeat split; auto; unfold F in *; congruence. }
  assert (En : NSa s T -> NSa (setc (add_sent s (EPwSend r T p ks true o m f secs)) T c') T).
  { intros N. destruct (NSa_rolledback s T) as [k0 [K1 [K2 K3]]]; auto.
    exists k0. unfold lm, lamk, F in *. rd. rewrite El, R8. auto. }
  pose proof (Cn (a_cnt _ _ HA)) as Cn'. apply (ainv_keep s _ T HA); try reflexivity; auto; unfold call, kc, lm, lamk, prim, pwok, F; rd.
  - intros x [<- | Hx]; [right; right; eauto 10 | left; exact Hx].
  - exact R11.
  - exact R8.
  - apply Rf; discriminate.
  - rewrite (Rf F1pcTs) by discriminate. apply (a_1pcts _ _ HA).
  - rewrite R8, R10, (Rf FMinc) by discriminate. intros k H H0. rewrite El. apply (a_minc _ _ HA _ H H0).
  - rewrite R8, (Rf FMinc) by discriminate. destruct (a_minc2 _ _ HA) as [B | [k [B1 B2]]]; [left; exact B | right; exists k; rewrite El; auto].
  - rewrite (Rf FTold) by discriminate. intros H. apply En. apply (a_dead _ _ HA). destruct H as [H | [r0 [ks0 [H | H]]]]; [left; exact H | discriminate H | right; eauto].
  - rewrite (Rf FTold) by discriminate. intros H. exfalso. congruence.
Qed.

Lemma ainv_pw_reply : forall s s' r T ks x, Inv s -> Linv s -> stepr s (EPwReply r T ks x) = Ok s' ->
  (asyncm s T -> ainv s T) -> asyncm s' T -> ainv s' T.
Proof.
  intros s s' r T ks x HI HL H AI [Hm' [H1' [H2' [H3' H4']]]]. destruct (HI T) as [G _]. pose proof (HL T) as L.
  destruct (stepr_fps _ _ _ T H) as [[Af Alm Aall _ _ Akc Alam] _].
  destruct (pw_reply_spec _ _ _ _ _ _ H) as [Es0 C0 Cg Rfb _ R1p Rm R10 Rk].
  destruct (setc_frame _ _ _ _ Es0) as [Kg [Esn [Ed Ers]]]. clear Es0.
  assert (H2 : no1pc s T) by (intros r0 ks0 m0 o0 Hi; apply (H2' r0 ks0 m0 o0); rewrite Ed; exact Hi). clear H2'.
  unfold hasm, F in *. rewrite (Af FHasm eq_refl) in Hm'. rewrite (Af FTriedA eq_refl) in H1'. rewrite (Af FStFb eq_refl) in H4'.
  destruct (Rfb H3') as [H3 Hm0].
  assert (Am : asyncm s T) by (repeat split; auto).
  pose proof (AI Am) as HA. destruct (asyncm_cp _ _ Am) as [Hcp _]. specialize (Cg Hcp).
  destruct (lam_lm_same s s' T (Alam eq_refl) (Alm eq_refl)) as [El [Em [Es Ec]]].
  assert (Ep : prim s' T = prim s T) by (apply (Af FPrim eq_refl)).
  assert (Et : F s' T FTold = F s T FTold) by (apply (Af FTold eq_refl)).
  assert (Edd : F s' T FDead = F s T FDead) by (apply (Af FDead eq_refl)).
  assert (Ekc : forall k, kc s' T KSent k = kc s T KSent k /\ kc s' T KNegD k = kc s T KNegD k)
    by (intros; unfold kc; rewrite !Akc by reflexivity; auto).
  assert (En : NSa s T -> NSa s' T).
  { intros [k0 [K1 [K2 K3]]]. exists k0. rewrite Em, El, Kg, Et, Edd. destruct (Ekc k0) as [E1 E2]. rewrite E1, E2. auto. }
  set (bm := negb (fb (getc s T) FHasm) || existsb (fun k => mem k (c_lm (getc s T))) ks) in *.
  assert (Emc : F s' T FMinc = match x with PwOk m _ => if bm then N.max (F s T FMinc) m else F s T FMinc | _ => F s T FMinc end) by exact Rm.
  assert (Epw : pwok s' T = (match x with PwOk _ _ => ks | _ => [] end) ++ pwok s T) by exact R10.
  (* what an ok reply tells about its keys *)
  assert (Hent : forall m o, x = PwOk m o -> o = 0 /\ m <> 0 /\
                  forall k, In k ks -> lamk s T k = Some m \/ kget s T k = Committed m).
  { intros m o ->. apply (a_entry _ _ HA _ _ _ _ C0). }
  assert (Hbm : bm = true <-> exists k, In k ks /\ In k (lm s T)).
  { unfold bm. rewrite (proj2 (fb_true _ _) Hm'). cbn [negb orb]. unfold lm. rewrite existsb_exists.
    split; intros [k [K1 K2]]; exists k; split; auto; apply mem_In; auto. }
  apply (ainv_keep s s' T HA (Kg T) Ed Ers); auto.
  - rewrite Esn. auto.
  - unfold F. rewrite R1p. destruct x as [m o | |]; try apply (a_1pcts _ _ HA).
    destruct (Hent m o eq_refl) as [-> _]. apply (a_1pcts _ _ HA).
  - apply (pw_reply_cnt _ _ _ _ _ _ H Hcp (a_cnt _ _ HA)).
  - (* the owner's view of the min-commit ts *)
    intros k H0 H1. rewrite Em in H0. rewrite El, Kg, Emc. rewrite Epw in H1. apply in_app_or in H1. destruct H1 as [H1 | H1].
    + destruct x as [m o | |]; try (destruct H1; fail). destruct (Hent m o eq_refl) as [_ [_ B4]].
      assert (Eb : bm = true) by (apply Hbm; exists k; auto). rewrite Eb.
      exists m. split; [lia | apply B4; auto].
    + destruct (a_minc _ _ HA _ H0 H1) as [m' [B1 B2]]. exists m'. split; auto. destruct x; try destruct bm; lia.
  - assert (Old : F s T FMinc = 0 \/ exists k, In k (lm s T) /\ (lamk s' T k = Some (F s T FMinc) \/ kget s' T k = Committed (F s T FMinc))).
    { destruct (a_minc2 _ _ HA) as [Bz | [k0 [Bz1 Bz2]]]; [left; auto | right; exists k0; rewrite El, Kg; auto]. }
    rewrite Em, Emc. destruct x as [m o | |]; try exact Old. destruct bm eqn:Eb; [| exact Old].
    destruct (Hent m o eq_refl) as [_ [Hn B4]]. destruct (proj1 Hbm eq_refl) as [k [K1 K2]].
    destruct (N.le_gt_cases m (F s T FMinc)) as [Le | Gt].
    + replace (N.max (F s T FMinc) m) with (F s T FMinc) by lia. exact Old.
    + replace (N.max (F s T FMinc) m) with m by lia. right. exists k. rewrite El, Kg. split; auto.
  - intros H0. rewrite Et, Esn in H0. apply En. apply (a_dead _ _ HA). exact H0.
  - intros H0. rewrite Et in H0. rewrite Es. destruct (a_told _ _ HA H0) as [B1 B2]. split; auto. intros k Hk. unfold call in Hk. rewrite (Aall eq_refl) in Hk.
    destruct (Ekc k) as [E1 _]. rewrite E1. unfold kc. destruct (Rk k) as [E4 _]. rewrite E4.
    specialize (B2 k Hk). unfold kc in *. destruct (in_dec N.eq_dec k ks) as [Hk2 | Hk2]; [| rewrite (occ_zero _ _ Hk2); lia].
    destruct (Cg k Hk2) as [Cx _]. destruct (a_cnt _ _ HA k) as [B3 _]. unfold kc in B3.
    pose proof (occ_pos _ _ Hk2). lia.
Qed.

Lemma sealed_ext : forall s s' T, lm s' T = lm s T -> (forall k m, lamk s T k = Some m -> lamk s' T k = Some m) ->
  forall C, Sealed s T /\ C = cstar s T -> Sealed s' T /\ C = cstar s' T.
Proof.
  intros s s' T Em Hl C [S ->]. split.
  - intros k Hk. rewrite Em in Hk. specialize (S k Hk). destruct (lamk s T k) eqn:E; [| contradiction]. rewrite (Hl _ _ E). discriminate.
  - symmetry. unfold cstar. rewrite Em. apply fold_max_ext_in. intros k Hk. unfold lam0. specialize (S k Hk).
    destruct (lamk s T k) eqn:E; [| contradiction]. rewrite (Hl _ _ E). auto.
Qed.

Lemma ainv_pw_deliver : forall s s' r T ks x, Inv s -> Linv s -> stepr s (EPwDeliver r T ks x) = Ok s' ->
  (asyncm s T -> ainv s T) -> asyncm s' T -> ainv s' T.
Proof.
  intros s s' r T ks x HI HL H AI [Hm' [H1' [H2' [H3' H4']]]]. destruct (HI T) as [G _]. pose proof (HL T) as L.
  pose proof (stepr_kmono _ _ _ H) as KM.
  destruct (stepr_fps _ _ _ T H) as [[Af R8 R9 R10 _ Akc _] _]. specialize (R8 eq_refl). specialize (R9 eq_refl). specialize (R10 eq_refl).
  destruct (pw_deliver_spec _ _ _ _ _ _ H) as [_ Hd' Hsn Hrs _ Hcnt Ch Rst Rl Rk2].
  set (fresh := pw_fresh s T ks) in *. unfold hasm, F in *.
  remember (getc s' T) as c' eqn:Gc. symmetry in Gc.
  assert (Rf : forall f0, f0 <> FStFb -> cn c' f0 = cn (getc s T) f0).
  { intros f0 Hf. apply Af. destruct f0; try reflexivity. exfalso. apply Hf. reflexivity. }
  assert (Rk : forall k, kcnt c' KSent k = kcnt (getc s T) KSent k /\ kcnt c' KRep k = kcnt (getc s T) KRep k /\
                         kcnt c' KNegD k = (match x with PwOk _ _ => 0 | _ => occ k ks end) + kcnt (getc s T) KNegD k).
  { intros k. destruct (Rk2 k). rewrite !Akc by reflexivity. auto. }
  pose proof (pw_deliver_cnt _ _ _ _ _ _ H L) as Cn. pose proof (fun k => stepr_lam _ _ _ T k H L) as Sl. clear Af Akc Rk2 H.
  rewrite (Rf FHasm), (Rf FTriedA), (Rf FFb) in * by discriminate. destruct (Rst H4') as [H4 Hm0].
  assert (H2 : no1pc s T) by (intros r0 ks0 m0 o0 Hi; apply (H2' r0 ks0 m0 o0); rewrite Hd'; right; exact Hi).
  assert (Am : asyncm s T) by (repeat split; auto).
  pose proof (AI Am) as HA. destruct (asyncm_cp _ _ Am) as [Hcp [_ Hh]]. specialize (Hcnt Hcp).
  assert (Hx2 : forall m o, x = PwOk m o -> o = 0 /\ m <> 0).
  { intros m o ->. assert (o = 0) as -> by (apply (H2' r ks m o); rewrite Hd'; left; reflexivity).
    split; auto. apply (Hm0 m eq_refl Hcp). }
  assert (Kk : forall k, (In k ks /\ exists m, x = PwOk m 0 /\
                          ((kget s T k = Unlocked /\ kget s' T k = Locked m /\ mem k fresh = true) \/
                           (kget s' T k = kget s T k /\ mem k fresh = false /\ (lam (getc s T) k = Some m \/ kget s T k = Committed m)))) \/
                         (kget s' T k = kget s T k /\ (forall m o, x = PwOk m o -> ~ In k ks))).
  { intros k. specialize (Ch k). destruct x as [m o | |]; [| right; split; [exact Ch | discriminate] ..].
    destruct (Hx2 m o eq_refl) as [-> Hmn]. cbn [N.eqb] in Ch. destruct Ch as [[Hk [A Mc]] | [Hk A]].
    - left. split; auto. exists m. split; auto. specialize (Mc eq_refl). unfold mc_consistent in Mc.
      destruct (kget s T k) eqn:Ek; cbn in A; inversion A.
      + left. repeat split; auto. apply pw_fresh_In. auto.
      + right. repeat split; auto; [apply pw_fresh_locked; rewrite Ek; discriminate |]. left. pose proof (l_locked _ _ L _ _ Ek) as El. unfold lamk in El.
        pose proof (a_lam _ _ HA _ _ El). apply orb_true_iff in Mc. destruct Mc as [Mc | Mc]; apply N.eqb_eq in Mc; congruence.
      + right. repeat split; auto; [apply pw_fresh_locked; rewrite Ek; discriminate |]. right. apply orb_true_iff in Mc. destruct Mc as [Mc | Mc]; apply N.eqb_eq in Mc; congruence.
    - right. split; auto. }
  assert (Em : lm s' T = lm s T) by (unfold lm; rewrite Gc; auto).
  assert (Elk : forall k m, lamk s T k = Some m -> lamk s' T k = Some m) by (intros k; apply (Sl k)).
  assert (Kc : forall k c, kget s' T k = Committed c -> kget s T k = Committed c).
  { intros k c Hc. destruct (Kk k) as [[_ [m [_ [[_ [A _]] | [A _]]]]] | [A _]]; congruence. }
  assert (Kr : forall k, kget s' T k = RolledBack -> kget s T k = RolledBack).
  { intros k Hc. destruct (Kk k) as [[_ [m [_ [[_ [A _]] | [A _]]]]] | [A _]]; congruence. }
  assert (Eor : forall k m, lamk s T k = Some m \/ kget s T k = Committed m -> lamk s' T k = Some m \/ kget s' T k = Committed m).
  { intros k m [A | A]; [left; auto | right; eapply km_committed; eauto]. }
  assert (En : NSa s T -> NSa s' T).
  { intros [k0 [K1 [K2 K3]]]. exists k0. rewrite Em. split; auto. destruct K3 as [K3 | [K3 [K4 K5]]].
    - (* a rollback marker stays, and only an unlocked key gets an entry *)
      split; [| left; eapply km_rolledback; eauto]. destruct (lamk s' T k0) eqn:E0; auto. exfalso.
      destruct (proj2 (Sl k0) _ E0) as [E1 | [Eu _]]; congruence.
    - (* a closed key is in no request that can still be delivered *)
      assert (Hk : ~ In k0 ks).
      { intros Hk. pose proof (Hcnt k0 Hk). pose proof (occ_pos _ _ Hk). pose proof (l_cntle _ _ L k0) as D. unfold kc in *. lia. }
      assert (Ek : kget s' T k0 = kget s T k0) by (destruct (Kk k0) as [[Hk2 _] | [A _]]; [contradiction | exact A]).
      split.
      + unfold lamk. rewrite Gc, Rl. destruct x as [m o | |]; auto. destruct (o =? 0); cbn [andb]; auto.
        destruct (mem k0 fresh) eqn:M; auto. apply pw_fresh_In in M. destruct M. contradiction.
      + right. rewrite Ek. split; auto. split; [unfold F; rewrite Gc, (Rf FTold), (Rf FDead) by discriminate; auto |].
        unfold kc in *. rewrite Gc. destruct (Rk k0) as [E1 [_ E5]]. rewrite E1, E5, (occ_zero _ _ Hk). destruct x; exact K5. }
  pose proof (sealed_ext s s' T Em Elk) as Ese.
  constructor; intros.
  - rewrite Hsn in H. eapply (a_send _ _ HA); eauto.
  - rewrite Hd' in H. destruct H as [H | H].
    + inversion H. subst r0 ks0 x. destruct (Hx2 m o eq_refl) as [-> Hmn]. repeat split; auto.
      intros k Hk. destruct (Kk k) as [[_ [m1 [Ex [[A1 [A2 A3]] | [A1 [A2 A3]]]]]] | [_ A1]].
      * inversion Ex. subst m1. left. unfold lamk. rewrite Gc, Rl. cbn [N.eqb andb]. rewrite A3. auto.
      * inversion Ex. subst m1. apply Eor. auto.
      * exfalso. eapply A1; eauto.
    + destruct (a_entry _ _ HA _ _ _ _ H) as [B1 [B2 B4]]. repeat split; auto.
  - unfold F. rewrite Gc, (Rf F1pcTs) by discriminate. apply (a_1pcts _ _ HA).
  - destruct (proj2 (Sl k) _ H) as [H0 | [_ [r0 [ks0 [Ee _]]]]]; [eapply (a_lam _ _ HA); eauto |].
    inversion Ee. subst. destruct (Hx2 _ _ eq_refl). auto.
  - exact (Cn Hcp (a_cnt _ _ HA) k).
  - apply Kc in H. apply Ese. apply (a_commit _ _ HA _ _ H).
  - rewrite Em in H. apply En. apply (a_rb _ _ HA k H). apply Kr. exact H0.
  - rewrite Hsn in H. apply Ese. apply (a_cmsent _ _ HA _ _ _ H).
  - rewrite Hrs in H. unfold prim, F. rewrite Gc, (Rf FPrim) by discriminate. eapply (a_rsk _ _ HA); eauto.
  - rewrite Hrs in H. destruct (a_rsa _ _ HA _ H) as [B1 B2]. split; auto.
  - rewrite Hd' in H. destruct H as [H | H]; [discriminate H |]. destruct (a_ctsl _ _ HA _ _ _ _ _ H) as [B1 [B2 B3]].
    unfold prim, F. rewrite Gc, (Rf FPrim) by discriminate. rewrite Em. auto.
  - rewrite Hd' in H. destruct H as [H | H]; [discriminate H |]. destruct (a_csll _ _ HA _ _ _ H) as [B1 B2]. split; auto.
  - rewrite Hd' in H. destruct H as [H | H]; [discriminate H |]. destruct (a_cslc _ _ HA _ _ _ H) as [B1 B2]. split; auto.
  - rewrite Hsn in H. rewrite Em. eapply (a_cslsent _ _ HA); eauto.
  - rewrite Em in H. unfold pwok in H0. rewrite Gc, R10 in H0. destruct (a_minc _ _ HA _ H H0) as [m [B1 B2]]. exists m.
    unfold F. rewrite Gc, (Rf FMinc) by discriminate. split; auto.
  - unfold F. rewrite Gc, (Rf FMinc) by discriminate. rewrite Em.
    destruct (a_minc2 _ _ HA) as [B | [k [B1 B2]]]; [left; auto | right; exists k; auto].
  - apply En. apply (a_dead _ _ HA). unfold F in H. rewrite Gc, (Rf FTold) in H by discriminate.
    destruct H as [H | [r0 [ks0 H]]]; [left; auto | right; exists r0, ks0; rewrite <- Hsn; auto].
  - unfold F in H. rewrite Gc, (Rf FTold) in H by discriminate. destruct (a_told _ _ HA H) as [B1 B2]. destruct (Ese _ (conj B1 eq_refl)) as [S3 _]. split; auto.
    intros k Hk. unfold call in Hk. rewrite Gc, R9 in Hk. specialize (B2 k Hk). unfold kc in *. rewrite Gc.
    destruct (Rk k) as [E1 [E3 _]]. rewrite E1, E3. auto.
Qed.
