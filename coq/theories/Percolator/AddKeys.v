(* Percolator/AddKeys.v — the fold asyncResolveData.addKeys of txnkv/txnlock/lock_resolver.go
   (lines 1101-1173) as driven by checkAllSecondaries / checkSecondaries (lines 1175-1368).

   checkAllSecondaries creates   shared = { commitTs: primaryLock.MinCommitTs, missingLock: false }
   and lets one goroutine per region call  shared.addKeys(resp.Locks, len(keys), txnID, resp.CommitTs)
   under shared.mutex, in whatever order the CheckSecondaryLocks replies arrive.  The first error
   makes checkAllSecondaries fail (the shared data is dropped); otherwise resolveAsyncCommitLock
   uses  status.commitTS := shared.commitTs  (0 = rolled back, <> 0 = committed at that ts).

   The model is the sequential fold over the arrival order of the replies; the theorems say what
   the fold computes and how far it is independent of that order.  `keys` (the list of keys to
   resolve) is not modelled: it does not influence commitTs / missingLock / the error status. *)
From Coq Require Import Lia NArith List Bool Permutation.
Import ListNotations.
Local Open Scope N_scope.

(* One CheckSecondaryLocks reply, as addKeys sees it:
   Missing c   : len(locks) < expected, response commit ts c (0 = rolled back);
   Present ms  : every key still locked, every lock passes the per-lock checks, the locks'
                 MinCommitTs in response order are ms;
   NonAsync    : every key still locked but some lock fails a per-lock check (UseAsyncCommit =
                 false -> nonAsyncCommitLock; LockVersion <> startTS -> "unexpected timestamp").
   The Go loop checks each lock just before using its MinCommitTs, so a bad lock at position k is
   met after commitTs was raised by locks 0..k-1; since addKeys then returns an error and the
   caller discards `shared`, modelling it as a whole-reply error is observationally the same. *)
Inductive reply := Missing (commit_ts : N) | Present (min_commits : list N) | NonAsync.

Record ard := { commit_ts : N; missing : bool }.

Definition init (primary_min_commit : N) : ard :=
  {| commit_ts := primary_min_commit; missing := false |}.

(* loop body, lock_resolver.go:1166-1168 *)
Definition add_lock (a : ard) (m : N) : ard :=
  if negb (missing a) && (commit_ts a <? m)
  then {| commit_ts := m; missing := missing a |}
  else a.

(* None = addKeys returns an error *)
Definition add_keys (a : ard) (r : reply) : option ard :=
  match r with
  | Missing c =>                                                   (* :1135 *)
      if negb (missing a) && (negb (c =? 0) && (c <? commit_ts a)) (* :1138,:1140 *)
      then None                                                    (* :1141 *)
      else
        let ts := if missing a then commit_ts a else c in          (* :1143 *)
        if negb (ts =? c) then None                                (* :1147 *)
        else Some {| commit_ts := ts; missing := true |}           (* :1145,:1152 *)
  | Present ms => Some (fold_left add_lock ms a)                   (* :1157-1172 *)
  | NonAsync => None                                               (* :1164 / :1161 *)
  end.

Definition bind_step (o : option ard) (r : reply) : option ard :=
  match o with Some a => add_keys a r | None => None end.

Definition fold_replies (a : ard) (rs : list reply) : option ard :=
  fold_left bind_step rs (Some a).

(* max of m and every min-commit ts of every Present reply *)
Fixpoint max_all (m : N) (rs : list reply) : N :=
  match rs with
  | [] => m
  | Present ms :: rs' => max_all (fold_left N.max ms m) rs'
  | _ :: rs' => max_all m rs'
  end.

(* What a real store can report for one transaction: a single outcome (all "lock missing" replies
   carry the same commit ts) and, if committed, a commit ts that is >= the min-commit ts of the
   primary and of every lock that was ever observed. *)
Definition consistent (m0 : N) (rs : list reply) : Prop :=
  forall c, In (Missing c) rs ->
    (forall c', In (Missing c') rs -> c' = c) /\
    (c <> 0 -> m0 <= c /\ forall ms m, In (Present ms) rs -> In m ms -> m <= c).

Lemma fold_none : forall rs, fold_left bind_step rs None = None.
Proof. induction rs; cbn [fold_left bind_step]; auto. Qed.

Lemma fold_cons : forall a r rs,
  fold_replies a (r :: rs) =
  match add_keys a r with Some b => fold_replies b rs | None => None end.
Proof.
  intros. unfold fold_replies. cbn [fold_left bind_step].
  destruct (add_keys a r); auto using fold_none.
Qed.

Lemma fold_nil : forall a, fold_replies a [] = Some a.
Proof. reflexivity. Qed.

Lemma fold_max_acc : forall ms x, fold_left N.max ms x = N.max x (fold_left N.max ms 0).
Proof.
  induction ms as [|m ms IH]; intros x; cbn [fold_left].
  - lia.
  - rewrite IH. rewrite (IH (N.max 0 m)). lia.
Qed.

Lemma fold_max_ge : forall ms x, x <= fold_left N.max ms x /\
  forall m, In m ms -> m <= fold_left N.max ms x.
Proof.
  induction ms as [|m ms IH]; intros x; cbn [fold_left].
  - split; [lia|intros ? []].
  - destruct (IH (N.max x m)) as [A B]. split; [lia|].
    intros m' [->|H]; [lia|auto].
Qed.

Lemma fold_max_attained : forall ms x, fold_left N.max ms x = x \/ In (fold_left N.max ms x) ms.
Proof.
  induction ms as [|m ms IH]; intros x; cbn [fold_left]; auto.
  destruct (IH (N.max x m)) as [E|E].
  - rewrite E. destruct (N.max_spec x m) as [[_ ->]|[_ ->]]; [right; left|left]; auto.
  - right; right; auto.
Qed.

Lemma fold_max_le : forall ms x c,
  x <= c -> (forall m, In m ms -> m <= c) -> fold_left N.max ms x <= c.
Proof. intros ms x c Hx Hms. destruct (fold_max_attained ms x) as [-> | H]; auto. Qed.

Lemma add_locks_missing : forall ms a, missing a = true -> fold_left add_lock ms a = a.
Proof.
  induction ms as [|m ms IH]; intros a Ha; cbn [fold_left]; auto.
  assert (E : add_lock a m = a) by (unfold add_lock; rewrite Ha; reflexivity).
  rewrite E; auto.
Qed.

Lemma add_locks_present : forall ms a, missing a = false ->
  fold_left add_lock ms a = {| commit_ts := fold_left N.max ms (commit_ts a); missing := false |}.
Proof.
  induction ms as [|m ms IH]; intros [t mi] Ha; cbn [missing commit_ts] in *; subst mi;
    cbn [fold_left].
  - reflexivity.
  - assert (E : add_lock {| commit_ts := t; missing := false |} m =
                {| commit_ts := N.max t m; missing := false |}).
    { unfold add_lock; cbn [missing commit_ts negb andb].
      destruct (N.ltb_spec t m); f_equal; lia. }
    rewrite E, IH by reflexivity. reflexivity.
Qed.

Lemma add_keys_missing_inv : forall a c b,
  add_keys a (Missing c) = Some b ->
  b = {| commit_ts := c; missing := true |} /\
  (if missing a then commit_ts a = c else c <> 0 -> commit_ts a <= c).
Proof.
  intros [t mi] c b; unfold add_keys; cbn [missing commit_ts]; destruct mi; cbn [negb andb].
  - destruct (N.eqb_spec t c); cbn [negb]; [|discriminate].
    intros H; inversion H; subst; auto.
  - rewrite N.eqb_refl; cbn [negb].
    destruct (N.eqb_spec c 0); cbn [negb andb].
    + intros H; inversion H; split; auto; intros; lia.
    + destruct (N.ltb_spec c t) as [Hlt|Hge]; [discriminate|].
      intros H; inversion H; split; auto.
Qed.

Lemma add_keys_missing_ok : forall a c,
  (if missing a then commit_ts a = c else c <> 0 -> commit_ts a <= c) ->
  add_keys a (Missing c) = Some {| commit_ts := c; missing := true |}.
Proof.
  intros [t mi] c; unfold add_keys; cbn [missing commit_ts]; destruct mi; cbn [negb andb].
  - intros ->. rewrite N.eqb_refl; reflexivity.
  - intros H. rewrite N.eqb_refl; cbn [negb].
    destruct (N.eqb_spec c 0); cbn [negb andb]; auto.
    destruct (N.ltb_spec c t) as [Hlt|Hge]; auto. specialize (H n); lia.
Qed.

Lemma add_keys_present : forall a ms,
  add_keys a (Present ms) =
  Some (if missing a then a
        else {| commit_ts := fold_left N.max ms (commit_ts a); missing := false |}).
Proof.
  intros a ms; unfold add_keys. destruct (missing a) eqn:E.
  - rewrite add_locks_missing; auto.
  - rewrite add_locks_present; auto.
Qed.

Lemma fold_nonasync : forall rs a, In NonAsync rs -> fold_replies a rs = None.
Proof.
  induction rs as [|r rs IH]; intros a H; [destruct H|].
  rewrite fold_cons. destruct H as [->|H]; [reflexivity|].
  destruct (add_keys a r); auto.
Qed.

(* what a successful fold computes: once a lock was reported missing the state stays as it is *)
Lemma fold_missing : forall rs a a', missing a = true -> fold_replies a rs = Some a' ->
  a' = a /\ forall c, In (Missing c) rs -> c = commit_ts a.
Proof.
  induction rs as [|r rs IH]; intros a a' Ha H.
  - inversion H. split; [reflexivity | intros c []].
  - rewrite fold_cons in H. destruct (add_keys a r) as [b|] eqn:E; [|discriminate].
    assert (Eb : b = a /\ forall c, r = Missing c -> c = commit_ts a).
    { destruct r as [c|ms|]; [| | discriminate].
      - apply add_keys_missing_inv in E. rewrite Ha in E. destruct E as [-> E].
        destruct a as [t mi]; cbn [missing commit_ts] in *. subst. split; [reflexivity|].
        intros c0 Hq. inversion Hq. reflexivity.
      - rewrite add_keys_present, Ha in E. inversion E. split; [reflexivity | discriminate]. }
    destruct Eb as [-> Er]. destruct (IH _ _ Ha H) as [-> I]. split; [reflexivity|].
    intros c [Hc | Hc]; auto.
Qed.

(* ... and until then it holds the maximum seen so far *)
Lemma fold_present : forall rs a a', missing a = false -> fold_replies a rs = Some a' ->
  (forall c, In (Missing c) rs -> a' = {| commit_ts := c; missing := true |}) /\
  ((forall c, ~ In (Missing c) rs) -> a' = {| commit_ts := max_all (commit_ts a) rs; missing := false |}).
Proof.
  induction rs as [|r rs IH]; intros a a' Ha H.
  - inversion H. subst a'. split; [intros c [] |]. intros _. destruct a; cbn [missing commit_ts max_all] in *. subst. reflexivity.
  - rewrite fold_cons in H. destruct r as [c|ms|]; [| | discriminate].
    + destruct (add_keys a (Missing c)) as [b|] eqn:E; [|discriminate].
      apply add_keys_missing_inv in E. destruct E as [-> _].
      apply fold_missing in H; [| reflexivity]. destruct H as [-> I]. split.
      * intros c0 [Hq | Hc]; [inversion Hq; reflexivity | rewrite (I c0 Hc); reflexivity].
      * intros Hno. destruct (Hno c). left. reflexivity.
    + rewrite add_keys_present, Ha in H. apply IH in H; [| reflexivity]. destruct H as [I1 I2]. split.
      * intros c [Hq | Hc]; [discriminate | auto].
      * intros Hno. apply I2. intros c Hc. apply (Hno c). right. exact Hc.
Qed.

Lemma missing_dec : forall rs, (exists c, In (Missing c) rs) \/ (forall c, ~ In (Missing c) rs).
Proof.
  induction rs as [|r rs [[c Hc] | IH]].
  - right. intros c [].
  - left. exists c. right. exact Hc.
  - destruct r as [c|ms|]; [left; exists c; left; reflexivity | right ..];
      intros c [Hq | Hc]; try discriminate Hq; exact (IH c Hc).
Qed.

Lemma max_all_perm : forall rs rs', Permutation rs rs' -> forall m, max_all m rs = max_all m rs'.
Proof.
  induction 1; intros m.
  - reflexivity.
  - cbn [max_all]. destruct x; auto.
  - cbn [max_all]. destruct x as [c|ms|], y as [c'|ms'|]; auto.
    assert (C : forall p q, fold_left N.max p (fold_left N.max q m) =
                            fold_left N.max q (fold_left N.max p m)).
    { intros p q.
      rewrite (fold_max_acc p (fold_left N.max q m)), (fold_max_acc q m),
              (fold_max_acc q (fold_left N.max p m)), (fold_max_acc p m). lia. }
    rewrite C; reflexivity.
  - rewrite IHPermutation1; auto.
Qed.

Lemma max_all_upper : forall rs m0,
  m0 <= max_all m0 rs /\
  forall ms m, In (Present ms) rs -> In m ms -> m <= max_all m0 rs.
Proof.
  induction rs as [|r rs IH]; intros m0; cbn [max_all].
  - split; [lia|intros ? ? []].
  - destruct r as [c|ms|].
    + destruct (IH m0) as [A B]; split; auto.
      intros ms m [X|X]; [discriminate|eauto].
    + destruct (IH (fold_left N.max ms m0)) as [A B].
      destruct (fold_max_ge ms m0) as [C D]. split; [lia|].
      intros ms' m [X|X] Hm.
      * inversion X; subst ms'. specialize (D _ Hm). lia.
      * eauto.
    + destruct (IH m0) as [A B]; split; auto.
      intros ms m [X|X]; [discriminate|eauto].
Qed.

Lemma max_all_attained : forall rs m0,
  max_all m0 rs = m0 \/ exists ms, In (Present ms) rs /\ In (max_all m0 rs) ms.
Proof.
  induction rs as [|r rs IH]; intros m0; cbn [max_all]; auto.
  destruct r as [c|ms|].
  - destruct (IH m0) as [E|(ms & A & B)]; auto. right; exists ms; split; [right|]; auto.
  - destruct (IH (fold_left N.max ms m0)) as [E|(ms' & A & B)].
    + rewrite E. destruct (fold_max_attained ms m0) as [F|F]; [left; auto|].
      right; exists ms; split; [left|]; auto.
    + right; exists ms'; split; [right|]; auto.
  - destruct (IH m0) as [E|(ms & A & B)]; auto. right; exists ms; split; [right|]; auto.
Qed.

(* [consistent] for a fold that is under way, relative to its accumulator *)
Definition cons_from (a : ard) (rs : list reply) : Prop :=
  forall c, In (Missing c) rs ->
    (forall c', In (Missing c') rs -> c' = c) /\
    (if missing a then c = commit_ts a
     else c <> 0 -> commit_ts a <= c /\ forall ms m, In (Present ms) rs -> In m ms -> m <= c).

Lemma cons_from_ok : forall rs a,
  ~ In NonAsync rs -> cons_from a rs -> exists a', fold_replies a rs = Some a'.
Proof.
  induction rs as [|r rs IH]; intros a Hna Hc.
  - exists a; reflexivity.
  - rewrite fold_cons.
    assert (Hna' : ~ In NonAsync rs) by (intros X; apply Hna; right; auto).
    destruct r as [c|ms|].
    + destruct (Hc c (or_introl eq_refl)) as [Hsame Hc2].
      rewrite add_keys_missing_ok.
      * apply IH; auto. intros c' Hc'. cbn [missing commit_ts]. split.
        -- intros c'' Hc''. rewrite (Hsame c'), (Hsame c''); auto; right; auto.
        -- apply Hsame; right; auto.
      * destruct (missing a); [auto|]. intros X; apply Hc2; auto.
    + rewrite add_keys_present. apply IH; auto.
      intros c Hin. destruct (Hc c (or_intror Hin)) as [Hsame Hc2]. split.
      * intros c' Hc'. apply Hsame; right; auto.
      * destruct (missing a) eqn:Ha; [rewrite Ha; auto|]. cbn [missing commit_ts].
        intros X. destruct (Hc2 X) as [A B]. split.
        -- apply fold_max_le; auto. intros m Hm. apply (B ms); [left|]; auto.
        -- intros ms' m Hms'. apply B; right; auto.
    + exfalso; apply Hna; left; auto.
Qed.

Lemma consistent_cons_from : forall m0 rs, consistent m0 rs -> cons_from (init m0) rs.
Proof. intros m0 rs H c Hc. destruct (H c Hc); split; auto. Qed.

Lemma consistent_perm : forall m0 rs rs',
  Permutation rs rs' -> consistent m0 rs -> consistent m0 rs'.
Proof.
  intros m0 rs rs' P H c Hc.
  assert (P' := Permutation_sym P).
  destruct (H c (Permutation_in _ P' Hc)) as [A B]. split.
  - intros c' Hc'. apply A. apply (Permutation_in _ P' Hc').
  - intros X. destruct (B X) as [B1 B2]. split; auto.
    intros ms m Hms. apply B2. apply (Permutation_in _ P' Hms).
Qed.

Lemma in_nonasync_dec : forall rs, {In NonAsync rs} + {~ In NonAsync rs}.
Proof.
  induction rs as [|r rs [IH|IH]].
  - right; intros [].
  - left; right; auto.
  - destruct r; [right|right|left; left; auto]; intros [X|X]; try discriminate; auto.
Qed.

Theorem addKeys_result : forall m0 rs a,
  fold_replies (init m0) rs = Some a ->
  (missing a = true <-> exists c, In (Missing c) rs) /\
  ((forall c, ~ In (Missing c) rs) -> commit_ts a = max_all m0 rs) /\
  (forall c, In (Missing c) rs -> commit_ts a = c).
Proof.
  intros m0 rs a H. destruct (fold_present rs (init m0) a eq_refl H) as [I1 I2]. cbn [init commit_ts] in I2.
  destruct (missing_dec rs) as [[c Hc] | Hno].
  - pose proof (I1 c Hc) as ->. split; [split; eauto |]. split; [intros Hno; destruct (Hno c Hc) |].
    intros c0 Hc0. specialize (I1 c0 Hc0). inversion I1. reflexivity.
  - rewrite (I2 Hno). split; [split; [discriminate | intros [c Hc]; destruct (Hno c Hc)] |].
    split; [reflexivity | intros c Hc; destruct (Hno c Hc)].
Qed.
Print Assumptions addKeys_result.

Theorem addKeys_order_independent_ok : forall m0 rs rs' a a',
  Permutation rs rs' ->
  fold_replies (init m0) rs = Some a ->
  fold_replies (init m0) rs' = Some a' ->
  a = a'.
Proof.
  intros m0 rs rs' a a' P H H'.
  destruct (fold_present rs (init m0) a eq_refl H) as [A1 A2]. destruct (fold_present rs' (init m0) a' eq_refl H') as [B1 B2].
  destruct (missing_dec rs) as [[c Hc] | Hno].
  - rewrite (A1 c Hc), (B1 c (Permutation_in _ P Hc)). reflexivity.
  - rewrite (A2 Hno), B2, (max_all_perm _ _ P); [reflexivity |].
    intros c Hc. exact (Hno c (Permutation_in _ (Permutation_sym P) Hc)).
Qed.
Print Assumptions addKeys_order_independent_ok.

(* for replies a real store can produce, also the error status is order independent *)
Theorem addKeys_order_independent : forall m0 rs rs',
  Permutation rs rs' -> consistent m0 rs ->
  fold_replies (init m0) rs = fold_replies (init m0) rs'.
Proof.
  intros m0 rs rs' P C.
  destruct (in_nonasync_dec rs) as [Hn|Hn].
  - rewrite (fold_nonasync rs), (fold_nonasync rs'); auto.
    apply (Permutation_in _ P Hn).
  - assert (Hn' : ~ In NonAsync rs').
    { intros X; apply Hn. apply (Permutation_in _ (Permutation_sym P) X). }
    destruct (cons_from_ok rs (init m0) Hn (consistent_cons_from _ _ C)) as [a Ha].
    destruct (cons_from_ok rs' (init m0) Hn'
                (consistent_cons_from _ _ (consistent_perm _ _ _ P C))) as [a' Ha'].
    rewrite Ha, Ha'. f_equal. eapply addKeys_order_independent_ok; eauto.
Qed.
Print Assumptions addKeys_order_independent.

(* ... and under that hypothesis the only error is the per-lock check *)
Theorem addKeys_consistent_ok : forall m0 rs,
  consistent m0 rs -> ~ In NonAsync rs -> exists a, fold_replies (init m0) rs = Some a.
Proof. intros; apply cons_from_ok; auto using consistent_cons_from. Qed.
Print Assumptions addKeys_consistent_ok.

(* without the hypothesis, whether the inconsistency is *detected* depends on the order:
   a region reports "committed at 15" while another still holds a lock with min-commit ts 20.
   Lock first: commitTs is raised to 20 and the later commit ts 15 < 20 is rejected.
   Commit first: commitTs := 15, missingLock := true, and the lock's min-commit 20 is ignored. *)
Theorem addKeys_error_order_dependent_refuted : exists m0 rs rs',
  Permutation rs rs' /\
  fold_replies (init m0) rs = None /\
  fold_replies (init m0) rs' <> None.
Proof.
  exists 10, [Present [20]; Missing 15], [Missing 15; Present [20]].
  split; [apply perm_swap|]. split; [vm_compute; reflexivity|vm_compute; discriminate].
Qed.
Print Assumptions addKeys_error_order_dependent_refuted.

(* max_all is the maximum it is claimed to be *)
Theorem max_all_is_max : forall m0 rs,
  m0 <= max_all m0 rs /\
  (forall ms m, In (Present ms) rs -> In m ms -> m <= max_all m0 rs) /\
  (max_all m0 rs = m0 \/ exists ms, In (Present ms) rs /\ In (max_all m0 rs) ms).
Proof.
  intros. destruct (max_all_upper rs m0). split; [|split]; auto using max_all_attained.
Qed.
Print Assumptions max_all_is_max.

(* non-vacuity: three replies, two arrival orders, both succeed (and agree) *)
Example addKeys_order_independent_ok_sat :
  let rs  := [Present [12; 30]; Missing 40; Present [25]] in
  let rs' := [Missing 40; Present [25]; Present [12; 30]] in
  Permutation rs rs' /\
  fold_replies (init 10) rs  = Some {| commit_ts := 40; missing := true |} /\
  fold_replies (init 10) rs' = Some {| commit_ts := 40; missing := true |} /\
  consistent 10 rs.
Proof.
  cbv zeta. split; [|split; [vm_compute; reflexivity|split; [vm_compute; reflexivity|]]].
  - eapply perm_trans; [apply perm_swap|]. apply perm_skip. apply perm_swap.
  - intros c [X|[X|[X|[]]]]; try discriminate. inversion X; subst c. split.
    + intros c' [Y|[Y|[Y|[]]]]; try discriminate. inversion Y; auto.
    + intros _. split; [lia|].
      intros ms m [Y|[Y|[Y|[]]]]; try discriminate; inversion Y; subst ms; cbn [In];
        intros Z; repeat (destruct Z as [Z|Z]; [subst m; lia|]); destruct Z.
Qed.

Example addKeys_no_missing_sat :
  fold_replies (init 10) [Present [12; 30]; Present []; Present [25]]
  = Some {| commit_ts := 30; missing := false |}.
Proof. vm_compute; reflexivity. Qed.

Example addKeys_rolled_back_sat :
  fold_replies (init 10) [Present [12; 30]; Missing 0; Present [25]; Missing 0]
  = Some {| commit_ts := 0; missing := true |}.
Proof. vm_compute; reflexivity. Qed.
