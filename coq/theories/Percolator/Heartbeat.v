(* Percolator/Heartbeat.v — the ttl advice of the ttl manager, keepAlive in
   txnkv/transaction/2pc.go (:1304-1434) and sendTxnHeartBeat (:1511-1553).

   At every tick (period ManagedLockTTL/2, read once when keepAlive starts) keepAlive
     now    := GetTimestampWithRetry                                       (:1327)
     uptime := ExtractPhysical(now) - ExtractPhysical(startTS)   [ms]      (:1334)
     if uptime > maxTtl then return (no more heartbeats)                   (:1339-1360)
     newTTL := uptime + atomic.LoadUint64(&ManagedLockTTL)                 (:1370)
     sendTxnHeartBeat(primary, startTS, AdviseLockTtl := newTTL, ...)      (:1377)
   and a failed heartbeat is skipped (`continue`) or ends the loop.  So the advised ttls are
   `advise managed` applied to a subsequence of the uptime readings, and the readings are
   non-decreasing when the TSO timestamps are (that is the sortedness hypothesis on `ups` below;
   uptime is uint64(int64 difference): a `now` older than startTS would wrap to a huge value
   and hit the max-lifetime cut-off, it is not modelled).

   ManagedLockTTL is a package variable (default 20000) that is re-read with an atomic load at
   every tick; production code never writes it, tests do.  `heartbeat_ttl` is the statement for
   a constant value; `heartbeat_ttl_varying` is the per-tick version (value g_i read at tick i):
   the advice always exceeds the age, and it is monotone provided the g_i do not decrease;
   `heartbeat_ttl_varying_decrease` shows the proviso is needed. *)
From Coq Require Import Lia NArith List Sorting.Sorted.
Import ListNotations.
Local Open Scope N_scope.

Definition advise (managed : N) (uptime : N) : N := uptime + managed.

(* one tick including the max-lifetime cut-off (:1339): None = the manager stops *)
Definition tick (max_ttl managed uptime : N) : option N :=
  if max_ttl <? uptime then None else Some (advise managed uptime).

Lemma advise_mono : forall managed u v, u <= v -> advise managed u <= advise managed v.
Proof. unfold advise; intros; lia. Qed.

Lemma advise_gt : forall managed u, 0 < managed -> u < advise managed u.
Proof. unfold advise; intros; lia. Qed.

Lemma ssorted_map {A} (R : A -> A -> Prop) (f : A -> N) l :
  (forall x y, R x y -> f x <= f y) -> StronglySorted R l -> StronglySorted N.le (map f l).
Proof.
  intros Hf. induction 1 as [|x l Hs IH Hall]; cbn [map]; constructor; auto.
  rewrite Forall_forall in *. intros y Hy. apply in_map_iff in Hy.
  destruct Hy as (v & <- & Hv). auto.
Qed.

Lemma N_le_transitive : Relations_1.Transitive N.le.
Proof. intros x y z; apply N.le_trans. Qed.

Theorem heartbeat_ttl : forall managed (ups : list N),
  0 < managed ->
  StronglySorted N.le ups ->
  StronglySorted N.le (map (advise managed) ups) /\
  (forall u, In u ups -> u < advise managed u).
Proof.
  intros managed ups Hm Hs. split.
  - apply (ssorted_map N.le); auto using advise_mono.
  - intros; apply advise_gt; auto.
Qed.
Print Assumptions heartbeat_ttl.

(* the same with the local (adjacent elements) sortedness predicate *)
Theorem heartbeat_ttl_sorted : forall managed (ups : list N),
  0 < managed ->
  Sorted N.le ups ->
  Sorted N.le (map (advise managed) ups) /\
  (forall u, In u ups -> u < advise managed u).
Proof.
  intros managed ups Hm Hs.
  apply (Sorted_StronglySorted N_le_transitive) in Hs.
  destruct (heartbeat_ttl managed ups Hm Hs) as [A B].
  split; auto using StronglySorted_Sorted.
Qed.
Print Assumptions heartbeat_ttl_sorted.

(* per-tick value of ManagedLockTTL: ticks are (uptime, g) *)
Definition tick_le (p q : N * N) : Prop := fst p <= fst q /\ snd p <= snd q.
Definition advise_tick (p : N * N) : N := advise (snd p) (fst p).

Theorem heartbeat_ttl_varying : forall (ticks : list (N * N)),
  (forall p, In p ticks -> 0 < snd p) ->
  (forall p, In p ticks -> fst p < advise_tick p) /\
  (StronglySorted tick_le ticks -> StronglySorted N.le (map advise_tick ticks)).
Proof.
  intros ticks Hpos. split.
  - intros p Hp. specialize (Hpos p Hp). unfold advise_tick, advise; lia.
  - apply ssorted_map. intros p q [A B]. unfold advise_tick, advise; lia.
Qed.
Print Assumptions heartbeat_ttl_varying.

(* if ManagedLockTTL is lowered between two ticks the advice can go down (the store keeps the
   max of the current and the advised ttl, so the lock's ttl itself does not) *)
Theorem heartbeat_ttl_varying_decrease : exists ticks : list (N * N),
  (forall p, In p ticks -> 0 < snd p) /\
  StronglySorted N.le (map fst ticks) /\
  ~ StronglySorted N.le (map advise_tick ticks).
Proof.
  exists [(10000, 20000); (20000, 5000)]. split; [|split].
  - intros p [<-|[<-|[]]]; cbn [snd]; lia.
  - cbn [map fst]. repeat constructor. lia.
  - cbn [map]. unfold advise_tick, advise; cbn [fst snd]. intros H.
    inversion H as [|? ? _ Hall]; subst. inversion Hall as [|? ? Hle _]; subst. lia.
Qed.
Print Assumptions heartbeat_ttl_varying_decrease.

Theorem heartbeat_bounded : forall max_ttl managed uptime ttl,
  tick max_ttl managed uptime = Some ttl ->
  ttl = advise managed uptime /\ uptime <= max_ttl /\ ttl <= max_ttl + managed.
Proof.
  unfold tick, advise; intros max_ttl managed uptime ttl.
  destruct (N.ltb_spec max_ttl uptime) as [Hlt|Hge]; [discriminate|].
  intros H; inversion H; subst; lia.
Qed.
Print Assumptions heartbeat_bounded.

(* non-vacuity: ManagedLockTTL = 20000 ms, ticks every 10 s (one repeated reading) *)
Example heartbeat_ttl_sat :
  let ups := [10000; 20001; 20001; 30007] in
  StronglySorted N.le ups /\
  map (advise 20000) ups = [30000; 40001; 40001; 50007] /\
  StronglySorted N.le (map (advise 20000) ups).
Proof.
  cbv zeta.
  assert (S : StronglySorted N.le [10000; 20001; 20001; 30007]).
  { repeat constructor; lia. }
  split; [exact S|]. split; [reflexivity|].
  apply (heartbeat_ttl 20000 _ ltac:(lia) S).
Qed.
