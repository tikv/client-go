(* Percolator/Layer2b.v — the ghost min-commit map and the per-key prewrite accounting: their general invariant linv,
   what the three prewrite events do to the record of their transaction, and the preservation of linv. *)
From Verif Require Export Percolator.Layer2.

Lemma occ_zero : forall k ks, ~ In k ks -> occ k ks = 0.
Proof.
  induction ks as [| k' ks IH]; intros H; auto. cbn [occ]. destruct (N.eqb_spec k' k) as [-> | Hne].
  - exfalso. apply H. left. auto.
  - rewrite IH; auto. intros Hi. apply H. right. auto.
Qed.
Lemma kcnt_setn : forall c f v t k, kcnt (setn c f v) t k = kcnt c t k. Proof. reflexivity. Qed.
Lemma kcnt_incn : forall c f t k, kcnt (incn c f) t k = kcnt c t k. Proof. reflexivity. Qed.
Lemma kcnt_add_pwok : forall c ks t k, kcnt (add_pwok c ks) t k = kcnt c t k. Proof. reflexivity. Qed.
Lemma kcnt_add_lam : forall c ks m t k, kcnt (add_lam c ks m) t k = kcnt c t k. Proof. reflexivity. Qed.
Lemma kcnt_set_muts : forall c a b t k, kcnt (set_muts c a b) t k = kcnt c t k. Proof. reflexivity. Qed.

Lemma lam_l_app_map : forall ks m l k, lam_l (map (fun k0 => (k0, m)) ks ++ l) k = if mem k ks then Some m else lam_l l k.
Proof.
  induction ks as [| k0 ks IH]; intros; cbn [map app lam_l mem existsb]; auto.
  rewrite IH. rewrite (N.eqb_sym k k0). destruct (k0 =? k); cbn [orb]; auto.
Qed.
Lemma lam_add_lam : forall c ks m k, lam (add_lam c ks m) k = if mem k ks then Some m else lam c k.
Proof. intros. unfold lam, add_lam. cbn [c_lam]. apply lam_l_app_map. Qed.
Lemma lam_setn : forall c f v k, lam (setn c f v) k = lam c k. Proof. reflexivity. Qed.
Lemma lam_add_kl : forall c t ks k, lam (add_kl c t ks) k = lam c k. Proof. reflexivity. Qed.

Definition lamk (s : sys) (T k : N) : option N := lam (getc s T) k.
Definition kc (s : sys) (T tag k : N) : N := kcnt (getc s T) tag k.

Record linv (s : sys) (T : N) : Prop := {
  l_locked : forall k m, kget s T k = Locked m -> lamk s T k = Some m;
  l_nu : forall k m, lamk s T k = Some m -> kget s T k <> Unlocked;
  l_okcnt : forall r ks m o k, In (EPwReply r T ks (PwOk m o)) (s_dlv s) -> In k ks -> kc s T KNegD k < kc s T KDlv k;
  l_cntle : forall k, kc s T KNegD k <= kc s T KDlv k;
  l_lamcnt : forall k m, lamk s T k = Some m -> kc s T KNegD k < kc s T KDlv k;
  l_csl_sub : forall r ks st, In (ECslReply r T ks st) (s_csl s) -> In (ECslReply r T ks st) (s_dlv s);
  l_csl_sent : forall r ks st, In (ECslReply r T ks st) (s_dlv s) -> In (ECslSend r T ks) (s_sent s);
  l_pcok : hasm s T -> F s T FPcOk <> 0 -> kget s T (prim s T) = Committed (F s T FPcOk);
  l_lm_all : forall k, In k (lm s T) -> In k (c_all (getc s T));
  l_prim : hasm s T -> In (prim s T) (lm s T)
}.

Lemma lock_keys_sub : forall ms k, In k (lock_keys ms) -> In k (map fst ms).
Proof.
  unfold lock_keys. intros ms k H. apply in_map_iff in H. destruct H as [[k' o] [H1 H2]]. cbn in H1. subst.
  apply filter_In in H2. destruct H2 as [H2 _]. apply in_map_iff. exists (k, o). auto.
Qed.

(* every step except a prewrite delivery and the logging of the mutations keeps the ghost map, the
   mutation list and the delivery counters *)
Definition quiet2 (e : event) : bool :=
  match e with EMutations _ _ _ | EPwDeliver _ _ _ _ => false | _ => true end.
Record same_acct2 (c c' : crec) : Prop := {
  s2_lam : c_lam c' = c_lam c; s2_lm : c_lm c' = c_lm c; s2_all : c_all c' = c_all c;
  s2_dlv : forall k, kcnt c' KDlv k = kcnt c KDlv k; s2_negd : forall k, kcnt c' KNegD k = kcnt c KNegD k;
  s2_hasm : cn c' FHasm = cn c FHasm; s2_prim : cn c' FPrim = cn c FPrim }.
Lemma stepr_quiet2 : forall s e s' T0, quiet2 e = true -> stepr s e = Ok s' -> same_acct2 (getc s T0) (getc s' T0).
Proof.
  intros s e s' T0 Hq H. destruct (stepr_fps _ _ _ T0 H) as [[A1 A2 A3 _ _ A6 A7] _].
  constructor; intros; [apply A7 | apply A2 | apply A3 | apply A6 | apply A6 | apply A1 | apply A1];
    destruct e; try discriminate Hq; reflexivity.
Qed.

Lemma stepr_pcok : forall s e s' T0, stepr s e = Ok s' ->
  F s' T0 FPcOk = F s T0 FPcOk \/
  (exists r ks, In (ECmReply r T0 (F s' T0 FPcOk) ks CmOk) (s_dlv s) /\ In (prim s T0) ks).
Proof.
  intros s e s' T0 H. destruct (stepr_cn _ _ _ T0 FPcOk H) as [E | [Et W]]; [left; exact E |]. unfold F, prim, F.
  destruct_event e; try discriminate W. inversion Et. subst T.
  cbn [stepr] in H. unfold step_cm_reply in H. chks H. apply delivered_In in C0.
  destruct (has_prim (getc s T0) ks) eqn:Hp; [| okinv H; left; reflexivity].
  destruct x; chks H; okinv H; rd; try (left; reflexivity).
  right. unfold has_prim in Hp. b2p. eauto.
Qed.

(* only the logging of its mutations makes a transaction's mutation list known *)
Lemma stepr_hasm_back : forall s e s' T, stepr s e = Ok s' -> hasm s' T -> hasm s T \/ exists p ms, e = EMutations T p ms.
Proof.
  intros s e s' T H Hh. unfold hasm in *. destruct (stepr_cn _ _ _ T FHasm H) as [E | [Et W]]; [left; rewrite <- E; exact Hh |].
  right. exact (wr_inv _ _ _ Et W).
Qed.

Lemma forallb_In : forall (f : N -> bool) l k, forallb f l = true -> In k l -> f k = true.
Proof. intros f l k H Hk. rewrite forallb_forall in H. auto. Qed.

Lemma setc_frame : forall s s' T c, s' = setc s T c ->
  (forall T0 k, kget s' T0 k = kget s T0 k) /\ s_sent s' = s_sent s /\ s_dlv s' = s_dlv s /\ s_rs s' = s_rs s.
Proof. intros s s' T c ->. repeat split. Qed.

Record pw_reply_eff (s s' : sys) (r T : N) (ks : list N) (x : pw_res) (c c' : crec) : Prop := {
  pr_state : s' = setc s T c';
  pr_dlv : In (EPwReply r T ks x) (s_dlv s);
  pr_guard : commit_point_pw c = true -> forall k, In k ks ->
    kcnt c KRep k + occ k ks <= kcnt c KDlv k /\ (match x with PwOk _ _ => True | _ => kcnt c KNeg k + occ k ks <= kcnt c KNegD k end);
  pr_fb : cn c' FFb = 0 -> cn c FFb = 0 /\ forall m o, x = PwOk m o -> m <> 0;
  pr_fb1 : cn c' FFb1 = 0 -> cn c FFb1 = 0 /\ forall m o, x = PwOk m o -> o <> 0;
  pr_1pcts : cn c' F1pcTs = (match x with PwOk _ o => if o =? 0 then cn c F1pcTs else o | _ => cn c F1pcTs end);
  pr_minc : cn c' FMinc = (match x with
                           | PwOk m _ => if negb (fb c FHasm) || existsb (fun k => mem k (c_lm c)) ks then N.max (cn c FMinc) m else cn c FMinc
                           | _ => cn c FMinc end);
  pr_pwok : c_pwok c' = (match x with PwOk _ _ => ks | _ => [] end) ++ c_pwok c;
  pr_kcnt : forall k, kcnt c' KRep k = occ k ks + kcnt c KRep k /\
                      kcnt c' KNeg k = (match x with PwOk _ _ => 0 | _ => occ k ks end) + kcnt c KNeg k }.

Lemma pw_reply_spec : forall s s' r T ks x, stepr s (EPwReply r T ks x) = Ok s' -> pw_reply_eff s s' r T ks x (getc s T) (getc s' T).
Proof.
  intros s s' r T ks x H. cbn [stepr] in H. unfold step_pw_reply in H. chks H. okinv H.
  rewrite getc_setc_eq. set (c := getc s T) in *.
  constructor; [reflexivity | apply delivered_In; auto | | idtac ..].
  { intros Hcp k Hk. rewrite Hcp in C1, C2. cbn [negb orb] in C1, C2. split.
    - pose proof (forallb_In _ _ _ C2 Hk) as Cx. apply N.leb_le in Cx. exact Cx.
    - destruct x; auto; pose proof (forallb_In _ _ _ C1 Hk) as Cx; apply N.leb_le in Cx; exact Cx. }
  (* a success splits by the conditionals of the step; an error has none *)
  all: clear C C0 C1 C2; destruct x as [m o | kd |];
    [ unfold onepc_on, fb; cns_g; try match goal with |- context [if ?b then setn _ FMinc _ else _] => destruct b end; cns_g;
      destruct (m =? 0) eqn:Em0, (o =? 0) eqn:Eo, (negb (cn c FTried1 =? 0) && negb (negb (cn c FFb1 =? 0))) | | ].
  all: cns_g; repeat split; intros; try discriminate; try reflexivity; try assumption;
    try (match goal with Hx : PwOk _ _ = PwOk _ _ |- _ => inversion Hx; subst end; apply N.eqb_neq; assumption);
    rewrite ?kcnt_setn, ?kcnt_add_pwok; repeat rewrite kcnt_add_kl; rewrite ?kcnt_incn; cbn [N.eqb KRep KNeg Pos.eqb]; lia.
Qed.

Record pw_send_eff (s s' : sys) (e : event) (T : N) (ks : list N) (a o : bool) (c c' : crec) : Prop := {
  ps_state : s' = setc (add_sent s e) T c';
  ps_told : cn c FTold = 0;
  ps_dead : cn c FDead = 0;
  ps_all : cn c FHasm <> 0 -> o = true -> forall k, In k (c_all c) -> In k ks;
  ps_sent : cn c' FPwSent = cn c FPwSent + 1;
  ps_trieda : cn c' FTriedA = (if a then 1 else cn c FTriedA);
  ps_fb : cn c' FFb = (if a then cn c FFb else 1);
  ps_tried1 : cn c' FTried1 = (if o then 1 else cn c FTried1);
  ps_fb1 : cn c' FFb1 = (if o then cn c FFb1 else 1);
  ps_kcnt : forall t k, kcnt c' t k = (if KSent =? t then occ k ks else 0) + kcnt c t k }.

Lemma pw_send_spec : forall s s' r T p ks a o m f secs, stepr s (EPwSend r T p ks a o m f secs) = Ok s' ->
  pw_send_eff s s' (EPwSend r T p ks a o m f secs) T ks a o (getc s T) (getc s' T).
Proof.
  intros s s' r T p ks a o m f secs H. cbn [stepr] in H. unfold step_pw_send in H. chks H. okinv H.
  rewrite getc_setc_eq. change (getc (add_sent s _) T) with (getc s T). set (c := getc s T) in *. b2p.
  assert (Al : cn c FHasm <> 0 -> o = true -> forall k, In k (c_all c) -> In k ks).
  { intros Hh -> k Hk. apply fb_true in Hh. rewrite Hh in C5. cbn [andb negb orb] in C5. eapply subset_In; eauto. }
  constructor; try assumption; try reflexivity; destruct a, o; cns_g; intros; rewrite ?kcnt_setn; try rewrite kcnt_add_kl, kcnt_incn; reflexivity.
Qed.

(* the keys of a prewrite request that the store locks now *)
Lemma mem_filter : forall k (f : N -> bool) ks, mem k (filter f ks) = true <-> In k ks /\ f k = true.
Proof. intros. rewrite mem_In, filter_In. tauto. Qed.
Definition pw_fresh (s : sys) (T : N) (ks : list N) : list N :=
  filter (fun k => match kget s T k with Unlocked => true | _ => false end) ks.
Lemma pw_fresh_In : forall s T ks k, mem k (pw_fresh s T ks) = true <-> In k ks /\ kget s T k = Unlocked.
Proof.
  intros. unfold pw_fresh. rewrite mem_filter. destruct (kget s T k); split; intros [A B]; split; auto; discriminate.
Qed.
Lemma pw_fresh_locked : forall s T ks k, kget s T k <> Unlocked -> mem k (pw_fresh s T ks) = false.
Proof. intros s T ks k Hn. destruct (mem k _) eqn:M; auto. apply pw_fresh_In in M. tauto. Qed.

Record pw_deliver_eff (s s' : sys) (r T : N) (ks : list N) (x : pw_res) (c c' : crec) : Prop := {
  pd_req : exists p a o m f secs, In (EPwSend r T p ks a o m f secs) (s_sent s);
  pd_dlv : s_dlv s' = EPwReply r T ks x :: s_dlv s;
  pd_sent : s_sent s' = s_sent s;
  pd_rs : s_rs s' = s_rs s;
  pd_csl : s_csl s' = s_csl s;
  pd_guard : commit_point_pw c = true -> forall k, In k ks -> kcnt c KDlv k + occ k ks <= kcnt c KSent k;
  pd_keys : forall k, match x with
                      | PwOk m o => (In k ks /\ (if o =? 0 then tr_pw m else tr_1pc o) (kget s T k) = Some (kget s' T k) /\
                                     (o = 0 -> mc_consistent s T m k = true)) \/
                                    (~ In k ks /\ kget s' T k = kget s T k)
                      | _ => kget s' T k = kget s T k
                      end;
  pd_stfb : cn c' FStFb = 0 -> cn c FStFb = 0 /\ forall m, x = PwOk m 0 -> commit_point_pw c = true ->
              m <> 0 /\ forall p a m0 f secs, ~ In (EPwSend r T p ks a true m0 f secs) (s_sent s);
  pd_lam : forall k, lam c' k = match x with
                                | PwOk m o => if (o =? 0) && mem k (pw_fresh s T ks) then Some m else lam c k
                                | _ => lam c k
                                end;
  pd_kcnt : forall k, kcnt c' KDlv k = occ k ks + kcnt c KDlv k /\
                      kcnt c' KNegD k = (match x with PwOk _ _ => 0 | _ => occ k ks end) + kcnt c KNegD k }.

Lemma pw_deliver_spec : forall s s' r T ks x, stepr s (EPwDeliver r T ks x) = Ok s' -> pw_deliver_eff s s' r T ks x (getc s T) (getc s' T).
Proof.
  intros s s' r T ks x H. cbn [stepr] in H. unfold step_pw_deliver in H. chks H.
  set (c := getc s T) in *.
  assert (Rq : exists p a o m f secs, In (EPwSend r T p ks a o m f secs) (s_sent s)).
  { apply sent_by_In in C. destruct C as [e0 [Ce1 Ce2]]. destruct e0; try discriminate. beq. subst. eauto 10. }
  clear C C0 C2.
  match type of H with context [sent_by s ?pp] => set (req1 := sent_by s pp) in * end.
  assert (Hreq : forall p a m0 f secs, In (EPwSend r T p ks a true m0 f secs) (s_sent s) -> req1 = true).
  { intros p a m0 f secs Hin. unfold req1, sent_by. apply existsb_exists. eexists. split; [exact Hin |].
    cbn beta iota. rewrite !N.eqb_refl, leqb_refl. reflexivity. }
  clearbody req1.
  match type of H with context [setc (add_dlv s ?ee) T ?cc] => set (c' := cc) in *; set (e' := ee) in * end.
  change (setc (add_dlv s e') T c') with (add_dlv (setc s T c') e') in H.
  assert (Hs : getc s' T = c' /\ s' = w_kst (add_dlv (setc s T c') e') (s_kst s') /\
          forall k, match x with
             | PwOk m o => (In k ks /\ (if o =? 0 then tr_pw m else tr_1pc o) (kget s T k) = Some (kget s' T k)) \/
                           (~ In k ks /\ kget s' T k = kget s T k)
             | _ => kget s' T k = kget s T k
             end).
  { destruct x as [m o | |]; [destruct (o =? 0) | |].
    - destruct (step_keys _ _ _ _) as [s2 |] eqn:E; [| discriminate]. okinv H.
      split; [rewrite (step_keys_getc _ _ _ _ _ T E); apply getc_setc_eq |]. split; [exact (step_keys_sbk _ _ _ _ _ E) |].
      apply (step_keys_char _ _ _ _ _ _ (tr_pw_ok m) (tr_pw_idem m) (tr_pw_total m) E).
    - destruct (step_keys _ _ _ _) as [s2 |] eqn:E; [| discriminate]. okinv H.
      split; [rewrite (step_keys_getc _ _ _ _ _ T E); apply getc_setc_eq |]. split; [exact (step_keys_sbk _ _ _ _ _ E) |].
      apply (step_keys_char _ _ _ _ _ _ (tr_1pc_ok o) (tr_1pc_idem o) (tr_1pc_total o) E).
    - okinv H. split; [apply getc_setc_eq |]. split; reflexivity.
    - okinv H. split; [apply getc_setc_eq |]. split; reflexivity. }
  clear H. destruct Hs as [Gc [Es Ch]]. rewrite Gc.
  constructor; [exact Rq | rewrite Es; reflexivity | rewrite Es; reflexivity | rewrite Es; reflexivity | rewrite Es; reflexivity | | | idtac ..].
  { intros Hcp k Hk. rewrite Hcp in C1. pose proof (forallb_In _ _ _ C1 Hk) as Cx. apply N.leb_le in Cx. exact Cx. }
  { intros k. specialize (Ch k). destruct x as [m o | |]; auto. destruct Ch as [[Hk Ch] | Ch]; [left | right; exact Ch].
    split; auto. split; auto. intros ->. cbn [N.eqb negb] in C3. apply (forallb_In _ _ _ C3 Hk). }
  all: clear C1 C3 Ch Es Gc; unfold c'; clear c'; destruct x as [m o | kd |];
    [ unfold commit_point_pw, fb; fold (pw_fresh s T ks); destruct (o =? 0) eqn:Eo; cns_g;
      destruct (negb (cn c FTriedA =? 0) || negb (cn c FTried1 =? 0)), (m =? 0) eqn:Em0, req1 eqn:Er; cbn [orb andb] | | ].
  all: cns_g; repeat split; intros; try discriminate; try reflexivity; try assumption;
    try (match goal with Hx : PwOk _ _ = PwOk _ _ |- _ => inversion Hx; subst end); try discriminate Eo;
    try (apply N.eqb_neq; assumption); try (intros Hin; apply Hreq in Hin; discriminate Hin);
    rewrite ?lam_setn, ?lam_add_lam, ?lam_add_kl; rewrite ?kcnt_setn, ?kcnt_add_lam; repeat rewrite kcnt_add_kl;
    cbn [N.eqb KDlv KNegD Pos.eqb]; try lia; try reflexivity.
Qed.

(* the ghost min-commit map is only extended, by the prewrite delivery that locks an unlocked key *)
Lemma stepr_lam : forall s e s' T0 k, stepr s e = Ok s' -> linv s T0 ->
  (forall m, lamk s T0 k = Some m -> lamk s' T0 k = Some m) /\
  (forall m, lamk s' T0 k = Some m -> lamk s T0 k = Some m \/
     (kget s T0 k = Unlocked /\ exists r ks, e = EPwDeliver r T0 ks (PwOk m 0) /\ In k ks)).
Proof.
  intros s e s' T0 k H L. unfold lamk. destruct (stepr_fps _ _ _ T0 H) as [A B].
  destruct (txn_of_dec e T0) as [Et | Hn]; [| rewrite (B Hn); auto].
  destruct (npw e) eqn:Q; [unfold lam; rewrite (fp_lam _ _ _ A Q); auto |].
  destruct e; try discriminate Q. injection Et as ->. rewrite (pd_lam _ _ _ _ _ _ _ _ (pw_deliver_spec _ _ _ _ _ _ H) k).
  destruct res as [m o | |]; auto. destruct (N.eqb_spec o 0) as [-> | _]; cbn [andb]; auto.
  destruct (mem k (pw_fresh s T0 ks)) eqn:M; auto. apply pw_fresh_In in M. destruct M as [Hk Eu].
  split; intros m0 El; [exfalso; exact (l_nu _ _ L _ _ El Eu) | inversion El; subst; right; eauto].
Qed.

Lemma kevos_kmono : forall s s', kevos s s' -> kmono s s'.
Proof.
  intros s s' K T k. destruct (K T k) as [E | [[m [E1 [c E2]]] | [[m [E1 E2]] | [E1 E2]]]]; [left; auto | | |];
    right; rewrite ?E1, ?E2; split; eauto; discriminate.
Qed.

Lemma linv_quiet2 : forall s e s' T, Inv s -> quiet2 e = true -> stepr s e = Ok s' -> linv s T -> linv s' T.
Proof.
  intros s e s' T HI Hq H L.
  assert (Hn : npw e = true) by (destruct e; try reflexivity; discriminate Hq).
  pose proof (stepr_kevos _ _ _ Hn H) as K. pose proof (stepr_quiet2 _ _ _ T Hq H) as [A1 A2 A3 A4 A5 A6 A7].
  assert (Hh : hasm s' T <-> hasm s T) by (unfold hasm, F; rewrite A6; tauto).
  assert (Hp : prim s' T = prim s T) by (unfold prim, F; auto).
  assert (Elam : forall k, lam (getc s' T) k = lam (getc s T) k) by (intros; unfold lam; rewrite A1; auto).
  constructor; unfold lamk, kc, lm in *; intros; rewrite ?Elam, ?A2, ?A3, ?A4, ?A5, ?Hp in *.
  - apply (l_locked _ _ L). specialize (K T k). rewrite H0 in K. apply kevo_locked in K. auto.
  - intros E. specialize (K T k). rewrite E in K. apply kevo_unlocked in K. eapply (l_nu _ _ L); eauto.
  - destruct (stepr_dlv_new _ _ _ H _ H0) as [B | B]; [eapply (l_okcnt _ _ L); eauto |].
    destruct e; cbn [reply_of] in B; try discriminate B; discriminate Hq.
  - apply (l_cntle _ _ L).
  - eapply (l_lamcnt _ _ L); eauto.
  - apply (stepr_dlv_incl _ _ _ H). destruct (stepr_csl_new _ _ _ H _ H0) as [B | <-]; [apply (l_csl_sub _ _ L); auto |].
    cbn [stepr] in H. chks H. apply delivered_In in C0. auto.
  - apply (stepr_sent_incl _ _ _ H). destruct (stepr_dlv_new _ _ _ H _ H0) as [B | B]; [eapply (l_csl_sent _ _ L); eauto |].
    destruct e; cbn [reply_of] in B; try discriminate B. inversion B. subst.
    cbn [stepr] in H. unfold step_csl_deliver in H. chks H. apply sent_by_In in C. destruct C as [e0 [C1 C2]].
    destruct e0; try discriminate. beq. subst. auto.
  - apply Hh in H0. destruct (stepr_pcok _ _ _ T H) as [E | [r [ks [E1 E2]]]].
    + rewrite E in *. eapply km_committed; [apply kevos_kmono; eauto |]. apply (l_pcok _ _ L); auto.
    + eapply km_committed; [apply kevos_kmono; eauto |]. destruct (HI T) as [G _]. eapply (g_cm _ _ G); eauto.
  - apply (l_lm_all _ _ L). auto.
  - apply (l_prim _ _ L). apply Hh. auto.
Qed.

Lemma linv_mutations : forall s s' T p ms, Inv s -> stepr s (EMutations T p ms) = Ok s' -> linv s T -> linv s' T.
Proof.
  intros s s' T p ms HI H L. cbn [stepr] in H. chks H. okinv H. b2p.
  constructor; unfold lamk, kc, lm, hasm, prim, F in *; intros; rd.
  - apply (l_locked _ _ L); auto.
  - apply (l_nu _ _ L _ _ H).
  - eapply (l_okcnt _ _ L); eauto.
  - apply (l_cntle _ _ L).
  - eapply (l_lamcnt _ _ L); eauto.
  - apply (l_csl_sub _ _ L); auto.
  - eapply (l_csl_sent _ _ L); eauto.
  - exfalso. destruct (HI T) as [G _]. destruct (g_fresh_cnt _ _ G) as [_ [_ [_ [_ [_ [E _]]]]]]; unfold hasm, F in *; congruence.
  - apply lock_keys_sub. auto.
  - auto.
Qed.

Lemma linv_other : forall s e s' T, stepr s e = Ok s' -> txn_of e <> Some T -> linv s T -> linv s' T.
Proof.
  intros s e s' T H Hne L. pose proof (step_agree _ _ _ T H Hne) as A. pose proof (stepr_getc_other _ _ _ T H Hne) as Gc.
  constructor; unfold lamk, kc, lm, hasm, prim, F in *; intros; rewrite ?Gc, ?(a_k _ _ _ A) in *.
  - apply (l_locked _ _ L); auto.
  - apply (l_nu _ _ L _ _ H0).
  - eapply (l_okcnt _ _ L); eauto. eapply (stepr_dlv_other _ _ _ H); eauto.
  - apply (l_cntle _ _ L).
  - eapply (l_lamcnt _ _ L); eauto.
  - apply (stepr_dlv_incl _ _ _ H). apply (l_csl_sub _ _ L). destruct (stepr_csl_new _ _ _ H _ H0) as [B | <-]; auto.
    exfalso. apply Hne. reflexivity.
  - apply (stepr_sent_incl _ _ _ H). eapply (l_csl_sent _ _ L). eapply (stepr_dlv_other _ _ _ H); eauto.
  - apply (l_pcok _ _ L); auto.
  - apply (l_lm_all _ _ L); auto.
  - apply (l_prim _ _ L); auto.
Qed.

Lemma tr_1pc_res2 : forall o v v', tr_1pc o v = Some v' -> v' = Committed o.
Proof.
  intros o v v' H. destruct v; cbn in H; try (inversion H; auto; fail).
  destruct (c =? o) eqn:E; inversion H. apply N.eqb_eq in E. subst. auto.
Qed.

Lemma linv_pw_deliver_own : forall s s' r T ks x, stepr s (EPwDeliver r T ks x) = Ok s' -> linv s T -> linv s' T.
Proof.
  intros s s' r T ks x H L. pose proof (stepr_kmono _ _ _ H) as KM.
  destruct (stepr_fps _ _ _ T H) as [[Af Alm Aall _ _ _ _] _].
  destruct (pw_deliver_spec _ _ _ _ _ _ H) as [_ Hd' Hs _ Hcsl _ Ch _ Elam Ecnt].
  constructor; unfold lamk, kc, lm, hasm, prim, F;
    rewrite ?(Af FHasm eq_refl), ?(Af FPrim eq_refl), ?(Af FPcOk eq_refl), ?(Alm eq_refl), ?(Aall eq_refl); intros.
  - rewrite Elam. specialize (Ch k). destruct x as [m0 o | |]; [| rewrite Ch in H0; apply (l_locked _ _ L); auto ..].
    destruct Ch as [[Hk [A _]] | [Hk A]].
    + destruct (o =? 0); cbn [andb]; [| apply tr_1pc_res2 in A; congruence].
      rewrite H0 in A. destruct (kget s T k) eqn:Ek; cbn in A; inversion A; subst.
      * rewrite (proj2 (pw_fresh_In s T ks k) (conj Hk Ek)). reflexivity.
      * rewrite pw_fresh_locked by (rewrite Ek; discriminate). apply (l_locked _ _ L). auto.
    + rewrite A in H0. rewrite pw_fresh_locked by (rewrite H0; discriminate). rewrite andb_false_r. apply (l_locked _ _ L); auto.
  - rewrite Elam in H0.
    assert (Old : lam (getc s T) k = Some m -> kget s' T k <> Unlocked).
    { intros Lm. eapply km_not_unlocked; eauto. eapply (l_nu _ _ L); eauto. }
    destruct x as [m0 o | |]; auto. destruct (o =? 0) eqn:Eo; cbn [andb] in H0; auto.
    destruct (mem k _) eqn:M; auto. apply pw_fresh_In in M. destruct M as [Hk _].
    destruct (Ch k) as [[_ [A _]] | [A _]]; [| contradiction]. apply tr_pw_res in A. tauto.
  - destruct (Ecnt k) as [E1 E2]. rewrite E1, E2. rewrite Hd' in H0. destruct H0 as [H0 | H0].
    + inversion H0. subst. pose proof (occ_pos _ _ H1). pose proof (l_cntle _ _ L k) as Le. unfold kc in Le. lia.
    + pose proof (l_okcnt _ _ L _ _ _ _ _ H0 H1) as Lt. unfold kc in Lt. destruct x; lia.
  - destruct (Ecnt k) as [E1 E2]. rewrite E1, E2. pose proof (l_cntle _ _ L k) as Le. unfold kc in Le. destruct x; lia.
  - destruct (Ecnt k) as [E1 E2]. rewrite E1, E2. rewrite Elam in H0.
    pose proof (l_cntle _ _ L k) as Le. unfold kc in Le.
    assert (Old : lam (getc s T) k = Some m -> (match x with PwOk _ _ => 0 | _ => occ k ks end) + kcnt (getc s T) KNegD k < occ k ks + kcnt (getc s T) KDlv k).
    { intros Lm. pose proof (l_lamcnt _ _ L _ _ Lm) as Lt. unfold kc in Lt. destruct x; lia. }
    destruct x as [m0 o | |]; auto. destruct (o =? 0) eqn:Eo; cbn [andb] in H0; auto.
    destruct (mem k _) eqn:M; auto. apply pw_fresh_In in M. destruct M as [Hk _]. pose proof (occ_pos _ _ Hk). lia.
  - rewrite Hcsl in H0. rewrite Hd'. right. apply (l_csl_sub _ _ L). auto.
  - rewrite Hd' in H0. destruct H0 as [H0 | H0]; [discriminate H0 |]. rewrite Hs. eapply (l_csl_sent _ _ L); eauto.
  - eapply km_committed; eauto. apply (l_pcok _ _ L); auto.
  - apply (l_lm_all _ _ L). auto.
  - apply (l_prim _ _ L). auto.
Qed.

(* deliveries stay within the requests and negative replies within the negative deliveries: kept by the three prewrite
   events of a transaction whose prewrites are counted (commit_point_pw) *)
Definition cnt_ok (s : sys) (T : N) : Prop :=
  forall k, kc s T KDlv k <= kc s T KSent k /\ kc s T KNeg k <= kc s T KNegD k.
Lemma pw_send_cnt : forall s s' r T p ks a o m f secs, stepr s (EPwSend r T p ks a o m f secs) = Ok s' -> cnt_ok s T -> cnt_ok s' T.
Proof.
  intros s s' r T p ks a o m f secs H C k. unfold kc. rewrite !(ps_kcnt _ _ _ _ _ _ _ _ _ (pw_send_spec _ _ _ _ _ _ _ _ _ _ _ H)). cbn.
  destruct (C k) as [A B]. unfold kc in *. split; lia.
Qed.
Lemma pw_deliver_cnt : forall s s' r T ks x, stepr s (EPwDeliver r T ks x) = Ok s' -> linv s T ->
  commit_point_pw (getc s T) = true -> cnt_ok s T -> cnt_ok s' T.
Proof.
  intros s s' r T ks x H L Hcp C k. destruct (stepr_fps _ _ _ T H) as [[_ _ _ _ _ Akc _] _].
  destruct (pw_deliver_spec _ _ _ _ _ _ H) as [_ _ _ _ _ Hcnt _ _ _ Rk]. specialize (Hcnt Hcp).
  unfold kc. rewrite (Akc KSent k eq_refl), (Akc KNeg k eq_refl). destruct (Rk k) as [E3 E4]. rewrite E3, E4.
  destruct (C k) as [A B]. pose proof (l_cntle _ _ L k) as D. unfold kc in *. split.
  - destruct (in_dec N.eq_dec k ks) as [Hk | Hk]; [apply Hcnt in Hk; lia | rewrite (occ_zero _ _ Hk); lia].
  - destruct x; lia.
Qed.
Lemma pw_reply_cnt : forall s s' r T ks x, stepr s (EPwReply r T ks x) = Ok s' ->
  commit_point_pw (getc s T) = true -> cnt_ok s T -> cnt_ok s' T.
Proof.
  intros s s' r T ks x H Hcp C k. destruct (stepr_fps _ _ _ T H) as [[_ _ _ _ _ Akc _] _].
  destruct (pw_reply_spec _ _ _ _ _ _ H) as [_ _ Cg _ _ _ _ _ Rk]. specialize (Cg Hcp).
  unfold kc. rewrite (Akc KDlv k eq_refl), (Akc KSent k eq_refl), (Akc KNegD k eq_refl). destruct (Rk k) as [_ E4]. rewrite E4.
  destruct (C k) as [A B]. unfold kc in *. split; auto.
  destruct (in_dec N.eq_dec k ks) as [Hk | Hk]; [destruct (Cg k Hk) as [_ Cx] | rewrite (occ_zero _ _ Hk)]; destruct x; lia.
Qed.

Definition Linv (s : sys) : Prop := forall T, linv s T.

Theorem linv_stepr : forall s e s', Inv s -> Linv s -> stepr s e = Ok s' -> Linv s'.
Proof.
  intros s e s' HI HL H T. specialize (HL T).
  destruct (txn_of_dec e T) as [Et | Hne]; [| eapply linv_other; eauto].
  destruct (quiet2 e) eqn:Q; [eapply linv_quiet2; eauto |].
  destruct e; cbn [quiet2] in Q; try discriminate Q; inversion Et; subst.
  - eapply linv_mutations; eauto.
  - eapply linv_pw_deliver_own; eauto.
Qed.
Theorem linv_init : Linv init.
Proof.
  intros T. constructor; unfold lamk, kc, lm, hasm, prim, F; cbn; intros; try contradiction; try discriminate; try lia;
    try (exfalso; apply H; reflexivity).
Qed.
Theorem linv_run_from : forall evs s s', Inv s -> Linv s -> run_from s evs = Some s' -> Linv s'.
Proof. intros evs s s' HI HL H. apply (run_from_preserves Inv Linv inv_stepr linv_stepr evs s s' HI HL H). Qed.
Theorem linv_run : forall evs s, run evs = Some s -> Linv s.
Proof. intros evs s H. eapply linv_run_from; [apply inv_init | apply linv_init | exact H]. Qed.
