(* Percolator/Deliver.v — deliveries: the abstract store moves forward (kmono), one reply becomes
   available, everything else is unchanged (dshape). deliver_inv carries the invariants of the reply's
   transaction over such a step, given what the reply's kind and the keys that moved demand. *)
From Verif Require Export Percolator.OwnB.

(* a reflexive-transitive relation respected by tr is respected by step_keys *)
Section Rel.
  Variable R : kstate -> kstate -> Prop.
  Hypothesis Rrefl : forall v, R v v.
  Hypothesis Rtrans : forall a b c, R a b -> R b c -> R a c.
  Variable tr : kstate -> option kstate.
  Hypothesis Rtr : forall v v', tr v = Some v' -> R v v'.
  Hypothesis Ralt : forall m c v', tr (Locked m) = None -> tr (alt_of c) = Some v' -> R (Locked m) v'.
  Lemma step_key_rel : forall s T k s', step_key s T k tr = Some s' -> forall T' k', R (kget s T' k') (kget s' T' k').
  Proof.
    intros s T k s' H T' k'. apply step_key_spec in H. destruct H as [v [H1 H2]]. subst s'.
    rewrite kget_kset. destruct ((T =? T') && (k =? k')) eqn:E; auto. beq. subst.
    destruct H2 as [H2 | [H2 [m [c [H3 [_ H4]]]]]]; auto. rewrite H3 in *. eapply Ralt; eauto.
  Qed.
  Lemma step_keys_rel : forall ks s T s', step_keys s T ks tr = Some s' -> forall T' k', R (kget s T' k') (kget s' T' k').
  Proof.
    induction ks as [| k ks IH]; intros s T s' H T' k'; cbn [step_keys] in H.
    - inversion H. auto.
    - destruct (step_key s T k tr) as [s1 |] eqn:E; try discriminate.
      eapply Rtrans; [eapply step_key_rel; eauto | eapply IH; eauto].
  Qed.
End Rel.

Definition kfresh (v v' : kstate) : Prop :=
  (v = Unlocked \/ v = RolledBack) -> (v' = Unlocked \/ v' = RolledBack).
Definition tr_fresh (tr : kstate -> option kstate) : Prop :=
  forall v', tr Unlocked = Some v' -> v' = Unlocked \/ v' = RolledBack.

Lemma step_keys_fresh : forall tr ks s T s', tr_ok tr -> tr_fresh tr -> step_keys s T ks tr = Some s' ->
  forall k, kfresh (kget s T k) (kget s' T k).
Proof.
  intros tr ks s T s' Hok Hf H k.
  eapply (step_keys_rel kfresh); [ | | | | exact H ]; unfold kfresh.
  - intros v Hv. auto.
  - intros a b c H1 H2 H3. auto.
  - intros v v' E [-> | ->]; auto. right. apply Hok in E. apply kstep_rolledback in E. auto.
  - intros m c v' _ _ [E | E]; discriminate.
Qed.

Record dshape (b s2 : sys) (T : N) (e' : event) : Prop := {
  d_sent : s_sent s2 = s_sent b;
  d_dlv : s_dlv s2 = e' :: s_dlv b;
  d_c : getc s2 T = getc b T;
  d_cts : s_cts s2 = s_cts b;
  d_rs : s_rs s2 = s_rs b;
  d_wr : s_wr s2 = s_wr b;
  d_k : kmono b s2;
  d_fr : (forall k, kfresh (kget b T k) (kget s2 T k)) \/ cn (getc b T) FPwSent <> 0
}.

Lemma dshape_keys : forall b e' T ks tr s2, tr_ok tr -> step_keys (add_dlv b e') T ks tr = Some s2 ->
  (tr_fresh tr \/ cn (getc b T) FPwSent <> 0) -> dshape b s2 T e'.
Proof.
  intros b e' T ks tr s2 Hok H Hf. pose proof (step_keys_kmono _ _ _ _ _ Hok H) as [S [K _]].
  constructor; try (rewrite S; reflexivity).
  - intros T' k. apply (K T' k).
  - destruct Hf as [Hf | Hf]; auto. left. intros k. apply (step_keys_fresh tr ks (add_dlv b e') T s2 Hok Hf H k).
Qed.
Lemma dshape_key : forall b e' T k tr s2, tr_ok tr -> step_key (add_dlv b e') T k tr = Some s2 ->
  tr_fresh tr -> dshape b s2 T e'.
Proof.
  intros b e' T k tr s2 Hok H Hf. apply (dshape_keys b e' T [k] tr s2 Hok); auto.
  cbn [step_keys]. rewrite H. reflexivity.
Qed.

Lemma tr_rb_fresh : tr_fresh tr_rb. Proof. intros v' E. inversion E. auto. Qed.
Lemma tr_rs_fresh : forall c, tr_fresh (tr_rs c). Proof. intros c v' E. inversion E. auto. Qed.
Lemma tr_csl_rb_fresh : tr_fresh tr_csl_rb. Proof. intros v' E. inversion E. auto. Qed.
Lemma tr_cts_committed_fresh : forall c, tr_fresh (tr_cts_committed c). Proof. intros c v' E. discriminate. Qed.
Lemma tr_cts_locked_fresh : forall m, tr_fresh (tr_cts_locked m). Proof. intros c v' E. inversion E. auto. Qed.

Lemma dshape_nokeys : forall b e' T, dshape b (add_dlv b e') T e'.
Proof.
  intros. apply (dshape_keys b e' T [] tr_rb); [apply tr_rb_ok | reflexivity |].
  left. intros v' E. inversion E. auto.
Qed.

Lemma step_keys_char : forall ks b e' T tr s2, tr_ok tr -> tr_idem tr -> tr_total_locked tr ->
  step_keys (add_dlv b e') T ks tr = Some s2 ->
  forall k, (In k ks /\ tr (kget b T k) = Some (kget s2 T k)) \/ (~ In k ks /\ kget s2 T k = kget b T k).
Proof.
  intros ks b e' T tr s2 Hok Hid Htot H k. destruct (in_dec N.eq_dec k ks) as [Hi | Hi].
  - left. split; auto. apply (step_keys_exact ks (add_dlv b e') T tr s2 Hok Hid Htot H k Hi).
  - right. split; auto. destruct (step_keys_kmono ks (add_dlv b e') T tr s2 Hok H) as [_ [_ Fr]]. apply Fr. auto.
Qed.
Lemma step_key_char : forall b e' T p tr s2, step_key (add_dlv b e') T p tr = Some s2 ->
  exists v, (forall k, kget s2 T k = if p =? k then v else kget b T k) /\
    (tr (kget b T p) = Some v \/
     (tr (kget b T p) = None /\ exists m c, kget b T p = Locked m /\ In (T, c) (s_wr b) /\ tr (alt_of c) = Some v)).
Proof.
  intros b e' T p tr s2 H. apply step_key_spec in H. destruct H as [v [H1 H2]]. exists v. split; [| exact H2].
  intros k. subst s2. rewrite kget_kset, N.eqb_refl. cbn [andb]. destruct (p =? k); reflexivity.
Qed.

(* the delivery commutes with an update of T's record that keeps FPwSent *)
Lemma dshape_setc : forall b s2 T e' c, dshape b s2 T e' -> cn c FPwSent = cn (getc b T) FPwSent ->
  dshape (setc b T c) (setc s2 T c) T e'.
Proof.
  intros b s2 T e' c [] Hc. constructor; sproj_g; auto; rewrite !getc_setc_eq; [reflexivity | rewrite Hc; assumption].
Qed.

Section Deliver.
  Variables (b s2 : sys) (T : N) (e' : event).
  Hypothesis D : dshape b s2 T e'.
  Hypothesis HI : invT b T.

  (* what the new reply, by its kind, demands *)
  Hypothesis N1 : forall r ks m o, e' = EPwReply r T ks (PwOk m o) ->
    (forall k, In k ks -> kget s2 T k <> Unlocked) /\ (o <> 0 -> cn (getc b T) FTried1 <> 0).
  Hypothesis N2 : forall r c ks, e' = ECmReply r T c ks CmOk -> forall k, In k ks -> kget s2 T k = Committed c.
  Hypothesis N3 : forall r p c, e' = ECtsReply r T p (StCommitted c) -> kget s2 T p = Committed c.
  Hypothesis N4 : forall r p, e' = ECtsReply r T p StRolledBack -> kget s2 T p = RolledBack.
  Hypothesis N5 : forall r c ks x, e' = ECmReply r T c ks x -> In (ECmSend r T c ks) (s_sent b).
  Hypothesis N6 : forall r ks x, e' = EPwReply r T ks x -> exists p a o m f secs, In (EPwSend r T p ks a o m f secs) (s_sent b).
  Hypothesis N7 : forall r p ttl m secs, e' = ECtsReply r T p (StLocked ttl m true secs) -> cn (getc b T) FTriedA <> 0.
  Ltac dnew H := rewrite (d_dlv _ _ _ _ D) in H; destruct H as [H | H].

  Lemma deliver_ginv : ginv s2 T.
  Proof.
    destruct HI as [G _]. pose proof (d_k _ _ _ _ D) as K.
    constructor; intros; unfold hasm, prim, lm, pwok, F in *;
      rewrite ?(d_c _ _ _ _ D), ?(d_sent _ _ _ _ D), ?(d_cts _ _ _ _ D), ?(d_rs _ _ _ _ D), ?(d_wr _ _ _ _ D) in *.
    - dnew H; [eapply N1; eauto | eapply km_not_unlocked; eauto; eapply g_pw; eauto].
    - dnew H; [eapply N2; eauto | eapply km_committed; eauto; eapply g_cm; eauto].
    - dnew H; [eapply N3; eauto | eapply km_committed; eauto; eapply g_cts_c; eauto].
    - dnew H; [eapply N4; eauto | eapply km_rolledback; eauto; eapply g_cts_r; eauto].
    - rewrite (d_dlv _ _ _ _ D). right. eapply g_cts_sub; eauto.
    - eapply km_alt; eauto. eapply g_rs; eauto.
    - eapply g_rs_sent; eauto.
    - eapply g_wr; eauto.
    - dnew H; [eapply N5; eauto | eapply g_cm_sent; eauto].
    - dnew H; [eapply N6; eauto | eapply g_pw_sent; eauto].
    - eapply g_pwsent_cnt; eauto.
    - eapply g_1pc_sent; eauto.
    - dnew H; [eapply N1; eauto | eapply (g_1pc _ _ G); eauto].
    - destruct (d_fr _ _ _ _ D) as [Fr | Fr]; [| contradiction].
      apply Fr. apply (g_kst_fresh _ _ G). auto.
    - eapply (g_cmsent_p _ _ G); eauto.
    - apply (g_fresh_cnt _ _ G). auto.
    - eapply g_rb_dead; eauto.
    - eapply pwdlv_incl; [| apply (g_pwok _ _ G); auto]. rewrite (d_dlv _ _ _ _ D). apply incl_tl, incl_refl.
    - apply (g_told_dead _ _ G). auto.
    - apply (g_1pcts _ _ G). auto.
    - dnew H; [eapply N7; eauto | eapply (g_async_cts _ _ G); eauto].
    - eapply (g_jasync _ _ G); eauto.
  Qed.

  Lemma dl_some_rb : some_rb b T -> some_rb s2 T.
  Proof. apply some_rb_mono; [apply (d_k _ _ _ _ D) | rewrite (d_c _ _ _ _ D); auto]. Qed.
  Lemma dl_Dn : Dn b T -> Dn s2 T.
  Proof.
    apply Dn_mono; try (rewrite (d_c _ _ _ _ D); auto); [apply (d_k _ _ _ _ D)].
  Qed.
  Lemma dl_Dd : (forall k r ks m o, kget b T k = RolledBack -> e' = EPwReply r T ks (PwOk m o) -> ~ In k ks) ->
    Dd b T -> Dd s2 T.
  Proof.
    intros T6. apply Dd_mono; try (rewrite (d_c _ _ _ _ D); auto); [apply (d_k _ _ _ _ D) |].
    intros k Hk [r [ks [m [o [H1 H2]]]]]. dnew H1.
    - exfalso. eapply T6; eauto.
    - exists r, ks, m, o. auto.
  Qed.

  Lemma dl_hasm : hasm s2 T <-> hasm b T.
  Proof. unfold hasm, F. rewrite (d_c _ _ _ _ D). tauto. Qed.
  Lemma dl_classic : classic s2 T <-> classic b T.
  Proof. unfold classic, F. rewrite (d_c _ _ _ _ D), (d_rs _ _ _ _ D). tauto. Qed.

  (* what a classic transaction with known mutations needs of the keys that moved and of the reply *)
  Lemma deliver_inv :
    (tinv b T -> classic b T -> hasm b T ->
     (forall k c, kget s2 T k = Committed c -> kget b T k <> Committed c ->
        kget s2 T (cn (getc b T) FPrim) = Committed c /\ (k = cn (getc b T) FPrim -> cn (getc b T) FPcOkd <> 0)) /\
     (forall k, In k (c_lm (getc b T)) -> kget s2 T k = RolledBack -> kget b T k <> RolledBack -> Dd s2 T) /\
     (forall r c ks, e' = ECmReply r T c ks CmOk -> In (cn (getc b T) FPrim) ks -> cn (getc b T) FPcOkd <> 0) /\
     (forall r c ks, e' = ECmReply r T c ks CmGone -> In (cn (getc b T) FPrim) ks -> some_rb s2 T) /\
     (forall k r ks m o, kget b T k = RolledBack -> e' = EPwReply r T ks (PwOk m o) -> ~ In k ks)) ->
    invT s2 T.
  Proof.
    intros HT. split; [exact deliver_ginv |]. intros Hh Hc. apply dl_hasm in Hh. apply dl_classic in Hc.
    destruct HI as [G I]. specialize (I Hh Hc). destruct (HT I Hc Hh) as [TC [TR [T4 [T5 T6]]]].
    pose proof (d_k _ _ _ _ D) as K. set (P := cn (getc b T) FPrim) in *.
    constructor; intros; unfold hasm, prim, lm, pwok, F in *;
      rewrite ?(d_c _ _ _ _ D), ?(d_sent _ _ _ _ D), ?(d_cts _ _ _ _ D), ?(d_rs _ _ _ _ D), ?(d_wr _ _ _ _ D) in *.
    - apply (t_prim_lm _ _ I).
    - apply (t_cnt _ _ I).
    - apply (t_pwok _ _ I); auto.
    - destruct (t_cmsent _ _ I _ _ _ H) as [A B]. split; auto. intros Hn. eapply km_committed; eauto.
    - dnew H; [eapply T4; eauto | eapply (t_okd _ _ I); eauto].
    - eapply km_committed; eauto. apply (t_pcok _ _ I). auto.
    - eapply t_rs_p; eauto.
    - destruct (kstate_eq_dec (kget b T k) (Committed c)) as [E | E].
      + eapply km_committed; eauto. eapply (t_one _ _ I); eauto.
      + apply (TC k c H E).
    - destruct (kstate_eq_dec (kget b T P) (Committed c)) as [E | E].
      + eapply (t_pcommit _ _ I); eauto.
      + apply (TC P c H E). reflexivity.
    - dnew H; [eapply T5; eauto | apply dl_some_rb; eapply (t_gone _ _ I); eauto].
    - apply dl_some_rb. apply (t_rbflag _ _ I). auto.
    - apply dl_Dn. eapply (t_rb_sent _ _ I); eauto.
    - apply dl_Dn. apply (t_told_err _ _ I). auto.
    - destruct (kstate_eq_dec (kget b T k) RolledBack) as [E | E].
      + apply (dl_Dd T6). eapply (t_rb_dead _ _ I); eauto.
      + eapply TR; eauto.
    - destruct (t_told_ok _ _ I H) as [c Hc0]. exists c. eapply km_committed; eauto.
  Qed.

  (* a delivery after which every key that moved is locked, and whose reply is no commit answer *)
  Lemma deliver_inv_quiet :
    (forall k, kget s2 T k = kget b T k \/ exists m, kget s2 T k = Locked m) ->
    (forall r c ks x, e' <> ECmReply r T c ks x) ->
    (forall k r ks m o, kget b T k = RolledBack -> e' = EPwReply r T ks (PwOk m o) -> ~ In k ks) ->
    invT s2 T.
  Proof.
    intros Q NC T6. apply deliver_inv. intros _ _ _. repeat split; auto.
    - destruct (Q k) as [E | [m E]]; congruence.
    - destruct (Q k) as [E | [m E]]; congruence.
    - intros k _ A B. destruct (Q k) as [E | [m E]]; congruence.
    - intros r c ks E. destruct (NC _ _ _ _ E).
    - intros r c ks E. destruct (NC _ _ _ _ E).
  Qed.
End Deliver.
