(* Percolator/ProofsTrace2.v — list and counting lemmas; the request a reply answers. *)
From Verif Require Import Percolator.Event Percolator.System Percolator.Trace.

Lemma in_snoc {A} (x e : A) l : In x (l ++ [e]) <-> In x l \/ x = e.
Proof. rewrite in_app_iff. cbn [In]. intuition. Qed.

Lemma in_snoc_l {A} (x e : A) l : In x l -> In x (l ++ [e]).
Proof. intros H. apply in_snoc. auto. Qed.
Lemma in_last {A} (e : A) l : In e (l ++ [e]).
Proof. apply in_snoc. auto. Qed.

Lemma snoc_split {A} (pre : list A) e pre1 x pre2 :
  pre ++ [e] = pre1 ++ x :: pre2 ->
  (pre2 = [] /\ x = e /\ pre1 = pre) \/ (exists q, pre2 = q ++ [e] /\ pre = pre1 ++ x :: q).
Proof.
  induction pre2 as [|y l _] using rev_ind; intros H.
  - left. apply app_inj_tail in H.
    destruct H as [H1 H2]. subst. auto.
  - right. change (pre1 ++ x :: l ++ [y]) with (pre1 ++ (x :: l) ++ [y]) in H.
    rewrite app_assoc in H. apply app_inj_tail in H. destruct H as [H1 H2]. subst.
    exists l. auto.
Qed.

Lemma count_if_snoc f l e : count_if f (l ++ [e]) = (count_if f l + (if f e then 1 else 0))%nat.
Proof. induction l as [|x l IH]; cbn [count_if app]; [lia | rewrite IH; lia]. Qed.
Lemma count_if_snoc_false f l e : f e = false -> count_if f (l ++ [e]) = count_if f l.
Proof. intros E. rewrite count_if_snoc, E. lia. Qed.
Lemma count_if_zero f l : count_if f l = 0%nat -> forall e, In e l -> f e = false.
Proof.
  induction l as [|x l IH]; cbn [count_if]; intros H e He; [destruct He|].
  destruct He as [He | He].
  - subst. destruct (f e); [discriminate | reflexivity].
  - apply IH; auto. destruct (f x); [discriminate | exact H].
Qed.
Lemma count_if_none f l : (forall e, In e l -> f e = false) -> count_if f l = 0%nat.
Proof.
  induction l as [|x l IH]; cbn [count_if]; intros H; [reflexivity|].
  rewrite (H x (or_introl eq_refl)). apply IH. intros e He. apply H. right. exact He.
Qed.

Lemma sum_of_snoc w l e : sum_of w (l ++ [e]) = (sum_of w l + w e)%nat.
Proof. induction l as [|x l IH]; cbn [sum_of app]; [lia | rewrite IH; lia]. Qed.
Lemma sum_of_count (w : event -> nat) (f : event -> bool) (l : list event) : (forall e, In e l -> w e = (if f e then 1 else 0)%nat) -> sum_of w l = count_if f l.
Proof.
  induction l as [|x l IH]; cbn [sum_of count_if]; intros H; [reflexivity|].
  rewrite (H x (or_introl eq_refl)), IH; [reflexivity|]. intros e He. apply H. right. exact He.
Qed.
Lemma occ_nodup k ks : NoDup ks -> occ k ks = (if mem k ks then 1 else 0)%nat.
Proof.
  induction 1 as [|x l Hx Hn IH]; [reflexivity|].
  cbn [occ]. change (mem k (x :: l)) with ((k =? x) || mem k l). rewrite IH, (N.eqb_sym k x).
  destruct (x =? k) eqn:E; [|reflexivity]. apply N.eqb_eq in E. subst.
  destruct (mem k l) eqn:Em; [apply mem_In in Em; contradiction | reflexivity].
Qed.

Lemma lock_keys_agree ms : lock_keys_of ms = lock_keys ms.
Proof. reflexivity. Qed.

Definition pw_sent (l : list event) (r T : N) (ks : list N) : Prop :=
  exists p a o m f secs, In (EPwSend r T p ks a o m f secs) l.
Lemma pw_sent_cons l e r T ks : pw_sent l r T ks -> pw_sent (e :: l) r T ks.
Proof. intros (p & a & o & m & f & secs & H). exists p, a, o, m, f, secs. right. exact H. Qed.
#[export] Hint Resolve pw_sent_cons : core.

(* the request a recorded delivery answers; only commit and prewrite deliveries are traced back *)
Definition has_send (l : list event) (x : event) : Prop :=
  match x with
  | ECmReply r T C ks _ => In (ECmSend r T C ks) l
  | EPwReply r T ks _ => pw_sent l r T ks
  | _ => True
  end.
Lemma has_send_cons l e x : has_send l x -> has_send (e :: l) x.
Proof. destruct x; cbn [has_send]; auto using in_cons. Qed.
Definition tracked_reply (e : event) : bool :=
  match e with ECmReply _ _ _ _ _ | EPwReply _ _ _ _ => true | _ => false end.
