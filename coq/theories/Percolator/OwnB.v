(* Percolator/OwnB.v — own-transaction preservation: prewrite send/reply, resolve send, cts reply, mutations. *)
From Verif Require Export Percolator.OwnA.

Lemma own_pw_send : forall s s' r T p ks a o m f secs, invT s T ->
  stepr s (EPwSend r T p ks a o m f secs) = Ok s' -> invT s' T.
Proof.
  intros s s' r T p ks a o m f secs HI H. cbn [stepr] in H. unfold step_pw_send in H. chks H. okinv H.
  pose proof HI as [G _].
  rewrite setc_add_sent. apply inv_add_sent; vac.
  - destruct a, o.
    all: by_setc HI G.
    all: intros I Hc Hm; pose proof (t_told_err _ _ I) as Hd; unfold Dn, F in Hd; destruct I; unf2.
    all: repeat split; intros; auto; try apply t_cnt; try (apply Hd; assumption).
  - intros r0 p0 ks0 a0 o0 m0 f0 secs0 E. inversion E; subst. rewrite !setc_F.
    split; [destruct a0, o0; crd; lia | intros ->; destruct a0; crd; discriminate].
Qed.

(* what a prewrite reply does to the client record, as far as the invariants can see: it extends the
   prewritten keys, records a 1PC commit ts, and otherwise touches only fields outside rel *)
Lemma pw_reply_rec : forall s e r T ks x s', step_pw_reply s e r T ks x = Ok s' ->
  In e (s_dlv s) /\ exists c', s' = setc s T c' /\
    (forall f, rel f = true -> cn c' f = if fld_eqb f F1pcTs
       then match x with PwOk _ o => if o =? 0 then cn (getc s T) F1pcTs else o | _ => cn (getc s T) F1pcTs end
       else cn (getc s T) f) /\
    c_lm c' = c_lm (getc s T) /\
    c_pwok c' = match x with PwOk _ _ => ks ++ c_pwok (getc s T) | _ => c_pwok (getc s T) end.
Proof.
  intros s e r T ks x s' H. unfold step_pw_reply in H. chks H. okinv H. split; [apply delivered_In; assumption |].
  eexists. split; [reflexivity |]. destruct x as [m o | k |].
  - repeat match goal with |- context [if ?b then _ else _] => destruct b end;
      (split; [intros f Hf; destruct f; try discriminate Hf; reflexivity | split; reflexivity]).
  - split; [intros f Hf; destruct f; try discriminate Hf; reflexivity | split; reflexivity].
  - split; [intros f Hf; destruct f; try discriminate Hf; reflexivity | split; reflexivity].
Qed.

Lemma own_pw_reply : forall s s' r T ks x, invT s T -> stepr s (EPwReply r T ks x) = Ok s' -> invT s' T.
Proof.
  intros s s' r T ks x HI H. cbn [stepr] in H. pose proof HI as [G _].
  destruct (pw_reply_rec _ _ _ _ _ _ _ H) as [Hd [c' [-> [Hrel [Hl Hpw]]]]]. clear H.
  pose proof (ginv_cinv _ _ G) as Ci. unfold cinv in Ci.
  apply inv_setc.
  - exact HI.
  - intros f Hf A. rewrite Hrel by (destruct f; try discriminate Hf; reflexivity). destruct f; try discriminate Hf; exact A.
  - rewrite Hrel by reflexivity. reflexivity.
  - rewrite Hrel by reflexivity. reflexivity.
  - exact Hl.
  - intros k Hk. rewrite Hpw in Hk. destruct x as [m o | |]; try (apply (g_pwok _ _ G); exact Hk).
    apply in_app_or in Hk. destruct Hk as [Hk | Hk]; [exists r, ks, m, o; auto | apply (g_pwok _ _ G); exact Hk].
  - unfold cinv. rewrite !Hrel by reflexivity. cbn [fld_eqb]. destruct Ci as [C1 [C2 C3]].
    split; [exact C1 | split; [exact C2 |]].
    destruct x as [m o | |]; try exact C3. destruct (N.eqb_spec o 0) as [-> | Ho]; [exact C3 | intros _].
    apply (g_1pc _ _ G _ _ _ _ Hd Ho).
  - intros I Hc Hm. pose proof (t_told_err _ _ I) as He. unfold Dn, F in He. destruct I. unf2.
    rewrite !Hrel by reflexivity. cbn [fld_eqb]. rewrite Hl, Hpw.
    repeat split; intros; auto; try apply t_cnt; try (apply He; assumption).
    destruct x; auto using in_or_app.
Qed.

Lemma just_cts_spec : forall s r T c p, just_cts s r T c = Some p ->
  (c <> 0 /\ In (ECtsReply r T p (StCommitted c)) (s_cts s)) \/ (c = 0 /\ In (ECtsReply r T p StRolledBack) (s_cts s)).
Proof.
  unfold just_cts. intros s r T c p H. destruct (find _ (s_cts s)) as [e |] eqn:E; try discriminate.
  apply find_some in E. destruct E as [E1 E2]. destruct e; try discriminate. inversion H. subst.
  destruct st; try discriminate; b2p; subst.
  - left. split; auto.
  - right. split; auto.
Qed.

Lemma csl_all_locked_cts : forall s r T C, csl_all_locked s r T C = true ->
  exists p ttl m secs, In (ECtsReply r T p (StLocked ttl m true secs)) (s_cts s).
Proof.
  unfold csl_all_locked. intros s r T C H. apply existsb_exists in H. destruct H as [e [H1 H2]].
  destruct e; try discriminate. destruct st; try discriminate. destruct async; try discriminate. b2p. subst. eauto 10.
Qed.

(* one more recorded resolve request: a key-justified one agrees with the store on its key and names
   the primary, an async one needs an async-commit attempt *)
Lemma inv_w_rs : forall s T c j, invT s T ->
  (forall p, j = JKey p -> kget s T p = alt_of c /\ (hasm s T -> p = prim s T)) ->
  (j = JAsync -> F s T FTriedA <> 0) ->
  invT (w_rs s ((T, c, j) :: s_rs s)) T.
Proof.
  intros s T c j [G I] Jk Ja. split.
  - destruct G. constructor; try assumption; intros.
    + destruct H as [H | H]; [inversion H; subst; apply (Jk p eq_refl) | eauto].
    + destruct (g_rs_sent _ _ _ H) as [j0 Hj]. exists j0. right. exact Hj.
    + destruct (g_wr _ H) as [j0 Hj]. exists j0. right. exact Hj.
    + destruct H as [H | H]; [inversion H; subst; apply Ja; reflexivity | eauto].
  - intros Hh [A [B D]].
    assert (Hc : classic s T) by (repeat split; auto; intros c0 Hi; apply (D c0); right; exact Hi).
    specialize (I Hh Hc). destruct I. constructor; try assumption; intros.
    destruct H as [H | H]; [inversion H; subst; apply (Jk p eq_refl); exact Hh | eauto].
Qed.

Lemma own_rs_send : forall s s' r T C ks, invT s T -> stepr s (ERsSend r T C ks) = Ok s' -> invT s' T.
Proof.
  intros s s' r T C ks HI H. cbn [stepr] in H. unfold step_rs_send in H. chks H. pose proof HI as [G _].
  assert (Hs : exists j, s' = add_sent (w_rs s ((T, C, j) :: s_rs s)) (ERsSend r T C ks) /\
                 (forall p, j = JKey p -> kget s T p = alt_of C /\ (hasm s T -> p = prim s T)) /\
                 (j = JAsync -> F s T FTriedA <> 0)).
  { destruct (just_cts s r T C) as [p |] eqn:J; chks H; okinv H.
    - exists (JKey p). split; [reflexivity |]. split; [| discriminate]. intros p0 E. inversion E; subst p0. split.
      + apply just_cts_spec in J. destruct J as [[J1 J2] | [J1 J2]]; apply (g_cts_sub _ _ G) in J2.
        * apply (g_cts_c _ _ G) in J2. unfold alt_of. apply N.eqb_neq in J1. rewrite J1. exact J2.
        * subst. apply (g_cts_r _ _ G) in J2. exact J2.
      + intros Hh. apply orb_true_iff in C1. destruct C1 as [C1 | C1]; b2p; [contradiction | exact C1].
    - exists JAsync. split; [reflexivity |]. split; [discriminate |]. intros _.
      assert (exists p ttl m secs, In (ECtsReply r T p (StLocked ttl m true secs)) (s_cts s)) as [p [ttl [m [secs Hi]]]].
      { apply orb_true_iff in C1. destruct C1 as [C1 | C1].
        - apply andb_true_iff in C1. destruct C1 as [_ C1]. apply async_cts_spec in C1. destruct C1 as [p [ttl [m [secs [C1 _]]]]]. eauto.
        - apply csl_all_locked_cts in C1. auto. }
      apply (g_cts_sub _ _ G) in Hi. apply (g_async_cts _ _ G) in Hi. exact Hi. }
  destruct Hs as [j [-> [Jk Ja]]]. apply inv_add_sent; vac; [apply inv_w_rs; auto |].
  intros r0 c0 ks0 E. inversion E; subst. exists j. left. reflexivity.
Qed.

Lemma own_cts_reply : forall s s' r T p st, invT s T -> stepr s (ECtsReply r T p st) = Ok s' -> invT s' T.
Proof.
  intros s s' r T p st [G I] H. cbn [stepr] in H. chks H. okinv H. apply delivered_In in C0. split.
  - destruct G. constructor; try assumption. intros r0 p0 st0 Hi.
    destruct Hi as [Hi | Hi]; [inversion Hi; subst; exact C0 | eauto].
  - intros Hh Hc. specialize (I Hh Hc). destruct I. constructor; assumption.
Qed.
Lemma own_mutations : forall s s' T p ms, invT s T -> stepr s (EMutations T p ms) = Ok s' -> invT s' T.
Proof.
  intros s s' T p ms [G _] H. cbn [stepr] in H. chks H. okinv H. b2p.
  (* nothing has happened for T yet: no commit request, no prewrite reply, no rollback, fresh keys *)
  assert (NoCm : forall r c ks, ~ In (ECmSend r T c ks) (s_sent s)).
  { intros r c ks Hi. apply (g_cmsent_p _ _ G) in Hi. unf2. destruct Hi as [Hi | [Hi _]]; congruence. }
  assert (NoPw : forall r ks x, ~ In (EPwReply r T ks x) (s_dlv s)).
  { intros r ks x Hi. apply (g_pw_sent _ _ G) in Hi. destruct Hi as [p0 [a [o [m [f [secs Hi]]]]]].
    apply (g_pwsent_cnt _ _ G) in Hi. unf2. congruence. }
  assert (NoRb : forall r ks, ~ In (ERbSend r T ks) (s_sent s)).
  { intros r ks Hi. apply (g_rb_dead _ _ G) in Hi. unf2. congruence. }
  assert (Fk : forall k c, kget s T k <> Committed c).
  { intros k c E. destruct (g_kst_fresh _ _ G k) as [E' | E']; [unf2; assumption | |]; congruence. }
  assert (Fr := g_fresh_cnt _ _ G). unf2. destruct Fr as [F1 [F2 [F3 [F4 [F5 [F6 F7]]]]]]; [congruence |].
  split.
  - destruct G. constructor; try assumption; intros; unf2; rewrite ?getc_setc_eq in *; crd; eauto.
    exfalso. eapply NoCm; eauto.
  - intros _ Hc'. constructor; intros; unf2; rewrite ?getc_setc_eq in *; crd; rewrite ?kget_setc in *.
    + exact C0.
    + lia.
    + contradiction.
    + exfalso. eapply NoCm; eauto.
    + exfalso. apply (g_cm_sent _ _ G) in H. eapply NoCm; eauto.
    + contradiction.
    + rewrite forallb_forall in C1. specialize (C1 _ H). cbn in C1. rewrite N.eqb_refl in C1. cbn in C1. b2p. exact C1.
    + exfalso. eapply Fk; eauto.
    + exfalso. eapply Fk; eauto.
    + exfalso. apply (g_cm_sent _ _ G) in H. eapply NoCm; eauto.
    + contradiction.
    + exfalso. eapply NoRb; eauto.
    + crdh H. congruence.
    + right. right. exists k. unfold lm, pwdlv. rewrite getc_setc_eq. crd. repeat split; auto.
      intros [r [ks [m [o [Hi _]]]]]. eapply NoPw; eauto.
    + crdh H. congruence.
Qed.
