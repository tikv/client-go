(* Percolator/Upd.v — reading state components through the setters; tactics for the per-event proofs. *)
From Verif Require Export Percolator.Agree.

Lemma kget_setc : forall s T c T' k, kget (setc s T c) T' k = kget s T' k. Proof. reflexivity. Qed.
Lemma kget_add_sent : forall s e T k, kget (add_sent s e) T k = kget s T k. Proof. reflexivity. Qed.
Lemma kget_add_dlv : forall s e T k, kget (add_dlv s e) T k = kget s T k. Proof. reflexivity. Qed.
Lemma kget_w_cts : forall s v T k, kget (w_cts s v) T k = kget s T k. Proof. reflexivity. Qed.
Lemma kget_w_rs : forall s v T k, kget (w_rs s v) T k = kget s T k. Proof. reflexivity. Qed.
Lemma kget_w_wr : forall s v T k, kget (w_wr s v) T k = kget s T k. Proof. reflexivity. Qed.
Lemma getc_add_sent : forall s e T, getc (add_sent s e) T = getc s T. Proof. reflexivity. Qed.
Lemma getc_add_dlv : forall s e T, getc (add_dlv s e) T = getc s T. Proof. reflexivity. Qed.
Lemma getc_w_cts : forall s v T, getc (w_cts s v) T = getc s T. Proof. reflexivity. Qed.
Lemma getc_w_rs : forall s v T, getc (w_rs s v) T = getc s T. Proof. reflexivity. Qed.
Lemma getc_w_wr : forall s v T, getc (w_wr s v) T = getc s T. Proof. reflexivity. Qed.
Lemma getc_w_kst : forall s v T, getc (w_kst s v) T = getc s T. Proof. reflexivity. Qed.

Lemma sbk_getc : forall s s' T, same_but_kst s s' -> getc s' T = getc s T.
Proof. intros s s' T H. rewrite H. reflexivity. Qed.
Lemma sbk_sent : forall s s', same_but_kst s s' -> s_sent s' = s_sent s. Proof. intros s s' H. rewrite H. reflexivity. Qed.
Lemma sbk_dlv : forall s s', same_but_kst s s' -> s_dlv s' = s_dlv s. Proof. intros s s' H. rewrite H. reflexivity. Qed.
Lemma sbk_cts : forall s s', same_but_kst s s' -> s_cts s' = s_cts s. Proof. intros s s' H. rewrite H. reflexivity. Qed.
Lemma sbk_rs : forall s s', same_but_kst s s' -> s_rs s' = s_rs s. Proof. intros s s' H. rewrite H. reflexivity. Qed.
Lemma sbk_wr : forall s s', same_but_kst s s' -> s_wr s' = s_wr s. Proof. intros s s' H. rewrite H. reflexivity. Qed.

Lemma cn_set_muts : forall c l a f, cn (set_muts c l a) f = cn c f. Proof. reflexivity. Qed.
Lemma cn_add_pwok : forall c ks f, cn (add_pwok c ks) f = cn c f. Proof. reflexivity. Qed.
Lemma cn_add_kl : forall c t ks f, cn (add_kl c t ks) f = cn c f. Proof. reflexivity. Qed.
Lemma cn_add_lam : forall c ks m f, cn (add_lam c ks m) f = cn c f. Proof. reflexivity. Qed.

(* read-through normalisation: goal, then only the hypotheses that mention a setter. Every rewrite is
   guarded by a syntactic match: a failing `rewrite` searches the whole term with unification up to
   conversion, which is slow on the states stepr builds *)
Ltac sproj_g := cbn [s_tso s_kst s_sent s_dlv s_cl s_own s_crashed s_cts s_csl s_seen s_gc s_rs s_wr
                   setc kset add_sent add_dlv
                   w_tso w_kst w_sent w_dlv w_cl w_own w_crashed w_cts w_csl w_seen w_gc w_rs w_wr].
Ltac sproj_h H := cbn [s_tso s_kst s_sent s_dlv s_cl s_own s_crashed s_cts s_csl s_seen s_gc s_rs s_wr
                   setc kset add_sent add_dlv
                   w_tso w_kst w_sent w_dlv w_cl w_own w_crashed w_cts w_csl w_seen w_gc w_rs w_wr] in H.
(* the rules, over a term t (the goal or the type of a hypothesis); rw / rwd rewrite there with a lemma,
   rwd closing the side condition by discriminate *)
Ltac cns_in t rw rwd :=
  match t with
  | context [cn (set_muts _ _ _) _] => rw cn_set_muts
  | context [cn (add_pwok _ _) _] => rw cn_add_pwok
  | context [cn (add_kl _ _ _) _] => rw cn_add_kl
  | context [cn (add_lam _ _ _) _] => rw cn_add_lam
  | context [cn (incn _ ?f) ?f] => rw cn_incn_eq
  | context [cn (setn _ ?f _) ?f] => rw cn_setn_eq
  | context [cn (incn _ _) _] => rwd cn_incn_ne
  | context [cn (setn _ _ _) _] => rwd cn_setn_ne
  end.
Ltac rd_in t rw :=
  match t with
  | context [kget (setc _ _ _) _ _] => rw kget_setc
  | context [kget (add_sent _ _) _ _] => rw kget_add_sent
  | context [kget (add_dlv _ _) _ _] => rw kget_add_dlv
  | context [kget (w_cts _ _) _ _] => rw kget_w_cts
  | context [kget (w_rs _ _) _ _] => rw kget_w_rs
  | context [kget (w_wr _ _) _ _] => rw kget_w_wr
  | context [getc (setc _ ?T _) ?T] => rw getc_setc_eq
  | context [getc (add_sent _ _) _] => rw getc_add_sent
  | context [getc (add_dlv _ _) _] => rw getc_add_dlv
  | context [getc (w_cts _ _) _] => rw getc_w_cts
  | context [getc (w_rs _ _) _] => rw getc_w_rs
  | context [getc (w_wr _ _) _] => rw getc_w_wr
  end.
Ltac cns_g :=
  repeat match goal with |- ?G => cns_in G ltac:(fun l => rewrite l) ltac:(fun l => rewrite l by discriminate) end;
  cbn [c_lm c_all c_pwok c_kl c_lam setn incn set_muts add_pwok add_kl add_lam].
Ltac cns_h H :=
  repeat (let t := type of H in cns_in t ltac:(fun l => rewrite l in H) ltac:(fun l => rewrite l in H by discriminate));
  cbn [c_lm c_all c_pwok c_kl c_lam setn incn set_muts add_pwok add_kl add_lam] in H.
Ltac rd_g := repeat match goal with |- ?G => rd_in G ltac:(fun l => rewrite l) end; sproj_g; cns_g.
Ltac rd_h H := repeat (let t := type of H in rd_in t ltac:(fun l => rewrite l in H)); sproj_h H; cns_h H.
Ltac rd :=
  rd_g;
  repeat match goal with
         | H : context [setc _ _ _] |- _ => progress (rd_h H)
         | H : context [add_sent _ _] |- _ => progress (rd_h H)
         | H : context [add_dlv _ _] |- _ => progress (rd_h H)
         | H : context [w_cts _ _] |- _ => progress (rd_h H)
         | H : context [w_rs _ _] |- _ => progress (rd_h H)
         | H : context [w_wr _ _] |- _ => progress (rd_h H)
         | H : context [setn _ _ _] |- _ => progress (cns_h H)
         | H : context [incn _ _] |- _ => progress (cns_h H)
         | H : context [add_pwok _ _] |- _ => progress (cns_h H)
         | H : context [set_muts _ _ _] |- _ => progress (cns_h H)
         | H : context [add_kl _ _ _] |- _ => progress (cns_h H)
         | H : context [add_lam _ _ _] |- _ => progress (cns_h H)
         end.

Lemma km_committed : forall s s' T k c, kmono s s' -> kget s T k = Committed c -> kget s' T k = Committed c.
Proof. intros s s' T k c H E. specialize (H T k). rewrite E in H. apply kstep_committed in H. auto. Qed.
Lemma km_rolledback : forall s s' T k, kmono s s' -> kget s T k = RolledBack -> kget s' T k = RolledBack.
Proof. intros s s' T k H E. specialize (H T k). rewrite E in H. apply kstep_rolledback in H. auto. Qed.
Lemma km_not_unlocked : forall s s' T k, kmono s s' -> kget s T k <> Unlocked -> kget s' T k <> Unlocked.
Proof. intros s s' T k H E. eapply kstep_not_unlocked; eauto. Qed.
Lemma km_alt : forall s s' T k c, kmono s s' -> kget s T k = alt_of c -> kget s' T k = alt_of c.
Proof.
  intros s s' T k c H E. destruct (alt_of_final c) as [A | A]; rewrite A in *.
  - eapply km_rolledback; eauto.
  - eapply km_committed; eauto.
Qed.
Lemma km_changed : forall s s' T k, kmono s s' -> kget s' T k <> kget s T k ->
  (kget s T k = Unlocked \/ exists m, kget s T k = Locked m) /\ kget s' T k <> Unlocked.
Proof. intros s s' T k H E. destruct (H T k) as [A | A]; auto. contradiction. Qed.

Lemma kstate_eq_dec : forall a b : kstate, {a = b} + {a <> b}.
Proof. decide equality; apply N.eq_dec. Qed.

Ltac unf2 := unfold hasm, prim, lm, pwok, F in *.
Ltac insplit :=
  repeat match goal with
         | H : In _ (_ :: _) |- _ =>
             destruct H as [H | H]; [ first [discriminate H | inversion H; subst; clear H] | ]
         end.
Ltac b2p :=
  repeat match goal with
         | H : negb _ = true |- _ => apply negb_true_iff in H
         | H : negb _ = false |- _ => apply negb_false_iff in H
         | H : (_ || _) = false |- _ => apply orb_false_iff in H; destruct H
         | H : (_ && _) = true |- _ => let H' := fresh H in apply andb_true_iff in H; destruct H as [H H']
         | H : (_ =? _) = true |- _ => apply N.eqb_eq in H
         | H : (_ =? _) = false |- _ => apply N.eqb_neq in H
         | H : (_ <? _) = true |- _ => apply N.ltb_lt in H
         | H : (_ <=? _) = true |- _ => apply N.leb_le in H
         | H : fb _ _ = true |- _ => apply fb_true in H
         | H : fb _ _ = false |- _ => apply fb_false in H
         | H : mem _ _ = true |- _ => apply mem_In in H
         end.
Lemma mem_false : forall k l, mem k l = false -> ~ In k l.
Proof. intros k l H Hi. apply mem_In in Hi. congruence. Qed.

Section Mono.
  Variables (s s' : sys) (T : N).
  Hypothesis K : kmono s s'.
  Hypothesis L : c_lm (getc s' T) = c_lm (getc s T).
  Lemma some_rb_mono : some_rb s T -> some_rb s' T.
  Proof.
    unfold some_rb, lm. rewrite L. intros [k [H1 H2]]. exists k. split; auto. eapply km_rolledback; eauto.
  Qed.
  Hypothesis HD : cn (getc s T) FDead <> 0 -> cn (getc s' T) FDead <> 0.
  Hypothesis HC : cn (getc s T) FDead <> 0 -> cn (getc s T) FPcNeg = cn (getc s T) FPcSent ->
                  cn (getc s' T) FPcNeg = cn (getc s' T) FPcSent.
  Lemma Dn_mono : Dn s T -> Dn s' T.
  Proof.
    unfold Dn, F. intros [H1 [H2 | H2]]; split; auto. right. apply some_rb_mono. auto.
  Qed.
  Hypothesis P : cn (getc s' T) FPrim = cn (getc s T) FPrim.
  Hypothesis HP : forall k, kget s T k = RolledBack -> pwdlv s' T k -> pwdlv s T k.
  Lemma Dd_mono : Dd s T -> Dd s' T.
  Proof.
    unfold Dd, closed, NS, prim, lm, F. rewrite P, L. intros [H | [[H1 H2] | [k [H1 [H2 H3]]]]].
    - left. eapply km_rolledback; eauto.
    - right. left. split; auto.
    - right. right. exists k. split; auto. split; [eapply km_rolledback; eauto |]. intros H4. apply H3. apply HP; auto.
  Qed.
End Mono.

Lemma kmono_same : forall s s', (forall T k, kget s' T k = kget s T k) -> kmono s s'.
Proof. intros s s' H T k. rewrite H. apply kstep_refl. Qed.
Lemma pwdlv_incl : forall s s' T k, incl (s_dlv s) (s_dlv s') -> pwdlv s T k -> pwdlv s' T k.
Proof. intros s s' T k H [r [ks [m [o [H1 H2]]]]]. exists r, ks, m, o. split; auto. Qed.
