(* Percolator/ProofsTop.v — what Props.v rests on: the invariant stack, the trace proofs, AddKeys and
   Heartbeat, re-exported, and the proofs of those theorems of Props.v that need more than putting
   lemmas of these files side by side (Props.v closes every theorem by `exact`). *)
From Verif Require Export Percolator.Mixed2 Percolator.Trace Percolator.ProofsTrace Percolator.AddKeys Percolator.Heartbeat.
From Coq Require Export Sorting.Sorted Permutation.

Lemma ex_drop_mid {A} {P Q R : A -> Prop} : (exists c, P c /\ Q c /\ R c) -> exists c, P c /\ R c.
Proof. intros (c & p & _ & r). exists c. auto. Qed.

Lemma C02_atomic_async_extension_proof : forall evs s T evs' s', run evs = Some s -> run_from s evs' = Some s' -> asyncm s' T ->
  (F s T FTold = 1 -> F s' T FTold = 1 /\ Sealed s' T /\
     (forall k, In k (lm s' T) -> (exists m, kget s' T k = Locked m /\ m <= cstar s' T) \/ kget s' T k = Committed (cstar s' T))) /\
  (F s T FTold = 3 -> F s' T FTold = 3 /\ forall k c, kget s' T k <> Committed c).
Proof.
  intros evs s T evs' s' R R' Am'. assert (R2 : run (evs ++ evs') = Some s') by (unfold run in *; rewrite run_from_app, R; exact R').
  destruct (run_from_frozen _ _ _ T R') as [Fz _]. split; intros Ht.
  - destruct Fz as [E _]; [rewrite Ht; discriminate |]. assert (Ht' : F s' T FTold = 1) by congruence. split; auto.
    destruct (async_told_ok _ _ _ R2 Am' Ht') as [A [B _]]. auto.
  - destruct Fz as [E _]; [rewrite Ht; discriminate |]. assert (Ht' : F s' T FTold = 3) by congruence. split; auto.
    apply (async_told_err _ _ _ R2 Am' Ht').
Qed.

Lemma C02_fallback_owner_closed_proof : forall evs s T, run evs = Some s -> hasm s T -> F s T FTold = 3 ->
  F s T FPcNeg = F s T FPcSent ->
  forall evs' s', run_from s evs' = Some s' ->
    F s' T FTold = 3 /\ forall r c ks, In (ECmReply r T c ks CmOk) (s_dlv s') -> ~ In (prim s T) ks.
Proof.
  intros evs s T R Hm Ht Hn evs' s' R'. destruct (inv_run evs s R T) as [G _].
  assert (Hd : F s T FDead <> 0) by (apply (g_told_dead _ _ G); auto).
  destruct (closed_run_from evs' s s' T (inv_run _ _ R) (pcinv_run _ _ T R) Hm Hd Hn R') as [Hm' [Ep [_ [_ [P' Z]]]]].
  destruct (run_from_frozen _ _ _ T R') as [Fz _]. split.
  - destruct Fz as [E _]; [rewrite Ht; discriminate | congruence].
  - intros r c ks Hi Hp. rewrite <- Ep in Hp. apply (pc_okd _ _ P' Hm' _ _ _ Hi Hp). exact Z.
Qed.

Lemma fallback_committed_keys : forall evs s T, run evs = Some s -> mixed s T ->
  forall k c, kget s T k = Committed c -> kget s T (prim s T) = Committed c /\
    forall k', In k' (lm s T) -> kget s T k' = Committed c \/ exists m, kget s T k' = Locked m.
Proof.
  intros evs s T R Mx k c Hk. pose proof (full_run _ _ R) as Fs.
  assert (HP : kget s T (prim s T) = Committed c).
  { destruct Fs as [_ [_ [_ [_ [_ [_ [_ HM]]]]]]]. apply (m_one _ _ (HM T Mx) k). auto. }
  split; auto. exact (mx_committed_keys s T Fs Mx c HP).
Qed.

Lemma C02_fallback_when_proof : forall evs s T k, run evs = Some s -> hasm s T -> no1pc s T ->
  In k (lm s T) -> kget s T k = Locked 0 -> mixed s T.
Proof.
  intros evs s T k R Hh N1 Hk El. split; auto. split; auto. exists k. split; auto. apply (l_locked _ _ (linv_run _ _ R T)). auto.
Qed.

Lemma C02_fallback_first_decline_proof : forall pre s1 r T ks k s, run pre = Some s1 ->
  step s1 (EPwDeliver r T ks (PwOk 0 0)) = Some s -> In k ks -> kget s1 T k = Unlocked ->
  kget s T k = Locked 0 /\ forall evs' s', run_from s evs' = Some s' -> lamk s' T k = Some 0.
Proof.
  intros pre s1 r T ks k s R1 St Hk Eu. unfold step in St. destruct (stepr s1 _) as [s2 | rr] eqn:E; inversion St. subst s2.
  destruct (pw_deliver_exact _ _ _ _ _ _ E k Hk) as [Tr _]. rewrite Eu in Tr. cbn in Tr. inversion Tr as [Ek].
  split; auto. intros evs' s' R'. pose proof (full_run _ _ R1) as F1. pose proof (full_stepr _ _ _ F1 E) as F2.
  eapply run_from_lam; eauto. destruct F2 as [_ [HL _]]. apply (l_locked _ _ (HL T)). auto.
Qed.
