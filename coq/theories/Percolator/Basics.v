(* Percolator/Basics.v — reading the state of System.v: a field after a setter, the decidable equalities of the reply
   types, and the order [kstep] in which a key of the abstract store can only move forward, with the characterisation of
   every store transition [tr_*] and of the key walks [step_key], [step_keys], [step_csl_locks] with respect to it. *)
From Verif Require Export Percolator.System.

Ltac sproj := cbn [s_tso s_kst s_sent s_dlv s_cl s_own s_crashed s_cts s_csl s_seen s_gc s_rs s_wr
                   setc kset add_sent add_dlv
                   w_tso w_kst w_sent w_dlv w_cl w_own w_crashed w_cts w_csl w_seen w_gc w_rs w_wr] in *.

Lemma getc_setc : forall s T c T', getc (setc s T c) T' = if T =? T' then c else getc s T'.
Proof. intros. unfold getc. sproj. cbn [getc_l]. reflexivity. Qed.
Lemma getc_setc_eq : forall s T c, getc (setc s T c) T = c.
Proof. intros. rewrite getc_setc, N.eqb_refl. reflexivity. Qed.
Lemma getc_setc_ne : forall s T c T', T <> T' -> getc (setc s T c) T' = getc s T'.
Proof. intros. rewrite getc_setc. destruct (N.eqb_spec T T'); congruence. Qed.

Lemma kget_kset : forall s T k v T' k',
  kget (kset s T k v) T' k' = if (T =? T') && (k =? k') then v else kget s T' k'.
Proof. intros. unfold kget. sproj. cbn [kget_l]. reflexivity. Qed.
Lemma kget_kset_eq : forall s T k v, kget (kset s T k v) T k = v.
Proof. intros. rewrite kget_kset, !N.eqb_refl. reflexivity. Qed.
Lemma kget_kset_ne : forall s T k v T' k', (T <> T' \/ k <> k') -> kget (kset s T k v) T' k' = kget s T' k'.
Proof.
  intros. rewrite kget_kset. destruct (N.eqb_spec T T'); destruct (N.eqb_spec k k'); cbn [andb]; auto.
  subst. destruct H; congruence.
Qed.

Lemma cn_setn : forall c f v g, cn (setn c f v) g = if fld_eqb g f then v else cn c g.
Proof. reflexivity. Qed.
Lemma fld_eqb_refl : forall f, fld_eqb f f = true.
Proof. destruct f; reflexivity. Qed.
Lemma fld_eqb_eq : forall f g, fld_eqb f g = true -> f = g.
Proof. destruct f, g; cbn [fld_eqb]; intros; try discriminate; reflexivity. Qed.
Lemma cn_setn_eq : forall c f v, cn (setn c f v) f = v.
Proof. intros. rewrite cn_setn, fld_eqb_refl. reflexivity. Qed.
Lemma cn_setn_ne : forall c f v g, g <> f -> cn (setn c f v) g = cn c g.
Proof.
  intros. rewrite cn_setn. destruct (fld_eqb g f) eqn:E; auto. apply fld_eqb_eq in E. congruence.
Qed.
Lemma cn_incn_eq : forall c f, cn (incn c f) f = cn c f + 1.
Proof. intros. unfold incn. apply cn_setn_eq. Qed.
Lemma cn_incn_ne : forall c f g, g <> f -> cn (incn c f) g = cn c g.
Proof. intros. unfold incn. apply cn_setn_ne. auto. Qed.
Lemma fb_true : forall c f, fb c f = true <-> cn c f <> 0.
Proof. intros. unfold fb. rewrite negb_true_iff. rewrite N.eqb_neq. tauto. Qed.
Lemma fb_false : forall c f, fb c f = false <-> cn c f = 0.
Proof. intros. unfold fb. rewrite negb_false_iff. rewrite N.eqb_eq. tauto. Qed.
Lemma fb_setn_ne : forall c f v g, g <> f -> fb (setn c f v) g = fb c g.
Proof. intros. unfold fb. rewrite cn_setn_ne; auto. Qed.
Lemma fb_incn_ne : forall c f g, g <> f -> fb (incn c f) g = fb c g.
Proof. intros. unfold fb. rewrite cn_incn_ne; auto. Qed.
Lemma fb_add_pwok : forall c ks g, fb (add_pwok c ks) g = fb c g.
Proof. reflexivity. Qed.
Lemma fb_add_kl : forall c t ks g, fb (add_kl c t ks) g = fb c g.
Proof. reflexivity. Qed.

Lemma pw_res_eqb_eq : forall a b, pw_res_eqb a b = true -> a = b.
Proof.
  destruct a, b; cbn [pw_res_eqb]; intros H; try discriminate; auto.
  - apply andb_true_iff in H. destruct H as [H1 H2]. apply N.eqb_eq in H1. apply N.eqb_eq in H2. subst. auto.
  - apply N.eqb_eq in H. subst. auto.
Qed.
Lemma cm_res_eqb_eq : forall a b, cm_res_eqb a b = true -> a = b.
Proof. destruct a, b; cbn [cm_res_eqb]; intros H; try discriminate; auto. apply N.eqb_eq in H. subst. auto. Qed.
Lemma rb_res_eqb_eq : forall a b, rb_res_eqb a b = true -> a = b.
Proof. destruct a, b; cbn [rb_res_eqb]; intros H; try discriminate; auto. Qed.
Lemma g_res_eqb_eq : forall a b, g_res_eqb a b = true -> a = b.
Proof. destruct a, b; cbn [g_res_eqb]; intros H; try discriminate; auto. Qed.
Lemma cts_st_eqb_eq : forall a b, cts_st_eqb a b = true -> a = b.
Proof.
  destruct a, b; cbn [cts_st_eqb]; intros H; try discriminate; auto.
  - repeat (apply andb_true_iff in H; destruct H as [H ?]).
    apply N.eqb_eq in H. apply N.eqb_eq in H2. apply eqb_prop in H1. apply leqb_eq in H0. subst. auto.
  - apply N.eqb_eq in H. subst. auto.
Qed.
Lemma csl_st_eqb_eq : forall a b, csl_st_eqb a b = true -> a = b.
Proof.
  destruct a, b; cbn [csl_st_eqb]; intros H; try discriminate; auto.
  - apply lpeqb_eq in H. subst. auto.
  - apply N.eqb_eq in H. subst. auto.
Qed.

Ltac beq :=
  repeat match goal with
         | H : (_ && _) = true |- _ => let H' := fresh H in apply andb_true_iff in H; destruct H as [H H']
         | H : (_ =? _) = true |- _ => apply N.eqb_eq in H
         | H : leqb _ _ = true |- _ => apply leqb_eq in H
         | H : pw_res_eqb _ _ = true |- _ => apply pw_res_eqb_eq in H
         | H : cm_res_eqb _ _ = true |- _ => apply cm_res_eqb_eq in H
         | H : rb_res_eqb _ _ = true |- _ => apply rb_res_eqb_eq in H
         | H : g_res_eqb _ _ = true |- _ => apply g_res_eqb_eq in H
         | H : cts_st_eqb _ _ = true |- _ => apply cts_st_eqb_eq in H
         | H : csl_st_eqb _ _ = true |- _ => apply csl_st_eqb_eq in H
         end.

Lemma reply_eqb_eq : forall a b, reply_eqb a b = true -> a = b.
Proof.
  destruct a; intros b H; try discriminate H; destruct b; try discriminate H; cbn [reply_eqb] in H; beq; subst; reflexivity.
Qed.

Lemma delivered_In : forall s e, delivered s e = true -> In e (s_dlv s).
Proof.
  unfold delivered. intros s e H. apply existsb_exists in H. destruct H as [x [H1 H2]].
  apply reply_eqb_eq in H2. subst. auto.
Qed.
Lemma sent_by_In : forall s p, sent_by s p = true -> exists e, In e (s_sent s) /\ p e = true.
Proof. unfold sent_by. intros s p H. apply existsb_exists in H. auto. Qed.
Lemma async_cts_spec : forall l r T ks, async_cts l r T ks = true ->
  exists p ttl m secs, In (ECtsReply r T p (StLocked ttl m true secs)) l /\ subset ks secs = true.
Proof.
  unfold async_cts. intros l r T ks H. apply existsb_exists in H. destruct H as [e [H1 H2]].
  destruct e; try discriminate. destruct st; try discriminate. destruct async; try discriminate. beq. subst. eauto 10.
Qed.
Lemma csl_lock_ms_spec : forall s r T k M, In (k, M) (csl_lock_ms s r T) ->
  exists ks l, In (ECslReply r T ks (CslLocks l)) (s_csl s) /\ In (k, M) l.
Proof.
  unfold csl_lock_ms. intros s r T k M H. apply in_flat_map in H. destruct H as [e [H1 H2]].
  destruct e; try (destruct H2; fail). destruct st; try (destruct H2; fail).
  destruct ((r0 =? r) && (s0 =? T)) eqn:B; [| destruct H2]. beq. subst. eauto.
Qed.

(* the abstract store only moves forward *)
Definition kstep (v v' : kstate) : Prop :=
  v' = v \/ ((v = Unlocked \/ exists m, v = Locked m) /\ v' <> Unlocked).
Lemma kstep_refl : forall v, kstep v v.
Proof. left. auto. Qed.
Lemma kstep_trans : forall a b c, kstep a b -> kstep b c -> kstep a c.
Proof.
  unfold kstep. intros a b c [H1 | [H1 H1']] [H2 | [H2 H2']]; subst; auto; try (right; split; auto).
Qed.
Lemma kstep_committed : forall c v, kstep (Committed c) v -> v = Committed c.
Proof. intros c v [H | [[H | [m H]] _]]; auto; discriminate. Qed.
Lemma kstep_rolledback : forall v, kstep RolledBack v -> v = RolledBack.
Proof. intros v [H | [[H | [m H]] _]]; auto; discriminate. Qed.
Lemma kstep_not_unlocked : forall v v', kstep v v' -> v <> Unlocked -> v' <> Unlocked.
Proof. intros v v' [H | [_ H]] Hn; subst; auto. Qed.

Definition tr_ok (tr : kstate -> option kstate) : Prop := forall v v', tr v = Some v' -> kstep v v'.
Definition tr_idem (tr : kstate -> option kstate) : Prop := forall v v', tr v = Some v' -> tr v' = Some v'.
Definition tr_total_locked (tr : kstate -> option kstate) : Prop := forall m, tr (Locked m) <> None.

Ltac trtac :=
  intros v v' H; destruct v; cbn in H;
  repeat match type of H with context [if ?b then _ else _] => destruct b eqn:? end;
  inversion H; subst; clear H.
Lemma alt_of_final : forall c, alt_of c = RolledBack \/ alt_of c = Committed c.
Proof. intros c. unfold alt_of. destruct (c =? 0); auto. Qed.
Lemma alt_of_not_unlocked : forall c, alt_of c <> Unlocked.
Proof. intros c. destruct (alt_of_final c) as [H | H]; rewrite H; discriminate. Qed.
Lemma alt_of_not_locked : forall c m, alt_of c <> Locked m.
Proof. intros c m. destruct (alt_of_final c) as [H | H]; rewrite H; discriminate. Qed.

Ltac kst_tac :=
  first [ left; reflexivity
        | right; split; [ first [ left; reflexivity | right; eexists; reflexivity ]
                        | first [ discriminate | apply alt_of_not_unlocked ] ] ].
Lemma tr_pw_ok : forall m, tr_ok (tr_pw m). Proof. intros m. trtac; kst_tac. Qed.
Lemma tr_1pc_ok : forall o, tr_ok (tr_1pc o). Proof. intros o. trtac; kst_tac. Qed.
Lemma tr_cm_ok : forall c, tr_ok (tr_cm c). Proof. intros c. trtac; kst_tac. Qed.
Lemma tr_rb_ok : tr_ok tr_rb. Proof. trtac; kst_tac. Qed.
Lemma tr_rs_ok : forall c, tr_ok (tr_rs c). Proof. intros c. trtac; kst_tac. Qed.
Lemma tr_push_ok : forall m, tr_ok (tr_push m). Proof. intros m. trtac; kst_tac. Qed.
Lemma tr_cts_committed_ok : forall c, tr_ok (tr_cts_committed c). Proof. intros c. trtac; kst_tac. Qed.
Lemma tr_cts_locked_ok : forall m, tr_ok (tr_cts_locked m). Proof. intros m. trtac; kst_tac. Qed.
Lemma tr_csl_lock_ok : forall m, tr_ok (tr_csl_lock m). Proof. intros m. trtac; kst_tac. Qed.
Lemma tr_csl_rb_ok : tr_ok tr_csl_rb. Proof. trtac; kst_tac. Qed.

Lemma max_idem : forall a b, N.max (N.max a b) b = N.max a b.
Proof. intros. lia. Qed.
Ltac idem_tac := cbn; rewrite ?max_idem, ?N.max_id, ?N.eqb_refl; try reflexivity.
Lemma tr_pw_idem : forall m, tr_idem (tr_pw m). Proof. intros m. trtac; idem_tac. Qed.
Lemma tr_1pc_idem : forall o, tr_idem (tr_1pc o).
Proof. intros o. trtac; idem_tac. cbn. rewrite Heqb. reflexivity. Qed.
Lemma tr_cm_idem : forall c, tr_idem (tr_cm c).
Proof. intros c. trtac; idem_tac. cbn. rewrite Heqb. reflexivity. Qed.
Lemma tr_rb_idem : tr_idem tr_rb. Proof. trtac; idem_tac. Qed.
Lemma tr_rs_idem : forall c, tr_idem (tr_rs c).
Proof. intros c. trtac; idem_tac. unfold tr_rs. destruct (alt_of_final c) as [H | H]; rewrite H; reflexivity. Qed.
Lemma tr_push_idem : forall m, tr_idem (tr_push m). Proof. intros m. trtac; idem_tac. Qed.
Lemma tr_csl_rb_idem : tr_idem tr_csl_rb. Proof. trtac; idem_tac. Qed.

Lemma tr_pw_total : forall m, tr_total_locked (tr_pw m). Proof. intros m m0; discriminate. Qed.
Lemma tr_1pc_total : forall o, tr_total_locked (tr_1pc o). Proof. intros m m0; discriminate. Qed.
Lemma tr_cm_total : forall c, tr_total_locked (tr_cm c). Proof. intros m m0; discriminate. Qed.
Lemma tr_rb_total : tr_total_locked tr_rb. Proof. intros m0; discriminate. Qed.
Lemma tr_rs_total : forall c, tr_total_locked (tr_rs c). Proof. intros m m0; discriminate. Qed.
Lemma tr_push_total : forall m, tr_total_locked (tr_push m). Proof. intros m m0; discriminate. Qed.
Lemma tr_csl_rb_total : tr_total_locked tr_csl_rb. Proof. intros m0; discriminate. Qed.

Lemma tr_pw_res : forall m v v', tr_pw m v = Some v' ->
  v' <> Unlocked /\ v' <> RolledBack /\ v <> RolledBack /\ (forall c, v' = Committed c -> v = Committed c).
Proof. intros m v v' H. destruct v; cbn in H; inversion H; subst; repeat split; try discriminate; auto. Qed.
Lemma tr_1pc_res : forall o v v', tr_1pc o v = Some v' -> v' <> Unlocked.
Proof.
  intros o v v' H. destruct v; cbn in H; try (inversion H; subst; discriminate).
  destruct (c =? o); inversion H. discriminate.
Qed.
Lemma tr_cm_res : forall c v v', tr_cm c v = Some v' -> v' = Committed c.
Proof.
  intros c v v' H. destruct v; cbn in H; try discriminate; [inversion H; auto |].
  destruct (c0 =? c) eqn:E; inversion H. apply N.eqb_eq in E. subst. auto.
Qed.
Lemma tr_push_res : forall m v v', tr_push m v = Some v' -> v' = v.
Proof. intros m v v' H. inversion H. reflexivity. Qed.
Lemma tr_rb_res : forall v v', tr_rb v = Some v' -> v' = RolledBack /\ (forall c, v <> Committed c).
Proof. intros v v' H. destruct v; cbn in H; inversion H; split; auto; discriminate. Qed.
Lemma tr_rs_res : forall c v v', tr_rs c v = Some v' -> v' = v \/ (exists m, v = Locked m /\ v' = alt_of c).
Proof. intros c v v' H. destruct v; cbn in H; inversion H; auto. right. eauto. Qed.
Lemma tr_csl_rb_res : forall v v', tr_csl_rb v = Some v' -> v' = v \/ (v = Unlocked /\ v' = RolledBack).
Proof. intros v v' H. destruct v; cbn in H; inversion H; auto. Qed.
Lemma tr_cts_committed_res : forall c v v', tr_cts_committed c v = Some v' -> v' = Committed c /\ v = Committed c.
Proof.
  intros c v v' H. destruct v; cbn in H; try discriminate. destruct (c0 =? c) eqn:E; inversion H.
  apply N.eqb_eq in E. subst. auto.
Qed.
Lemma tr_cts_locked_res : forall m v v', tr_cts_locked m v = Some v' -> v' = v.
Proof. intros m v v' H. destruct v; cbn in H; inversion H; reflexivity. Qed.

Definition same_but_kst (s s' : sys) : Prop := s' = w_kst s (s_kst s').

Lemma same_but_kst_refl : forall s, same_but_kst s s.
Proof. intros s. unfold same_but_kst. destruct s. reflexivity. Qed.
Lemma same_but_kst_trans : forall a b c, same_but_kst a b -> same_but_kst b c -> same_but_kst a c.
Proof. unfold same_but_kst. intros a b c H1 H2. rewrite H2. rewrite H1. destruct a. reflexivity. Qed.
Lemma same_but_kst_kset : forall s T k v, same_but_kst s (kset s T k v).
Proof. intros. unfold same_but_kst, kset. destruct s. reflexivity. Qed.

Lemma wr_alt_spec : forall s T tr v, wr_alt s T tr = Some v -> exists c, In (T, c) (s_wr s) /\ tr (alt_of c) = Some v.
Proof.
  unfold wr_alt. intros s T tr v H. destruct (find _ (s_wr s)) as [[T' c] |] eqn:F; try discriminate.
  apply find_some in F. destruct F as [F1 F2]. cbn [fst snd] in *. apply andb_true_iff in F2. destruct F2 as [F2 _]. apply N.eqb_eq in F2. subst.
  exists c. auto.
Qed.

Lemma step_key_spec : forall s T k tr s', step_key s T k tr = Some s' ->
  exists v, s' = kset s T k v /\
    (tr (kget s T k) = Some v \/
     (tr (kget s T k) = None /\ exists m c, kget s T k = Locked m /\ In (T, c) (s_wr s) /\ tr (alt_of c) = Some v)).
Proof.
  unfold step_key. intros s T k tr s' H. destruct (tr (kget s T k)) as [v |] eqn:E.
  - inversion H. exists v. auto.
  - destruct (kget s T k) eqn:K; try discriminate. destruct (wr_alt s T tr) as [v |] eqn:W; try discriminate.
    inversion H. apply wr_alt_spec in W. destruct W as [c [W1 W2]]. exists v. split; auto. right. split; auto.
    exists m, c. auto.
Qed.

Lemma step_key_total : forall s T k tr s', tr_total_locked tr -> step_key s T k tr = Some s' ->
  exists v, s' = kset s T k v /\ tr (kget s T k) = Some v.
Proof.
  intros s T k tr s' Ht H. apply step_key_spec in H. destruct H as [v [H1 [H2 | [H2 [m [c [H3 _]]]]]]].
  - exists v. auto.
  - rewrite H3 in H2. exfalso. eapply Ht; eauto.
Qed.

(* weak: every key moves by kstep *)
Definition kmono (s s' : sys) : Prop := forall T k, kstep (kget s T k) (kget s' T k).
Lemma kmono_refl : forall s, kmono s s. Proof. intros s T k. apply kstep_refl. Qed.
Lemma kmono_trans : forall a b c, kmono a b -> kmono b c -> kmono a c.
Proof. intros a b c H1 H2 T k. eapply kstep_trans; eauto. Qed.

Lemma step_key_kmono : forall s T k tr s', tr_ok tr -> step_key s T k tr = Some s' ->
  same_but_kst s s' /\ kmono s s' /\ (forall T' k', (T' <> T \/ k' <> k) -> kget s' T' k' = kget s T' k').
Proof.
  intros s T k tr s' Hok H. apply step_key_spec in H. destruct H as [v [H1 H2]]. subst s'.
  split; [apply same_but_kst_kset |]. split.
  - intros T' k'. rewrite kget_kset. destruct ((T =? T') && (k =? k')) eqn:E; [| apply kstep_refl].
    beq. subst. destruct H2 as [H2 | [_ [m [c [H3 [_ H4]]]]]].
    + apply Hok. auto.
    + rewrite H3. right. split; [right; eexists; reflexivity |].
      apply Hok in H4. eapply kstep_not_unlocked; eauto. apply alt_of_not_unlocked.
  - intros T' k' Hne. apply kget_kset_ne. destruct Hne; auto.
Qed.

Lemma step_keys_kmono : forall ks s T tr s', tr_ok tr -> step_keys s T ks tr = Some s' ->
  same_but_kst s s' /\ kmono s s' /\ (forall T' k', (T' <> T \/ ~ In k' ks) -> kget s' T' k' = kget s T' k').
Proof.
  induction ks as [| k ks IH]; intros s T tr s' Hok H; cbn [step_keys] in H.
  - inversion H. subst. split; [apply same_but_kst_refl |]. split; [apply kmono_refl | auto].
  - destruct (step_key s T k tr) as [s1 |] eqn:E; try discriminate.
    apply step_key_kmono in E; auto. destruct E as [E1 [E2 E3]].
    apply IH in H; auto. destruct H as [H1 [H2 H3]].
    split; [eapply same_but_kst_trans; eauto |]. split; [eapply kmono_trans; eauto |].
    intros T' k' Hne. rewrite H3.
    + apply E3. destruct Hne as [Hne | Hne]; auto. right. intros ->. apply Hne. left. auto.
    + destruct Hne as [Hne | Hne]; auto. right. intros Hin. apply Hne. right. auto.
Qed.

(* precise: for idempotent transitions total on Locked, every listed key takes exactly one tr step *)
Lemma step_keys_exact : forall ks s T tr s', tr_ok tr -> tr_idem tr -> tr_total_locked tr ->
  step_keys s T ks tr = Some s' -> forall k, In k ks -> tr (kget s T k) = Some (kget s' T k).
Proof.
  induction ks as [| k0 ks IH]; intros s T tr s' Hok Hid Htot H k Hin; [destruct Hin |].
  cbn [step_keys] in H. destruct (step_key s T k0 tr) as [s1 |] eqn:E; try discriminate.
  apply step_key_total in E; auto. destruct E as [v [E1 E2]]. subst s1.
  destruct (in_dec N.eq_dec k ks) as [Hk | Hk].
  - specialize (IH _ _ _ _ Hok Hid Htot H k Hk). rewrite kget_kset in IH.
    destruct ((T =? T) && (k0 =? k)) eqn:B.
    + beq. subst k0. rewrite E2. apply Hid in E2. rewrite E2 in IH. auto.
    + auto.
  - destruct Hin as [-> | Hin]; [| contradiction].
    destruct (step_keys_kmono ks (kset s T k v) T tr s' Hok H) as [_ [_ F]].
    rewrite F by (right; auto). rewrite kget_kset_eq. auto.
Qed.

(* the lock observations of CheckSecondaryLocks confirm locks that are there: no key moves *)
Lemma tr_csl_lock_res : forall m v v', tr_csl_lock m v = Some v' -> v' = v /\ exists a, v = Locked a.
Proof. intros m v v' H. destruct v; cbn in H; inversion H. eauto. Qed.
Lemma step_csl_locks_same : forall l x T y, step_csl_locks x T l = Some y ->
  same_but_kst x y /\ forall T' k, kget y T' k = kget x T' k.
Proof.
  induction l as [| [k m] l IH]; intros x T y H; cbn [step_csl_locks] in H.
  - inversion H. subst. split; [apply same_but_kst_refl | reflexivity].
  - destruct (step_key x T k (tr_csl_lock m)) as [x1 |] eqn:E; try discriminate.
    assert (Tot : tr_total_locked (tr_csl_lock m)) by (intros m0; discriminate).
    destruct (step_key_total _ _ _ _ _ Tot E) as [v [-> Ev]]. apply tr_csl_lock_res in Ev. destruct Ev as [-> _].
    apply IH in H. destruct H as [S1 C1]. split; [eapply same_but_kst_trans; [apply same_but_kst_kset | exact S1] |].
    intros T' k'. rewrite C1, kget_kset. destruct ((T =? T') && (k =? k')) eqn:B; [| reflexivity]. beq. subst. reflexivity.
Qed.

Lemma first_gone_spec : forall s T ks, existsb (gone_key s T) ks = true ->
  exists k0, first_gone s T ks = [k0] /\ In k0 ks /\ gone_key s T k0 = true.
Proof.
  intros s T ks H. unfold first_gone. destruct (find (gone_key s T) ks) as [k0 |] eqn:Fd.
  - apply find_some in Fd. exists k0. tauto.
  - apply existsb_exists in H. destruct H as [k [K1 K2]]. rewrite (find_none _ _ Fd k K1) in K2. discriminate.
Qed.
Lemma first_gone_In : forall s T ks k, In k (first_gone s T ks) -> In k ks.
Proof.
  intros s T ks k H. unfold first_gone in H. destruct (find (gone_key s T) ks) as [k0 |] eqn:Fd; [| destruct H].
  destruct H as [<- | []]. apply find_some in Fd. tauto.
Qed.

