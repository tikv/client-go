(* Percolator/Motion.v — how one accepted step can move a key of the abstract store, with its cause
   (regime independent: no hypothesis about the commit mode). *)
From Verif Require Export Percolator.Layer2b.

Definition kj (s : sys) (e : event) (s' : sys) (T k : N) : Prop :=
  kget s' T k = kget s T k \/
  (exists r ks m o, e = EPwDeliver r T ks (PwOk m o) /\ In k ks /\
     ((o = 0 /\ kget s T k = Unlocked /\ kget s' T k = Locked m) \/ (o <> 0 /\ kget s' T k = Committed o))) \/
  (exists m c, kget s T k = Locked m /\ kget s' T k = Committed c /\
     ((exists r ks, e = ECmDeliver r T c ks CmOk /\ In k ks /\ In (ECmSend r T c ks) (s_sent s)) \/
      (c <> 0 /\ exists j, In (T, c, j) (s_rs s)))) \/
  (kget s' T k = RolledBack /\ (kget s T k = Unlocked \/ exists m, kget s T k = Locked m) /\
     ((exists r ks, e = ERbDeliver r T ks RbOk /\ In k ks /\ In (ERbSend r T ks) (s_sent s)) \/ (exists j, In (T, 0, j) (s_rs s)) \/
      (kget s T k = Unlocked /\ exists r ks, e = ECslDeliver r T ks (CslCommit 0) /\ In k ks) \/
      (exists r, e = ECtsDeliver r T k StRolledBack))).

Lemma tr_cts_locked_total : forall m, tr_total_locked (tr_cts_locked m). Proof. intros m m0; discriminate. Qed.
Lemma alt_of_0 : alt_of 0 = RolledBack. Proof. reflexivity. Qed.
Lemma alt_of_nz : forall c, c <> 0 -> alt_of c = Committed c.
Proof. intros c H. unfold alt_of. apply N.eqb_neq in H. rewrite H. reflexivity. Qed.

Lemma kj_locked_alt : forall s e s' T k m c j, kget s T k = Locked m -> In (T, c, j) (s_rs s) ->
  kget s' T k = alt_of c -> kj s e s' T k.
Proof.
  intros s e s' T k m c j Ek Hj E. destruct (N.eq_dec c 0) as [-> | Hc].
  - right. right. right. rewrite alt_of_0 in E. split; auto. split; [right; eauto |]. right. left. eauto.
  - right. right. left. rewrite (alt_of_nz _ Hc) in E. exists m, c. repeat split; auto. right. split; eauto.
Qed.

Lemma pw_deliver_not_rb : forall s s' r T ks m o k, stepr s (EPwDeliver r T ks (PwOk m o)) = Ok s' ->
  In k ks -> kget s T k <> RolledBack.
Proof.
  intros s s' r T ks m o k H Hk Ek.
  destruct (pd_keys _ _ _ _ _ _ _ _ (pw_deliver_spec _ _ _ _ _ _ H) k) as [[_ [Ch _]] | [Hn _]]; [| contradiction].
  rewrite Ek in Ch. destruct (o =? 0); discriminate Ch.
Qed.

Lemma pw_deliver_exact : forall s s' r T ks m, stepr s (EPwDeliver r T ks (PwOk m 0)) = Ok s' ->
  forall k, In k ks -> tr_pw m (kget s T k) = Some (kget s' T k) /\ mc_consistent s T m k = true.
Proof.
  intros s s' r T ks m H k Hk.
  destruct (pd_keys _ _ _ _ _ _ _ _ (pw_deliver_spec _ _ _ _ _ _ H) k) as [[_ [Ch Mc]] | [Hn _]]; [auto | contradiction].
Qed.

Lemma stepr_kj : forall s e s' T, stepr s e = Ok s' -> ginv s T -> forall k, kj s e s' T k.
Proof.
  intros s e s' T H G k.
  destruct (txn_of_dec e T) as [Et | Hn]; [| left; exact (a_k _ _ _ (step_agree s e s' T H Hn) k)].
  destruct (kchange e) eqn:Kc; [| left; apply kget_of_kst; eapply stepr_kst_same; eauto].
  destruct e; try discriminate Kc; injection Et as ->.
  - (* prewrite delivery *)
    destruct res as [m o | |]; [| cbn [stepr] in H; unfold step_pw_deliver in H; chks H; okinv H; left; reflexivity ..].
    destruct (pd_keys _ _ _ _ _ _ _ _ (pw_deliver_spec _ _ _ _ _ _ H) k) as [[Hk [Ch _]] | [_ Ch]]; [| left; exact Ch].
    destruct (o =? 0) eqn:Eo.
    + destruct (kget s T k) eqn:Ek; cbn in Ch; inversion Ch; try (left; congruence).
      right. left. exists r, ks, m, o. repeat split; auto. left. apply N.eqb_eq in Eo. auto.
    + apply tr_1pc_res2 in Ch. right. left. exists r, ks, m, o. repeat split; auto. right. apply N.eqb_neq in Eo. auto.
  - (* commit delivery *)
    cbn [stepr] in H. unfold step_cm_deliver in H. chks H.
    assert (Rq : In (ECmSend r T c ks) (s_sent s)).
    { apply sent_by_In in C. destruct C as [e0 [Ce1 Ce2]]. destruct e0; try discriminate. beq. subst. exact Ce1. }
    destruct res; chks H; try (destruct (has_prim (getc s T) ks); okinv H; left; reflexivity).
    + destruct (step_keys _ _ _ _) as [s2 |] eqn:E; try discriminate.
      pose proof (step_keys_char _ _ _ _ _ _ (tr_cm_ok c) (tr_cm_idem c) (tr_cm_total c) E k) as Ch.
      assert (Kk : kget s' T k = kget s2 T k) by (destruct (has_prim (getc s T) ks); okinv H; reflexivity).
      rewrite <- Kk in Ch. destruct Ch as [[Hk Ch] | [_ Ch]]; [| left; exact Ch]. change (kget (add_dlv s _) T k) with (kget s T k) in Ch.
      destruct (kget s T k) eqn:Ek; cbn in Ch; try discriminate.
      * inversion Ch. right. right. left. exists m, c. repeat split; auto. left. eauto.
      * destruct (c0 =? c); inversion Ch. left. congruence.
    + destruct (step_keys _ _ _ _) as [s2 |] eqn:E; try discriminate.
      pose proof (step_keys_char _ _ _ _ _ _ (tr_push_ok m) (tr_push_idem m) (tr_push_total m) E k) as Ch.
      assert (Kk : kget s' T k = kget s2 T k) by (destruct (has_prim (getc s T) ks); okinv H; reflexivity).
      rewrite <- Kk in Ch. destruct Ch as [[_ Ch] | [_ Ch]]; [| left; exact Ch]. change (kget (add_dlv s _) T k) with (kget s T k) in Ch.
      unfold tr_push in Ch. inversion Ch. left. congruence.
  - (* rollback delivery *)
    cbn [stepr] in H. unfold step_rb_deliver in H. chks H.
    assert (Rq : In (ERbSend r T ks) (s_sent s)).
    { apply sent_by_In in C. destruct C as [e0 [Ce1 Ce2]]. destruct e0; try discriminate. beq. subst. exact Ce1. }
    destruct res; try (okinv H; left; reflexivity).
    destruct (step_keys _ _ _ _) as [s2 |] eqn:E; try discriminate. okinv H.
    destruct (step_keys_char _ _ _ _ _ _ tr_rb_ok tr_rb_idem tr_rb_total E k) as [[Hk Ch] | [_ Ch]]; [| left; exact Ch].
    change (kget (add_dlv s _) T k) with (kget s T k) in Ch.
    destruct (kget s T k) eqn:Ek; cbn in Ch; inversion Ch; try (left; congruence).
    + right. right. right. split; auto. split; [left; auto |]. left. eauto.
    + right. right. right. split; auto. split; [right; eauto |]. left. eauto.
  - (* CheckTxnStatus delivery *)
    cbn [stepr] in H. unfold step_cts_deliver in H. chks H.
    destruct st as [ttl m a secs | cc | | | | |]; chks H; try (okinv H; left; reflexivity).
    + destruct (step_key _ _ _ _) as [s2 |] eqn:K; try discriminate. okinv H.
      apply (step_key_total _ _ _ _ _ (tr_cts_locked_total m)) in K. destruct K as [v [-> K2]].
      apply tr_cts_locked_res in K2. left. rewrite kget_kset, N.eqb_refl. cbn [andb].
      destruct (p =? k) eqn:E; auto. apply N.eqb_eq in E. subst. auto.
    + destruct (step_key _ _ _ _) as [s2 |] eqn:K; try discriminate. okinv H. apply step_key_char in K.
      destruct K as [v [K1 K2]]. destruct (p =? k) eqn:E; [| left; rewrite K1, E; auto]. apply N.eqb_eq in E. subst k.
      destruct K2 as [K2 | [_ [m0 [c0 [K3 [K4 K5]]]]]].
      * apply tr_cts_committed_res in K2. destruct K2 as [-> K2]. left. rewrite K1, N.eqb_refl. auto.
      * apply tr_cts_committed_res in K5. destruct K5 as [Ev K5]. change (kget (add_dlv s _) T p) with (kget s T p) in K3.
        change (s_wr (add_dlv s _)) with (s_wr s) in K4. destruct (g_wr _ _ G _ K4) as [j Hj].
        eapply kj_locked_alt; eauto. rewrite K1, N.eqb_refl. congruence.
    + assert (Hr : exists x, step_key x T p tr_rb = Some s' /\ forall k0, kget x T k0 = kget s T k0).
      { match type of H with context [if ?bb then _ else _] => destruct bb end;
          (destruct (step_key _ _ _ _) as [s2 |] eqn:K; try discriminate; okinv H; eexists; split; [exact K | reflexivity]). }
      destruct Hr as [x [K Kx]]. apply (step_key_total _ _ _ _ _ tr_rb_total) in K. destruct K as [v [-> K2]].
      unfold kj. rewrite kget_kset, N.eqb_refl. cbn [andb]. rewrite !Kx in *.
      destruct (p =? k) eqn:E; [| left; auto]. apply N.eqb_eq in E. subst k. apply tr_rb_res in K2. destruct K2 as [-> K2].
      destruct (kget s T p) eqn:Ek.
      * right. right. right. split; auto. split; [left; auto |]. right. right. right. eauto.
      * right. right. right. split; auto. split; [right; eauto |]. right. right. right. eauto.
      * exfalso. eapply K2; eauto.
      * left. auto.
  - (* CheckSecondaryLocks delivery *)
    cbn [stepr] in H. unfold step_csl_deliver in H. chks H.
    destruct st; chks H; try (okinv H; left; reflexivity).
    + destruct (step_csl_locks _ _ _) as [s2 |] eqn:E; try discriminate. okinv H.
      pose proof (step_csl_locks_kevos _ _ _ _ E T k) as Ke. change (kget (add_dlv s _) T k) with (kget s T k) in Ke.
      apply step_csl_locks_char in E. destruct E as [_ Ch]. destruct (Ch T k) as [E1 | [a [b [E1 E2]]]]; [left; exact E1 |].
      change (kget (add_dlv s _) T k) with (kget s T k) in E1. rewrite E1, E2 in Ke. apply kevo_locked in Ke. left. congruence.
    + destruct (c =? 0) eqn:Ec; chks H; [| okinv H; left; reflexivity]. apply N.eqb_eq in Ec. subst c.
      destruct (step_keys _ _ _ _) as [s2 |] eqn:E; try discriminate. okinv H.
      destruct (step_keys_char _ _ _ _ _ _ tr_csl_rb_ok tr_csl_rb_idem tr_csl_rb_total E k) as [[Hk Ch] | [_ Ch]]; [| left; exact Ch].
      change (kget (add_dlv s _) T k) with (kget s T k) in Ch.
      destruct (kget s T k) eqn:Ek; cbn in Ch; inversion Ch; try (left; congruence). apply first_gone_In in Hk.
      right. right. right. split; auto. split; [left; auto |]. right. right. left. split; eauto.
  - (* resolve delivery *)
    cbn [stepr] in H. unfold step_rs_deliver in H. chks H.
    apply sent_by_In in C. destruct C as [e0 [Ce1 Ce2]]. destruct e0; try discriminate. beq. subst.
    destruct (g_rs_sent _ _ G _ _ _ Ce1) as [j Hj].
    destruct res; try (okinv H; left; reflexivity).
    destruct ks as [| k0 ks]; [okinv H; left; reflexivity |].
    destruct (step_keys _ _ _ _) as [s2 |] eqn:E; try discriminate. okinv H.
    destruct (step_keys_char _ _ _ _ _ _ (tr_rs_ok c) (tr_rs_idem c) (tr_rs_total c) E k) as [[_ Ch] | [_ Ch]]; [| left; exact Ch].
    change (kget (add_dlv s _) T k) with (kget s T k) in Ch.
    destruct (kget s T k) eqn:Ek; cbn in Ch; inversion Ch; try (left; congruence).
    eapply kj_locked_alt; eauto.
Qed.

(* the two ways a key gets committed in a step: a 1PC prewrite, or a lock resolved by the owner's commit or by a decision on record *)
Lemma committed_by : forall s e s' T k c, stepr s e = Ok s' -> ginv s T -> kget s' T k = Committed c ->
  kget s T k = Committed c \/
  (exists r ks m, e = EPwDeliver r T ks (PwOk m c) /\ In k ks /\ c <> 0) \/
  (exists m, kget s T k = Locked m /\
     ((exists r ks, e = ECmDeliver r T c ks CmOk /\ In k ks /\ In (ECmSend r T c ks) (s_sent s)) \/
      (c <> 0 /\ exists j, In (T, c, j) (s_rs s)))).
Proof.
  intros s e s' T k c H G Ek.
  destruct (stepr_kj _ _ _ T H G k) as [Same | [[r [ks [m [o [Ee [Hk [[_ [_ E]] | [Ho E]]]]]]]] | [[m [c' [El [E Cause]]]] | [E _]]]]; try congruence.
  - left. congruence.
  - right. left. assert (o = c) by congruence. subst o. exists r, ks, m. auto.
  - right. right. assert (c' = c) by congruence. subst c'. exists m. auto.
Qed.
