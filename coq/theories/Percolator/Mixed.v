(* Percolator/Mixed.v — a transaction one of whose locked mutations is still unlocked, or holds (held) a lock that is
   not an async-commit lock, is a two-phase-commit transaction for everybody: the owner cannot keep async commit,
   no resolver can commit it through the CheckSecondaryLocks fold. Invariant [minv], kept by every step for each such
   transaction without an effective 1PC prewrite (Winv). Read at a non-async lock it is Minv; read at a never-locked
   mutation it says that nothing of the transaction is committed, no commit request and no commit decision exists and
   Commit has not returned success, whatever the commit mode (vfacts, Vinv). *)
From Verif Require Export Percolator.Univ.

Definition mixed (s : sys) (T : N) : Prop :=
  hasm s T /\ no1pc s T /\ exists k0, In k0 (lm s T) /\ lamk s T k0 = Some 0.

Record minv (s : sys) (T : N) : Prop := {
  m_cmsent : forall r c ks, In (ECmSend r T c ks) (s_sent s) -> ~ In (prim s T) ks -> kget s T (prim s T) = Committed c;
  m_one : forall k c, kget s T k = Committed c -> kget s T (prim s T) = Committed c;
  m_pcommit : forall c, kget s T (prim s T) = Committed c -> F s T FPcOkd <> 0;
  m_told_ok : F s T FTold = 1 -> exists c, kget s T (prim s T) = Committed c;
  m_fb : forall k, In k (lm s T) -> lamk s T k = Some 0 -> In k (pwok s T) -> F s T FTriedA <> 0 -> F s T FFb <> 0;
  m_dec : forall C j, In (T, C, j) (s_rs s) -> C <> 0 -> kget s T (prim s T) = Committed C;
  m_cslc : forall r ks C, In (ECslReply r T ks (CslCommit C)) (s_dlv s) -> C <> 0 -> kget s T (prim s T) = Committed C
}.

(* some locked mutation is unlocked or carries a lock that is not an async-commit lock *)
Definition unsealed (s : sys) (T : N) : Prop :=
  exists k0, In k0 (lm s T) /\ (kget s T k0 = Unlocked \/ lamk s T k0 = Some 0).

Definition preseal (s : sys) (T : N) : Prop := exists k0, In k0 (lm s T) /\ kget s T k0 = Unlocked.
Record vfacts (s : sys) (T : N) : Prop := {
  v_nocommit : forall k c, kget s T k <> Committed c;
  v_nocm : forall r c ks, ~ In (ECmSend r T c ks) (s_sent s);
  v_dec : forall C j, In (T, C, j) (s_rs s) -> C = 0;
  v_cslc : forall r ks C, In (ECslReply r T ks (CslCommit C)) (s_dlv s) -> C = 0;
  v_told : F s T FTold <> 1 }.
Definition Vinv (s : sys) : Prop := forall T, hasm s T -> preseal s T -> vfacts s T.

Lemma committed_pwok : forall s T, hasm s T -> pcinv s T -> uinv s T -> minv s T ->
  forall c, kget s T (prim s T) = Committed c -> forall k, In k (lm s T) -> In k (pwok s T).
Proof.
  intros s T Hh PC U M c HP. apply (u_pwok _ _ U). apply (m_pcommit _ _ M) in HP.
  destruct (pc_cnt _ _ PC Hh) as [A1 [A2 A3]]. unfold F in *. lia.
Qed.

(* while nothing of T is committed or decided, minv asks only for its clause about the fallback flag *)
Lemma vfacts_minv : forall s T, vfacts s T ->
  (forall k, In k (lm s T) -> lamk s T k = Some 0 -> In k (pwok s T) -> F s T FTriedA <> 0 -> F s T FFb <> 0) -> minv s T.
Proof.
  intros s T VF Hfb. constructor; [| | | | exact Hfb | |].
  - intros r c ks Hi. exfalso. exact (v_nocm _ _ VF _ _ _ Hi).
  - intros k c E. exfalso. exact (v_nocommit _ _ VF _ _ E).
  - intros c E. exfalso. exact (v_nocommit _ _ VF _ _ E).
  - intros Ht. exfalso. exact (v_told _ _ VF Ht).
  - intros C j Hj HC. exfalso. exact (HC (v_dec _ _ VF _ _ Hj)).
  - intros r ks C Hi HC. exfalso. exact (HC (v_cslc _ _ VF _ _ _ Hi)).
Qed.

(* conversely, with a locked mutation still unlocked the primary cannot be committed, and minv gives vfacts *)
Lemma minv_vfacts : forall s T, ginv s T -> hasm s T -> pcinv s T -> uinv s T -> minv s T -> preseal s T -> vfacts s T.
Proof.
  intros s T G Hh PC U M [k0 [K1 K2]].
  assert (Np : ~ In k0 (pwok s T)) by (intros Hp; exact (pwdlv_not_unlocked s T k0 G (g_pwok _ _ G _ Hp) K2)).
  assert (Nc : forall c, kget s T (prim s T) <> Committed c) by (intros c HP; exact (Np (committed_pwok s T Hh PC U M c HP k0 K1))).
  constructor.
  - intros k c E. exact (Nc c (m_one _ _ M _ _ E)).
  - intros r c ks Hi. exact (Np (proj2 (u_cmsent _ _ U _ _ _ Hi) k0 K1)).
  - intros C j Hj. destruct (N.eq_dec C 0) as [| HC]; auto. exfalso. exact (Nc C (m_dec _ _ M _ _ Hj HC)).
  - intros r ks C Hi. destruct (N.eq_dec C 0) as [| HC]; auto. exfalso. exact (Nc C (m_cslc _ _ M _ _ _ Hi HC)).
  - intros Ht. destruct (m_told_ok _ _ M Ht) as [c HP]. exact (Nc c HP).
Qed.

(* a 1PC prewrite that takes effect covers every locked mutation *)
Lemma preseal_no1pc : forall s T, ginv s T -> uinv s T -> preseal s T -> no1pc s T.
Proof.
  intros s T G U [k0 [K1 K2]] r ks m o Hi. destruct (N.eq_dec o 0) as [| Ho]; auto. exfalso.
  apply (g_pw _ _ G _ _ _ _ k0 Hi); auto. eapply (u_1pcdlv _ _ U); eauto.
Qed.

Lemma vfacts_mutations : forall s s' T p ms, Inv s -> Linv s -> Zinv s -> Yinv s ->
  stepr s (EMutations T p ms) = Ok s' -> vfacts s' T.
Proof.
  intros s s' T p ms HI HL HZ HY H. destruct (HI T) as [G _]. pose proof (HL T) as L. pose proof (HZ T) as Z. pose proof (HY T) as Y.
  cbn [stepr] in H. chks H. okinv H. b2p.
  assert (KF : forall k, kget s T k = Unlocked \/ kget s T k = RolledBack) by (intros; apply (g_kst_fresh _ _ G); auto).
  destruct (z_untried s T Z) as [NoA _]; [assumption | unfold F in NoA].
  constructor; unfold F; rd.
  - intros k c Ek. rd. destruct (KF k); congruence.
  - intros r c ks Hi. rd. apply (g_cmsent_p _ _ G) in Hi. unfold hasm, F in Hi. destruct Hi as [Hi | [Hi _]]; congruence.
  - intros Cd j Hj. rd. destruct (N.eq_dec Cd 0) as [-> | HC]; auto. exfalso. destruct j as [p' |].
    + apply (g_rs _ _ G) in Hj. rewrite (alt_of_nz _ HC) in Hj. destruct (KF p'); congruence.
    + apply (g_jasync _ _ G) in Hj. unfold F in Hj. congruence.
  - intros r ks Cd Hi. rd. exfalso. apply (l_csl_sent _ _ L) in Hi. apply (y_csl _ _ Y) in Hi. unfold F in Hi. congruence.
  - rd. congruence.
Qed.

Lemma stepr_fb : forall s e s' T, stepr s e = Ok s' ->
  (F s T FFb <> 0 -> F s' T FFb <> 0) /\ (forall r ks o, e = EPwReply r T ks (PwOk 0 o) -> F s' T FFb <> 0).
Proof.
  intros s e s' T H. split.
  - intros Hf. destruct (stepr_cn _ _ _ T FFb H) as [-> | [Et W]]; [exact Hf |]. unfold F in *.
    destruct (wr_inv _ _ _ Et W) as [[r [p [ks [a [o [m [f [secs ->]]]]]]]] | [r [ks [x ->]]]].
    + rewrite (ps_fb _ _ _ _ _ _ _ _ _ (pw_send_spec _ _ _ _ _ _ _ _ _ _ _ H)). destruct a; [exact Hf | discriminate].
    + intros E0. exact (Hf (proj1 (pr_fb _ _ _ _ _ _ _ _ (pw_reply_spec _ _ _ _ _ _ H) E0))).
  - intros r ks o -> E0. exact (proj2 (pr_fb _ _ _ _ _ _ _ _ (pw_reply_spec _ _ _ _ _ _ H) E0) 0 o eq_refl eq_refl).
Qed.

Section MStep.
  Variables (s : sys) (e : event) (s' : sys) (T : N).
  Hypothesis H : stepr s e = Ok s'.
  Hypothesis HI : Inv s.
  Hypothesis HL : Linv s.
  Hypothesis HZ : Zinv s.
  Hypothesis HY : Yinv s.
  Hypothesis Hh : hasm s T.
  Hypothesis PC : pcinv s T.
  Hypothesis U : uinv s T.
  Hypothesis N1' : no1pc s' T.
  Variable k0 : N.
  Hypothesis K0 : In k0 (lm s T).
  Hypothesis K0l : kget s T k0 = Unlocked \/ lamk s T k0 = Some 0.
  Hypothesis M : minv s T.
  Let G : ginv s T := proj1 (HI T).
  Let L : linv s T := HL T.
  Let G' : ginv s' T := proj1 (inv_stepr _ _ _ HI H T).
  Let Ep : prim s' T = prim s T := st_prim s e s' T H Hh.
  Let Em : lm s' T = lm s T := st_lm s e s' T H Hh.
  Let N1 : no1pc s T := no1pc_back _ _ _ _ H N1'.
  Let Cm' := st_committed s e s' T H.

  Lemma not_async_kept : (forall k, In k (lm s T) -> In k (pwok s T)) -> async_kept (getc s T) = true -> False.
  Proof.
    intros Hsub Ha. destruct K0l as [Eu | El].
    - exact (pwdlv_not_unlocked s T k0 G (g_pwok _ _ G _ (Hsub _ K0)) Eu).
    - unfold async_kept in Ha. b2p. apply (m_fb _ _ M k0 K0 El (Hsub _ K0)); auto.
  Qed.

  Lemma ms_cmsent : forall r c ks, In (ECmSend r T c ks) (s_sent s') -> ~ In (prim s' T) ks -> kget s' T (prim s' T) = Committed c.
  Proof.
    intros r c ks Hi Hp. rewrite Ep in *. apply Cm'. destruct (stepr_sent_new _ _ _ H _ Hi) as [B | B]; [eapply (m_cmsent _ _ M); eauto |].
    destruct (cm_send_ok _ _ _ _ _ _ _ H B Hh) as [_ [Hsub [Hc [[Hq | [Ok | Ak]] _]]]]; [contradiction | | exfalso; eapply not_async_kept; eauto].
    rewrite <- Ok. apply (l_pcok _ _ L Hh). rewrite Ok. lia.
  Qed.

  Lemma ms_one : forall k c, kget s' T k = Committed c -> kget s' T (prim s' T) = Committed c.
  Proof.
    intros k c Ek'. rewrite Ep.
    destruct (committed_by _ _ _ T k c H G Ek') as [Same | [[r [ks [m [Ee [Hk Ho]]]]] | [m [_ [[r [ks [Ee [Hk Hs]]]] | [Hc [j Hj]]]]]]].
    - apply Cm'. exact (m_one _ _ M k c Same).
    - exfalso. apply Ho. apply (N1' r ks m c). eapply stepr_dlv_in; eauto. rewrite Ee. reflexivity.
    - assert (Hi : In (ECmReply r T c ks CmOk) (s_dlv s')) by (eapply stepr_dlv_in; eauto; rewrite Ee; reflexivity).
      destruct (in_dec N.eq_dec (prim s T) ks) as [Hp | Hp]; [apply (g_cm _ _ G' _ _ _ _ Hi Hp) |].
      apply Cm'. eapply (m_cmsent _ _ M); eauto.
    - apply Cm'. eapply (m_dec _ _ M); eauto.
  Qed.

  Lemma ms_pcommit : forall c, kget s' T (prim s' T) = Committed c -> F s' T FPcOkd <> 0.
  Proof.
    intros c Ek'. rewrite Ep in Ek'.
    destruct (stepr_pcn _ _ _ T H G (pc_cnt _ _ PC) (st_hasm s e s' T H Hh)) as [_ [_ [Mono New]]]. destruct (Mono Hh) as [_ M2].
    destruct (committed_by _ _ _ T _ c H G Ek') as [Same | [[r [ks [m [Ee [Hk Ho]]]]] | [m [El [[r [ks [Ee [Hk _]]]] | [Hc [j Hj]]]]]]].
    - pose proof (m_pcommit _ _ M c Same). lia.
    - exfalso. apply Ho. apply (N1' r ks m c). eapply stepr_dlv_in; eauto. rewrite Ee. reflexivity.
    - eapply New; eauto. rewrite Ep. auto.
    - exfalso. rewrite (m_dec _ _ M _ _ Hj Hc) in El. discriminate El.
  Qed.

  Lemma ms_told_ok : F s' T FTold = 1 -> exists c, kget s' T (prim s' T) = Committed c.
  Proof.
    intros Ht. rewrite Ep. destruct (told_ok_step _ _ _ T H Hh Ht) as [Same | [Ok | [Ts | [Ak Hsub]]]].
    - destruct (m_told_ok _ _ M Same) as [c Hc]. exists c. auto.
    - exists (F s T FPcOk). apply Cm'. apply (l_pcok _ _ L Hh). exact Ok.
    - exfalso. destruct (u_1pcts _ _ U Ts) as [r [ks [m [o [B1 B2]]]]]. apply B2. eapply N1; eauto.
    - exfalso. eapply not_async_kept; eauto.
  Qed.
  Lemma ms_fb : forall k, In k (lm s' T) -> lamk s' T k = Some 0 -> In k (pwok s' T) -> F s' T FTriedA <> 0 -> F s' T FFb <> 0.
  Proof.
    intros k Hk Hl Hp Ha. rewrite Em in Hk.
    destruct (stepr_fb _ _ _ T H) as [Fb Fb0]. pose proof (stepr_pwok _ _ _ T H) as Pw.
    pose proof (lam_pwok_back _ _ _ T k 0 H G L Hl Hp) as Hl0.
    destruct Pw as [Pw | [r [ks [m [o [Ee Pw]]]]]].
    - (* no new answer: if async commit is first tried by this very step, an earlier request has fixed the mode *)
      rewrite Pw in Hp. apply Fb. destruct (stepr_cn _ _ _ T FTriedA H) as [Same | _]; [apply (m_fb _ _ M k); auto; congruence |].
      destruct (N.eq_dec (F s T FPwSent) 0) as [Hz | Hz].
      + exfalso. destruct (y_lam0 _ _ (HY T) Hz) as [_ [Y2 _]]. unfold pwok in Hp. rewrite Y2 in Hp. destruct Hp.
      + destruct (z_mode _ _ (HZ T) Hz) as [_ [B | B]]; auto. apply (m_fb _ _ M k); auto.
    - (* a new answer covering k: it carries min-commit 0, or k is committed and the owner is past its commit point *)
      rewrite Pw in Hp. destruct (stepr_cn _ _ _ T FTriedA H) as [Same | [_ W]]; [rewrite Same in Ha | rewrite Ee in W; discriminate W].
      apply in_app_or in Hp. destruct Hp as [Hp | Hp]; [| apply Fb; apply (m_fb _ _ M k); auto].
      pose proof H as H2. rewrite Ee in H2. pose proof (pr_dlv _ _ _ _ _ _ _ _ (pw_reply_spec _ _ _ _ _ _ H2)) as C0.
      assert (o = 0) by (eapply N1; eauto). subst o.
      destruct (u_entry _ _ U _ _ _ C0 k Hp) as [E1 | [E1 | E1]].
      + assert (m = 0) by congruence. subst m. eapply Fb0; eauto.
      + subst m. eapply Fb0; eauto.
      + apply Fb. apply (m_fb _ _ M k); auto. exact (committed_pwok s T Hh PC U M m (m_one _ _ M _ _ E1) k Hk).
  Qed.

  Lemma ms_dec : forall C j, In (T, C, j) (s_rs s') -> C <> 0 -> kget s' T (prim s' T) = Committed C.
  Proof.
    intros C j Hj HC. rewrite Ep. apply Cm'. destruct (stepr_rs_new _ _ _ H _ _ _ Hj) as [B | [r [ks Ee]]]; [eapply (m_dec _ _ M); eauto |].
    destruct (rs_send_just _ _ _ _ _ _ _ H Ee G L) as [[p [Ek Hp]] | [[ks0 Hi] | [p [ttl [m [secs [Hi [_ Hs]]]]]]]].
    - rewrite <- (Hp Hh), <- (alt_of_nz _ HC). exact Ek.
    - eapply (m_cslc _ _ M); eauto.
    - exfalso. destruct (u_ctsl _ _ U _ _ _ _ _ Hi) as [Hm [Lp [-> Hsecs]]].
      assert (Sl : exists Mm, lamk s T k0 = Some Mm /\ Mm <> 0).
      { destruct (N.eq_dec k0 (prim s T)) as [-> | Hne]; [eauto |].
        destruct (Hs k0) as [ks0 [l [Mm [X1 [X3 HM]]]]]; [apply Hsecs; auto |]. exists Mm. split; [exact (u_csll _ _ U _ _ _ X1 _ _ X3) | exact HM]. }
      destruct Sl as [Mm [Sl HM]]. destruct K0l as [Eu | El]; [exact (l_nu _ _ L _ _ Sl Eu) | congruence].
  Qed.

  Lemma ms_cslc : forall r ks C, In (ECslReply r T ks (CslCommit C)) (s_dlv s') -> C <> 0 -> kget s' T (prim s' T) = Committed C.
  Proof.
    intros r ks C Hi HC. rewrite Ep. apply Cm'. destruct (st_dlv_new s e s' H _ Hi) as [B | B]; [eapply (m_cslc _ _ M); eauto |].
    destruct (csl_commit_ok _ _ _ _ _ _ _ H B HC G) as [[k Ek] | [j Hj]]; [exact (m_one _ _ M _ _ Ek) | exact (m_dec _ _ M _ _ Hj HC)].
  Qed.

  Theorem minv_step : minv s' T.
  Proof. constructor; [exact ms_cmsent | exact ms_one | exact ms_pcommit | exact ms_told_ok | exact ms_fb | exact ms_dec | exact ms_cslc]. Qed.
End MStep.

Definition Minv (s : sys) : Prop := forall T, mixed s T -> minv s T.
Definition Winv (s : sys) : Prop := forall T, hasm s T -> no1pc s T -> unsealed s T -> minv s T.

Theorem winv_stepr : forall s e s', Inv s -> Linv s -> Zinv s -> Yinv s -> Pinv s -> Uinv s -> Winv s ->
  stepr s e = Ok s' -> Winv s'.
Proof.
  intros s e s' HI HL HZ HY HP HU HW H T Hh' N1' [k0 [K1 K2]].
  destruct (stepr_hasm_back _ _ _ T H Hh') as [Hh | [p [ms ->]]].
  - rewrite (st_lm _ _ _ T H Hh) in K1.
    assert (K0 : kget s T k0 = Unlocked \/ lamk s T k0 = Some 0).
    { destruct K2 as [Eu | El]; [left | destruct (proj2 (stepr_lam _ _ _ T k0 H (HL T)) _ El) as [B | [Eu _]]; auto].
      destruct (kstate_eq_dec (kget s' T k0) (kget s T k0)) as [E | E]; [congruence |].
      destruct (km_changed _ _ T k0 (stepr_kmono _ _ _ H) E) as [_ Hn]. contradiction. }
    eapply (minv_step s e s' T) with (k0 := k0); eauto.
    apply HW; auto; [eapply no1pc_back; eauto | exists k0; auto].
  - (* the owner has no successful prewrite on record yet *)
    apply vfacts_minv; [eapply vfacts_mutations; eauto |]. intros k _ _ Hp _. exfalso.
    destruct (stepr_pwok _ _ _ T H) as [Pw | [r [ks [m [o [Ee _]]]]]]; [rewrite Pw in Hp | discriminate Ee].
    cbn [stepr] in H. chks H. b2p. destruct (y_lam0 _ _ (HY T)) as [_ [Y2 _]]; [assumption |].
    unfold pwok in Hp. rewrite Y2 in Hp. exact Hp.
Qed.

Lemma winv_of : forall s, Vinv s -> Minv s -> Winv s.
Proof.
  intros s HV HM T Hh N1 [k0 [K1 [Eu | El]]].
  - apply vfacts_minv; [apply HV; auto; exists k0; auto |].
    intros k Hk Hl. exact (m_fb _ _ (HM T (conj Hh (conj N1 (ex_intro _ k (conj Hk Hl))))) k Hk Hl).
  - apply HM. split; auto. split; auto. exists k0. auto.
Qed.
Lemma winv_vinv : forall s, Inv s -> Pinv s -> Uinv s -> Winv s -> Vinv s.
Proof.
  intros s HI HP HU HW T Hh Pre. destruct (HI T) as [G _]. apply minv_vfacts; auto.
  apply HW; auto; [exact (preseal_no1pc s T G (HU T Hh) Pre) | destruct Pre as [k0 [K1 K2]]; exists k0; auto].
Qed.
Lemma winv_minv : forall s, Winv s -> Minv s.
Proof. intros s HW T [Hh [N1 [k0 [K1 K2]]]]. apply HW; auto. exists k0. auto. Qed.
