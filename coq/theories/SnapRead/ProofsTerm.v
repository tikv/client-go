(* SnapRead/ProofsTerm.v — termination of point get and batch get; the rounds of batch get; the buffer tier.
   Environment assumption (built into the world): a live transaction stays alive for a finite number of
   status checks (TAlive n), after which it is finished; [patience] is the total number of such
   waiting rounds.  Region errors: the schedule contains at most E of them from the current step on. *)
From Coq Require Import Sorting.Permutation.
From Verif Require Import Base.Lex SnapRead.Model SnapRead.ModelRead SnapRead.ProofsList SnapRead.ProofsRead.

Definition pat (s : tstate) : nat := match s with TAlive n _ => S n | _ => 0%nat end.
Fixpoint patience (tx : list (N * tstate)) : nat :=
  match tx with [] => 0%nat | (_, s) :: r => (pat s + patience r)%nat end.

Lemma patience_set tx t old s' :
  tx_get tx t = Some old -> (patience (tx_set tx t s') + pat old = patience tx + pat s')%nat.
Proof.
  induction tx as [|[a sa] tx IH]; cbn [tx_get tx_set patience]; [discriminate|].
  destruct (a =? t); cbn [patience].
  - intros H; inversion H; subst. lia.
  - intros H. specialize (IH H). lia.
Qed.

(* what one status check does to the patience, and when it does not wait *)
Lemma probe_progress tx t ts : txs_ok tx ts ->
  let '(tx', s) := probe tx t in
  (patience tx' <= patience tx)%nat /\
  ((patience tx' < patience tx)%nat \/ finished s = true \/ classify true s ts = Ignore).
Proof.
  intros Hok. unfold probe. destruct (tx_get tx t) as [st|] eqn:Eg.
  2:{ split; [lia|]. right; left. reflexivity. }
  assert (Hfin : forall f a, eventual st = f -> (a = NoAction \/ a = TTLExpireRollback) -> finished (st_of_fin f a) = true).
  { intros f a Hf Ha. destruct f as [|c]; cbn.
    - destruct Ha as [->| ->]; reflexivity.
    - destruct (Hok t st Eg) as [Hc _]. specialize (Hc c Hf). unfold finished, is_committed. cbn.
      assert (E : (0 <? c) = true) by (apply N.ltb_lt; lia). rewrite E. reflexivity. }
  destruct st as [f|f|[|n] f].
  - split; [lia|]. right; left. apply (Hfin f NoAction eq_refl). auto.
  - split; [lia|]. right; right. reflexivity.
  - pose proof (patience_set tx t _ (TFinished f) Eg) as Hp. cbn [pat] in Hp. split; [lia|]. left. lia.
  - pose proof (patience_set tx t _ (TAlive n f) Eg) as Hp. cbn [pat] in Hp. split; [lia|]. left. lia.
Qed.

Section Term.
  Variable ts : N.

  Definition blockedb (st : world * list N) (k : key) : bool :=
    match store_get (k_get (w_keys (fst st)) k) ts (snd st) with SLocked _ => true | SVal _ => false end.

  Lemma blocks_mono l t rs : blocks l ts (t :: rs) = true -> blocks l ts rs = true.
  Proof.
    unfold blocks, memN. cbn [existsb]. intros H. apply andb_true_iff in H. destruct H as [H1 H2].
    rewrite H1. cbn [andb]. apply negb_true_iff in H2. apply orb_false_iff in H2. destruct H2 as [_ H2]. rewrite H2. reflexivity.
  Qed.

  Lemma store_get_mono s t rs : (exists l, store_get s ts (t :: rs) = SLocked l) -> exists l, store_get s ts rs = SLocked l.
  Proof.
    unfold store_get. destruct (ks_lock s) as [l|]; [|intros [l H]; discriminate].
    destruct (blocks l ts (t :: rs)) eqn:E; [|intros [l' H]; discriminate].
    rewrite (blocks_mono _ _ _ E). intros _. eauto.
  Qed.

  Lemma unlocked_not_blocked w rs k : ks_lock (k_get (w_keys w) k) = None -> blockedb (w, rs) k = false.
  Proof. intros H. unfold blockedb, store_get. cbn [fst snd]. rewrite H. reflexivity. Qed.

  Lemma ignored_not_blocked s rs l : store_get s ts rs = SLocked l -> exists o, store_get s ts (l_start l :: rs) = SVal o.
  Proof.
    unfold store_get. destruct (ks_lock s) as [l0|]; [|discriminate]. destruct (blocks l0 ts rs); intros H; inversion H; subst.
    rewrite blocks_ignored. eauto.
  Qed.

  (* the effect of handling one lock: nothing gets blocked that was not, the patience does not
     grow, and for the key of a genuinely met lock there is progress *)
  Lemma handle_lock_effect st k l :
    txs_ok (w_txns (fst st)) ts ->
    let st' := handle_lock ts st (k, l) in
    (forall k', blockedb st' k' = true -> blockedb st k' = true) /\
    (patience (w_txns (fst st')) <= patience (w_txns (fst st)))%nat /\
    (store_get (k_get (w_keys (fst st)) k) ts (snd st) = SLocked l ->
       (patience (w_txns (fst st')) < patience (w_txns (fst st)))%nat \/ blockedb st' k = false).
  Proof.
    destruct st as [w rs]. cbn [fst snd]. intros Htx. unfold handle_lock.
    pose proof (probe_progress (w_txns w) (l_start l) ts Htx) as Hp.
    destruct (probe (w_txns w) (l_start l)) as [tx' s]. destruct Hp as [Hp1 Hp2].
    destruct (k_get_resolved (finished s) tx' (w_keys w) k) as [Hk Hres].
    set (keys' := if finished s then _ else w_keys w) in *.
    assert (Hmono : forall rs', (rs' = rs \/ rs' = l_start l :: rs) ->
              forall k', blockedb (mkWorld keys' tx', rs') k' = true -> blockedb (w, rs) k' = true).
    { intros rs' Hrs k' Hb. destruct (Hk k') as [E|E]; [|rewrite (unlocked_not_blocked (mkWorld keys' tx') _ _ E) in Hb; discriminate].
      unfold blockedb in *. cbn [fst snd w_keys] in *. rewrite E in Hb. destruct Hrs as [->| ->]; [exact Hb|].
      destruct (store_get (k_get (w_keys w) k') ts (l_start l :: rs)) as [o|l2] eqn:E2; [discriminate|].
      destruct (store_get_mono _ _ _ (ex_intro _ l2 E2)) as [l3 H3]. rewrite H3. reflexivity. }
    destruct (classify true s ts) eqn:Ec; cbn [fst snd w_txns];
      (split; [apply Hmono; auto|]); (split; [exact Hp1|]); intros Hs.
    1: { (* Ignore: the transaction is in the ignored set now *)
      right. destruct (Hk k) as [E|E]; [|apply (unlocked_not_blocked (mkWorld keys' tx')); exact E].
      unfold blockedb. cbn [fst snd w_keys]. rewrite E. destruct (ignored_not_blocked _ _ _ Hs) as [o ->]. reflexivity. }
    (* Access, Wait: the status check used up patience, or the transaction is finished and its lock resolved *)
    all: destruct Hp2 as [Hp2|[Hp2|Hp2]]; [left; exact Hp2| |congruence];
      right; apply (unlocked_not_blocked (mkWorld keys' tx')); exact (Hres Hp2).
  Qed.

  Lemma k_set_keys l k s : map fst (k_set l k s) = map fst l.
  Proof.
    induction l as [|[a sa] l IH]; cbn [k_set map fst]; [reflexivity|].
    destruct (keqb a k); cbn [map fst]; [reflexivity|rewrite IH; reflexivity].
  Qed.

  Lemma handle_lock_keys st kl : map fst (w_keys (fst (handle_lock ts st kl))) = map fst (w_keys (fst st)).
  Proof.
    destruct st as [w rs]. destruct kl as [k l]. unfold handle_lock.
    destruct (probe (w_txns w) (l_start l)) as [tx' s].
    assert (H : map fst (if finished s then k_set (w_keys w) k (resolve_ks tx' (k_get (w_keys w) k)) else w_keys w) = map fst (w_keys w))
      by (destruct (finished s); [apply k_set_keys|reflexivity]).
    destruct (classify true s ts); cbn [fst w_keys]; exact H.
  Qed.

  (* with patience + 2 rounds a point get answers, and answers the truth; the world it leaves is no
     less patient and has the same keys.  A lock either costs patience or stops blocking at once. *)
  Lemma get_total Fin : forall fuel w rs k,
    inv ts Fin (w, rs) -> (patience (w_txns w) + 2 <= fuel)%nat ->
    exists o w' rs', get fuel w rs ts k = (Some o, w', rs') /\ o = vis (Fin k) ts /\ inv ts Fin (w', rs') /\
                     (patience (w_txns w') <= patience (w_txns w))%nat /\ map fst (w_keys w') = map fst (w_keys w).
  Proof.
    induction fuel as [|f IH]; intros w rs k Hinv Hf; [lia|]. cbn [get].
    destruct (store_get (k_get (w_keys w) k) ts rs) as [o|l] eqn:Es.
    { exists o, w, rs. split; [reflexivity|]. split; [eapply store_get_val; eassumption|]. auto. }
    pose proof (handle_lock_inv ts Fin (w, rs) (k, l) Hinv) as Hinv'.
    destruct (handle_lock_effect (w, rs) k l (proj1 Hinv)) as (_ & Hpat & Hprog).
    pose proof (handle_lock_keys (w, rs) (k, l)) as Hk.
    destruct (handle_lock ts (w, rs) (k, l)) as [w1 rs1]. cbn [fst snd] in *.
    destruct (Hprog Es) as [Hlt|Hub].
    - destruct (IH w1 rs1 k Hinv') as (o & w' & rs' & Hg & Ho & Hi & Hp & Hkk); [lia|].
      exists o, w', rs'. split; [exact Hg|]. split; [exact Ho|]. split; [exact Hi|]. split; [lia|congruence].
    - destruct f as [|f']; [lia|]. cbn [get]. unfold blockedb in Hub. cbn [fst snd] in Hub.
      destruct (store_get (k_get (w_keys w1) k) ts rs1) as [o|] eqn:Es1; [|discriminate].
      exists o, w1, rs1. split; [reflexivity|]. split; [eapply store_get_val; eassumption|]. auto.
  Qed.

  Definition nblocked (st : world * list N) (ks : list key) : nat := length (filter (blockedb st) ks).

  Fixpoint count_err (ev : nat -> bg_event) (i n : nat) : nat :=
    match n with
    | O => 0%nat
    | S n' => ((match ev i with EvRegionErr _ | EvBatchLocked _ => 1 | EvOk => 0 end) + count_err ev (S i) n')%nat
    end.
  (* at most E region errors / whole-batch lock answers from step i on *)
  Definition bounded_errs (ev : nat -> bg_event) (i E : nat) : Prop := forall n, (count_err ev i n <= E)%nat.

  Lemma bounded_ok ev i E : bounded_errs ev i E -> ev i = EvOk -> bounded_errs ev (S i) E.
  Proof. intros H He n. specialize (H (S n)). cbn [count_err] in H. rewrite He in H. exact H. Qed.
  Lemma bounded_err ev i E : bounded_errs ev i E -> ev i <> EvOk ->
    exists E', E = S E' /\ bounded_errs ev (S i) E'.
  Proof.
    intros H He0. assert (He : match ev i with EvRegionErr _ | EvBatchLocked _ => 1%nat | EvOk => 0%nat end = 1%nat) by (destruct (ev i); congruence).
    destruct E as [|E'].
    - specialize (H 1%nat). cbn [count_err] in H. rewrite He in H. lia.
    - exists E'. split; [reflexivity|]. intros n. specialize (H (S n)). cbn [count_err] in H. rewrite He in H. lia.
  Qed.

  Lemma serve_locked w rs b : map fst (snd (serve w rs ts b)) = filter (blockedb (w, rs)) b.
  Proof.
    induction b as [|k b IH]; cbn [serve filter]; [reflexivity|].
    destruct (serve w rs ts b) as [vals locked]. unfold blockedb at 1. cbn [fst snd] in *.
    destruct (store_get (k_get (w_keys w) k) ts rs) as [[v|]|l]; cbn [snd map fst]; rewrite ?IH; reflexivity.
  Qed.

  Lemma nblocked_le st ks : (nblocked st ks <= length ks)%nat.
  Proof. apply filter_length_le. Qed.

  Lemma nblocked_app st a b : nblocked st (a ++ b) = (nblocked st a + nblocked st b)%nat.
  Proof. unfold nblocked. rewrite filter_app. apply app_length. Qed.

  (* what the locks on the keys ks can still cost a reader: waiting rounds and blocked keys.  Handling a
     lock never raises it, and lowers it if the lock was genuinely met on one of ks. *)
  Definition load (st : world * list N) (ks : list key) : nat := (patience (w_txns (fst st)) + nblocked st ks)%nat.

  Lemma handle_lock_load st k l ks :
    txs_ok (w_txns (fst st)) ts ->
    let st' := handle_lock ts st (k, l) in
    (load st' ks <= load st ks)%nat /\
    (store_get (k_get (w_keys (fst st)) k) ts (snd st) = SLocked l -> In k ks -> (load st' ks < load st ks)%nat).
  Proof.
    intros Htx. destruct (handle_lock_effect st k l Htx) as (M & Pp & Prog). cbv zeta. unfold load, nblocked.
    pose proof (count_le _ _ ks (fun x _ => M x)) as Hle. split; [lia|].
    intros Hs Hin. destruct (Prog Hs) as [Hlt|Hub]; [lia|].
    enough (length (filter (blockedb (handle_lock ts st (k, l))) ks) < length (filter (blockedb st) ks))%nat by lia.
    apply (count_lt _ _ _ k); [intros x _; apply M|exact Hin| |exact Hub]. unfold blockedb. rewrite Hs. reflexivity.
  Qed.

  (* handling the locks of a response: as for one lock, with the progress on the first *)
  Lemma fold_load Fin locked : forall st ks, inv ts Fin st ->
    let st' := fold_left (handle_lock ts) locked st in
    (load st' ks <= load st ks)%nat /\
    (forall k l more, locked = (k, l) :: more -> store_get (k_get (w_keys (fst st)) k) ts (snd st) = SLocked l ->
       In k ks -> (load st' ks < load st ks)%nat).
  Proof.
    induction locked as [|[k l] locked IH]; intros st ks Hinv; cbn [fold_left]; [split; [lia|discriminate]|].
    assert (Htx : txs_ok (w_txns (fst st)) ts) by (destruct st; apply Hinv).
    destruct (handle_lock_load st k l ks Htx) as [H1 H2].
    destruct (IH _ ks (handle_lock_inv ts Fin st (k, l) Hinv)) as [H3 _]. split; [lia|].
    intros k0 l0 more E Hs Hin. inversion E; subst. specialize (H2 Hs Hin). lia.
  Qed.

  (* what the pending batches still have to deliver *)
  Definition want (Fin : key -> list write) (pend : list (list key)) (k : key) (v : value) : Prop :=
    In k (concat pend) /\ vis (Fin k) ts = Some v.

  (* a served round removes a batch, or unblocks a key, or costs patience *)
  Definition potential (st : world * list N) (pend : list (list key)) : nat :=
    (load st (concat pend) + length pend)%nat.

  (* one round of the work list: the answers collected and still wanted stay the same; a served round
     lowers the potential, an error event (re-split: up to K new batches, K keys blocked anew) raises it
     by at most 2K *)
  Lemma bget_round Fin K ev i w rs b rest acc :
    inv ts Fin (w, rs) -> Forall (fun g => g <> []) (b :: rest) -> (length (concat (b :: rest)) <= K)%nat ->
    exists w' rs' pend' acc',
      (forall f, bget (S f) ev i w rs ts (b :: rest) acc = bget f ev (S i) w' rs' ts pend' acc') /\
      inv ts Fin (w', rs') /\ Forall (fun g => g <> []) pend' /\ (length (concat pend') <= K)%nat /\
      (forall k v, In (k, v) acc' \/ want Fin pend' k v <-> In (k, v) acc \/ want Fin (b :: rest) k v) /\
      match ev i with
      | EvOk => (potential (w', rs') pend' < potential (w, rs) (b :: rest))%nat
      | _ => (potential (w', rs') pend' <= potential (w, rs) (b :: rest) + 2 * K)%nat
      end.
  Proof.
    intros Hinv Hne HK. inversion Hne as [|? ? Hb Hrest]; subst.
    assert (Htx : txs_ok (w_txns w) ts) by apply Hinv.
    unfold potential, want. cbn [concat length] in *. rewrite app_length in HK.
    destruct (ev i) as [|L|kl] eqn:Eev.
    - pose proof (serve_locked w rs b) as Hsl. pose proof (serve_in ts w rs b) as Hsi.
      pose proof (serve_answers ts Fin w rs b Hinv) as Hans.
      destruct (serve w rs ts b) as [vals locked] eqn:Es. cbn [snd] in Hsl. destruct Hsi as [_ S2].
      pose proof (fold_handle_inv ts Fin locked (w, rs) Hinv) as Hinv'.
      destruct (fold_load Fin locked (w, rs) (map fst locked ++ concat rest) Hinv) as [_ Prog].
      destruct (fold_left (handle_lock ts) locked (w, rs)) as [w' rs'] eqn:Ef. cbn [fst snd] in *.
      exists w', rs', (match locked with [] => rest | _ :: _ => map fst locked :: rest end), (acc ++ vals).
      split; [intros f; cbn [bget]; rewrite Eev, Es, Ef; reflexivity|]. split; [exact Hinv'|].
      assert (Hlen : length (map fst locked) = nblocked (w, rs) b) by (rewrite Hsl; reflexivity).
      pose proof (nblocked_le (w, rs) b) as Hlb.
      split; [destruct locked; [exact Hrest|constructor; [discriminate|exact Hrest]]|].
      split; [destruct locked; [lia|cbn [concat]; rewrite app_length; lia]|]. split.
      + assert (Hpend : forall k, In k (concat (match locked with [] => rest | _ :: _ => map fst locked :: rest end)) <->
                                  In k (map fst locked) \/ In k (concat rest))
          by (intros k; clear; destruct locked; cbn [concat map]; [cbn; tauto|rewrite in_app_iff; tauto]).
        intros k v. rewrite Hpend, !in_app_iff. specialize (Hans k v). clear - Hans. tauto.
      + (* the keys still locked are as many as the batch had blocked, and the first of them made progress *)
        destruct locked as [|[k1 l1] more]; cbn [concat length].
        * inversion Ef; subst. unfold load. rewrite nblocked_app. lia.
        * specialize (Prog k1 l1 more eq_refl (proj2 (proj1 (S2 k1 l1) (or_introl eq_refl))) (or_introl eq_refl)).
          pose proof (nblocked_le (w, rs) (map fst ((k1, l1) :: more))).
          unfold load in *. rewrite !nblocked_app in *. lia.
    - destruct (regroup_spec L b Hb) as (Gp & G1). set (gs := if one_region L b then [b] else group_keys L b) in *.
      pose proof (Permutation_length Gp) as G2.
      assert (Hne' : Forall (fun g => g <> []) (gs ++ rest)) by (apply Forall_app; split; assumption).
      assert (HK' : (length (concat (gs ++ rest)) <= K)%nat) by (rewrite concat_app, app_length, G2; exact HK).
      exists w, rs, (gs ++ rest), acc. split; [intros f; cbn [bget]; rewrite Eev; reflexivity|].
      split; [exact Hinv|]. split; [exact Hne'|]. split; [exact HK'|]. split.
      + intros k v. rewrite concat_app, Gp. reflexivity.
      + pose proof (nblocked_le (w, rs) (concat (gs ++ rest))). pose proof (concat_nonempty_len _ G1).
        unfold load. rewrite app_length. lia.
    - (* whole-batch lock answer: the batch stays *)
      destruct (store_get (k_get (w_keys w) kl) ts rs) as [o|l] eqn:Ekl.
      { exists w, rs, (b :: rest), acc. split; [intros f; cbn [bget]; rewrite Eev, Ekl; reflexivity|].
        split; [exact Hinv|]. split; [exact Hne|]. cbn [concat length]. rewrite app_length.
        split; [exact HK|]. split; [reflexivity|lia]. }
      pose proof (handle_lock_inv ts Fin (w, rs) (kl, l) Hinv) as Hinv'.
      destruct (handle_lock_load (w, rs) kl l (b ++ concat rest) Htx) as [Hle _].
      destruct (handle_lock ts (w, rs) (kl, l)) as [w1 rs1] eqn:Eh.
      exists w1, rs1, (b :: rest), acc. split; [intros f; cbn [bget]; rewrite Eev, Ekl, Eh; reflexivity|].
      split; [exact Hinv'|]. split; [exact Hne|]. cbn [concat length]. rewrite app_length.
      split; [exact HK|]. split; [reflexivity|lia].
  Qed.

  Lemma bget_correct Fin : forall fuel ev i w rs pend acc res w' rs',
    inv ts Fin (w, rs) -> Forall (fun g => g <> []) pend ->
    bget fuel ev i w rs ts pend acc = (Some res, w', rs') ->
    forall k v, In (k, v) res <-> In (k, v) acc \/ want Fin pend k v.
  Proof.
    induction fuel as [|f IH]; intros ev i w rs pend acc res w' rs' Hinv Hne; [discriminate|].
    destruct pend as [|b rest].
    - cbn [bget]. intros H k v. inversion H; subst. unfold want. cbn [concat In]. tauto.
    - destruct (bget_round Fin _ ev i w rs b rest acc Hinv Hne (le_n _)) as (w1 & rs1 & pend' & acc' & Heq & Hinv' & Hne' & _ & Hans & _).
      rewrite Heq. intros Hb k v. rewrite (IH _ _ _ _ _ _ _ _ _ Hinv' Hne' Hb). apply Hans.
  Qed.

  Lemma bget_terminates K Fin : forall fuel ev i w rs pend acc E,
    inv ts Fin (w, rs) -> bounded_errs ev i E ->
    Forall (fun b => b <> []) pend -> (length (concat pend) <= K)%nat ->
    (E * (2 * K + 1) + potential (w, rs) pend < fuel)%nat ->
    exists res w' rs', bget fuel ev i w rs ts pend acc = (Some res, w', rs').
  Proof.
    induction fuel as [|f IH]; intros ev i w rs pend acc E Hinv Herr Hne HK Hf; [lia|].
    destruct pend as [|b rest]; [cbn [bget]; eauto|].
    destruct (bget_round Fin K ev i w rs b rest acc Hinv Hne HK) as (w1 & rs1 & pend' & acc' & Heq & Hinv' & Hne' & HK' & _ & Hpot).
    rewrite Heq. destruct (ev i) eqn:Eev.
    1: { apply (IH _ _ _ _ _ _ E); [exact Hinv'|exact (bounded_ok _ _ _ Herr Eev)|exact Hne'|exact HK'|lia]. }
    all: destruct (bounded_err _ _ _ Herr ltac:(rewrite Eev; discriminate)) as (E' & -> & Herr');
      apply (IH _ _ _ _ _ _ E'); [exact Hinv'|exact Herr'|exact Hne'|exact HK'|]; cbn [Nat.mul] in Hf; nia.
  Qed.
End Term.

(* The buffer tier of BatchGetWithTier: the same work list without locks.  It returns exactly the own
   flushed locks, is total, and does not look at the committed data. *)
Lemma buf_serve_spec w own b k v : In (k, v) (buf_serve w own b) <-> In k b /\ buf_val own (k_get (w_keys w) k) = Some v.
Proof.
  induction b as [|a b IH]; cbn [buf_serve In]; [tauto|].
  destruct (buf_val own (k_get (w_keys w) a)) as [va|] eqn:E; cbn [In]; rewrite IH; split.
  - intros [H|[H1 H2]]; [inversion H; subst; auto|auto].
  - intros [[->|H1] H2]; [left; congruence|auto].
  - intros [H1 H2]; auto.
  - intros [[->|H1] H2]; [congruence|auto].
Qed.

Lemma bbuf_correct own w : forall fuel ev i pend acc res,
  bbuf fuel ev i w own pend acc = Some res ->
  forall k v, In (k, v) res <-> In (k, v) acc \/ (In k (concat pend) /\ buf_val own (k_get (w_keys w) k) = Some v).
Proof.
  induction fuel as [|f IH]; intros ev i pend acc res; cbn [bbuf]; [discriminate|].
  destruct pend as [|b rest].
  - intros H; inversion H; subst. intros k v. cbn. tauto.
  - assert (Hserved : bbuf f ev (S i) w own rest (acc ++ buf_serve w own b) = Some res ->
                      forall k v, In (k, v) res <-> In (k, v) acc \/ (In k (concat (b :: rest)) /\ buf_val own (k_get (w_keys w) k) = Some v)).
    { intros H k v. rewrite (IH _ _ _ _ _ H k v). rewrite in_app_iff, buf_serve_spec. cbn [concat]. rewrite in_app_iff. tauto. }
    destruct (ev i) as [|L|kl]; [exact Hserved| |exact Hserved].
    intros H k v. rewrite (IH _ _ _ _ _ H k v), concat_app. cbn [concat].
    destruct (one_region L b); [cbn [concat]; rewrite app_nil_r|rewrite (proj1 (group_keys_spec L b))]; reflexivity.
Qed.

Lemma bbuf_terminates K own w : forall fuel ev i pend acc E,
  bounded_errs ev i E -> Forall (fun b => b <> []) pend -> (length (concat pend) <= K)%nat ->
  (E * (K + 1) + length pend < fuel)%nat ->
  exists res, bbuf fuel ev i w own pend acc = Some res.
Proof.
  induction fuel as [|f IH]; intros ev i pend acc E Herr Hne HK Hf; [lia|]. cbn [bbuf].
  destruct pend as [|b rest]; [eauto|].
  inversion Hne as [|? ? Hb Hrest]; subst. cbn [concat length] in *. rewrite app_length in HK.
  assert (Hserved : forall E', bounded_errs ev (S i) E' -> (E' <= E)%nat ->
            exists res, bbuf f ev (S i) w own rest (acc ++ buf_serve w own b) = Some res).
  { intros E' He Hle. eapply IH; [exact He|exact Hrest|lia|]. nia. }
  destruct (ev i) as [|L|kl] eqn:Eev.
  - apply (Hserved E); [apply bounded_ok; assumption|lia].
  - destruct (bounded_err _ _ _ Herr ltac:(rewrite Eev; discriminate)) as (E' & -> & Herr').
    destruct (regroup_spec L b Hb) as (Gp & G1). set (gs := if one_region L b then [b] else group_keys L b) in *.
    pose proof (Permutation_length Gp) as G2.
    assert (Hne' : Forall (fun g => g <> []) (gs ++ rest)) by (apply Forall_app; split; assumption).
    assert (HK' : (length (concat (gs ++ rest)) <= K)%nat) by (rewrite concat_app, app_length, G2; exact HK).
    eapply IH; [exact Herr'|exact Hne'|exact HK'|].
    pose proof (concat_nonempty_len _ Hne'). cbn [Nat.mul] in Hf. nia.
  - destruct (bounded_err _ _ _ Herr ltac:(rewrite Eev; discriminate)) as (E' & -> & Herr').
    apply (Hserved E'); [exact Herr'|lia].
Qed.

(* the snapshot tier of a pipelined reader (own start ts in the ignored set, SetPipelined) never
   blocks on an own lock and reads the committed data below it *)
Lemma own_lock_skipped own ts rs s l :
  ks_lock s = Some l -> l_start l = own -> store_get s ts (own :: rs) = SVal (vis (ks_ws s) ts).
Proof.
  intros Hl <-. unfold store_get. rewrite Hl, blocks_ignored. reflexivity.
Qed.
