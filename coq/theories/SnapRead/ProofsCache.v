(* SnapRead/ProofsCache.v — classification table soundness and cache transparency. *)
From Verif Require Import Base.Lex SnapRead.Model SnapRead.ModelRead.

(* resolveLocks' decision table, and the two kinds of lock mvccLock.check never lets block a read *)
Lemma classify_sound :
  forall (for_read : bool) (s : txn_status) (ts : N),
    (classify for_read s ts = Ignore ->
       is_rolled_back s = true \/ (is_committed s = true /\ ts < st_commit s) \/ is_pushed s = true) /\
    (classify for_read s ts = Access -> is_committed s = true /\ st_commit s <= ts) /\
    ((is_rolled_back s = true \/ (is_committed s = true /\ st_ttl s = 0)) -> classify for_read s ts <> Wait) /\
    (forall l rs, ts < l_start l -> blocks l ts rs = false) /\
    (forall l rs, l_kind l = LPess \/ l_kind l = LLock -> blocks l ts rs = false).
Proof.
  intros fr s ts. rewrite <- !and_assoc. split; [split|].
  - unfold classify. rewrite !and_assoc.
    destruct (negb fr && negb (st_ttl s =? 0)) eqn:E0.
    + split; [discriminate|]. split; [discriminate|].
      apply andb_true_iff in E0. destruct E0 as [_ E0]. apply negb_true_iff in E0. apply N.eqb_neq in E0.
      intros [H|[_ H]]; [|congruence]. unfold is_rolled_back in H.
      apply andb_true_iff in H. destruct H as [H _]. apply andb_true_iff in H. destruct H as [H _].
      apply N.eqb_eq in H. congruence.
    + destruct (is_pushed s) eqn:Ep; cbn [orb].
      * split; [auto|]. split; discriminate.
      * destruct (is_rolled_back s) eqn:Er; cbn [orb].
        -- split; [auto|]. split; discriminate.
        -- destruct (is_committed s) eqn:Ec; cbn [andb].
           ++ destruct (ts <? st_commit s) eqn:E1.
              ** apply N.ltb_lt in E1. split; [auto|]. split; discriminate.
              ** apply N.ltb_ge in E1. assert (E2 : (st_commit s <=? ts) = true) by (apply N.leb_le; exact E1).
                 rewrite E2. split; [discriminate|]. split; [auto|]. discriminate.
           ++ split; [discriminate|]. split; [discriminate|]. intros [H|[H _]]; discriminate.
  - intros l rs H. unfold blocks. apply N.ltb_lt in H. rewrite H. reflexivity.
  - intros l rs [H|H]; unfold blocks; rewrite H; apply andb_false_iff; left; apply andb_false_r.
Qed.

Section CacheProofs.
  Variable rd : N -> key -> option value.
  Variable sp : N.

  Definition cache_ok (s : snap) : Prop :=
    (forall k v, cache_lookup s k = Some v -> opt_of v = norm (rd (version s) k) /\ sp <= version s) /\
    (version s = maxts -> cached s = None).

  Lemma opt_val_norm o : opt_of (val_of (norm o)) = norm o.
  Proof. destruct o as [[|b v]|]; reflexivity. Qed.

  Lemma keqb_eq a b : keqb a b = true -> a = b.
  Proof. apply bytes_eqb_eq. Qed.

  Lemma c_lookup_app a b k : c_lookup (a ++ b) k = match c_lookup a k with Some v => Some v | None => c_lookup b k end.
  Proof.
    induction a as [|[k' v] a IH]; cbn [app c_lookup]; [reflexivity|].
    destruct (keqb k' k); [reflexivity|exact IH].
  Qed.

  Lemma cache_update_ok s kvs :
    cache_ok s -> sp <= version s ->
    (forall k v, c_lookup kvs k = Some v -> opt_of v = norm (rd (version s) k)) ->
    cache_ok (cache_update s kvs) /\ version (cache_update s kvs) = version s.
  Proof.
    intros [H1 H2] Hsp Hk. unfold cache_update. destruct (version s =? maxts) eqn:E.
    - split; [split; assumption|reflexivity].
    - split; [|reflexivity]. split; cbn [version cached].
      + intros k v. unfold cache_lookup. cbn [cached]. rewrite c_lookup_app.
        destruct (c_lookup kvs k) as [v'|] eqn:E1.
        * intros Hv. inversion Hv; subst. split; [apply Hk; exact E1|exact Hsp].
        * intros Hv. apply H1. unfold cache_lookup. destruct (cached s); [exact Hv|discriminate].
      + intros Hm. apply N.eqb_neq in E. congruence.
  Qed.

  (* a hit is the uncached answer, and the version passed the safe point when it was cached *)
  Lemma cache_hit s k v : cache_ok s -> cache_lookup s k = Some v ->
    opt_of v = norm (rd (version s) k) /\ (version s <? sp) = false.
  Proof. intros Hok E. destruct (proj1 Hok k v E) as [Hv Hsp]. split; [exact Hv|apply N.ltb_ge; exact Hsp]. Qed.

  Lemma lookup_fetched ver l k v :
    c_lookup (map (fun k => (k, val_of (norm (rd ver k)))) l) k = Some v -> opt_of v = norm (rd ver k).
  Proof.
    induction l as [|a l IH]; cbn [map c_lookup]; [discriminate|].
    destruct (keqb a k) eqn:Ek; [|exact IH].
    apply keqb_eq in Ek. subst a. intros Hv. inversion Hv. apply opt_val_norm.
  Qed.

  Lemma c_step_ok s o : cache_ok s ->
    fst (c_step rd sp s o) = fst (u_step rd sp (version s) o) /\
    cache_ok (snd (c_step rd sp s o)) /\ version (snd (c_step rd sp s o)) = snd (u_step rd sp (version s) o).
  Proof.
    intros Hok. destruct o as [k|ks|ts|k|ks got]; cbn [c_step u_step];
      try (cbn [fst snd]; split; [reflexivity|split; [exact Hok|reflexivity]]).
    - unfold c_get. destruct (cache_lookup s k) as [v|] eqn:E; cbn [fst snd].
      + destruct (cache_hit s k v Hok E) as [Hv Hlt]. rewrite Hlt, Hv. auto.
      + destruct (version s <? sp) eqn:Hlt; cbn [fst snd]; [auto|]. apply N.ltb_ge in Hlt.
        split; [reflexivity|]. change [(k, val_of (norm (rd (version s) k)))] with (map (fun k => (k, val_of (norm (rd (version s) k)))) [k]).
        apply (cache_update_ok s _ Hok Hlt). intros k' v. apply lookup_fetched.
    - unfold c_batch. set (miss := filter _ ks).
      assert (Hans : map (fun k => (k, match cache_lookup s k with Some v => opt_of v | None => norm (rd (version s) k) end)) ks
                     = map (fun k => (k, norm (rd (version s) k))) ks).
      { apply map_ext_in. intros k _. destruct (cache_lookup s k) as [v|] eqn:E; [|reflexivity].
        f_equal. apply (cache_hit s k v Hok E). }
      rewrite Hans. destruct ks as [|k0 ks']; [cbn [fst snd]; auto|].
      destruct miss as [|m miss'] eqn:Em.
      + (* everything cached: served before the visibility check, which the first key passed *)
        cbn [fst snd]. split; [|auto].
        destruct (cache_lookup s k0) as [v|] eqn:E0; [rewrite (proj2 (cache_hit s k0 v Hok E0)); reflexivity|].
        unfold miss in Em. cbn [filter] in Em. rewrite E0 in Em. discriminate.
      + destruct (version s <? sp) eqn:Hlt; cbn [fst snd]; [auto|]. split; [reflexivity|].
        rewrite <- Em. apply N.ltb_ge in Hlt. apply (cache_update_ok s _ Hok Hlt). intros k v. apply lookup_fetched.
    - cbn [fst snd]. split; [reflexivity|]. split; [|reflexivity].
      split; cbn [version cached cache_lookup]; [discriminate|reflexivity].
  Qed.

  Lemma cache_transparent : forall ops s, cache_ok s ->
    c_run rd sp s ops = u_run rd sp (version s) ops /\ cache_ok (c_final rd sp s ops).
  Proof.
    induction ops as [|o ops IH]; intros s Hok; cbn [c_run u_run c_final]; [split; [reflexivity|exact Hok]|].
    destruct (c_step_ok s o Hok) as (H1 & H2 & H3).
    destruct (c_step rd sp s o) as [x s'] eqn:E1. destruct (u_step rd sp (version s) o) as [y v'] eqn:E2.
    cbn [fst snd] in *. subst y v'. destruct (IH s' H2) as [H4 H5]. split; [f_equal; exact H4|exact H5].
  Qed.

  Lemma fresh_ok ts : cache_ok (mkSnap ts None).
  Proof. split; cbn [cache_lookup cached version]; [discriminate|reflexivity]. Qed.

  Lemma refused_stays : forall s, cache_ok s -> version s < sp ->
    (forall k, c_step rd sp s (CGet k) = (RRefused, s)) /\
    (forall ks, ks <> [] -> c_step rd sp s (CBatchGet ks) = (RRefused, s)).
  Proof.
    intros s Hok Hlt. assert (Hnone : forall k, cache_lookup s k = None).
    { intros k. destruct (cache_lookup s k) as [v|] eqn:E; [|reflexivity]. destruct (proj1 Hok k v E) as [_ H]. lia. }
    assert (Hb : (version s <? sp) = true) by (apply N.ltb_lt; exact Hlt).
    split.
    - intros k. cbn [c_step]. unfold c_get. rewrite Hnone, Hb. reflexivity.
    - intros ks Hks. cbn [c_step]. unfold c_batch.
      destruct ks as [|k0 ks']; [congruence|]. cbn [filter]. rewrite Hnone. rewrite Hb. reflexivity.
  Qed.
End CacheProofs.
