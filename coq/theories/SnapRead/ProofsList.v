(* SnapRead/ProofsList.v — lists sorted by key: filters split at a threshold, what lies before and after
   an element; counting with filters; filter_map. *)
From Coq Require Import Sorting.Sorted.
From Verif Require Import Base.Lex SnapRead.Model SnapRead.ProofsOrd.

Section Sorted.
  Context {A : Type}.
  Definition kfst_lt (a b : key * A) : Prop := klt (fst a) (fst b).
  Definition ksorted (l : list (key * A)) : Prop := StronglySorted kfst_lt l.

  Lemma ksorted_filter P (l : list (key * A)) : ksorted l -> ksorted (filter P l).
  Proof.
    induction 1 as [|x l Hs IH Hx]; cbn [filter]; [constructor|].
    destruct (P x); [|exact IH].
    constructor; [exact IH|].
    rewrite Forall_forall in *. intros y Hy. apply filter_In in Hy. apply Hx. tauto.
  Qed.

  Lemma ksorted_app_inv (a b : list (key * A)) :
    ksorted (a ++ b) -> ksorted a /\ ksorted b /\ (forall x y, In x a -> In y b -> kfst_lt x y).
  Proof.
    induction a as [|e a IH]; cbn [app]; intros H.
    - split; [constructor|split; [exact H|intros x y []]].
    - inversion H as [|? ? Hs Hf]; subst. destruct (IH Hs) as (Ha & Hb & Hab).
      rewrite Forall_forall in Hf.
      split; [constructor; [exact Ha|rewrite Forall_forall; intros y Hy; apply Hf; apply in_or_app; auto]|].
      split; [exact Hb|].
      intros x y [->|Hx] Hy; [apply Hf; apply in_or_app; auto|apply Hab; assumption].
  Qed.

  Lemma filter_filter (P Q : key * A -> bool) l :
    filter P (filter Q l) = filter (fun x => Q x && P x) l.
  Proof.
    induction l as [|x l IH]; cbn [filter]; [reflexivity|].
    destruct (Q x); cbn [andb filter]; [destruct (P x); rewrite IH; reflexivity|exact IH].
  Qed.

  Lemma filter_all (P : key * A -> bool) l : (forall x, In x l -> P x = true) -> filter P l = l.
  Proof.
    induction l as [|x l IH]; cbn [filter]; intros H; [reflexivity|].
    rewrite (H x (or_introl eq_refl)). f_equal. apply IH. intros y Hy; apply H; right; exact Hy.
  Qed.

  Lemma filter_none (P : key * A -> bool) l : (forall x, In x l -> P x = false) -> filter P l = [].
  Proof.
    induction l as [|x l IH]; cbn [filter]; intros H; [reflexivity|].
    rewrite (H x (or_introl eq_refl)). apply IH. intros y Hy; apply H; right; exact Hy.
  Qed.

  Lemma filter_split (P : key * A -> bool) (m : key) l :
    ksorted l ->
    filter P l = filter (fun e => P e && kltb (fst e) m) l ++ filter (fun e => P e && negb (kltb (fst e) m)) l.
  Proof.
    induction 1 as [|x l Hs IH Hx]; cbn [filter]; [reflexivity|].
    destruct (P x) eqn:EP; cbn [andb]; [|exact IH].
    destruct (kltb (fst x) m) eqn:E; cbn [negb app]; [f_equal; exact IH|].
    (* x is not below m, so nothing after x is *)
    assert (Hn : filter (fun e => P e && kltb (fst e) m) l = []).
    { apply filter_none. intros y Hy. rewrite Forall_forall in Hx. specialize (Hx y Hy). unfold kfst_lt in Hx.
      destruct (P y); cbn [andb]; [|reflexivity]. kord. }
    rewrite Hn in IH |- *. cbn [app]. f_equal. exact IH.
  Qed.

  Lemma sorted_around (l p q : list (key * A)) x :
    ksorted l -> l = p ++ x :: q ->
    p = filter (fun e => kltb (fst e) (fst x)) l /\ q = filter (fun e => kltb (fst x) (fst e)) l.
  Proof.
    intros H ->. destruct (ksorted_app_inv _ _ H) as (_ & Hxq & Hpq).
    inversion Hxq as [|? ? _ Hq]; subst. rewrite Forall_forall in Hq. unfold kfst_lt in Hq.
    assert (Hp : forall y, In y p -> klt (fst y) (fst x)) by (intros y Hy; exact (Hpq y x Hy (or_introl eq_refl))).
    rewrite !filter_app. cbn [filter]. rewrite kltb_irrefl. split.
    - rewrite filter_all, filter_none; [symmetry; apply app_nil_r| |]; intros y Hy; [specialize (Hq y Hy)|specialize (Hp y Hy)]; kord.
    - rewrite filter_none, filter_all; [reflexivity| |]; intros y Hy; [specialize (Hq y Hy)|specialize (Hp y Hy)]; kord.
  Qed.
End Sorted.

Lemma last_key_snoc (p : rows) x : last_key (p ++ [x]) = fst x.
Proof. unfold last_key. rewrite rev_app_distr. cbn. destruct x; reflexivity. Qed.

Lemma firstn_cases {A} n (l : list A) : (1 <= n)%nat ->
  (Nat.ltb (length (firstn n l)) n = true /\ firstn n l = l) \/
  (Nat.ltb (length (firstn n l)) n = false /\ exists p x, firstn n l = p ++ [x]).
Proof.
  intros Hn. destruct (Nat.ltb_spec (length (firstn n l)) n) as [Hlt|Hge].
  - left. split; [reflexivity|]. apply firstn_all2. rewrite firstn_length in Hlt. lia.
  - right. split; [reflexivity|]. destruct (@exists_last _ (firstn n l)) as (p & x & Hpx); [|eauto].
    intros E. rewrite E in Hge. cbn in Hge. lia.
Qed.

Lemma filter_length_le {A} (f : A -> bool) l : (length (filter f l) <= length l)%nat.
Proof. induction l as [|a l IH]; cbn [filter length]; [lia|]. destruct (f a); cbn [length]; lia. Qed.

Lemma count_le {A} (f g : A -> bool) l :
  (forall x, In x l -> f x = true -> g x = true) -> (length (filter f l) <= length (filter g l))%nat.
Proof.
  induction l as [|x l IH]; cbn [filter]; intros H; [lia|].
  assert (IH' := IH (fun y Hy => H y (or_intror Hy))).
  destruct (f x) eqn:E; [rewrite (H x (or_introl eq_refl) E); cbn [length]; lia|].
  destruct (g x); cbn [length]; lia.
Qed.

Lemma count_lt {A} (f g : A -> bool) l a :
  (forall x, In x l -> f x = true -> g x = true) -> In a l -> g a = true -> f a = false ->
  (length (filter f l) < length (filter g l))%nat.
Proof.
  induction l as [|x l IH]; cbn [filter]; intros H Ha Hg Hf; [destruct Ha|].
  assert (Hle := count_le f g l (fun y Hy => H y (or_intror Hy))).
  destruct Ha as [->|Ha].
  - rewrite Hf, Hg. cbn [length]. lia.
  - assert (IH' := IH (fun y Hy => H y (or_intror Hy)) Ha Hg Hf).
    destruct (f x) eqn:E; [rewrite (H x (or_introl eq_refl) E); cbn [length]; lia|].
    destruct (g x); cbn [length]; lia.
Qed.

Section FilterMap.
  Context {A B C : Type}.

  Lemma in_filter_map (f : A -> option B) l y : In y (filter_map f l) <-> exists x, In x l /\ f x = Some y.
  Proof.
    induction l as [|a l IH]; cbn [filter_map In]; [split; [intros []|intros (x & [] & _)]|].
    destruct (f a) as [b|] eqn:E; cbn [In]; rewrite IH; split.
    - intros [<-|(x & H1 & H2)]; eauto.
    - intros (x & [<-|H1] & H2); [left; congruence|eauto].
    - intros (x & H1 & H2); eauto.
    - intros (x & [<-|H1] & H2); [congruence|eauto].
  Qed.

  Lemma filter_map_app (f : A -> option B) l1 l2 : filter_map f (l1 ++ l2) = filter_map f l1 ++ filter_map f l2.
  Proof.
    induction l1 as [|a l1 IH]; cbn [filter_map app]; [reflexivity|].
    destruct (f a); cbn [app]; rewrite IH; reflexivity.
  Qed.

  Lemma filter_map_rev (f : A -> option B) l : filter_map f (rev l) = rev (filter_map f l).
  Proof.
    induction l as [|a l IH]; cbn [rev filter_map]; [reflexivity|].
    rewrite filter_map_app, IH. cbn [filter_map]. destruct (f a); cbn [rev]; [reflexivity|apply app_nil_r].
  Qed.

  Lemma filter_map_ext_in (f g : A -> option B) l : (forall a, In a l -> f a = g a) -> filter_map f l = filter_map g l.
  Proof.
    induction l as [|a l IH]; cbn [filter_map]; intros H; [reflexivity|].
    rewrite (H a (or_introl eq_refl)). rewrite IH by (intros b Hb; apply H; right; exact Hb). reflexivity.
  Qed.

  Lemma filter_map_map (f : B -> option C) (g : A -> B) l : filter_map f (map g l) = filter_map (fun a => f (g a)) l.
  Proof. induction l as [|a l IH]; cbn [map filter_map]; [reflexivity|]. destruct (f (g a)); rewrite IH; reflexivity. Qed.

  Lemma map_filter_map (f : A -> option B) (g : B -> C) l :
    map g (filter_map f l) = filter_map (fun a => option_map g (f a)) l.
  Proof. induction l as [|a l IH]; cbn [filter_map map]; [reflexivity|]. destruct (f a); cbn [option_map map]; rewrite IH; reflexivity. Qed.

  Lemma filter_map_filter_map (f : A -> option B) (g : B -> option C) l :
    filter_map g (filter_map f l) = filter_map (fun a => match f a with Some b => g b | None => None end) l.
  Proof.
    induction l as [|a l IH]; cbn [filter_map]; [reflexivity|].
    destruct (f a) as [b|]; cbn [filter_map]; [destruct (g b)|]; rewrite IH; reflexivity.
  Qed.

  Lemma filter_filter_map (P : B -> bool) (f : A -> option B) l :
    filter P (filter_map f l) = filter_map (fun a => match f a with Some b => if P b then Some b else None | None => None end) l.
  Proof.
    induction l as [|a l IH]; cbn [filter_map filter]; [reflexivity|].
    destruct (f a) as [b|]; cbn [filter]; [destruct (P b)|]; rewrite IH; reflexivity.
  Qed.
End FilterMap.

Lemma ksorted_filter_map {A C} (f : key * A -> option (key * C)) (l : list (key * A)) :
  (forall e x, f e = Some x -> fst x = fst e) -> ksorted l -> ksorted (filter_map f l).
Proof.
  intros Hf. induction 1 as [|e l Hs IH He]; cbn [filter_map]; [constructor|].
  destruct (f e) as [x|] eqn:Ex; [|exact IH].
  constructor; [exact IH|]. rewrite Forall_forall in *. intros y Hy.
  apply in_filter_map in Hy. destruct Hy as (e' & He' & Hfe').
  unfold kfst_lt. rewrite (Hf _ _ Ex), (Hf _ _ Hfe'). apply He. exact He'.
Qed.
