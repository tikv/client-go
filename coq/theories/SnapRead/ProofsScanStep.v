(* SnapRead/ProofsScanStep.v — one getData step of the scanner, in either direction.  The cursor stands
   for the rows still to be delivered, [todo c R]: those of the range [next_start, end_key) ascending, or
   of [next_start, next_end) descending.  A step takes a batch off the front of [todo] and leaves the rest
   as the [todo] of the new cursor; a measure on cursors decreases. *)
From Verif Require Import Base.Lex SnapRead.Model SnapRead.ProofsOrd SnapRead.ProofsList.

Definition emit (ko : bool) (ps : rows) : list (key * value) := filter_map (emit_row ko) ps.

Definition todo (c : cursor) (R : rows) : rows :=
  if reverse c then rev (filter (key_in (next_start c) (next_end c)) R)
  else filter (key_in (next_start c) (end_key c)) R.

Lemma emit_app ko a b : emit ko (a ++ b) = emit ko a ++ emit ko b.
Proof. apply filter_map_app. Qed.

Lemma consume_in_bound ko c ps :
  (forall e, In e ps -> out_of_bound c (fst e) = false) -> consume ko c ps = (emit ko ps, false).
Proof.
  induction ps as [|e ps IH]; cbn [consume emit filter_map]; intros H; [reflexivity|].
  rewrite (H e (or_introl eq_refl)). rewrite IH by (intros y Hy; apply H; right; exact Hy).
  unfold emit. destruct (emit_row ko e); reflexivity.
Qed.

(* conversely, a batch that was consumed to its end lies inside the bounds *)
Lemma consume_all_in_bound ko c ps out : consume ko c ps = (out, false) -> forall e, In e ps -> out_of_bound c (fst e) = false.
Proof.
  revert out. induction ps as [|a ps IH]; intros out; cbn [consume]; [intros _ e []|].
  destruct (out_of_bound c (fst a)) eqn:Ea; [discriminate|].
  destruct (consume ko c ps) as [rest stop] eqn:Ec. intros H. inversion H; subst.
  intros e [<-|He]; [exact Ea|]. eapply IH; [reflexivity|exact He].
Qed.

Lemma todo_in c R e : In e (todo c R) ->
  In e R /\ key_in (next_start c) (if reverse c then next_end c else end_key c) e = true.
Proof. unfold todo. destruct (reverse c); [rewrite <- in_rev|]; apply filter_In. Qed.

(* the bound check of a cursor with the bounds of c never fires on what c has to deliver *)
Lemma todo_in_bound c c' R e :
  reverse c' = reverse c -> (if reverse c then next_start c' = next_start c else end_key c' = end_key c) ->
  In e (todo c R) -> out_of_bound c' (fst e) = false.
Proof.
  intros Hr Hb He. apply todo_in in He. destruct He as [_ He]. apply andb_true_iff in He. destruct He as [H1 H2].
  unfold out_of_bound. rewrite Hr. revert Hb H2. destruct (reverse c); intros -> H2.
  - destruct (is_nil (next_start c)); cbn [negb andb]; [reflexivity|kord].
  - destruct (end_key c); [reflexivity|]. cbn [is_nil negb andb below] in *. kord.
Qed.

Lemma locate_from_spec L : forall s k, kle s k ->
  let r := locate_from s L k in
  kle (r_start r) k /\ (r_end r = [] \/ klt k (r_end r)) /\ (r_end r = [] \/ In (r_end r) L).
Proof.
  induction L as [|p L IH]; intros s k Hs; cbn [locate_from].
  - cbn. auto.
  - destruct (kltb k p) eqn:E.
    + cbn. split; [exact Hs|]. split; right; [kord|left; reflexivity].
    + assert (Hp : kle p k) by kord. destruct (IH p k Hp) as (H1 & H2 & H3).
      split; [exact H1|]. split; [exact H2|]. destruct H3 as [H3|H3]; [left; exact H3|right; right; exact H3].
Qed.

Lemma locate_key_spec L k :
  let r := locate_key L k in
  kle (r_start r) k /\ (r_end r = [] \/ klt k (r_end r)) /\ (r_end r = [] \/ In (r_end r) L).
Proof. apply locate_from_spec. apply nil_le. Qed.

Lemma locate_end_from_spec L : forall s k, klt s k ->
  let r := locate_end_from s L k in
  klt (r_start r) k /\ (r_end r = [] \/ kle k (r_end r)) /\ (r_start r = s \/ In (r_start r) L).
Proof.
  induction L as [|p L IH]; intros s k Hs; cbn [locate_end_from].
  - cbn. auto.
  - destruct (kleb k p) eqn:E.
    + cbn. split; [exact Hs|]. split; [right; kord|left; reflexivity].
    + assert (Hp : klt p k) by kord. destruct (IH p k Hp) as (H1 & H2 & H3).
      split; [exact H1|]. split; [exact H2|]. destruct H3 as [H3|H3]; [right; left; symmetry; exact H3|right; right; exact H3].
Qed.

Lemma last_in (L : list key) : last L [] = [] \/ In (last L []) L.
Proof.
  induction L as [|a [|b L'] IH]; [left; reflexivity|right; left; reflexivity|].
  change (last (a :: b :: L') []) with (last (b :: L') []).
  destruct IH as [IH|IH]; [left; exact IH|right; right; exact IH].
Qed.

Lemma locate_end_key_spec L k :
  let r := locate_end_key L k in
  (r_end r = [] \/ (k <> [] /\ kle k (r_end r))) /\
  (r_start r = [] \/ (In (r_start r) L /\ (k = [] \/ klt (r_start r) k))).
Proof.
  unfold locate_end_key. destruct k as [|b k]; cbn [is_nil r_start r_end].
  - split; [left; reflexivity|]. destruct (last_in L) as [H|H]; [left; exact H|right; auto].
  - destruct (locate_end_from_spec L [] (b :: k)) as (H1 & H2 & H3); [apply nil_lt; discriminate|].
    split; [destruct H2; [left; assumption|right; split; [discriminate|assumption]]|].
    destruct H3 as [H3|H3]; [left; exact H3|right; auto].
Qed.

Lemma range_split (R : rows) lo m hi :
  ksorted R -> kle lo m -> m <> [] -> hi = [] \/ kle m hi ->
  filter (key_in lo hi) R = filter (key_in lo m) R ++ filter (key_in m hi) R.
Proof.
  intros Hs Hlo Hm Hhi. rewrite (filter_split (key_in lo hi) m R Hs). f_equal; apply filter_ext; intros x.
  - apply in_range_low; assumption.
  - apply in_range_high; assumption.
Qed.

Lemma min_end_le a b : b = [] \/ (a <> [] /\ kle a b) -> min_end a b = a.
Proof.
  unfold min_end. intros [->|(Ha & Hab)]; [destruct a; reflexivity|].
  destruct a; [congruence|]. destruct b; [reflexivity|]. cbn [is_nil].
  destruct (kltb _ _) eqn:E1; [reflexivity|kord].
Qed.

(* the request sent forward ends at the smaller of the scan's bound and the region's end; the cursor
   continues at the region's end unless that lies beyond the bound *)
Lemma fwd_bound hi e :
  let req_end := if is_nil hi || (negb (is_nil e) && kltb e hi) then e else hi in
  if is_nil e || (negb (is_nil hi) && kleb hi e) then min_end req_end e = hi
  else min_end req_end e = e /\ e <> [] /\ (hi = [] \/ kle e hi).
Proof.
  unfold min_end. destruct hi as [|h hi], e as [|a e]; cbn [is_nil orb andb negb]; try reflexivity.
  - rewrite kltb_irrefl. split; [reflexivity|]. split; [discriminate|left; reflexivity].
  - destruct (kleb (h :: hi) (a :: e)) eqn:E1, (kltb (a :: e) (h :: hi)) eqn:E2; cbn [is_nil]; try (exfalso; kord).
    + destruct (kltb (h :: hi) (a :: e)) eqn:E3; [reflexivity|kord].
    + rewrite kltb_irrefl. split; [reflexivity|]. split; [discriminate|right; kord].
Qed.

(* the request sent backward starts at the larger of the scan's lower bound and the region's start; the
   cursor continues at the region's start unless that lies at or below the bound *)
Lemma rev_bound lo s :
  let rs := if is_nil lo || (negb (is_nil s) && kltb lo s) then s else lo in
  kle s rs /\ kle lo rs /\
  if is_nil s || (negb (is_nil lo) && kleb rs lo) then rs = lo else rs = s /\ s <> [].
Proof.
  destruct lo as [|b lo], s as [|a s]; cbn [is_nil orb andb negb].
  - repeat split; KeyOT.order.
  - repeat split; try KeyOT.order. discriminate.
  - repeat split; KeyOT.order.
  - destruct (kltb (b :: lo) (a :: s)) eqn:E1.
    + assert (E2 : kleb (a :: s) (b :: lo) = false) by kord. rewrite E2. repeat split; try kord. discriminate.
    + assert (E2 : kleb (b :: lo) (b :: lo) = true) by kord. rewrite E2. repeat split; kord.
Qed.

Section Step.
  Variables (B : nat) (P U : list key).

  (* how much is left: the split points and row keys ahead of the cursor (P bounds the split points of
     the layouts, U the keys of the rows) *)
  Definition meas (c : cursor) : nat :=
    if reverse c
    then (length (filter (below (next_end c)) P) + length (filter (below (next_end c)) U))%nat
    else (length (filter (kltb (next_start c)) P) + length (filter (kleb (next_start c)) U))%nat.

  Lemma meas_bound c : (meas c <= length P + length U)%nat.
  Proof.
    unfold meas. destruct (reverse c).
    - pose proof (filter_length_le (below (next_end c)) P). pose proof (filter_length_le (below (next_end c)) U). lia.
    - pose proof (filter_length_le (kltb (next_start c)) P). pose proof (filter_length_le (kleb (next_start c)) U). lia.
  Qed.

  (* scan RPCs still needed, retries not counted *)
  Definition steps (c : cursor) : nat := if eof c then 0%nat else S (meas c).

  Lemma count_decr (f f' g g' : key -> bool) a :
    (forall p, f' p = true -> f p = true) -> (forall k, g' k = true -> g k = true) ->
    (In a P /\ f a = true /\ f' a = false) \/ (In a U /\ g a = true /\ g' a = false) ->
    (length (filter f' P) + length (filter g' U) < length (filter f P) + length (filter g U))%nat.
  Proof.
    intros Hf Hg [(H1 & H2 & H3)|(H1 & H2 & H3)].
    - apply Nat.add_lt_le_mono; [apply (count_lt _ _ P a); auto|apply count_le; auto].
    - apply Nat.add_le_lt_mono; [apply count_le; auto|apply (count_lt _ _ U a); auto].
  Qed.

  (* moving the upper end of a reverse scan down to a split point or row key m below it *)
  Lemma below_decr ne m :
    m <> [] -> below ne m = true -> In m P \/ In m U ->
    (length (filter (below m) P) + length (filter (below m) U) <
     length (filter (below ne) P) + length (filter (below ne) U))%nat.
  Proof.
    intros Hm Hb Hin.
    assert (Hmono : forall k, below m k = true -> below ne k = true).
    { intros k. rewrite (below_cons m) by exact Hm. intros Hk. apply below_spec. apply below_spec in Hb.
      destruct Hb as [Hb|Hb]; [left; exact Hb|right; kord]. }
    assert (Hmm : below m m = false) by (rewrite below_cons by exact Hm; apply kltb_irrefl).
    apply (count_decr _ _ _ _ m Hmono Hmono). tauto.
  Qed.

  (* one getData call against layout L and rows R: a batch inside the bounds comes back, the direction
     stays, the batch is the front of what was left, and less is left *)
  Definition good_step (L : layout) (R : rows) (c : cursor) : Prop :=
    exists ps c',
      get_data B L R c = GD ps c' /\ reverse c' = reverse c /\ (forall e, In e ps -> out_of_bound c' (fst e) = false) /\
      todo c R = ps ++ (if eof c' then [] else todo c' R) /\ (eof c' = false -> (meas c' < meas c)%nat).

  (* the cursor after a full batch whose last key is k *)
  Definition past (c : cursor) (k : key) : cursor :=
    if reverse c then mkCur (next_start c) k (end_key c) (eof c) true
    else mkCur (next_key k) (next_end c) (end_key c) (eof c) false.

  Lemma past_bounds c k :
    reverse (past c k) = reverse c /\ eof (past c k) = eof c /\
    (if reverse c then next_start (past c k) = next_start c else end_key (past c k) = end_key c).
  Proof. unfold past. destruct (reverse c); cbn; auto. Qed.

  (* past a row x, what follows x is left, and x itself lies behind the cursor *)
  Lemma full_batch R c p (x : key * row) q :
    ksorted R -> (reverse c = true -> fst x <> []) -> In (fst x) U -> todo c R = (p ++ [x]) ++ q ->
    q = todo (past c (fst x)) R /\ (meas (past c (fst x)) < meas c)%nat.
  Proof.
    intros Hs Hnn HU HG. rewrite <- app_assoc in HG. cbn [app] in HG.
    assert (Hx : key_in (next_start c) (if reverse c then next_end c else end_key c) x = true)
      by (apply (todo_in c R); rewrite HG; apply in_or_app; right; left; reflexivity).
    apply andb_true_iff in Hx. destruct Hx as [Hlo Hhi].
    pose proof (ksorted_filter (key_in (next_start c) (if reverse c then next_end c else end_key c)) R Hs) as HsG.
    unfold todo, past, meas in *. revert Hnn HG Hhi HsG.
    destruct (reverse c); cbn [reverse next_start next_end end_key]; intros Hnn HG Hhi HsG.
    - (* descending: what follows x lies below it *)
      specialize (Hnn eq_refl). split; [|apply below_decr; [exact Hnn|exact Hhi|right; exact HU]].
      apply (f_equal (@rev _)) in HG. rewrite rev_involutive, rev_app_distr in HG. cbn [rev] in HG.
      rewrite <- app_assoc in HG. cbn [app] in HG.
      rewrite <- (rev_involutive q), (proj1 (sorted_around _ _ _ x HsG HG)). f_equal.
      rewrite filter_filter. apply filter_ext. intros y. unfold key_in.
      apply in_range_low; [exact Hnn|]. apply below_spec in Hhi. destruct Hhi; [left; assumption|right; KeyOT.order].
    - (* ascending: what follows x lies at or above its successor *)
      pose proof (next_gt (fst x)) as Hn. split.
      + rewrite (proj2 (sorted_around _ _ _ x HsG HG)).
        rewrite filter_filter. apply filter_ext. intros y. unfold key_in.
        rewrite <- next_leb. apply in_range_high. kord.
      + apply (count_decr _ _ _ _ (fst x)); [intros k Hk; kord|intros k Hk; kord|].
        right. split; [exact HU|]. split; kord.
  Qed.

  (* what the request of one getData call covers: S, the rows ahead of the cursor that the located region
     holds, up to the border cursor cb.  The call returns the first B of them; it goes on from cb if
     these are all of S, and past the last one otherwise. *)
  Definition serves (L : layout) (R : rows) (c : cursor) (S : rows) (cb : cursor) : Prop :=
    get_data B L R c = (let ps := firstn B S in
                        if Nat.ltb (length ps) B then GD ps cb else GD ps (past c (last_key ps))) /\
    reverse cb = reverse c /\ (if reverse c then next_start cb = next_start c else end_key cb = end_key c) /\
    todo c R = S ++ (if eof cb then [] else todo cb R) /\ (eof cb = false -> (meas cb < meas c)%nat).

  Hypothesis HB : (1 <= B)%nat.

  Lemma fwd_request L R c : ksorted R -> reverse c = false -> incl L P -> exists S cb, serves L R c S cb.
  Proof.
    intros Hs Hrev HL. unfold serves, todo, meas, past. rewrite Hrev.
    set (ns := next_start c). set (hi := end_key c).
    unfold get_data, no_rpc, scan_req, store_scan. rewrite Hrev. cbn [andb negb]. fold ns hi.
    destruct (locate_key_spec L ns) as (F1 & F2 & F3). set (loc := locate_key L ns) in *. set (e := r_end loc) in *.
    assert (Hcont : region_contains loc ns = true).
    { unfold region_contains. fold e. apply andb_true_iff. split; [kord|]. apply below_spec. exact F2. }
    rewrite Hcont. pose proof (fwd_bound hi e) as Hb. cbv zeta in Hb.
    set (b := min_end _ e) in *. set (eof' := is_nil e || _) in *.
    exists (filter (key_in ns b) R), (mkCur e (next_end c) hi eof' false). cbn [reverse eof next_start end_key].
    split; [reflexivity|]. split; [reflexivity|]. split; [reflexivity|]. split.
    - (* what is left = the range the store serves ++ what lies beyond the region *)
      destruct eof'; [rewrite Hb; symmetry; apply app_nil_r|].
      destruct Hb as (-> & He & Hle). apply range_split; [exact Hs| |exact He|exact Hle].
      destruct F2; [congruence|KeyOT.order].
    - intros He'. rewrite He' in Hb. destruct Hb as (_ & He & _).
      destruct F2 as [F2|F2]; [congruence|]. destruct F3 as [F3|F3]; [congruence|].
      apply (count_decr _ _ _ _ e); [intros q Hq; kord|intros k Hk; kord|].
      left. split; [apply HL; exact F3|]. split; [kord|apply kltb_irrefl].
  Qed.

  Lemma rev_request L R c : ksorted R -> reverse c = true -> incl L P -> exists S cb, serves L R c S cb.
  Proof.
    intros Hs Hrev HL. unfold serves, todo, meas, past. rewrite Hrev.
    set (lo := next_start c). set (ne := next_end c).
    unfold get_data, no_rpc. rewrite Hrev. cbn [andb]. fold lo ne.
    destruct (negb (is_nil lo) && negb (is_nil ne) && kleb ne lo) eqn:Enr.
    { (* the remaining range is empty: nothing is sent *)
      apply andb_true_iff in Enr. destruct Enr as [Enr E3]. apply andb_true_iff in Enr. destruct Enr as [_ E2].
      exists [], (mkCur lo ne (end_key c) true true). cbn [reverse eof next_start app].
      rewrite firstn_nil. cbn [length]. rewrite (proj2 (Nat.ltb_lt 0 B) HB).
      split; [reflexivity|]. split; [reflexivity|]. split; [reflexivity|]. split; [|discriminate].
      rewrite (filter_none (key_in lo ne)); [reflexivity|]. intros x _. unfold key_in, in_range.
      rewrite below_cons by (apply is_nil_false, negb_true_iff; exact E2).
      destruct (kleb lo (fst x)) eqn:E4; [cbn [andb]; kord|reflexivity]. }
    unfold scan_req, store_rscan. rewrite Hrev. cbn [negb]. fold lo ne.
    destruct (locate_end_key_spec L ne) as (FA & FB). set (loc := locate_end_key L ne) in *.
    set (s := r_start loc) in *. set (e := r_end loc) in *.
    destruct (rev_bound lo s) as (Hrs1 & Hrs2 & Hb). set (rs := if is_nil lo || _ then s else lo) in *.
    set (eof' := is_nil s || _) in *.
    pose proof (min_end_le ne e FA) as Hmin.
    assert (FC : ne = [] \/ klt rs ne).
    { destruct ne as [|b ne'] eqn:Ene; [left; reflexivity|right]. rewrite <- Ene in *.
      assert (Hnn : ne <> []) by (rewrite Ene; discriminate).
      destruct eof'; [rewrite Hb|destruct Hb as [-> Hs0]].
      - destruct (is_nil lo) eqn:El; [apply is_nil_true in El; rewrite El; apply nil_lt; exact Hnn|].
        apply is_nil_false in Hnn. rewrite Hnn in Enr. cbn [negb andb] in Enr. kord.
      - destruct FB as [FB|(_ & [FB|FB])]; congruence || exact FB. }
    assert (Hcont : region_contains loc rs = true).
    { unfold region_contains. fold s e. apply andb_true_iff. split; [kord|]. apply below_spec.
      destruct FA as [FA|(FA1 & FA2)]; [left; exact FA|right]. destruct FC as [FC|FC]; [congruence|]. KeyOT.order. }
    rewrite Hcont, Hmin.
    exists (rev (filter (key_in rs ne) R)), (mkCur lo rs (end_key c) eof' true). cbn [reverse eof next_start next_end].
    split; [reflexivity|]. split; [reflexivity|]. split; [reflexivity|]. split.
    - (* what is left = what lies below the region ++ the range the store serves, read backwards *)
      destruct eof'; [rewrite Hb; symmetry; apply app_nil_r|].
      destruct Hb as (Hrss & Hs0). rewrite <- rev_app_distr. f_equal.
      apply range_split; [exact Hs|exact Hrs2|rewrite Hrss; exact Hs0|]. destruct FC; [left; assumption|right; KeyOT.order].
    - intros He'. rewrite He' in Hb. destruct Hb as (Hrss & Hs0). rewrite Hrss in *.
      destruct FB as [FB|(FB1 & _)]; [congruence|].
      apply below_decr; [exact Hs0|apply below_spec; exact FC|left; apply HL; exact FB1].
  Qed.

  Lemma scan_step L R c :
    ksorted R -> (reverse c = true -> forall e, In e R -> fst e <> []) -> eof c = false ->
    incl L P -> (forall e, In e R -> In (fst e) U) ->
    good_step L R c.
  Proof.
    intros Hs Hne Heof HL HU.
    assert (Hreq : exists S cb, serves L R c S cb)
      by (destruct (reverse c) eqn:Hrev; [apply rev_request|apply fwd_request]; assumption).
    destruct Hreq as (S & cb & Hgd & Hr & Hbd & Hsplit & Hdec). unfold good_step. rewrite Hgd. cbv zeta.
    destruct (firstn_cases B S HB) as [(-> & ->)|(-> & p & x & Hpx)].
    - (* short batch: the region is exhausted *)
      exists S, cb. split; [reflexivity|]. split; [exact Hr|]. split; [|split; assumption].
      intros e He. apply (todo_in_bound c cb R e Hr Hbd). rewrite Hsplit. apply in_or_app. left. exact He.
    - (* full batch: go on past its last row *)
      rewrite Hpx, last_key_snoc. exists (p ++ [x]), (past c (fst x)). split; [reflexivity|].
      rewrite <- (firstn_skipn B S), Hpx, <- app_assoc in Hsplit.
      assert (HxR : In x R)
        by (apply (todo_in c R); rewrite Hsplit, <- app_assoc; apply in_or_app; right; left; reflexivity).
      destruct (full_batch R c p x _ Hs (fun H => Hne H x HxR) (HU x HxR) Hsplit) as [Hq Hm].
      destruct (past_bounds c (fst x)) as (P1 & P2 & P3). rewrite P2, Heof, <- Hq.
      split; [exact P1|]. split; [|split; [exact Hsplit|intros _; exact Hm]].
      intros e He. apply (todo_in_bound c _ R e P1 P3). rewrite Hsplit. apply in_or_app. left. exact He.
  Qed.
End Step.
