(* SnapRead/ProofsWorldScan.v — the scanner over the world.  What getData does depends on the keys of
   the served rows only, and the rows a world serves are the ideal rows (lock answers = the point-get
   answers) with the lock answers blanked; consuming a batch with point gets gives what the ideal batch
   emits; so the iteration over the world follows the iteration over the ideal rows, in both directions. *)
From Verif Require Import Base.Lex SnapRead.Model SnapRead.ModelRead SnapRead.ProofsList SnapRead.ProofsScanStep
  SnapRead.ProofsScanLoop SnapRead.ProofsCache SnapRead.ProofsRead SnapRead.ProofsTerm.

Definition blank (e : key * row) : key * row := (fst e, match snd e with Val v => Val v | Lk _ => Lk None end).

Lemma fst_blank e : fst (blank e) = fst e.
Proof. reflexivity. Qed.

Lemma filter_map_blank (P : key * row -> bool) R :
  (forall e, P (blank e) = P e) -> filter P (map blank R) = map blank (filter P R).
Proof.
  intros HP. induction R as [|e R IH]; cbn [map filter]; [reflexivity|].
  rewrite HP. destruct (P e); cbn [map]; rewrite IH; reflexivity.
Qed.

Lemma last_key_blank ps : last_key (map blank ps) = last_key ps.
Proof.
  unfold last_key. rewrite <- map_rev. destruct (rev ps) as [|[k r] l]; cbn [map blank fst]; reflexivity.
Qed.

Definition gd_blank (g : gd) : gd := match g with GD ps c => GD (map blank ps) c | GDPanic => GDPanic end.

Lemma get_data_blank B L R c : get_data B L (map blank R) c = gd_blank (get_data B L R c).
Proof.
  unfold get_data. destruct (no_rpc c); [reflexivity|].
  destruct (scan_req L c) as [[loc rs] re]. destruct (negb (reverse c)).
  - unfold store_scan. destruct (region_contains loc rs); [|reflexivity].
    rewrite filter_map_blank by (intros e; reflexivity). rewrite firstn_map, map_length, last_key_blank.
    destruct (Nat.ltb _ B); reflexivity.
  - unfold store_rscan. destruct (region_contains loc re); [|reflexivity].
    rewrite filter_map_blank by (intros e; reflexivity). rewrite <- map_rev, firstn_map, map_length, last_key_blank.
    destruct (Nat.ltb _ B); reflexivity.
Qed.

Lemma memk_filter (P : key -> bool) K k : In k K -> memk k (filter P K) = P k.
Proof.
  intros Hin. unfold memk. destruct (P k) eqn:E.
  - apply existsb_exists. exists k. split; [apply filter_In; auto|apply bytes_eqb_eq; reflexivity].
  - destruct (existsb (keqb k) (filter P K)) eqn:Ex; [|reflexivity].
    apply existsb_exists in Ex. destruct Ex as (x & Hx & Hk). apply keqb_eq in Hk. subst x.
    apply filter_In in Hx. destruct Hx as [_ Hx]. congruence.
Qed.

Section WorldScan.
  Variables (ts : N) (Fin : key -> list write) (T : truth).
  Hypothesis HT : forall k, read_at ts k T = vis (Fin k) ts.

  (* the lock set of the ideal rows = the keys that answer "locked" right now *)
  Lemma wrows_ideal w rs :
    inv ts Fin (w, rs) -> map fst (w_keys w) = map fst T ->
    wrows w ts rs = map blank (rows_of ts T (filter (blockedb ts (w, rs)) (map fst T))).
  Proof.
    intros Hinv HK. unfold wrows, rows_of. rewrite HK, map_filter_map, filter_map_map.
    apply filter_map_ext_in. intros e He. cbv zeta. set (k := fst e).
    rewrite (memk_filter _ _ _ (in_map fst _ _ He)). unfold blockedb. cbn [fst snd]. fold k. rewrite HT.
    destruct (store_get (k_get (w_keys w) k) ts rs) as [o|l] eqn:Es.
    - rewrite <- (store_get_val ts Fin w rs k o Hinv Es). destruct o; reflexivity.
    - destruct (vis (Fin k) ts); reflexivity.
  Qed.

  Variable gfuel : nat.

  (* what the scan keeps about the world: the read invariant, the keys of T, fuel for every point get *)
  Definition stinv (st : world * list N) : Prop :=
    inv ts Fin st /\ map fst (w_keys (fst st)) = map fst T /\ (patience (w_txns (fst st)) + 2 <= gfuel)%nat.

  (* consuming the blanked batch with point gets emits what the ideal batch emits *)
  Lemma consume_w_spec ko c : forall ps st,
    stinv st ->
    (forall e, In e ps -> out_of_bound c (fst e) = false) ->
    (forall e o, In e ps -> snd e = Lk o -> o = vis (Fin (fst e)) ts) ->
    exists st', consume_w gfuel ko ts c (map blank ps) st = Some (emit ko ps, false, st') /\ stinv st'.
  Proof.
    induction ps as [|[k r] ps IH]; intros st Hst Hb Hl; cbn [map consume_w]; [eauto|].
    rewrite fst_blank. pose proof (Hb (k, r) (or_introl eq_refl)) as Hbk. cbn [fst] in Hbk |- *. rewrite Hbk.
    assert (Hb' : forall e, In e ps -> out_of_bound c (fst e) = false) by (intros e He; apply Hb; right; exact He).
    assert (Hl' : forall e o, In e ps -> snd e = Lk o -> o = vis (Fin (fst e)) ts) by (intros e o He; apply Hl; right; exact He).
    destruct r as [v|o]; cbn [blank snd fst].
    - destruct (IH st Hst Hb' Hl') as (st' & Hc & Hst'). rewrite Hc. eauto.
    - destruct st as [w rs]. destruct Hst as (Hinv & HK & Hf). cbn [fst snd] in *.
      destruct (get_total ts Fin gfuel w rs k Hinv Hf) as (o' & w' & rs' & Hg & Ho & Hinv' & Hp & Hk).
      rewrite Hg. destruct (IH (w', rs')) as (st' & Hc & Hst'); [split; [exact Hinv'|cbn [fst]; split; [congruence|lia]]|exact Hb'|exact Hl'|].
      rewrite Hc. exists st'. split; [|exact Hst'].
      pose proof (Hl (k, Lk o) o (or_introl eq_refl) eq_refl) as Hlo. cbn [fst] in Hlo. rewrite Ho, <- Hlo.
      unfold emit. cbn [filter_map emit_row snd fst]. destruct o; reflexivity.
  Qed.

  Variables (ko : bool) (B : nat) (P : list key) (retry : nat -> option retry_kind) (lay : nat -> layout) (rv : bool).
  Hypothesis HB : (1 <= B)%nat.
  Hypothesis HTs : tsorted T.
  Hypothesis Hlay : forall i, incl (lay i) P.
  Hypothesis Hnn : rv = true -> forall e, In e T -> fst e <> [].

  Definition Eexp (a b : key) : list (key * value) := map (canon ko) (expected ts a b T).

  Lemma wscan_loop_complete : forall fuel i st c Rt,
    stinv st -> reverse c = rv -> bounded_retry retry i Rt -> (steps P (map fst T) c + Rt < fuel)%nat ->
    exists out, wscan_loop fuel gfuel B ko ts retry lay i st c = Done out /\
                map (canon ko) out = if eof c then [] else spec Eexp c.
  Proof.
    induction fuel as [|f IH]; intros i st c Rt Hst Hrev Hb Hmu; [lia|].
    cbn [wscan_loop]. unfold steps in Hmu. destruct (eof c) eqn:Heof.
    - exists []. split; reflexivity.
    - destruct (retry i) as [k|] eqn:Er.
      { destruct (bounded_retry_some _ _ _ _ Hb Er) as (R' & -> & Hb').
        destruct (IH (S i) st c R' Hst Hrev Hb') as (out & H1 & H2); [unfold steps; rewrite Heof; lia|].
        exists out. split; [exact H1|]. rewrite H2, Heof. reflexivity. }
      pose proof (bounded_retry_none _ _ _ Hb Er) as Hb'.
      destruct st as [w rs]. destruct Hst as (Hinv & HK & Hpat). cbn [fst snd] in *.
      rewrite (wrows_ideal w rs Hinv HK), get_data_blank.
      set (R := rows_of ts T (filter (blockedb ts (w, rs)) (map fst T))).
      assert (Hind : forall a b, map (canon ko) (emit ko (filter (key_in a b) R)) = Eexp a b)
        by (intros a b; apply (emit_rows_of ko ts T _ (in_range a b))).
      destruct (scan_step B P (map fst T) HB (lay i) R c (rows_of_sorted ts T _ HTs)
                  (fun H => rows_of_nonempty ts T _ (Hnn (eq_trans (eq_sym Hrev) H))) Heof (Hlay i)
                  (fun e He => proj1 (in_rows_of ts T _ e He)))
        as (ps & c' & Hgd & Hrev' & Hob & Hsplit & Hdec).
      rewrite Hgd. cbn [gd_blank].
      assert (Hin : forall e, In e ps -> In e R).
      { intros e He. apply (todo_in c R). rewrite Hsplit. apply in_or_app. left. exact He. }
      destruct (consume_w_spec ko c' ps (w, rs) (conj Hinv (conj HK Hpat)) Hob) as (st' & Hcw & Hst').
      { intros e o He Ho. rewrite <- HT. exact (proj2 (in_rows_of ts T _ e (Hin e He)) o Ho). }
      rewrite Hcw.
      destruct (IH (S i) st' c' Rt Hst') as (out' & Hloop & Hout); [congruence|exact Hb'| |].
      { unfold steps. destruct (eof c'); [lia|]. specialize (Hdec eq_refl). lia. }
      exists (emit ko ps ++ out'). split; [apply prepend_done; exact Hloop|].
      rewrite map_app, Hout. symmetry. exact (spec_split ko Eexp R c c' ps Hind Hsplit).
  Qed.
End WorldScan.
