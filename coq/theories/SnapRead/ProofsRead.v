(* SnapRead/ProofsRead.v — the invariant of a reader at ts over a changing world (the final writes Fin of
   every key stay what they are, the ignored transactions are invisible at ts), kept by every lock it
   handles; a point get that answers, answers vis (Fin k) ts.  Also: grouping of keys by region. *)
From Coq Require Import Sorting.Permutation.
From Verif Require Import Base.Lex SnapRead.Model SnapRead.ModelRead SnapRead.ProofsList SnapRead.ProofsCache.

Lemma newest_app a b ts best : newest (a ++ b) ts best = newest b ts (newest a ts best).
Proof.
  revert best. induction a as [|[c o] a IH]; intros best; cbn [app newest]; [reflexivity|]. apply IH.
Qed.

Lemma vis_app_later ws c o ts : ts < c -> vis (ws ++ [(c, o)]) ts = vis ws ts.
Proof.
  intros H. unfold vis. rewrite newest_app. cbn [newest].
  assert (E : (c <=? ts) = false) by (apply N.leb_gt; exact H). rewrite E. reflexivity.
Qed.

Definition fin_ignorable (f : fin) (ts : N) : Prop :=
  match f with FRolledBack => True | FCommitted c => ts < c end.

Definition txs_ok (tx : list (N * tstate)) (ts : N) : Prop :=
  forall t st, tx_get tx t = Some st ->
    (forall c, eventual st = FCommitted c -> t < c) /\
    (forall f, st = TPushed f -> fin_ignorable f ts).

Definition rs_ok (tx : list (N * tstate)) (ts : N) (rs : list N) : Prop :=
  forall t, In t rs -> fin_ignorable (tx_fin tx t) ts.

(* txs_ok entry by entry (for concrete tables) *)
Lemma txs_ok_cons t s tx ts :
  (forall c, eventual s = FCommitted c -> t < c) -> (forall f, s = TPushed f -> fin_ignorable f ts) ->
  txs_ok tx ts -> txs_ok ((t, s) :: tx) ts.
Proof.
  intros Hc Hp Hok t' st. cbn [tx_get]. destruct (t =? t') eqn:E; [|apply Hok].
  apply N.eqb_eq in E. subst t'. intros H. inversion H; subst st. split; assumption.
Qed.

Lemma tx_fin_committed tx ts t c : txs_ok tx ts -> tx_fin tx t = FCommitted c -> t < c.
Proof.
  unfold tx_fin. intros Hok Hc. destruct (tx_get tx t) as [st|] eqn:Eg; [|discriminate].
  exact (proj1 (Hok t st Eg) c Hc).
Qed.

Lemma tx_get_set tx t s t' :
  tx_get (tx_set tx t s) t' =
    if t =? t' then match tx_get tx t with Some _ => Some s | None => None end else tx_get tx t'.
Proof.
  induction tx as [|[a sa] tx IH]; cbn [tx_set tx_get].
  - destruct (t =? t'); reflexivity.
  - destruct (a =? t) eqn:E1; cbn [tx_get].
    + apply N.eqb_eq in E1. subst a. destruct (t =? t') eqn:E2; reflexivity.
    + destruct (a =? t') eqn:E2.
      * apply N.eqb_eq in E2. subst a. rewrite N.eqb_sym in E1. rewrite E1. reflexivity.
      * exact IH.
Qed.

(* replacing the state of t by one with the same outcome (not a pushable one) changes nothing for a reader *)
Lemma tx_set_same tx t st s' ts :
  txs_ok tx ts -> tx_get tx t = Some st -> eventual s' = eventual st -> (forall f, s' <> TPushed f) ->
  (forall t', tx_fin (tx_set tx t s') t' = tx_fin tx t') /\ txs_ok (tx_set tx t s') ts.
Proof.
  intros Hok Eg He Hnp. split.
  - intros t'. unfold tx_fin. rewrite tx_get_set. destruct (t =? t') eqn:E; [|reflexivity].
    apply N.eqb_eq in E. subst t'. rewrite Eg. exact He.
  - intros t' st'. rewrite tx_get_set. destruct (t =? t') eqn:E; [|apply Hok].
    apply N.eqb_eq in E. subst t'. rewrite Eg. intros H; inversion H; subst st'. split.
    + intros c. rewrite He. apply (Hok t st Eg).
    + intros f Hf. exfalso. exact (Hnp f Hf).
Qed.

(* what resolveLocks makes of the status of a decided transaction *)
Lemma classify_fin f a ts : (forall c, f = FCommitted c -> 0 < c) ->
  (classify true (st_of_fin f a) ts = Ignore -> fin_ignorable f ts) /\
  (classify true (st_of_fin f a) ts = Access -> exists c, f = FCommitted c /\ c <= ts).
Proof.
  intros Hc. destruct (classify_sound true (st_of_fin f a) ts) as (H1 & H2 & _). split; intros Hcl.
  - destruct f as [|c]; [exact I|]. specialize (Hc c eq_refl). destruct (H1 Hcl) as [H|[[_ H]|H]]; [exfalso|exact H|discriminate].
    apply andb_true_iff in H. destruct H as [H _]. apply andb_true_iff in H. destruct H as [_ H].
    apply N.eqb_eq in H. cbn in H. lia.
  - destruct (H2 Hcl) as [Hcm Hle]. destruct f as [|c]; [destruct a; discriminate|]. exists c. auto.
Qed.

(* a status check keeps every outcome and the sanity of the table; "ignore" and "access" mean what they
   should for the outcome of t *)
Lemma probe_spec tx t ts : txs_ok tx ts ->
  let '(tx', s) := probe tx t in
  (forall t', tx_fin tx' t' = tx_fin tx t') /\ txs_ok tx' ts /\
  (classify true s ts = Ignore -> fin_ignorable (tx_fin tx t) ts) /\
  (classify true s ts = Access -> exists c, tx_fin tx t = FCommitted c /\ c <= ts).
Proof.
  intros Hok.
  assert (Hcl : forall a, (classify true (st_of_fin (tx_fin tx t) a) ts = Ignore -> fin_ignorable (tx_fin tx t) ts) /\
                          (classify true (st_of_fin (tx_fin tx t) a) ts = Access -> exists c, tx_fin tx t = FCommitted c /\ c <= ts)).
  { intros a. apply classify_fin. intros c Hc. pose proof (tx_fin_committed _ _ _ _ Hok Hc). lia. }
  unfold probe, tx_fin in *. destruct (tx_get tx t) as [st|] eqn:Eg.
  2:{ split; [reflexivity|]. split; [exact Hok|]. exact (Hcl LockNotExistRollback). }
  destruct st as [f|f|[|n] f]; cbn [eventual] in Hcl.
  - split; [reflexivity|]. split; [exact Hok|]. exact (Hcl NoAction).
  - split; [reflexivity|]. split; [exact Hok|]. split; [intros _|discriminate]. apply (Hok t _ Eg). reflexivity.
  - destruct (tx_set_same tx t _ (TFinished f) ts Hok Eg eq_refl) as [H1 H2]; [discriminate|].
    split; [exact H1|]. split; [exact H2|]. exact (Hcl TTLExpireRollback).
  - destruct (tx_set_same tx t _ (TAlive n f) ts Hok Eg eq_refl) as [H1 H2]; [discriminate|].
    split; [exact H1|]. split; [exact H2|]. split; discriminate.
Qed.

Lemma k_get_set l k s k' :
  k_get (k_set l k s) k' = if keqb k k' then (if existsb (fun e => keqb (fst e) k) l then s else ks_empty) else k_get l k'.
Proof.
  induction l as [|[a sa] l IH]; cbn [k_set k_get existsb fst].
  - destruct (keqb k k'); reflexivity.
  - destruct (keqb a k) eqn:E1; cbn [k_get orb].
    + apply keqb_eq in E1. subst a. destruct (keqb k k'); reflexivity.
    + destruct (keqb a k') eqn:E2.
      * apply keqb_eq in E2. subst a. destruct (keqb k k') eqn:E3; [|reflexivity].
        apply keqb_eq in E3. subst k'. unfold keqb in E1. rewrite (proj2 (bytes_eqb_eq k k) eq_refl) in E1. discriminate.
      * exact IH.
Qed.

Lemma k_get_absent l k : existsb (fun e => keqb (fst e) k) l = false -> k_get l k = ks_empty.
Proof.
  induction l as [|[a sa] l IH]; cbn [existsb k_get fst]; [reflexivity|].
  destruct (keqb a k); cbn [orb]; [discriminate|exact IH].
Qed.

Lemma final_ws_ext tx tx' s : (forall t, tx_fin tx' t = tx_fin tx t) -> final_ws tx' s = final_ws tx s.
Proof. intros H. unfold final_ws, contrib. destruct (ks_lock s) as [l|]; [rewrite H|]; reflexivity. Qed.

(* resolving the lock of key k (or not) and a status check leave every key's final writes as they were *)
Lemma final_ws_resolved (resolve : bool) tx tx' keys k k' :
  (forall t, tx_fin tx' t = tx_fin tx t) ->
  final_ws tx' (k_get (if resolve then k_set keys k (resolve_ks tx' (k_get keys k)) else keys) k') =
  final_ws tx (k_get keys k').
Proof.
  intros Hf. rewrite <- (final_ws_ext tx tx' (k_get keys k') Hf). destruct resolve; [|reflexivity].
  rewrite k_get_set. destruct (keqb k k') eqn:Ek; [|reflexivity]. apply keqb_eq in Ek. subst k'.
  destruct (existsb (fun e => keqb (fst e) k) keys) eqn:Ex; [|rewrite (k_get_absent _ _ Ex); reflexivity].
  unfold resolve_ks, final_ws at 1. cbn [ks_ws ks_lock contrib]. apply app_nil_r.
Qed.

(* resolving the lock of key k (or not): every key keeps its state or has no lock; k has none if resolved *)
Lemma k_get_resolved (resolve : bool) tx keys k :
  let keys' := if resolve then k_set keys k (resolve_ks tx (k_get keys k)) else keys in
  (forall k', k_get keys' k' = k_get keys k' \/ ks_lock (k_get keys' k') = None) /\
  (resolve = true -> ks_lock (k_get keys' k) = None).
Proof.
  destruct resolve; cbv zeta; [|split; [auto|discriminate]].
  assert (Hkk : keqb k k = true) by (apply bytes_eqb_eq; reflexivity). split.
  - intros k'. rewrite k_get_set. destruct (keqb k k') eqn:Ek; [|left; reflexivity]. apply keqb_eq in Ek. subst k'.
    destruct (existsb (fun e => keqb (fst e) k) keys) eqn:Ex; [right; reflexivity|left; symmetry; apply k_get_absent; exact Ex].
  - intros _. rewrite k_get_set, Hkk. destruct (existsb _ keys); reflexivity.
Qed.

Lemma writes_of_final w k : writes_of k (final_truth w) = final_ws (w_txns w) (k_get (w_keys w) k).
Proof.
  unfold final_truth. induction (w_keys w) as [|[a sa] l IH]; cbn [map writes_of k_get fst snd]; [reflexivity|].
  destruct (keqb a k); [reflexivity|exact IH].
Qed.

(* mvccLock.check lets a read pass: a later lock, a lock without data, or an ignored transaction *)
Lemma blocks_false l ts rs : blocks l ts rs = false ->
  ts < l_start l \/ l_kind l = LLock \/ l_kind l = LPess \/ In (l_start l) rs.
Proof.
  unfold blocks. destruct (ts <? l_start l) eqn:E1; [left; apply N.ltb_lt; exact E1|]. cbn [negb andb].
  destruct (l_kind l); auto; cbn [andb]; intros H; apply negb_false_iff, existsb_exists in H;
    destruct H as (t & Ht & Et); apply N.eqb_eq in Et; subst t; auto.
Qed.

Lemma blocks_ignored l ts rs : blocks l ts (l_start l :: rs) = false.
Proof. unfold blocks, memN. cbn [existsb]. rewrite N.eqb_refl. cbn [orb negb]. apply andb_false_r. Qed.

(* GroupKeysByRegion permutes the keys into non-empty groups *)
Lemma insert_group_spec L k gs : Forall (fun g => g <> []) gs ->
  Permutation (concat (insert_group L k gs)) (k :: concat gs) /\ Forall (fun g => g <> []) (insert_group L k gs).
Proof.
  induction 1 as [|g gs Hg Hgs [IHp IHn]]; cbn [insert_group concat].
  - split; [reflexivity|constructor; [discriminate|constructor]].
  - destruct g as [|a g']; [congruence|]. destruct (same_region L a k); cbn [concat].
    + split; [|constructor; [destruct g'; discriminate|exact Hgs]].
      rewrite <- app_assoc. symmetry. apply Permutation_middle.
    + split; [|constructor; [discriminate|exact IHn]].
      rewrite IHp. symmetry. apply Permutation_middle.
Qed.

Lemma group_keys_spec L b : Permutation (concat (group_keys L b)) b /\ Forall (fun g => g <> []) (group_keys L b).
Proof.
  unfold group_keys.
  assert (H : forall gs, Forall (fun g => g <> []) gs ->
            Permutation (concat (fold_left (fun gs k => insert_group L k gs) b gs)) (b ++ concat gs) /\
            Forall (fun g => g <> []) (fold_left (fun gs k => insert_group L k gs) b gs)).
  { induction b as [|a b IH]; intros gs Hgs; cbn [fold_left app]; [auto|].
    destruct (insert_group_spec L a gs Hgs) as [I1 I2]. destruct (IH _ I2) as [J1 J2]. split; [|exact J2].
    rewrite J1, I1. symmetry. apply Permutation_middle. }
  destruct (H [] (Forall_nil _)) as [H1 H2]. cbn [concat] in H1. rewrite app_nil_r in H1. auto.
Qed.

(* after a region error a batch stays whole or is split again: the same keys, no empty group *)
Lemma regroup_spec L b : b <> [] ->
  let gs := if one_region L b then [b] else group_keys L b in
  Permutation (concat gs) b /\ Forall (fun g => g <> []) gs.
Proof.
  intros Hb. destruct (one_region L b); [|apply group_keys_spec].
  cbn [concat]. rewrite app_nil_r. split; [reflexivity|constructor; [exact Hb|constructor]].
Qed.

Lemma concat_nonempty_len {A} (pend : list (list A)) :
  Forall (fun b => b <> []) pend -> (length pend <= length (concat pend))%nat.
Proof.
  induction 1 as [|b pend Hb _ IH]; cbn [concat length]; [lia|].
  rewrite app_length. destruct b; [congruence|]. cbn [length]. lia.
Qed.

Lemma serve_eq ts w rs b : serve w rs ts b =
  (filter_map (fun k => match store_get (k_get (w_keys w) k) ts rs with SVal (Some v) => Some (k, v) | _ => None end) b,
   filter_map (fun k => match store_get (k_get (w_keys w) k) ts rs with SLocked l => Some (k, l) | _ => None end) b).
Proof.
  induction b as [|a b IH]; cbn [serve filter_map]; [reflexivity|]. rewrite IH.
  destruct (store_get (k_get (w_keys w) a) ts rs) as [[v|]|l]; reflexivity.
Qed.

Lemma serve_in ts w rs b :
  let '(vals, locked) := serve w rs ts b in
  (forall k v, In (k, v) vals <-> In k b /\ store_get (k_get (w_keys w) k) ts rs = SVal (Some v)) /\
  (forall k l, In (k, l) locked <-> In k b /\ store_get (k_get (w_keys w) k) ts rs = SLocked l).
Proof.
  rewrite serve_eq. split; intros k x; rewrite in_filter_map; split.
  - intros (k' & Hk & E). destruct (store_get (k_get (w_keys w) k') ts rs) as [[v|]|l] eqn:Es; inversion E; subst; auto.
  - intros [Hk E]. exists k. rewrite E. auto.
  - intros (k' & Hk & E). destruct (store_get (k_get (w_keys w) k') ts rs) as [[v|]|l] eqn:Es; inversion E; subst; auto.
  - intros [Hk E]. exists k. rewrite E. auto.
Qed.

Section Inv.
  Variable ts : N.
  Variable Fin : key -> list write.        (* the final committed writes of every key *)

  Definition inv (st : world * list N) : Prop :=
    let '(w, rs) := st in
    txs_ok (w_txns w) ts /\ rs_ok (w_txns w) ts rs /\
    forall k, final_ws (w_txns w) (k_get (w_keys w) k) = Fin k.

  Lemma inv_init w : txs_ok (w_txns w) ts -> (forall k, Fin k = final_ws (w_txns w) (k_get (w_keys w) k)) -> inv (w, []).
  Proof. intros Htx HF. split; [exact Htx|]. split; [intros t []|intros k; symmetry; apply HF]. Qed.

  (* what a lock that lets the read pass will become is invisible at ts *)
  Lemma store_get_val w rs k o :
    inv (w, rs) -> store_get (k_get (w_keys w) k) ts rs = SVal o -> o = vis (Fin k) ts.
  Proof.
    intros (Htx & Hrs & Hfin). rewrite <- (Hfin k). unfold store_get, final_ws.
    destruct (ks_lock (k_get (w_keys w) k)) as [l|] eqn:El; cbn [contrib].
    2:{ intros H. inversion H. rewrite app_nil_r. reflexivity. }
    destruct (blocks l ts rs) eqn:Eb; [discriminate|]. intros H. inversion H. clear H.
    destruct (tx_fin (w_txns w) (l_start l)) as [|c] eqn:Ef; [rewrite app_nil_r; reflexivity|].
    pose proof (tx_fin_committed _ _ _ _ Htx Ef) as Hc.
    assert (Hlater : l_kind l = LLock \/ l_kind l = LPess \/ ts < c).
    { destruct (blocks_false _ _ _ Eb) as [H|[H|[H|H]]]; auto; right; right; [lia|].
      specialize (Hrs _ H). rewrite Ef in Hrs. exact Hrs. }
    destruct (l_kind l) eqn:Ek; try (rewrite app_nil_r; reflexivity);
      destruct Hlater as [H|[H|H]]; try discriminate; symmetry; apply vis_app_later; exact H.
  Qed.

  Lemma handle_lock_inv st kl : inv st -> inv (handle_lock ts st kl).
  Proof.
    destruct st as [w rs]. destruct kl as [k l]. intros (Htx & Hrs & Hfin). unfold handle_lock.
    pose proof (probe_spec (w_txns w) (l_start l) ts Htx) as Hp.
    destruct (probe (w_txns w) (l_start l)) as [tx' s]. destruct Hp as (Hf & Htx' & Hig & _).
    assert (Hrs' : rs_ok tx' ts rs) by (intros t Ht; rewrite Hf; apply Hrs; exact Ht).
    destruct (classify true s ts) eqn:Ec; cbn [inv w_txns w_keys]; (split; [exact Htx'|]);
      (split; [|intros k'; rewrite (final_ws_resolved _ (w_txns w)) by exact Hf; apply Hfin]); try exact Hrs'.
    intros t [<-|Ht]; [rewrite Hf; apply Hig; reflexivity|apply Hrs'; exact Ht].
  Qed.

  Lemma get_spec : forall fuel w rs k, inv (w, rs) ->
    let '(a, w', rs') := get fuel w rs ts k in
    inv (w', rs') /\ forall o, a = Some o -> o = vis (Fin k) ts.
  Proof.
    induction fuel as [|f IH]; intros w rs k Hinv; cbn [get]; [split; [exact Hinv|discriminate]|].
    destruct (store_get (k_get (w_keys w) k) ts rs) as [o'|l] eqn:Es.
    - split; [exact Hinv|]. intros o H. inversion H; subst. eapply store_get_val; eassumption.
    - pose proof (handle_lock_inv (w, rs) (k, l) Hinv) as Hinv'.
      destruct (handle_lock ts (w, rs) (k, l)) as [w1 rs1]. apply IH. exact Hinv'.
  Qed.

  (* a key of a served request is answered now, with the truth, or stays locked *)
  Lemma serve_answers w rs b : inv (w, rs) ->
    let '(vals, locked) := serve w rs ts b in
    forall k v, In (k, v) vals \/ (In k (map fst locked) /\ vis (Fin k) ts = Some v) <->
                In k b /\ vis (Fin k) ts = Some v.
  Proof.
    intros Hinv. pose proof (serve_in ts w rs b) as Hs. destruct (serve w rs ts b) as [vals locked].
    destruct Hs as [S1 S2]. intros k v.
    assert (Hm : In k (map fst locked) <-> exists l, In (k, l) locked).
    { rewrite in_map_iff. split; [intros ([k' l] & <- & H); eauto|intros (l & H); exists (k, l); auto]. }
    rewrite Hm. split.
    - intros [H|[[l H] Hv]]; [apply S1 in H; destruct H as [H1 H2]|apply S2 in H; tauto].
      rewrite (store_get_val _ _ _ _ Hinv H2). auto.
    - intros [Hk Hv]. destruct (store_get (k_get (w_keys w) k) ts rs) as [o|l] eqn:Ek.
      + left. apply S1. split; [exact Hk|]. rewrite (store_get_val _ _ _ _ Hinv Ek), Hv in Ek. exact Ek.
      + right. split; [exists l; apply S2; auto|exact Hv].
  Qed.

  Lemma fold_handle_inv locked st : inv st -> inv (fold_left (handle_lock ts) locked st).
  Proof. revert st. induction locked as [|kl l IH]; intros st H; cbn [fold_left]; [exact H|]. apply IH. apply handle_lock_inv. exact H. Qed.

End Inv.
