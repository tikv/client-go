(* SnapRead/ProofsMoveTerm.v — the termination half of the timestamp-move theorems: with fuel at least
   patience + 2 every Get of a program returns an answer (both store models). *)
From Verif Require Import Base.Lex SnapRead.Model SnapRead.ModelRead SnapRead.ProofsRead SnapRead.ProofsTerm
  SnapRead.ProofsMove SnapRead.ProofsReadThrough.

Lemma patience_finish tx t : (patience (finish_tx tx t) <= patience tx)%nat.
Proof.
  unfold finish_tx. destruct (tx_get tx t) as [st|] eqn:E; [|lia].
  pose proof (patience_set tx t st (TFinished (eventual st)) E) as H. cbn [pat] in H. lia.
Qed.

Lemma finished_not_wait s ts : finished s = true -> classify true s ts <> Wait.
Proof.
  unfold finished, classify. cbn [negb andb]. intros H.
  destruct (is_pushed s); cbn [orb]; [discriminate|].
  destruct (is_rolled_back s); cbn [orb]; [discriminate|]. cbn [orb] in H. rewrite orb_false_r in H. rewrite H. cbn [andb].
  destruct (ts <? st_commit s) eqn:E; [discriminate|]. apply N.ltb_ge in E.
  assert (E2 : (st_commit s <=? ts) = true) by (apply N.leb_le; exact E). rewrite E2. discriminate.
Qed.

Section MoveTerm.
  Variable Fin : key -> list write.

  Fixpoint p_answered (fuel : nat) (st : world * rsnap) (ops : list pop) : Prop :=
    match ops with
    | [] => True
    | o :: r => (forall k, o = PGet k -> exists a, fst (p_step fuel st o) = Some a) /\ p_answered fuel (snd (p_step fuel st o)) r
    end.

  Lemma p_step_answers fuel st o :
    pinv Fin st -> (patience (w_txns (fst st)) + 2 <= fuel)%nat ->
    (forall k, o = PGet k -> exists a, fst (p_step fuel st o) = Some a) /\
    (patience (w_txns (fst (snd (p_step fuel st o)))) <= patience (w_txns (fst st)))%nat.
  Proof.
    destruct st as [w s]. intros (Hinv & _ & _) Hf. cbn [fst snd] in *. destruct o as [k|ts|t]; cbn [p_step].
    - destruct (rs_lookup s k) as [v|]; [cbn [fst snd]; split; [eauto|lia]|].
      destruct (get_total (rv s) Fin fuel w (rrs s) k Hinv Hf) as (o & w' & rs' & Hg & _ & _ & Hp & _).
      rewrite Hg. cbn [fst snd]. split; [eauto|exact Hp].
    - cbn [fst snd]. split; [intros k Hk; discriminate|lia].
    - cbn [fst snd w_txns]. split; [intros k Hk; discriminate|apply patience_finish].
  Qed.

  Lemma p_program fuel : forall ops st,
    pinv Fin st -> p_env fuel st ops ->
    p_right Fin fuel st ops /\ ((patience (w_txns (fst st)) + 2 <= fuel)%nat -> p_answered fuel st ops).
  Proof.
    induction ops as [|o r IH]; intros st Hinv Henv; cbn [p_right p_answered]; [auto|].
    destruct Henv as [He Hr]. destruct (p_step_correct Fin fuel st o Hinv He) as [Hinv' Hans].
    destruct (IH _ Hinv' Hr) as [IH1 IH2]. split; [split; assumption|].
    intros Hf. destruct (p_step_answers fuel st o Hinv Hf) as [Ha Hp]. split; [exact Ha|apply IH2; lia].
  Qed.
End MoveTerm.

Section MoveTermRT.
  Variable Fin : key -> list write.

  Lemma handle_lock_rt_progress lands ts st k l :
    rinv Fin ts st ->
    store_get_rt (k_get (w_keys (st_w st)) k) ts (st_rs st) (st_cs st) = SLocked l ->
    let st' := handle_lock_rt lands ts st (k, l) in
    (patience (w_txns (st_w st')) <= patience (w_txns (st_w st)))%nat /\
    ((patience (w_txns (st_w st')) < patience (w_txns (st_w st)))%nat \/
     exists o, store_get_rt (k_get (w_keys (st_w st')) k) ts (st_rs st') (st_cs st') = SVal o).
  Proof.
    intros ((Htx & _) & _) Hs. unfold handle_lock_rt.
    pose proof (probe_progress (w_txns (st_w st)) (l_start l) ts Htx) as Hp.
    destruct (probe (w_txns (st_w st)) (l_start l)) as [tx' s]. destruct Hp as [Hp1 Hp2].
    set (keys' := if lands && finished s then k_set (w_keys (st_w st)) k (resolve_ks tx' (k_get (w_keys (st_w st)) k)) else w_keys (st_w st)).
    assert (Hl : ks_lock (k_get (w_keys (st_w st)) k) = Some l /\ memN (l_start l) (st_cs st) = false).
    { unfold store_get_rt in Hs. destruct (ks_lock (k_get (w_keys (st_w st)) k)) as [l0|]; [|discriminate].
      destruct (memN (l_start l0) (st_cs st)) eqn:Em; [destruct (l_kind l0); discriminate|].
      destruct (blocks l0 ts (st_rs st)); inversion Hs; subst. auto. }
    destruct Hl as [Hl Hm].
    assert (Hk : ks_lock (k_get keys' k) = None \/ k_get keys' k = k_get (w_keys (st_w st)) k)
      by (destruct (proj1 (k_get_resolved (lands && finished s) tx' (w_keys (st_w st)) k) k); auto).
    assert (Hres : forall rs' cs', ks_lock (k_get keys' k) = None -> exists o, store_get_rt (k_get keys' k) ts rs' cs' = SVal o).
    { intros rs' cs' Hn. unfold store_get_rt. rewrite Hn. eauto. }
    destruct (classify true s ts) eqn:Ec; cbn [st_w st_rs st_cs w_txns w_keys]; (split; [exact Hp1|]).
    - right. destruct Hk as [Hk|Hk]; [apply Hres; exact Hk|]. rewrite Hk. unfold store_get_rt. rewrite Hl, Hm, blocks_ignored. eauto.
    - right. destruct Hk as [Hk|Hk]; [apply Hres; exact Hk|]. rewrite Hk. unfold store_get_rt. rewrite Hl.
      unfold memN. cbn [existsb]. rewrite N.eqb_refl. cbn [orb]. destruct (l_kind l); eauto.
    - destruct Hp2 as [Hp2|[Hp2|Hp2]]; [left; exact Hp2| |congruence].
      exfalso. exact (finished_not_wait s ts Hp2 Ec).
  Qed.

  Lemma get_rt_terminates ts lands : forall fuel i st k,
    rinv Fin ts st -> (patience (w_txns (st_w st)) + 2 <= fuel)%nat ->
    (exists o, fst (get_rt fuel lands i st ts k) = Some o) /\
    (patience (w_txns (st_w (snd (get_rt fuel lands i st ts k)))) <= patience (w_txns (st_w st)))%nat.
  Proof.
    induction fuel as [|f IH]; intros i st k Hinv Hf; [lia|]. cbn [get_rt].
    destruct (store_get_rt (k_get (w_keys (st_w st)) k) ts (st_rs st) (st_cs st)) as [o|l] eqn:Es.
    - cbn [fst snd]. split; [eauto|lia].
    - pose proof (handle_lock_rt_inv Fin (lands i) ts st k l Hinv) as Hinv'.
      destruct (handle_lock_rt_progress (lands i) ts st k l Hinv Es) as [Hp [Hlt|[o Ho]]].
      + destruct (IH (S i) _ k Hinv') as [H1 H2]; [lia|]. split; [exact H1|lia].
      + destruct f as [|f']; [lia|]. cbn [get_rt]. rewrite Ho. cbn [fst snd]. split; [eauto|exact Hp].
  Qed.

  Fixpoint q_answered (fuel : nat) (lands : nat -> bool) (st : N * rstate) (ops : list pop) : Prop :=
    match ops with
    | [] => True
    | o :: r => (forall k, o = PGet k -> exists a, fst (q_step fuel lands (fst st) (snd st) o) = Some a)
                /\ q_answered fuel lands (snd (q_step fuel lands (fst st) (snd st) o)) r
    end.

  Lemma q_step_answers fuel lands ver st o :
    rinv Fin ver st -> (patience (w_txns (st_w st)) + 2 <= fuel)%nat ->
    (forall k, o = PGet k -> exists a, fst (q_step fuel lands ver st o) = Some a) /\
    (patience (w_txns (st_w (snd (snd (q_step fuel lands ver st o))))) <= patience (w_txns (st_w st)))%nat.
  Proof.
    intros Hinv Hf. destruct o as [k|ts|t]; cbn [q_step].
    - destruct (get_rt_terminates ver lands fuel 0%nat st k Hinv Hf) as [[a Ha] Hp].
      destruct (get_rt fuel lands 0 st ver k) as [a' st'] eqn:Eg. cbn [fst snd] in *. split; [intros k' _; eauto|exact Hp].
    - cbn [fst snd st_w]. split; [intros k Hk; discriminate|lia].
    - cbn [fst snd st_w w_txns]. split; [intros k Hk; discriminate|apply patience_finish].
  Qed.

  Lemma q_program fuel lands : forall ops st,
    rinv Fin (fst st) (snd st) -> q_envs fuel lands st ops ->
    q_right Fin fuel lands st ops /\
    ((patience (w_txns (st_w (snd st))) + 2 <= fuel)%nat -> q_answered fuel lands st ops).
  Proof.
    induction ops as [|o r IH]; intros st Hinv Henv; cbn [q_right q_answered]; [auto|].
    destruct Henv as [He Hr]. destruct (q_step_correct Fin fuel lands st o Hinv He) as [Hinv' Hans].
    destruct (IH _ Hinv' Hr) as [IH1 IH2]. split; [split; assumption|].
    intros Hf. destruct (q_step_answers fuel lands (fst st) (snd st) o Hinv Hf) as [Ha Hp]. split; [exact Ha|apply IH2; lia].
  Qed.
End MoveTermRT.
