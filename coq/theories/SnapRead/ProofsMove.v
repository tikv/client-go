(* SnapRead/ProofsMove.v — programs of Get / SetSnapshotTS (both directions) / lock-state changes on
   ONE snapshot object that remembers which transactions it ignores: every answer is read_at at the
   version current at that moment. *)
From Verif Require Import Base.Lex SnapRead.Model SnapRead.ModelRead SnapRead.ProofsCache SnapRead.ProofsRead.

Lemma finish_tx_spec tx t ts : txs_ok tx ts ->
  (forall t', tx_fin (finish_tx tx t) t' = tx_fin tx t') /\ txs_ok (finish_tx tx t) ts.
Proof.
  intros Hok. unfold finish_tx. destruct (tx_get tx t) as [st|] eqn:E; [|auto].
  apply (tx_set_same tx t st); [exact Hok|exact E|reflexivity|discriminate].
Qed.

(* the two events between reads: the owner finishes a transaction; the snapshot moves to another
   timestamp (and forgets whom it ignored) *)
Lemma inv_finish ts Fin w rs t :
  inv ts Fin (w, rs) -> inv ts Fin (mkWorld (w_keys w) (finish_tx (w_txns w) t), rs).
Proof.
  intros (Htx & Hrs & Hf). destruct (finish_tx_spec (w_txns w) t ts Htx) as [Hfin Htx'].
  split; [exact Htx'|]. cbn [w_txns w_keys]. split.
  - intros t' Ht'. rewrite Hfin. apply Hrs. exact Ht'.
  - intros k. rewrite <- (Hf k). apply final_ws_ext. exact Hfin.
Qed.

Lemma inv_move ts ts' Fin w rs : inv ts Fin (w, rs) -> txs_ok (w_txns w) ts' -> inv ts' Fin (w, []).
Proof. intros (_ & _ & Hf) Htx. split; [exact Htx|]. split; [intros t []|exact Hf]. Qed.

Section Move.
  Variable Fin : key -> list write.

  Definition pinv (st : world * rsnap) : Prop :=
    inv (rv (snd st)) Fin (fst st, rrs (snd st)) /\
    (forall k v, rs_lookup (snd st) k = Some v -> opt_of v = norm (vis (Fin k) (rv (snd st)))) /\
    (rv (snd st) = maxts -> rcache (snd st) = None).

  (* environment assumption at a timestamp move: the transactions that are still alive and pushable
     can only commit above the NEW timestamp *)
  Definition step_env (st : world * rsnap) (o : pop) : Prop :=
    match o with PSetTS ts => txs_ok (w_txns (fst st)) ts | _ => True end.

  Lemma p_step_correct fuel st o :
    pinv st -> step_env st o ->
    pinv (snd (p_step fuel st o)) /\
    (forall k a, o = PGet k -> fst (p_step fuel st o) = Some a -> a = norm (vis (Fin k) (rv (snd st)))).
  Proof.
    destruct st as [w s]. intros (Hinv & Hc & Hm) Henv. cbn [fst snd] in *. destruct o as [k|ts|t]; cbn [p_step].
    - destruct (rs_lookup s k) as [v|] eqn:El.
      + cbn [fst snd]. split; [split; [exact Hinv|split; assumption]|]. intros k' a Hk Ha. inversion Hk; subst k'. inversion Ha. apply Hc. exact El.
      + pose proof (get_spec (rv s) Fin fuel w (rrs s) k Hinv) as Hg.
        destruct (get fuel w (rrs s) (rv s) k) as [[[o|] w'] rs']; destruct Hg as [Hinv' Ho]; cbn [fst snd].
        * specialize (Ho o eq_refl). split.
          -- split; [exact Hinv'|]. cbn [rv rcache rs_lookup]. destruct (rv s =? maxts) eqn:Emx.
             ++ split; [exact Hc|exact Hm].
             ++ split; [|intros Hx; apply N.eqb_neq in Emx; exfalso; apply Emx; exact Hx].
                intros k' v. unfold rs_lookup. cbn [fst snd rv rcache c_lookup]. destruct (keqb k k') eqn:Ek.
                ** apply keqb_eq in Ek. subst k'. intros Hv. injection Hv as <-. cbn [snd rv]. rewrite opt_val_norm, Ho. reflexivity.
                ** intros Hv. apply Hc. unfold rs_lookup. destruct (rcache s); [exact Hv|discriminate].
          -- intros k' a Hk Ha. inversion Hk; subst k'. inversion Ha. rewrite Ho. reflexivity.
        * split; [split; [exact Hinv'|split; assumption]|]. intros k' a _ Ha. discriminate.
    - cbn [fst snd rv rrs rcache]. split; [|intros k a Hk; discriminate].
      split; [exact (inv_move _ _ _ _ _ Hinv Henv)|]. split; [intros k v Hv; discriminate|reflexivity].
    - cbn [fst snd]. split; [|intros k a Hk; discriminate].
      split; [apply inv_finish; exact Hinv|split; assumption].
  Qed.

  (* the environment assumption at each move of a program; every answer of a program is right *)
  Fixpoint p_env (fuel : nat) (st : world * rsnap) (ops : list pop) : Prop :=
    match ops with [] => True | o :: r => step_env st o /\ p_env fuel (snd (p_step fuel st o)) r end.
  Fixpoint p_right (fuel : nat) (st : world * rsnap) (ops : list pop) : Prop :=
    match ops with
    | [] => True
    | o :: r => (forall k a, o = PGet k -> fst (p_step fuel st o) = Some a -> a = norm (vis (Fin k) (rv (snd st))))
                /\ p_right fuel (snd (p_step fuel st o)) r
    end.

End Move.
