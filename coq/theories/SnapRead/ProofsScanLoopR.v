(* SnapRead/ProofsScanLoopR.v — the input of F08b as an example: a reverse scan from the end of the key space
   over three regions. *)
From Verif Require Import Base.Lex SnapRead.Model.

(* keys a..h (one committed Put each), regions split at "c" and "f", IterReverse(nil, nil), batch 256:
   all eight keys come back (before 0dbaf7e LocateEndKey("") returned the first region: only b, a). *)
Definition w_keys8 : list key := [[97]; [98]; [99]; [100]; [101]; [102]; [103]; [104]].
Definition w_truth : truth := map (fun k => (k, [(5, Put [118])])) w_keys8.
Definition w_layout : layout := [[99]; [102]].

Lemma reverse_unbounded_regression :
  scan (length w_layout + length w_truth + 2) 256 false 10 w_truth (fun _ => None) (fun _ => w_layout) (fun _ => []) [] [] true
    = Done (rev (expected 10 [] [] w_truth))
  /\ length (expected 10 [] [] w_truth) = 8%nat.
Proof. split; vm_compute; reflexivity. Qed.
