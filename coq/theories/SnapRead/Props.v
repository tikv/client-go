(* SnapRead/Props.v — theorems for C05 (snapshot reads are stable and identical across all access paths). *)
From Verif Require Import Base.Lex SnapRead.Model SnapRead.ModelRead SnapRead.ProofsScanLoop
  SnapRead.ProofsScanLoopR SnapRead.ProofsCache SnapRead.ProofsRead SnapRead.ProofsTerm SnapRead.ProofsMove
  SnapRead.ProofsReadThrough SnapRead.ProofsMoveTerm SnapRead.ProofsTop.

(* For every truth (ascending keys), every snapshot ts, all bounds (empty = unbounded; even lo > hi),
   every batch size (0 and 1 are replaced by the default, sizes above 2^32-1 are capped, as in newScanner), key-only or not, EVERY
   sequence of region layouts (one per getData call, split points drawn from a finite set P) and
   EVERY sequence of lock sets met by the scan requests, EVERY schedule of retries (region errors and
   response-level lock errors: RPCs that leave the cursor where it is) with at most R retries: the scan
   terminates within |P| + |T| + 2 + R scan RPCs without panic and its concatenated output is exactly
   [(k,v) | in_range lo hi k, read_at ts k = Some v], ascending (descending for reverse) — so no
   key is repeated or skipped.  Under key-only the keys are compared (canon).
   Reverse scans from the end of the key space (hi = []) are covered for every layout sequence
   (LocateEndKey("") returns the last region, 0dbaf7e; F08b). *)
Theorem C05_scan_complete :
  forall (T : truth) (ts : N) (lo hi : key) (B : nat) (ko rv : bool)
         (retry : nat -> option retry_kind) (R : nat) (lay : nat -> layout) (lk : nat -> list key) (P : list key),
    tsorted T -> (forall i, incl (lay i) P) -> bounded_retry retry 0 R ->
    (rv = true -> forall e, In e T -> fst e <> []) ->
    exists out,
      scan (length P + length T + 2 + R) B ko ts T retry lay lk lo hi rv = Done out /\
      map (canon ko) out = map (canon ko) (if rv then rev (expected ts lo hi T) else expected ts lo hi T).
Proof.
  exact (fun T ts lo hi B ko rv retry R lay lk P HT Hlay Hb Hnn =>
           scan_complete T ts lo hi B ko rv retry R lay lk P _ HT Hlay Hb Hnn (le_n _)).
Qed.
Print Assumptions C05_scan_complete.

(* get / batch get / scan / reverse scan all equal read_at on the final truth of the world
   (committed writes plus what the leftover locks of committed transactions will become),
   whatever locks are met, whatever region errors / re-splits happen: for EVERY fuel an answer that
   comes back is right (the total statement with the fuel bound is C05_reads_total; the scans are total here). *)
Theorem C05_paths_agree :
  forall (w : world) (ts : N),
    txs_ok (w_txns w) ts ->
    let T := final_truth w in
    (forall fuel k o w' rs', get fuel w [] ts k = (Some o, w', rs') -> o = read_at ts k T) /\
    (forall fuel ev L0 keys res w' rs',
        batch_get fuel ev L0 w ts keys = (Some res, w', rs') ->
        forall k v, In (k, v) res <-> In k keys /\ read_at ts k T = Some v) /\
    (tsorted T -> forall lo hi B ko retry R lay lk P, (forall i, incl (lay i) P) -> bounded_retry retry 0 R ->
        exists out, scan (length P + length T + 2 + R) B ko ts T retry lay lk lo hi false = Done out /\
                    map (canon ko) out = map (canon ko) (expected ts lo hi T)) /\
    (tsorted T -> (forall e, In e T -> fst e <> []) ->
        forall lo hi B ko retry R lay lk P, (forall i, incl (lay i) P) -> bounded_retry retry 0 R ->
        exists out, scan (length P + length T + 2 + R) B ko ts T retry lay lk lo hi true = Done out /\
                    map (canon ko) out = map (canon ko) (rev (expected ts lo hi T))).
Proof.
  exact (fun w ts Htx =>
    conj (get_right w ts Htx) (conj (batch_get_right w ts Htx)
      (conj (fun HT lo hi B ko retry R lay lk P Hlay Hb =>
               C05_scan_complete _ ts lo hi B ko false retry R lay lk P HT Hlay Hb (fun H => match diff_false_true H with end))
            (fun HT Hnn lo hi B ko retry R lay lk P Hlay Hb =>
               C05_scan_complete _ ts lo hi B ko true retry R lay lk P HT Hlay Hb (fun _ => Hnn))))).
Qed.
Print Assumptions C05_paths_agree.

(* Termination of the two fuelled read loops.  Environment assumption (part of the world): a live
   transaction answers "alive" to finitely many status checks (TAlive n) and is finished afterwards,
   or its min commit ts can be pushed; [patience] is the total number of such waiting rounds.  The
   region-error schedule contains at most E errors.  get needs patience + 2 rounds; batch get needs
   E * (2|keys| + 1) + patience + 2|keys| + 1. *)
Theorem C05_reads_terminate :
  forall (w : world) (ts : N),
    txs_ok (w_txns w) ts ->
    (forall fuel k, (patience (w_txns w) + 2 <= fuel)%nat ->
        exists o w' rs', get fuel w [] ts k = (Some o, w', rs')) /\
    (forall fuel ev L0 keys E, bounded_errs ev 0 E ->
        (E * (2 * length keys + 1) + patience (w_txns w) + 2 * length keys < fuel)%nat ->
        exists res w' rs', batch_get fuel ev L0 w ts keys = (Some res, w', rs')).
Proof.
  exact (fun w ts Htx =>
    conj (fun fuel k Hf => ex3_left (get_answers w ts Htx fuel k Hf))
         (fun fuel ev L0 keys E He Hf => ex3_left (batch_get_answers w ts Htx fuel ev L0 keys E He Hf))).
Qed.
Print Assumptions C05_reads_terminate.

(* Every point read returns and returns the truth: under the environment assumption of
   C05_reads_terminate (finitely many waiting rounds = patience; at most E region errors and
   whole-batch lock answers in the schedule) get and batch get END with an answer within the stated
   fuel, and the answer is read_at on the final truth — whatever locks are met, whatever re-splits and
   whole-batch lock answers happen. *)
Theorem C05_reads_total :
  forall (w : world) (ts : N),
    txs_ok (w_txns w) ts ->
    let T := final_truth w in
    (forall fuel k, (patience (w_txns w) + 2 <= fuel)%nat ->
        exists o w' rs', get fuel w [] ts k = (Some o, w', rs') /\ o = read_at ts k T) /\
    (forall fuel ev L0 keys E, bounded_errs ev 0 E ->
        (E * (2 * length keys + 1) + patience (w_txns w) + 2 * length keys < fuel)%nat ->
        exists res w' rs', batch_get fuel ev L0 w ts keys = (Some res, w', rs') /\
                           forall k v, In (k, v) res <-> In k keys /\ read_at ts k T = Some v).
Proof. exact (fun w ts Htx => conj (get_answers w ts Htx) (batch_get_answers w ts Htx)). Qed.
Print Assumptions C05_reads_total.

(* The tiers of BatchGetWithTier.  Buffer tier of a pipelined transaction [own]: the call returns
   (total, within E*(|keys|+1)+|keys|+1 rounds for a schedule with at most E region errors) exactly the
   pairs (k, flushed value) — the empty value for a flushed delete — of the requested keys on which
   [own] holds a lock, for every region-error / re-split schedule; it does not depend on the committed
   data of the key (the snapshot tier is never consulted for a flushed key); and the snapshot tier of
   the same reader (own start ts in the ignored set, SetPipelined) never blocks on an own lock: it
   reads the committed data below it.  Together with C05_reads_total: every tier returns and returns
   its truth. *)
Theorem C05_tiers_agree :
  forall (w : world) (own : N),
    (forall fuel ev L0 keys E, bounded_errs ev 0 E ->
        (E * (length keys + 1) + length keys < fuel)%nat ->
        exists res, buffer_batch_get fuel ev L0 w own keys = Some res /\
                    forall k v, In (k, v) res <-> In k keys /\ buf_val own (k_get (w_keys w) k) = Some v) /\
    (forall ws ws' ol, buf_val own (mkKs ws ol) = buf_val own (mkKs ws' ol)) /\
    (forall ts rs s l, ks_lock s = Some l -> l_start l = own ->
        store_get s ts (own :: rs) = SVal (vis (ks_ws s) ts)).
Proof.
  exact (fun w own =>
    conj (buffer_batch_get_answers w own)
         (conj (fun _ _ _ => eq_refl) (own_lock_skipped own))).
Qed.
Print Assumptions C05_tiers_agree.

(* The scanner composed with the point get, over the world: the rows of every scan RPC are what the
   world serves at that moment (a blocking lock answers "locked", without a value), a locked pair is
   resolved by the point get of the same snapshot (resolveCurrentLock -> snapshot.get: status checks,
   classification, lock resolution, the shared ignored set — all of it changing the world for the later
   RPCs), region layouts change between the RPCs, RPCs are retried.  For every world with a sane
   transaction table, every layout sequence, every retry schedule with at most R retries: the scan ends
   within |P| + |T| + 2 + R scan RPCs (each point get within patience + 2 rounds) and returns exactly the
   specification on the final truth, in both directions. *)
Theorem C05_world_scan :
  forall (w : world) (ts : N) (lo hi : key) (B gfuel : nat) (ko rv : bool)
         (retry : nat -> option retry_kind) (R : nat) (lay : nat -> layout) (P : list key),
    txs_ok (w_txns w) ts ->
    let T := final_truth w in
    tsorted T -> (forall i, incl (lay i) P) -> bounded_retry retry 0 R ->
    (patience (w_txns w) + 2 <= gfuel)%nat ->
    (rv = true -> forall e, In e T -> fst e <> []) ->
    exists out,
      wscan (length P + length T + 2 + R) gfuel B ko ts w retry lay lo hi rv = Done out /\
      map (canon ko) out = map (canon ko) (if rv then rev (expected ts lo hi T) else expected ts lo hi T).
Proof.
  exact (fun w ts lo hi B gfuel ko rv retry R lay P Htx HT Hlay Hb Hg Hnn =>
           world_scan_complete w ts lo hi B gfuel ko rv retry R lay P _ Htx HT Hlay Hb Hg Hnn (le_n _)).
Qed.
Print Assumptions C05_world_scan.

(* resolveLocks' decision: Ignore only if rolled back, committed above the caller's ts, or min
   commit ts pushed; Access only if committed at or below ts; a finished transaction is never
   waited for; the store ignores locks with start > ts and pessimistic / lock-only locks. *)
Theorem C05_classify_sound :
  forall (for_read : bool) (s : txn_status) (ts : N),
    (classify for_read s ts = Ignore ->
       is_rolled_back s = true \/ (is_committed s = true /\ ts < st_commit s) \/ is_pushed s = true) /\
    (classify for_read s ts = Access -> is_committed s = true /\ st_commit s <= ts) /\
    ((is_rolled_back s = true \/ (is_committed s = true /\ st_ttl s = 0)) -> classify for_read s ts <> Wait) /\
    (forall l rs, ts < l_start l -> blocks l ts rs = false) /\
    (forall l rs, l_kind l = LPess \/ l_kind l = LLock -> blocks l ts rs = false).
Proof. exact classify_sound. Qed.
Print Assumptions C05_classify_sound.

(* any interleaving of Get / BatchGet / SetSnapshotTS — including calls that FAIL after part of their
   keys were read, and calls refused by the transaction safe point [sp] (CheckVisibility) — on a
   snapshot with the cache returns what the same program returns without a cache; a failed call leaves
   the snapshot (cache and version) exactly as it was; a read refused by the safe point caches nothing
   and stays refused on every re-read (Get, and BatchGet of a non-empty key list) whatever ran before on
   that snapshot object; nothing is cached while the version is the max timestamp *)
Theorem C05_cache_transparent :
  forall (rd : N -> key -> option value) (sp : N) (ops : list cop) (ts : N),
    c_run rd sp (mkSnap ts None) ops = u_run rd sp ts ops /\
    (version (c_final rd sp (mkSnap ts None) ops) = maxts -> cached (c_final rd sp (mkSnap ts None) ops) = None) /\
    (forall s k, c_step rd sp s (CGetErr k) = (RErr, s)) /\
    (forall s ks got, c_step rd sp s (CBatchErr ks got) = (RErr, s)) /\
    (let s := c_final rd sp (mkSnap ts None) ops in
     version s < sp ->
     (forall k, c_step rd sp s (CGet k) = (RRefused, s)) /\
     (forall ks, ks <> [] -> c_step rd sp s (CBatchGet ks) = (RRefused, s))).
Proof.
  exact (fun rd sp ops ts =>
    let (Hrun, Hok) := cache_transparent rd sp ops _ (fresh_ok rd sp ts) in
    conj Hrun (conj (proj2 Hok) (conj (fun _ _ => eq_refl) (conj (fun _ _ _ => eq_refl) (refused_stays rd sp _ Hok))))).
Qed.
Print Assumptions C05_cache_transparent.

(* One snapshot object that remembers which transactions it ignores (resolvedLocks), read by a
   program of Gets interleaved with SetSnapshotTS in BOTH directions and with lock-state changes (the
   owner of a transaction finishes it): every answer is read_at, at the version current at that
   moment, on the final truth.  SetSnapshotTS clears the cache and the ignored set on every call;
   environment assumption at a move (p_env): transactions still alive and pushable can only commit
   above the new timestamp.  Second half (so that the statement is not vacuous for small fuel): with
   fuel >= patience + 2 (patience = the waiting rounds the live transactions impose) EVERY Get of the
   program returns an answer. *)
Theorem C05_ts_moves :
  forall (w : world) (ts : N) (fuel : nat) (ops : list pop),
    txs_ok (w_txns w) ts ->
    let Fin := fun k => final_ws (w_txns w) (k_get (w_keys w) k) in
    let st := (w, mkRS ts None []) in
    p_env fuel st ops ->
    p_right Fin fuel st ops /\
    ((patience (w_txns w) + 2 <= fuel)%nat -> p_answered fuel st ops).
Proof. exact (fun w ts fuel ops Htx => p_program _ fuel ops _ (pinv_start w ts Htx)). Qed.
Print Assumptions C05_ts_moves.

(* The same over a store that honours committed_locks (TiKV, unistore: a lock whose transaction the
   request names as committed is read THROUGH), with the asynchronous lock resolution of a read landing
   or not ([lands], arbitrary): the snapshot object carries the ignored set AND the committed set; both
   are statements about one timestamp and SetSnapshotTS drops both.  Every answer of every program of
   Get / SetSnapshotTS (forward and BACKWARD) / finish events is read_at at the current version.
   (F44, fixed by b0ee5eb: the code kept the committed set across SetSnapshotTS; after a backward move below the
   commit ts the value of the not yet committed-at-that-ts transaction was read — ex_backward_move.)
   Second half: with fuel >= patience + 2 every Get returns an answer, whether the resolutions land or not. *)
Theorem C05_ts_moves_read_through :
  forall (w : world) (ts : N) (fuel : nat) (lands : nat -> bool) (ops : list pop),
    txs_ok (w_txns w) ts -> lock_fresh w ->
    let Fin := fun k => final_ws (w_txns w) (k_get (w_keys w) k) in
    let st := (ts, mkRst w [] []) in
    q_envs fuel lands st ops ->
    q_right Fin fuel lands st ops /\
    ((patience (w_txns w) + 2 <= fuel)%nat -> q_answered fuel lands st ops).
Proof. exact (fun w ts fuel lands ops Htx Hfr => q_program _ fuel lands ops (ts, _) (rinv_start w ts Htx Hfr)). Qed.
Print Assumptions C05_ts_moves_read_through.

(* ---------------------------------------------------------------- non-vacuity *)
(* ex_world (ProofsTop.v): a world with every kind of leftover lock; ts = 50 *)
Example ex_world_ok : txs_ok (w_txns ex_world) 50.
Proof.
  cbn [ex_world w_txns].
  repeat (apply txs_ok_cons; [intros c H; inversion H; lia|intros f H; inversion H; cbn; lia|]).
  intros t st H. discriminate.
Qed.

Example ex_get_terminates :
  map (fun k => fst (fst (get 10 ex_world [] 50 k))) [[97]; [98]; [99]; [100]; [101]; [102]; [103]]
  = [Some (Some [2]); Some (Some [3]); Some None; Some (Some [5]); Some (Some [6]); Some (Some [8]); Some None].
Proof. vm_compute. reflexivity. Qed.

Example ex_batch_get_value :
  match fst (fst (batch_get 20 (fun i => if Nat.eqb i 1 then EvRegionErr [[99]; [101]] else EvOk) [[100]] ex_world 50
                      [[97]; [98]; [99]; [100]; [101]; [102]; [103]])) with
  | Some res => length res = 5%nat
  | None => False
  end.
Proof. vm_compute. reflexivity. Qed.

(* a scan over 3 layouts that change between the calls, with a lock met in the second call *)
Example ex_scan_splits :
  scan 14 2 false 10 w_truth (fun i => match i with 1%nat => Some RetryRegionError | 3%nat => Some RetryRespLocked | _ => None end) (fun i => match i with O => [[99]; [102]] | 1%nat => [[100]] | _ => [] end)
       (fun i => match i with 1%nat => [[100]] | _ => [] end) [98] [103] false
  = Done [([98], [118]); ([99], [118]); ([100], [118]); ([101], [118]); ([102], [118])].
Proof. vm_compute. reflexivity. Qed.

(* the input of F08b (ProofsScanLoopR.v): all of a..h in descending order *)
Example ex_reverse_unbounded_three_regions :
  scan 12 256 false 10 w_truth (fun _ => None) (fun _ => w_layout) (fun _ => []) [] [] true
  = Done [([104], [118]); ([103], [118]); ([102], [118]); ([101], [118]); ([100], [118]); ([99], [118]); ([98], [118]); ([97], [118])].
Proof. vm_compute. reflexivity. Qed.

Example ex_reverse_bounded :
  scan 12 3 false 10 w_truth (fun _ => None) (fun _ => w_layout) (fun _ => []) [99] [104] true
  = Done [([103], [118]); ([102], [118]); ([101], [118]); ([100], [118]); ([99], [118])].
Proof. vm_compute. reflexivity. Qed.

Example ex_cache :
  c_run (fun ts k => if ts <? 20 then Some [1] else None) 0 (mkSnap 10 None)
        [CGet [97]; CBatchErr [[97]; [98]] [[98]]; CGet [98]; CSetTS 30; CGet [97]; CSetTS maxts; CGet [97]]
  = [RGet (Some [1]); RErr; RGet (Some [1]); RUnit; RGet None; RUnit; RGet None].
Proof. vm_compute. reflexivity. Qed.

(* reader at ts 50 meets the pushable transaction 48 (key f) and ignores it; the owner commits it at 80;
   the SAME snapshot moved forward to 100 must see the new value (the ignored set is dropped), moved
   back to 50 the old one *)
Example ex_forward_move :
  let run := fix run (st : world * rsnap) (ops : list pop) : list (option (option value)) :=
               match ops with [] => [] | o :: r => let '(a, st') := p_step 10 st o in a :: run st' r end in
  run (ex_world, mkRS 50 None []) [PGet [102]; PFinish 48; PSetTS 100; PGet [102]; PSetTS 50; PGet [102]]
  = [Some (Some [8]); None; None; Some (Some [9]); None; Some (Some [8])].
Proof. vm_compute. reflexivity. Qed.

(* transaction 48 (pushable, own) holds a Put lock on f; 70 holds one on e; the buffer tier of 48 returns
   only f with the flushed value, whatever is committed below; a region error re-splits *)
Example ex_buffer_tier :
  buffer_batch_get 10 (fun i => if Nat.eqb i 0 then EvRegionErr [[101]] else EvOk) [] ex_world 48 [[97]; [101]; [102]; [103]]
  = Some [([102], [9])].
Proof. vm_compute. reflexivity. Qed.

(* safe point 15: reads at version 10 are refused and stay refused; after moving to 30 they are served *)
Example ex_refused :
  c_run (fun ts k => Some [1]) 15 (mkSnap 10 None)
        [CGet [97]; CGet [97]; CBatchGet [[97]; [98]]; CSetTS 30; CGet [97]; CBatchGet [[97]]]
  = [RRefused; RRefused; RRefused; RUnit; RGet (Some [1]); RBatch [([97], Some [1])]].
Proof. vm_compute. reflexivity. Qed.

(* the scanner over ex_world at ts 50: a (secondary of a transaction committed at 30) and c (a live
   transaction that commits at 60 after two more status checks) answer "locked" and are resolved by point
   gets, b's lock is rolled back, d's pessimistic and e's later lock never block, f's pushable lock is
   ignored; regions change between the RPCs and the second RPC is retried *)
Example ex_world_scan :
  wscan 12 10 2 false 50 ex_world (fun i => if Nat.eqb i 1 then Some RetryRespLocked else None)
        (fun i => if Nat.eqb i 0 then [[99]] else [[100]; [102]]) [] [] false
  = Done [([97], [2]); ([98], [3]); ([100], [5]); ([101], [6]); ([102], [8])]
  /\ wscan 12 10 3 false 50 ex_world (fun _ => None) (fun _ => [[100]]) [98] [] true
  = Done [([102], [8]); ([101], [6]); ([100], [5]); ([98], [3])].
Proof. split; vm_compute; reflexivity. Qed.

(* key a carries the secondary lock of transaction 20, committed at 30, below it the value [1] committed at
   10; the resolution never lands.  At 50 the reader sees 20 committed and reads through: [2].  Moved BACK
   to 25 (below the commit) it must answer [1]; moved forward again [2].  The second run is what the code
   did before b0ee5eb (the committed set survives the move): it answers [2] at 25. *)
Example ex_backward_move :
  let run := fix run (ver : N) (st : rstate) (ops : list pop) : list (option (option value)) :=
               match ops with [] => [] | o :: r => let '(a, (ver', st')) := q_step 10 (fun _ => false) ver st o in a :: run ver' st' r end in
  let leaky := fix leaky (ver : N) (st : rstate) (ops : list pop) : list (option (option value)) :=
               match ops with
               | [] => []
               | PSetTS ts :: r => None :: leaky ts (mkRst (st_w st) [] (st_cs st)) r
               | o :: r => let '(a, (ver', st')) := q_step 10 (fun _ => false) ver st o in a :: leaky ver' st' r
               end in
  run 50 (mkRst ex_world [] []) [PGet [97]; PSetTS 25; PGet [97]; PSetTS 50; PGet [97]]
    = [Some (Some [2]); None; Some (Some [1]); None; Some (Some [2])]
  /\ leaky 50 (mkRst ex_world [] []) [PGet [97]; PSetTS 25; PGet [97]]
    = [Some (Some [2]); None; Some (Some [2])].
Proof. split; vm_compute; reflexivity. Qed.

Example ex_world_lock_fresh : lock_fresh ex_world.
Proof.
  apply lock_fresh_keys. repeat (constructor; [intros l H; inversion H; repeat constructor|]). constructor.
Qed.
