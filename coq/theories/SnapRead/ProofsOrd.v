(* SnapRead/ProofsOrd.v — the lexicographic order on keys as a total order (with the [order]
   tactic), the successor law of kv.NextKey, bounds. *)
From Coq Require Import Orders OrdersTac.
From Verif Require Import Base.Lex SnapRead.Model.

Lemma kltb_irrefl a : kltb a a = false.
Proof. unfold kltb, lex_ltb. rewrite lex_cmp_refl. reflexivity. Qed.

Lemma kltb_trans a b c : kltb a b = true -> kltb b c = true -> kltb a c = true.
Proof.
  unfold kltb. rewrite !lex_ltb_lt. unfold lex_lt. apply lex_cmp_lt_trans.
Qed.

Lemma kltb_total a b : kltb a b = false -> kltb b a = false -> a = b.
Proof.
  unfold kltb, lex_ltb. intros H1 H2. apply lex_cmp_eq.
  rewrite (lex_cmp_antisym a b) in H2.
  destruct (lex_cmp a b); cbn in *; congruence.
Qed.

Lemma kltb_nil a : kltb a [] = false.
Proof. unfold kltb, lex_ltb. destruct a; reflexivity. Qed.

Lemma lex_cmp_next k : lex_cmp k (next_key k) = Lt.
Proof. unfold next_key. induction k as [|x k IH]; cbn; [reflexivity|]. rewrite N.compare_refl. exact IH. Qed.

Lemma lex_cmp_next_least k : forall x, lex_cmp k x = Lt -> lex_cmp x (next_key k) <> Lt.
Proof.
  unfold next_key. induction k as [|a k IH]; intros [|y x]; cbn [lex_cmp app]; try discriminate.
  - intros _. destruct (N.compare y 0) eqn:E; try discriminate.
    + destruct x; discriminate.
    + rewrite N.compare_lt_iff in E. exfalso. lia.
  - rewrite (N.compare_antisym a y). destruct (N.compare a y) eqn:E; cbn [CompOpp]; try discriminate.
    intros H. apply IH. exact H.
Qed.

(* lt / le are stated with Is_true so that they are not equations themselves (the [order]
   tactic treats equations specially) *)
Definition klt (a b : key) : Prop := Is_true (kltb a b).
Definition kle (a b : key) : Prop := Is_true (kleb a b).
Module KeyO <: EqLtLe.
  Definition t := key.
  Definition eq := @Logic.eq key.
  Definition lt := klt.
  Definition le := kle.
End KeyO.

Lemma lt_iff a b : klt a b <-> kltb a b = true.
Proof. unfold klt. destruct (kltb a b); cbn; split; auto; discriminate. Qed.
Lemma le_iff a b : kle a b <-> kltb b a = false.
Proof. unfold kle, kleb, kltb. destruct (lex_ltb b a); cbn; split; auto; try discriminate; intros []. Qed.

Module KeyTO <: IsTotalOrder KeyO.
  Definition eq_equiv : Equivalence KeyO.eq := eq_equivalence.
  Lemma lt_strorder : StrictOrder KeyO.lt.
  Proof.
    split.
    - intros a H. apply lt_iff in H. rewrite kltb_irrefl in H. discriminate.
    - intros a b c H1 H2. apply lt_iff. apply lt_iff in H1. apply lt_iff in H2. eapply kltb_trans; eassumption.
  Qed.
  Lemma lt_compat : Proper (KeyO.eq ==> KeyO.eq ==> iff) KeyO.lt.
  Proof. intros a b Hab c d Hcd. rewrite Hab, Hcd. reflexivity. Qed.
  Lemma le_lteq : forall x y, KeyO.le x y <-> KeyO.lt x y \/ KeyO.eq x y.
  Proof.
    unfold KeyO.eq, KeyO.le, KeyO.lt. intros x y. rewrite le_iff, lt_iff. split.
    - intros H. destruct (kltb x y) eqn:E; [left; reflexivity|right; apply kltb_total; assumption].
    - intros [H| ->]; [|apply kltb_irrefl].
      destruct (kltb y x) eqn:E; [|reflexivity].
      pose proof (kltb_trans _ _ _ H E) as H1. rewrite kltb_irrefl in H1. discriminate.
  Qed.
  Lemma lt_total : forall x y, KeyO.lt x y \/ KeyO.eq x y \/ KeyO.lt y x.
  Proof.
    unfold KeyO.eq, KeyO.lt. intros x y. rewrite !lt_iff.
    destruct (kltb x y) eqn:E1; [left; reflexivity|].
    destruct (kltb y x) eqn:E2; [right; right; reflexivity|].
    right; left. apply kltb_total; assumption.
  Qed.
End KeyTO.

Module KeyOT := MakeOrderTac KeyO KeyTO.

Lemma leb_iff a b : kle a b <-> kleb a b = true.
Proof. unfold kle. destruct (kleb a b); cbn; split; auto; discriminate. Qed.
Lemma gtb_iff a b : klt b a <-> kleb a b = false.
Proof. rewrite lt_iff. unfold kleb, kltb. destruct (lex_ltb b a); cbn; split; congruence. Qed.

Lemma nil_le k : kle [] k.
Proof. apply le_iff. apply kltb_nil. Qed.
Lemma nil_lt k : k <> [] -> klt [] k.
Proof. intros H. pose proof (nil_le k). assert ([] <> k) by congruence. KeyOT.order. Qed.
Lemma next_gt k : klt k (next_key k).
Proof. apply lt_iff. unfold kltb, lex_ltb. rewrite lex_cmp_next. reflexivity. Qed.
Lemma next_least k x : klt k x -> kle (next_key k) x.
Proof.
  rewrite lt_iff, le_iff. unfold kltb, lex_ltb. intros H.
  destruct (lex_cmp k x) eqn:E; try discriminate.
  pose proof (lex_cmp_next_least k x E) as H1.
  destruct (lex_cmp x (next_key k)); congruence.
Qed.
Lemma next_not_nil k : next_key k <> [].
Proof. unfold next_key. destruct k; discriminate. Qed.

(* [kord] decides a comparison between keys from the boolean comparisons in the context: these (and the
   goal) are turned into klt / kle, then the [order] tactic does the rest *)
Ltac kord :=
  repeat match goal with
  | H : kleb _ _ = true |- _ => apply leb_iff in H
  | H : kleb _ _ = false |- _ => apply gtb_iff in H
  | H : kltb _ _ = true |- _ => apply lt_iff in H
  | H : kltb _ _ = false |- _ => apply le_iff in H
  end;
  lazymatch goal with
  | |- kleb _ _ = true => apply leb_iff
  | |- kleb _ _ = false => apply gtb_iff
  | |- kltb _ _ = true => apply lt_iff
  | |- kltb _ _ = false => apply le_iff
  | |- _ => idtac
  end;
  KeyOT.order.

Lemma is_nil_true k : is_nil k = true <-> k = [].
Proof. destruct k; cbn; split; congruence. Qed.
Lemma is_nil_false k : is_nil k = false <-> k <> [].
Proof. destruct k; cbn; split; congruence. Qed.

Lemma below_cons hi k : hi <> [] -> below hi k = kltb k hi.
Proof. destruct hi; [congruence|reflexivity]. Qed.

Lemma below_spec hi k : below hi k = true <-> hi = [] \/ klt k hi.
Proof.
  destruct hi as [|h hi]; [split; auto|]. rewrite below_cons, lt_iff by discriminate.
  split; [auto|intros [H|H]; [discriminate|exact H]].
Qed.

Lemma below_false hi k : below hi k = false <-> hi <> [] /\ kle hi k.
Proof.
  destruct hi as [|h hi]; [split; [discriminate|intros [H _]; congruence]|]. rewrite below_cons, le_iff by discriminate.
  split; [intros H; split; [discriminate|exact H]|intros [_ H]; exact H].
Qed.

Lemma in_range_spec lo hi k : in_range lo hi k = true <-> kle lo k /\ (hi = [] \/ klt k hi).
Proof. unfold in_range. rewrite andb_true_iff, below_spec, leb_iff. reflexivity. Qed.

(* lowering the upper bound of a range to m, raising its lower bound to m *)
Lemma in_range_low lo m hi k : m <> [] -> hi = [] \/ kle m hi -> in_range lo hi k && kltb k m = in_range lo m k.
Proof.
  intros Hm Hhi. unfold in_range. rewrite (below_cons m) by exact Hm.
  destruct (kltb k m) eqn:E; [|rewrite !andb_false_r; reflexivity]. rewrite !andb_true_r.
  assert (Hb : below hi k = true) by (apply below_spec; destruct Hhi; [left; assumption|right; kord]).
  rewrite Hb. apply andb_true_r.
Qed.
Lemma in_range_high lo m hi k : kle lo m -> in_range lo hi k && kleb m k = in_range m hi k.
Proof.
  intros Hlo. unfold in_range. rewrite andb_comm, andb_assoc. f_equal.
  destruct (kleb m k) eqn:E; [|reflexivity]. cbn [andb]. kord.
Qed.
Lemma next_leb x k : kleb (next_key x) k = kltb x k.
Proof.
  pose proof (next_gt x). destruct (kltb x k) eqn:E.
  - assert (kle (next_key x) k) by (apply next_least; kord). kord.
  - kord.
Qed.

Lemma below_min_end a b k : below (min_end a b) k = below a k && below b k.
Proof.
  unfold min_end. destruct a as [|x a]; cbn [is_nil]; [reflexivity|].
  destruct b as [|y b]; cbn [is_nil]; [cbn [below is_nil]; rewrite andb_true_r; reflexivity|].
  destruct (kltb (x :: a) (y :: b)) eqn:E; cbn [below is_nil].
  - destruct (kltb k (x :: a)) eqn:E1; cbn [andb]; [|reflexivity]. symmetry. kord.
  - destruct (kltb k (y :: b)) eqn:E1; cbn [andb].
    + rewrite andb_true_r. symmetry. kord.
    + rewrite andb_false_r. reflexivity.
Qed.
