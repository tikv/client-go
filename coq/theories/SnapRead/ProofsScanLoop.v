(* SnapRead/ProofsScanLoop.v — the iteration as a whole, in either direction: for every sequence of
   layouts / lock sets the concatenated output is the specification, within the stated fuel. *)
From Verif Require Import Base.Lex SnapRead.Model SnapRead.ProofsList SnapRead.ProofsScanStep.

Lemma prepend_done l o out : o = Done out -> prepend l o = Done (l ++ out).
Proof. intros ->. reflexivity. Qed.

Lemma bounded_retry_none retry i E : bounded_retry retry i E -> retry i = None -> bounded_retry retry (S i) E.
Proof. intros H He n. specialize (H (S n)). cbn [count_retry] in H. rewrite He in H. exact H. Qed.
Lemma bounded_retry_some retry i E k : bounded_retry retry i E -> retry i = Some k ->
  exists E', E = S E' /\ bounded_retry retry (S i) E'.
Proof.
  intros H He. destruct E as [|E'].
  - specialize (H 1%nat). cbn [count_retry] in H. rewrite He in H. lia.
  - exists E'. split; [reflexivity|]. intros n. specialize (H (S n)). cbn [count_retry] in H. rewrite He in H. lia.
Qed.

(* what a scan standing at cursor c has yet to deliver, if E lo hi is what the range [lo, hi) delivers *)
Definition spec (E : key -> key -> list (key * value)) (c : cursor) : list (key * value) :=
  if reverse c then rev (E (next_start c) (next_end c)) else E (next_start c) (end_key c).

Lemma emit_todo ko E R c :
  (forall lo hi, map (canon ko) (emit ko (filter (key_in lo hi) R)) = E lo hi) ->
  map (canon ko) (emit ko (todo c R)) = spec E c.
Proof.
  intros H. unfold todo, spec, emit. destruct (reverse c); [rewrite filter_map_rev, map_rev|]; rewrite <- H; reflexivity.
Qed.

(* a step splits what is to be delivered as it splits the rows *)
Lemma spec_split ko E R c c' ps :
  (forall lo hi, map (canon ko) (emit ko (filter (key_in lo hi) R)) = E lo hi) ->
  todo c R = ps ++ (if eof c' then [] else todo c' R) ->
  spec E c = map (canon ko) (emit ko ps) ++ (if eof c' then [] else spec E c').
Proof.
  intros Hind Hs. rewrite <- (emit_todo ko E R c Hind), Hs, emit_app, map_app. f_equal.
  destruct (eof c'); [reflexivity|apply emit_todo; exact Hind].
Qed.

Section Loop.
  Variables (ko : bool) (B : nat) (P U : list key) (retry : nat -> option retry_kind) (env : nat -> layout * rows).
  Variables (rv : bool) (E : key -> key -> list (key * value)).
  Hypothesis HB : (1 <= B)%nat.
  Hypothesis Hsorted : forall i, ksorted (snd (env i)).
  Hypothesis Hnonempty : rv = true -> forall i e, In e (snd (env i)) -> fst e <> [].
  Hypothesis Hlay : forall i, incl (fst (env i)) P.
  Hypothesis Hkeys : forall i e, In e (snd (env i)) -> In (fst e) U.
  (* what is emitted for a key range does not depend on the call (which keys happen to be locked) *)
  Hypothesis Hind : forall i lo hi, map (canon ko) (emit ko (filter (key_in lo hi) (snd (env i)))) = E lo hi.

  Lemma scan_loop_complete : forall fuel i c Rt,
    reverse c = rv -> bounded_retry retry i Rt -> (steps P U c + Rt < fuel)%nat ->
    exists out, scan_loop fuel B ko retry env i c = Done out /\
                map (canon ko) out = if eof c then [] else spec E c.
  Proof.
    induction fuel as [|f IH]; intros i c Rt Hrev Hb Hmu; [lia|].
    cbn [scan_loop]. unfold steps in Hmu. destruct (eof c) eqn:Heof.
    - exists []. split; reflexivity.
    - destruct (retry i) as [k|] eqn:Er.
      { destruct (bounded_retry_some _ _ _ _ Hb Er) as (R' & -> & Hb').
        destruct (IH (S i) c R' Hrev Hb') as (out & H1 & H2); [unfold steps; rewrite Heof; lia|].
        exists out. split; [exact H1|]. rewrite H2, Heof. reflexivity. }
      pose proof (bounded_retry_none _ _ _ Hb Er) as Hb'.
      destruct (scan_step B P U HB (fst (env i)) (snd (env i)) c (Hsorted i)
                  (fun H => Hnonempty (eq_trans (eq_sym Hrev) H) i) Heof (Hlay i) (Hkeys i))
        as (ps & c' & Hgd & Hrev' & Hob & Hsplit & Hdec).
      rewrite Hgd, (consume_in_bound ko c' ps Hob).
      destruct (IH (S i) c' Rt (eq_trans Hrev' Hrev) Hb') as (out' & Hloop & Hout).
      { unfold steps. destruct (eof c'); [lia|]. specialize (Hdec eq_refl). lia. }
      exists (emit ko ps ++ out'). split; [apply prepend_done; exact Hloop|].
      rewrite map_app, Hout. symmetry. exact (spec_split ko E _ c c' ps (Hind i) Hsplit).
  Qed.
End Loop.

Definition tsorted (T : truth) : Prop := ksorted T.

Lemma rows_of_sorted ts T lk : tsorted T -> ksorted (rows_of ts T lk).
Proof.
  apply ksorted_filter_map. intros e x. cbv zeta.
  destruct (read_at ts (fst e) T), (memk (fst e) lk); intros Hx; inversion Hx; reflexivity.
Qed.

Lemma in_rows_of ts T lk x : In x (rows_of ts T lk) ->
  In (fst x) (map fst T) /\ forall o, snd x = Lk o -> o = read_at ts (fst x) T.
Proof.
  intros H. apply in_filter_map in H. destruct H as (e & He & Hx). cbv beta zeta in Hx.
  destruct (read_at ts (fst e) T) eqn:Er, (memk (fst e) lk); inversion Hx; subst; cbn [fst snd];
    (split; [apply in_map; exact He|intros o Ho; inversion Ho; congruence]).
Qed.

Lemma emit_rows_of ko ts T lk Q :
  map (canon ko) (emit ko (filter (fun e => Q (fst e)) (rows_of ts T lk))) = map (canon ko) (expected_q Q ts T).
Proof.
  unfold rows_of, expected_q, emit. rewrite filter_filter_map, filter_map_filter_map, !map_filter_map.
  apply filter_map_ext_in. intros a _.
  destruct (read_at ts (fst a) T), (memk (fst a) lk); cbn [fst]; destruct (Q (fst a)), ko; reflexivity.
Qed.

Lemma norm_batch_pos b : (1 <= norm_batch b)%nat.
Proof.
  unfold norm_batch. destruct (Nat.leb b 1) eqn:E; [lia|]. apply Nat.leb_gt in E.
  destruct (N.of_nat b <? 4294967296); [lia|].
  assert (H : (0 < N.to_nat 4294967295)%nat); [|lia].
  unfold N.to_nat. apply Pos2Nat.is_pos.
Qed.

Lemma rows_of_nonempty ts T lk :
  (forall e, In e T -> fst e <> []) -> forall e, In e (rows_of ts T lk) -> fst e <> [].
Proof.
  intros Hnn e He. apply in_rows_of in He. destruct He as [He _].
  apply in_map_iff in He. destruct He as (a & <- & Ha). exact (Hnn a Ha).
Qed.

Lemma steps_init P (T : truth) lo hi rv : (steps P (map fst T) (init_cursor lo hi rv) <= length P + length T + 1)%nat.
Proof.
  unfold steps. cbn [init_cursor eof]. pose proof (meas_bound P (map fst T) (init_cursor lo hi rv)) as H.
  rewrite map_length in H. lia.
Qed.

Lemma spec_init ko ts T lo hi rv :
  spec (fun a b => map (canon ko) (expected ts a b T)) (init_cursor lo hi rv) =
  map (canon ko) (if rv then rev (expected ts lo hi T) else expected ts lo hi T).
Proof. unfold spec. cbn [init_cursor reverse next_start next_end end_key]. destruct rv; [rewrite map_rev|]; reflexivity. Qed.

Theorem scan_complete T ts lo hi B ko rv retry R lay lk P fuel :
  tsorted T -> (forall i, incl (lay i) P) -> bounded_retry retry 0 R ->
  (rv = true -> forall e, In e T -> fst e <> []) ->
  (length P + length T + 2 + R <= fuel)%nat ->
  exists out,
    scan fuel B ko ts T retry lay lk lo hi rv = Done out /\
    map (canon ko) out = map (canon ko) (if rv then rev (expected ts lo hi T) else expected ts lo hi T).
Proof.
  intros HT Hlay Hb Hrv Hfuel. unfold scan.
  destruct (scan_loop_complete ko (norm_batch B) P (map fst T) retry (scan_env ts T lay lk) rv
              (fun a b => map (canon ko) (expected ts a b T)) (norm_batch_pos B))
    with (fuel := fuel) (i := 0%nat) (c := init_cursor lo hi rv) (Rt := R) as (out & H1 & H2).
  - intros i. apply rows_of_sorted. exact HT.
  - intros Hr i. apply rows_of_nonempty. exact (Hrv Hr).
  - exact Hlay.
  - intros i e He. apply in_rows_of in He. apply He.
  - intros i a b. apply (emit_rows_of ko ts T (lk i) (in_range a b)).
  - reflexivity.
  - exact Hb.
  - pose proof (steps_init P T lo hi rv). lia.
  - exists out. split; [exact H1|]. rewrite H2. apply spec_init.
Qed.
