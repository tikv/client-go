(* SnapRead/ProofsTop.v — the reads of a fresh reader of a world w at ts: it satisfies the read invariant
   with Fin = the final writes of w, so what the other files prove under the invariant holds of w. *)
From Coq Require Import Sorting.Permutation.
From Verif Require Import Base.Lex SnapRead.Model SnapRead.ModelRead SnapRead.ProofsScanLoop
  SnapRead.ProofsCache SnapRead.ProofsRead SnapRead.ProofsTerm SnapRead.ProofsMove
  SnapRead.ProofsWorldScan SnapRead.ProofsReadThrough SnapRead.ProofsMoveTerm.

Definition fin_of (w : world) (k : key) : list write := final_ws (w_txns w) (k_get (w_keys w) k).

Lemma read_at_final w ts k : read_at ts k (final_truth w) = vis (fin_of w k) ts.
Proof. unfold read_at. rewrite writes_of_final. reflexivity. Qed.

Lemma inv_start w ts : txs_ok (w_txns w) ts -> inv ts (fin_of w) (w, []).
Proof. intros Htx. apply inv_init; [exact Htx|reflexivity]. Qed.

Lemma get_right w ts : txs_ok (w_txns w) ts ->
  forall fuel k o w' rs', get fuel w [] ts k = (Some o, w', rs') -> o = read_at ts k (final_truth w).
Proof.
  intros Htx fuel k o w' rs' H. rewrite read_at_final.
  pose proof (get_spec ts (fin_of w) fuel w [] k (inv_start w ts Htx)) as Hs. rewrite H in Hs. apply Hs. reflexivity.
Qed.

Lemma batch_get_right w ts : txs_ok (w_txns w) ts ->
  forall fuel ev L0 keys res w' rs', batch_get fuel ev L0 w ts keys = (Some res, w', rs') ->
  forall k v, In (k, v) res <-> In k keys /\ read_at ts k (final_truth w) = Some v.
Proof.
  intros Htx fuel ev L0 keys res w' rs' H k v. destruct (group_keys_spec L0 keys) as [Gp G1].
  rewrite (bget_correct ts (fin_of w) _ _ _ _ _ _ _ _ _ _ (inv_start w ts Htx) G1 H k v).
  unfold want. rewrite read_at_final, Gp. cbn [In]. tauto.
Qed.

Lemma get_answers w ts : txs_ok (w_txns w) ts ->
  forall fuel k, (patience (w_txns w) + 2 <= fuel)%nat ->
  exists o w' rs', get fuel w [] ts k = (Some o, w', rs') /\ o = read_at ts k (final_truth w).
Proof.
  intros Htx fuel k Hf.
  destruct (get_total ts (fin_of w) fuel w [] k (inv_start w ts Htx) Hf) as (o & w' & rs' & Hg & Ho & _).
  exists o, w', rs'. split; [exact Hg|]. rewrite read_at_final. exact Ho.
Qed.

Lemma batch_get_answers w ts : txs_ok (w_txns w) ts ->
  forall fuel ev L0 keys E, bounded_errs ev 0 E ->
  (E * (2 * length keys + 1) + patience (w_txns w) + 2 * length keys < fuel)%nat ->
  exists res w' rs', batch_get fuel ev L0 w ts keys = (Some res, w', rs') /\
                     forall k v, In (k, v) res <-> In k keys /\ read_at ts k (final_truth w) = Some v.
Proof.
  intros Htx fuel ev L0 keys E Herr Hf. destruct (group_keys_spec L0 keys) as [Gp G1]. pose proof (Permutation_length Gp) as G2.
  destruct (bget_terminates ts (length keys) (fin_of w) fuel ev 0%nat w [] (group_keys L0 keys) [] E
              (inv_start w ts Htx) Herr G1) as (res & w' & rs' & Hb); [rewrite G2; lia| |].
  - unfold potential, load. cbn [fst]. pose proof (nblocked_le ts (w, []) (concat (group_keys L0 keys))) as H1. rewrite G2 in H1.
    pose proof (concat_nonempty_len _ G1) as H2. rewrite G2 in H2. lia.
  - exists res, w', rs'. split; [exact Hb|]. exact (batch_get_right w ts Htx _ _ _ _ _ _ _ Hb).
Qed.

Lemma ex3_left {A B C} {P Q : A -> B -> C -> Prop} : (exists a b c, P a b c /\ Q a b c) -> exists a b c, P a b c.
Proof. intros (a & b & c & H & _). eauto. Qed.

Lemma buffer_batch_get_answers w own :
  forall fuel ev L0 keys E, bounded_errs ev 0 E -> (E * (length keys + 1) + length keys < fuel)%nat ->
  exists res, buffer_batch_get fuel ev L0 w own keys = Some res /\
              forall k v, In (k, v) res <-> In k keys /\ buf_val own (k_get (w_keys w) k) = Some v.
Proof.
  intros fuel ev L0 keys E He Hf. unfold buffer_batch_get.
  destruct (group_keys_spec L0 keys) as [Gp G1]. pose proof (Permutation_length Gp) as G2.
  destruct (bbuf_terminates (length keys) own w fuel ev 0%nat (group_keys L0 keys) [] E He G1) as [res Hres].
  - rewrite G2. lia.
  - pose proof (concat_nonempty_len _ G1) as H2. rewrite G2 in H2. nia.
  - exists res. split; [exact Hres|]. intros k v.
    rewrite (bbuf_correct own w _ _ _ _ _ _ Hres k v), Gp. cbn [In]. tauto.
Qed.

Lemma world_scan_complete w ts lo hi B gfuel ko rv retry R lay P fuel :
  txs_ok (w_txns w) ts -> tsorted (final_truth w) -> (forall i, incl (lay i) P) -> bounded_retry retry 0 R ->
  (patience (w_txns w) + 2 <= gfuel)%nat ->
  (rv = true -> forall e, In e (final_truth w) -> fst e <> []) ->
  (length P + length (final_truth w) + 2 + R <= fuel)%nat ->
  exists out,
    wscan fuel gfuel B ko ts w retry lay lo hi rv = Done out /\
    map (canon ko) out = map (canon ko) (if rv then rev (expected ts lo hi (final_truth w)) else expected ts lo hi (final_truth w)).
Proof.
  intros Htx HTs Hlay Hb Hg Hrv Hfuel. set (T := final_truth w) in *. unfold wscan.
  destruct (wscan_loop_complete ts (fin_of w) T (read_at_final w ts) gfuel ko (norm_batch B) P retry lay rv
              (norm_batch_pos B) HTs Hlay Hrv fuel 0%nat (w, []) (init_cursor lo hi rv) R)
    as (out & H1 & H2).
  - split; [apply inv_start; exact Htx|]. split; [|exact Hg]. unfold T, final_truth. rewrite map_map. reflexivity.
  - reflexivity.
  - exact Hb.
  - pose proof (steps_init P T lo hi rv). lia.
  - exists out. split; [exact H1|]. rewrite H2. apply spec_init.
Qed.

Lemma pinv_start w ts : txs_ok (w_txns w) ts -> pinv (fin_of w) (w, mkRS ts None []).
Proof. intros Htx. split; [exact (inv_start w ts Htx)|]. split; [intros k v Hv; discriminate|reflexivity]. Qed.

Lemma rinv_start w ts : txs_ok (w_txns w) ts -> lock_fresh w -> rinv (fin_of w) ts (mkRst w [] []).
Proof. intros Htx Hfr. split; [exact (inv_start w ts Htx)|]. split; [intros t []|exact Hfr]. Qed.

(* the world of the examples in Props.v: every kind of leftover lock; the reader's ts is 50 *)
Definition ex_world : world :=
  mkWorld
    [ ([97], mkKs [(10, Put [1])] (Some (mkLock 20 (LPut [2]))));      (* a: secondary of txn 20, committed at 30 *)
      ([98], mkKs [(10, Put [3])] (Some (mkLock 40 LDel)));            (* b: txn 40 rolled back *)
      ([99], mkKs [] (Some (mkLock 45 (LPut [4]))));                    (* c: txn 45 alive, finishes committed at 60 *)
      ([100], mkKs [(12, Put [5])] (Some (mkLock 47 LPess)));           (* d: pessimistic *)
      ([101], mkKs [(12, Put [6])] (Some (mkLock 70 (LPut [7]))));      (* e: later transaction *)
      ([102], mkKs [(12, Put [8])] (Some (mkLock 48 (LPut [9])))) ]     (* f: txn 48 pushable *)
    [ (20, TFinished (FCommitted 30)); (40, TFinished FRolledBack); (45, TAlive 2 (FCommitted 60));
      (47, TAlive 0 FRolledBack); (70, TAlive 5 (FCommitted 90)); (48, TPushed (FCommitted 80)) ].

