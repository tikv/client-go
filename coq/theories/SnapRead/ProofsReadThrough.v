(* SnapRead/ProofsReadThrough.v — point reads over a store that honours committed_locks (read through),
   with the asynchronous lock resolution landing or not, and programs that move the timestamp of the
   snapshot object in both directions: both lock sets are statements about ONE timestamp. *)
From Verif Require Import Base.Lex SnapRead.Model SnapRead.ModelRead SnapRead.ProofsRead SnapRead.ProofsMove.

Lemma newest_in ws ts best r : newest ws ts best = Some r -> In r ws \/ best = Some r.
Proof.
  revert best. induction ws as [|[c o] ws IH]; intros best; cbn [newest]; [auto|].
  intros H. apply IH in H. destruct H as [H|H]; [left; right; exact H|].
  destruct ((c <=? ts) && match best with None => true | Some (cb, _) => cb <? c end); [inversion H; left; left; reflexivity|right; exact H].
Qed.

(* the write a lock turns into is the newest one at ts if it is younger than everything committed so far *)
Lemma vis_app_newest ws c o ts :
  (forall c' o', In (c', o') ws -> c' < c) -> c <= ts ->
  vis (ws ++ [(c, o)]) ts = match o with Put v => Some v | Del => None end.
Proof.
  intros Hw Hc. unfold vis. rewrite newest_app. cbn [newest].
  assert (E1 : (c <=? ts) = true) by (apply N.leb_le; exact Hc). rewrite E1. cbn [andb].
  destruct (newest ws ts None) as [[cb ob]|] eqn:En.
  - destruct (newest_in _ _ _ _ En) as [Hin|Hn]; [|discriminate].
    assert (E2 : (cb <? c) = true) by (apply N.ltb_lt; exact (Hw _ _ Hin)). rewrite E2. destruct o; reflexivity.
  - destruct o; reflexivity.
Qed.

Definition cs_ok (tx : list (N * tstate)) (ts : N) (cs : list N) : Prop :=
  forall t, In t cs -> exists c, tx_fin tx t = FCommitted c /\ c <= ts.

Definition lock_fresh (w : world) : Prop :=
  forall k l, ks_lock (k_get (w_keys w) k) = Some l ->
  forall c' o', In (c', o') (ks_ws (k_get (w_keys w) k)) -> c' < l_start l.

(* lock_fresh key by key (for concrete worlds) *)
Lemma lock_fresh_keys keys tx :
  Forall (fun e => forall l, ks_lock (snd e) = Some l -> Forall (fun x => fst x < l_start l) (ks_ws (snd e))) keys ->
  lock_fresh (mkWorld keys tx).
Proof.
  intros H k. cbn [w_keys]. induction H as [|[a sa] keys Ha _ IH]; cbn [k_get]; [discriminate|].
  destruct (keqb a k); [|exact IH]. intros l Hl c' o' Hin.
  exact (proj1 (Forall_forall _ _) (Ha l Hl) _ Hin).
Qed.

Section ReadThrough.
  Variable Fin : key -> list write.

  Definition rinv (ts : N) (st : rstate) : Prop :=
    inv ts Fin (st_w st, st_rs st) /\ cs_ok (w_txns (st_w st)) ts (st_cs st) /\ lock_fresh (st_w st).

  Lemma store_get_rt_val ts st k o :
    rinv ts st -> store_get_rt (k_get (w_keys (st_w st)) k) ts (st_rs st) (st_cs st) = SVal o -> o = vis (Fin k) ts.
  Proof.
    intros (Hinv & Hcs & Hfr). unfold store_get_rt.
    destruct (ks_lock (k_get (w_keys (st_w st)) k)) as [l|] eqn:El.
    2:{ intros H. apply (store_get_val ts Fin (st_w st) (st_rs st) k o Hinv). unfold store_get. rewrite El. exact H. }
    destruct (memN (l_start l) (st_cs st)) eqn:Em.
    - unfold memN in Em. apply existsb_exists in Em. destruct Em as (t & Ht & Et). apply N.eqb_eq in Et. subst t.
      destruct (Hcs _ Ht) as (c & Hc & Hle).
      destruct Hinv as (Htx & _ & Hfin). rewrite <- (Hfin k). unfold final_ws. rewrite El. cbn [contrib]. rewrite Hc.
      pose proof (tx_fin_committed _ _ _ _ Htx Hc) as Hlt.
      assert (Hold : forall c' o', In (c', o') (ks_ws (k_get (w_keys (st_w st)) k)) -> c' < c)
        by (intros c' o' Hin; specialize (Hfr k l El c' o' Hin); lia).
      destruct (l_kind l); intros H; inversion H; subst.
      + symmetry. apply (vis_app_newest _ c (Put v) ts Hold Hle).
      + symmetry. apply (vis_app_newest _ c Del ts Hold Hle).
      + rewrite app_nil_r. reflexivity.
      + rewrite app_nil_r. reflexivity.
    - intros H. apply (store_get_val ts Fin (st_w st) (st_rs st) k o Hinv). unfold store_get. rewrite El. exact H.
  Qed.

  Lemma handle_lock_rt_inv lands ts st k l : rinv ts st -> rinv ts (handle_lock_rt lands ts st (k, l)).
  Proof.
    intros ((Htx & Hrs & Hfin) & Hcs & Hfr). unfold handle_lock_rt.
    pose proof (probe_spec (w_txns (st_w st)) (l_start l) ts Htx) as Hp.
    destruct (probe (w_txns (st_w st)) (l_start l)) as [tx' s]. destruct Hp as (Hf & Htx' & Hig & Hacc).
    set (keys' := if lands && finished s then k_set (w_keys (st_w st)) k (resolve_ks tx' (k_get (w_keys (st_w st)) k)) else w_keys (st_w st)).
    assert (Hfin' : forall k', final_ws tx' (k_get keys' k') = Fin k')
      by (intros k'; unfold keys'; rewrite (final_ws_resolved _ (w_txns (st_w st))) by exact Hf; apply Hfin).
    assert (Hfr' : lock_fresh (mkWorld keys' tx')).
    { intros k' l'. cbn [w_keys]. destruct (proj1 (k_get_resolved (lands && finished s) tx' (w_keys (st_w st)) k) k') as [E|E];
        fold keys' in E; rewrite E; [apply Hfr|discriminate]. }
    assert (Hrs' : rs_ok tx' ts (st_rs st)) by (intros t Ht; rewrite Hf; apply Hrs; exact Ht).
    assert (Hcs' : cs_ok tx' ts (st_cs st)) by (intros t Ht; rewrite Hf; apply Hcs; exact Ht).
    destruct (classify true s ts) eqn:Ec; (split; [split; [exact Htx'|split; [|exact Hfin']]|split; [|exact Hfr']]); cbn [st_rs st_cs st_w w_txns]; try assumption.
    - intros t [<-|Ht]; [rewrite Hf; apply Hig; reflexivity|apply Hrs'; exact Ht].
    - intros t [<-|Ht]; [rewrite Hf; apply Hacc; reflexivity|apply Hcs'; exact Ht].
  Qed.

  Lemma get_rt_correct ts lands : forall fuel i st k,
    rinv ts st ->
    rinv ts (snd (get_rt fuel lands i st ts k)) /\
    (forall o, fst (get_rt fuel lands i st ts k) = Some o -> o = vis (Fin k) ts).
  Proof.
    induction fuel as [|f IH]; intros i st k Hinv; cbn [get_rt]; [split; [exact Hinv|discriminate]|].
    destruct (store_get_rt (k_get (w_keys (st_w st)) k) ts (st_rs st) (st_cs st)) as [o|l] eqn:Es.
    - cbn [fst snd]. split; [exact Hinv|]. intros o' H; inversion H; subst. eapply store_get_rt_val; eassumption.
    - apply IH. apply handle_lock_rt_inv. exact Hinv.
  Qed.

  Definition q_env (st : N * rstate) (o : pop) : Prop :=
    match o with PSetTS ts => txs_ok (w_txns (st_w (snd st))) ts | _ => True end.

  Lemma q_step_correct fuel lands st o :
    rinv (fst st) (snd st) -> q_env st o ->
    let r := q_step fuel lands (fst st) (snd st) o in
    rinv (fst (snd r)) (snd (snd r)) /\
    (forall k a, o = PGet k -> fst r = Some a -> a = vis (Fin k) (fst st)).
  Proof.
    destruct st as [ver st]. cbn [fst snd]. intros Hinv Henv. destruct o as [k|ts|t]; cbn [q_step].
    - pose proof (get_rt_correct ver lands fuel 0%nat st k Hinv) as [H1 H2].
      destruct (get_rt fuel lands 0 st ver k) as [a st'] eqn:Eg. cbn [fst snd] in *. split; [exact H1|].
      intros k' a' Hk Ha. inversion Hk; subst k'. apply H2. exact Ha.
    - cbn [fst snd]. split; [|intros k a Hk; discriminate].
      destruct Hinv as (Hinv & _ & Hfr). split; [exact (inv_move _ _ _ _ _ Hinv Henv)|]. split; [intros t []|exact Hfr].
    - cbn [fst snd]. split; [|intros k a Hk; discriminate].
      destruct Hinv as (Hinv & Hcs & Hfr). split; [apply inv_finish; exact Hinv|]. split; [|exact Hfr].
      intros t' Ht'. cbn [st_w st_cs w_txns]. rewrite (proj1 (finish_tx_spec _ t _ (proj1 Hinv))). apply Hcs. exact Ht'.
  Qed.

  Fixpoint q_envs (fuel : nat) (lands : nat -> bool) (st : N * rstate) (ops : list pop) : Prop :=
    match ops with [] => True | o :: r => q_env st o /\ q_envs fuel lands (snd (q_step fuel lands (fst st) (snd st) o)) r end.
  Fixpoint q_right (fuel : nat) (lands : nat -> bool) (st : N * rstate) (ops : list pop) : Prop :=
    match ops with
    | [] => True
    | o :: r => (forall k a, o = PGet k -> fst (q_step fuel lands (fst st) (snd st) o) = Some a -> a = vis (Fin k) (fst st))
                /\ q_right fuel lands (snd (q_step fuel lands (fst st) (snd st) o)) r
    end.

End ReadThrough.
