(* Codec/Props.v — property C19: the theorems, nothing else.
   Each is closed by [exact <lemma>] and followed by Print Assumptions. *)
From Verif Require Import Codec.Model Codec.ProofsBytes Codec.ProofsNum Codec.ProofsCmp Codec.ProofsCmpOrder Codec.ProofsComposite.
Open Scope N_scope.

Theorem C19_bytes_roundtrip : forall d rest, decode_bytes (encode_bytes d ++ rest) = Some (rest, d).
Proof. exact decode_encode_bytes. Qed.
Print Assumptions C19_bytes_roundtrip.

Theorem C19_bytes_order : forall a b, lex_cmp (encode_bytes a) (encode_bytes b) = lex_cmp a b.
Proof. exact encode_bytes_order. Qed.
Print Assumptions C19_bytes_order.

Theorem C19_bytes_prefix_free : forall a b rest, encode_bytes b = encode_bytes a ++ rest -> a = b /\ rest = [].
Proof. exact encode_bytes_prefix_free. Qed.
Print Assumptions C19_bytes_prefix_free.

(* malformed input is rejected: whatever decodes is a canonical encoding followed by the leftover *)
Theorem C19_bytes_strict : forall b rest d, decode_bytes b = Some (rest, d) -> b = encode_bytes d ++ rest.
Proof. exact decode_bytes_strict. Qed.
Print Assumptions C19_bytes_strict.

Theorem C19_uint_roundtrip : forall v rest, v < two64 -> decode_uint (encode_uint v ++ rest) = Some (rest, v).
Proof. exact (fixed_roundtrip iso_uint). Qed.
Print Assumptions C19_uint_roundtrip.
Theorem C19_uint_desc_roundtrip : forall v rest, v < two64 -> decode_uint_desc (encode_uint_desc v ++ rest) = Some (rest, v).
Proof. exact decode_encode_uint_desc. Qed.
Print Assumptions C19_uint_desc_roundtrip.
Theorem C19_int_roundtrip : forall v rest, int64_range v -> decode_int (encode_int v ++ rest) = Some (rest, v).
Proof. exact (fixed_roundtrip iso_int). Qed.
Print Assumptions C19_int_roundtrip.
Theorem C19_int_desc_roundtrip : forall v rest, int64_range v -> decode_int_desc (encode_int_desc v ++ rest) = Some (rest, v).
Proof. exact (fixed_roundtrip (iso_desc iso_int)). Qed.
Print Assumptions C19_int_desc_roundtrip.

Theorem C19_uint_order : forall a b, a < two64 -> b < two64 -> lex_cmp (encode_uint a) (encode_uint b) = N.compare a b.
Proof. exact (fixed_order iso_uint). Qed.
Print Assumptions C19_uint_order.
Theorem C19_uint_desc_order : forall a b, a < two64 -> b < two64 -> lex_cmp (encode_uint_desc a) (encode_uint_desc b) = N.compare b a.
Proof. exact encode_uint_desc_order. Qed.
Print Assumptions C19_uint_desc_order.
Theorem C19_int_order : forall a b, int64_range a -> int64_range b -> lex_cmp (encode_int a) (encode_int b) = Z.compare a b.
Proof. exact (fixed_order iso_int). Qed.
Print Assumptions C19_int_order.
Theorem C19_int_desc_order : forall a b, int64_range a -> int64_range b -> lex_cmp (encode_int_desc a) (encode_int_desc b) = Z.compare b a.
Proof. exact (fixed_order (iso_desc iso_int)). Qed.
Print Assumptions C19_int_desc_order.

Theorem C19_uint_strict : forall b rest v, wf_bytes b -> decode_uint b = Some (rest, v) -> b = encode_uint v ++ rest /\ v < two64.
Proof. exact (fixed_strict iso_uint). Qed.
Print Assumptions C19_uint_strict.
Theorem C19_int_strict : forall b rest v, wf_bytes b -> decode_int b = Some (rest, v) -> b = encode_int v ++ rest /\ int64_range v.
Proof. exact (fixed_strict iso_int). Qed.
Print Assumptions C19_int_strict.
Theorem C19_fixed_prefix_free : forall a b rest, a < two64 -> b < two64 -> be 8 b = be 8 a ++ rest -> a = b /\ rest = [].
Proof. exact (roundtrip_prefix_free Some_pair_inj (fixed_roundtrip iso_uint)). Qed.
Print Assumptions C19_fixed_prefix_free.

Theorem C19_uvarint_roundtrip : forall v rest, v < two64 -> decode_uvarint (encode_uvarint v ++ rest) = VOk rest v.
Proof. exact decode_encode_uvarint. Qed.
Print Assumptions C19_uvarint_roundtrip.
Theorem C19_varint_roundtrip : forall v rest, int64_range v -> decode_varint (encode_varint v ++ rest) = VOk rest v.
Proof. exact decode_encode_varint. Qed.
Print Assumptions C19_varint_roundtrip.
Theorem C19_cmp_uvarint_roundtrip : forall v rest, v < two64 -> decode_cmp_uvarint (encode_cmp_uvarint v ++ rest) = VOk rest v.
Proof. exact decode_encode_cmp_uvarint. Qed.
Print Assumptions C19_cmp_uvarint_roundtrip.
Theorem C19_cmp_varint_roundtrip : forall v rest, int64_range v -> decode_cmp_varint (encode_cmp_varint v ++ rest) = VOk rest v.
Proof. exact decode_encode_cmp_varint. Qed.
Print Assumptions C19_cmp_varint_roundtrip.

Theorem C19_cmp_uvarint_order : forall a b, a < two64 -> b < two64 -> lex_cmp (encode_cmp_uvarint a) (encode_cmp_uvarint b) = N.compare a b.
Proof. exact encode_cmp_uvarint_order. Qed.
Print Assumptions C19_cmp_uvarint_order.
Theorem C19_cmp_varint_order : forall a b, int64_range a -> int64_range b -> lex_cmp (encode_cmp_varint a) (encode_cmp_varint b) = Z.compare a b.
Proof. exact encode_cmp_varint_order. Qed.
Print Assumptions C19_cmp_varint_order.
Theorem C19_cmp_uvarint_prefix_free : forall a b rest, a < two64 -> b < two64 -> encode_cmp_uvarint b = encode_cmp_uvarint a ++ rest -> a = b /\ rest = [].
Proof. exact (roundtrip_prefix_free VOk_inj decode_encode_cmp_uvarint). Qed.
Print Assumptions C19_cmp_uvarint_prefix_free.
Theorem C19_cmp_varint_prefix_free : forall a b rest, int64_range a -> int64_range b -> encode_cmp_varint b = encode_cmp_varint a ++ rest -> a = b /\ rest = [].
Proof. exact (roundtrip_prefix_free VOk_inj decode_encode_cmp_varint). Qed.
Print Assumptions C19_cmp_varint_prefix_free.
Theorem C19_uvarint_prefix_free : forall a b rest, a < two64 -> b < two64 -> encode_uvarint b = encode_uvarint a ++ rest -> a = b /\ rest = [].
Proof. exact (roundtrip_prefix_free VOk_inj decode_encode_uvarint). Qed.
Print Assumptions C19_uvarint_prefix_free.
Theorem C19_varint_prefix_free : forall a b rest, int64_range a -> int64_range b -> encode_varint b = encode_varint a ++ rest -> a = b /\ rest = [].
Proof. exact (roundtrip_prefix_free VOk_inj decode_encode_varint). Qed.
Print Assumptions C19_varint_prefix_free.

(* the decoder before fix 2cf1774 (leftover = whole input for single-byte values) fails the round trip: regression witness *)
Theorem C19_cmp_varint_unfixed_refuted :
  exists v rest, int64_range v /\ decode_cmp_varint_gen false (encode_cmp_varint v ++ rest) <> VOk rest v.
Proof. exact decode_cmp_varint_unfixed_refuted. Qed.
Print Assumptions C19_cmp_varint_unfixed_refuted.

(* the exported sign-flip pair EncodeIntToCmpUint / DecodeCmpUintToInt (int_to_cmp / cmp_to_int): an order isomorphism int64 <-> uint64 *)
Theorem C19_cmpuint_roundtrip : forall v, int64_range v -> int_to_cmp v < two64 /\ cmp_to_int (int_to_cmp v) = v.
Proof. exact (iso_to iso_int). Qed.
Print Assumptions C19_cmpuint_roundtrip.
Theorem C19_cmpuint_inverse : forall u, u < two64 -> int64_range (cmp_to_int u) /\ int_to_cmp (cmp_to_int u) = u.
Proof. exact (iso_from iso_int). Qed.
Print Assumptions C19_cmpuint_inverse.
Theorem C19_cmpuint_order : forall a b, int64_range a -> int64_range b -> N.compare (int_to_cmp a) (int_to_cmp b) = Z.compare a b.
Proof. exact (iso_cmp iso_int). Qed.
Print Assumptions C19_cmpuint_order.
Theorem C19_cmpuint_decode_order : forall a b, a < two64 -> b < two64 -> Z.compare (cmp_to_int a) (cmp_to_int b) = N.compare a b.
Proof. exact (iso_decode_order iso_int). Qed.
Print Assumptions C19_cmpuint_decode_order.
(* by definition: the two call sites (EncodeInt, and EncodeUint after the flip) agree *)
Theorem C19_int_is_uint_of_cmpuint : forall v, encode_int v = encode_uint (int_to_cmp v) /\ encode_int_desc v = encode_uint_desc (int_to_cmp v).
Proof. exact (fun v => conj eq_refl eq_refl). Qed.
Print Assumptions C19_int_is_uint_of_cmpuint.

(* the code computes the flip with xor on the two's-complement reinterpretation; the arithmetic model equals that form *)
Theorem C19_cmpuint_is_xor : forall v, int64_range v -> int_to_cmp v = int_to_cmp_xor v.
Proof. exact int_to_cmp_is_xor. Qed.
Print Assumptions C19_cmpuint_is_xor.
Theorem C19_cmpuint_decode_is_xor : forall u, u < two64 -> cmp_to_int u = cmp_to_int_xor u.
Proof. exact cmp_to_int_is_xor. Qed.
Print Assumptions C19_cmpuint_decode_is_xor.
Theorem C19_int_uint_conversion : forall v, int64_range v -> u64_of_int v < two64 /\ int_of_u64 (u64_of_int v) = v.
Proof. exact int_of_u64_of_int. Qed.
Print Assumptions C19_int_uint_conversion.

(* non-vacuity: hypotheses are met by concrete non-trivial values *)
Example C19_nonvacuous :
  int64_range (-9223372036854775808)%Z /\ 18446744073709551615 < two64 /\
  decode_bytes (encode_bytes [1;2;3;4;5;6;7;8;0;255] ++ [9]) = Some ([9], [1;2;3;4;5;6;7;8;0;255]) /\
  lex_cmp (encode_bytes [1;2;3]) (encode_bytes [1;2;3;0]) = Lt.
Proof. repeat split; try (unfold two63, two64; lia); vm_compute; reflexivity. Qed.

(* mvccEncode / mvccDecode (mocktikv) and memComparableCodec.encodeKey / decodeKey (apicodec) on top of the field-by-field comparison *)
Theorem C19_concat_fields_order : forall a b x y,
  (forall r, b = a ++ r -> r = []) -> (forall r, a = b ++ r -> r = []) ->
  lex_cmp (a ++ x) (b ++ y) = match lex_cmp a b with Eq => lex_cmp x y | c => c end.
Proof. exact lex_cmp_app_fields. Qed.
Print Assumptions C19_concat_fields_order.
Theorem C19_bytes_then_field_order : forall a b x y,
  lex_cmp (encode_bytes a ++ x) (encode_bytes b ++ y) = match lex_cmp a b with Eq => lex_cmp x y | c => c end.
Proof. exact bytes_then_field_order. Qed.
Print Assumptions C19_bytes_then_field_order.
Theorem C19_mvcc_roundtrip : forall k v, v < two64 -> mvcc_decode (mvcc_encode k v) = MOk k v.
Proof. exact mvcc_decode_encode. Qed.
Print Assumptions C19_mvcc_roundtrip.
Theorem C19_mvcc_meta_roundtrip : forall k, mvcc_decode (encode_bytes k) = MOk k 0.
Proof. exact mvcc_decode_meta. Qed.
Print Assumptions C19_mvcc_meta_roundtrip.
Theorem C19_mvcc_order : forall k1 v1 k2 v2, v1 < two64 -> v2 < two64 ->
  lex_cmp (mvcc_encode k1 v1) (mvcc_encode k2 v2) = match lex_cmp k1 k2 with Eq => N.compare v2 v1 | c => c end.
Proof. exact mvcc_encode_order. Qed.
Print Assumptions C19_mvcc_order.
Theorem C19_mvcc_strict : forall b k v, wf_bytes b -> mvcc_decode b = MOk k v ->
  (b = encode_bytes k /\ v = 0) \/ (b = mvcc_encode k v /\ v < two64).
Proof. exact mvcc_decode_strict. Qed.
Print Assumptions C19_mvcc_strict.
Theorem C19_mem_key_roundtrip : forall k, mem_decode_key (mem_encode_key k) = Some k.
Proof. exact mem_decode_encode_key. Qed.
Print Assumptions C19_mem_key_roundtrip.
Theorem C19_mem_key_order : forall a b, lex_cmp (mem_encode_key a) (mem_encode_key b) = lex_cmp a b.
Proof. exact mem_encode_key_order. Qed.
Print Assumptions C19_mem_key_order.
Theorem C19_mem_key_injective : forall a b, mem_encode_key a = mem_encode_key b -> a = b.
Proof. exact mem_encode_key_inj. Qed.
Print Assumptions C19_mem_key_injective.
(* decodeKey drops the bytes after the first encoded string: accepted inputs are exactly encoded keys followed by anything *)
Theorem C19_mem_key_decode_prefix : forall b k, mem_decode_key b = Some k -> exists rest, b = mem_encode_key k ++ rest.
Proof. exact mem_decode_key_prefix. Qed.
Print Assumptions C19_mem_key_decode_prefix.
Theorem C19_mem_key_ignores_suffix : forall k rest, mem_decode_key (mem_encode_key k ++ rest) = Some k.
Proof. exact mem_decode_key_ignores_suffix. Qed.
Print Assumptions C19_mem_key_ignores_suffix.
