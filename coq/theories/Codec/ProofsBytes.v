(* Codec/ProofsBytes.v — the 8-byte group codec, one group per unit of fuel: round trip, strictness, prefix
   freeness, order *)
From Verif Require Import Codec.Model.
From Coq Require Import ZifyNat ZifyN ZifyBool.
Open Scope N_scope.

Lemma firstn_app_exact {A} (l r : list A) n : length l = n -> firstn n (l ++ r) = l.
Proof. intros <-. rewrite firstn_app, Nat.sub_diag, firstn_O, app_nil_r. apply firstn_all. Qed.

Lemma skipn_app_exact {A} (l r : list A) n : length l = n -> skipn n (l ++ r) = r.
Proof. intros <-. rewrite skipn_app, Nat.sub_diag, skipn_all. reflexivity. Qed.

(* an encoding that its decoder reads back, handing over whatever follows it, is prefix free:
   decoding [enc b = enc a ++ rest] yields both (rest, a) and ([], b) *)
Lemma roundtrip_prefix_free {A R} {P : A -> Prop} {enc : A -> list N} {dec : list N -> R} {ok : list N -> A -> R} :
  (forall r v r' v', ok r v = ok r' v' -> r = r' /\ v = v') ->
  (forall v rest, P v -> dec (enc v ++ rest) = ok rest v) ->
  forall a b rest, P a -> P b -> enc b = enc a ++ rest -> a = b /\ rest = [].
Proof.
  intros Hinj Hrt a b rest Ha Hb H. pose proof (Hrt b [] Hb) as Db.
  rewrite app_nil_r, H, (Hrt a rest Ha) in Db. apply Hinj in Db as [-> ->]. split; reflexivity.
Qed.

Lemma Some_pair_inj {A} (r : list N) (v : A) r' v' : Some (r, v) = Some (r', v') -> r = r' /\ v = v'.
Proof. intros [= -> ->]. split; reflexivity. Qed.
Lemma VOk_inj {A} r (v : A) r' v' : VOk r v = VOk r' v' -> r = r' /\ v = v'.
Proof. intros [= -> ->]. split; reflexivity. Qed.

Lemma pad_length n : length (pad n) = n.
Proof. apply repeat_length. Qed.

Lemma pad_zero n : forallb (N.eqb 0) (pad n) = true.
Proof. induction n as [|n IH]; cbn; [reflexivity|exact IH]. Qed.

Lemma zeros_pad (l : list N) : forallb (N.eqb 0) l = true -> l = pad (length l).
Proof.
  induction l as [|x l IH]; cbn [forallb length pad repeat]; [reflexivity|].
  intros H. apply andb_true_iff in H. destruct H as [Hx Hl]. apply N.eqb_eq in Hx. subst x.
  f_equal. apply IH; exact Hl.
Qed.

(* the last group of an encoding: the remaining bytes, k >= 1 zeros, the marker 255 - k *)
Definition tailg (a : list N) (k : nat) : list N := a ++ pad k ++ [255 - N.of_nat k].

Lemma enc_full f (g d : list N) : length g = 8%nat -> enc_fuel (S f) (g ++ d) = g ++ 255 :: enc_fuel f d.
Proof.
  intros H. cbn [enc_fuel]. rewrite app_length, H. cbn [Nat.leb Nat.add].
  rewrite firstn_app_exact, skipn_app_exact by exact H. reflexivity.
Qed.

Lemma enc_last f (d : list N) : (length d < 8)%nat -> enc_fuel (S f) d = tailg d (8 - length d).
Proof. intros H. cbn [enc_fuel]. replace (Nat.leb 8 (length d)) with false by lia. reflexivity. Qed.

Lemma split8 (d : list N) : (8 <= length d)%nat -> exists g d', d = g ++ d' /\ length g = 8%nat.
Proof. intros H. exists (firstn 8 d), (skipn 8 d). split; [symmetry; apply firstn_skipn|rewrite firstn_length; lia]. Qed.

Lemma enc_fuel_length_ge : forall f d, (length d < 8 * f)%nat -> (length d <= length (enc_fuel f d))%nat.
Proof.
  induction f as [|f IH]; intros d H; [lia|]. destruct (le_lt_dec 8 (length d)) as [L|L].
  - destruct (split8 d L) as (g & d' & -> & Hg). rewrite app_length in H. rewrite enc_full by exact Hg.
    specialize (IH d'). rewrite !app_length. cbn [length]. lia.
  - rewrite enc_last by exact L. unfold tailg. rewrite app_length. lia.
Qed.

Lemma enc_fuel_indep : forall f f' d, (length d < 8 * f)%nat -> (length d < 8 * f')%nat ->
  enc_fuel f d = enc_fuel f' d.
Proof.
  induction f as [|f IH]; intros [|f'] d H H'; try lia. destruct (le_lt_dec 8 (length d)) as [L|L].
  - destruct (split8 d L) as (g & d' & -> & Hg). rewrite app_length in H, H'. rewrite !enc_full by exact Hg.
    do 2 f_equal. apply IH; lia.
  - rewrite !enc_last by exact L. reflexivity.
Qed.

Lemma dec_step f (g : list N) m rest acc : length g = 8%nat ->
  dec_fuel (S f) (g ++ m :: rest) acc =
    if (m <? 247) || (255 <? m) then None else
    let padc := N.to_nat (255 - m) in
    let real := (8 - padc)%nat in
    let acc' := acc ++ firstn real g in
    if Nat.eqb padc 0 then dec_fuel f rest acc'
    else if forallb (N.eqb 0) (skipn real g) then Some (rest, acc') else None.
Proof.
  intros H. cbn [dec_fuel]. rewrite app_length, H. cbn [length Nat.ltb Nat.leb Nat.add].
  rewrite firstn_app_exact, app_nth2, H, Nat.sub_diag by lia. cbn [nth].
  change (g ++ m :: rest) with (g ++ [m] ++ rest). rewrite app_assoc, skipn_app_exact by (rewrite app_length, H; reflexivity).
  reflexivity.
Qed.

Lemma dec_short f b acc : (length b < 9)%nat -> dec_fuel f b acc = None.
Proof.
  intros H. destruct f; [reflexivity|]. cbn [dec_fuel].
  replace (Nat.ltb (length b) 9) with true by lia. reflexivity.
Qed.

Lemma dec_full f (g : list N) rest acc : length g = 8%nat ->
  dec_fuel (S f) (g ++ 255 :: rest) acc = dec_fuel f rest (acc ++ g).
Proof.
  intros H. rewrite dec_step by exact H. change ((255 <? 247) || (255 <? 255)) with false.
  change (N.to_nat (255 - 255)) with 0%nat. cbv zeta. cbn [Nat.eqb Nat.sub]. rewrite firstn_all2 by lia. reflexivity.
Qed.

Lemma dec_last f (d : list N) k rest acc : (length d + k = 8)%nat -> (1 <= k)%nat ->
  dec_fuel (S f) (tailg d k ++ rest) acc = Some (rest, acc ++ d).
Proof.
  intros Hl Hk. unfold tailg. rewrite <- !app_assoc. cbn [app]. rewrite app_assoc.
  rewrite dec_step by (rewrite app_length, pad_length; exact Hl).
  replace ((255 - N.of_nat k <? 247) || (255 <? 255 - N.of_nat k)) with false by lia.
  replace (N.to_nat (255 - (255 - N.of_nat k))) with k by lia. cbv zeta.
  replace (Nat.eqb k 0) with false by lia. replace (8 - k)%nat with (length d) by lia.
  rewrite firstn_app_exact, skipn_app_exact, pad_zero by reflexivity. reflexivity.
Qed.

Lemma enc_dec_fuel : forall fe d fd acc rest,
  (length d < 8 * fe)%nat -> (fe <= fd)%nat ->
  dec_fuel fd (enc_fuel fe d ++ rest) acc = Some (rest, acc ++ d).
Proof.
  induction fe as [|fe IH]; intros d fd acc rest Hd Hf; [lia|].
  destruct fd as [|fd]; [lia|]. destruct (le_lt_dec 8 (length d)) as [L|L].
  - destruct (split8 d L) as (g & d' & -> & Hg). rewrite app_length in Hd.
    rewrite enc_full, <- app_assoc by exact Hg. cbn [app]. rewrite dec_full, IH, app_assoc by (exact Hg || lia). reflexivity.
  - rewrite enc_last by exact L. apply dec_last; lia.
Qed.

Lemma decode_encode_bytes d rest : decode_bytes (encode_bytes d ++ rest) = Some (rest, d).
Proof.
  unfold decode_bytes, encode_bytes.
  rewrite enc_dec_fuel; [reflexivity|lia|].
  rewrite app_length. pose proof (enc_fuel_length_ge (S (length d)) d). lia.
Qed.

Lemma decode_encode_bytes_nil d : decode_bytes (encode_bytes d) = Some ([], d).
Proof. rewrite <- (app_nil_r (encode_bytes d)). apply decode_encode_bytes. Qed.

Lemma encode_bytes_not_nil x : encode_bytes x <> [].
Proof. intros E. pose proof (decode_encode_bytes_nil x) as D. rewrite E in D. discriminate. Qed.

Lemma split9 (b : list N) : (9 <= length b)%nat -> exists g m rest, b = g ++ m :: rest /\ length g = 8%nat.
Proof.
  intros H. destruct (split8 b ltac:(lia)) as (g & t & -> & Hg). rewrite app_length in H.
  destruct t as [|m rest]; [cbn [length] in H; lia|]. exists g, m, rest. split; [reflexivity|exact Hg].
Qed.

(* whatever decodes is, group by group, what the encoder writes *)
Lemma dec_strict : forall f b acc rest out, dec_fuel f b acc = Some (rest, out) ->
  exists d, out = acc ++ d /\ b = enc_fuel (S (length d)) d ++ rest.
Proof.
  induction f as [|f IH]; intros b acc rest out H; [discriminate|].
  destruct (le_lt_dec 9 (length b)) as [L|L]; [|rewrite dec_short in H by exact L; discriminate].
  destruct (split9 b L) as (g & m & r & -> & Hg). rewrite dec_step in H by exact Hg.
  destruct ((m <? 247) || (255 <? m)) eqn:Emm; [discriminate|].
  cbv zeta in H. set (k := N.to_nat (255 - m)) in *. destruct (Nat.eqb_spec k 0) as [Ek|Ek].
  - (* a full group *)
    assert (Hm : m = 255) by lia. rewrite Ek, firstn_all2 in H by lia.
    apply IH in H as (d' & -> & ->). exists (g ++ d'). split; [symmetry; apply app_assoc|].
    rewrite enc_full, <- app_assoc, Hm by exact Hg. cbn [app]. do 3 f_equal.
    apply enc_fuel_indep; rewrite ?app_length; lia.
  - (* the last group: its padding is zeros *)
    destruct (forallb (N.eqb 0) (skipn (8 - k) g)) eqn:Ez; [|discriminate]. injection H as <- <-.
    exists (firstn (8 - k) g). split; [reflexivity|].
    assert (Hlen : length (firstn (8 - k) g) = (8 - k)%nat) by (rewrite firstn_length; lia).
    rewrite enc_last, Hlen by lia. unfold tailg. replace (8 - (8 - k))%nat with k by lia.
    replace (255 - N.of_nat k) with m by lia.
    apply zeros_pad in Ez. rewrite skipn_length, Hg in Ez. replace (8 - (8 - k))%nat with k in Ez by lia.
    rewrite <- Ez, <- !app_assoc, app_assoc, firstn_skipn. reflexivity.
Qed.

Lemma decode_bytes_strict b rest d : decode_bytes b = Some (rest, d) -> b = encode_bytes d ++ rest.
Proof.
  unfold decode_bytes, encode_bytes. intros H. apply dec_strict in H.
  destruct H as [d' [-> ->]]. reflexivity.
Qed.

Lemma encode_bytes_prefix_free a b rest : encode_bytes b = encode_bytes a ++ rest -> a = b /\ rest = [].
Proof.
  intros H. exact (roundtrip_prefix_free (P := fun _ => True) Some_pair_inj (fun d r _ => decode_encode_bytes d r) a b rest I I H).
Qed.

Lemma pad_lt : forall n (c : list N) m1 m2 X Y, length c = n -> m1 < m2 ->
  lex_cmp (pad n ++ m1 :: X) (c ++ m2 :: Y) = Lt.
Proof.
  induction n as [|n IH]; intros [|c0 c] m1 m2 X Y Hl Hm; cbn [length] in Hl; try lia.
  - cbn [pad repeat app lex_cmp]. rewrite (proj2 (N.compare_lt_iff m1 m2) Hm). reflexivity.
  - cbn [pad repeat app lex_cmp]. destruct c0 as [|p]; cbn [N.compare]; [|reflexivity].
    apply IH; [lia|exact Hm].
Qed.

Lemma tail_cmp : forall a b ka kb, (length a + ka = length b + kb)%nat -> (ka <= 255)%nat -> (kb <= 255)%nat ->
  lex_cmp (tailg a ka) (tailg b kb) = lex_cmp a b.
Proof.
  induction a as [|x a IH]; intros [|y b] ka kb Hl Ha Hb; cbn [length] in Hl.
  - assert (ka = kb) by lia. subst. cbn [lex_cmp]. apply lex_cmp_refl.
  - unfold tailg. cbn [lex_cmp app].
    change (y :: b ++ pad kb ++ [255 - N.of_nat kb]) with ((y :: b) ++ pad kb ++ [255 - N.of_nat kb]).
    rewrite app_assoc. apply pad_lt; [rewrite app_length, pad_length; cbn [length]; lia|lia].
  - rewrite lex_cmp_antisym. unfold tailg. cbn [app].
    change (x :: a ++ pad ka ++ [255 - N.of_nat ka]) with ((x :: a) ++ pad ka ++ [255 - N.of_nat ka]).
    rewrite app_assoc. rewrite pad_lt; [reflexivity|rewrite app_length, pad_length; cbn [length]; lia|lia].
  - unfold tailg. cbn [app lex_cmp]. destruct (N.compare x y); try reflexivity.
    apply (IH b ka kb); lia.
Qed.

Lemma short_long : forall a b g X, (length a < g)%nat -> (g <= length b)%nat -> (g <= 255)%nat ->
  lex_cmp (a ++ pad (g - length a) ++ [255 - N.of_nat (g - length a)]) (firstn g b ++ 255 :: X) = lex_cmp a b.
Proof.
  induction a as [|x a IH]; intros b g X Ha Hb Hg.
  - cbn [length app] in *. rewrite Nat.sub_0_r.
    destruct b as [|y b]; [cbn [length] in Hb; lia|]. cbn [lex_cmp].
    apply pad_lt; [rewrite firstn_length; lia|lia].
  - destruct b as [|y b]; [cbn [length] in Hb; lia|]. destruct g as [|g]; [lia|].
    cbn [length] in *. cbn [firstn app lex_cmp Nat.sub]. destruct (N.compare x y); try reflexivity.
    apply IH; lia.
Qed.

Lemma enc_fuel_order : forall f a b, (length a < 8 * f)%nat -> (length b < 8 * f)%nat ->
  lex_cmp (enc_fuel f a) (enc_fuel f b) = lex_cmp a b.
Proof.
  induction f as [|f IH]; intros a b Ha Hb; [lia|].
  destruct (le_lt_dec 8 (length a)) as [La|La]; destruct (le_lt_dec 8 (length b)) as [Lb|Lb].
  - destruct (split8 a La) as (ga & a' & -> & Hga). destruct (split8 b Lb) as (gb & b' & -> & Hgb).
    rewrite app_length in Ha, Hb. rewrite !enc_full, !(lex_cmp_app_eqlen ga _ gb) by congruence.
    destruct (lex_cmp ga gb); try reflexivity. cbn [lex_cmp]. change (N.compare 255 255) with Eq. apply IH; lia.
  - rewrite (lex_cmp_antisym (enc_fuel _ b)), (lex_cmp_antisym b a), (enc_last f b Lb). f_equal.
    cbn [enc_fuel]. replace (Nat.leb 8 (length a)) with true by lia. apply short_long; lia.
  - rewrite (enc_last f a La). cbn [enc_fuel]. replace (Nat.leb 8 (length b)) with true by lia. apply short_long; lia.
  - rewrite !enc_last by assumption. apply tail_cmp; lia.
Qed.

Lemma encode_bytes_order a b : lex_cmp (encode_bytes a) (encode_bytes b) = lex_cmp a b.
Proof.
  unfold encode_bytes.
  rewrite (enc_fuel_indep (S (length a)) (S (length a + length b)) a) by lia.
  rewrite (enc_fuel_indep (S (length b)) (S (length a + length b)) b) by lia.
  apply enc_fuel_order; lia.
Qed.
