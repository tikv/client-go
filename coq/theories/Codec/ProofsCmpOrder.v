(* Codec/ProofsCmpOrder.v — comparable varints preserve order *)
From Verif Require Import Codec.Model Codec.ProofsNum Codec.ProofsCmp.
From Coq Require Import ZifyNat ZifyN ZifyBool.
Open Scope N_scope.

Lemma cmp_lt a b : a < b -> N.compare a b = Lt.  Proof. intros; apply N.compare_lt_iff; assumption. Qed.
Lemma cmp_gt a b : b < a -> N.compare a b = Gt.  Proof. intros; apply N.compare_gt_iff; assumption. Qed.

Lemma lex_cmp_of_lt {A} (enc : A -> list N) (lt : A -> A -> Prop) :
  (forall a b, lt a b -> lex_cmp (enc a) (enc b) = Lt) ->
  forall a b, lt b a -> lex_cmp (enc a) (enc b) = Gt.
Proof. intros H a b Hba. rewrite lex_cmp_antisym, (H b a Hba). reflexivity. Qed.

(* an encoding that is strictly increasing compares like its arguments *)
Lemma lex_cmp_by_spec {A} (enc : A -> list N) (lt : A -> A -> Prop) c a b :
  CompareSpec (a = b) (lt a b) (lt b a) c ->
  (lt a b -> lex_cmp (enc a) (enc b) = Lt) -> (lt b a -> lex_cmp (enc b) (enc a) = Lt) ->
  lex_cmp (enc a) (enc b) = c.
Proof. intros [->|H|H] L G; [apply lex_cmp_refl|exact (L H)|rewrite lex_cmp_antisym, (G H); reflexivity]. Qed.

(* tag byte then big-endian payload: the smaller tag decides; under equal tags (equal widths), the payloads *)
Lemma tagged_lt t1 n1 x t2 n2 y : x < pow256 n1 -> y < pow256 n2 ->
  t1 < t2 \/ (t1 = t2 /\ n1 = n2 /\ x < y) -> lex_cmp (t1 :: be n1 x) (t2 :: be n2 y) = Lt.
Proof.
  intros Hx Hy [H|(-> & -> & H)]; cbn [lex_cmp].
  - rewrite cmp_lt by exact H. reflexivity.
  - rewrite N.compare_refl, be_order by assumption. apply cmp_lt; exact H.
Qed.

Lemma cmp_uvarint_lt a b : a < b -> b < two64 -> lex_cmp (encode_cmp_uvarint a) (encode_cmp_uvarint b) = Lt.
Proof.
  intros Hab Hb. assert (Ha : a < two64) by lia.
  destruct (ulen_spec a Ha) as (Hna & Hva & _). destruct (ulen_spec b Hb) as (Hnb & Hvb & _).
  unfold encode_cmp_uvarint. destruct (a <=? 239) eqn:Ea; destruct (b <=? 239) eqn:Eb; [| |lia|].
  - cbn [lex_cmp]. rewrite cmp_lt by lia. reflexivity.
  - cbn [lex_cmp]. rewrite cmp_lt by lia. reflexivity.
  - pose proof (ulen_mono a b ltac:(lia) Hb) as Hm. apply tagged_lt; try assumption.
    destruct (Nat.eq_dec (ulen a) (ulen b)) as [E|E]; [right; rewrite E; auto|left; lia].
Qed.

Lemma encode_cmp_uvarint_order a b : a < two64 -> b < two64 ->
  lex_cmp (encode_cmp_uvarint a) (encode_cmp_uvarint b) = N.compare a b.
Proof.
  intros Ha Hb. apply (lex_cmp_by_spec _ _ _ a b (N.compare_spec a b)); intros H; apply cmp_uvarint_lt; assumption.
Qed.

Lemma cmp_varint_lt a b : int64_range a -> int64_range b -> (a < b)%Z ->
  lex_cmp (encode_cmp_varint a) (encode_cmp_varint b) = Lt.
Proof.
  intros Ha Hb Hab.
  destruct (Z.ltb_spec a 0) as [Na|Na]; destruct (Z.ltb_spec b 0) as [Nb|Nb]; [| |lia|].
  - (* both negative: the larger magnitude is the smaller value, has the smaller tag and the smaller payload *)
    destruct (neg_enc a Ha Na) as (Ea & Hna & Hma & Hva & Ra). destruct (neg_enc b Hb Nb) as (Eb & Hnb & Hmb & Hvb & Rb).
    rewrite Ea, Eb. clear Ea Eb.
    set (ma := Z.to_N (- a)) in *. set (mb := Z.to_N (- b)) in *.
    assert (Hmm : mb < ma) by lia. destruct two64_two63 as [E64 P63].
    pose proof (ulen_mono mb ma ltac:(lia) ltac:(lia)) as Hmono. apply tagged_lt; try lia.
    destruct (Nat.eq_dec (ulen ma) (ulen mb)) as [E|E]; [right; rewrite E in *; repeat split; lia|left; lia].
  - (* the tag of a negative value is below 8, that of any other at least 8 *)
    destruct (neg_enc a Ha Na) as (Ea & Hna & _). rewrite Ea.
    unfold encode_cmp_varint. replace (b <? 0)%Z with false by lia.
    unfold encode_cmp_uvarint. destruct (Z.to_N b <=? 239); cbn [lex_cmp]; rewrite cmp_lt by lia; reflexivity.
  - unfold encode_cmp_varint. replace (a <? 0)%Z with false by lia. replace (b <? 0)%Z with false by lia.
    unfold int64_range in *. destruct two64_two63 as [E64 P63]. apply cmp_uvarint_lt; lia.
Qed.

Lemma encode_cmp_varint_order a b : int64_range a -> int64_range b ->
  lex_cmp (encode_cmp_varint a) (encode_cmp_varint b) = Z.compare a b.
Proof.
  intros Ha Hb. apply (lex_cmp_by_spec _ _ _ a b (Z.compare_spec a b)); intros H; apply cmp_varint_lt; assumption.
Qed.
