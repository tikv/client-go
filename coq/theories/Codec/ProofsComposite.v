(* Codec/ProofsComposite.v — concatenated fields: prefix-free encodings compare field by field;
   mvccEncode / mvccDecode (key ascending, version descending) and the memcomparable key codec. *)
From Verif Require Import Base.Lex Codec.Model Codec.ProofsBytes Codec.ProofsNum.
Open Scope N_scope.

Definition not_proper_prefix (a b : list N) : Prop := forall r, b = a ++ r -> r = [].

(* the comparison of two concatenations is decided by the first fields unless they are equal *)
Lemma lex_cmp_app_fields a : forall b x y,
  not_proper_prefix a b -> not_proper_prefix b a ->
  lex_cmp (a ++ x) (b ++ y) = match lex_cmp a b with Eq => lex_cmp x y | c => c end.
Proof.
  induction a as [|c a IH]; intros b x y Hab Hba.
  - destruct b as [|d b]; [reflexivity|].
    specialize (Hab (d :: b) eq_refl). discriminate.
  - destruct b as [|d b].
    + specialize (Hba (c :: a) eq_refl). discriminate.
    + cbn [app lex_cmp]. destruct (N.compare c d) eqn:Hcd; try reflexivity.
      apply IH.
      * intros r Hr. apply (Hab r). apply N.compare_eq in Hcd. subst. reflexivity.
      * intros r Hr. apply (Hba r). apply N.compare_eq in Hcd. subst. reflexivity.
Qed.

Lemma encode_bytes_npp a b : not_proper_prefix (encode_bytes a) (encode_bytes b).
Proof. intros r Hr. apply encode_bytes_prefix_free in Hr. tauto. Qed.

(* any two-field key whose first field is a memcomparable byte string *)
Lemma bytes_then_field_order a b x y :
  lex_cmp (encode_bytes a ++ x) (encode_bytes b ++ y) = match lex_cmp a b with Eq => lex_cmp x y | c => c end.
Proof.
  rewrite lex_cmp_app_fields by apply encode_bytes_npp. now rewrite encode_bytes_order.
Qed.

Lemma mvcc_encode_order k1 v1 k2 v2 : v1 < two64 -> v2 < two64 ->
  lex_cmp (mvcc_encode k1 v1) (mvcc_encode k2 v2) =
  match lex_cmp k1 k2 with Eq => N.compare v2 v1 | c => c end.
Proof.
  intros H1 H2. unfold mvcc_encode. rewrite bytes_then_field_order.
  now rewrite encode_uint_desc_order.
Qed.

Lemma length_encode_uint_desc v : length (encode_uint_desc v) = 8%nat.
Proof. reflexivity. Qed.

Lemma mvcc_decode_encode k v : v < two64 -> mvcc_decode (mvcc_encode k v) = MOk k v.
Proof.
  intros Hv. unfold mvcc_decode, mvcc_encode. rewrite decode_encode_bytes.
  destruct (encode_uint_desc v) eqn:He; [discriminate (f_equal (@length N) He)|]. rewrite <- He.
  rewrite <- (app_nil_r (encode_uint_desc v)), decode_encode_uint_desc by exact Hv. reflexivity.
Qed.

Lemma mvcc_decode_meta k : mvcc_decode (encode_bytes k) = MOk k 0.
Proof.
  unfold mvcc_decode. rewrite decode_encode_bytes_nil. reflexivity.
Qed.

(* strictness: whatever mvccDecode accepts is a meta key or exactly an mvccEncode image *)
Lemma mvcc_decode_strict b k v : wf_bytes b -> mvcc_decode b = MOk k v ->
  (b = encode_bytes k /\ v = 0) \/ (b = mvcc_encode k v /\ v < two64).
Proof.
  intros Hwf. unfold mvcc_decode. destruct (decode_bytes b) as [[rest key]|] eqn:Hd; [|discriminate].
  apply decode_bytes_strict in Hd. destruct rest as [|c rest].
  - intros H; inversion H; subst. left. now rewrite app_nil_r.
  - destruct (decode_uint_desc (c :: rest)) as [[r2 ver]|] eqn:Hu; [|discriminate].
    destruct r2; [|discriminate]. intros H; inversion H; subst. right.
    assert (Hwr : wf_bytes (c :: rest)).
    { unfold wf_bytes in *. apply Forall_app in Hwf. tauto. }
    apply decode_uint_desc_strict in Hu; [|exact Hwr]. destruct Hu as [Hu Hlt].
    rewrite app_nil_r in Hu. unfold mvcc_encode. now rewrite Hu.
Qed.

(* the meta key sorts before every version of its key *)
Lemma mvcc_meta_first k v : v < two64 -> lex_cmp (encode_bytes k) (mvcc_encode k v) = Lt.
Proof.
  intros _. unfold mvcc_encode. rewrite <- (app_nil_r (encode_bytes k)) at 1.
  rewrite lex_cmp_app_same. reflexivity.
Qed.

Lemma mem_decode_encode_key k : mem_decode_key (mem_encode_key k) = Some k.
Proof. unfold mem_decode_key, mem_encode_key. rewrite decode_encode_bytes_nil. reflexivity. Qed.

(* memcomparable key codec: order-preserving, injective, and whatever it decodes is an encoded key followed by
   ignored bytes (decodeKey drops the leftover: it is a decoder of key PREFIXES, stated as such) *)
Lemma mem_encode_key_order a b : lex_cmp (mem_encode_key a) (mem_encode_key b) = lex_cmp a b.
Proof. unfold mem_encode_key. apply encode_bytes_order. Qed.
Lemma mem_encode_key_inj a b : mem_encode_key a = mem_encode_key b -> a = b.
Proof.
  intros H. pose proof (mem_decode_encode_key a) as Ha. rewrite H, mem_decode_encode_key in Ha. now inversion Ha.
Qed.
Lemma mem_decode_key_prefix b k : mem_decode_key b = Some k -> exists rest, b = mem_encode_key k ++ rest.
Proof.
  unfold mem_decode_key, mem_encode_key. destruct (decode_bytes b) as [[rest d]|] eqn:E; [|discriminate].
  intros H. inversion H; subst d. exists rest. apply decode_bytes_strict. exact E.
Qed.
Lemma mem_decode_key_ignores_suffix k rest : mem_decode_key (mem_encode_key k ++ rest) = Some k.
Proof. unfold mem_decode_key, mem_encode_key. now rewrite decode_encode_bytes. Qed.
