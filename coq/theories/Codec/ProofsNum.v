(* Codec/ProofsNum.v — big-endian digits; the four fixed-width codecs as one order isomorphism onto [0, 2^64);
   LEB128 round trip; the sign flip as xor *)
From Verif Require Import Codec.Model Codec.ProofsBytes.
From Coq Require Import ZifyNat ZifyN ZifyBool.
Open Scope N_scope.

(* a comparison is settled by what each outcome of a known comparison implies *)
Lemma compare_by_spec {P Q R : Prop} {c} x y :
  CompareSpec P Q R c -> (P -> x = y) -> (Q -> x < y) -> (R -> y < x) -> N.compare x y = c.
Proof.
  intros [H|H|H] E L G; [apply N.compare_eq_iff|apply N.compare_lt_iff|apply N.compare_gt_iff]; auto.
Qed.

(* quotient and remainder as unknowns of a linear system: what [lia] needs to know about [/] and [mod] *)
Lemma div_mod_spec v d : d <> 0 -> v = d * (v / d) + v mod d /\ v mod d < d.
Proof. intros H. split; [apply N.div_mod'|apply N.mod_lt; exact H]. Qed.

Definition pow256 (n : nat) : N := 256 ^ N.of_nat n.

Lemma pow256_0 : pow256 0 = 1. Proof. reflexivity. Qed.
Lemma pow256_S n : pow256 (S n) = 256 * pow256 n.
Proof. unfold pow256. rewrite Nat2N.inj_succ, N.pow_succ_r'. reflexivity. Qed.
Lemma pow256_pos n : 0 < pow256 n.
Proof. induction n as [|n IH]; [rewrite pow256_0; lia|rewrite pow256_S; lia]. Qed.
Lemma pow256_8 : pow256 8 = two64. Proof. reflexivity. Qed.

Lemma be_length n v : length (be n v) = n.
Proof. revert v; induction n as [|n IH]; intros v; cbn [be]; [reflexivity|]. rewrite app_length, IH. cbn [length]. lia. Qed.

Lemma of_be_snoc l c : of_be (l ++ [c]) = of_be l * 256 + c.
Proof. unfold of_be. rewrite fold_left_app. reflexivity. Qed.

(* the head of a list is its most significant byte *)
Lemma fold_of_be l : forall a, fold_left (fun a c => a * 256 + c) l a = a * pow256 (length l) + of_be l.
Proof.
  induction l as [|x l IH] using rev_ind; intros a.
  - cbn [fold_left length]. unfold of_be. cbn [fold_left]. rewrite pow256_0. lia.
  - rewrite fold_left_app, of_be_snoc, app_length, Nat.add_1_r, pow256_S. cbn [fold_left]. rewrite IH. lia.
Qed.
Lemma of_be_cons x l : of_be (x :: l) = x * pow256 (length l) + of_be l.
Proof. unfold of_be at 1. cbn [fold_left]. rewrite fold_of_be. lia. Qed.

Lemma of_be_be n : forall v, v < pow256 n -> of_be (be n v) = v.
Proof.
  induction n as [|n IH]; intros v Hv.
  - rewrite pow256_0 in Hv. cbn. lia.
  - rewrite pow256_S in Hv. destruct (div_mod_spec v 256) as [E L]; [discriminate|].
    cbn [be]. rewrite of_be_snoc, IH by lia. lia.
Qed.

Lemma be_wf n : forall v, wf_bytes (be n v).
Proof.
  induction n as [|n IH]; intros v; cbn [be]; [constructor|].
  apply Forall_app; split; [apply IH|]. constructor; [|constructor]. apply N.mod_lt. discriminate.
Qed.

Lemma wf_bytes_snoc l c : wf_bytes (l ++ [c]) -> wf_bytes l /\ c < 256.
Proof. intros H. apply Forall_app in H as [Hl Hc]. inversion Hc; subst. split; assumption. Qed.

Lemma of_be_bound l : wf_bytes l -> of_be l < pow256 (length l).
Proof.
  induction l as [|c l IH] using rev_ind; intros H.
  - cbn. lia.
  - apply wf_bytes_snoc in H as [Hl Hc]. specialize (IH Hl).
    rewrite of_be_snoc, app_length, Nat.add_1_r, pow256_S. lia.
Qed.

Lemma be_of_be l : wf_bytes l -> be (length l) (of_be l) = l.
Proof.
  induction l as [|c l IH] using rev_ind; intros H; [reflexivity|].
  apply wf_bytes_snoc in H as [Hl Hc].
  rewrite app_length, Nat.add_1_r, of_be_snoc. cbn [be].
  rewrite N.div_add_l, N.div_small, N.add_0_r, IH by (assumption || discriminate).
  rewrite N.add_comm, N.mod_add, N.mod_small by (assumption || discriminate). reflexivity.
Qed.

Lemma compare_digit q r q' r' : r < 256 -> r' < 256 ->
  N.compare (256 * q + r) (256 * q' + r') = match N.compare q q' with Eq => N.compare r r' | c => c end.
Proof.
  intros Hr Hr'. destruct (N.compare_spec q q') as [->|H|H].
  - apply (compare_by_spec _ _ (N.compare_spec r r')); lia.
  - apply N.compare_lt_iff. lia.
  - apply N.compare_gt_iff. lia.
Qed.

Lemma be_order n : forall a b, a < pow256 n -> b < pow256 n -> lex_cmp (be n a) (be n b) = N.compare a b.
Proof.
  induction n as [|n IH]; intros a b Ha Hb.
  - rewrite pow256_0 in *. assert (a = 0) by lia. assert (b = 0) by lia. subst. reflexivity.
  - rewrite pow256_S in *. cbn [be].
    destruct (div_mod_spec a 256) as [Ea La]; [discriminate|]. destruct (div_mod_spec b 256) as [Eb Lb]; [discriminate|].
    rewrite lex_cmp_app_eqlen by (rewrite !be_length; reflexivity).
    rewrite IH by lia. cbn [lex_cmp].
    rewrite Ea, Eb at 3. rewrite compare_digit by assumption.
    destruct (N.compare (a mod 256) (b mod 256)); reflexivity.
Qed.

Lemma take8_be u rest : take8 (be 8 u ++ rest) = Some (rest, be 8 u).
Proof.
  unfold take8. rewrite app_length, be_length. cbn [Nat.ltb Nat.leb Nat.add].
  rewrite skipn_app_exact, firstn_app_exact by apply be_length. reflexivity.
Qed.

Lemma wf_head_be n b : wf_bytes b -> (n <= length b)%nat ->
  b = be n (of_be (firstn n b)) ++ skipn n b /\ of_be (firstn n b) < pow256 n.
Proof.
  intros Hwf Hn. assert (Hh : wf_bytes (firstn n b)).
  { rewrite <- (firstn_skipn n b) in Hwf. apply Forall_app in Hwf as [Hh _]. exact Hh. }
  pose proof (be_of_be _ Hh) as B. pose proof (of_be_bound _ Hh) as Bd.
  rewrite firstn_length_le in B, Bd by exact Hn. rewrite B, firstn_skipn. split; [reflexivity|exact Bd].
Qed.

Lemma take8_strict b r h : wf_bytes b -> take8 b = Some (r, h) -> b = be 8 (of_be h) ++ r /\ of_be h < two64.
Proof.
  unfold take8. intros Hwf H. destruct (Nat.ltb (length b) 8) eqn:E; [discriminate|]. apply Nat.ltb_ge in E.
  assert (Er : r = skipn 8 b) by congruence. assert (Eh : h = firstn 8 b) by congruence. subst r h.
  exact (wf_head_be 8 b Hwf E).
Qed.

Lemma compl64_lt u : u < two64 -> compl64 u < two64.
Proof. unfold compl64, two64. lia. Qed.
Lemma compl64_invol u : u < two64 -> compl64 (compl64 u) = u.
Proof. unfold compl64, two64. lia. Qed.
Lemma compl64_cmp a b : a < two64 -> b < two64 -> N.compare (compl64 a) (compl64 b) = N.compare b a.
Proof. unfold compl64, two64. intros Ha Hb. apply (compare_by_spec _ _ (N.compare_spec b a)); lia. Qed.

Definition int64_range (v : Z) : Prop := (- Z.of_N two63 <= v < Z.of_N two63)%Z.

(* The four fixed-width codecs are [be 8] after a map [f] that carries the admitted values [P] one-to-one onto
   [0, 2^64), with inverse [g], and turns the comparison [cmp] of values into the comparison of numbers:
   the identity (uint), the sign flip (int), and either followed by the complement (descending). *)
Record u64_iso {A} (P : A -> Prop) (cmp : A -> A -> comparison) (f : A -> N) (g : N -> A) : Prop := {
  iso_to : forall v, P v -> f v < two64 /\ g (f v) = v;
  iso_from : forall u, u < two64 -> P (g u) /\ f (g u) = u;
  iso_cmp : forall a b, P a -> P b -> N.compare (f a) (f b) = cmp a b
}.
Arguments iso_to {A P cmp f g}.
Arguments iso_from {A P cmp f g}.
Arguments iso_cmp {A P cmp f g}.

Lemma iso_uint : u64_iso (fun v => v < two64) N.compare (fun v => v) (fun u => u).
Proof. split; auto. Qed.

(* EncodeIntToCmpUint / DecodeCmpUintToInt: a monotone bijection int64 <-> uint64 *)
Lemma iso_int : u64_iso int64_range Z.compare int_to_cmp cmp_to_int.
Proof.
  split; unfold int64_range, int_to_cmp, cmp_to_int, two63, two64.
  - intros v H. lia.
  - intros u H. lia.
  - intros a b Ha Hb. apply (compare_by_spec _ _ (Z.compare_spec a b)); lia.
Qed.

Lemma iso_desc {A} {P : A -> Prop} {cmp f g} :
  u64_iso P cmp f g -> u64_iso P (fun a b => cmp b a) (fun v => compl64 (f v)) (fun u => g (compl64 u)).
Proof.
  intros [Hto Hfrom Hcmp]. split.
  - intros v H. destruct (Hto v H) as [L E]. rewrite compl64_invol by exact L. split; [apply compl64_lt; exact L|exact E].
  - intros u H. destruct (Hfrom _ (compl64_lt u H)) as [HP E]. rewrite E. split; [exact HP|apply compl64_invol; exact H].
  - intros a b Ha Hb. rewrite <- (Hcmp b a Hb Ha). apply compl64_cmp; apply Hto; assumption.
Qed.

(* decode_uint, decode_uint_desc, decode_int, decode_int_desc are, by unfolding, decode_fixed of the respective [g] *)
Definition decode_fixed {A} (g : N -> A) (b : list N) : option (list N * A) :=
  match take8 b with None => None | Some (r, h) => Some (r, g (of_be h)) end.

Section Fixed.
  Context {A} {P : A -> Prop} {cmp : A -> A -> comparison} {f : A -> N} {g : N -> A} (I : u64_iso P cmp f g).

  Lemma fixed_roundtrip v rest : P v -> decode_fixed g (be 8 (f v) ++ rest) = Some (rest, v).
  Proof.
    intros H. destruct (iso_to I v H) as [L E]. unfold decode_fixed. rewrite take8_be, of_be_be, E by exact L. reflexivity.
  Qed.

  Lemma fixed_order a b : P a -> P b -> lex_cmp (be 8 (f a)) (be 8 (f b)) = cmp a b.
  Proof. intros Ha Hb. rewrite be_order by (apply (iso_to I); assumption). apply (iso_cmp I); assumption. Qed.

  Lemma fixed_strict b rest v : wf_bytes b -> decode_fixed g b = Some (rest, v) -> b = be 8 (f v) ++ rest /\ P v.
  Proof.
    unfold decode_fixed. intros Hwf H. destruct (take8 b) as [[r h]|] eqn:E; [|discriminate].
    injection H as <- <-. destruct (take8_strict b r h Hwf E) as [-> L].
    destruct (iso_from I _ L) as [HP ->]. split; [reflexivity|exact HP].
  Qed.

  Lemma iso_decode_order a b : a < two64 -> b < two64 -> cmp (g a) (g b) = N.compare a b.
  Proof.
    intros Ha Hb. destruct (iso_from I a Ha) as [Pa Ea], (iso_from I b Hb) as [Pb Eb].
    rewrite <- (iso_cmp I _ _ Pa Pb), Ea, Eb. reflexivity.
  Qed.
End Fixed.

Lemma decode_encode_uint_desc v rest : v < two64 -> decode_uint_desc (encode_uint_desc v ++ rest) = Some (rest, v).
Proof. exact (fixed_roundtrip (iso_desc iso_uint) v rest). Qed.
Lemma encode_uint_desc_order a b : a < two64 -> b < two64 -> lex_cmp (encode_uint_desc a) (encode_uint_desc b) = N.compare b a.
Proof. exact (fixed_order (iso_desc iso_uint) a b). Qed.
Lemma decode_uint_desc_strict b rest v : wf_bytes b -> decode_uint_desc b = Some (rest, v) ->
  b = encode_uint_desc v ++ rest /\ v < two64.
Proof. exact (fixed_strict (iso_desc iso_uint) b rest v). Qed.

Definition pow128 (n : nat) : N := 128 ^ N.of_nat n.
Lemma pow128_S n : pow128 (S n) = 128 * pow128 n.
Proof. unfold pow128. rewrite Nat2N.inj_succ, N.pow_succ_r'. reflexivity. Qed.
Lemma pow128_pos n : 0 < pow128 n.
Proof. induction n as [|n IH]; [cbn; lia|rewrite pow128_S; lia]. Qed.

Lemma uvarint_put : forall f i x acc mul rest fd,
  (i + f = 10)%nat -> (f <= fd)%nat -> x * pow128 i < two64 -> (f = 0%nat -> False) ->
  uvarint_loop fd (put_uvarint f x ++ rest) i acc mul = VOk rest (acc + x * mul).
Proof.
  induction f as [|f IH]; intros i x acc mul rest fd Hi Hf Hx Hnz; [exfalso; apply Hnz; reflexivity|].
  destruct fd as [|fd]; [lia|].
  assert (H9 : i = 9%nat -> x <= 1).
  { intros ->. assert (pow128 9 = 9223372036854775808) by reflexivity. unfold two64 in Hx. lia. }
  cbn [put_uvarint]. destruct (x <? 128) eqn:E.
  - cbn [app uvarint_loop]. replace (Nat.eqb i 10) with false by (symmetry; apply Nat.eqb_neq; lia).
    rewrite E.
    replace (Nat.eqb i 9 && (1 <? x)) with false by (destruct (Nat.eqb_spec i 9); [specialize (H9 e)|]; lia).
    reflexivity.
  - destruct (div_mod_spec x 128) as [Ex Lx]; [discriminate|].
    cbn [app uvarint_loop]. replace (Nat.eqb i 10) with false by (symmetry; apply Nat.eqb_neq; lia).
    replace (x mod 128 + 128 <? 128) with false by lia.
    rewrite IH; try lia.
    + f_equal. replace (x mod 128 + 128 - 128) with (x mod 128) by lia. rewrite Ex at 3. ring.
    + rewrite pow128_S. pose proof (pow128_pos i). nia.
Qed.

Lemma decode_encode_uvarint v rest : v < two64 -> decode_uvarint (encode_uvarint v ++ rest) = VOk rest v.
Proof.
  intros H. unfold decode_uvarint, encode_uvarint.
  rewrite uvarint_put; [f_equal; lia|reflexivity|lia| |discriminate].
  change (pow128 0) with 1. lia.
Qed.

Lemma zigzag_lt v : int64_range v -> zigzag v < two64.
Proof. unfold int64_range, zigzag, two63, two64. destruct (v <? 0)%Z eqn:E; lia. Qed.

Lemma unzigzag_zigzag v : unzigzag (zigzag v) = v.
Proof.
  unfold zigzag, unzigzag. destruct (v <? 0)%Z eqn:E.
  - replace (Z.to_N (-2 * v - 1)) with (1 + 2 * Z.to_N (- v - 1)) by lia.
    rewrite N.even_add_mul_2, N.mul_comm, N.div_add, N.add_0_l by discriminate. cbn [N.even]. lia.
  - replace (Z.to_N (2 * v)) with (0 + 2 * Z.to_N v) by lia.
    rewrite N.even_add_mul_2, N.mul_comm, N.div_add, N.add_0_l by discriminate. cbn [N.even]. lia.
Qed.

Lemma decode_encode_varint v rest : int64_range v -> decode_varint (encode_varint v ++ rest) = VOk rest v.
Proof.
  intros H. unfold decode_varint, encode_varint.
  rewrite decode_encode_uvarint by (apply zigzag_lt; exact H). rewrite unzigzag_zigzag. reflexivity.
Qed.

(* the bit-level form the code uses: uint64(v) ^ signMask and int64(u ^ signMask) *)
Lemma land_small_pow2 a n : a < 2 ^ n -> N.land a (2 ^ n) = 0.
Proof.
  intros H. apply N.bits_inj. intro m. rewrite N.land_spec, N.pow2_bits_eqb, N.bits_0.
  destruct (N.eqb_spec n m) as [E|E]; [subst m|apply Bool.andb_false_r].
  rewrite Bool.andb_true_r. destruct (N.eq_dec a 0) as [Z|NZ]; [subst a; apply N.bits_0|].
  apply N.bits_above_log2. apply N.log2_lt_pow2; [lia|exact H].
Qed.
Lemma xor_flip_low a : a < two63 -> N.lxor a two63 = a + two63.
Proof.
  intros H. symmetry. apply N.add_nocarry_lxor. change two63 with (2 ^ 63). apply land_small_pow2. exact H.
Qed.

(* for sign tests [lia] needs only how 2^63 and 2^64 are related, not their digits *)
Lemma two64_two63 : two64 = 2 * two63 /\ 0 < two63.
Proof. split; reflexivity. Qed.

(* xor with the sign mask moves the lower half of uint64 up and the upper half down *)
Lemma xor_sign u : u < two64 -> N.lxor u two63 = if u <? two63 then u + two63 else u - two63.
Proof.
  intros H. destruct two64_two63 as [E P]. destruct (N.ltb_spec u two63) as [L|G]; [apply xor_flip_low; exact L|].
  replace u with ((u - two63) + two63) at 1 by lia. rewrite <- (xor_flip_low (u - two63)) by lia.
  rewrite N.lxor_assoc, N.lxor_nilpotent, N.lxor_0_r. reflexivity.
Qed.

(* the two's-complement reinterpretation adds 2^64 to negative values *)
Lemma u64_of_int_spec v : int64_range v -> u64_of_int v = Z.to_N (if (v <? 0)%Z then v + Z.of_N two64 else v).
Proof.
  intros H. unfold int64_range in H. destruct two64_two63 as [E P]. unfold u64_of_int. f_equal.
  destruct (Z.ltb_spec v 0).
  - symmetry. apply Z.mod_unique with (q := (-1)%Z); lia.
  - apply Z.mod_small. lia.
Qed.

Lemma int_to_cmp_is_xor v : int64_range v -> int_to_cmp v = int_to_cmp_xor v.
Proof.
  intros H. unfold int_to_cmp_xor, int_to_cmp. rewrite (u64_of_int_spec v H).
  unfold int64_range in H. destruct two64_two63 as [E P].
  rewrite xor_sign by (destruct (Z.ltb_spec v 0); lia).
  destruct (Z.ltb_spec v 0); destruct (_ <? two63) eqn:T; lia.
Qed.
Lemma cmp_to_int_is_xor u : u < two64 -> cmp_to_int u = cmp_to_int_xor u.
Proof.
  intros H. unfold cmp_to_int_xor, int_of_u64, cmp_to_int. rewrite xor_sign by exact H. destruct two64_two63 as [E P].
  destruct (N.ltb_spec u two63); destruct (_ <? _)%Z eqn:T; lia.
Qed.
Lemma int_of_u64_of_int v : int64_range v -> u64_of_int v < two64 /\ int_of_u64 (u64_of_int v) = v.
Proof.
  intros H. rewrite (u64_of_int_spec v H). unfold int_of_u64. unfold int64_range in H. destruct two64_two63 as [E P].
  destruct (Z.ltb_spec v 0); destruct (_ <? Z.of_N two63)%Z eqn:T; lia.
Qed.
