(* Codec/ProofsCmp.v — comparable varints: round trip *)
From Verif Require Import Codec.Model Codec.ProofsBytes Codec.ProofsNum.
From Coq Require Import ZifyNat ZifyN ZifyBool.
Open Scope N_scope.

Lemma pow256_vals :
  pow256 1 = 256 /\ pow256 2 = 65536 /\ pow256 3 = 16777216 /\ pow256 4 = 4294967296 /\
  pow256 5 = 1099511627776 /\ pow256 6 = 281474976710656 /\ pow256 7 = 72057594037927936 /\
  pow256 8 = 18446744073709551616.
Proof. repeat split; reflexivity. Qed.

Lemma pow256_mono m n : (m <= n)%nat -> pow256 m <= pow256 n.
Proof. intros H. unfold pow256. apply N.pow_le_mono_r; lia. Qed.

(* ulen v is the least n >= 1 with v < 256^n *)
Lemma ulen_spec v : v < two64 ->
  (1 <= ulen v <= 8)%nat /\ v < pow256 (ulen v) /\ (ulen v = 1%nat \/ pow256 (ulen v - 1) <= v).
Proof.
  intros H. unfold two64 in H. destruct pow256_vals as (P1&P2&P3&P4&P5&P6&P7&P8). unfold ulen.
  destruct (v <=? 255) eqn:E1; [cbn [Nat.sub]; lia|].
  destruct (v <=? 65535) eqn:E2; [cbn [Nat.sub]; lia|].
  destruct (v <=? 16777215) eqn:E3; [cbn [Nat.sub]; lia|].
  destruct (v <=? 4294967295) eqn:E4; [cbn [Nat.sub]; lia|].
  destruct (v <=? 1099511627775) eqn:E5; [cbn [Nat.sub]; lia|].
  destruct (v <=? 281474976710655) eqn:E6; [cbn [Nat.sub]; lia|].
  destruct (v <=? 72057594037927935) eqn:E7; [cbn [Nat.sub]; lia|].
  cbn [Nat.sub]. lia.
Qed.

Lemma ulen_mono a b : a <= b -> b < two64 -> (ulen a <= ulen b)%nat.
Proof.
  intros Hab Hb. destruct (ulen_spec a ltac:(lia)) as (_ & _ & La). destruct (ulen_spec b Hb) as (Nb & Ub & _).
  destruct (Nat.le_gt_cases (ulen a) (ulen b)) as [L|G]; [exact L|exfalso].
  destruct La as [La|La]; [lia|]. pose proof (pow256_mono (ulen b) (ulen a - 1) ltac:(lia)). lia.
Qed.

Lemma decode_cmp_uvarint_long n u rest : (1 <= n <= 8)%nat -> u < pow256 n ->
  decode_cmp_uvarint ((247 + N.of_nat n) :: be n u ++ rest) = VOk rest u.
Proof.
  intros Hn Hu. unfold decode_cmp_uvarint.
  replace (247 + N.of_nat n <? 8) with false by lia.
  replace (247 + N.of_nat n <=? 247) with false by lia.
  replace (N.to_nat (247 + N.of_nat n - 247)) with n by lia. cbv zeta.
  rewrite app_length, be_length. replace (Nat.ltb (n + length rest) n) with false by lia.
  rewrite firstn_app_exact, skipn_app_exact, of_be_be by (apply be_length || exact Hu). reflexivity.
Qed.

Lemma decode_cmp_varint_pos fixed n u rest : (1 <= n <= 8)%nat -> u < pow256 n -> u < two63 ->
  decode_cmp_varint_gen fixed ((247 + N.of_nat n) :: be n u ++ rest) = VOk rest (Z.of_N u).
Proof.
  intros Hn Hu H63. unfold decode_cmp_varint_gen.
  replace ((8 <=? 247 + N.of_nat n) && (247 + N.of_nat n <=? 247)) with false by lia.
  replace (247 + N.of_nat n <? 8) with false by lia.
  replace (N.to_nat (247 + N.of_nat n - 247)) with n by lia. cbv zeta.
  rewrite app_length, be_length. replace (Nat.ltb (n + length rest) n) with false by lia.
  rewrite firstn_app_exact, skipn_app_exact, of_be_be by (apply be_length || exact Hu).
  cbn [negb andb]. replace (two63 <=? u) with false by lia. reflexivity.
Qed.

(* a negative value -m travels as the low n bytes of its two's complement, 256^n - m *)
Lemma decode_cmp_varint_neg fixed n m rest : (1 <= n <= 8)%nat -> 1 <= m -> m < pow256 n -> m <= two63 ->
  decode_cmp_varint_gen fixed ((8 - N.of_nat n) :: be n (pow256 n - m) ++ rest) = VOk rest (- Z.of_N m)%Z.
Proof.
  intros Hn Hm Hv H63. unfold decode_cmp_varint_gen.
  replace ((8 <=? 8 - N.of_nat n) && (8 - N.of_nat n <=? 247)) with false by lia.
  replace (8 - N.of_nat n <? 8) with true by lia.
  replace (N.to_nat (8 - (8 - N.of_nat n))) with n by lia. cbv zeta.
  rewrite app_length, be_length. replace (Nat.ltb (n + length rest) n) with false by lia.
  rewrite firstn_app_exact, skipn_app_exact, of_be_be by (apply be_length || lia).
  fold (pow256 n). pose proof (pow256_mono n 8 ltac:(lia)) as Hle. rewrite pow256_8 in Hle.
  destruct two64_two63 as [E64 P63].
  replace (two64 - pow256 n + (pow256 n - m)) with (two64 - m) by lia.
  rewrite N.mod_small by lia. cbn [negb andb].
  replace (two64 - m <? two63) with false by lia. replace (two63 <=? two64 - m) with true by lia.
  f_equal. lia.
Qed.

Lemma two64_split n : (n <= 8)%nat -> two64 = pow256 (8 - n) * pow256 n.
Proof. intros H. unfold pow256. rewrite <- N.pow_add_r, <- Nat2N.inj_add, Nat.sub_add by exact H. reflexivity. Qed.

(* low bytes of a negative value: 2^64 is a multiple of 256^n *)
Lemma neg_low m n : (n <= 8)%nat -> 1 <= m -> m < pow256 n -> (two64 - m) mod pow256 n = pow256 n - m.
Proof.
  intros Hn Hm Hv. rewrite (two64_split n Hn). pose proof (pow256_pos (8 - n)) as Hq.
  set (P := pow256 n) in *. set (q := pow256 (8 - n)) in *.
  replace (q * P - m) with ((P - m) + (q - 1) * P) by nia.
  rewrite N.mod_add by lia. apply N.mod_small. lia.
Qed.

Lemma neg_enc v : int64_range v -> (v < 0)%Z ->
  let m := Z.to_N (- v) in let n := ulen m in
  encode_cmp_varint v = (8 - N.of_nat n) :: be n (pow256 n - m) /\
  (1 <= n <= 8)%nat /\ 1 <= m /\ m < pow256 n /\ m <= two63.
Proof.
  intros H Hneg m n. unfold int64_range in H. destruct two64_two63 as [E64 P63].
  assert (Hm : 1 <= m <= two63) by lia.
  destruct (ulen_spec m ltac:(lia)) as (Hn & Hv & _). fold n in Hn, Hv.
  unfold encode_cmp_varint. replace (v <? 0)%Z with true by lia. fold m. fold n.
  replace (Z.to_N (v + Z.of_N two64)) with (two64 - m) by lia.
  fold (pow256 n). rewrite neg_low by lia. repeat split; lia.
Qed.

Lemma decode_encode_cmp_uvarint v rest : v < two64 ->
  decode_cmp_uvarint (encode_cmp_uvarint v ++ rest) = VOk rest v.
Proof.
  intros H. unfold encode_cmp_uvarint. destruct (v <=? 239) eqn:E; cbn [app].
  - unfold decode_cmp_uvarint. replace (v + 8 <? 8) with false by lia. replace (v + 8 <=? 247) with true by lia.
    f_equal. lia.
  - destruct (ulen_spec v H) as (Hn & Hv & _). apply decode_cmp_uvarint_long; assumption.
Qed.

Lemma decode_encode_cmp_varint v rest : int64_range v ->
  decode_cmp_varint (encode_cmp_varint v ++ rest) = VOk rest v.
Proof.
  intros H. unfold decode_cmp_varint. destruct (Z.ltb_spec v 0) as [Hneg|Hpos].
  - destruct (neg_enc v H Hneg) as (E & Hn & Hm & Hv & H63). rewrite E. cbn [app].
    rewrite decode_cmp_varint_neg by assumption. f_equal. lia.
  - unfold encode_cmp_varint. replace (v <? 0)%Z with false by lia.
    unfold int64_range in H. destruct two64_two63 as [E64 P63].
    set (u := Z.to_N v). assert (Hu : u < two63) by lia.
    unfold encode_cmp_uvarint. destruct (u <=? 239) eqn:E; cbn [app].
    + unfold decode_cmp_varint_gen. replace ((8 <=? u + 8) && (u + 8 <=? 247)) with true by lia. f_equal. lia.
    + destruct (ulen_spec u ltac:(lia)) as (Hn & Hv & _). rewrite decode_cmp_varint_pos by assumption. f_equal. lia.
Qed.

(* the decoder as it stood before fix 2cf1774 returns the whole input as leftover of a single-byte value *)
Lemma decode_cmp_varint_unfixed_refuted :
  exists v rest, int64_range v /\ decode_cmp_varint_gen false (encode_cmp_varint v ++ rest) <> VOk rest v.
Proof. exists 5%Z, [170; 187]. split; [unfold int64_range, two63; lia|]. vm_compute. discriminate. Qed.
