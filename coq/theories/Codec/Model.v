(* Codec/Model.v — executable model of util/codec (bytes.go, number.go).
   Only definitions here; proofs are in Proofs*.v, property theorems in Props.v. *)
From Verif Require Export Base.Lex.
Open Scope N_scope.

(* ---------- memcomparable byte strings: EncodeBytes / DecodeBytes ---------- *)

Definition pad (n : nat) : list N := repeat 0 n.

(* one loop iteration of EncodeBytes per unit of fuel; idx advances by 8 *)
Fixpoint enc_fuel (fuel : nat) (d : list N) : list N :=
  match fuel with
  | O => []
  | S f =>
      if Nat.leb 8 (length d)
      then firstn 8 d ++ [255] ++ enc_fuel f (skipn 8 d)
      else d ++ pad (8 - length d) ++ [255 - N.of_nat (8 - length d)]
  end.

Definition encode_bytes (d : list N) : list N := enc_fuel (S (length d)) d.

(* decodeBytes(b, nil, reverse=false): returns (leftover, value) *)
Fixpoint dec_fuel (fuel : nat) (b acc : list N) : option (list N * list N) :=
  match fuel with
  | O => None
  | S f =>
      if Nat.ltb (length b) 9 then None else
      let group := firstn 8 b in
      let marker := nth 8 b 0 in
      let rest := skipn 9 b in
      if (marker <? 247) || (255 <? marker) then None else
      let padc := N.to_nat (255 - marker) in
      let real := (8 - padc)%nat in
      let acc' := acc ++ firstn real group in
      if Nat.eqb padc 0 then dec_fuel f rest acc'
      else if forallb (N.eqb 0) (skipn real group) then Some (rest, acc') else None
  end.

Definition decode_bytes (b : list N) : option (list N * list N) :=
  dec_fuel (S (length b)) b [].

(* ---------- fixed-width integers ---------- *)

Definition two64 : N := 18446744073709551616.
Definition two63 : N := 9223372036854775808.

(* big-endian n bytes of v *)
Fixpoint be (n : nat) (v : N) : list N :=
  match n with
  | O => []
  | S n' => be n' (v / 256) ++ [v mod 256]
  end.

Definition of_be (l : list N) : N := fold_left (fun a c => a * 256 + c) l 0.

(* uint64(v) ^ signMask, v an int64 given as Z in [-2^63, 2^63) *)
Definition int_to_cmp (v : Z) : N := Z.to_N (v + Z.of_N two63).
Definition cmp_to_int (u : N) : Z := (Z.of_N u - Z.of_N two63)%Z.
Definition compl64 (u : N) : N := two64 - 1 - u.
(* Go's conversion uint64(v) of an int64: the two's-complement reinterpretation; the code computes the flip as
   uint64(v) ^ signMask and int64(u ^ signMask) — Props relate these bit-level forms to int_to_cmp / cmp_to_int *)
Definition u64_of_int (v : Z) : N := Z.to_N (v mod Z.of_N two64).
Definition int_of_u64 (u : N) : Z := (if Z.of_N u <? Z.of_N two63 then Z.of_N u else Z.of_N u - Z.of_N two64)%Z.
Definition int_to_cmp_xor (v : Z) : N := N.lxor (u64_of_int v) two63.
Definition cmp_to_int_xor (u : N) : Z := int_of_u64 (N.lxor u two63).

Definition encode_uint (v : N) : list N := be 8 v.
Definition encode_uint_desc (v : N) : list N := be 8 (compl64 v).
Definition encode_int (v : Z) : list N := be 8 (int_to_cmp v).
Definition encode_int_desc (v : Z) : list N := be 8 (compl64 (int_to_cmp v)).

Definition take8 (b : list N) : option (list N * list N) :=
  if Nat.ltb (length b) 8 then None else Some (skipn 8 b, firstn 8 b).

Definition decode_uint (b : list N) : option (list N * N) :=
  match take8 b with None => None | Some (r, h) => Some (r, of_be h) end.
Definition decode_uint_desc (b : list N) : option (list N * N) :=
  match take8 b with None => None | Some (r, h) => Some (r, compl64 (of_be h)) end.
Definition decode_int (b : list N) : option (list N * Z) :=
  match take8 b with None => None | Some (r, h) => Some (r, cmp_to_int (of_be h)) end.
Definition decode_int_desc (b : list N) : option (list N * Z) :=
  match take8 b with None => None | Some (r, h) => Some (r, cmp_to_int (compl64 (of_be h))) end.

(* ---------- LEB128 varints (encoding/binary, modelled) ---------- *)

Fixpoint put_uvarint (fuel : nat) (x : N) : list N :=
  match fuel with
  | O => []
  | S f => if x <? 128 then [x] else (x mod 128 + 128) :: put_uvarint f (x / 128)
  end.
Definition encode_uvarint (v : N) : list N := put_uvarint 10 v.

Inductive vres (A : Type) := VOk (rest : list N) (v : A) | VInsufficient | VOverflow | VInvalid.
Arguments VOk {A}. Arguments VInsufficient {A}. Arguments VOverflow {A}. Arguments VInvalid {A}.

(* binary.Uvarint: i = index, x accumulated, s = 7*i expressed as multiplier 128^i *)
Fixpoint uvarint_loop (fuel : nat) (b : list N) (i : nat) (x mul : N) : vres N :=
  match fuel with
  | O => VOverflow
  | S f =>
      match b with
      | [] => VInsufficient
      | c :: b' =>
          if Nat.eqb i 10 then VOverflow else
          if c <? 128 then
            if Nat.eqb i 9 && (1 <? c) then VOverflow
            else VOk b' (x + c * mul)
          else uvarint_loop f b' (S i) (x + (c - 128) * mul) (mul * 128)
      end
  end.
Definition decode_uvarint (b : list N) : vres N := uvarint_loop 11 b 0 0 1.

(* zig-zag: ux = uint64(x) << 1; if x < 0 { ux = ^ux } *)
Definition zigzag (x : Z) : N := if (x <? 0)%Z then Z.to_N (-2 * x - 1) else Z.to_N (2 * x).
Definition unzigzag (u : N) : Z := if N.even u then Z.of_N (u / 2) else (- Z.of_N (u / 2) - 1)%Z.
Definition encode_varint (v : Z) : list N := encode_uvarint (zigzag v).
Definition decode_varint (b : list N) : vres Z :=
  match decode_uvarint b with
  | VOk r u => VOk r (unzigzag u)
  | VInsufficient => VInsufficient | VOverflow => VOverflow | VInvalid => VInvalid
  end.

(* ---------- comparable varints ---------- *)

(* number of value bytes used for a magnitude *)
Definition ulen (v : N) : nat :=
  if v <=? 255 then 1 else if v <=? 65535 then 2 else if v <=? 16777215 then 3
  else if v <=? 4294967295 then 4 else if v <=? 1099511627775 then 5
  else if v <=? 281474976710655 then 6 else if v <=? 72057594037927935 then 7 else 8%nat.

Definition encode_cmp_uvarint (v : N) : list N :=
  if v <=? 239 then [v + 8] else (247 + N.of_nat (ulen v)) :: be (ulen v) v.

(* negative v: tag 8 - len, then the low len bytes of the two's complement *)
Definition encode_cmp_varint (v : Z) : list N :=
  if (v <? 0)%Z then
    let m := Z.to_N (- v) in            (* magnitude, 1 .. 2^63 *)
    let n := ulen m in
    (8 - N.of_nat n) :: be n (Z.to_N (v + Z.of_N two64) mod (256 ^ N.of_nat n))
  else encode_cmp_uvarint (Z.to_N v).

Definition decode_cmp_uvarint (b : list N) : vres N :=
  match b with
  | [] => VInsufficient
  | first :: r =>
      if first <? 8 then VInvalid
      else if first <=? 247 then VOk r (first - 8)
      else let len := N.to_nat (first - 247) in
           if Nat.ltb (length r) len then VInsufficient
           else VOk (skipn len r) (of_be (firstn len r))
  end.

(* [fixed] selects the repaired leftover (b[1:]) for single-byte values;
   [fixed=false] is the behaviour of the tree before fix 2cf1774 (leftover = whole input). *)
Definition decode_cmp_varint_gen (fixed : bool) (b : list N) : vres Z :=
  match b with
  | [] => VInsufficient
  | first :: r =>
      if (8 <=? first) && (first <=? 247) then VOk (if fixed then r else b) (Z.of_N first - 8)%Z
      else
        let neg := first <? 8 in
        let len := if neg then N.to_nat (8 - first) else N.to_nat (first - 247) in
        if Nat.ltb (length r) len then VInsufficient else
        let low := of_be (firstn len r) in
        (* v starts as all ones for negatives: (2^64-1) << 8len | low, mod 2^64 *)
        let v := if neg then (two64 - 256 ^ N.of_nat len + low) mod two64 else low in
        if negb neg && (two63 <=? v) then VInvalid
        else if neg && (v <? two63) then VInvalid
        else VOk (skipn len r) (if two63 <=? v then (Z.of_N v - Z.of_N two64)%Z else Z.of_N v)
  end.
Definition decode_cmp_varint := decode_cmp_varint_gen true.

(* ---------- composite keys built from the codecs ---------- *)

(* internal/mockstore/mocktikv/mvcc_leveldb.go: mvccEncode / mvccDecode.
   mvccEncode(key, ver) = EncodeBytes(key) ++ EncodeUintDesc(ver); a bare EncodeBytes(key) is the "meta key". *)
Definition mvcc_encode (key : list N) (ver : N) : list N := encode_bytes key ++ encode_uint_desc ver.

Inductive mres := MErr | MOk (key : list N) (ver : N).
Definition mvcc_decode (b : list N) : mres :=
  match decode_bytes b with
  | None => MErr
  | Some ([], key) => MOk key 0
  | Some (rest, key) =>
      match decode_uint_desc rest with
      | None => MErr
      | Some ([], ver) => MOk key ver
      | Some (_ :: _, _) => MErr
      end
  end.

(* internal/apicodec/mem_codec.go: memComparableCodec.encodeKey / decodeKey (the leftover is dropped) *)
Definition mem_encode_key (key : list N) : list N := encode_bytes key.
Definition mem_decode_key (b : list N) : option (list N) :=
  match decode_bytes b with None => None | Some (_, key) => Some key end.
