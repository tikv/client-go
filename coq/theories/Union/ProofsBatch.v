(* Union/ProofsBatch.v — BufferBatchGetter.BatchGet (after fix e4ede29): result = overlay restricted to the
   requested keys, the snapshot is asked exactly for the requested keys that are not buffered. *)
From Verif Require Import Base.Lex Union.Model Union.ProofsMap.

Lemma sorted_buf_batch buf keys : sorted (buf_batch buf keys).
Proof.
  induction keys as [|k r IH]; cbn [buf_batch]; [constructor|].
  destruct (kv_get buf k); [apply sorted_put|]; exact IH.
Qed.

Lemma kv_get_buf_batch buf keys k :
  kv_get (buf_batch buf keys) k = if key_mem k keys then kv_get buf k else None.
Proof.
  induction keys as [|k0 r IH]; cbn [buf_batch key_mem]; [reflexivity|].
  destruct (kv_get buf k0) as [v0|] eqn:G; rewrite ?kv_get_put, IH;
    destruct (eqb_spec k0 k) as [->|_]; cbn [orb]; rewrite ?G; try reflexivity.
  destruct (key_mem k r); reflexivity.
Qed.

Lemma snap_batch_eq snap keys : snap_batch snap keys = buf_batch snap keys.
Proof. induction keys as [|k r IH]; cbn [snap_batch buf_batch]; [reflexivity|]. rewrite IH. reflexivity. Qed.

Definition unbuffered (buf : list kv) (k : key) : bool :=
  match kv_get buf k with None => true | Some _ => false end.

Lemma shrink_keys_spec buf keys : filter (unbuffered (buf_batch buf keys)) keys = filter (unbuffered buf) keys.
Proof.
  apply filter_ext_in. intros k Hk. unfold unbuffered.
  rewrite kv_get_buf_batch, (proj2 (key_mem_In k keys) Hk). reflexivity.
Qed.

Definition tomb_in (m : list kv) (k : key) : bool :=
  match kv_get m k with Some v => is_tomb v | None => false end.

(* the loop over the keys takes the buffered tombstones out of the map *)
Lemma del_loop_eq m ks : forall acc,
  fold_left (fun acc k => match kv_get m k with
                          | Some v => if is_tomb v then kv_del k acc else acc
                          | None => acc
                          end) ks acc =
    fold_left (fun a k0 => kv_del k0 a) (filter (tomb_in m) ks) acc.
Proof.
  induction ks as [|k0 r IH]; intros acc; cbn [fold_left filter]; [reflexivity|]. unfold tomb_in at 1.
  destruct (kv_get m k0) as [v|]; [destruct (is_tomb v)|]; cbn [fold_left]; apply IH.
Qed.

(* a run of puts over a sorted list, first to last *)
Lemma put_loop_spec l m k : sorted l ->
  kv_get (fold_left (fun acc e => kv_put (fst e) (snd e) acc) l m) k =
    match kv_get l k with Some v => Some v | None => kv_get m k end.
Proof.
  intros Hs. rewrite <- (fold_left_rev_right (fun e acc => kv_put (fst e) (snd e) acc)), kv_get_puts, (kv_get_rev l k Hs).
  reflexivity.
Qed.

Lemma put_loop_sorted l m : sorted m -> sorted (fold_left (fun acc e => kv_put (fst e) (snd e) acc) l m).
Proof. rewrite <- (fold_left_rev_right (fun e acc => kv_put (fst e) (snd e) acc)). apply sorted_puts. Qed.

Lemma key_mem_filter k f keys : key_mem k (filter f keys) = key_mem k keys && f k.
Proof.
  induction keys as [|k0 r IH]; cbn [filter key_mem]; [reflexivity|].
  destruct (f k0) eqn:F; cbn [key_mem]; rewrite IH; destruct (eqb_spec k0 k) as [->|_]; cbn [orb]; try reflexivity.
  - rewrite F. reflexivity.
  - rewrite F, Bool.andb_false_r. destruct (key_mem k r); reflexivity.
Qed.

(* the early return for an empty buffer map is a shortcut only: the loop gives the same *)
Lemma buffer_batch_get_eq snap buf keys :
  buffer_batch_get snap buf keys =
    let m := buf_batch buf keys in
    let handed := filter (unbuffered m) keys in
    (handed, fold_left (fun acc e => kv_put (fst e) (snd e) acc) (snap_batch snap handed)
                       (fold_left (fun a k0 => kv_del k0 a) (filter (tomb_in m) keys) m)).
Proof.
  unfold buffer_batch_get, buffer_batch_get_gen. destruct (buf_batch buf keys) as [|e bv].
  2: unfold shrink_loop; rewrite del_loop_eq; reflexivity.
  cbv zeta. replace (filter (unbuffered []) keys) with keys by (induction keys as [|k r IH]; [reflexivity|cbn; f_equal; exact IH]).
  replace (filter (tomb_in []) keys) with (@nil key) by (induction keys as [|k r IH]; [reflexivity|exact IH]).
  pose proof (sorted_buf_batch snap keys) as Ss. rewrite <- snap_batch_eq in Ss.
  f_equal. apply (dsorted_ext false); [exact Ss|apply put_loop_sorted; constructor|].
  intros k. rewrite (put_loop_spec _ _ _ Ss). destruct (kv_get _ k); reflexivity.
Qed.

Lemma batch_get_spec snap buf keys : no_tomb snap ->
  let '(handed, res) := buffer_batch_get snap buf keys in
  handed = filter (unbuffered buf) keys /\
  sorted res /\
  forall k, kv_get res k = if key_mem k keys then union_get snap buf k else None.
Proof.
  intros Hn. rewrite buffer_batch_get_eq. cbv zeta. rewrite shrink_keys_spec.
  pose proof (sorted_buf_batch buf keys) as Sb.
  split; [reflexivity|]. split; [apply put_loop_sorted; exact (proj1 (kv_get_dels _ _ [] Sb))|].
  intros k. rewrite put_loop_spec by (rewrite snap_batch_eq; apply sorted_buf_batch).
  rewrite (proj2 (kv_get_dels _ _ k Sb)), snap_batch_eq, !kv_get_buf_batch, !key_mem_filter.
  unfold union_get, unbuffered, tomb_in. rewrite kv_get_buf_batch. destruct (key_mem k keys); cbn [andb]; [|reflexivity].
  destruct (kv_get buf k) as [v|]; [destruct (is_tomb v); reflexivity|].
  destruct (kv_get snap k) as [v|] eqn:G; [rewrite (no_tomb_get snap k v Hn G)|]; reflexivity.
Qed.

(* the same through any lookup function that agrees with the buffer's map on the requested keys *)
Lemma batch_get_via (look : key -> option val) snap buf keys : no_tomb snap ->
  (forall k, key_mem k keys = true -> kv_get buf k = look k) ->
  let '(handed, res) := buffer_batch_get snap buf keys in
  handed = filter (fun k => match look k with None => true | Some _ => false end) keys /\
  sorted res /\
  forall k, kv_get res k =
    if key_mem k keys
    then match (match look k with Some v => Some v | None => kv_get snap k end) with
         | Some v => if is_tomb v then None else Some v
         | None => None
         end
    else None.
Proof.
  intros Hn Hl. pose proof (batch_get_spec snap buf keys Hn) as H.
  destruct (buffer_batch_get snap buf keys) as [handed res]. destruct H as (Hh & Hr & Hg).
  split; [|split; [exact Hr|]].
  - rewrite Hh. apply filter_ext_in. intros k Hk. unfold unbuffered.
    rewrite (Hl k (proj2 (key_mem_In k keys) Hk)). reflexivity.
  - intros k. rewrite Hg. destruct (key_mem k keys) eqn:M; [|reflexivity]. unfold union_get. rewrite (Hl k M). reflexivity.
Qed.

(* before fix e4ede29 a tombstoned key listed twice looked unbuffered at its second occurrence *)
Lemma batch_get_prefix_refuted : exists snap buf keys,
  no_tomb snap /\ sorted snap /\
  let '(handed, res) := buffer_batch_get_prefix snap buf keys in
  ~ (handed = filter (unbuffered buf) keys /\
     forall k, kv_get res k = if key_mem k keys then union_get snap buf k else None).
Proof.
  exists [([97], [120])], [([97], [])], [[97]; [97]].
  split; [repeat constructor|]. split; [repeat constructor|].
  vm_compute. intros [H _]. discriminate H.
Qed.
