(* Union/ProofsBuf.v — the buffer (value log + staging positions): content, latest write wins,
   savepoints (staging/cleanup/release, checkpoint/revert). *)
From Verif Require Import Base.Lex Union.Model Union.ProofsMap.

Lemma fold_left_inv {A B} (f : A -> B -> A) (P : A -> Prop) (Q : B -> Prop) :
  (forall a b, P a -> Q b -> P (f a b)) -> forall l a, P a -> Forall Q l -> P (fold_left f l a).
Proof.
  intros Hf. induction l as [|b l IH]; intros a Ha Hl; cbn [fold_left]; [exact Ha|].
  inversion Hl; subst. apply IH; [apply Hf|]; assumption.
Qed.

Lemma fold_left_inv0 {A B} (f : A -> B -> A) (P : A -> Prop) :
  (forall a b, P a -> P (f a b)) -> forall l a, P a -> P (fold_left f l a).
Proof.
  intros Hf l a Ha. apply (fold_left_inv f P (fun _ => True)); [intros a0 b H _; apply Hf; exact H|exact Ha|].
  apply Forall_forall. intros b _. exact I.
Qed.

Lemma buffer_content st k : sorted (buf_map st) /\ kv_get (buf_map st) k = buf_get st k.
Proof.
  unfold buf_map, buf_get. split; [apply sorted_puts; constructor|].
  rewrite kv_get_puts. destruct (kv_get (b_log st) k); reflexivity.
Qed.

Lemma m_get_buf_get snap st k :
  m_get snap st k =
    match (match buf_get st k with Some v => Some v | None => kv_get snap k end) with
    | Some v => if is_tomb v then None else Some v
    | None => None
    end.
Proof. unfold m_get, union_get. rewrite (proj2 (buffer_content st k)). reflexivity. Qed.

Lemma try_swap_some l : forall k v room l', try_swap l k v room = Some l' ->
  exists x o y, l = x ++ (k, o) :: y /\ l' = x ++ (k, v) :: y /\ kv_get x k = None /\
                (length x < room)%nat /\ is_tomb o = false /\ length o = length v.
Proof.
  induction l as [|[k' v'] l IH]; intros k v room l' H; cbn [try_swap] in H; [discriminate|].
  destruct (eqb_spec k' k) as [->|N].
  - destruct room; [discriminate|].
    destruct (is_tomb v') eqn:T; cbn [negb andb] in H; [discriminate|].
    destruct (Nat.eqb_spec (length v') (length v)) as [L|_]; [|discriminate]. injection H as <-.
    exists [], v', l. repeat split; [cbn; lia|exact T|exact L].
  - destruct (try_swap l k v (pred room)) eqn:E; [|discriminate]. injection H as <-.
    destruct (IH _ _ _ _ E) as (x & o & y & -> & -> & Nx & Lx & To & Lo).
    exists ((k', v') :: x), o, y. cbn [app kv_get length]. rewrite (eqb_neq _ _ N).
    repeat split; try assumption. lia.
Qed.

Lemma try_swap_zero l k v : try_swap l k v 0 = None.
Proof.
  destruct (try_swap l k v 0) eqn:E; [|reflexivity].
  destruct (try_swap_some _ _ _ _ _ E) as (x & _ & _ & _ & _ & _ & L & _). lia.
Qed.

Lemma try_swap_get l k v room l' k2 : try_swap l k v room = Some l' ->
  kv_get l' k2 = if bytes_eqb k k2 then Some v else kv_get l k2.
Proof.
  intros H. destruct (try_swap_some l k v room l' H) as (x & o & y & -> & -> & Nx & _).
  rewrite !kv_get_app. cbn [kv_get]. destruct (eqb_spec k k2) as [->|_]; [rewrite Nx|]; reflexivity.
Qed.

(* entries older than the `room` newest are out of reach *)
Lemma try_swap_prefix x : forall y k v room l', (room <= length x)%nat ->
  try_swap (x ++ y) k v room = Some l' -> exists x', l' = x' ++ y /\ length x' = length x.
Proof.
  induction x as [|[k' v'] x IH]; intros y k v room l' Hr H.
  - cbn in Hr. assert (room = 0)%nat by lia; subst. rewrite try_swap_zero in H. discriminate.
  - cbn [app try_swap] in H. destruct (bytes_eqb k' k).
    + destruct room; [discriminate|].
      destruct (negb (is_tomb v') && Nat.eqb (length v') (length v)); [|discriminate].
      injection H as <-. exists ((k', v) :: x). split; reflexivity.
    + destruct (try_swap (x ++ y) k v (pred room)) eqn:T; [|discriminate]. injection H as <-.
      apply IH in T; [|cbn in Hr; lia]. destruct T as (x' & -> & L).
      exists ((k', v') :: x'). split; [reflexivity|cbn; lia].
Qed.

Lemma buf_get_write ip st k v k2 :
  buf_get (write ip st k v) k2 = if bytes_eqb k k2 then Some v else buf_get st k2.
Proof.
  unfold write, buf_get.
  destruct (if ip then try_swap (b_log st) k v (room_of st) else None) eqn:T; cbn [b_log]; [|reflexivity].
  destruct ip; [|discriminate]. eapply try_swap_get; eassumption.
Qed.

Lemma write_shape b k v :
  (length (b_log (write true b k v)) = length (b_log b) /\ exists o, buf_get b k = Some o /\ length o = length v) \/
  length (b_log (write true b k v)) = S (length (b_log b)).
Proof.
  unfold write, buf_get. destruct (try_swap (b_log b) k v (room_of b)) as [l'|] eqn:T; cbn [b_log]; [left|right; reflexivity].
  destruct (try_swap_some _ _ _ _ _ T) as (x & o & y & -> & -> & Nx & _ & _ & Lo).
  split; [rewrite !app_length; reflexivity|]. exists o. rewrite kv_get_app, Nx. cbn [kv_get]. rewrite eqb_refl. split; [reflexivity|exact Lo].
Qed.

Definition non_undo (o : op) : bool :=
  match o with OCleanup _ | ORevert _ => false | _ => true end.

(* effect of one operation on the buffered value of key k *)
Definition last_write (k : key) (acc : option val) (o : op) : option val :=
  match o with
  | OSet k' v => if bytes_eqb k' k && negb (is_tomb v) then Some v else acc
  | ODel k' => if bytes_eqb k' k then Some [] else acc
  | _ => acc
  end.

Lemma buf_get_step ip st o k : non_undo o = true -> buf_get (step ip st o) k = last_write k (buf_get st k) o.
Proof.
  destruct o as [k' v|k'| |h|h| |n]; cbn [non_undo step last_write]; intros H; try discriminate; try reflexivity.
  - destruct (is_tomb v); cbn [negb]; [rewrite Bool.andb_false_r; reflexivity|].
    rewrite buf_get_write, Bool.andb_true_r. reflexivity.
  - rewrite buf_get_write. reflexivity.
  - destruct (handle_live st h); reflexivity.
Qed.

Lemma latest_write ip ws : forall st k, forallb non_undo ws = true ->
  buf_get (run ip ws st) k = fold_left (last_write k) ws (buf_get st k).
Proof.
  unfold run. induction ws as [|o ws IH]; intros st k H; cbn [fold_left]; [reflexivity|].
  cbn [forallb] in H. apply Bool.andb_true_iff in H. destruct H as [Ho Hws].
  rewrite (IH _ k Hws), (buf_get_step ip st o k Ho). reflexivity.
Qed.

Lemma latest_write_wins ip pre ws st0 snap k : forallb non_undo ws = true ->
  let st := run ip pre st0 in
  buf_get (run ip (pre ++ ws) st0) k = fold_left (last_write k) ws (buf_get st k) /\
  m_get snap (run ip (pre ++ ws) st0) k =
    match (match fold_left (last_write k) ws (buf_get st k) with Some v => Some v | None => kv_get snap k end) with
    | Some v => if is_tomb v then None else Some v
    | None => None
    end.
Proof.
  intros H st.
  assert (E : run ip (pre ++ ws) st0 = run ip ws st) by (unfold run, st; apply fold_left_app).
  rewrite E, m_get_buf_get, (latest_write ip ws st k H). split; reflexivity.
Qed.

Definition obs_eq (a b : mbuf) : Prop :=
  forall snap,
    view snap a = view snap b /\
    (forall k, m_get snap a k = m_get snap b k) /\
    (forall lo hi, m_iter snap a lo hi = m_iter snap b lo hi) /\
    (forall lo hi, m_iter_rev snap a lo hi = m_iter_rev snap b lo hi) /\
    (forall keys, m_batch_get snap a keys = m_batch_get snap b keys).

Lemma obs_eq_of_log a b : b_log a = b_log b -> obs_eq a b.
Proof.
  intros H snap. unfold view, m_get, m_iter, m_iter_rev, m_batch_get, buf_map. rewrite H.
  repeat split; reflexivity.
Qed.

Definition scoped_op (hb p : nat) (o : op) : Prop :=
  match o with
  | ORelease h | OCleanup h => h = O \/ (hb < h)%nat
  | ORevert n => (p <= n)%nat
  | _ => True
  end.

(* the log below log0 and the staging levels `base` are untouched; levels opened later lie above *)
Definition inv (log0 : list kv) (base : list nat) (st : mbuf) : Prop :=
  exists x extra, b_log st = x ++ log0 /\ b_stages st = extra ++ base /\
                  Forall (fun q => (length log0 <= q)%nat) extra.

Lemma truncate_app x y n : (length y <= n)%nat -> exists x', truncate n (x ++ y) = x' ++ y.
Proof.
  intros H. unfold truncate. rewrite skipn_app, app_length.
  replace (length x + length y - n - length x)%nat with O by lia. cbn [skipn].
  eexists; reflexivity.
Qed.

Lemma truncate_exact x y : truncate (length y) (x ++ y) = y.
Proof.
  unfold truncate. rewrite skipn_app, app_length.
  replace (length x + length y - length y)%nat with (length x) by lia.
  rewrite skipn_all, Nat.sub_diag. reflexivity.
Qed.

(* in-place overwrites cannot reach log0: the buffer never overwrites in place, or log0 ends at a staging
   position of `base`, or lastCheckpoint lies at or above the end of log0 *)
Definition prot (ip : bool) (log0 : list kv) (base : list nat) (st : mbuf) : Prop :=
  ip = false \/ (exists rest, base = length log0 :: rest) \/ (length log0 <= b_cp st)%nat.
Definition invp ip log0 base st : Prop := inv log0 base st /\ prot ip log0 base st.

(* what lies above log0 and base in st', given that lastCheckpoint has not fallen below log0 since st *)
Lemma invp_intro ip log0 base st st' x' extra' : prot ip log0 base st ->
  b_log st' = x' ++ log0 -> b_stages st' = extra' ++ base -> Forall (fun q => (length log0 <= q)%nat) extra' ->
  ((length log0 <= b_cp st)%nat -> (length log0 <= b_cp st')%nat) -> invp ip log0 base st'.
Proof.
  intros Hc E1 E2 E3 Hm. split; [exists x', extra'; repeat split; assumption|].
  destruct Hc as [H|[H|H]]; [left; exact H|right; left; exact H|right; right; apply Hm; exact H].
Qed.

Lemma inv_write ip log0 base st k v :
  invp ip log0 base st -> invp ip log0 base (write ip st k v).
Proof.
  intros [(x & extra & Hl & Hs & Hf) Hc]. unfold write.
  destruct (if ip then try_swap (b_log st) k v (room_of st) else None) as [l'|] eqn:T.
  - destruct ip; [|discriminate].
    assert (Hroom : (room_of st <= length x)%nat).
    { unfold room_of. rewrite Hl, app_length.
      destruct Hc as [Hc|[(rest & ->)|Hc]]; [discriminate| |lia].
      rewrite Hs. destruct extra as [|q e]; cbn [app hd]; [lia|]. inversion Hf; subst. lia. }
    rewrite Hl in T. destruct (try_swap_prefix x log0 k v _ l' Hroom T) as (x' & -> & _).
    apply (invp_intro _ _ _ st _ x' extra Hc); [reflexivity|exact Hs|exact Hf|exact (fun H => H)].
  - apply (invp_intro _ _ _ st _ ((k, v) :: x) extra Hc); [cbn [b_log]; rewrite Hl; reflexivity|exact Hs|exact Hf|exact (fun H => H)].
Qed.

Lemma handle_live_iff st h : handle_live st h = true <-> h = length (b_stages st) /\ (0 < h)%nat.
Proof. unfold handle_live. rewrite Bool.andb_true_iff, Nat.eqb_eq, Nat.ltb_lt. reflexivity. Qed.

Lemma step_dead ip b h : handle_live b h = false -> step ip b (ORelease h) = b /\ step ip b (OCleanup h) = b.
Proof. intros L. cbn [step]. rewrite L. split; reflexivity. Qed.

(* the live handle is the depth: if it lies above `base`, a later level is open ... *)
Lemma live_extra st h extra base : b_stages st = extra ++ base -> handle_live st h = true ->
  (h = O \/ (length base < h)%nat) -> exists q e, extra = q :: e.
Proof.
  intros Hs Hl Hh. apply handle_live_iff in Hl. destruct Hl as [H1 H2]. rewrite Hs, app_length in H1.
  destruct extra as [|q e]; [cbn in H1; lia|eauto].
Qed.

(* ... and if it is the depth of `base`, none is *)
Lemma inv_live log0 base st : inv log0 base st -> handle_live st (length base) = true ->
  exists x, b_log st = x ++ log0 /\ b_stages st = base.
Proof.
  intros (x & extra & Hl & Hs & _) L. exists x. split; [exact Hl|].
  apply handle_live_iff in L. destruct L as [L _]. rewrite Hs, app_length in L. destruct extra; [exact Hs|cbn in L; lia].
Qed.

Lemma inv_step ip log0 base st o :
  invp ip log0 base st -> scoped_op (length base) (length log0) o -> invp ip log0 base (step ip st o).
Proof.
  intros Hip Ho. pose proof Hip as [(x & extra & Hl & Hs & Hf) Hc].
  destruct o as [k v|k| |h|h| |n]; cbn [step scoped_op] in *.
  - destruct (is_tomb v); [exact Hip|apply inv_write; assumption].
  - apply inv_write; assumption.
  - apply (invp_intro _ _ _ st _ x (length (b_log st) :: extra) Hc); cbn [b_log b_stages b_cp]; [exact Hl|rewrite Hs; reflexivity| |exact (fun H => H)].
    constructor; [rewrite Hl, app_length; lia|exact Hf].
  - destruct (handle_live st h) eqn:L; [|exact Hip].
    destruct (live_extra st h extra base Hs L Ho) as (q & e & ->). inversion Hf; subst.
    apply (invp_intro _ _ _ st _ x e Hc); cbn [b_log b_stages b_cp]; [exact Hl|rewrite Hs; reflexivity|assumption|exact (fun H => H)].
  - destruct (handle_live st h) eqn:L; [|exact Hip].
    destruct (live_extra st h extra base Hs L Ho) as (q & e & ->). inversion Hf; subst.
    destruct (truncate_app x log0 q H1) as (x' & Hx). rewrite Hs, Hl. cbn [app hd tl].
    apply (invp_intro _ _ _ st _ x' e Hc); cbn [b_log b_stages b_cp]; [exact Hx|reflexivity|assumption|lia].
  - apply (invp_intro _ _ _ st _ x extra Hc); cbn [b_log b_stages b_cp]; [exact Hl|exact Hs|exact Hf|rewrite Hl, app_length; lia].
  - destruct (truncate_app x log0 n Ho) as (x' & Hx). rewrite Hl.
    apply (invp_intro _ _ _ st _ x' extra Hc); cbn [b_log b_stages b_cp]; [exact Hx|exact Hs|exact Hf|lia].
Qed.

Lemma inv_run ip log0 base ops st :
  invp ip log0 base st -> Forall (scoped_op (length base) (length log0)) ops -> invp ip log0 base (run ip ops st).
Proof. apply fold_left_inv. apply inv_step. Qed.

Lemma invp_staging ip st :
  invp ip (b_log st) (length (b_log st) :: b_stages st) (step ip st OStaging).
Proof.
  split; [exists [], []; cbn; repeat split; constructor|right; left; eauto].
Qed.

(* Staging h; any scoped ops; h still the live handle: the level's entries lie on top of the log as it was,
   and the staging stack is back to where Staging left it *)
Lemma level_shape ip st ops :
  let st1 := step ip st OStaging in
  Forall (scoped_op (staging_handle st) (checkpoint_pos st)) ops ->
  handle_live (run ip ops st1) (staging_handle st) = true ->
  exists x, b_log (run ip ops st1) = x ++ b_log st /\ b_stages (run ip ops st1) = length (b_log st) :: b_stages st.
Proof.
  intros st1 Ho Hl. exact (inv_live _ _ _ (proj1 (inv_run ip _ _ ops st1 (invp_staging ip st) Ho)) Hl).
Qed.

(* ... then Cleanup h: value log and staging stack are EXACTLY those before Staging (lastCheckpoint may have been
   raised to the cut: it only forbids later in-place overwrites) *)
Lemma cleanup_restores ip st ops :
  let st1 := step ip st OStaging in
  let h := staging_handle st in
  Forall (scoped_op h (checkpoint_pos st)) ops ->
  handle_live (run ip ops st1) h = true ->
  b_log (step ip (run ip ops st1) (OCleanup h)) = b_log st /\
  b_stages (step ip (run ip ops st1) (OCleanup h)) = b_stages st /\
  obs_eq (step ip (run ip ops st1) (OCleanup h)) st.
Proof.
  intros st1 h Ho Hl. destruct (level_shape ip st ops Ho Hl) as (x & HL & HS). fold st1 in HL, HS.
  assert (E : b_log (step ip (run ip ops st1) (OCleanup h)) = b_log st).
  { cbn [step]. rewrite Hl, HS, HL. cbn [hd b_log]. apply truncate_exact. }
  split; [exact E|]. split; [|apply obs_eq_of_log; exact E].
  cbn [step]. rewrite Hl, HS. reflexivity.
Qed.

(* ... or Release h: the level's writes stay; Release never changes an observable *)
Lemma release_keeps ip st ops h' :
  obs_eq (step ip st (ORelease h')) st /\
  (let st1 := step ip st OStaging in
   let h := staging_handle st in
   Forall (scoped_op h (checkpoint_pos st)) ops ->
   handle_live (run ip ops st1) h = true ->
   b_log (step ip (run ip ops st1) (ORelease h)) = b_log (run ip ops st1) /\
   b_stages (step ip (run ip ops st1) (ORelease h)) = b_stages st).
Proof.
  assert (R : forall s h, b_log (step ip s (ORelease h)) = b_log s).
  { intros s h. cbn [step]. destruct (handle_live s h); reflexivity. }
  split; [apply obs_eq_of_log; apply R|].
  intros st1 h Ho Hl. split; [apply R|].
  destruct (level_shape ip st ops Ho Hl) as (x & _ & HS). fold st1 in HS. cbn [step]. rewrite Hl, HS. reflexivity.
Qed.

(* cp := Checkpoint(); any scoped ops; RevertToCheckpoint(cp): the value log is the one at the checkpoint —
   for the code as it is (since fix 6b4091a the checkpoint protects the entries below it) *)
Lemma revert_checkpoint ip st ops :
  let st1 := step ip st OCheckpoint in
  Forall (scoped_op (length (b_stages st)) (checkpoint_pos st)) ops ->
  b_log (step ip (run ip ops st1) (ORevert (checkpoint_pos st))) = b_log st /\
  obs_eq (step ip (run ip ops st1) (ORevert (checkpoint_pos st))) st.
Proof.
  intros st1 Ho. unfold checkpoint_pos in *.
  assert (Hi : invp ip (b_log st) (b_stages st) st1).
  { split; [exists [], []; repeat split; constructor|right; right; cbn; lia]. }
  destruct (inv_run ip _ _ ops st1 Hi Ho) as [(x & extra & HL & _) _].
  assert (E : b_log (step ip (run ip ops st1) (ORevert (length (b_log st)))) = b_log st).
  { cbn [step b_log]. rewrite HL. apply truncate_exact. }
  split; [exact E|apply obs_eq_of_log; exact E].
Qed.

(* before fix 6b4091a: Set(a,"xx"); cp := Checkpoint(); Set(a,"yy") overwrote "xx" in place *)
Lemma revert_checkpoint_prefix_refuted : exists st ops,
  Forall (scoped_op (length (b_stages st)) (checkpoint_pos st)) ops /\
  ~ obs_eq (step_prefix (run_prefix ops (step_prefix st OCheckpoint)) (ORevert (checkpoint_pos st))) st.
Proof.
  exists (run_prefix [OSet [97] [120; 120]] mbuf_empty), [OSet [97] [121; 121]].
  split; [repeat constructor|].
  intros H. destruct (H []) as (_ & G & _). specialize (G [97]). vm_compute in G. discriminate G.
Qed.

Lemma handles_spec ip st h :
  staging_handle st = length (b_stages (step ip st OStaging)) /\
  handle_live (step ip st OStaging) (staging_handle st) = true /\
  (handle_live st h = true <-> (h = length (b_stages st) /\ (0 < h)%nat)) /\
  (handle_live st h = false -> step ip st (ORelease h) = st /\ step ip st (OCleanup h) = st) /\
  (op_status st (ORelease h) = 2%nat <-> (h <> O /\ h <> length (b_stages st))) /\
  (op_status st (OCleanup h) = 2%nat <-> ((0 < h)%nat /\ (h < length (b_stages st))%nat)).
Proof.
  unfold staging_handle, op_status. split; [reflexivity|].
  split; [apply handle_live_iff; cbn [step b_stages length]; lia|]. split; [apply handle_live_iff|].
  split; [apply step_dead|]. split.
  - destruct (Nat.eqb_spec h 0); destruct (Nat.eqb_spec h (length (b_stages st))); cbn [orb]; lia.
  - destruct (Nat.ltb_spec h (length (b_stages st))); destruct (Nat.ltb_spec 0 h); cbn [andb]; lia.
Qed.
