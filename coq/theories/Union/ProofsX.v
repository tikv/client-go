(* Union/ProofsX.v — the extended buffer (ModelX.v): its value part is Model.v's buffer, flags are a fold of
   the flag operations that undo does not roll back (except for a key that loses its first value), Len counts
   the existing keys, every content change moves the write sequence number, snapshot reads ignore staging. *)
From Verif Require Import Base.Lex Union.Model Union.ModelX Union.ProofsMap Union.ProofsBuf.

Definition erase (o : xop) : op :=
  match o with
  | XWrite k v _ => OSet k v
  | XDelete k _ => ODel k
  | XFlags _ _ => ORelease 0      (* handle 0: no effect on the value part *)
  | XStaging => OStaging
  | XRelease h => ORelease h
  | XCleanup h => OCleanup h
  | XCheckpoint => OCheckpoint
  | XRevert n => ORevert n
  | XLimits _ _ => ORelease 0
  end.

Lemma xrevert_fields st n stages' cp' :
  let r := revert_entries (length (b_log (x_b st)) - n) (b_log (x_b st)) (x_kf st) (x_len st) (x_size st) in
  xrevert_to st n stages' cp' =
    mk_xbuf (mk_mbuf (fst (fst (fst r))) stages' cp') (snd (fst (fst r))) (snd (fst r)) (snd r)
            (x_elim st) (x_blim st) (x_wseq st + 1).
Proof. unfold xrevert_to. destruct (revert_entries _ _ _ _ _) as [[[l kf] len] sz]. reflexivity. Qed.

(* a property of (log, flag table, Len, Size) that survives RevertVAddr, the pop of the newest entry, ... *)
Definition pop_closed (P : list kv -> list kv -> N -> N -> Prop) : Prop :=
  forall k v rest kf len size, P ((k, v) :: rest) kf len size ->
    match kv_get rest k with
    | Some old => P rest kf len (size - len_n v + len_n old)
    | None =>
        let kept := N.land (match fl_get kf k with Some f => f | None => 0 end) persistent_mask in
        if kept =? 0 then P rest (kv_del k kf) (len - 1) (size - len_n v - len_n k)
        else P rest (fl_put k kept kf) len (size - len_n v)
    end.

(* ... survives RevertToCheckpoint, which pops the newest entries one by one *)
Lemma revert_entries_inv P : pop_closed P -> forall cnt log kf len size, P log kf len size ->
  let r := revert_entries cnt log kf len size in
  P (fst (fst (fst r))) (snd (fst (fst r))) (snd (fst r)) (snd r).
Proof.
  intros Hpop. induction cnt as [|c IH]; intros log kf len size H; [destruct log; exact H|].
  destruct log as [|[k v] rest]; [exact H|]. cbn [revert_entries]. apply Hpop in H.
  destruct (kv_get rest k); [apply IH; exact H|].
  cbv zeta in H. destruct (N.land _ persistent_mask =? 0); apply IH; exact H.
Qed.

Lemma xrevert_inv P st n stages' cp' : pop_closed P ->
  P (b_log (x_b st)) (x_kf st) (x_len st) (x_size st) ->
  let st' := xrevert_to st n stages' cp' in
  P (b_log (x_b st')) (x_kf st') (x_len st') (x_size st').
Proof.
  intros Hpop H. cbv zeta. rewrite xrevert_fields. cbn [x_b b_log x_kf x_len x_size].
  apply revert_entries_inv; assumption.
Qed.

Lemma revert_entries_log cnt : forall log kf len size,
  fst (fst (fst (revert_entries cnt log kf len size))) = skipn cnt log.
Proof.
  induction cnt as [|c IH]; intros log kf len size; [destruct log; reflexivity|].
  destruct log as [|[k v] rest]; [reflexivity|]. cbn [revert_entries skipn].
  destruct (kv_get rest k); [apply IH|].
  destruct (N.land _ persistent_mask =? 0); apply IH.
Qed.

Lemma xrevert_b st n stages' cp' :
  x_b (xrevert_to st n stages' cp') = mk_mbuf (truncate n (b_log (x_b st))) stages' cp'.
Proof. rewrite xrevert_fields. cbn [x_b]. rewrite revert_entries_log. reflexivity. Qed.

(* storing the value, the second half of art.setValue on a value that is within the entry limit; the first half is the leaf
   lookup or creation of UpdateFlags, with DelNeedConstraintCheckInPrewrite first (xwrite_ok) *)
Definition xset (x : xbuf) (k : key) (v : val) : xbuf :=
  let b' := write true (x_b x) k v in
  let swapped := Nat.eqb (length (b_log b')) (length (b_log (x_b x))) in
  let oldlen := match buf_get (x_b x) k with Some o => len_n o | None => 0 end in
  mk_xbuf b' (x_kf x) (x_len x) (if swapped then x_size x else x_size x + len_n v - oldlen)
          (x_elim x) (x_blim x) (x_wseq x).

Lemma xwrite_too_large st k v fops : x_elim st < len_n k + len_n v -> xwrite st k v fops = (st, 3%nat).
Proof. intros H. unfold xwrite. apply N.ltb_lt in H. rewrite H. reflexivity. Qed.

Lemma xwrite_ok st k v fops : len_n k + len_n v <= x_elim st ->
  let st' := xset (xflags st k (18%nat :: fops)) k v in
  xwrite st k v fops = (st', if x_blim st <? x_size st' then 4%nat else 0%nat).
Proof.
  intros H. unfold xwrite, xflags, xset.
  replace (x_elim st <? len_n k + len_n v) with false by (symmetry; apply N.ltb_ge; exact H).
  destruct (fl_get (x_kf st) k); reflexivity.
Qed.

Lemma xwrite_cases st k v fops :
  fst (xwrite st k v fops) = st \/ fst (xwrite st k v fops) = xset (xflags st k (18%nat :: fops)) k v.
Proof.
  destruct (N.ltb_spec (x_elim st) (len_n k + len_n v)) as [H|H];
    [left; rewrite (xwrite_too_large _ _ _ _ H)|right; rewrite (xwrite_ok _ _ _ _ H)]; reflexivity.
Qed.

Lemma xflags_b st k fops : x_b (xflags st k fops) = x_b st.
Proof. unfold xflags. destruct (fl_get (x_kf st) k); reflexivity. Qed.

Lemma xflags_wseq st k fops : x_wseq (xflags st k fops) = x_wseq st + 1.
Proof. unfold xflags. destruct (fl_get (x_kf st) k); reflexivity. Qed.

Lemma xflags_has st k fops : kv_get (x_kf (xflags st k fops)) k <> None.
Proof.
  unfold xflags. destruct (fl_get (x_kf st) k); cbn [x_kf]; unfold fl_put; rewrite kv_get_put, eqb_refl; discriminate.
Qed.

Lemma xwrite_size_le st k v fops : x_size (fst (xwrite st k v fops)) <= x_size st + len_n k + len_n v.
Proof.
  unfold xwrite. destruct (x_elim st <? len_n k + len_n v); [cbn [fst]; lia|].
  destruct (fl_get (x_kf st) k); cbn [fst x_size]; destruct (Nat.eqb _ _); lia.
Qed.

(* one step of the extended buffer: nothing; the leaf lookup or creation of UpdateFlags, alone or followed by storing a value;
   the undo loop; or a change that keeps value log, flag table, Len and Size, with the sequence number kept or moved *)
Lemma xstep_kinds (R : xbuf -> xbuf -> Prop) :
  (forall x, R x x) ->
  (forall x k f, R x (xflags x k f)) ->
  (forall x k v f, R x (xset (xflags x k f) k v)) ->
  (forall x n s c, R x (xrevert_to x n s c)) ->
  (forall x b e bl w, b_log b = b_log (x_b x) -> w = x_wseq x \/ w = x_wseq x + 1 ->
     R x (mk_xbuf b (x_kf x) (x_len x) (x_size x) e bl w)) ->
  forall st o, R st (fst (xstep st o)).
Proof.
  intros Hsame Hflags Hset Hrev Hlog st o.
  assert (Hw : forall k v f, R st (fst (xwrite st k v f))).
  { intros k v f. destruct (xwrite_cases st k v f) as [E|E]; rewrite E; [apply Hsame|apply Hset]. }
  destruct o as [k v f|k f|k f| |h|h| |n|e b]; cbn [xstep].
  4,7,9: apply Hlog; [reflexivity|left; reflexivity].
  - destruct (is_tomb v); [apply Hsame|apply Hw].
  - apply Hw.
  - apply Hflags.
  - destruct (handle_live (x_b st) h) eqn:L; [|apply Hsame].
    apply Hlog; [cbn [step]; rewrite L; reflexivity|right; reflexivity].
  - destruct (handle_live (x_b st) h); [apply Hrev|apply Hsame].
  - apply Hrev.
Qed.

Lemma xstep_b st o :
  x_b (fst (xstep st o)) = x_b st \/ x_b (fst (xstep st o)) = step true (x_b st) (erase o).
Proof.
  destruct o as [k v f|k f|k f| |h|h| |n|e b]; cbn [xstep erase step].
  - destruct (is_tomb v); [left; reflexivity|].
    destruct (xwrite_cases st k v f) as [E|E]; rewrite E; [left|right; cbn [xset x_b]; rewrite xflags_b]; reflexivity.
  - destruct (xwrite_cases st k [] f) as [E|E]; rewrite E; [left|right; cbn [xset x_b]; rewrite xflags_b]; reflexivity.
  - left. apply xflags_b.
  - right; reflexivity.
  - destruct (handle_live (x_b st) h); [right|left]; reflexivity.
  - destruct (handle_live (x_b st) h); [right; cbn [fst]; apply xrevert_b|left; reflexivity].
  - right; reflexivity.
  - right. cbn [fst]. apply xrevert_b.
  - left; reflexivity.
Qed.

Lemma xinv_step log0 base st o :
  invp true log0 base (x_b st) -> scoped_op (length base) (length log0) (erase o) ->
  invp true log0 base (x_b (fst (xstep st o))).
Proof.
  intros Hi Ho. destruct (xstep_b st o) as [E|E]; rewrite E; [exact Hi|].
  apply inv_step; [exact Hi|exact Ho].
Qed.

Lemma xinv_run log0 base ops st :
  invp true log0 base (x_b st) -> Forall (fun o => scoped_op (length base) (length log0) (erase o)) ops ->
  invp true log0 base (x_b (xrun ops st)).
Proof. apply (fold_left_inv _ (fun s => invp true log0 base (x_b s))). apply xinv_step. Qed.

Lemma fl_get_put k f kf k' : fl_get (fl_put k f kf) k' = if bytes_eqb k k' then Some f else fl_get kf k'.
Proof. unfold fl_get, fl_put. rewrite kv_get_put. destruct (bytes_eqb k k'); reflexivity. Qed.

Lemma fl_get_del k kf k' : sorted kf -> fl_get (kv_del k kf) k' = if bytes_eqb k k' then None else fl_get kf k'.
Proof. intros H. unfold fl_get. rewrite (kv_get_del _ _ _ H). destruct (bytes_eqb k k'); reflexivity. Qed.

Lemma fl_get_kv_get kf k : fl_get kf k = None <-> kv_get kf k = None.
Proof. unfold fl_get. destruct (kv_get kf k); split; congruence. Qed.

Definition dflt (f : option N) : N := match f with Some x => x | None => 0 end.

(* what one operation other than an effective Cleanup / Revert does to the flags of key k *)
Definition flag_effect (st : xbuf) (k : key) (o : xop) : option N :=
  let f := fl_get (x_kf st) k in
  match o with
  | XWrite k' v fops =>
      if bytes_eqb k' k && negb (is_tomb v) && negb (x_elim st <? len_n k' + len_n v)
      then Some (apply_fops (18%nat :: fops) (dflt f)) else f
  | XDelete k' fops =>
      if bytes_eqb k' k && negb (x_elim st <? len_n k' + len_n [])
      then Some (apply_fops (18%nat :: fops) (dflt f)) else f
  | XFlags k' fops => if bytes_eqb k' k then Some (apply_fops fops (dflt f)) else f
  | _ => f
  end.

Definition is_undo (st : xbuf) (o : xop) : bool :=
  match o with
  | XCleanup h => handle_live (x_b st) h
  | XRevert _ => true
  | _ => false
  end.

(* art.setValue looks the leaf up, or creates it with no flags, and stores the new flags *)
Lemma fl_get_set kf k' (g : N -> N) k :
  fl_get (fl_put k' (g (dflt (fl_get kf k'))) kf) k = if bytes_eqb k' k then Some (g (dflt (fl_get kf k))) else fl_get kf k.
Proof. rewrite fl_get_put. destruct (eqb_spec k' k) as [->|_]; reflexivity. Qed.

Lemma xwrite_flags st k' v fops k :
  fl_get (x_kf (fst (xwrite st k' v fops))) k =
    if bytes_eqb k' k && negb (x_elim st <? len_n k' + len_n v)
    then Some (apply_fops (18%nat :: fops) (dflt (fl_get (x_kf st) k))) else fl_get (x_kf st) k.
Proof.
  unfold xwrite. destruct (x_elim st <? len_n k' + len_n v); cbn [negb]; [rewrite Bool.andb_false_r; reflexivity|].
  rewrite Bool.andb_true_r, <- (fl_get_set _ _ (apply_fops (18%nat :: fops))).
  destruct (fl_get (x_kf st) k'); reflexivity.
Qed.

Lemma flags_step st o k : is_undo st o = false ->
  fl_get (x_kf (fst (xstep st o))) k = flag_effect st k o.
Proof.
  destruct o as [k' v f|k' f|k' f| |h|h| |n|e b]; cbn [is_undo xstep flag_effect]; intros H; try reflexivity; try discriminate.
  - destruct (is_tomb v); cbn [negb fst].
    + rewrite Bool.andb_false_r. reflexivity.
    + rewrite xwrite_flags, Bool.andb_true_r. reflexivity.
  - apply xwrite_flags.
  - rewrite <- (fl_get_set _ _ (apply_fops f)). unfold xflags. destruct (fl_get (x_kf st) k'); reflexivity.
  - destruct (handle_live (x_b st) h); reflexivity.
  - rewrite H. reflexivity.
Qed.

(* RevertVAddr keeps only the persistent flags of a key that loses its first value *)
Definition mask_flags (f : option N) : option N :=
  let kept := N.land (dflt f) persistent_mask in
  if kept =? 0 then None else Some kept.

Definition is_some {A} (o : option A) : bool := match o with Some _ => true | None => false end.

Lemma revert_entries_flags cnt : forall log kf len size k, sorted kf ->
  fl_get (snd (fst (fst (revert_entries cnt log kf len size)))) k =
    if is_some (kv_get (firstn cnt log) k) && negb (is_some (kv_get (skipn cnt log) k))
    then mask_flags (fl_get kf k) else fl_get kf k.
Proof.
  induction cnt as [|c IH]; intros log kf len size k Hs; [destruct log; reflexivity|].
  destruct log as [|[k0 v0] rest]; [reflexivity|]. cbn [revert_entries firstn skipn kv_get].
  destruct (kv_get rest k0) as [old|] eqn:G.
  - (* an older version of k0 remains, among the popped entries or below: nothing happens to the flags *)
    rewrite (IH _ _ _ _ k Hs). destruct (eqb_spec k0 k) as [->|_]; [|reflexivity].
    rewrite (kv_get_split c) in G. cbn [is_some andb].
    destruct (kv_get (firstn c rest) k); [reflexivity|]. rewrite G. reflexivity.
  - (* k0 loses its first value *)
    rewrite (kv_get_split c) in G. destruct (kv_get (firstn c rest) k0) eqn:N1; [discriminate|].
    fold (dflt (fl_get kf k0)). destruct (N.land (dflt (fl_get kf k0)) persistent_mask =? 0) eqn:K.
    + rewrite (IH _ _ _ _ k (sorted_del k0 kf Hs)), (fl_get_del _ _ _ Hs).
      destruct (eqb_spec k0 k) as [->|_]; [|reflexivity].
      rewrite N1, G. unfold mask_flags. rewrite K. reflexivity.
    + rewrite (IH _ (fl_put k0 _ kf) _ _ k (sorted_put k0 _ kf Hs)), fl_get_put.
      destruct (eqb_spec k0 k) as [->|_]; [|reflexivity].
      rewrite N1, G. unfold mask_flags. rewrite K. reflexivity.
Qed.

Lemma flags_undo st n stages' cp' k : sorted (x_kf st) ->
  let log := b_log (x_b st) in
  let cnt := (length log - n)%nat in
  x_get_flags (xrevert_to st n stages' cp') k =
    if is_some (kv_get (firstn cnt log) k) && negb (is_some (kv_get (skipn cnt log) k))
    then mask_flags (x_get_flags st k) else x_get_flags st k.
Proof.
  intros Hs. cbv zeta. unfold x_get_flags. rewrite xrevert_fields. cbn [x_kf].
  apply revert_entries_flags. exact Hs.
Qed.

Definition xwf (st : xbuf) : Prop :=
  sorted (x_kf st) /\
  x_len st = N.of_nat (length (x_kf st)) /\
  (forall k, kv_get (b_log (x_b st)) k <> None -> kv_get (x_kf st) k <> None).

(* [xwf] of the components, as the undo loop sees them *)
Definition wf_parts (log kf : list kv) (len : N) : Prop :=
  sorted kf /\ len = N.of_nat (length kf) /\ (forall k, kv_get log k <> None -> kv_get kf k <> None).

Lemma xwf_xflags st k fops : xwf st -> xwf (xflags st k fops).
Proof.
  intros (Hs & Hl & Hk). unfold xflags, xwf, fl_get.
  destruct (kv_get (x_kf st) k) eqn:G; cbn [x_kf x_len x_b]; unfold fl_put;
    (split; [apply sorted_put; exact Hs|split; [rewrite (length_put _ _ _ Hs), G; lia|]]);
    intros k2 H2; rewrite kv_get_put; (destruct (bytes_eqb k k2); [discriminate|apply Hk; exact H2]).
Qed.

Lemma xwf_xset x k v : xwf x -> kv_get (x_kf x) k <> None -> xwf (xset x k v).
Proof.
  intros (Hs & Hl & Hk) Hin. unfold xset, xwf. cbn [x_kf x_len x_b]. split; [exact Hs|split; [exact Hl|]].
  intros k2 H2. fold (buf_get (write true (x_b x) k v) k2) in H2. rewrite buf_get_write in H2.
  destruct (eqb_spec k k2) as [->|_]; [exact Hin|apply Hk; exact H2].
Qed.

Lemma wf_pop : pop_closed (fun log kf len _ => wf_parts log kf len).
Proof.
  intros k0 v0 rest kf len _ (Hs & Hl & Hk).
  assert (Hk0 : kv_get kf k0 <> None) by (apply Hk; cbn [kv_get]; rewrite eqb_refl; discriminate).
  assert (Hrest : forall k, kv_get rest k <> None -> kv_get kf k <> None).
  { intros k H. apply Hk. cbn [kv_get]. destruct (bytes_eqb k0 k); [discriminate|exact H]. }
  destruct (kv_get rest k0) eqn:G; [repeat split; assumption|].
  cbv zeta. destruct (N.land _ persistent_mask =? 0); (split; [|split]).
  - apply sorted_del; exact Hs.
  - rewrite (length_del _ _ Hs). destruct (kv_get kf k0) eqn:G0; [|congruence].
    destruct kf; [discriminate G0|]. cbn [length pred] in *. lia.
  - intros k H. rewrite (kv_get_del _ _ _ Hs). destruct (eqb_spec k0 k) as [->|_]; [congruence|apply Hrest; exact H].
  - apply sorted_put; exact Hs.
  - unfold fl_put. rewrite (length_put _ _ _ Hs). destruct (kv_get kf k0); [exact Hl|congruence].
  - intros k H. unfold fl_put. rewrite kv_get_put. destruct (bytes_eqb k0 k); [discriminate|apply Hrest; exact H].
Qed.

Lemma xwf_revert st n stages' cp' : xwf st -> xwf (xrevert_to st n stages' cp').
Proof.
  exact (xrevert_inv _ st n stages' cp' wf_pop).
Qed.

Lemma xwf_step st o : xwf st -> xwf (fst (xstep st o)).
Proof.
  apply (xstep_kinds (fun x x' => xwf x -> xwf x')).
  - intros x H. exact H.
  - intros x k f. apply xwf_xflags.
  - intros x k v f H. apply xwf_xset; [apply xwf_xflags; exact H|apply xflags_has].
  - intros x n s c. apply xwf_revert.
  - intros x b e bl w E _ H. unfold xwf. cbn [x_kf x_len x_b]. rewrite E. exact H.
Qed.

Lemma xwf_run ops st : xwf st -> xwf (xrun ops st).
Proof. apply (fold_left_inv0 _ xwf). intros a b. apply xwf_step. Qed.

Lemma xwf_empty : xwf xbuf_empty.
Proof. unfold xwf; cbn. repeat split; [constructor|]. intros k H. exact H. Qed.

Lemma xwf_reach ops : xwf (xrun ops xbuf_empty).
Proof. apply xwf_run. apply xwf_empty. Qed.

Lemma xwf_flags st k : xwf st -> buf_get (x_b st) k <> None -> x_get_flags st k <> None.
Proof. intros (_ & _ & Hk) H. unfold x_get_flags. rewrite fl_get_kv_get. apply Hk. exact H. Qed.

Lemma xwf_len st : xwf st ->
  sorted (x_kf st) /\
  x_len st = N.of_nat (length (x_kf st)) /\
  (forall k, buf_get (x_b st) k <> None -> x_get_flags st k <> None).
Proof.
  intros H. split; [apply H|]. split; [apply H|]. intros k. apply xwf_flags. exact H.
Qed.

(* MemDB.BatchGet returns early when Len() = 0: sound, because every buffered key is counted *)
Lemma xwf_len_zero st : xwf st -> x_len st = 0 -> forall k, buf_get (x_b st) k = None /\ x_get_flags st k = None.
Proof.
  intros Hwf H k. pose proof Hwf as (_ & Hl & _). rewrite Hl in H.
  assert (F : x_get_flags st k = None) by (unfold x_get_flags; destruct (x_kf st); [reflexivity|cbn in H; lia]).
  split; [|exact F]. destruct (buf_get (x_b st) k) eqn:B; [|reflexivity].
  exfalso. apply (xwf_flags st k Hwf); [congruence|exact F].
Qed.

Lemma flags_survive_cleanup st ops k :
  xwf st -> kv_get (b_log (x_b st)) k <> None ->
  let st1 := fst (xstep st XStaging) in
  let h := staging_handle (x_b st) in
  Forall (fun o => scoped_op h (checkpoint_pos (x_b st)) (erase o)) ops ->
  handle_live (x_b (xrun ops st1)) h = true ->
  x_get_flags (fst (xstep (xrun ops st1) (XCleanup h))) k = x_get_flags (xrun ops st1) k.
Proof.
  intros Hwf Hk st1 h Ho Hl.
  destruct (inv_live _ _ _ (proj1 (xinv_run _ _ ops st1 (invp_staging true (x_b st)) Ho)) Hl) as (x & HL & HS).
  assert (Hwf' : xwf (xrun ops st1)) by (apply xwf_run; apply (xwf_step st XStaging); exact Hwf).
  cbn [xstep]. rewrite Hl. cbn [fst]. rewrite (flags_undo _ _ _ _ k (proj1 Hwf')).
  (* the discarded entries are x; the key keeps a value below them *)
  rewrite HS, HL. cbn [hd]. rewrite app_length, Nat.add_sub, skipn_app, skipn_all, Nat.sub_diag. cbn [skipn app].
  destruct (kv_get (b_log (x_b st)) k); [|congruence]. cbn [is_some negb]. rewrite Bool.andb_false_r. reflexivity.
Qed.

Lemma cleanup_restores_flags_refuted : exists st ops k,
  xwf st /\
  let st1 := fst (xstep st XStaging) in
  let h := staging_handle (x_b st) in
  Forall (fun o => scoped_op h (checkpoint_pos (x_b st)) (erase o)) ops /\
  handle_live (x_b (xrun ops st1)) h = true /\
  x_get_flags (fst (xstep (xrun ops st1) (XCleanup h))) k <> x_get_flags st k.
Proof.
  exists (xrun [XWrite [97] [120] []] xbuf_empty), [XFlags [97] [0%nat]], [97].
  split; [apply xwf_reach|].
  split; [repeat constructor|]. split; [vm_compute; reflexivity|].
  vm_compute. discriminate.
Qed.

Lemma wseq_cases st o :
  (x_wseq (fst (xstep st o)) = x_wseq st /\ b_log (x_b (fst (xstep st o))) = b_log (x_b st) /\
   x_kf (fst (xstep st o)) = x_kf st) \/
  x_wseq (fst (xstep st o)) = x_wseq st + 1.
Proof.
  apply (xstep_kinds (fun x x' => (x_wseq x' = x_wseq x /\ b_log (x_b x') = b_log (x_b x) /\ x_kf x' = x_kf x) \/
                                  x_wseq x' = x_wseq x + 1)).
  - intros x. left. repeat split.
  - intros x k f. right. apply xflags_wseq.
  - intros x k v f. right. cbn [xset x_wseq]. apply xflags_wseq.
  - intros x n s c. right. rewrite xrevert_fields. reflexivity.
  - intros x b e bl w E [-> | ->]; [left; repeat split; exact E|right; reflexivity].
Qed.

Lemma wseq_step st o :
  (x_wseq st <= x_wseq (fst (xstep st o))) /\
  (x_wseq (fst (xstep st o)) = x_wseq st ->
   b_log (x_b (fst (xstep st o))) = b_log (x_b st) /\ x_kf (fst (xstep st o)) = x_kf st).
Proof.
  destruct (wseq_cases st o) as [(E & El & Ek)|E]; rewrite E.
  - split; [lia|intros _; split; assumption].
  - split; [lia|intros H; exfalso; lia].
Qed.

Lemma base_log_inv log0 b : inv log0 [length log0] b -> base_log b = log0.
Proof.
  intros (x & extra & Hl & Hs & Hf). unfold base_log. rewrite Hs, rev_app_distr. cbn [rev app].
  rewrite Hl. apply truncate_exact.
Qed.

Lemma snapshot_ignores_staging st ops k lo hi :
  b_stages (x_b st) = [] ->
  (x_snap_get st k = buf_get (x_b st) k) /\
  (let st1 := fst (xstep st XStaging) in
   Forall (fun o => scoped_op 1 (checkpoint_pos (x_b st)) (erase o)) ops ->
   x_snap_get (xrun ops st1) k = buf_get (x_b st) k /\
   x_snap_iter (xrun ops st1) lo hi = range lo hi (buf_map (x_b st)) /\
   x_snap_iter_rev (xrun ops st1) lo hi = rev (range lo hi (buf_map (x_b st)))).
Proof.
  intros H0. split.
  - unfold x_snap_get, base_log. rewrite H0. reflexivity.
  - intros st1 Ho.
    pose proof (invp_staging true (x_b st)) as Hi. rewrite H0 in Hi.
    apply (xinv_run _ _ ops st1) in Hi; [|exact Ho].
    unfold x_snap_get, x_snap_iter, x_snap_iter_rev, x_snap_map. rewrite (base_log_inv _ _ (proj1 Hi)).
    repeat split; reflexivity.
Qed.

Lemma x_snap_map_get st k : kv_get (x_snap_map st) k = x_snap_get st k.
Proof. unfold x_snap_map, x_snap_get. rewrite kv_get_puts. destruct (kv_get _ k); reflexivity. Qed.
