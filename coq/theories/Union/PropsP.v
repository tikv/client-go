(* Union/PropsP.v — C07 for the pipelined buffer's read path. Only statements; proofs in ProofsP.v. *)
From Verif Require Import Base.Lex Union.Model Union.ModelP Union.ProofsMap Union.ProofsBuf Union.ProofsP.

(* In every state reachable from a fresh pipelined buffer (any flushed store to start with) by any sequence of
   writes, staging / release / cleanup, batch gets, flush starts, flush completions and flush waits:
   PipelinedMemDB.get = the latest of (mutable buffer, flushing buffer, flushed store) — the batch-get cache
   never changes an answer, in particular a cached flushed tombstone stays a tombstone — and
   KVUnionStore.Get over it = that, overlaid on the snapshot, empty value = not exist. *)
Theorem C07_pipelined_get : forall store ops snap k,
  let st := prun ops (pbuf_empty store) in
  p_get st k = p_lookup st k /\
  pu_get snap st k =
    match (match p_lookup st k with Some v => Some v | None => kv_get snap k end) with
    | Some v => if is_tomb v then None else Some v
    | None => None
    end.
Proof. exact (fun store ops snap k => pipelined_get _ snap k (pinv_reach store ops)). Qed.
Print Assumptions C07_pipelined_get.

(* Flushing is invisible to reads: starting a flush (no staging level open), its completion, FlushWait and a
   batch get (cache fill) leave the lookup of every key unchanged in every reachable state. *)
Theorem C07_pipelined_flush_invisible : forall store ops o k,
  let st := prun ops (pbuf_empty store) in
  match o with
  | PFlush => b_stages (p_mem st) = []
  | PFlushDone | PFlushWait | PBatchGet _ => True
  | _ => False
  end ->
  p_lookup (fst (pstep st o)) k = p_lookup st k /\ p_get (fst (pstep st o)) k = p_get st k.
Proof. exact (fun store ops o k => pipelined_flush_invisible _ o k (pinv_reach store ops)). Qed.
Print Assumptions C07_pipelined_flush_invisible.

(* PipelinedMemDB.BatchGet and BufferBatchGetter over it, in ANY state and for arbitrary key lists (duplicates
   included): the buffer's map holds exactly the requested keys found in (mutable buffer, flushing buffer,
   flushed store) with those values (flushed deletions as empty values); the snapshot is handed exactly the
   requested keys found in none of them; the transaction's result is the overlay restricted to the requested
   keys — a flushed or buffered deletion hides the snapshot's value. *)
Theorem C07_pipelined_batch_get : forall st snap keys, no_tomb snap -> dsorted false snap ->
  (forall k, kv_get (fst (p_batch_get st keys)) k = if key_mem k keys then p_lookup st k else None) /\
  let '(handed, res) := pu_batch_get snap st keys in
  handed = filter (fun k => match p_lookup st k with None => true | Some _ => false end) keys /\
  dsorted false res /\
  forall k, kv_get res k =
    if key_mem k keys
    then match (match p_lookup st k with Some v => Some v | None => kv_get snap k end) with
         | Some v => if is_tomb v then None else Some v
         | None => None
         end
    else None.
Proof. exact (fun st snap keys Hn _ => pipelined_batch_get st snap keys Hn). Qed.
Print Assumptions C07_pipelined_batch_get.

(* Flush(true) is refused exactly when a staging level is open *)
Theorem C07_pipelined_flush_status : forall st, snd (pstep st PFlush) = 1%nat <-> b_stages (p_mem st) <> [].
Proof. exact flush_status. Qed.
Print Assumptions C07_pipelined_flush_status.

(* regression witness (seed C07-6): reading a cached empty value as "not in the flushed store" resurrects a
   key whose deletion has been flushed: Delete(a); Flush; FlushWait; BatchGet([a]); Get(a) over snapshot {a: x} *)
Theorem C07_pipelined_empty_as_miss_refuted : exists ops snap k,
  let st := prun ops (pbuf_empty []) in
  pu_get snap st k = None /\
  (match (match p_get_empty_as_miss st k with Some v => Some v | None => kv_get snap k end) with
   | Some v => if is_tomb v then None else Some v | None => None end) <> None.
Proof. exact pipelined_empty_as_miss_refuted. Qed.
Print Assumptions C07_pipelined_empty_as_miss_refuted.

Example pipelined_example :
  let snap := [([97], [1]); ([98], [2]); ([99], [3])] in
  let st := prun [PDel [97]; PSet [98] [9]; PFlush; PSet [100] [4]; PBatchGet [[97]; [98]]; PFlushDone; PFlush;
                  PFlushDone; PFlushWait; PBatchGet [[97]; [98]; [101]]; PStaging; PDel [100]; PCleanup 1] (pbuf_empty []) in
  pu_get snap st [97] = None /\ pu_get snap st [98] = Some [9] /\ pu_get snap st [99] = Some [3] /\
  pu_get snap st [100] = Some [4] /\ p_cache st = None /\ p_flushing st = None /\
  p_store st = [([97], []); ([98], [9]); ([100], [4])] /\
  pu_batch_get snap st [[97]; [97]; [99]; [100]] = ([[99]], [([99], [3]); ([100], [4])]).
Proof. vm_compute. repeat split; reflexivity. Qed.
