(* Union/PropsY.v — C07: Dirty and SnapshotSeqNo of the buffer (outer layer `ystep` of ModelX.v: key length
   limit, Dirty, SnapshotSeqNo on top of the extended buffer). Only statements; proofs in ProofsY.v. *)
From Verif Require Import Base.Lex Union.Model Union.ModelX Union.ProofsMap Union.ProofsBuf Union.ProofsX Union.ProofsY.

(* The outer layer steps the extended buffer exactly as `xstep` does, or not at all (empty value, key longer than
   65535, entry too large, dead handle): every theorem about `xstep` states speaks about it. *)
Theorem C07_y_value_part : forall st o,
  y_x (fst (ystep st o)) = y_x st /\ y_sseq (fst (ystep st o)) = y_sseq st /\ y_dirty (fst (ystep st o)) = y_dirty st \/
  y_x (fst (ystep st o)) = fst (xstep (y_x st) o).
Proof. exact ystep_x. Qed.
Print Assumptions C07_y_value_part.

(* Dirty, for every legal operation sequence from the empty buffer (legal: RevertToCheckpoint only to a position
   between the top staging position and the end of the log): a buffer that is NOT dirty holds nothing outside
   its staging levels — the staging-blind view (SnapshotGetter) is empty — and no key carries a persistent flag.
   Nothing more: values written inside an open level do not make it dirty (C07_clean_buffer_may_hold_writes). *)
Theorem C07_dirty : forall ops, ylegal ops ybuf_empty ->
  let st := yrun ops ybuf_empty in
  y_dirty st = false ->
  (forall k, x_snap_get (y_x st) k = None) /\
  (forall k, match x_get_flags (y_x st) k with Some f => N.land f persistent_mask = 0 | None => True end).
Proof. exact (fun ops L => clean_spec _ (yinv_reach ops L)). Qed.
Print Assumptions C07_dirty.

(* Dirty is sticky *)
Theorem C07_dirty_monotone : forall st o, y_dirty (fst (ystep st o)) = false -> y_dirty st = false.
Proof. exact dirty_mono. Qed.
Print Assumptions C07_dirty_monotone.

(* "not dirty" must not be read as "empty" (the confusion behind seeds C07-1/5/8): a clean buffer can hold the
   transaction's writes in an open staging level; Len, not Dirty, tells whether anything is buffered (C07_len_zero) *)
Theorem C07_clean_buffer_may_hold_writes : exists ops k v,
  ylegal ops ybuf_empty /\
  let st := yrun ops ybuf_empty in
  y_dirty st = false /\ buf_get (x_b (y_x st)) k = Some v /\ x_len (y_x st) = 1.
Proof. exact clean_buffer_may_hold_writes. Qed.
Print Assumptions C07_clean_buffer_may_hold_writes.

(* SnapshotSeqNo is a sound staleness detector for the staging-blind view: along every legal sequence from the
   empty buffer, an operation that leaves SnapshotSeqNo unchanged leaves every SnapshotGetter / SnapshotIter /
   SnapshotIterReverse result unchanged. *)
Theorem C07_snapshot_seq : forall ops o, ylegal (ops ++ [o]) ybuf_empty ->
  let st := yrun ops ybuf_empty in
  y_sseq (fst (ystep st o)) = y_sseq st ->
  (forall k, x_snap_get (y_x (fst (ystep st o))) k = x_snap_get (y_x st) k) /\
  (forall lo hi, x_snap_iter (y_x (fst (ystep st o))) lo hi = x_snap_iter (y_x st) lo hi) /\
  (forall lo hi, x_snap_iter_rev (y_x (fst (ystep st o))) lo hi = x_snap_iter_rev (y_x st) lo hi).
Proof. exact snapshot_seq_spec. Qed.
Print Assumptions C07_snapshot_seq.

(* Status of Set / SetWithFlags(k, v): an empty value is refused first (ErrCannotSetNilValue), then a key longer
   than 65535 (ErrKeyTooLarge), then len k + len v above the entry limit (ErrEntryTooLarge) — all three without
   any effect; otherwise the write is applied (WriteSeqNo moves, the value is readable) and the answer is
   ErrTxnTooLarge iff the new Size exceeds the buffer limit — the write stays applied. *)
Theorem C07_write_status : forall st k v f,
  let r := snd (ystep st (XWrite k v f)) in
  let st' := fst (ystep st (XWrite k v f)) in
  let x := y_x st in
  (is_tomb v = true -> r = 1%nat /\ st' = st) /\
  (is_tomb v = false -> max_key_len < len_n k -> r = 5%nat /\ st' = st) /\
  (is_tomb v = false -> len_n k <= max_key_len -> x_elim x < len_n k + len_n v -> r = 3%nat /\ st' = st) /\
  (is_tomb v = false -> len_n k <= max_key_len -> len_n k + len_n v <= x_elim x ->
     x_wseq (y_x st') = x_wseq x + 1 /\ buf_get (x_b (y_x st')) k = Some v /\
     (r = 4%nat <-> x_blim x < x_size (y_x st')) /\ (r = 0%nat <-> x_size (y_x st') <= x_blim x)).
Proof. exact write_status. Qed.
Print Assumptions C07_write_status.

(* non-vacuity *)
Example dirty_example :
  let ops := [XStaging; XWrite [97] [1] []; XCheckpoint; XWrite [98] [2] []; XRevert 1; XStaging; XDelete [99] [];
              XCleanup 2; XFlags [97] [9%nat]] in
  let st := yrun ops ybuf_empty in
  ylegal ops ybuf_empty /\ y_dirty st = false /\ y_sseq st = 1 /\ x_len (y_x st) = 1 /\    (* the revert above stages[0] moved SnapshotSeqNo *)
  y_dirty (fst (ystep st (XRelease 1))) = true /\ y_sseq (fst (ystep st (XRelease 1))) = 2 /\
  y_dirty (fst (ystep st (XFlags [97] [2%nat]))) = true /\        (* KeyLocked is persistent *)
  y_dirty (fst (ystep st (XCleanup 1))) = false /\ x_len (y_x (fst (ystep st (XCleanup 1)))) = 0.
Proof. split; [cbn; repeat split; lia|]. vm_compute. repeat split; reflexivity. Qed.

Example key_limit_example :
  let long := repeat 107 65536 in
  snd (ystep ybuf_empty (XWrite long [1] [])) = 5%nat /\ fst (ystep ybuf_empty (XWrite long [1] [])) = ybuf_empty /\
  fst (ystep ybuf_empty (XFlags long [2%nat])) = ybuf_empty /\
  snd (ystep ybuf_empty (XWrite (tl long) [1] [])) = 0%nat.
Proof. intros long. apply key_limit. unfold long, len_n. rewrite repeat_length. vm_compute. reflexivity. Qed.
