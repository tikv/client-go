(* Union/ProofsMap.v — association lists ordered by key in either direction: lookup, uniqueness of the
   sorted representation, put / delete, range filter, reversal. *)
From Verif Require Import Base.Lex Union.Model.
From Coq Require Import Sorted.

Definition dlt (rv : bool) (a b : key) : Prop := dcmp rv a b = Lt.
Definition dsorted (rv : bool) (l : list kv) : Prop :=
  StronglySorted (fun x y => dlt rv (fst x) (fst y)) l.
Definition above (rv : bool) (x : key) (l : list kv) : Prop := Forall (fun e => dlt rv x (fst e)) l.
Definition no_tomb (l : list kv) : Prop := Forall (fun e => is_tomb (snd e) = false) l.
Notation sorted := (dsorted false).

Lemma dcmp_eq rv a b : dcmp rv a b = Eq <-> a = b.
Proof.
  unfold dcmp. destruct rv; [|apply lex_cmp_eq].
  rewrite <- lex_cmp_eq. destruct (lex_cmp a b); cbn; split; congruence.
Qed.
Lemma dcmp_refl rv a : dcmp rv a a = Eq.
Proof. apply dcmp_eq; reflexivity. Qed.
Lemma dcmp_antisym rv a b : dcmp rv b a = CompOpp (dcmp rv a b).
Proof. unfold dcmp. destruct rv; rewrite (lex_cmp_antisym a b); reflexivity. Qed.
Lemma dcmp_gt_lt rv a b : dcmp rv a b = Gt <-> dlt rv b a.
Proof. unfold dlt. rewrite (dcmp_antisym rv a b). destruct (dcmp rv a b); cbn; split; congruence. Qed.
Lemma dlt_trans rv a b c : dlt rv a b -> dlt rv b c -> dlt rv a c.
Proof.
  unfold dlt, dcmp. destruct rv.
  - rewrite (lex_cmp_antisym b a), (lex_cmp_antisym c b), (lex_cmp_antisym c a).
    rewrite !CompOpp_involutive. intros H1 H2. eapply lex_cmp_lt_trans; eassumption.
  - apply lex_cmp_lt_trans.
Qed.
Lemma dlt_irrefl rv a : ~ dlt rv a a.
Proof. unfold dlt. rewrite dcmp_refl. discriminate. Qed.
Lemma dlt_neq rv a b : dlt rv a b -> a <> b.
Proof. intros H ->. eapply dlt_irrefl; eassumption. Qed.
Lemma dlt_flip a b : dlt true a b <-> dlt false b a.
Proof.
  unfold dlt, dcmp. rewrite (lex_cmp_antisym b a). destruct (lex_cmp b a); cbn; split; congruence.
Qed.
Lemma lex_cmp_dcmp a b : lex_cmp a b = dcmp false a b.
Proof. reflexivity. Qed.

Lemma eqb_spec a b : reflect (a = b) (bytes_eqb a b).
Proof. apply iff_reflect. symmetry. apply bytes_eqb_eq. Qed.
Lemma eqb_refl a : bytes_eqb a a = true.
Proof. apply bytes_eqb_eq; reflexivity. Qed.
Lemma eqb_neq a b : a <> b -> bytes_eqb a b = false.
Proof. destruct (eqb_spec a b); [contradiction|reflexivity]. Qed.

Lemma kv_get_app x y k :
  kv_get (x ++ y) k = match kv_get x k with Some v => Some v | None => kv_get y k end.
Proof.
  induction x as [|[k0 v0] x IH]; cbn [app kv_get]; [reflexivity|].
  destruct (bytes_eqb k0 k); [reflexivity|exact IH].
Qed.

Lemma kv_get_split c (l : list kv) k :
  kv_get l k = match kv_get (firstn c l) k with Some v => Some v | None => kv_get (skipn c l) k end.
Proof. rewrite <- (firstn_skipn c l) at 1. apply kv_get_app. Qed.

Lemma kv_get_some_In l k v : kv_get l k = Some v -> In (k, v) l.
Proof.
  induction l as [|[k' v'] l IH]; cbn [kv_get In]; [discriminate|].
  destruct (eqb_spec k' k) as [->|_]; [intros [= ->]; left; reflexivity|right; apply IH; assumption].
Qed.

Lemma no_tomb_get l k v : no_tomb l -> kv_get l k = Some v -> is_tomb v = false.
Proof. intros Hn G. exact (proj1 (Forall_forall _ l) Hn _ (kv_get_some_In l k v G)). Qed.

Lemma dsorted_inv rv e l : dsorted rv (e :: l) -> dsorted rv l /\ above rv (fst e) l.
Proof. intros H. inversion H; subst. split; assumption. Qed.
Lemma dsorted_cons rv e l : dsorted rv l -> above rv (fst e) l -> dsorted rv (e :: l).
Proof. intros. constructor; assumption. Qed.
Lemma above_trans rv a b l : dlt rv a b -> above rv b l -> above rv a l.
Proof. intros Hab H. eapply Forall_impl; [|exact H]. cbn. intros e He. eapply dlt_trans; eassumption. Qed.
Lemma above_In rv x l e : above rv x l -> In e l -> dlt rv x (fst e).
Proof. intros Ha. exact (proj1 (Forall_forall _ l) Ha e). Qed.
Lemma above_get_none rv x l : above rv x l -> kv_get l x = None.
Proof.
  induction 1 as [|[k v] l H _ IH]; cbn [kv_get]; [reflexivity|].
  rewrite eqb_neq; [exact IH|]. intros ->. exact (dlt_irrefl rv x H).
Qed.

Lemma kv_get_In rv l k v : dsorted rv l -> (kv_get l k = Some v <-> In (k, v) l).
Proof.
  intros Hs. split; [apply kv_get_some_In|].
  induction l as [|[k' v'] l IH]; intros Hin; [contradiction|].
  apply dsorted_inv in Hs. destruct Hs as [Hs Ha]. cbn [kv_get]. destruct Hin as [[= -> ->]|Hin].
  - rewrite eqb_refl. reflexivity.
  - rewrite eqb_neq; [exact (IH Hs Hin)|]. intros ->. exact (dlt_irrefl rv k (above_In rv k l _ Ha Hin)).
Qed.

(* a sorted association list is determined by its lookup function *)
Lemma dsorted_ext rv l1 : forall l2, dsorted rv l1 -> dsorted rv l2 ->
  (forall k, kv_get l1 k = kv_get l2 k) -> l1 = l2.
Proof.
  induction l1 as [|[k1 v1] l1 IH]; intros [|[k2 v2] l2] H1 H2 He.
  - reflexivity.
  - specialize (He k2). cbn [kv_get] in He. rewrite eqb_refl in He. discriminate.
  - specialize (He k1). cbn [kv_get] in He. rewrite eqb_refl in He. discriminate.
  - apply dsorted_inv in H1. destruct H1 as [H1 A1]. apply dsorted_inv in H2. destruct H2 as [H2 A2]. cbn in A1, A2.
    pose proof (He k1) as E1. pose proof (He k2) as E2. cbn [kv_get] in E1, E2. rewrite eqb_refl in E1, E2.
    destruct (eqb_spec k1 k2) as [->|N].
    + rewrite eqb_refl in E1. injection E1 as <-. f_equal. apply IH; try assumption.
      intros k. destruct (eqb_spec k2 k) as [->|Hne].
      * rewrite (above_get_none rv k l1 A1), (above_get_none rv k l2 A2). reflexivity.
      * specialize (He k). cbn [kv_get] in He. rewrite (eqb_neq _ _ Hne) in He. exact He.
    + (* different head keys: each would lie in the other list's tail, hence above the other *)
      exfalso. rewrite (eqb_neq k2 k1) in E1 by congruence. symmetry in E1.
      apply kv_get_some_In, (above_In rv k2 l2 _ A2) in E1. apply kv_get_some_In, (above_In rv k1 l1 _ A1) in E2.
      exact (dlt_irrefl rv k1 (dlt_trans rv k1 k2 k1 E2 E1)).
Qed.

Lemma kv_get_put k v l k' : kv_get (kv_put k v l) k' = if bytes_eqb k k' then Some v else kv_get l k'.
Proof.
  induction l as [|[k0 v0] l IH]; cbn [kv_put kv_get]; [reflexivity|].
  destruct (lex_cmp k k0) eqn:C; cbn [kv_get].
  - apply lex_cmp_eq in C; subst k0. destruct (bytes_eqb k k'); reflexivity.
  - reflexivity.
  - rewrite IH. destruct (eqb_spec k k') as [->|_]; [|reflexivity].
    rewrite eqb_neq; [reflexivity|]. intros ->. rewrite lex_cmp_refl in C. discriminate.
Qed.

Lemma above_put x k v l : dlt false x k -> above false x l -> above false x (kv_put k v l).
Proof.
  intros Hx. induction 1 as [|[k0 v0] l H Ha IH]; cbn [kv_put]; [repeat constructor; exact Hx|].
  destruct (lex_cmp k k0); repeat (constructor; try assumption).
Qed.

Lemma sorted_put k v l : sorted l -> sorted (kv_put k v l).
Proof.
  induction l as [|[k0 v0] l IH]; intros Hs; cbn [kv_put]; [repeat constructor|].
  pose proof Hs as Hs0. apply dsorted_inv in Hs. destruct Hs as [Hs Ha]. cbn in Ha.
  destruct (lex_cmp k k0) eqn:C.
  - apply lex_cmp_eq in C; subst k0. apply dsorted_cons; assumption.
  - apply dsorted_cons; [exact Hs0|]. constructor; [exact C|]. eapply above_trans; [exact C|exact Ha].
  - apply dsorted_cons; [apply IH; exact Hs|]. cbn.
    apply above_put; [|exact Ha]. apply (dcmp_gt_lt false k k0). exact C.
Qed.

Lemma above_del x k l : above false x l -> above false x (kv_del k l).
Proof.
  induction 1 as [|[k0 v0] l H Ha IH]; cbn [kv_del]; [constructor|].
  destruct (lex_cmp k k0); [assumption|constructor; assumption|constructor; assumption].
Qed.

Lemma sorted_del k l : sorted l -> sorted (kv_del k l).
Proof.
  induction l as [|[k0 v0] l IH]; intros Hs; cbn [kv_del]; [constructor|].
  pose proof Hs as Hs0. apply dsorted_inv in Hs. destruct Hs as [Hs Ha].
  destruct (lex_cmp k k0); [exact Hs|exact Hs0|].
  apply dsorted_cons; [apply IH; exact Hs|apply above_del; exact Ha].
Qed.

(* a sorted list seen from a key: the entries before it, its own entry if it has one, the entries after it;
   put and delete only touch the middle *)
Lemma sorted_around k l : sorted l -> exists lo hi,
  kv_get lo k = None /\ kv_get hi k = None /\
  l = lo ++ match kv_get l k with Some v0 => (k, v0) :: hi | None => hi end /\
  (forall v, kv_put k v l = lo ++ (k, v) :: hi) /\ kv_del k l = lo ++ hi.
Proof.
  induction l as [|[k0 v0] l IH]; intros Hs; [exists [], []; repeat split|].
  apply dsorted_inv in Hs. destruct Hs as [Hs Ha]. cbn in Ha. cbn [kv_put kv_del kv_get].
  destruct (lex_cmp k k0) eqn:C.
  - apply lex_cmp_eq in C; subst k0. rewrite eqb_refl.
    exists [], l. repeat split. exact (above_get_none false k l Ha).
  - assert (N : kv_get ((k0, v0) :: l) k = None).
    { apply (above_get_none false). constructor; [exact C|]. eapply above_trans; [exact C|exact Ha]. }
    cbn [kv_get] in N. exists [], ((k0, v0) :: l). cbn [kv_get]. rewrite N. repeat split.
  - assert (N : bytes_eqb k0 k = false) by (apply eqb_neq; intros ->; rewrite lex_cmp_refl in C; discriminate).
    destruct (IH Hs) as (lo & hi & Nlo & Nhi & El & Ep & Ed). rewrite N.
    exists ((k0, v0) :: lo), hi. cbn [kv_get app]. rewrite N, <- El, Ed.
    repeat split; try assumption. intros v. rewrite Ep. reflexivity.
Qed.

Lemma kv_get_del k l k' : sorted l -> kv_get (kv_del k l) k' = if bytes_eqb k k' then None else kv_get l k'.
Proof.
  intros Hs. destruct (sorted_around k l Hs) as (lo & hi & Nlo & Nhi & El & _ & ->).
  rewrite kv_get_app. destruct (eqb_spec k k') as [->|N]; [rewrite Nlo, Nhi; reflexivity|].
  rewrite El, kv_get_app. destruct (kv_get l k); cbn [kv_get]; rewrite ?(eqb_neq k k' N); reflexivity.
Qed.

Lemma length_put k v l : sorted l ->
  length (kv_put k v l) = match kv_get l k with Some _ => length l | None => S (length l) end.
Proof.
  intros Hs. destruct (sorted_around k l Hs) as (lo & hi & _ & _ & El & -> & _).
  destruct (kv_get l k); rewrite El, !app_length; cbn [length]; lia.
Qed.

Lemma length_del k l : sorted l ->
  length (kv_del k l) = match kv_get l k with Some _ => pred (length l) | None => length l end.
Proof.
  intros Hs. destruct (sorted_around k l Hs) as (lo & hi & _ & _ & El & _ & ->).
  destruct (kv_get l k); rewrite El, !app_length; cbn [length]; lia.
Qed.

(* a run of puts, oldest last: lookup finds the newest *)
Lemma kv_get_puts base l k :
  kv_get (fold_right (fun e m => kv_put (fst e) (snd e) m) base l) k =
    match kv_get l k with Some v => Some v | None => kv_get base k end.
Proof.
  induction l as [|[k0 v0] l IH]; cbn [fold_right kv_get fst snd]; [reflexivity|].
  rewrite kv_get_put, IH. destruct (bytes_eqb k0 k); reflexivity.
Qed.

Lemma sorted_puts base l : sorted base -> sorted (fold_right (fun e m => kv_put (fst e) (snd e) m) base l).
Proof. intros Hs. induction l as [|e l IH]; cbn [fold_right]; [exact Hs|apply sorted_put; exact IH]. Qed.

Lemma kv_get_dels ks : forall acc k, sorted acc ->
  sorted (fold_left (fun a k0 => kv_del k0 a) ks acc) /\
  kv_get (fold_left (fun a k0 => kv_del k0 a) ks acc) k = if key_mem k ks then None else kv_get acc k.
Proof.
  induction ks as [|k0 r IH]; intros acc k Hs; cbn [fold_left key_mem]; [split; [exact Hs|reflexivity]|].
  destruct (IH _ k (sorted_del k0 acc Hs)) as [S G]. split; [exact S|]. rewrite G, (kv_get_del _ _ _ Hs).
  destruct (bytes_eqb k0 k); destruct (key_mem k r); reflexivity.
Qed.

Definition overlay_get (snap dirty : list kv) (k : key) : option val :=
  match kv_get dirty k with
  | Some v => if is_tomb v then None else Some v
  | None => kv_get snap k
  end.

Lemma sorted_overlay_step m e : sorted m -> sorted (overlay_step m e).
Proof. intros Hs. unfold overlay_step. destruct (is_tomb (snd e)); [apply sorted_del|apply sorted_put]; exact Hs. Qed.

Lemma kv_get_overlay_step m e k : sorted m ->
  kv_get (overlay_step m e) k =
    if bytes_eqb (fst e) k then (if is_tomb (snd e) then None else Some (snd e)) else kv_get m k.
Proof.
  intros Hs. unfold overlay_step.
  destruct (is_tomb (snd e)); [rewrite (kv_get_del _ _ _ Hs)|rewrite kv_get_put]; reflexivity.
Qed.

Lemma sorted_overlay dirty : forall snap, sorted snap -> sorted (overlay snap dirty).
Proof.
  unfold overlay. induction dirty as [|e d IH]; intros snap Hs; cbn [fold_left]; [exact Hs|].
  apply IH. apply sorted_overlay_step. exact Hs.
Qed.

Lemma kv_get_overlay rv dirty : forall snap k, sorted snap -> dsorted rv dirty ->
  kv_get (overlay snap dirty) k = overlay_get snap dirty k.
Proof.
  unfold overlay, overlay_get. induction dirty as [|[k0 v0] d IH]; intros snap k Hs Hd; cbn [fold_left kv_get]; [reflexivity|].
  apply dsorted_inv in Hd. destruct Hd as [Hd Ha].
  rewrite (IH _ k (sorted_overlay_step _ _ Hs) Hd), (kv_get_overlay_step _ _ _ Hs). cbn [fst snd].
  destruct (eqb_spec k0 k) as [->|_]; [rewrite (above_get_none rv k d Ha)|]; reflexivity.
Qed.

Lemma dsorted_filter rv (f : kv -> bool) l : dsorted rv l -> dsorted rv (filter f l).
Proof.
  induction 1 as [|e l Hs IH Ha]; cbn [filter]; [constructor|].
  destruct (f e); [|exact IH]. constructor; [exact IH|].
  apply Forall_forall. intros y Hy. apply filter_In in Hy. exact (proj1 (Forall_forall _ l) Ha y (proj1 Hy)).
Qed.
Lemma dsorted_range rv lo hi l : dsorted rv l -> dsorted rv (range lo hi l).
Proof. apply dsorted_filter. Qed.

Lemma kv_get_range lo hi l k : kv_get (range lo hi l) k = if in_range lo hi k then kv_get l k else None.
Proof.
  unfold range. induction l as [|[k0 v0] l IH]; cbn [filter kv_get fst]; [destruct (in_range lo hi k); reflexivity|].
  destruct (in_range lo hi k0) eqn:R; cbn [kv_get]; rewrite IH;
    destruct (eqb_spec k0 k) as [->|_]; try rewrite R; reflexivity.
Qed.

Lemma dsorted_app rv l1 l2 : dsorted rv l1 -> dsorted rv l2 ->
  (forall x y, In x l1 -> In y l2 -> dlt rv (fst x) (fst y)) -> dsorted rv (l1 ++ l2).
Proof.
  induction l1 as [|e l1 IH]; intros H1 H2 H; cbn [app]; [exact H2|].
  apply dsorted_inv in H1. destruct H1 as [H1 Ha].
  apply dsorted_cons.
  - apply IH; try assumption. intros x y Hx Hy. apply H; [right; exact Hx|exact Hy].
  - unfold above. apply Forall_app. split; [exact Ha|].
    apply Forall_forall. intros y Hy. apply H; [left; reflexivity|exact Hy].
Qed.

Lemma dsorted_rev l : sorted l -> dsorted true (rev l).
Proof.
  induction l as [|e l IH]; intros Hs; cbn [rev]; [constructor|].
  apply dsorted_inv in Hs. destruct Hs as [Hs Ha].
  apply dsorted_app; [apply IH; exact Hs|constructor; constructor|].
  intros x y Hx [<-|[]]. apply in_rev in Hx. apply dlt_flip. exact (above_In false _ l x Ha Hx).
Qed.

Lemma kv_get_rev l k : sorted l -> kv_get (rev l) k = kv_get l k.
Proof.
  induction l as [|[k0 v0] l IH]; intros Hs; [reflexivity|]. apply dsorted_inv in Hs. destruct Hs as [Hs Ha].
  cbn [rev kv_get]. rewrite kv_get_app, (IH Hs). cbn [kv_get].
  destruct (eqb_spec k0 k) as [->|_]; [rewrite (above_get_none false k l Ha); reflexivity|destruct (kv_get l k); reflexivity].
Qed.

Lemma key_mem_In k l : key_mem k l = true <-> In k l.
Proof.
  induction l as [|k0 l IH]; cbn [key_mem In]; [split; [discriminate|contradiction]|].
  rewrite Bool.orb_true_iff, IH, bytes_eqb_eq. reflexivity.
Qed.
