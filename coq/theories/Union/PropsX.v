(* Union/PropsX.v — C07 on the extended buffer of ModelX.v: key flags, Len, Size, write sequence number, snapshot reads,
   history, InspectStage.
   Only statements; proofs in ProofsX.v, ProofsSize.v (Size) and ProofsHist.v (history, InspectStage). *)
From Verif Require Import Base.Lex Union.Model Union.ModelX Union.ProofsMap Union.ProofsBuf Union.ProofsBatch Union.ProofsX Union.ProofsSize Union.ProofsHist.

(* `sorted` is ProofsMap's notation for `dsorted false`: strictly ascending keys *)

(* The value log and staging stack of the extended buffer evolve exactly as Model.v's buffer (or not at all:
   rejected writes, flag updates, limits) — so C07_cleanup_restores, C07_release_keeps, C07_latest_write_wins,
   C07_iter ... speak about the extended buffer as well. *)
Theorem C07_x_value_part : forall st o,
  x_b (fst (xstep st o)) = x_b st \/ x_b (fst (xstep st o)) = step true (x_b st) (erase o).
Proof. exact xstep_b. Qed.
Print Assumptions C07_x_value_part.

(* Flags of a key = fold of the flag operations in program order: every operation that is not an effective
   Cleanup / RevertToCheckpoint changes the flags of k by `flag_effect` only (a value write of k applies
   DelNeedConstraintCheckInPrewrite and then its ops; UpdateFlags applies its ops; a rejected write, a write
   of another key, Staging, Release, Checkpoint, SetEntrySizeLimit change nothing) ... *)
Theorem C07_flags_fold : forall st o k, is_undo st o = false ->
  x_get_flags (fst (xstep st o)) k = flag_effect st k o.
Proof. exact flags_step. Qed.
Print Assumptions C07_flags_fold.

(* ... and an effective Cleanup / RevertToCheckpoint does NOT roll flags back: the flags of k stay as they
   are, except when the undo removes the first value k ever got (k has an undone entry and no entry below the
   target position) — then only the persistent flags survive, and k disappears if there are none. *)
Theorem C07_flags_undo : forall st n stages' cp' k, sorted (x_kf st) ->
  let log := b_log (x_b st) in
  let cnt := (length log - n)%nat in
  x_get_flags (xrevert_to st n stages' cp') k =
    if is_some (kv_get (firstn cnt log) k) && negb (is_some (kv_get (skipn cnt log) k))
    then mask_flags (x_get_flags st k) else x_get_flags st k.
Proof. exact flags_undo. Qed.
Print Assumptions C07_flags_undo.

(* Consequence, over all operation sequences inside a staging level: for a key that had a buffered value
   before Staging, Cleanup leaves the flags exactly as the operations of the discarded level made them. *)
Theorem C07_flags_survive_cleanup : forall st ops k,
  xwf st -> kv_get (b_log (x_b st)) k <> None ->
  let st1 := fst (xstep st XStaging) in
  let h := staging_handle (x_b st) in
  Forall (fun o => scoped_op h (checkpoint_pos (x_b st)) (erase o)) ops ->
  handle_live (x_b (xrun ops st1)) h = true ->
  x_get_flags (fst (xstep (xrun ops st1) (XCleanup h))) k = x_get_flags (xrun ops st1) k.
Proof. exact flags_survive_cleanup. Qed.
Print Assumptions C07_flags_survive_cleanup.

(* hence "Cleanup restores the flags" is false for the code as it is *)
Theorem C07_cleanup_restores_flags_refuted : exists st ops k,
  xwf st /\
  let st1 := fst (xstep st XStaging) in
  let h := staging_handle (x_b st) in
  Forall (fun o => scoped_op h (checkpoint_pos (x_b st)) (erase o)) ops /\
  handle_live (x_b (xrun ops st1)) h = true /\
  x_get_flags (fst (xstep (xrun ops st1) (XCleanup h))) k <> x_get_flags st k.
Proof. exact cleanup_restores_flags_refuted. Qed.
Print Assumptions C07_cleanup_restores_flags_refuted.

(* Len: in every reachable state the flag table is strictly sorted, Len is its size — the number of existing
   keys: every key with a buffered value (tombstones included) is counted, a key without value is counted iff
   it has a leaf (created by UpdateFlags, or kept for its persistent flags when its first value was undone). *)
Theorem C07_len : forall ops,
  let st := xrun ops xbuf_empty in
  sorted (x_kf st) /\
  x_len st = N.of_nat (length (x_kf st)) /\
  (forall k, buf_get (x_b st) k <> None -> x_get_flags st k <> None).
Proof. exact (fun ops => xwf_len _ (xwf_reach ops)). Qed.
Print Assumptions C07_len.

(* Size: after ANY operation sequence from the empty buffer (writes with flag ops, deletes, flag updates, limits
   and rejected writes, nested staging levels, Release, Cleanup, Checkpoint, RevertToCheckpoint, in-place
   overwrites) the Size counter, updated incrementally as art.go does, equals
       sum over the existing keys k of  len(k) + len(current value of k)
   where the existing keys are those of C07_len (value, tombstone, or flags only); a tombstone and a flags-only
   key count with their key length only; overwritten versions that are still in the value log do NOT count. *)
Theorem C07_size : forall ops,
  let st := xrun ops xbuf_empty in
  x_size st = sum_over (x_kf st) (fun k => len_n k + match buf_get (x_b st) k with Some v => len_n v | None => 0 end).
Proof. exact size_spec. Qed.
Print Assumptions C07_size.

(* Iterator invalidation: the write sequence number never decreases, and whenever it did not move neither the
   value log nor the flag table changed — an iterator that is still accepted iterates unchanged content. *)
Theorem C07_write_seq : forall st o,
  (x_wseq st <= x_wseq (fst (xstep st o))) /\
  (x_wseq (fst (xstep st o)) = x_wseq st ->
   b_log (x_b (fst (xstep st o))) = b_log (x_b st) /\ x_kf (fst (xstep st o)) = x_kf st).
Proof. exact wseq_step. Qed.
Print Assumptions C07_write_seq.

(* SnapshotGetter / SnapshotIter ignore the staging levels: without a level they read the buffer; after the
   outermost Staging, whatever happens inside the level (nested levels, cleanups, checkpoints, reverts, in-place
   overwrites), they keep reading the buffer as it was at that Staging. *)
Theorem C07_snapshot_ignores_staging : forall st ops k lo hi,
  b_stages (x_b st) = [] ->
  (x_snap_get st k = buf_get (x_b st) k) /\
  (let st1 := fst (xstep st XStaging) in
   Forall (fun o => scoped_op 1 (checkpoint_pos (x_b st)) (erase o)) ops ->
   x_snap_get (xrun ops st1) k = buf_get (x_b st) k /\
   x_snap_iter (xrun ops st1) lo hi = range lo hi (buf_map (x_b st)) /\
   x_snap_iter_rev (xrun ops st1) lo hi = rev (range lo hi (buf_map (x_b st)))).
Proof. exact snapshot_ignores_staging. Qed.
Print Assumptions C07_snapshot_ignores_staging.

(* BufferSnapshotBatchGetter (the second copy of the merge loop of batch_getter.go) over the staging-blind view,
   in any state, for arbitrary key lists incl. duplicates: the snapshot is handed exactly the requested keys that
   the base view does not hold; the result is the base view overlaid on the snapshot, restricted to the keys. *)
Theorem C07_snapshot_batch_get : forall st snap keys, no_tomb snap -> dsorted false snap ->
  let '(handed, res) := x_snap_batch_get snap st keys in
  handed = filter (fun k => match x_snap_get st k with None => true | Some _ => false end) keys /\
  dsorted false res /\
  forall k, kv_get res k =
    if key_mem k keys
    then match (match x_snap_get st k with Some v => Some v | None => kv_get snap k end) with
         | Some v => if is_tomb v then None else Some v
         | None => None
         end
    else None.
Proof. exact (fun st snap keys Hn _ => batch_get_via (x_snap_get st) snap (x_snap_map st) keys Hn (fun k _ => x_snap_map_get st k)). Qed.
Print Assumptions C07_snapshot_batch_get.

(* The early return of MemDB.BatchGet on Len() = 0 is sound: in every reachable state Len = 0 means that no key
   is buffered and no key has flags. (Dirty() = false does NOT mean that: see C07_dirty.) *)
Theorem C07_len_zero : forall ops,
  let st := xrun ops xbuf_empty in
  x_len st = 0 -> forall k, buf_get (x_b st) k = None /\ x_get_flags st k = None.
Proof. exact (fun ops => xwf_len_zero _ (xwf_reach ops)). Qed.
Print Assumptions C07_len_zero.

(* SelectValueHistory walks exactly the value-log entries of the key, newest first: it starts at the buffered value
   and a key without buffered value has no history (overwritten-in-place versions are gone, as in the code). *)
Theorem C07_history : forall st k,
  hd_error (x_history st k) = buf_get (x_b st) k /\
  (forall v, In v (x_history st k) <-> In (k, v) (b_log (x_b st))).
Proof. exact history_spec. Qed.
Print Assumptions C07_history.

(* What a value write does to the histories (beyond the definition of C07_history): the histories of all other keys
   are untouched; the written key gets a new newest version, or — in-place overwrite — its newest version, which then
   was a non-empty value of the same length, is REPLACED (that version is gone from the history, as in the code). *)
Theorem C07_history_write : forall st b k v k2,
  x_history st k2 = b_history (x_b st) k2 /\
  (k2 <> k -> b_history (write true b k v) k2 = b_history b k2) /\
  (b_history (write true b k v) k = v :: b_history b k \/
   (b_history (write true b k v) k = v :: tl (b_history b k) /\
    exists o, hd_error (b_history b k) = Some o /\ length o = length v /\ is_tomb o = false)).
Proof. exact (fun st b k v k2 => conj eq_refl (versions_write b k v k2)). Qed.
Print Assumptions C07_history_write.

(* InspectStage(h) reports exactly the keys that have a value-log entry in level h or above (written since
   Staging h and not discarded), each key once, with its CURRENT value and flags. *)
Theorem C07_inspect_stage : forall st h,
  let b := x_b st in
  let pos := nth (length (b_stages b) - h) (b_stages b) O in
  let lvl := firstn (length (b_log b) - pos) (b_log b) in
  NoDup (map (fun e => fst (fst e)) (x_inspect_stage st h)) /\
  (forall k f v, In (k, f, v) (x_inspect_stage st h) <->
                 kv_get lvl k = Some v /\ f = match x_get_flags st k with Some f => f | None => 0 end) /\
  (forall k f v, In (k, f, v) (x_inspect_stage st h) -> buf_get b k = Some v).
Proof. exact inspect_stage. Qed.
Print Assumptions C07_inspect_stage.

(* non-vacuity *)
Example flags_example :
  let st := xrun [XWrite [97] [1] [0%nat]; XStaging; XWrite [98] [2] [2%nat; 0%nat]; XFlags [97] [1%nat; 9%nat];
                  XFlags [99] [10%nat]; XCleanup 1] xbuf_empty in
  x_get_flags st [97] = Some 32 /\        (* PresumeKNE+NeedCheckExists set, deleted in the level, PrewriteOnly kept *)
  x_get_flags st [98] = Some 2 /\         (* first value undone: only KeyLocked (persistent) survives *)
  x_get_flags st [99] = Some 64 /\        (* a flags-only key is untouched by Cleanup *)
  x_len st = 3 /\ x_size st = 4.
Proof. vm_compute. repeat split; reflexivity. Qed.

Example snapshot_example :
  let st := xrun [XWrite [97] [1] []; XStaging; XWrite [97] [2] []; XDelete [98] []; XStaging; XWrite [99] [3] []] xbuf_empty in
  x_snap_get st [97] = Some [1] /\ x_snap_get st [98] = None /\ xm_get [] st [97] = Some [2] /\
  x_snap_iter st [] [] = [([97], [1])] /\
  x_history st [97] = [[2]; [1]] /\
  x_inspect_stage st 1 = [([99], 0, [3]); ([98], 0, []); ([97], 0, [2])] /\
  x_inspect_stage st 2 = [([99], 0, [3])].
Proof. vm_compute. repeat split; reflexivity. Qed.

Example size_example :
  let st := xrun [XWrite [97; 97] [1; 2; 3] []; XWrite [97; 97] [4; 5; 6] []; XWrite [97; 97] [7] []; XDelete [98] [];
                  XFlags [99; 99; 99] [2%nat]; XStaging; XWrite [100] [1; 1] []; XCleanup 1] xbuf_empty in
  length (b_log (x_b st)) = 3%nat /\      (* 123 overwritten in place by 456, then 7 and the tombstone appended *)
  x_len st = 3 /\ x_size st = (2 + 1) + (1 + 0) + (3 + 0).
Proof. vm_compute. repeat split; reflexivity. Qed.

Example limits_example :
  let '(st1, r1) := xstep (fst (xstep xbuf_empty (XLimits 4 6))) (XWrite [97] [1; 2; 3; 4] []) in
  let '(st2, r2) := xstep st1 (XWrite [97] [1; 2] []) in
  let '(st3, r3) := xstep st2 (XWrite [98; 98] [1; 2] []) in
  r1 = 3%nat /\ r2 = 0%nat /\ r3 = 4%nat /\ x_len st3 = 2 /\ x_size st3 = 7 /\ x_wseq st3 = 2.
Proof. vm_compute. repeat split; reflexivity. Qed.
