(* Union/ProofsIter.v — the cursor machine of UnionIter (update_cur / Next, collected) is the two-way merge,
   and the merge of two sorted inputs is the sorted overlay. *)
From Verif Require Import Base.Lex Union.Model Union.ProofsMap.

(* a buffered entry is yielded unless it is a tombstone *)
Definition live_cons (e : kv) (l : list kv) : list kv := if is_tomb (snd e) then l else e :: l.

Lemma above_live_cons rv x e l : above rv x (e :: l) -> above rv x (live_cons e l).
Proof. intros H. unfold live_cons. destruct (is_tomb (snd e)); [inversion H; assumption|exact H]. Qed.

Lemma dsorted_live_cons rv e l : dsorted rv l -> above rv (fst e) l -> dsorted rv (live_cons e l).
Proof. intros Hs Ha. unfold live_cons. destruct (is_tomb (snd e)); [exact Hs|apply dsorted_cons; assumption]. Qed.

Lemma kv_get_live_cons e l k :
  kv_get (live_cons e l) k = if bytes_eqb (fst e) k && negb (is_tomb (snd e)) then Some (snd e) else kv_get l k.
Proof.
  unfold live_cons. destruct e as [k0 v0]. cbn [fst snd]. destruct (is_tomb v0); cbn [kv_get negb];
    destruct (bytes_eqb k0 k); reflexivity.
Qed.

(* the merge written as a plain recursive function *)
Fixpoint merge (rv : bool) (d : list kv) : list kv -> list kv :=
  match d with
  | [] => fun s => s
  | (dk, dv) :: d' =>
      fix inner (s : list kv) : list kv :=
        match s with
        | [] => live_cons (dk, dv) (merge rv d' [])
        | (sk, sv) :: s' =>
            match dcmp rv dk sk with
            | Eq => live_cons (dk, dv) (merge rv d' s')
            | Gt => (sk, sv) :: inner s'
            | Lt => live_cons (dk, dv) (merge rv d' s)
            end
        end
  end.

Lemma merge_cons_nil rv dk dv d' : merge rv ((dk, dv) :: d') [] = live_cons (dk, dv) (merge rv d' []).
Proof. reflexivity. Qed.

Lemma merge_cons_cons rv dk dv d' sk sv s' :
  merge rv ((dk, dv) :: d') ((sk, sv) :: s') =
    match dcmp rv dk sk with
    | Eq => live_cons (dk, dv) (merge rv d' s')
    | Gt => (sk, sv) :: merge rv ((dk, dv) :: d') s'
    | Lt => live_cons (dk, dv) (merge rv d' ((sk, sv) :: s'))
    end.
Proof. reflexivity. Qed.

(* at a valid cursor the loop yields the current entry and goes on from the next position, which IH covers *)
Ltac emit fuel Hf IH :=
  destruct fuel as [|f]; [cbn in Hf; lia|];
  cbn [ucollect u_valid ucur_kv u_dirty u_s u_d hd_error ucur_next tl]; f_equal; apply IH; cbn in Hf |- *; lia.

Lemma ucollect_merge rv : forall d s fuel, (length d + length s < fuel)%nat ->
  ucollect rv fuel (update_cur rv d s) = merge rv d s.
Proof.
  induction d as [|[dk dv] d' IHd].
  - (* dirty exhausted: the snapshot cursor is drained *)
    induction s as [|[sk sv] s' IHs]; intros fuel Hf; [destruct fuel; reflexivity|].
    cbn [update_cur merge]. emit fuel Hf IHs.
  - induction s as [|[sk sv] s' IHs]; intros fuel Hf; cbn [update_cur].
    + rewrite merge_cons_nil. unfold live_cons. cbn [snd].
      destruct (is_tomb dv); [apply IHd; cbn in Hf |- *; lia|emit fuel Hf IHd].
    + rewrite merge_cons_cons. unfold live_cons. cbn [snd]. destruct (dcmp rv dk sk).
      1,2: destruct (is_tomb dv); [apply IHd; cbn in Hf |- *; lia|emit fuel Hf IHd].
      emit fuel Hf IHs.
Qed.

Lemma union_iter_merge rv d s : union_iter rv d s = merge rv d s.
Proof. unfold union_iter. apply ucollect_merge. lia. Qed.

Lemma above_merge rv x : forall d s, above rv x d -> above rv x s -> above rv x (merge rv d s).
Proof.
  induction d as [|[dk dv] d' IHd]; [intros s _ Hs; exact Hs|].
  induction s as [|[sk sv] s' IHs]; intros Hd Hs.
  - rewrite merge_cons_nil. apply above_live_cons. inversion Hd; subst.
    constructor; [assumption|apply IHd; [assumption|constructor]].
  - rewrite merge_cons_cons. inversion Hd; subst. inversion Hs; subst. destruct (dcmp rv dk sk).
    1,2: apply above_live_cons; constructor; [assumption|apply IHd; assumption].
    constructor; [assumption|apply IHs; assumption].
Qed.

(* The cases of the merge of sorted inputs. The buffered head e goes first (yielded, or skipped as a tombstone) when the
   snapshot side s holds no smaller key; the merge goes on with s1, which is s without its entry for that key. Otherwise the
   snapshot head goes first, and its key is not buffered. *)
Lemma merge_cases rv (P : list kv -> list kv -> list kv -> Prop) :
  (forall s, dsorted rv s -> P [] s s) ->
  (forall e d s s1, above rv (fst e) d -> above rv (fst e) s1 ->
     s = s1 \/ (exists sv, s = (fst e, sv) :: s1) ->
     P d s1 (merge rv d s1) -> P (e :: d) s (live_cons e (merge rv d s1))) ->
  (forall d e s, above rv (fst e) d -> above rv (fst e) s ->
     P d s (merge rv d s) -> P d (e :: s) (e :: merge rv d s)) ->
  forall d s, dsorted rv d -> dsorted rv s -> P d s (merge rv d s).
Proof.
  intros Hnil Hbuf Hsnap. induction d as [|[dk dv] d' IHd]; [intros s _ Hs; apply Hnil; exact Hs|].
  induction s as [|[sk sv] s' IHs]; intros Hd Hs.
  - rewrite merge_cons_nil. apply dsorted_inv in Hd. destruct Hd as [Hd Ha].
    apply Hbuf; [exact Ha|constructor|left; reflexivity|apply IHd; assumption].
  - rewrite merge_cons_cons. pose proof Hs as Hs0.
    apply dsorted_inv in Hd. destruct Hd as [Hd Ha]. cbn in Ha.
    apply dsorted_inv in Hs. destruct Hs as [Hs Hb]. cbn in Hb.
    destruct (dcmp rv dk sk) eqn:C.
    + apply dcmp_eq in C; subst sk.
      apply Hbuf; [exact Ha|exact Hb|right; exists sv; reflexivity|apply IHd; assumption].
    + apply Hbuf; [exact Ha| |left; reflexivity|apply IHd; assumption].
      constructor; [exact C|eapply above_trans; [exact C|exact Hb]].
    + apply dcmp_gt_lt in C.
      apply Hsnap; [|exact Hb|apply IHs; [constructor|]; assumption].
      constructor; [exact C|eapply above_trans; [exact C|exact Ha]].
Qed.

Lemma dsorted_merge rv d s : dsorted rv d -> dsorted rv s -> dsorted rv (merge rv d s).
Proof.
  apply (merge_cases rv (fun _ _ m => dsorted rv m)).
  - intros s0 Hs. exact Hs.
  - intros e d0 s0 s1 Ha Hb _ IH. apply dsorted_live_cons; [exact IH|apply above_merge; assumption].
  - intros d0 e s0 Ha Hb IH. apply dsorted_cons; [exact IH|apply above_merge; assumption].
Qed.

Lemma kv_get_merge rv k d s : dsorted rv d -> dsorted rv s ->
  kv_get (merge rv d s) k = overlay_get s d k.
Proof.
  apply (merge_cases rv (fun d s m => kv_get m k = overlay_get s d k)).
  - reflexivity.
  - (* the buffered head decides the lookup of its key (a tombstone hides the snapshot entry), the rest all others *)
    intros [dk dv] d0 s0 s1 Ha Hb Hs IH. rewrite kv_get_live_cons, IH. unfold overlay_get. cbn [kv_get fst snd] in *.
    destruct (eqb_spec dk k) as [->|N]; cbn [andb].
    + rewrite (above_get_none rv k d0 Ha), (above_get_none rv k s1 Hb). destruct (is_tomb dv); reflexivity.
    + destruct Hs as [->|(sv & ->)]; [reflexivity|]. cbn [kv_get]. rewrite (eqb_neq _ _ N). reflexivity.
  - intros d0 [sk sv] s0 Ha _ IH. unfold overlay_get in *. cbn [kv_get fst] in *. rewrite IH.
    destruct (eqb_spec sk k) as [->|_]; [rewrite (above_get_none rv k d0 Ha)|]; reflexivity.
Qed.

(* a sorted list in iteration direction *)
Definition dir (rv : bool) (l : list kv) : list kv := if rv then rev l else l.

Lemma dsorted_dir rv l : sorted l -> dsorted rv (dir rv l).
Proof. destruct rv; [apply dsorted_rev|exact (fun H => H)]. Qed.

Lemma kv_get_dir rv l k : sorted l -> kv_get (dir rv l) k = kv_get l k.
Proof. destruct rv; [apply kv_get_rev|reflexivity]. Qed.

Lemma merge_is_overlay rv lo hi buf snap : sorted buf -> sorted snap ->
  merge rv (dir rv (range lo hi buf)) (dir rv (range lo hi snap)) = dir rv (range lo hi (overlay snap buf)).
Proof.
  intros Hb Hs. pose proof (sorted_overlay buf snap Hs) as Ho. apply (dsorted_ext rv).
  - apply dsorted_merge; apply dsorted_dir, dsorted_range; assumption.
  - apply dsorted_dir, dsorted_range. exact Ho.
  - intros k. rewrite kv_get_merge by (apply dsorted_dir, dsorted_range; assumption).
    unfold overlay_get. rewrite !kv_get_dir by (apply dsorted_range; assumption).
    rewrite !kv_get_range, (kv_get_overlay false buf snap k Hs Hb).
    unfold overlay_get. destruct (in_range lo hi k); reflexivity.
Qed.

Lemma union_get_overlay snap buf k : sorted buf -> sorted snap -> no_tomb snap ->
  union_get snap buf k = kv_get (overlay snap buf) k.
Proof.
  intros Hb Hs Hn. rewrite (kv_get_overlay false buf snap k Hs Hb). unfold union_get, overlay_get.
  destruct (kv_get buf k) as [v|]; [reflexivity|].
  destruct (kv_get snap k) as [v|] eqn:G; [rewrite (no_tomb_get snap k v Hn G)|]; reflexivity.
Qed.

Lemma iter_merge rv d s k : dsorted rv d -> dsorted rv s ->
  dsorted rv (union_iter rv d s) /\ kv_get (union_iter rv d s) k = overlay_get s d k.
Proof.
  intros Hd Hs. rewrite union_iter_merge. split; [apply dsorted_merge|apply kv_get_merge]; assumption.
Qed.

Lemma iter_contract rv d s : dsorted rv d -> dsorted rv s ->
  dsorted rv (union_iter rv d s) /\
  (forall k v, In (k, v) (union_iter rv d s) <-> overlay_get s d k = Some v) /\
  (forall k v, In (k, v) (union_iter rv d s) -> In (k, v) d \/ In (k, v) s).
Proof.
  intros Hd Hs. destruct (iter_merge rv d s [] Hd Hs) as [So _].
  assert (M : forall k v, In (k, v) (union_iter rv d s) <-> overlay_get s d k = Some v).
  { intros k v. rewrite <- (kv_get_In rv _ k v So), (proj2 (iter_merge rv d s k Hd Hs)). reflexivity. }
  split; [exact So|]. split; [exact M|].
  intros k v H. apply M in H. unfold overlay_get in H.
  destruct (kv_get d k) as [w|] eqn:G.
  - destruct (is_tomb w); [discriminate|]. injection H as <-. left. exact (kv_get_some_In d k w G).
  - right. exact (kv_get_some_In s k v H).
Qed.

Lemma iter_spec lo hi buf snap : sorted buf -> sorted snap -> no_tomb snap ->
  us_iter buf snap lo hi = range lo hi (overlay snap buf) /\
  us_iter_rev buf snap lo hi = rev (range lo hi (overlay snap buf)) /\
  dsorted false (us_iter buf snap lo hi) /\
  dsorted true (us_iter_rev buf snap lo hi) /\
  (forall k v, In (k, v) (us_iter buf snap lo hi) <-> in_range lo hi k = true /\ union_get snap buf k = Some v) /\
  (forall k v, In (k, v) (us_iter_rev buf snap lo hi) <-> in_range lo hi k = true /\ union_get snap buf k = Some v).
Proof.
  intros Hb Hs Hn.
  assert (E1 : us_iter buf snap lo hi = range lo hi (overlay snap buf)).
  { unfold us_iter. rewrite union_iter_merge. apply (merge_is_overlay false); assumption. }
  assert (E2 : us_iter_rev buf snap lo hi = rev (range lo hi (overlay snap buf))).
  { unfold us_iter_rev. rewrite union_iter_merge. apply (merge_is_overlay true); assumption. }
  assert (So : sorted (range lo hi (overlay snap buf))).
  { apply dsorted_range. apply sorted_overlay. exact Hs. }
  assert (M : forall k v, In (k, v) (range lo hi (overlay snap buf)) <->
                          in_range lo hi k = true /\ union_get snap buf k = Some v).
  { intros k v. rewrite <- (kv_get_In false _ k v So), kv_get_range, (union_get_overlay snap buf k Hb Hs Hn).
    destruct (in_range lo hi k); intuition congruence. }
  split; [exact E1|]. split; [exact E2|].
  split; [rewrite E1; exact So|]. split; [rewrite E2; apply dsorted_rev; exact So|].
  split; intros k v.
  - rewrite E1. apply M.
  - rewrite E2, <- in_rev. apply M.
Qed.

(* an error comes from a failing position only, and 0 configures none *)
Lemma fails_at_pos f i : fails_at f i = true -> f <> 0%nat.
Proof. intros F ->. discriminate F. Qed.

(* a move of the failing machine stops with the error of a configured failure, or ends at cursor c *)
Definition ends_at fd fs (r : option (ucur * nat * nat)) (c : ucur) : Prop :=
  match r with
  | None => (fd <> 0 \/ fs <> 0)%nat
  | Some (c', _, _) => c' = c
  end.

Lemma update_cur_f_spec rv fd fs : forall d di s si,
  ends_at fd fs (update_cur_f rv fd fs d di s si) (update_cur rv d s).
Proof.
  induction d as [|[dk dv] d' IH]; intros di s si; cbn [update_cur_f update_cur].
  - destruct s; exact eq_refl.
  - destruct s as [|[sk sv] s'].
    + destruct (is_tomb dv); [|exact eq_refl].
      destruct (fails_at fd di) eqn:F; [left; exact (fails_at_pos _ _ F)|apply IH].
    + destruct (dcmp rv dk sk).
      * destruct (is_tomb dv).
        -- destruct (fails_at fd di) eqn:F; [left; exact (fails_at_pos _ _ F)|].
           destruct (fails_at fs si) eqn:G; [right; exact (fails_at_pos _ _ G)|apply IH].
        -- destruct (fails_at fs si) eqn:G; [right; exact (fails_at_pos _ _ G)|exact eq_refl].
      * destruct (is_tomb dv); [|exact eq_refl].
        destruct (fails_at fd di) eqn:F; [left; exact (fails_at_pos _ _ F)|apply IH].
      * exact eq_refl.
Qed.

(* Next on the current side, as `ucollect_f` takes it *)
Definition next_f rv fd fs (c : ucur) di si : option (ucur * nat * nat) :=
  if u_dirty c
  then (if fails_at fd di then None else update_cur_f rv fd fs (tl (u_d c)) (S di) (u_s c) si)
  else (if fails_at fs si then None else update_cur_f rv fd fs (u_d c) di (tl (u_s c)) (S si)).

Lemma ucollect_f_S rv fd fs f c di si :
  ucollect_f rv fd fs (S f) (Some (c, di, si)) =
    if u_valid c then
      match ucur_kv c with
      | Some e => let '(l, err) := ucollect_f rv fd fs f (next_f rv fd fs c di si) in (e :: l, err)
      | None => ([], false)
      end
    else ([], false).
Proof. reflexivity. Qed.

Lemma next_f_spec rv fd fs c di si : ends_at fd fs (next_f rv fd fs c di si) (ucur_next rv c).
Proof.
  unfold next_f, ucur_next. destruct (u_dirty c).
  - destruct (fails_at fd di) eqn:F; [left; exact (fails_at_pos _ _ F)|apply update_cur_f_spec].
  - destruct (fails_at fs si) eqn:G; [right; exact (fails_at_pos _ _ G)|apply update_cur_f_spec].
Qed.

(* what the failing machine yields is a prefix of the merge, the whole of it unless the error ended the iteration *)
Lemma ucollect_f_prefix rv fd fs : forall fuel c di si, exists rest,
  ucollect rv fuel c = fst (ucollect_f rv fd fs fuel (Some (c, di, si))) ++ rest /\
  (snd (ucollect_f rv fd fs fuel (Some (c, di, si))) = false -> rest = []).
Proof.
  induction fuel as [|f IH]; intros c di si; [exists []; split; reflexivity|].
  rewrite ucollect_f_S. cbn [ucollect].
  destruct (u_valid c); [|exists []; split; reflexivity].
  destruct (ucur_kv c) as [e|]; [|exists []; split; reflexivity].
  pose proof (next_f_spec rv fd fs c di si) as N.
  destruct (next_f rv fd fs c di si) as [[[c' di'] si']|].
  - cbn in N. subst c'. destruct (IH (ucur_next rv c) di' si') as (rest & E1 & E2).
    destruct (ucollect_f rv fd fs f _) as [l err]. cbn [fst snd] in *.
    exists rest. split; [rewrite E1; reflexivity|exact E2].
  - destruct f; cbn [ucollect ucollect_f fst snd app]; [exists []; split; reflexivity|].
    eexists; split; [reflexivity|discriminate].
Qed.

Lemma ucollect_f_never rv : forall fuel c di si,
  ucollect_f rv 0 0 fuel (Some (c, di, si)) = (ucollect rv fuel c, false).
Proof.
  induction fuel as [|f IH]; intros c di si; [reflexivity|]. rewrite ucollect_f_S. cbn [ucollect].
  destruct (u_valid c); [|reflexivity]. destruct (ucur_kv c) as [e|]; [|reflexivity].
  pose proof (next_f_spec rv 0 0 c di si) as N.
  destruct (next_f rv 0 0 c di si) as [[[c' di'] si']|]; [|destruct N as [H|H]; contradiction H; reflexivity].
  cbn in N. subst c'. rewrite IH. reflexivity.
Qed.

Lemma iter_error_path rv fd fs d s :
  (exists rest, union_iter rv d s = fst (union_iter_f rv fd fs d s) ++ rest /\
                (snd (union_iter_f rv fd fs d s) = false -> rest = [])) /\
  union_iter_f rv 0 0 d s = (union_iter rv d s, false).
Proof.
  unfold union_iter_f, union_iter. split.
  - pose proof (update_cur_f_spec rv fd fs d 0 s 0) as U.
    destruct (update_cur_f rv fd fs d 0 s 0) as [[[c di'] si']|].
    + cbn in U. subst c. apply ucollect_f_prefix.
    + cbn [ucollect_f fst snd app]. eexists. split; [reflexivity|discriminate].
  - pose proof (update_cur_f_spec rv 0 0 d 0 s 0) as U.
    destruct (update_cur_f rv 0 0 d 0 s 0) as [[[c di'] si']|]; [|destruct U as [H|H]; contradiction H; reflexivity].
    cbn in U. subst c. apply ucollect_f_never.
Qed.
