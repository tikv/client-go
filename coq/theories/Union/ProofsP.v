(* Union/ProofsP.v — the batch-get cache of the pipelined buffer never changes an answer:
   get = latest of (mutable buffer, flushing buffer, flushed store). *)
From Verif Require Import Base.Lex Union.Model Union.ModelP Union.ProofsMap Union.ProofsBuf Union.ProofsBatch.

(* what lies below the mutable buffer: the flushing buffer, then the flushed store *)
Definition below (st : pbuf) (k : key) : option val :=
  match (match p_flushing st with Some l => kv_get l k | None => None end) with
  | Some v => Some v
  | None => kv_get (p_store st) k
  end.

Definition pinv (st : pbuf) : Prop :=
  (forall c k e, p_cache st = Some c -> cache_get c k = Some e ->
                 buf_get (p_mem st) k <> None \/ below st k = e) /\
  (p_done st = true -> forall l k v, p_flushing st = Some l -> kv_get l k = Some v -> kv_get (p_store st) k = Some v).

Lemma kv_get_flush_into store log k :
  kv_get (flush_into store log) k = match kv_get log k with Some v => Some v | None => kv_get store k end.
Proof. apply kv_get_puts. Qed.

Lemma p_lookup_below st k :
  p_lookup st k = match buf_get (p_mem st) k with Some v => Some v | None => below st k end.
Proof. unfold p_lookup, p_local, below. destruct (buf_get (p_mem st) k); reflexivity. Qed.

(* a cache entry is consulted only when both buffers miss, and then it is what the store holds *)
Lemma p_get_spec st k : pinv st -> p_get st k = p_lookup st k.
Proof.
  intros [J _]. unfold p_get. rewrite p_lookup_below. unfold p_local.
  destruct (buf_get (p_mem st) k) as [v|] eqn:G; [reflexivity|]. unfold below.
  destruct (match p_flushing st with Some l => kv_get l k | None => None end) eqn:F; [reflexivity|].
  destruct (p_cache st) as [c|]; [|reflexivity]. destruct (cache_get c k) as [e|] eqn:E; [|reflexivity].
  destruct (J c k e eq_refl E) as [H|H]; [congruence|]. unfold below in H. rewrite F in H. symmetry; exact H.
Qed.

Lemma complete_below st k : below (p_complete st) k = below st k.
Proof.
  unfold p_complete, below. destruct (p_flushing st) as [l|] eqn:F; [|rewrite F; reflexivity].
  destruct (p_done st); cbn [p_flushing p_store]; rewrite ?F; [reflexivity|].
  rewrite kv_get_flush_into. destruct (kv_get l k); reflexivity.
Qed.

Lemma complete_fields st :
  p_mem (p_complete st) = p_mem st /\ p_cache (p_complete st) = p_cache st /\ p_flushing (p_complete st) = p_flushing st.
Proof.
  unfold p_complete. destruct (p_flushing st) eqn:F; [destruct (p_done st)|]; cbn [p_mem p_cache p_flushing];
    rewrite ?F; repeat split; reflexivity.
Qed.

Lemma complete_pinv st : pinv st -> pinv (p_complete st) /\ (forall l, p_flushing st = Some l -> p_done (p_complete st) = true).
Proof.
  intros [J K]. destruct (complete_fields st) as (Em & Ec & Ef). split; [split|].
  - intros c k e Hc He. rewrite Em, complete_below. rewrite Ec in Hc. exact (J c k e Hc He).
  - unfold p_complete. destruct (p_flushing st) as [l|] eqn:F; [|rewrite F; intros _ l k v H; discriminate].
    destruct (p_done st) eqn:D; [rewrite F, D; exact (fun _ => K eq_refl)|].
    cbn [p_done p_flushing p_store]. intros _ l' k v [= <-] H. rewrite kv_get_flush_into, H. reflexivity.
  - intros l F. unfold p_complete. rewrite F. destruct (p_done st) eqn:D; [exact D|reflexivity].
Qed.

Lemma wait_below st k : pinv st -> kv_get (p_store (p_complete st)) k = below st k.
Proof.
  intros H. destruct (complete_pinv st H) as [[J1 K1] D1].
  rewrite <- complete_below. unfold below.
  destruct (p_flushing (p_complete st)) as [l|] eqn:F; [|reflexivity].
  destruct (kv_get l k) as [v|] eqn:G; [|reflexivity].
  assert (F0 : p_flushing st = Some l) by (rewrite <- (proj2 (proj2 (complete_fields st))); exact F).
  exact (K1 (D1 l F0) l k v eq_refl G).
Qed.

Lemma buf_get_step_some o m k : non_undo o = true -> buf_get m k <> None -> buf_get (step true m o) k <> None.
Proof.
  intros Hn H. rewrite (buf_get_step true m o k Hn).
  destruct o as [k' v|k'| |h|h| |n]; cbn [last_write]; try exact H.
  - destruct (bytes_eqb k' k && negb (is_tomb v)); [discriminate|exact H].
  - destruct (bytes_eqb k' k); [discriminate|exact H].
Qed.

Lemma pinv_on_mem st m' :
  pinv st -> (forall k, buf_get (p_mem st) k <> None -> buf_get m' k <> None) ->
  pinv (mk_pbuf m' (p_flushing st) (p_done st) (p_store st) (p_cache st)).
Proof.
  intros [J K] Hm. split; [|exact K].
  intros c k e Hc He. cbn [p_cache p_mem] in *. destruct (J c k e Hc He) as [H|H]; [left; apply Hm; exact H|right; exact H].
Qed.

Lemma pinv_no_cache m f d s : (d = true -> forall l k v, f = Some l -> kv_get l k = Some v -> kv_get s k = Some v) ->
  pinv (mk_pbuf m f d s None).
Proof. intros K. split; [intros c k e H; discriminate|exact K]. Qed.

Lemma batch_loop_cons st k r c :
  p_batch_loop st (k :: r) c =
    let rest := p_batch_loop st r ((k, p_lookup st k) :: c) in
    (match p_lookup st k with Some v => (k, v) :: fst rest | None => fst rest end, snd rest).
Proof. cbn [p_batch_loop]. fold (p_lookup st k). destruct (p_batch_loop st r _); reflexivity. Qed.

Lemma p_batch_get_eq st keys :
  let l := p_batch_loop st keys (match p_cache st with Some c => c | None => [] end) in
  p_batch_get st keys = (fst l, mk_pbuf (p_mem st) (p_flushing st) (p_done st) (p_store st) (Some (snd l))).
Proof. unfold p_batch_get. destruct (p_batch_loop st keys _); reflexivity. Qed.

(* the cache only ever learns lookups *)
Lemma batch_loop_cache st keys : forall c k e,
  cache_get (snd (p_batch_loop st keys c)) k = Some e -> cache_get c k = Some e \/ e = p_lookup st k.
Proof.
  induction keys as [|k0 r IH]; intros c k e H; [left; exact H|].
  rewrite batch_loop_cons in H. cbn [snd] in H. destruct (IH _ k e H) as [H1|H1]; [|right; exact H1].
  cbn [cache_get] in H1. destruct (eqb_spec k0 k) as [->|_]; [right; congruence|left; exact H1].
Qed.

Lemma batch_loop_map st keys : forall c k,
  kv_get (fst (p_batch_loop st keys c)) k = if key_mem k keys then p_lookup st k else None.
Proof.
  induction keys as [|k0 r IH]; intros c k; [reflexivity|]. rewrite batch_loop_cons. cbn [fst key_mem].
  destruct (eqb_spec k0 k) as [->|N]; cbn [orb].
  - destruct (p_lookup st k) eqn:P; [cbn [kv_get]; rewrite eqb_refl; reflexivity|].
    rewrite IH, P. destruct (key_mem k r); reflexivity.
  - destruct (p_lookup st k0); cbn [kv_get]; rewrite ?(eqb_neq _ _ N); apply IH.
Qed.

Lemma p_batch_get_map st keys k :
  kv_get (fst (p_batch_get st keys)) k = if key_mem k keys then p_lookup st k else None.
Proof. rewrite p_batch_get_eq. apply batch_loop_map. Qed.

Lemma pinv_batch st keys : pinv st -> pinv (snd (p_batch_get st keys)).
Proof.
  intros [J K]. rewrite p_batch_get_eq. cbn [snd]. split; [|exact K].
  intros c' k e [= <-] He. cbn [p_mem].
  destruct (batch_loop_cache st keys _ k e He) as [H|H].
  - destruct (p_cache st) as [c0|]; [|discriminate]. exact (J c0 k e eq_refl H).
  - rewrite H, p_lookup_below. destruct (buf_get (p_mem st) k); [left; discriminate|right; reflexivity].
Qed.

Lemma pinv_step st o : pinv st -> pinv (fst (pstep st o)).
Proof.
  intros H. pose proof H as [J K].
  destruct o as [k v|k| |h|h|keys| | |]; cbn [pstep fst].
  1-4: apply pinv_on_mem; [exact H|]; intros k0; apply buf_get_step_some; reflexivity.
  - apply pinv_no_cache. exact K.
  - apply pinv_batch. exact H.
  - destruct (b_stages (p_mem st)); [|apply pinv_no_cache; exact K].
    apply pinv_no_cache. discriminate.
  - apply complete_pinv. exact H.
  - destruct (complete_pinv st H) as [[J1 K1] D1]. destruct (complete_fields st) as (Em & Ec & Ef).
    split; [|intros _ l k v F; discriminate]. cbn [p_cache p_mem].
    intros c k e Hc He. destruct (J1 c k e Hc He) as [H1|H1]; [left; exact H1|right].
    rewrite <- H1, complete_below. unfold below at 1. cbn [p_flushing p_store]. apply wait_below. exact H.
Qed.

Lemma pinv_run ops st : pinv st -> pinv (prun ops st).
Proof. apply (fold_left_inv0 _ pinv). intros a b. apply pinv_step. Qed.

Lemma pinv_empty store : pinv (pbuf_empty store).
Proof. apply pinv_no_cache. intros _ l k v H; discriminate. Qed.

Lemma p_lookup_flush_ops st o k : pinv st ->
  match o with PFlushDone | PFlushWait | PBatchGet _ => True | _ => False end ->
  p_lookup (fst (pstep st o)) k = p_lookup st k.
Proof.
  intros H Ho. rewrite !p_lookup_below.
  destruct o as [k0 v|k0| |h|h|keys| | |]; try contradiction; cbn [pstep fst].
  - rewrite p_batch_get_eq. reflexivity.
  - destruct (complete_fields st) as (Em & _ & _). rewrite Em, complete_below. reflexivity.
  - destruct (complete_fields st) as (Em & Ec & Ef).
    cbn [p_mem]. rewrite Em. destruct (buf_get (p_mem st) k); [reflexivity|].
    unfold below at 1. cbn [p_flushing p_store]. apply wait_below. exact H.
Qed.

(* Flush(true) with no staging level: the mutable content moves to the flushing buffer, nothing is lost *)
Lemma p_lookup_flush st k : pinv st -> b_stages (p_mem st) = [] ->
  p_lookup (fst (pstep st PFlush)) k = p_lookup st k.
Proof.
  intros H Hs. cbn [pstep]. rewrite Hs. cbn [fst]. rewrite !p_lookup_below.
  destruct (complete_fields st) as (Em & Ec & Ef).
  cbn [p_mem]. unfold buf_get at 1. cbn [mbuf_empty b_log kv_get].
  unfold below at 1. cbn [p_flushing p_store]. rewrite Em. fold (buf_get (p_mem st) k).
  destruct (buf_get (p_mem st) k) as [v|]; [reflexivity|]. apply wait_below. exact H.
Qed.

Lemma flush_status st : snd (pstep st PFlush) = 1%nat <-> b_stages (p_mem st) <> [].
Proof. cbn [pstep]. destruct (b_stages (p_mem st)); cbn [snd]; split; congruence. Qed.

Lemma pinv_reach store ops : pinv (prun ops (pbuf_empty store)).
Proof. apply pinv_run. apply pinv_empty. Qed.

Lemma pipelined_get st snap k : pinv st ->
  p_get st k = p_lookup st k /\
  pu_get snap st k =
    match (match p_lookup st k with Some v => Some v | None => kv_get snap k end) with
    | Some v => if is_tomb v then None else Some v
    | None => None
    end.
Proof.
  intros J. pose proof (p_get_spec st k J) as E.
  split; [exact E|]. unfold pu_get. rewrite E. reflexivity.
Qed.

Lemma pipelined_flush_invisible st o k : pinv st ->
  match o with
  | PFlush => b_stages (p_mem st) = []
  | PFlushDone | PFlushWait | PBatchGet _ => True
  | _ => False
  end ->
  p_lookup (fst (pstep st o)) k = p_lookup st k /\ p_get (fst (pstep st o)) k = p_get st k.
Proof.
  intros J Ho.
  assert (E : p_lookup (fst (pstep st o)) k = p_lookup st k).
  { destruct o; try contradiction; [apply p_lookup_flush_ops|apply p_lookup_flush|apply p_lookup_flush_ops..]; assumption. }
  split; [exact E|]. rewrite (p_get_spec _ k (pinv_step st o J)), (p_get_spec _ k J). exact E.
Qed.

(* seed C07-6: Delete(a); Flush; FlushWait; BatchGet([a]); Get(a) over snapshot {a: x} *)
Lemma pipelined_empty_as_miss_refuted : exists ops snap k,
  let st := prun ops (pbuf_empty []) in
  pu_get snap st k = None /\
  (match (match p_get_empty_as_miss st k with Some v => Some v | None => kv_get snap k end) with
   | Some v => if is_tomb v then None else Some v | None => None end) <> None.
Proof.
  exists [PDel [97]; PFlush; PFlushDone; PFlushWait; PBatchGet [[97]]], [([97], [120])], [97].
  vm_compute. split; [reflexivity|discriminate].
Qed.

Lemma pipelined_batch_get st snap keys : no_tomb snap ->
  (forall k, kv_get (fst (p_batch_get st keys)) k = if key_mem k keys then p_lookup st k else None) /\
  let '(handed, res) := pu_batch_get snap st keys in
  handed = filter (fun k => match p_lookup st k with None => true | Some _ => false end) keys /\
  dsorted false res /\
  forall k, kv_get res k =
    if key_mem k keys
    then match (match p_lookup st k with Some v => Some v | None => kv_get snap k end) with
         | Some v => if is_tomb v then None else Some v
         | None => None
         end
    else None.
Proof.
  intros Hn. split; [intros k; apply p_batch_get_map|].
  apply (batch_get_via (p_lookup st)); [exact Hn|].
  intros k M. rewrite p_batch_get_map, M. reflexivity.
Qed.
