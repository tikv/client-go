(* Union/ProofsHist.v — what SelectValueHistory and InspectStage read off the value log: the versions of a key,
   newest first, and the keys written in a staging level. *)
From Verif Require Import Base.Lex Union.Model Union.ModelX Union.ProofsMap Union.ProofsBuf.

Definition versions (l : list kv) (k : key) : list val := map snd (filter (fun e => bytes_eqb (fst e) k) l).

Lemma versions_cons k0 v0 l k : versions ((k0, v0) :: l) k = if bytes_eqb k0 k then v0 :: versions l k else versions l k.
Proof. unfold versions. cbn [filter fst]. destruct (bytes_eqb k0 k); reflexivity. Qed.

Lemma versions_app x y k : versions (x ++ y) k = versions x k ++ versions y k.
Proof. unfold versions. rewrite filter_app, map_app. reflexivity. Qed.

Lemma versions_hd l k : hd_error (versions l k) = kv_get l k.
Proof.
  induction l as [|[k0 v0] l IH]; [reflexivity|]. rewrite versions_cons. cbn [kv_get].
  destruct (bytes_eqb k0 k); [reflexivity|exact IH].
Qed.

Lemma versions_none l k : kv_get l k = None -> versions l k = [].
Proof. rewrite <- versions_hd. destruct (versions l k); [reflexivity|discriminate]. Qed.

Lemma history_spec st k :
  hd_error (x_history st k) = buf_get (x_b st) k /\
  (forall v, In v (x_history st k) <-> In (k, v) (b_log (x_b st))).
Proof.
  split; [apply versions_hd|]. intros v. unfold x_history. rewrite in_map_iff. split.
  - intros ([k0 v0] & E & H). cbn in E. subst v0. apply filter_In in H. destruct H as [H1 H2].
    cbn in H2. apply bytes_eqb_eq in H2. subst k0. exact H1.
  - intros H. exists (k, v). split; [reflexivity|]. apply filter_In. split; [exact H|]. cbn. apply eqb_refl.
Qed.

Lemma versions_write b k v k2 :
  (k2 <> k -> versions (b_log (write true b k v)) k2 = versions (b_log b) k2) /\
  (versions (b_log (write true b k v)) k = v :: versions (b_log b) k \/
   (versions (b_log (write true b k v)) k = v :: tl (versions (b_log b) k) /\
    exists o, hd_error (versions (b_log b) k) = Some o /\ length o = length v /\ is_tomb o = false)).
Proof.
  unfold write. destruct (try_swap (b_log b) k v (room_of b)) as [l'|] eqn:T; cbn [b_log].
  - destruct (try_swap_some _ _ _ _ _ T) as (x & o & y & E & -> & Nx & _ & To & Lo). rewrite E. split.
    + intros N. rewrite !versions_app, !versions_cons, (eqb_neq k k2) by congruence. reflexivity.
    + right. rewrite !versions_app, !versions_cons, eqb_refl, (versions_none x k Nx). cbn [app tl hd_error].
      split; [reflexivity|]. exists o. repeat split; assumption.
  - split; [intros N|left]; rewrite versions_cons; [rewrite eqb_neq by congruence|rewrite eqb_refl]; reflexivity.
Qed.

Lemma heads_only_spec l : forall seen k v,
  In (k, v) (heads_only seen l) <-> key_mem k seen = false /\ kv_get l k = Some v.
Proof.
  induction l as [|[k0 v0] r IH]; intros seen k v; cbn [heads_only kv_get].
  - split; [contradiction|intros [_ H]; discriminate].
  - destruct (key_mem k0 seen) eqn:M.
    + rewrite IH. destruct (eqb_spec k0 k) as [->|_]; [|reflexivity].
      rewrite M. split; intros [H _]; discriminate.
    + cbn [In]. rewrite IH. cbn [key_mem]. destruct (eqb_spec k0 k) as [->|N]; cbn [orb].
      * split; [|intros [_ [= ->]]; left; reflexivity].
        intros [[= ->]|[H _]]; [split; [exact M|reflexivity]|discriminate].
      * split; [|intros H; right; exact H]. intros [[= -> ->]|H]; [contradiction N; reflexivity|exact H].
Qed.

Lemma heads_only_nodup l : forall seen, NoDup (map fst (heads_only seen l)).
Proof.
  induction l as [|[k0 v0] r IH]; intros seen; cbn [heads_only]; [constructor|].
  destruct (key_mem k0 seen); [apply IH|]. cbn [map fst]. constructor; [|apply IH].
  intros H. apply in_map_iff in H. destruct H as ([k v] & E & H). cbn in E. subst k.
  apply heads_only_spec in H. destruct H as [H _]. cbn [key_mem] in H. rewrite eqb_refl in H. discriminate.
Qed.

Lemma inspect_stage st h :
  let b := x_b st in
  let pos := nth (length (b_stages b) - h) (b_stages b) O in
  let lvl := firstn (length (b_log b) - pos) (b_log b) in     (* the log entries of level h and above *)
  NoDup (map (fun e => fst (fst e)) (x_inspect_stage st h)) /\
  (forall k f v, In (k, f, v) (x_inspect_stage st h) <->
                 kv_get lvl k = Some v /\ f = match x_get_flags st k with Some f => f | None => 0 end) /\
  (forall k f v, In (k, f, v) (x_inspect_stage st h) -> buf_get b k = Some v).
Proof.
  intros b pos lvl. unfold x_inspect_stage. fold b. fold pos. fold lvl. set (out := map _ (heads_only [] lvl)).
  assert (S : forall k f v, In (k, f, v) out <->
              kv_get lvl k = Some v /\ f = match x_get_flags st k with Some f => f | None => 0 end).
  { intros k f v. unfold out. rewrite in_map_iff. split.
    - intros ([k0 v0] & E & H). cbn [fst snd] in E. injection E as -> <- ->.
      apply heads_only_spec in H. destruct H as [_ H]. split; [exact H|reflexivity].
    - intros [H ->]. exists (k, v). split; [reflexivity|]. apply heads_only_spec. split; [reflexivity|exact H]. }
  split; [|split; [exact S|]].
  - unfold out. rewrite map_map. cbn [fst]. apply heads_only_nodup.
  - intros k f v H. apply S in H. destruct H as [H _]. unfold buf_get, lvl in *.
    rewrite (kv_get_split (length (b_log b) - pos)), H. reflexivity.
Qed.
