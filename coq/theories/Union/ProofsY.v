(* Union/ProofsY.v — Dirty and SnapshotSeqNo (ystep of ModelX.v): the snapshot sequence number moves whenever the
   staging-blind view may change; a buffer that is not dirty holds nothing outside its staging levels. *)
From Verif Require Import Base.Lex Union.Model Union.ModelX Union.ProofsMap Union.ProofsBuf Union.ProofsX.

(* RevertToCheckpoint is only legal to a position between the top staging position and the end of the log *)
Definition legal (b : mbuf) (o : xop) : Prop :=
  match o with
  | XRevert n => (hd O (b_stages b) <= n <= length (b_log b))%nat
  | _ => True
  end.

Fixpoint ylegal (ops : list xop) (st : ybuf) : Prop :=
  match ops with
  | [] => True
  | o :: r => legal (x_b (y_x st)) o /\ ylegal r (fst (ystep st o))
  end.

Lemma revert_legalb_spec b n : revert_legalb b n = true <-> legal b (XRevert n).
Proof.
  unfold revert_legalb, legal. rewrite Bool.andb_true_iff, !Nat.leb_le. reflexivity.
Qed.

(* the operation gets past the checks of the outer layer and of art.Set, or finds its handle live *)
Definition applies (x : xbuf) (o : xop) : bool :=
  match o with
  | XWrite k v _ => negb (is_tomb v) && negb (max_key_len <? len_n k) && negb (Nat.eqb (snd (xstep x o)) 3)
  | XDelete k _ => negb (max_key_len <? len_n k) && negb (Nat.eqb (snd (xstep x o)) 3)
  | XFlags k _ => negb (max_key_len <? len_n k)
  | XRelease h | XCleanup h => handle_live (x_b x) h
  | _ => true
  end.

Definition nostage (x : xbuf) : bool := match b_stages (x_b x) with [] => true | _ => false end.

Definition sets_dirty (x : xbuf) (o : xop) : bool :=
  match o with
  | XWrite k _ _ | XDelete k _ | XFlags k _ => nostage x || persistent_nonzero (fst (xstep x o)) k
  | XRelease h => Nat.eqb h 1 && negb (Nat.eqb (hd O (b_stages (x_b x))) (length (b_log (x_b x))))
  | _ => false
  end.

Definition bumps_sseq (x : xbuf) (o : xop) : bool :=
  match o with
  | XWrite _ _ _ | XDelete _ _ | XFlags _ _ => nostage x
  | XRelease h | XCleanup h => Nat.eqb h 1
  | XRevert n => match rev (b_stages (x_b x)) with [] => true | p0 :: _ => Nat.ltb p0 n end
  | _ => false
  end.

(* an operation that does not apply changes nothing; one that applies steps the extended buffer *)
Lemma ystep_nf st o :
  fst (ystep st o) =
    if applies (y_x st) o
    then mk_ybuf (fst (xstep (y_x st) o)) (y_dirty st || sets_dirty (y_x st) o)
                 (if bumps_sseq (y_x st) o then y_sseq st + 1 else y_sseq st)
    else st.
Proof.
  destruct o as [k v f|k f|k f| |h|h| |n|e b]; cbn [ystep applies sets_dirty bumps_sseq]; fold (nostage (y_x st)).
  (* Staging, Checkpoint, Revert, SetEntrySizeLimit: always applied, never dirtying *)
  4,7-9: destruct (xstep (y_x st) _) as [x' r]; cbn [fst]; rewrite Bool.orb_false_r; reflexivity.
  - destruct (is_tomb v); [reflexivity|]. destruct (max_key_len <? len_n k); [reflexivity|].
    destruct (xstep (y_x st) (XWrite k v f)) as [x' r]. cbn [fst snd negb andb].
    destruct (Nat.eqb r 3); cbn [fst negb]; rewrite ?Bool.orb_assoc; reflexivity.
  - destruct (max_key_len <? len_n k); [reflexivity|].
    destruct (xstep (y_x st) (XDelete k f)) as [x' r]. cbn [fst snd negb andb].
    destruct (Nat.eqb r 3); cbn [fst negb]; rewrite ?Bool.orb_assoc; reflexivity.
  - destruct (max_key_len <? len_n k); [reflexivity|].
    destruct (xstep (y_x st) (XFlags k f)) as [x' r]. cbn [fst negb]. rewrite Bool.orb_assoc. reflexivity.
  - destruct (xstep (y_x st) (XRelease h)) as [x' r]. destruct (handle_live (x_b (y_x st)) h); [|reflexivity].
    destruct (Nat.eqb h 1); cbn [fst andb]; rewrite ?Bool.orb_false_r; reflexivity.
  - destruct (xstep (y_x st) (XCleanup h)) as [x' r]. destruct (handle_live (x_b (y_x st)) h); [|reflexivity].
    cbn [fst]. rewrite Bool.orb_false_r. reflexivity.
Qed.

Lemma ystep_x st o :
  y_x (fst (ystep st o)) = y_x st /\ y_sseq (fst (ystep st o)) = y_sseq st /\ y_dirty (fst (ystep st o)) = y_dirty st \/
  y_x (fst (ystep st o)) = fst (xstep (y_x st) o).
Proof. rewrite ystep_nf. destruct (applies (y_x st) o); [right; reflexivity|left; repeat split]. Qed.

Lemma dirty_mono st o : y_dirty (fst (ystep st o)) = false -> y_dirty st = false.
Proof.
  rewrite ystep_nf. destruct (applies (y_x st) o); [|exact (fun H => H)].
  cbn [y_dirty]. intros H. apply Bool.orb_false_elim in H. exact (proj1 H).
Qed.

(* no level is open, or the log splits at the outermost staging position as the savepoint invariant says *)
Definition levels (b : mbuf) : Prop :=
  b_stages b = [] \/ exists log0, invp true log0 [length log0] b.

Definition outer_close (b : mbuf) (o : xop) : bool :=
  match o with
  | XRelease h | XCleanup h => handle_live b h && Nat.eqb h 1
  | _ => false
  end.

Lemma live_nil b h : b_stages b = [] -> handle_live b h = false.
Proof. intros E. unfold handle_live. rewrite E. destruct h; reflexivity. Qed.

Lemma live_one b : handle_live b 1 = true -> exists p, b_stages b = [p].
Proof.
  intros H. apply handle_live_iff in H. destruct H as [H _].
  destruct (b_stages b) as [|p [|q r]]; try discriminate. exists p. reflexivity.
Qed.

Lemma live_inner b h : handle_live b h && Nat.eqb h 1 = false ->
  (h = O \/ (1 < h)%nat) \/ handle_live b h = false.
Proof.
  destruct (handle_live b h) eqn:L; [left|right; reflexivity]. cbn [andb] in H. apply Nat.eqb_neq in H.
  apply handle_live_iff in L. lia.
Qed.

Lemma outer_close_true b o : outer_close b o = true ->
  handle_live b 1 = true /\ (exists p, b_stages b = [p]) /\ (o = XRelease 1 \/ o = XCleanup 1).
Proof.
  destruct o; try discriminate; cbn [outer_close]; intros C; apply Bool.andb_true_iff in C; destruct C as [L H1];
    apply Nat.eqb_eq in H1; subst; (split; [exact L|split; [exact (live_one b L)|]]); [left|right]; reflexivity.
Qed.

Lemma write_stages ip b k v : b_stages (write ip b k v) = b_stages b.
Proof. unfold write. destruct (if ip then _ else _); reflexivity. Qed.

(* with a level open, an operation that does not close the outermost level stays inside it *)
Lemma levels_inner log0 b o : invp true log0 [length log0] b -> legal b o -> outer_close b o = false ->
  invp true log0 [length log0] (step true b (erase o)).
Proof.
  intros Hi Hl Hc.
  assert (S : scoped_op 1 (length log0) (erase o) \/ step true b (erase o) = b).
  { destruct o as [k v f|k f|k f| |h|h| |n|e bl]; cbn [erase scoped_op outer_close legal] in *;
      try (left; exact I); try (left; left; reflexivity).
    - destruct (live_inner b h Hc) as [S|L]; [left; exact S|right; apply step_dead; exact L].
    - destruct (live_inner b h Hc) as [S|L]; [left; exact S|right; apply step_dead; exact L].
    - (* a legal revert is not below the top staging position, which is not below the outermost one *)
      left. destruct Hi as [(x & extra & _ & Hs & Hf) _]. rewrite Hs in Hl.
      destruct extra; cbn [app hd] in Hl; [lia|inversion Hf; lia]. }
  destruct S as [S|E]; [apply inv_step; [exact Hi|exact S]|rewrite E; exact Hi].
Qed.

Lemma levels_step b o : levels b -> legal b o -> levels (step true b (erase o)).
Proof.
  intros [S|(log0 & Hi)] Hl.
  - (* no level open: only Staging opens one *)
    destruct o as [k v f|k f|k f| |h|h| |n|e bl]; cbn [erase];
      try (rewrite (proj1 (step_dead true b _ (live_nil b _ S))); left; exact S);
      try (left; exact S).
    + left. cbn [step]. destruct (is_tomb v); [exact S|]. rewrite write_stages. exact S.
    + left. cbn [step]. rewrite write_stages. exact S.
    + right. exists (b_log b). pose proof (invp_staging true b) as H. rewrite S in H. exact H.
    + rewrite (proj2 (step_dead true b _ (live_nil b _ S))). left; exact S.
  - destruct (outer_close b o) eqn:C; [left|right; exists log0; apply levels_inner; assumption].
    (* the one open level is closed *)
    destruct (outer_close_true b o C) as (L & (p & E) & [-> | ->]); cbn [erase step]; rewrite L, E; reflexivity.
Qed.

Lemma levels_xstep x o : levels (x_b x) -> legal (x_b x) o -> levels (x_b (fst (xstep x o))).
Proof. intros H L. destruct (xstep_b x o) as [E|E]; rewrite E; [exact H|apply levels_step; assumption]. Qed.

Lemma truncate_all (l : list kv) : truncate (length l) l = l.
Proof. unfold truncate. rewrite Nat.sub_diag. reflexivity. Qed.
Lemma truncate_nil n : truncate n [] = [].
Proof. unfold truncate. apply skipn_nil. Qed.

(* the staging-blind view can change when no level is open (writes, reverts) or when the one open level is closed *)
Definition moves_base (b : mbuf) (o : xop) : bool :=
  match b_stages b with
  | [] => match o with XWrite _ _ _ | XDelete _ _ | XRevert _ => true | _ => false end
  | _ => outer_close b o
  end.

Lemma base_log_kept x o : levels (x_b x) -> legal (x_b x) o -> moves_base (x_b x) o = false ->
  base_log (x_b (fst (xstep x o))) = base_log (x_b x).
Proof.
  intros Hlv Hl Hm. destruct (xstep_b x o) as [E|E]; rewrite E; [reflexivity|].
  unfold moves_base in Hm. destruct Hlv as [S|(log0 & Hi)].
  - (* what is left with no level open: Staging, Checkpoint, dead handles *)
    rewrite S in Hm. destruct o as [k v f|k f|k f| |h|h| |n|e bl]; try discriminate; cbn [erase];
      try (rewrite (proj1 (step_dead true _ _ (live_nil _ _ S))); reflexivity).
    + unfold base_log. cbn [step b_stages b_log]. rewrite S. cbn [rev app]. apply truncate_all.
    + rewrite (proj2 (step_dead true _ _ (live_nil _ _ S))). reflexivity.
    + unfold base_log. cbn [step b_stages b_log]. reflexivity.
  - assert (Hc : outer_close (x_b x) o = false).
    { destruct Hi as [(x0 & extra & _ & Hs & _) _]. rewrite Hs in Hm. destruct extra; exact Hm. }
    rewrite (base_log_inv log0 _ (proj1 (levels_inner log0 _ o Hi Hl Hc))). symmetry. exact (base_log_inv log0 _ (proj1 Hi)).
Qed.

Lemma quiet_sseq x o : applies x o = true -> bumps_sseq x o = false -> moves_base (x_b x) o = false.
Proof.
  unfold moves_base. destruct o; cbn [applies bumps_sseq outer_close]; unfold nostage;
    destruct (b_stages (x_b x)); cbn [rev]; intros A B; try discriminate; try reflexivity;
    rewrite B; apply Bool.andb_false_r.
Qed.

Lemma sseq_sound st o : levels (x_b (y_x st)) -> legal (x_b (y_x st)) o ->
  y_sseq (fst (ystep st o)) = y_sseq st ->
  base_log (x_b (y_x (fst (ystep st o)))) = base_log (x_b (y_x st)).
Proof.
  rewrite ystep_nf. destruct (applies (y_x st) o) eqn:A; [|reflexivity]. cbn [y_sseq y_x]. intros Hlv Hl Hs.
  apply base_log_kept; try assumption. apply quiet_sseq; [exact A|].
  destruct (bumps_sseq (y_x st) o); [exfalso; lia|reflexivity].
Qed.

Definition no_persistent (x : xbuf) : Prop := forall k, persistent_nonzero x k = false.
(* what "not dirty" guarantees *)
Definition clean (st : ybuf) : Prop :=
  y_dirty st = false -> base_log (x_b (y_x st)) = [] /\ no_persistent (y_x st).
Definition yinv (st : ybuf) : Prop := levels (x_b (y_x st)) /\ xwf (y_x st) /\ clean st.

Lemma pn_mask f : match f with Some x => negb (N.land x persistent_mask =? 0) | None => false end = false ->
  match mask_flags f with Some x => negb (N.land x persistent_mask =? 0) | None => false end = false.
Proof.
  intros H. unfold mask_flags, dflt. destruct f as [x|]; [|reflexivity].
  destruct (N.land x persistent_mask =? 0) eqn:E; [reflexivity|discriminate].
Qed.

(* flags of every key after one step of the extended buffer, when the key written does not end up persistent *)
Lemma no_persistent_xstep x o : xwf x -> no_persistent x ->
  (forall k, match o with XWrite k0 _ _ | XDelete k0 _ | XFlags k0 _ => k0 = k | _ => False end ->
             persistent_nonzero (fst (xstep x o)) k = false) ->
  no_persistent (fst (xstep x o)).
Proof.
  intros Hwf Hnp Hk k.
  (* Cleanup / Revert: flags only shrink to their persistent part *)
  assert (R : forall n s c, persistent_nonzero (xrevert_to x n s c) k = false).
  { intros n s c. unfold persistent_nonzero. fold (x_get_flags (xrevert_to x n s c) k).
    rewrite (flags_undo x n s c k (proj1 Hwf)). specialize (Hnp k). unfold persistent_nonzero in Hnp.
    destruct (_ && _); [apply pn_mask; exact Hnp|exact Hnp]. }
  (* a write of another key, and everything else, leaves them alone *)
  assert (Q : is_undo x o = false -> flag_effect x k o = fl_get (x_kf x) k -> persistent_nonzero (fst (xstep x o)) k = false).
  { intros U F. unfold persistent_nonzero. rewrite (flags_step x o k U), F. exact (Hnp k). }
  destruct o as [k0 v f|k0 f|k0 f| |h|h| |n|e b]; try (apply Q; reflexivity).
  1-3: destruct (eqb_spec k0 k) as [->|N]; [apply Hk; reflexivity|apply Q; [reflexivity|]];
    cbn [flag_effect]; rewrite (eqb_neq _ _ N); reflexivity.
  - cbn [xstep]. destruct (handle_live (x_b x) h) eqn:L; [apply R|exact (Hnp k)].
  - apply R.
Qed.

(* an operation that does not set Dirty keeps an empty staging-blind view empty *)
Lemma base_stays_empty x o : levels (x_b x) -> legal (x_b x) o -> sets_dirty x o = false ->
  base_log (x_b x) = [] -> base_log (x_b (fst (xstep x o))) = [].
Proof.
  intros Hw Hl Hsd Hb. destruct (moves_base (x_b x) o) eqn:M; [|rewrite base_log_kept; assumption].
  unfold moves_base in M. destruct (b_stages (x_b x)) as [|p s] eqn:S.
  - (* no level open: a write would make the buffer dirty; a revert finds nothing to cut *)
    destruct o as [k v f|k f|k f| |h|h| |n|e b]; try discriminate;
      try (cbn [sets_dirty] in Hsd; unfold nostage in Hsd; rewrite S in Hsd; discriminate).
    unfold base_log in Hb. rewrite S in Hb. cbn [rev] in Hb.
    cbn [xstep fst]. rewrite xrevert_b. unfold base_log. cbn [b_stages b_log]. rewrite S, Hb. apply truncate_nil.
  - (* the one open level is closed: by a Release that finds it empty, or by the Cleanup that empties it *)
    destruct (outer_close_true _ o M) as (L & (p' & E) & Ho). rewrite S in E. injection E as -> ->.
    unfold base_log in Hb. rewrite S in Hb. cbn [rev app] in Hb.
    destruct Ho as [-> | ->]; cbn [xstep]; rewrite L; cbn [fst].
    + cbn [sets_dirty Nat.eqb andb] in Hsd. rewrite S in Hsd. cbn [hd] in Hsd.
      apply Bool.negb_false_iff in Hsd. apply Nat.eqb_eq in Hsd. rewrite Hsd, truncate_all in Hb.
      unfold base_log. cbn [x_b step]. rewrite L, S. exact Hb.
    + rewrite xrevert_b. unfold base_log. rewrite S. exact Hb.
Qed.

Lemma yinv_step st o : yinv st -> legal (x_b (y_x st)) o -> yinv (fst (ystep st o)).
Proof.
  intros (Hw & Hx & Hc) Hl. rewrite ystep_nf. destruct (applies (y_x st) o) eqn:A; [|exact (conj Hw (conj Hx Hc))].
  split; [apply levels_xstep; assumption|]. split; [apply xwf_step; exact Hx|].
  unfold clean. cbn [y_dirty y_x]. intros Hd. apply Bool.orb_false_elim in Hd. destruct Hd as [Hd Hsd].
  destruct (Hc Hd) as [Hb Hnp]. split; [apply base_stays_empty; assumption|].
  apply no_persistent_xstep; [exact Hx|exact Hnp|].
  intros k Hk. destruct o; try contradiction; subst k; cbn [sets_dirty] in Hsd;
    apply Bool.orb_false_elim in Hsd; exact (proj2 Hsd).
Qed.

Lemma yinv_empty : yinv ybuf_empty.
Proof.
  split; [left; reflexivity|]. split; [apply xwf_empty|].
  intros _. split; [reflexivity|intros k; reflexivity].
Qed.

Lemma yinv_run ops : forall st, yinv st -> ylegal ops st -> yinv (yrun ops st).
Proof.
  unfold yrun. induction ops as [|o ops IH]; intros st H L; cbn [fold_left]; [exact H|].
  destruct L as [L1 L2]. apply IH; [apply yinv_step; assumption|exact L2].
Qed.

Lemma ylegal_app ops o : forall st, ylegal (ops ++ [o]) st -> ylegal ops st /\ legal (x_b (y_x (yrun ops st))) o.
Proof.
  unfold yrun. induction ops as [|a ops IH]; intros st H; cbn [app ylegal fold_left] in *.
  - destruct H as [H _]. split; [exact I|exact H].
  - destruct H as [H1 H2]. destruct (IH _ H2) as [H3 H4]. repeat split; assumption.
Qed.

Lemma yinv_reach ops : ylegal ops ybuf_empty -> yinv (yrun ops ybuf_empty).
Proof. apply yinv_run. apply yinv_empty. Qed.

(* what a reader of Dirty may conclude, in any state the invariant holds in *)
Lemma clean_spec st : yinv st -> y_dirty st = false ->
  (forall k, x_snap_get (y_x st) k = None) /\
  (forall k, match x_get_flags (y_x st) k with Some f => N.land f persistent_mask = 0 | None => True end).
Proof.
  intros (_ & _ & Hc) Hd. destruct (Hc Hd) as [Hb Hnp]. split.
  - intros k. unfold x_snap_get. rewrite Hb. reflexivity.
  - intros k. specialize (Hnp k). unfold persistent_nonzero in Hnp. unfold x_get_flags.
    destruct (fl_get _ k) as [f|]; [|exact I].
    apply Bool.negb_false_iff in Hnp. apply N.eqb_eq in Hnp. exact Hnp.
Qed.

Lemma snapshot_seq_spec ops o : ylegal (ops ++ [o]) ybuf_empty ->
  let st := yrun ops ybuf_empty in
  y_sseq (fst (ystep st o)) = y_sseq st ->
  (forall k, x_snap_get (y_x (fst (ystep st o))) k = x_snap_get (y_x st) k) /\
  (forall lo hi, x_snap_iter (y_x (fst (ystep st o))) lo hi = x_snap_iter (y_x st) lo hi) /\
  (forall lo hi, x_snap_iter_rev (y_x (fst (ystep st o))) lo hi = x_snap_iter_rev (y_x st) lo hi).
Proof.
  intros L st Hs. subst st. destruct (ylegal_app ops o _ L) as [L1 L2].
  pose proof (sseq_sound _ o (proj1 (yinv_reach ops L1)) L2 Hs) as E.
  unfold x_snap_get, x_snap_iter, x_snap_iter_rev, x_snap_map. rewrite E. repeat split; reflexivity.
Qed.

Lemma clean_buffer_may_hold_writes : exists ops k v,
  ylegal ops ybuf_empty /\
  let st := yrun ops ybuf_empty in
  y_dirty st = false /\ buf_get (x_b (y_x st)) k = Some v /\ x_len (y_x st) = 1.
Proof.
  exists [XStaging; XWrite [97] [120] []], [97], [120].
  split; [cbn; tauto|]. vm_compute. repeat split; reflexivity.
Qed.

Lemma status_iff (c s : N) :
  let r := if c <? s then 4%nat else 0%nat in (r = 4%nat <-> c < s) /\ (r = 0%nat <-> s <= c).
Proof.
  cbn zeta. destruct (N.ltb_spec c s); lia.
Qed.

Lemma write_status st k v f :
  let r := snd (ystep st (XWrite k v f)) in
  let st' := fst (ystep st (XWrite k v f)) in
  let x := y_x st in
  (is_tomb v = true -> r = 1%nat /\ st' = st) /\
  (is_tomb v = false -> max_key_len < len_n k -> r = 5%nat /\ st' = st) /\
  (is_tomb v = false -> len_n k <= max_key_len -> x_elim x < len_n k + len_n v -> r = 3%nat /\ st' = st) /\
  (is_tomb v = false -> len_n k <= max_key_len -> len_n k + len_n v <= x_elim x ->
     x_wseq (y_x st') = x_wseq x + 1 /\ buf_get (x_b (y_x st')) k = Some v /\
     (r = 4%nat <-> x_blim x < x_size (y_x st')) /\ (r = 0%nat <-> x_size (y_x st') <= x_blim x)).
Proof.
  cbn zeta. cbn [ystep]. split; [|split; [|split]].
  - intros H. rewrite H. split; reflexivity.
  - intros H H0. rewrite H. apply N.ltb_lt in H0. rewrite H0. split; reflexivity.
  - intros H H0 H1. rewrite H. replace (max_key_len <? len_n k) with false by (symmetry; apply N.ltb_ge; exact H0).
    cbn [xstep]. rewrite H, (xwrite_too_large _ _ _ _ H1). split; reflexivity.
  - intros H H0 H1. rewrite H. replace (max_key_len <? len_n k) with false by (symmetry; apply N.ltb_ge; exact H0).
    cbn [xstep]. rewrite H, (xwrite_ok _ _ _ _ H1). cbv zeta. set (x' := xset _ k v).
    destruct (status_iff (x_blim (y_x st)) (x_size x')) as [S4 S0]. cbn zeta in S4, S0.
    destruct (x_blim (y_x st) <? x_size x'); cbn [Nat.eqb fst snd y_x]; unfold x'; cbn [xset x_wseq x_b];
      rewrite xflags_wseq, xflags_b, buf_get_write, eqb_refl; (split; [reflexivity|split; [reflexivity|split; [exact S4|exact S0]]]).
Qed.

(* the key length limit sits exactly at MaxKeyLen: a key one byte longer is refused by Set (ErrKeyTooLarge) and dropped
   silently by UpdateFlags; without its first byte it is accepted *)
Lemma key_limit k : len_n k = max_key_len + 1 ->
  snd (ystep ybuf_empty (XWrite k [1] [])) = 5%nat /\ fst (ystep ybuf_empty (XWrite k [1] [])) = ybuf_empty /\
  fst (ystep ybuf_empty (XFlags k [2%nat])) = ybuf_empty /\
  snd (ystep ybuf_empty (XWrite (tl k) [1] [])) = 0%nat.
Proof.
  intros L.
  assert (L' : len_n (tl k) = max_key_len) by (unfold len_n in *; destruct k; cbn [tl length] in *; lia).
  assert (M : max_key_len + 1 <= max_u64) by (unfold max_key_len, max_u64; lia).
  destruct (write_status ybuf_empty k [1] []) as (_ & H5 & _).
  destruct (write_status ybuf_empty (tl k) [1] []) as (_ & _ & _ & H0).
  split; [apply H5; [reflexivity|lia]|]. split; [apply H5; [reflexivity|lia]|]. split.
  - rewrite ystep_nf. cbn [applies]. replace (max_key_len <? len_n k) with true by (symmetry; apply N.ltb_lt; lia). reflexivity.
  - destruct H0 as (_ & _ & _ & H0); [reflexivity|lia|rewrite L'; exact M|]. apply H0.
    (* Size after the write is at most the size of the entry *)
    destruct (ystep_x ybuf_empty (XWrite (tl k) [1] [])) as [(E & _)|E]; rewrite E; [exact (N.le_0_l _)|].
    cbn [xstep is_tomb]. pose proof (xwrite_size_le xbuf_empty (tl k) [1] []) as B. rewrite L' in B.
    eapply N.le_trans; [exact B|exact M].
Qed.
