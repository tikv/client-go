(* Union/Props.v — C07: a transaction reads its own writes over its snapshot; savepoint rollback undoes.
   Only statements; proofs are in ProofsMap / ProofsIter / ProofsBuf / ProofsBatch. *)
From Verif Require Import Base.Lex Union.Model Union.ProofsMap Union.ProofsIter Union.ProofsBuf Union.ProofsBatch.

(* `sorted` is ProofsMap's notation for `dsorted false`: strictly ascending keys, hence duplicate free *)

(* Forward and reverse iteration of the union store over an ascending buffer content (tombstones included)
   and an ascending snapshot without empty values, for arbitrary bounds: the cursor machine of UnionIter
   yields exactly the sorted overlay restricted to [lo, hi) (reversed for IterReverse), strictly monotone,
   and a pair is yielded iff it is in bounds and is what Get returns: no key repeated or skipped. *)
Theorem C07_iter : forall lo hi buf snap, sorted buf -> sorted snap -> no_tomb snap ->
  us_iter buf snap lo hi = range lo hi (overlay snap buf) /\
  us_iter_rev buf snap lo hi = rev (range lo hi (overlay snap buf)) /\
  dsorted false (us_iter buf snap lo hi) /\
  dsorted true (us_iter_rev buf snap lo hi) /\
  (forall k v, In (k, v) (us_iter buf snap lo hi) <-> in_range lo hi k = true /\ union_get snap buf k = Some v) /\
  (forall k v, In (k, v) (us_iter_rev buf snap lo hi) <-> in_range lo hi k = true /\ union_get snap buf k = Some v).
Proof. exact iter_spec. Qed.
Print Assumptions C07_iter.

(* the merge itself needs no assumption on the values: sorted inputs in iteration direction give the
   direction-sorted overlay lookup (used for both directions above) *)
Theorem C07_iter_merge : forall rv d s k, dsorted rv d -> dsorted rv s ->
  dsorted rv (union_iter rv d s) /\ kv_get (union_iter rv d s) k = overlay_get s d k.
Proof. exact iter_merge. Qed.
Print Assumptions C07_iter_merge.

(* What UnionIter guarantees from the iterator contract ALONE: the two inputs are strictly sorted in the
   iteration direction (ascending for Iter, descending for IterReverse) — nothing about bounds or values is
   assumed. The output is strictly sorted in that direction, contains exactly the overlay pairs (buffer entry
   wins, a buffered tombstone hides the snapshot entry, an empty SNAPSHOT value would be passed through), and
   every yielded key was yielded by one of the inputs — so whatever bounds the two inner iterators respect,
   the union iterator respects; no key is invented, repeated or skipped. *)
Theorem C07_iter_contract : forall rv d s, dsorted rv d -> dsorted rv s ->
  dsorted rv (union_iter rv d s) /\
  (forall k v, In (k, v) (union_iter rv d s) <-> overlay_get s d k = Some v) /\
  (forall k v, In (k, v) (union_iter rv d s) -> In (k, v) d \/ In (k, v) s).
Proof. exact iter_contract. Qed.
Print Assumptions C07_iter_contract.

(* Error path: when the Next of an inner iterator fails (at any position, either side), UnionIter yields a prefix
   of what it would have yielded and then reports the error — at creation, inside updateCur, or in Next, exactly
   where the code returns it; without a failure the result is the merge and no error. *)
Theorem C07_iter_error_path : forall rv fd fs d s,
  (exists rest, union_iter rv d s = fst (union_iter_f rv fd fs d s) ++ rest /\
                (snd (union_iter_f rv fd fs d s) = false -> rest = [])) /\
  union_iter_f rv 0 0 d s = (union_iter rv d s, false).
Proof. exact iter_error_path. Qed.
Print Assumptions C07_iter_error_path.

(* Get: buffer first, snapshot on miss, empty = not exist  ==  lookup in the overlay *)
Theorem C07_get : forall snap buf k, sorted buf -> sorted snap -> no_tomb snap ->
  union_get snap buf k = kv_get (overlay snap buf) k.
Proof. exact union_get_overlay. Qed.
Print Assumptions C07_get.

(* BatchGet for ARBITRARY key lists (duplicates included): the snapshot is handed exactly the requested
   keys that are not buffered (in request order), the result is the overlay restricted to the requested keys *)
Theorem C07_batch_get : forall snap buf keys, no_tomb snap -> sorted snap ->
  let '(handed, res) := buffer_batch_get snap buf keys in
  handed = filter (unbuffered buf) keys /\
  sorted res /\
  forall k, kv_get res k = if key_mem k keys then union_get snap buf k else None.
Proof. exact (fun snap buf keys Hn _ => batch_get_spec snap buf keys Hn). Qed.
Print Assumptions C07_batch_get.

(* regression witness for the loop as it was before fix e4ede29: a tombstoned key listed twice was handed
   to the snapshot and its old value returned *)
Theorem C07_batch_get_prefix_refuted : exists snap buf keys,
  no_tomb snap /\ sorted snap /\
  let '(handed, res) := buffer_batch_get_prefix snap buf keys in
  ~ (handed = filter (unbuffered buf) keys /\
     forall k, kv_get res k = if key_mem k keys then union_get snap buf k else None).
Proof. exact batch_get_prefix_refuted. Qed.
Print Assumptions C07_batch_get_prefix_refuted.

(* The buffer's iterator input is a legal input of C07_iter in every reachable (indeed every) state, and its
   lookup is the newest log entry of the key *)
Theorem C07_buffer_content : forall st k, sorted (buf_map st) /\ kv_get (buf_map st) k = buf_get st k.
Proof. exact buffer_content. Qed.
Print Assumptions C07_buffer_content.

(* Latest write wins, from ANY state (in particular any state reached by an arbitrary op sequence `pre`),
   for any continuation without undo operations (sets, deletes, staging, release, checkpoint, and sets of
   empty values, which are rejected): the buffered value of k is the last write to k, else what it was;
   this holds with and without in-place overwrite. Read through the union store. *)
Theorem C07_latest_write_wins : forall ip pre ws st0 snap k, forallb non_undo ws = true ->
  let st := run ip pre st0 in
  buf_get (run ip (pre ++ ws) st0) k = fold_left (last_write k) ws (buf_get st k) /\
  m_get snap (run ip (pre ++ ws) st0) k =
    match (match fold_left (last_write k) ws (buf_get st k) with Some v => Some v | None => kv_get snap k end) with
    | Some v => if is_tomb v then None else Some v
    | None => None
    end.
Proof. exact latest_write_wins. Qed.
Print Assumptions C07_latest_write_wins.

(* Staging h; any operations that stay inside the level (no release/cleanup of h or of an outer level, no
   revert to a checkpoint taken before Staging); Cleanup h while h is the live handle: value log and staging
   stack are EXACTLY those before Staging, so every observable is. Holds for the code as it is (ip = true).
   (lastCheckpoint may end up at the cut instead of below it; it only restricts later in-place overwrites.) *)
Theorem C07_cleanup_restores : forall ip st ops,
  let st1 := step ip st OStaging in
  let h := staging_handle st in
  Forall (scoped_op h (checkpoint_pos st)) ops ->
  handle_live (run ip ops st1) h = true ->
  b_log (step ip (run ip ops st1) (OCleanup h)) = b_log st /\
  b_stages (step ip (run ip ops st1) (OCleanup h)) = b_stages st /\
  obs_eq (step ip (run ip ops st1) (OCleanup h)) st.
Proof. exact cleanup_restores. Qed.
Print Assumptions C07_cleanup_restores.

(* Release never changes an observable; after Staging h; scoped ops; Release h the staging stack is the one
   before Staging and the level's writes are all there *)
Theorem C07_release_keeps : forall ip st ops h',
  obs_eq (step ip st (ORelease h')) st /\
  (let st1 := step ip st OStaging in
   let h := staging_handle st in
   Forall (scoped_op h (checkpoint_pos st)) ops ->
   handle_live (run ip ops st1) h = true ->
   b_log (step ip (run ip ops st1) (ORelease h)) = b_log (run ip ops st1) /\
   b_stages (step ip (run ip ops st1) (ORelease h)) = b_stages st).
Proof. exact release_keeps. Qed.
Print Assumptions C07_release_keeps.

(* cp := Checkpoint(); any operations that stay above it (no release/cleanup of a level that was open at the
   checkpoint, no revert below it); RevertToCheckpoint(cp): the value log and every observable are the ones at
   the checkpoint — UNCONDITIONALLY for the code as it is (ip = true; fix 6b4091a: Checkpoint and
   RevertToCheckpoint record lastCheckpoint and no entry below it is overwritten in place), and for ip = false. *)
Theorem C07_revert_checkpoint : forall ip st ops,
  let st1 := step ip st OCheckpoint in
  Forall (scoped_op (length (b_stages st)) (checkpoint_pos st)) ops ->
  b_log (step ip (run ip ops st1) (ORevert (checkpoint_pos st))) = b_log st /\
  obs_eq (step ip (run ip ops st1) (ORevert (checkpoint_pos st))) st.
Proof. exact revert_checkpoint. Qed.
Print Assumptions C07_revert_checkpoint.

(* regression witness for the buffer as it was before fix 6b4091a (checkpoints did not protect entries; F03):
   Set(a,"xx"); cp := Checkpoint(); Set(a,"yy"); RevertToCheckpoint(cp); Get(a) = "yy" *)
Theorem C07_revert_checkpoint_prefix_refuted : exists st ops,
  Forall (scoped_op (length (b_stages st)) (checkpoint_pos st)) ops /\
  ~ obs_eq (step_prefix (run_prefix ops (step_prefix st OCheckpoint)) (ORevert (checkpoint_pos st))) st.
Proof. exact revert_checkpoint_prefix_refuted. Qed.
Print Assumptions C07_revert_checkpoint_prefix_refuted.

(* Savepoint handles (Staging / Release / Cleanup of art.go and rbt.go): Staging returns the new depth, which is the
   one live handle; Release / Cleanup act iff the handle is the depth (> 0); any other handle leaves the buffer
   untouched; Release panics for a handle that is neither 0 nor the depth, Cleanup for 0 < h < depth (a handle above
   the depth is ignored). *)
Theorem C07_savepoint_handles : forall ip st h,
  staging_handle st = length (b_stages (step ip st OStaging)) /\
  handle_live (step ip st OStaging) (staging_handle st) = true /\
  (handle_live st h = true <-> (h = length (b_stages st) /\ (0 < h)%nat)) /\
  (handle_live st h = false -> step ip st (ORelease h) = st /\ step ip st (OCleanup h) = st) /\
  (op_status st (ORelease h) = 2%nat <-> (h <> O /\ h <> length (b_stages st))) /\
  (op_status st (OCleanup h) = 2%nat <-> ((0 < h)%nat /\ (h < length (b_stages st))%nat)).
Proof. exact handles_spec. Qed.
Print Assumptions C07_savepoint_handles.

(* non-vacuity *)
Example iter_example :
  let snap := [([97], [1]); ([97; 0], [2]); ([98], [3]); ([255], [4])] in
  let st := run true [OSet [97; 0] [9]; ODel [98]; OSet [97; 255] [7]; ODel [99]] mbuf_empty in
  sorted snap /\ no_tomb snap /\
  m_iter snap st [] [] = [([97], [1]); ([97; 0], [9]); ([97; 255], [7]); ([255], [4])] /\
  m_iter_rev snap st [97; 0] [255] = [([97; 255], [7]); ([97; 0], [9])] /\
  m_get snap st [98] = None /\
  m_batch_get snap st [[98]; [98]; [97]; [97; 0]] = ([[97]], [([97], [1]); ([97; 0], [9])]).
Proof. repeat split; try (repeat constructor); vm_compute; reflexivity. Qed.

Example cleanup_example :
  let st := run true [OSet [97] [1; 1]] mbuf_empty in
  let ops := [OSet [97] [2; 2]; OStaging; ODel [97]; OCleanup 2; OCheckpoint; OSet [97] [3; 3]; ORevert 2] in
  Forall (scoped_op (staging_handle st) (checkpoint_pos st)) ops /\
  handle_live (run true ops (step true st OStaging)) (staging_handle st) = true /\
  m_get [] (run true ops (step true st OStaging)) [97] = Some [2; 2] /\
  b_log (step true (run true ops (step true st OStaging)) (OCleanup (staging_handle st))) = b_log st.
Proof. split; [repeat constructor; cbn; lia|]. repeat split; vm_compute; reflexivity. Qed.

Example revert_example :
  let st := run true [OSet [97] [1; 1]] mbuf_empty in
  let ops := [OSet [97] [2; 2]; OStaging; ODel [98]; ORelease 1; OSet [97] [3; 3]] in
  let st1 := step true st OCheckpoint in
  Forall (scoped_op (length (b_stages st)) (checkpoint_pos st)) ops /\
  m_get [] (run true ops st1) [97] = Some [3; 3] /\
  length (b_log (run true ops st1)) = 3%nat /\     (* 22 appended (protected 11), 33 written in place over 22 *)
  m_get [] (step true (run true ops st1) (ORevert (checkpoint_pos st))) [97] = Some [1; 1].
Proof. split; [repeat constructor; cbn; lia|]. repeat split; vm_compute; reflexivity. Qed.

Example iter_error_example :
  let d := [([97], [1]); ([98], []); ([99], [3])] in
  let s := [([98], [7]); ([100], [8])] in
  union_iter false d s = [([97], [1]); ([99], [3]); ([100], [8])] /\
  union_iter_f false 2 0 d s = ([([97], [1])], true) /\      (* dirtyNext inside updateCur fails while skipping the tombstone *)
  union_iter_f false 0 1 d s = ([([97], [1])], true) /\      (* snapshotNext for the hidden snapshot entry fails *)
  union_iter_f false 3 0 d s = ([([97], [1]); ([99], [3])], true) /\
  union_iter_f false 0 2 d s = ([([97], [1]); ([99], [3]); ([100], [8])], true).
Proof. vm_compute. repeat split; reflexivity. Qed.

(* reverse iteration with bounds on inputs that are only sorted descending (the contract of IterReverse) *)
Example iter_contract_example :
  let d := [([98], [7]); ([97; 255], []); ([97], [9])] in          (* buffer iterator, descending, one tombstone *)
  let s := [([99], [1]); ([97; 255], [2]); ([97; 0], [3]); ([97], [4])] in   (* snapshot iterator, descending *)
  dsorted true d /\ dsorted true s /\
  union_iter true d s = [([99], [1]); ([98], [7]); ([97; 0], [3]); ([97], [9])].
Proof. repeat split; try (repeat constructor); vm_compute; reflexivity. Qed.
