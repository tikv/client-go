(* Union/ProofsSize.v — the Size counter of the buffer equals, in every reachable state, the sum over the
   existing keys of key length + length of the current value. *)
From Verif Require Import Base.Lex Union.Model Union.ModelX Union.ProofsMap Union.ProofsBuf Union.ProofsX.

Definition vlen (log : list kv) (k : key) : N := match kv_get log k with Some v => len_n v | None => 0 end.
Definition gsz (log : list kv) (k : key) : N := len_n k + vlen log k.
Definition sum_over (kf : list kv) (g : key -> N) : N := fold_right (fun e acc => g (fst e) + acc) 0 kf.
(* what Size counts: every existing key (value, tombstone or flags only) with its key length, plus the length of
   its CURRENT value (0 for a tombstone and for a flags-only key); overwritten versions still in the log do not count *)
Definition csize (st : xbuf) : N := sum_over (x_kf st) (gsz (b_log (x_b st))).

Lemma sum_cons e l g : sum_over (e :: l) g = g (fst e) + sum_over l g.
Proof. reflexivity. Qed.

Lemma sum_app a b g : sum_over (a ++ b) g = sum_over a g + sum_over b g.
Proof. induction a as [|e a IH]; cbn [app]; [reflexivity|]. rewrite !sum_cons, IH. lia. Qed.

Lemma sum_ext kf g g' : (forall k, kv_get kf k <> None -> g k = g' k) -> sum_over kf g = sum_over kf g'.
Proof.
  induction kf as [|[k0 v0] l IH]; intros H; [reflexivity|]. rewrite !sum_cons; cbn [fst]. rewrite IH.
  - rewrite (H k0); [reflexivity|]. cbn [kv_get]. rewrite eqb_refl. discriminate.
  - intros k Hk. apply H. cbn [kv_get]. destruct (bytes_eqb k0 k); [discriminate|exact Hk].
Qed.

Lemma sum_ge kf g k : kv_get kf k <> None -> g k <= sum_over kf g.
Proof.
  induction kf as [|[k0 v0] l IH]; intros H; [cbn in H; congruence|].
  rewrite sum_cons; cbn [fst]. cbn [kv_get] in H. destruct (eqb_spec k0 k) as [->|_]; [lia|].
  specialize (IH H). lia.
Qed.

(* the summand of one key changes *)
Lemma sum_update kf g g' k : sorted kf -> kv_get kf k <> None ->
  (forall k', k' <> k -> g k' = g' k') -> sum_over kf g' + g k = sum_over kf g + g' k.
Proof.
  intros Hs Hk Hg. destruct (sorted_around k kf Hs) as (lo & hi & Nlo & Nhi & El & _ & _).
  destruct (kv_get kf k); [|congruence]. rewrite El, !sum_app, !sum_cons. cbn [fst].
  rewrite (sum_ext lo g g'), (sum_ext hi g g'); [lia| |]; intros k' H; apply Hg; intros ->; congruence.
Qed.

Lemma sum_put_old k v kf g : sorted kf -> kv_get kf k <> None -> sum_over (kv_put k v kf) g = sum_over kf g.
Proof.
  intros Hs Hk. destruct (sorted_around k kf Hs) as (lo & hi & _ & _ & El & Ep & _).
  destruct (kv_get kf k); [|congruence]. rewrite Ep, El, !sum_app, !sum_cons. reflexivity.
Qed.

Lemma sum_put_new k v kf g : sorted kf -> kv_get kf k = None -> sum_over (kv_put k v kf) g = sum_over kf g + g k.
Proof.
  intros Hs Hk. destruct (sorted_around k kf Hs) as (lo & hi & _ & _ & El & Ep & _).
  rewrite Hk in El. rewrite Ep, El, !sum_app, !sum_cons. cbn [fst]. lia.
Qed.

Lemma sum_del k kf g : sorted kf -> kv_get kf k <> None -> sum_over (kv_del k kf) g + g k = sum_over kf g.
Proof.
  intros Hs Hk. destruct (sorted_around k kf Hs) as (lo & hi & _ & _ & El & _ & Ed).
  destruct (kv_get kf k); [|congruence]. rewrite Ed, El, !sum_app, !sum_cons. cbn [fst]. lia.
Qed.

Lemma gsz_eq log k : gsz log k = len_n k + match kv_get log k with Some v => len_n v | None => 0 end.
Proof. reflexivity. Qed.

Lemma gsz_cons k0 v0 rest k :
  gsz ((k0, v0) :: rest) k = if bytes_eqb k0 k then len_n k + len_n v0 else gsz rest k.
Proof. unfold gsz, vlen. cbn [kv_get]. destruct (bytes_eqb k0 k); reflexivity. Qed.

Lemma gsz_write b k v k' :
  gsz (b_log (write true b k v)) k' = if bytes_eqb k k' then len_n k' + len_n v else gsz (b_log b) k'.
Proof.
  unfold gsz, vlen. fold (buf_get (write true b k v) k') (buf_get b k'). rewrite buf_get_write.
  destruct (bytes_eqb k k'); reflexivity.
Qed.

Definition xsz (st : xbuf) : Prop := xwf st /\ x_size st = csize st.

Lemma xsz_flags st k fops : xsz st -> xsz (xflags st k fops).
Proof.
  intros [Hwf Hsz]. split; [apply xwf_xflags; exact Hwf|].
  destruct Hwf as (Hs & Hl & Hk). unfold xflags, csize in *.
  destruct (fl_get (x_kf st) k) as [f0|] eqn:G; cbn [x_size x_kf x_b]; unfold fl_put.
  - rewrite sum_put_old; [exact Hsz|exact Hs|]. intros E; apply fl_get_kv_get in E; congruence.
  - assert (Hnk : kv_get (x_kf st) k = None) by (apply fl_get_kv_get; exact G).
    rewrite (sum_put_new _ _ _ _ Hs Hnk), (gsz_eq (b_log (x_b st)) k).
    destruct (kv_get (b_log (x_b st)) k) eqn:B; [exfalso; apply (Hk k); [congruence|exact Hnk]|]. lia.
Qed.

(* storing a value for a key that has its leaf: the key's summand goes from the old value's length to the new one's *)
Lemma xsz_xset x k v : xsz x -> kv_get (x_kf x) k <> None -> xsz (xset x k v).
Proof.
  intros [Hwf Hsz] Hin. split; [apply xwf_xset; assumption|].
  destruct Hwf as (Hs & _ & _). unfold xset, csize in *. cbn [x_size x_kf x_b].
  assert (Hg : forall k', k' <> k -> gsz (b_log (x_b x)) k' = gsz (b_log (write true (x_b x) k v)) k').
  { intros k' H. rewrite gsz_write, eqb_neq by congruence. reflexivity. }
  pose proof (sum_update (x_kf x) _ _ k Hs Hin Hg) as U.
  rewrite gsz_write, eqb_refl, (gsz_eq (b_log (x_b x)) k) in U. fold (buf_get (x_b x) k) in U.
  destruct (write_shape (x_b x) k v) as [[E (o & Go & Lo)]|E]; rewrite E.
  - rewrite Nat.eqb_refl. rewrite Go in U. unfold len_n in *. lia.
  - replace (Nat.eqb (S (length (b_log (x_b x)))) (length (b_log (x_b x)))) with false by (symmetry; apply Nat.eqb_neq; lia).
    destruct (buf_get (x_b x) k) as [o|]; unfold len_n in *; lia.
Qed.

(* undoing the newest entry: its key's summand goes back to the older version's, or the key goes *)
Lemma size_pop : pop_closed (fun log kf len size => wf_parts log kf len /\ size = sum_over kf (gsz log)).
Proof.
  intros k0 v0 rest kf len size [W Hsz]. pose proof (wf_pop k0 v0 rest kf len size W) as W'. destruct W as (Hs & _ & Hk).
  assert (Hk0 : kv_get kf k0 <> None) by (apply Hk; cbn [kv_get]; rewrite eqb_refl; discriminate).
  assert (Hg : forall k', k' <> k0 -> gsz ((k0, v0) :: rest) k' = gsz rest k').
  { intros k' H. rewrite gsz_cons, eqb_neq by congruence. reflexivity. }
  pose proof (sum_update kf _ _ k0 Hs Hk0 Hg) as U. pose proof (sum_ge kf (gsz ((k0, v0) :: rest)) k0 Hk0) as Ge.
  rewrite gsz_cons, eqb_refl in U, Ge. rewrite (gsz_eq rest k0) in U.
  destruct (kv_get rest k0) as [old|] eqn:G; [split; [exact W'|lia]|].
  cbv zeta in *. destruct (N.land _ persistent_mask =? 0); (split; [exact W'|]).
  - pose proof (sum_del k0 kf (gsz rest) Hs Hk0) as D. rewrite (gsz_eq rest k0), G in D. lia.
  - unfold fl_put. rewrite (sum_put_old _ _ _ _ Hs Hk0). lia.
Qed.

Lemma xsz_revert st n stages' cp' : xsz st -> xsz (xrevert_to st n stages' cp').
Proof.
  exact (xrevert_inv _ st n stages' cp' size_pop).
Qed.

Lemma xsz_step st o : xsz st -> xsz (fst (xstep st o)).
Proof.
  apply (xstep_kinds (fun x x' => xsz x -> xsz x')).
  - intros x H. exact H.
  - intros x k f. apply xsz_flags.
  - intros x k v f H. apply xsz_xset; [apply xsz_flags; exact H|apply xflags_has].
  - intros x n s c. apply xsz_revert.
  - intros x b e bl w E _ [Hw H]. unfold xsz, xwf, csize. cbn [x_size x_kf x_len x_b]. rewrite E. exact (conj Hw H).
Qed.

Lemma size_spec ops : let st := xrun ops xbuf_empty in x_size st = csize st.
Proof.
  apply (fold_left_inv0 _ xsz); [intros a b; apply xsz_step|].
  split; [apply xwf_empty|reflexivity].
Qed.
