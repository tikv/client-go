(* RawKV/Sequence.v — whole operation sequences: the client (every call with an arbitrary schedule of
   layouts, sub-batch outcomes and failing requests) against the same calls on one ordered map.
   A call that fails half-way reports an error and leaves the fold of the effects of the requests that
   were served; which requests are served is a function of the schedule alone (ProofsPlans). *)
From Verif Require Import RawKV.Model RawKV.ProofsStore RawKV.ProofsLoops RawKV.ProofsBatch RawKV.ProofsCas RawKV.ProofsPlans.

Section Seq.
  Variable digest : list N -> list N -> N.

  Inductive op :=
  | OPut (k v : list N) (ttl : N)
  | OGet (k : list N)
  | ODel (k : list N)
  | OBatchPut (kvs : list (list N * entry)) (sched : list round)
  | OBatchGet (keys : list (list N)) (sched : list round)
  | OBatchDel (keys : list (list N)) (sched : list round)
  | ODeleteRange (s e : list N) (Ls : list (option layout))
  | OScan (s e : list N) (limit : nat) (Ls : list layout)
  | OReverseScan (s e : list N) (limit : nat) (Ls : list layout)
  | OChecksum (s e : list N) (Ls : list layout)
  | OCas (atomic : bool) (k : list N) (prev : option (list N)) (nv : list N)
  (* a call refused before any request (BatchPut with mismatching argument lengths) or a single-request call /
     range read one of whose requests is answered by an error or without a body *)
  | ORefused.

  Inductive result :=
  | RUnit
  | RErr                       (* the call returned an error *)
  | RVal (v : option (list N))
  | RVals (vs : list (option (list N)))
  | RPairs (ps : list (list N * list N))
  | RCks (c : cks)
  | RCas (prev : option (list N)) (swapped : bool).

  (* the client on the region-partitioned store; None = a loop ran out of the supplied layouts / rounds *)
  Definition run_op (st : store) (o : op) : option (result * store) :=
    match o with
    | OPut k v ttl => Some (RUnit, srv_put st k v ttl)
    | OGet k => Some (RVal (srv_get st k), st)
    | ODel k => Some (RUnit, st_del st k)
    | OBatchPut kvs sched =>
        match batch_put st sched kvs with
        | Some (s, true) => Some (RUnit, s) | Some (s, false) => Some (RErr, s) | None => None
        end
    | OBatchGet keys sched =>
        match batch_get st sched keys with
        | Some (Some vs) => Some (RVals vs, st) | Some None => Some (RErr, st) | None => None
        end
    | OBatchDel keys sched =>
        match bdel_rounds st sched keys with
        | Some (s, true) => Some (RUnit, s) | Some (s, false) => Some (RErr, s) | None => None
        end
    | ODeleteRange s e Ls =>
        match drange_run st Ls s e with
        | DrDone s' => Some (RUnit, s') | DrFailed s' _ => Some (RErr, s') | DrFuel => None
        end
    | OScan s e limit Ls =>
        match client_scan st Ls s e limit with
        | None => Some (RErr, st) | Some None => None | Some (Some ps) => Some (RPairs ps, st)
        end
    | OReverseScan s e limit Ls =>
        match client_rscan st Ls s e limit with
        | None => Some (RErr, st) | Some None => None | Some (Some ps) => Some (RPairs ps, st)
        end
    | OChecksum s e Ls => option_map (fun c => (RCks c, st)) (cksum digest st Ls s e)
    | OCas atomic k prev nv =>
        match client_cas atomic st k prev nv with
        | None => Some (RErr, st)
        | Some (p, sw, s') => Some (RCas p sw, s')
        end
    | ORefused => Some (RErr, st)
    end.

  (* the same call on one ordered map. Complete calls: no layout, no schedule. A call in which a request
     fails: the error, and the effects of the served requests — the plan is a function of the schedule. *)
  Definition spec_op (st : store) (o : op) : result * store :=
    match o with
    | OPut k v ttl => (RUnit, st_put st k (mkEntry v ttl))
    | OGet k => (RVal (option_map e_val (st_get st k)), st)
    | ODel k => (RUnit, st_del st k)
    | OBatchPut kvs sched =>
        match bput_plan sched kvs (map fst kvs) with
        | Some (served, false) => (RErr, fold_left (fun s p => st_put s (fst p) (snd p)) served st)
        | _ => (RUnit, fold_left (fun s p => st_put s (fst p) (snd p)) kvs st)
        end
    | OBatchGet keys sched =>
        match bget_plan sched keys with
        | Some false => (RErr, st)
        | _ => (RVals (map (fun k => option_map e_val (st_get st k)) keys), st)
        end
    | OBatchDel keys sched =>
        match bdel_plan sched keys with
        | Some (served, false) => (RErr, fold_left st_del served st)
        | _ => (RUnit, fold_left st_del keys st)
        end
    | ODeleteRange s e Ls =>
        match drange_plan Ls s e with
        | Some (Some c) => (RErr, filter (fun p => negb (lex_leb s (fst p) && lex_ltb (fst p) c)) st)
        | _ => (RUnit, filter (fun p => negb (in_range s e p)) st)
        end
    | OScan s e limit _ =>
        if scan_limit_ok limit then (RPairs (map kv (firstn limit (range st s e))), st) else (RErr, st)
    | OReverseScan s e limit _ =>
        if scan_limit_ok limit
        then (RPairs (if is_nil s then [] else map kv (firstn limit (rev (range st e s)))), st)
        else (RErr, st)
    | OChecksum s e _ => (RCks (cks_list digest (range st s e)), st)
    | OCas atomic k prev nv =>
        if atomic then let '(p, sw, s') := spec_cas st k prev nv in (RCas p sw, s') else (RErr, st)
    | ORefused => (RErr, st)
    end.

  Fixpoint run_ops (st : store) (ops : list op) : option (list result * store) :=
    match ops with
    | [] => Some ([], st)
    | o :: r => match run_op st o with
                | None => None
                | Some (x, st1) => match run_ops st1 r with
                                   | None => None
                                   | Some (xs, st2) => Some (x :: xs, st2)
                                   end
                end
    end.
  Fixpoint spec_ops (st : store) (ops : list op) : list result * store :=
    match ops with
    | [] => ([], st)
    | o :: r => let '(x, st1) := spec_op st o in let '(xs, st2) := spec_ops st1 r in (x :: xs, st2)
    end.

  Lemma run_op_spec st o x st' :
    sorted st -> run_op st o = Some (x, st') -> (x, st') = spec_op st o /\ sorted st'.
  Proof.
    intros Hs. destruct o; cbn [run_op spec_op].
    - intros [= <- <-]. split; [reflexivity|apply sorted_put; exact Hs].
    - intros [= <- <-]. split; [reflexivity|exact Hs].
    - intros [= <- <-]. split; [reflexivity|apply sorted_del; exact Hs].
    - rewrite (batch_put_plan _ _ _ Hs).
      destruct (bput_plan sched kvs (map fst kvs)) as [[ps [|]]|]; [| |discriminate]; intros [= <- <-];
        (split; [reflexivity|apply sorted_batch_put; exact Hs]).
    - rewrite batch_get_plan.
      destruct (bget_plan sched keys) as [[|]|]; [| |discriminate]; intros [= <- <-]; (split; [reflexivity|exact Hs]).
    - rewrite (batch_delete_plan _ _ _ Hs).
      destruct (bdel_plan sched keys) as [[ks [|]]|]; [| |discriminate]; intros [= <- <-];
        (split; [reflexivity|apply sorted_batch_delete; exact Hs]).
    - rewrite drange_run_by_plan.
      destruct (drange_plan Ls s e) as [[c|]|]; [| |discriminate]; intros [= <- <-];
        (split; [reflexivity|apply sorted_filter; exact Hs]).
    - unfold client_scan. destruct (scan_limit_ok limit); [|intros [= <- <-]; split; [reflexivity|exact Hs]].
      destruct (scan st Ls s e limit) as [ps|] eqn:E; [|discriminate]. intros [= <- <-].
      apply (scan_correct _ _ _ _ _ _ Hs) in E. subst ps. split; [reflexivity|exact Hs].
    - unfold client_rscan. destruct (scan_limit_ok limit); [|intros [= <- <-]; split; [reflexivity|exact Hs]].
      destruct (rscan st Ls s e limit) as [ps|] eqn:E; [|discriminate]. intros [= <- <-].
      apply (rscan_total _ _ _ _ _ _ Hs) in E. subst ps. split; [reflexivity|exact Hs].
    - destruct (cksum digest st Ls s e) as [c|] eqn:E; [|discriminate]. intros [= <- <-].
      apply (cksum_correct digest _ _ _ _ _ Hs) in E. subst c. split; [reflexivity|exact Hs].
    - unfold client_cas. destruct atomic; [|intros [= <- <-]; split; [reflexivity|exact Hs]].
      pose proof (srv_cas_sorted st k prev nv Hs) as Hs1. rewrite cas_correct in *.
      destruct (spec_cas st k prev nv) as [[p sw] s1]. intros [= <- <-]. split; [reflexivity|exact Hs1].
    - intros [= <- <-]. split; [reflexivity|exact Hs].
  Qed.

  Lemma run_ops_spec : forall ops st rs st',
    sorted st -> run_ops st ops = Some (rs, st') -> (rs, st') = spec_ops st ops /\ sorted st'.
  Proof.
    induction ops as [|o r IH]; intros st rs st' Hs; cbn [run_ops spec_ops].
    - intros [= <- <-]. split; [reflexivity|exact Hs].
    - destruct (run_op st o) as [[x st1]|] eqn:E1; [|discriminate].
      destruct (run_ops st1 r) as [[xs st2]|] eqn:E2; [|discriminate]. intros [= <- <-].
      destruct (run_op_spec _ _ _ _ Hs E1) as [H1 Hs1]. rewrite <- H1.
      destruct (IH _ _ _ Hs1 E2) as [H2 Hs2]. rewrite <- H2. split; [reflexivity|exact Hs2].
  Qed.
End Seq.
