(* RawKV/ProofsStream.v — request streams: the result of a range call is exactly the concatenation of the
   answers to its stream; cursors move strictly; DeleteRange requests are contiguous from the start key; sub-batches
   stay inside one region and within the size limits. (The python oracles on the wire, as theorems.) *)
From Verif Require Import RawKV.Model RawKV.Stream RawKV.ProofsStore RawKV.ProofsLoops RawKV.ProofsBatch.

Lemma scan_loop_replay st e limit : forall Ls cur acc res,
  scan_loop st Ls cur e limit acc = Some res ->
  res = acc ++ scan_replay st Ls (scan_reqs st Ls cur e limit (length acc)).
Proof.
  induction Ls as [|L Ls IH]; intros cur acc res; cbn [scan_loop scan_reqs];
    (destruct ((length acc <? limit)%nat && below cur e); [|intros [= <-]; cbn; symmetry; apply app_nil_r]);
    [discriminate|].
  cbn [scan_replay]. destruct (is_nil (loc_hi L cur)).
  - intros [= <-]. cbn [scan_replay]. destruct Ls; rewrite app_nil_r; reflexivity.
  - intros H. apply IH in H. subst res. rewrite app_length, <- app_assoc. reflexivity.
Qed.

(* shape of the stream: end key never touched, limit = what is still missing (>= 1), starts strictly increasing,
   each start after the first is the end of the region that served the previous request *)
Fixpoint scan_stream_ok (st : store) (Ls : list layout) (reqs : list scan_req) (cur e : key) (limit got : nat) : Prop :=
  match reqs with
  | [] => True
  | (c, e', n) :: r =>
      c = cur /\ e' = e /\ n = (limit - got)%nat /\ (0 < n)%nat /\
      match Ls with
      | [] => False
      | L :: Ls' =>
          r = [] \/ (klt cur (loc_hi L cur) /\
                     scan_stream_ok st Ls' r (loc_hi L cur) e limit (got + length (srv_scan st (loc_hi L cur) cur e n)))
      end
  end.
Lemma scan_reqs_ok st e limit : forall Ls cur got, scan_stream_ok st Ls (scan_reqs st Ls cur e limit got) cur e limit got.
Proof.
  induction Ls as [|L Ls IH]; intros cur got; cbn [scan_reqs].
  - destruct ((got <? limit)%nat && below cur e); exact I.
  - destruct ((got <? limit)%nat && below cur e) eqn:C; [|exact I].
    apply andb_true_iff in C. destruct C as [C _]. apply Nat.ltb_lt in C.
    cbn [scan_stream_ok]. repeat split; try lia.
    destruct (loc_hi_spec L cur) as [Hhi|[Hhi _]].
    + rewrite Hhi. cbn [is_nil]. left; reflexivity.
    + destruct (is_nil (loc_hi L cur)); [left; reflexivity|]. right. split; [exact Hhi|apply IH].
Qed.

Lemma rscan_loop_replay st e limit : forall Ls cur acc res,
  rscan_loop st Ls cur e limit acc = Some res ->
  res = acc ++ rscan_replay st Ls (rscan_reqs st Ls cur e limit (length acc)).
Proof.
  induction Ls as [|L Ls IH]; intros cur acc res; cbn [rscan_loop rscan_reqs];
    (destruct ((length acc <? limit)%nat && lex_ltb e cur); [|intros [= <-]; cbn; symmetry; apply app_nil_r]);
    [discriminate|].
  cbn [rscan_replay]. destruct (is_nil (loc_end_lo L cur)).
  - intros [= <-]. cbn [rscan_replay]. destruct Ls; rewrite app_nil_r; reflexivity.
  - intros H. apply IH in H. subst res. rewrite app_length, <- app_assoc. reflexivity.
Qed.

(* the requests tile a stretch that starts at cur: contiguous, each non-empty, an unbounded one is the last *)
Fixpoint tiles (reqs : list (list N * list N)) (cur : key) : Prop :=
  match reqs with
  | [] => True
  | (a, b) :: r => a = cur /\ (b = [] \/ klt a b) /\ (b = [] -> r = []) /\ tiles r b
  end.
Lemma drange_reqs_tile e : forall Ls cur, tiles (drange_reqs Ls cur e) cur.
Proof.
  induction Ls as [|[L|] Ls IH]; intros cur; cbn [drange_reqs]; destruct (below cur e) eqn:C; try exact I.
  cbn [tiles]. split; [reflexivity|]. destruct (cut_end_step L cur e C) as [[Ha _]|[Hlt _]].
  - rewrite Ha. cbn [is_nil tiles]. split; [left; reflexivity|split; [reflexivity|exact I]].
  - rewrite (klt_not_nil _ _ Hlt). split; [right; exact Hlt|].
    split; [intros E; exfalso; exact (klt_ne_nil _ _ Hlt E)|apply IH].
Qed.

Lemma drange_run_replay e : forall Ls st cur,
  let st' := fold_left (fun s r => srv_delete_range s (fst r) (snd r)) (drange_reqs Ls cur e) st in
  match drange_run st Ls cur e with
  | DrDone s => s = st'
  | DrFailed s _ => s = st'
  | DrFuel => True
  end.
Proof.
  induction Ls as [|[L|] Ls IH]; intros st cur; cbn [drange_run drange_reqs]; destruct (below cur e); cbn [fold_left]; try reflexivity; try exact I.
  cbn [fst snd]. destruct (is_nil (cut_end (loc_hi L cur) e)); [reflexivity|]. apply IH.
Qed.

Lemma cksum_reqs_ends e : forall Ls cur, Forall (fun r => snd r = e) (cksum_reqs Ls cur e).
Proof.
  induction Ls as [|L Ls IH]; intros cur; cbn [cksum_reqs]; destruct (below cur e); try constructor; [reflexivity|].
  destruct (is_nil (loc_hi L cur)); [constructor|apply IH].
Qed.

Lemma add_group_loc (P : key -> key -> Prop) g k gs :
  P g k -> Forall (fun gr => Forall (P (fst gr)) (snd gr)) gs ->
  Forall (fun gr => Forall (P (fst gr)) (snd gr)) (add_group g k gs).
Proof.
  intros Hk. induction 1 as [|[g' ks] r H1 H2 IH]; cbn [add_group].
  - constructor; [cbn; constructor; [exact Hk|constructor]|constructor].
  - destruct (bytes_eqb g g') eqn:E.
    + breflect. subst g'. constructor; [cbn in *; constructor; assumption|exact H2].
    + constructor; [exact H1|exact IH].
Qed.
Lemma group_keys_loc L keys :
  Forall (fun gr => Forall (fun k => loc_lo L k = fst gr) (snd gr)) (group_keys L keys).
Proof.
  induction keys as [|k r IH]; cbn [group_keys]; [constructor|].
  apply (add_group_loc (fun g k => loc_lo L k = g)); [reflexivity|exact IH].
Qed.

Theorem sub_batches_one_region ch L keys : chunker_ok ch ->
  Forall (fun b => Forall (fun k => loc_lo L k = fst (fst b)) (snd b)) (sub_batches ch L keys).
Proof.
  intros Hch. unfold sub_batches. apply Forall_forall. intros b Hb. apply in_flat_map in Hb.
  destruct Hb as [[g ks] [Hg Hb]]. apply in_map_iff in Hb. destruct Hb as [[i c] [<- Hic]]. cbn [fst snd] in *.
  pose proof (group_keys_loc L keys) as G. rewrite Forall_forall in G. specialize (G _ Hg). cbn [fst snd] in G.
  apply Forall_forall. intros k Hk. rewrite Forall_forall in G. apply G.
  rewrite <- (Hch ks). apply in_concat. exists c. split; [|exact Hk].
  rewrite <- (indexed_snd (ch ks) 0). change c with (snd (i, c)). apply in_map. exact Hic.
Qed.

(* size limits: `full` is tested before a key is added, so whatever precedes the last key of a batch was not full *)
Fixpoint weight (w : key -> N) (ks : list key) : N := match ks with [] => 0 | k :: r => w k + weight w r end.
Lemma weight_app w a b : weight w (a ++ b) = weight w a + weight w b.
Proof. induction a as [|x a IH]; cbn [app weight]; [reflexivity|]. rewrite IH. lia. Qed.

Lemma chunk_aux_bound full w : full 0 = false -> forall ks cur acc,
  acc = weight w (rev cur) ->
  (cur <> [] -> full (weight w (rev (tl cur))) = false) ->
  Forall (fun b => b <> [] -> full (weight w (removelast b)) = false) (chunk_aux full w ks cur acc).
Proof.
  intros F0. induction ks as [|k r IH]; intros cur acc Hacc Hcur; cbn [chunk_aux].
  - destruct cur as [|c cur]; cbn [is_nil]; [constructor|]. constructor; [|constructor].
    intros _. cbn [rev]. rewrite removelast_last. apply Hcur. discriminate.
  - destruct (full acc) eqn:F.
    + constructor.
      * intros Hne. destruct cur as [|c cur]; [cbn in Hne; congruence|].
        cbn [rev]. rewrite removelast_last. apply Hcur. discriminate.
      * apply IH; [cbn; lia|]. intros _. cbn. exact F0.
    + apply IH.
      * cbn [rev]. rewrite weight_app. cbn. subst acc. lia.
      * intros _. cbn [tl]. subst acc. exact F.
Qed.

Lemma chunk_bound full w ks : full 0 = false ->
  Forall (fun b => b <> [] -> full (weight w (removelast b)) = false) (chunk full w ks).
Proof. intros F0. apply (chunk_aux_bound full w F0 ks [] 0 eq_refl). intros E. destruct (E eq_refl). Qed.

Lemma weight_one ks : weight (fun _ => 1) ks = N.of_nat (length ks).
Proof. induction ks as [|k r IH]; cbn [weight length]; [reflexivity|]. rewrite IH. lia. Qed.
Lemma removelast_length {A} (l : list A) : l <> [] -> length l = S (length (removelast l)).
Proof.
  intros H. destruct (exists_last H) as [l' [x ->]]. rewrite removelast_last, app_length. cbn. lia.
Qed.

(* a key batch never has more than 513 keys (the Go test is count > 512, made before adding) *)
Theorem key_chunks_bound ks : Forall (fun b => (length b <= 513)%nat) (key_chunks ks).
Proof.
  eapply Forall_impl; [|exact (chunk_bound _ (fun _ => 1) ks eq_refl)]. intros b Hb. cbv beta in Hb.
  destruct b as [|x b]; [cbn; lia|]. specialize (Hb ltac:(discriminate)).
  rewrite weight_one in Hb. apply N.ltb_ge in Hb. unfold raw_batch_pair_count in Hb.
  rewrite (removelast_length (x :: b)) by discriminate. lia.
Qed.

Theorem put_chunks_bound kvs ks :
  Forall (fun b => b <> [] -> weight (pair_size kvs) (removelast b) < raw_batch_put_size) (put_chunks kvs ks).
Proof.
  eapply Forall_impl; [|exact (chunk_bound _ (pair_size kvs) ks eq_refl)]. intros b Hb Hne. apply N.leb_gt, Hb, Hne.
Qed.
