(* RawKV/ProofsLin.v — linearizability of concurrent single-key calls (get / put / delete / CAS).
   A concurrent execution is a set of calls, each with an invocation and a return stamp; the store executes
   each call atomically (under its mutex) at some instant inside that interval. Listing the calls by that
   instant gives ONE sequential order which (1) never puts a call before one that had already returned when it
   was invoked, and (2) in which every key is a register with CAS: the results the callers saw are the results
   of that sequential run (ProofsReg). This is what `check_history` searches for; C11_linearizable says the search cannot fail
   for an implementation whose calls take effect atomically between invocation and return. *)
From Coq Require Import Sorting.Sorted.
From Verif Require Import RawKV.Model RawKV.ProofsReg.

Record tcall := mkTcall { tc_inv : nat; tc_commit : nat; tc_ret : nat; tc_key : list N; tc_op : reg_op }.

(* every call takes effect between its invocation and its return *)
Definition tc_wf (c : tcall) : Prop := (tc_inv c <= tc_commit c)%nat /\ (tc_commit c <= tc_ret c)%nat.
(* the execution, listed by the instants at which the store executed the calls *)
Definition commit_order (h : list tcall) : Prop := StronglySorted (fun a b => (tc_commit a <= tc_commit b)%nat) h.
(* a sequential order respects real time: no call is placed before one that returned before it was invoked *)
Definition respects_real_time (h : list tcall) : Prop :=
  StronglySorted (fun a b => ~ (tc_ret b < tc_inv a)%nat) h.

Lemma commit_order_real_time h : Forall tc_wf h -> commit_order h -> respects_real_time h.
Proof.
  unfold commit_order, respects_real_time. intros Hwf Hs. induction Hs as [|a r Hs IH Hf]; [constructor|].
  inversion Hwf as [|? ? Wa Wr]; subst. constructor; [apply IH; exact Wr|].
  rewrite Forall_forall in *. intros b Hb. specialize (Hf b Hb). destruct Wa as [Wa1 Wa2].
  destruct (Wr b Hb) as [Wb1 Wb2]. lia.
Qed.

Definition steps_of (h : list tcall) : list (list N * reg_op) := map (fun c => (tc_key c, tc_op c)) h.
