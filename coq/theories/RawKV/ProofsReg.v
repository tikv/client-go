(* RawKV/ProofsReg.v — what the linearizability search of the check rests on: under any interleaving of
   atomic single-key calls (get / put / delete / CAS) every key behaves as ONE register with CAS, independent
   of the other keys: the results of the calls on key k are those of a register machine started at Get(k). *)
From Verif Require Import RawKV.Model RawKV.ProofsStore RawKV.ProofsCas.

Inductive reg_op :=
| RegGet
| RegPut (v : list N)
| RegDel
| RegCas (prev : option (list N)) (nv : list N).
Inductive reg_res :=
| ResVal (v : option (list N))
| ResUnit
| ResCas (prev : option (list N)) (swapped : bool).

(* the register machine (this is `step` of check_history in checks/C11.py) *)
Definition reg_apply (cur : option (list N)) (o : reg_op) : reg_res * option (list N) :=
  match o with
  | RegGet => (ResVal cur, cur)
  | RegPut v => (ResUnit, Some v)
  | RegDel => (ResUnit, None)
  | RegCas prev nv => if opt_bytes_eqb cur prev then (ResCas cur true, Some nv) else (ResCas cur false, cur)
  end.
Fixpoint reg_run (cur : option (list N)) (ops : list reg_op) : list reg_res * option (list N) :=
  match ops with
  | [] => ([], cur)
  | o :: r => let '(x, c1) := reg_apply cur o in let '(xs, c2) := reg_run c1 r in (x :: xs, c2)
  end.

(* the same calls on the store, in commit order *)
Definition store_apply (st : store) (k : key) (o : reg_op) : reg_res * store :=
  match o with
  | RegGet => (ResVal (srv_get st k), st)
  | RegPut v => (ResUnit, srv_put st k v 0)
  | RegDel => (ResUnit, st_del st k)
  | RegCas prev nv => let '(p, sw, st1) := srv_cas st k prev nv in (ResCas p sw, st1)
  end.
Fixpoint store_run (st : store) (steps : list (list N * reg_op)) : list reg_res * store :=
  match steps with
  | [] => ([], st)
  | (k, o) :: r => let '(x, s1) := store_apply st k o in let '(xs, s2) := store_run s1 r in (x :: xs, s2)
  end.

(* the calls on key k with their results, in commit order *)
Fixpoint on_key (k : key) (steps : list (list N * reg_op)) (rs : list reg_res) : list (reg_op * reg_res) :=
  match steps, rs with
  | (k', o) :: s, x :: r => if bytes_eqb k' k then (o, x) :: on_key k s r else on_key k s r
  | _, _ => []
  end.

Lemma store_apply_key st k o :
  fst (store_apply st k o) = fst (reg_apply (srv_get st k) o) /\
  forall k', srv_get (snd (store_apply st k o)) k' =
             if bytes_eqb k' k then snd (reg_apply (srv_get st k) o) else srv_get st k'.
Proof.
  destruct o as [|v| |prev nv]; cbn [store_apply reg_apply fst snd].
  - split; [reflexivity|]. intros k'. destruct (bytes_eqb k' k) eqn:E; [breflect; subst; reflexivity|reflexivity].
  - split; [reflexivity|]. intros k'. apply srv_get_put.
  - split; [reflexivity|]. intros k'. apply srv_get_del.
  - rewrite cas_correct. unfold spec_cas. destruct (opt_bytes_eqb (srv_get st k) prev); cbn [fst snd].
    + split; [reflexivity|]. intros k'. apply (srv_get_put st k nv 0).
    + split; [reflexivity|]. intros k'. destruct (bytes_eqb k' k) eqn:E; [breflect; subst; reflexivity|reflexivity].
Qed.

Theorem register_per_key k : forall steps st,
  let '(rs, st') := store_run st steps in
  let calls := on_key k steps rs in
  map snd calls = fst (reg_run (srv_get st k) (map fst calls)) /\
  srv_get st' k = snd (reg_run (srv_get st k) (map fst calls)).
Proof.
  induction steps as [|[k' o] r IH]; intros st; cbn [store_run on_key].
  - cbn. split; reflexivity.
  - pose proof (store_apply_key st k' o) as [H1 H2].
    destruct (store_apply st k' o) as [x s1]. cbn [fst snd] in H1, H2.
    specialize (IH s1). destruct (store_run s1 r) as [xs s2]. cbn [on_key].
    destruct IH as [I1 I2]. rewrite (H2 k), (eqb_sym k k') in I1, I2.
    destruct (bytes_eqb k' k) eqn:E; [|split; [exact I1|exact I2]].
    breflect; subst k'. cbn [map fst snd reg_run]. rewrite H1.
    destruct (reg_apply (srv_get st k) o) as [x' c1]. cbn [fst snd] in *.
    destruct (reg_run c1 (map fst (on_key k r xs))) as [ys c2]. cbn [fst snd] in *.
    split; [f_equal; exact I1|exact I2].
Qed.
