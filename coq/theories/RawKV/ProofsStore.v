(* RawKV/ProofsStore.v — ordered-map laws of the store, sortedness, and the algebra of ranges:
   an empty end key is +infinity, min_end takes the smaller end, max_start the larger start, and a
   range of a sorted store can be cut at any real key. *)
From Coq Require Import Sorting.Sorted.
From Verif Require Import RawKV.Model.

Definition keys_lt (p q : list N * entry) : Prop := klt (fst p) (fst q).
Definition sorted (st : store) : Prop := StronglySorted keys_lt st.

Lemma sorted_nil : sorted [].
Proof. constructor. Qed.

Lemma st_get_put st k e k' :
  st_get (st_put st k e) k' = if bytes_eqb k' k then Some e else st_get st k'.
Proof.
  induction st as [|[k0 e0] r IH]; cbn [st_put st_get].
  - reflexivity.
  - destruct (lex_cmp k k0) eqn:C; cbn [st_get].
    + apply lex_cmp_eq in C; subst k0. destruct (bytes_eqb k' k); reflexivity.
    + reflexivity.
    + rewrite IH. destruct (bytes_eqb k' k0) eqn:E1; [|reflexivity].
      destruct (bytes_eqb k' k) eqn:E2; [|reflexivity].
      breflect; subst. rewrite lex_cmp_refl in C. discriminate.
Qed.

Lemma st_get_filter (f : list N -> bool) st k :
  st_get (filter (fun p => f (fst p)) st) k = if f k then st_get st k else None.
Proof.
  induction st as [|[k0 e0] r IH]; cbn [filter st_get fst].
  - destruct (f k); reflexivity.
  - destruct (f k0) eqn:F0; cbn [st_get].
    + destruct (bytes_eqb k k0) eqn:E.
      * breflect; subst. rewrite F0. reflexivity.
      * exact IH.
    + rewrite IH. destruct (f k) eqn:Fk; [|reflexivity].
      destruct (bytes_eqb k k0) eqn:E; [|reflexivity].
      breflect; subst. congruence.
Qed.

Lemma st_get_del st k k' :
  st_get (st_del st k) k' = if bytes_eqb k' k then None else st_get st k'.
Proof.
  unfold st_del. rewrite (st_get_filter (fun x => negb (bytes_eqb x k))).
  destruct (bytes_eqb k' k); reflexivity.
Qed.

(* the same through the handlers: the ttl never influences what Get returns *)
Lemma srv_get_put st k v ttl k' :
  srv_get (srv_put st k v ttl) k' = if bytes_eqb k' k then Some v else srv_get st k'.
Proof. unfold srv_put, srv_get. rewrite st_get_put. destruct (bytes_eqb k' k); reflexivity. Qed.
Lemma srv_get_del st k k' : srv_get (st_del st k) k' = if bytes_eqb k' k then None else srv_get st k'.
Proof. unfold srv_get. rewrite st_get_del. destruct (bytes_eqb k' k); reflexivity. Qed.

Lemma st_put_Forall (P : list N * entry -> Prop) st k e : Forall P st -> P (k, e) -> Forall P (st_put st k e).
Proof.
  intros H Hk. induction H as [|[k0 e0] r H0 Hr IH]; cbn [st_put]; [constructor; [exact Hk|constructor]|].
  destruct (lex_cmp k k0).
  - constructor; assumption.
  - constructor; [exact Hk|constructor; assumption].
  - constructor; assumption.
Qed.

Lemma sorted_put st k e : sorted st -> sorted (st_put st k e).
Proof.
  unfold sorted. induction 1 as [|[k0 e0] r Hs IH Hf]; cbn [st_put].
  - constructor; constructor.
  - destruct (lex_cmp k k0) eqn:C.
    + apply lex_cmp_eq in C; subst k0. constructor; assumption.
    + (* k goes in front: it precedes k0, hence everything after k0 *)
      constructor; [constructor; assumption|]. constructor; [exact C|].
      eapply Forall_impl; [|exact Hf]. intros p Hp. unfold keys_lt in *; cbn [fst] in *. change (klt k k0) in C. KF.order.
    + constructor; [exact IH|]. apply st_put_Forall; [exact Hf|].
      unfold keys_lt, KeyOT.lt, lex_lt; cbn [fst]. rewrite (lex_cmp_antisym k k0), C. reflexivity.
Qed.

Lemma sorted_filter f st : sorted st -> sorted (filter f st).
Proof.
  unfold sorted. induction 1 as [|p r Hs IH Hf]; cbn [filter].
  - constructor.
  - destruct (f p); [|exact IH]. constructor; [exact IH|].
    rewrite Forall_forall in *. intros q Hq. apply filter_In in Hq. apply Hf; tauto.
Qed.

Lemma sorted_del st k : sorted st -> sorted (st_del st k).
Proof. apply sorted_filter. Qed.

Lemma st_get_above k st : Forall (fun p => klt k (fst p)) st -> st_get st k = None.
Proof.
  induction 1 as [|[k0 e0] r H _ IH]; cbn [st_get]; [reflexivity|].
  cbn [fst] in H. destruct (bytes_eqb k k0) eqn:E; [|exact IH]. breflect; subst. exfalso; KF.order.
Qed.

Lemma st_get_before k p st : sorted (p :: st) -> ~ klt (fst p) k -> st_get st k = None.
Proof.
  intros Hs Hk. apply StronglySorted_inv in Hs. apply st_get_above.
  eapply Forall_impl; [|exact (proj2 Hs)]. intros q Hq. unfold keys_lt in Hq. KF.order.
Qed.

Lemma st_get_In st k e : sorted st -> In (k, e) st -> st_get st k = Some e.
Proof.
  induction st as [|[k0 e0] r IH]; intros Hs H; [destruct H|]. cbn [st_get]. destruct H as [H|H].
  - injection H as -> ->. rewrite eqb_refl. reflexivity.
  - pose proof (StronglySorted_inv Hs) as [Hr Hf]. rewrite Forall_forall in Hf. specialize (Hf _ H).
    unfold keys_lt in Hf; cbn [fst] in Hf.
    destruct (bytes_eqb k k0) eqn:E; [exfalso; korder|apply IH; assumption].
Qed.

Lemma sorted_ext a : forall b, sorted a -> sorted b -> (forall k, st_get a k = st_get b k) -> a = b.
Proof.
  induction a as [|[k1 e1] a IH]; intros [|[k2 e2] b] Ha Hb Hg.
  - reflexivity.
  - specialize (Hg k2). cbn [st_get] in Hg. rewrite eqb_refl in Hg. discriminate.
  - specialize (Hg k1). cbn [st_get] in Hg. rewrite eqb_refl in Hg. discriminate.
  - (* the smaller of the two head keys would be found on one side only *)
    pose proof (Hg k1) as G1. pose proof (Hg k2) as G2. cbn [st_get] in G1, G2. rewrite eqb_refl in G1, G2.
    destruct (KeyOT.compare_spec k1 k2) as [E|L|G].
    + subst k2. rewrite eqb_refl in G1. injection G1 as ->. f_equal.
      apply IH; [exact (proj1 (StronglySorted_inv Ha))|exact (proj1 (StronglySorted_inv Hb))|].
      intros k. specialize (Hg k). cbn [st_get] in Hg. destruct (bytes_eqb k k1) eqn:E; [|exact Hg].
      breflect; subst. rewrite (st_get_before k1 _ _ Ha), (st_get_before k1 _ _ Hb); [reflexivity| |]; cbn [fst]; KF.order.
    + exfalso. destruct (bytes_eqb k1 k2) eqn:E; [korder|].
      rewrite (st_get_before k1 _ _ Hb) in G1; [discriminate|cbn [fst]; KF.order].
    + exfalso. destruct (bytes_eqb k2 k1) eqn:E; [korder|].
      rewrite (st_get_before k2 _ _ Ha) in G2; [discriminate|cbn [fst]; KF.order].
Qed.

Lemma filter_all_true {A} (f : A -> bool) l : (forall x, In x l -> f x = true) -> filter f l = l.
Proof.
  induction l as [|x r IH]; cbn [filter]; intros H; [reflexivity|].
  rewrite (H x (or_introl eq_refl)). f_equal. apply IH. intros y Hy. apply H. right; exact Hy.
Qed.
Lemma filter_all_false {A} (f : A -> bool) l : (forall x, In x l -> f x = false) -> filter f l = [].
Proof.
  induction l as [|x r IH]; cbn [filter]; intros H; [reflexivity|].
  rewrite (H x (or_introl eq_refl)). apply IH. intros y Hy. apply H. right; exact Hy.
Qed.
Lemma filter_filter {A} (f g : A -> bool) l : filter f (filter g l) = filter (fun x => g x && f x) l.
Proof.
  induction l as [|x r IH]; cbn [filter]; [reflexivity|].
  destruct (g x); cbn [filter andb]; [destruct (f x); rewrite IH; reflexivity|exact IH].
Qed.

Lemma min_end_nil_l e : min_end [] e = e.
Proof. destruct e; reflexivity. Qed.
Lemma min_end_l b c : b <> [] -> c = [] \/ ~ klt c b -> min_end b c = b.
Proof. intros Hb [->|Hc]; [reflexivity|]. unfold min_end. ksolve. Qed.
Lemma max_start_nil_l e : max_start [] e = e.
Proof. destruct e; reflexivity. Qed.
Lemma max_start_l b a : ~ klt b a -> max_start b a = b.
Proof. intros H. unfold max_start. ksolve. Qed.

Lemma in_range_min s a b p : in_range s (min_end a b) p = in_range s a p && in_range s b p.
Proof.
  unfold in_range, min_end, below.
  destruct (is_nil b) eqn:Eb, (is_nil a) eqn:Ea, (lex_ltb b a) eqn:Eba; cbn [negb andb orb]; rewrite ?Ea, ?Eb; ksolve.
Qed.
Lemma in_range_max a b e p : in_range (max_start a b) e p = in_range a e p && in_range b e p.
Proof. unfold in_range, max_start. destruct (below (fst p) e), (lex_ltb a b) eqn:Eab; ksolve. Qed.

Lemma range_empty st s e : e <> [] -> ~ klt s e -> range st s e = [].
Proof.
  intros He Hse. apply filter_all_false. intros [k v] _. unfold in_range, below; cbn [fst].
  ksolve.
Qed.

(* [a,c) of a sorted store cut at any real key b: the part below b, then the part from b on. When b
   lies outside [a,c) one of the parts is empty and the other is [a,c). This is the step of every
   cursor loop: b is the end (the start, for ReverseScan) of the region that serves the request. *)
Lemma range_cut st a b c :
  sorted st -> b <> [] -> range st a c = range st a (min_end b c) ++ range st (max_start b a) c.
Proof.
  intros Hs Hb. unfold sorted in Hs.
  induction Hs as [|[k v] r Hs IH Hf]; [reflexivity|].
  unfold range in *. cbn [filter].
  destruct (lex_ltb k b) eqn:Ekb.
  - (* k < b: in the lower part iff in [a,c), not in the upper part *)
    assert (E1 : in_range a (min_end b c) (k, v) = in_range a c (k, v)).
    { rewrite in_range_min. unfold in_range, below; cbn [fst]. ksolve. }
    assert (E2 : in_range (max_start b a) c (k, v) = false).
    { rewrite in_range_max. unfold in_range; cbn [fst]. ksolve. }
    rewrite E1, E2. destruct (in_range a c (k, v)); cbn [app]; rewrite IH; reflexivity.
  - (* b <= k: nothing from k on is in the lower part, in the upper part iff in [a,c) *)
    assert (E1 : forall k' v', ~ klt k' k -> in_range a (min_end b c) (k', v') = false).
    { intros k' v' Hk. rewrite in_range_min. unfold in_range, below; cbn [fst]. ksolve. }
    assert (E2 : in_range (max_start b a) c (k, v) = in_range a c (k, v)).
    { rewrite in_range_max. unfold in_range; cbn [fst]. destruct (below k c); ksolve. }
    assert (R1 : filter (in_range a (min_end b c)) r = []).
    { apply filter_all_false. intros [k' v'] Hin. rewrite Forall_forall in Hf. specialize (Hf _ Hin).
      unfold keys_lt in Hf; cbn [fst] in Hf. apply E1. KF.order. }
    rewrite E1, E2, R1 by KF.order. cbn [app]. rewrite IH, R1. reflexivity.
Qed.

Lemma range_split st a b c :
  sorted st -> b <> [] -> ~ klt b a -> (c = [] \/ ~ klt c b) ->
  range st a c = range st a b ++ range st b c.
Proof.
  intros Hs Hb Hab Hbc. rewrite (range_cut st a b c Hs Hb), min_end_l, max_start_l by assumption. reflexivity.
Qed.
