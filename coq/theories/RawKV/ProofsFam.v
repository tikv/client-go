(* RawKV/ProofsFam.v — column families are independent ordered maps; the API v2 checksum is the checksum
   of the prefixed pairs (digest and byte count include the keyspace prefix). *)
From Verif Require Import RawKV.Model RawKV.ProofsStore RawKV.ProofsLoops RawKV.Sequence.

Definition prefix_store (pfx : list N) (st : store) : store := map (fun p => (pfx ++ fst p, snd p)) st.

Lemma klt_prefix pfx a b : klt (pfx ++ a) (pfx ++ b) <-> klt a b.
Proof. unfold KeyOT.lt, lex_lt. rewrite lex_cmp_app_same. tauto. Qed.

Lemma sorted_prefix pfx st : sorted st -> sorted (prefix_store pfx st).
Proof.
  unfold sorted. induction 1 as [|p r Hs IH Hf]; cbn [prefix_store map]; [constructor|].
  constructor; [exact IH|]. apply Forall_forall. intros q Hq. apply in_map_iff in Hq. destruct Hq as [q0 [<- Hq0]].
  rewrite Forall_forall in Hf. specialize (Hf q0 Hq0). unfold keys_lt in *; cbn [fst]. apply klt_prefix; exact Hf.
Qed.

Lemma filter_map_comm {A B} (g : A -> B) (f : B -> bool) l : filter f (map g l) = map g (filter (fun x => f (g x)) l).
Proof.
  induction l as [|x r IH]; cbn [map filter]; [reflexivity|]. destruct (f (g x)); cbn [map]; rewrite IH; reflexivity.
Qed.

Lemma range_prefix pfx st s e : e <> [] ->
  range (prefix_store pfx st) (pfx ++ s) (pfx ++ e) = prefix_store pfx (range st s e).
Proof.
  intros He. unfold range, prefix_store. rewrite filter_map_comm. f_equal. apply filter_ext. intros [k v].
  unfold in_range, below, lex_leb, lex_ltb; cbn [fst]. rewrite !lex_cmp_app_same.
  assert (E1 : is_nil (pfx ++ e) = false) by (destruct pfx, e; cbn; congruence).
  assert (E2 : is_nil e = false) by (destruct e; cbn; congruence).
  rewrite E1, E2. reflexivity.
Qed.

Theorem cksum_v2 digest pfx st Ls s e res :
  sorted st -> e <> [] ->
  cksum digest (prefix_store pfx st) Ls (pfx ++ s) (pfx ++ e) = Some res ->
  res = cks_list digest (prefix_store pfx (range st s e)).
Proof.
  intros Hs He H. apply (cksum_correct digest _ _ _ _ _ (sorted_prefix pfx st Hs)) in H.
  rewrite range_prefix in H by exact He. exact H.
Qed.

Section Fam.
  Variable digest : list N -> list N -> N.
  Definition fams := list N -> store.
  Definition fam_set (f : fams) (c : list N) (s : store) : fams := fun c' => if bytes_eqb c' c then s else f c'.

  (* every call names its family (the per-call option, or the client's field read when the call starts) *)
  Fixpoint run_tagged (f : fams) (tops : list (list N * op)) : option (list result * fams) :=
    match tops with
    | [] => Some ([], f)
    | (c, o) :: r =>
        match run_op digest (f c) o with
        | None => None
        | Some (x, s1) => match run_tagged (fam_set f c s1) r with
                          | None => None
                          | Some (xs, f') => Some (x :: xs, f')
                          end
        end
    end.
  Definition calls_of (c : list N) (tops : list (list N * op)) : list op :=
    map snd (filter (fun t => bytes_eqb (fst t) c) tops).

  (* what family c holds in the end is what ITS calls alone produce on one ordered map *)
  Theorem families_independent : forall tops f rs f',
    (forall c, sorted (f c)) -> run_tagged f tops = Some (rs, f') ->
    forall c, f' c = snd (spec_ops digest (f c) (calls_of c tops)) /\ sorted (f' c).
  Proof.
    induction tops as [|[c0 o] r IH]; intros f rs f' Hs; cbn [run_tagged].
    - intros [= <- <-] c. cbn. split; [reflexivity|apply Hs].
    - destruct (run_op digest (f c0) o) as [[x s1]|] eqn:E1; [|discriminate].
      destruct (run_tagged (fam_set f c0 s1) r) as [[xs f1]|] eqn:E2; [|discriminate]. intros [= <- <-] c.
      destruct (run_op_spec digest _ _ _ _ (Hs c0) E1) as [H1 Hs1].
      assert (Hs' : forall c', sorted (fam_set f c0 s1 c')).
      { intros c'. unfold fam_set. destruct (bytes_eqb c' c0); [exact Hs1|apply Hs]. }
      destruct (IH _ _ _ Hs' E2 c) as [I1 I2]. split; [|exact I2].
      rewrite I1. unfold calls_of; cbn [filter fst]. unfold fam_set. rewrite (eqb_sym c c0).
      destruct (bytes_eqb c0 c) eqn:E; [|reflexivity].
      breflect. subst c0. cbn [map snd spec_ops].
      rewrite <- H1. destruct (spec_ops digest s1 (map snd (filter (fun t => bytes_eqb (fst t) c) r))). reflexivity.
  Qed.
End Fam.
