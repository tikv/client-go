(* RawKV/ProofsWire.v — the request stream of BatchPutWithTTL: chunking keeps every (key, value, ttl)
   triple and the alignment of the three parallel slices, for the code's chunker and for any partition. *)
From Verif Require Import RawKV.Model RawKV.ProofsBatch.

Lemma pair_size_def kvs k : pair_size kvs k = N.of_nat (length k) + N.of_nat (length (kv_of kvs k)).
Proof. unfold pair_size, kv_of. destruct (find_last kvs k); reflexivity. Qed.

(* the literal three-slice chunker cuts where put_chunks cuts and fills each batch with the triples of its keys *)
Lemma append_batches_aux_spec kvs : forall ks ck cv ct size,
  cv = map (kv_of kvs) ck -> ct = map (ttl_of kvs) ck ->
  append_batches_aux kvs ks ck cv ct size =
  map (batch3_of kvs) (chunk_aux (fun sz => raw_batch_put_size <=? sz) (pair_size kvs) ks ck size).
Proof.
  induction ks as [|k r IH]; intros ck cv ct size Hv Ht; cbn [append_batches_aux chunk_aux].
  - destruct (is_nil ck); [reflexivity|]. cbn [map]. unfold batch3_of. subst cv ct. rewrite !map_rev. reflexivity.
  - destruct (raw_batch_put_size <=? size).
    + cbn [map]. f_equal.
      * unfold batch3_of. subst cv ct. rewrite !map_rev. reflexivity.
      * apply IH; reflexivity.
    + apply IH; subst; reflexivity.
Qed.

Theorem append_batches_spec kvs ks :
  append_batches kvs ks = map (batch3_of kvs) (put_chunks kvs ks).
Proof. unfold append_batches, put_chunks, chunk. apply append_batches_aux_spec; reflexivity. Qed.

Lemma batch3_aligned kvs ks :
  let b := batch3_of kvs ks in
  length (b_vals b) = length (b_keys b) /\ length (b_ttls b) = length (b_keys b) /\
  forall i k, nth_error (b_keys b) i = Some k ->
    nth_error (b_vals b) i = Some (kv_of kvs k) /\ nth_error (b_ttls b) i = Some (ttl_of kvs k).
Proof.
  cbn. rewrite !map_length. split; [reflexivity|]. split; [reflexivity|].
  intros i k H. split; apply map_nth_error; exact H.
Qed.

(* the triples sent, in order *)
Definition triples (b : batch3) : list (list N * list N * N) := combine (combine (b_keys b) (b_vals b)) (b_ttls b).
Lemma triples_of kvs ks : triples (batch3_of kvs ks) = map (fun k => (k, kv_of kvs k, ttl_of kvs k)) ks.
Proof.
  unfold triples, batch3_of; cbn. induction ks as [|k r IH]; cbn [map combine]; [reflexivity|]. rewrite IH. reflexivity.
Qed.

Theorem triples_any_partition kvs (bs : list (list key)) :
  flat_map (fun ks => triples (batch3_of kvs ks)) bs = map (fun k => (k, kv_of kvs k, ttl_of kvs k)) (concat bs).
Proof.
  induction bs as [|b bs IH]; cbn [flat_map concat]; [reflexivity|].
  rewrite IH, triples_of, map_app. reflexivity.
Qed.

Theorem append_batches_triples kvs ks :
  flat_map triples (append_batches kvs ks) = map (fun k => (k, kv_of kvs k, ttl_of kvs k)) ks /\
  Forall (fun b => length (b_vals b) = length (b_keys b) /\ length (b_ttls b) = length (b_keys b)) (append_batches kvs ks).
Proof.
  rewrite append_batches_spec. split.
  - rewrite flat_map_concat_map, map_map, <- flat_map_concat_map.
    rewrite (triples_any_partition kvs (put_chunks kvs ks)), put_chunks_ok. reflexivity.
  - apply Forall_forall. intros b Hb. apply in_map_iff in Hb. destruct Hb as [c [<- _]].
    cbn. rewrite !map_length. split; reflexivity.
Qed.
