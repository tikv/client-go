(* RawKV/ProofsCas.v — compare-and-swap: the handler is the reference compare-and-swap of an ordered map; concurrent
   callers (any interleaving of atomic steps). *)
From Verif Require Import RawKV.Model RawKV.ProofsStore.

Theorem cas_correct st k prev nv : srv_cas st k prev nv = spec_cas st k prev nv.
Proof.
  unfold srv_cas, spec_cas, srv_get. destruct (st_get st k) as [e|]; cbn [option_map opt_bytes_eqb];
    destruct prev as [p|]; try reflexivity.
Qed.
Lemma srv_cas_sorted st k prev nv : sorted st -> sorted (snd (srv_cas st k prev nv)).
Proof.
  intros Hs. rewrite cas_correct. unfold spec_cas.
  destruct (opt_bytes_eqb (srv_get st k) prev); cbn [snd]; [apply sorted_put; exact Hs|exact Hs].
Qed.

Fixpoint spec_run_cas (st : store) (steps : list cas_step) : list (option (list N) * bool) * store :=
  match steps with
  | [] => ([], st)
  | (k, prev, nv) :: r =>
      let '(p, sw, st1) := spec_cas st k prev nv in
      let '(rs, st2) := spec_run_cas st1 r in
      ((p, sw) :: rs, st2)
  end.

Lemma run_cas_spec : forall steps st, run_cas st steps = spec_run_cas st steps.
Proof.
  induction steps as [|[[k prev] nv] r IH]; intros st; cbn [run_cas spec_run_cas]; [reflexivity|].
  rewrite cas_correct. destruct (spec_cas st k prev nv) as [[p sw] st1]. rewrite IH. reflexivity.
Qed.

Lemma opt_eqb_true a b : opt_bytes_eqb a b = true <-> a = b.
Proof.
  destruct a as [x|], b as [y|]; cbn [opt_bytes_eqb]; try (split; congruence).
  rewrite bytes_eqb_eq. split; congruence.
Qed.
Lemma spec_cas_get st k prev nv k' :
  let '(p, sw, st1) := spec_cas st k prev nv in
  p = srv_get st k /\ (sw = true <-> srv_get st k = prev) /\
  srv_get st1 k' = if sw && bytes_eqb k' k then Some nv else srv_get st k'.
Proof.
  unfold spec_cas. destruct (opt_bytes_eqb (srv_get st k) prev) eqn:E.
  - split; [reflexivity|]. split; [split; [intros _; apply opt_eqb_true; exact E|reflexivity]|].
    exact (srv_get_put st k nv 0 k').
  - split; [reflexivity|]. split; [|reflexivity].
    split; [discriminate|]. intros H. apply opt_eqb_true in H. congruence.
Qed.

(* number of successful steps on key k that expected pe *)
Fixpoint wins (k : key) (pe : option (list N)) (steps : list cas_step) (rs : list (option (list N) * bool)) : nat :=
  match steps, rs with
  | (k', prev, _) :: s, (_, sw) :: r =>
      (if sw && bytes_eqb k' k && opt_bytes_eqb prev pe then 1 else 0) + wins k pe s r
  | _, _ => 0
  end.

Definition never_writes (k : key) (pe : option (list N)) (steps : list cas_step) : Prop :=
  forall k' prev nv, In (k', prev, nv) steps -> k' = k -> Some nv <> pe.

(* mutual exclusion: if no caller ever writes the expected value pe back to k (always true for
   pe = None: CAS cannot delete), at most ONE of the callers expecting pe on k succeeds, in any
   interleaving and from any store — the lock / create-if-absent idiom. A caller can only win while k
   holds pe, and the winner replaces pe by a value that is not pe. *)
Lemma wins_bound k pe : forall steps st,
  never_writes k pe steps ->
  let w := wins k pe steps (fst (spec_run_cas st steps)) in
  (w <= 1)%nat /\ (srv_get st k <> pe -> w = 0%nat).
Proof.
  induction steps as [|[[k' prev] nv] r IH]; intros st Hw; cbn [spec_run_cas wins]; [split; [lia|reflexivity]|].
  pose proof (spec_cas_get st k' prev nv k) as G.
  destruct (spec_cas st k' prev nv) as [[p sw] st1]. destruct G as [_ [Gsw Gget]].
  assert (Hw' : never_writes k pe r) by (intros a b c Hin; apply (Hw a b c); right; exact Hin).
  specialize (IH st1 Hw'). destruct (spec_run_cas st1 r) as [rs st2]. cbn [fst wins] in *. destruct IH as [I1 I0].
  assert (Hnv : sw && bytes_eqb k k' = true -> srv_get st1 k <> pe).
  { intros E. rewrite Gget, E. apply andb_true_iff in E. destruct E as [_ E]. breflect. subst k'.
    apply (Hw k prev nv); [left; reflexivity|reflexivity]. }
  destruct (sw && bytes_eqb k' k && opt_bytes_eqb prev pe) eqn:E.
  - (* this caller wins: k held pe, and does not hold it afterwards *)
    apply andb_true_iff in E. destruct E as [E E3]. apply andb_true_iff in E. destruct E as [E1 E2].
    breflect. subst k' sw. apply opt_eqb_true in E3. subst prev.
    rewrite I0 by (apply Hnv; rewrite eqb_refl; reflexivity).
    split; [lia|]. intros Hne. exfalso. apply Hne, Gsw. reflexivity.
  - split; [exact I1|]. intros Hne. apply I0. rewrite Gget.
    destruct (sw && bytes_eqb k k'); [rewrite <- Gget; exact (Hnv eq_refl)|exact Hne].
Qed.

Theorem cas_at_most_one_winner k pe : forall steps st,
  never_writes k pe steps -> (wins k pe steps (fst (run_cas st steps)) <= 1)%nat.
Proof. intros steps st Hw. rewrite run_cas_spec. exact (proj1 (wins_bound k pe steps st Hw)). Qed.
