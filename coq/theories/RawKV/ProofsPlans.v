(* RawKV/ProofsPlans.v — store-free "plans": which batches a schedule serves / where a DeleteRange stops
   depends on layouts and outcomes only, never on the data. The store a call leaves behind is the fold
   of the effects of the requests that were served. For the batch calls the plan is the list of keys served
   over all rounds: always keys of the request, and all of them when no batch was dropped. Every result
   about a batch call under an arbitrary schedule follows from these two facts and the store-side handler, and is
   summed up in one equation per call, "the call = a function of its plan" (batch_get_plan, batch_put_plan,
   batch_delete_plan, drange_run_by_plan): the shape Sequence.spec_op has. *)
From Verif Require Import RawKV.Model RawKV.ProofsStore RawKV.ProofsLoops RawKV.ProofsBatch.

(* the keys served over all rounds, in the order they are served, with the flag "no batch was dropped";
   None = out of rounds *)
Section Served.
  Variable ch : list key -> list (list key).
  Fixpoint served (sched : list round) (keys : list key) : option (list key * bool) :=
    match keys with
    | [] => Some ([], true)
    | _ =>
        match sched with
        | [] => None
        | r :: sched' =>
            match served sched' (bounced_keys ch r keys) with
            | None => None
            | Some (ks, ok) => Some (served_keys ch r keys ++ ks, ok && negb (any_dropped ch r keys))
            end
        end
    end.
End Served.

Lemma served_sub ch : chunker_ok ch -> forall sched keys ks ok,
  served ch sched keys = Some (ks, ok) -> incl ks keys.
Proof.
  intros Hch. induction sched as [|r sched IH]; intros keys ks ok; cbn [served].
  - destruct keys; [|discriminate]. intros [= <- _]. apply incl_nil_l.
  - destruct keys as [|k0 keys0]; [intros [= <- _]; apply incl_nil_l|]. set (keys := k0 :: keys0).
    destruct (served ch sched (bounced_keys ch r keys)) as [[ks1 ok1]|] eqn:E; [|discriminate]. intros [= <- _].
    apply incl_app; [|apply (incl_tran (IH _ _ _ E))]; intros k Hk; exact (keys_of_sub _ ch r keys k Hch Hk).
Qed.
Lemma served_all ch : chunker_ok ch -> forall sched keys ks,
  served ch sched keys = Some (ks, true) -> incl keys ks.
Proof.
  intros Hch. induction sched as [|r sched IH]; intros keys ks; cbn [served].
  - destruct keys; [|discriminate]. intros _. apply incl_nil_l.
  - destruct keys as [|k0 keys0]; [intros _; apply incl_nil_l|]. set (keys := k0 :: keys0).
    destruct (served ch sched (bounced_keys ch r keys)) as [[ks1 ok1]|] eqn:E; [|discriminate]. intros [= <- Hok].
    apply andb_true_iff in Hok. destruct Hok as [-> Hd]. apply negb_true_iff in Hd.
    intros k Hk. apply (served_or_bounced ch r keys k Hch Hd) in Hk. apply in_or_app.
    destruct Hk as [Hk|Hk]; [left; exact Hk|right; exact (IH _ _ E k Hk)].
Qed.
(* a batch call finishes as soon as one round serves every batch *)
Lemma served_final ch L rest : forall sched keys, served ch (sched ++ (L, all_served) :: rest) keys <> None.
Proof.
  induction sched as [|r sched IH]; intros keys; cbn [app served].
  - destruct keys; [discriminate|]. rewrite bounced_all_served. destruct rest; discriminate.
  - destruct keys; [discriminate|].
    destruct (served ch (sched ++ (L, all_served) :: rest) _) as [[? ?]|] eqn:E; [discriminate|].
    exfalso. exact (IH _ E).
Qed.

Fixpoint bput_plan (sched : list round) (kvs : list (list N * entry)) (keys : list key)
  : option (list (list N * entry) * bool) :=
  match keys with
  | [] => Some ([], true)
  | _ =>
      match sched with
      | [] => None
      | r :: sched' =>
          match bput_plan sched' kvs (bounced_keys (put_chunks kvs) r keys) with
          | None => None
          | Some (ps, ok) => Some (round_pairs kvs (served_keys (put_chunks kvs) r keys) ++ ps,
                                   ok && negb (any_dropped (put_chunks kvs) r keys))
          end
      end
  end.
Lemma srv_batch_put_app st a b : srv_batch_put st (a ++ b) = srv_batch_put (srv_batch_put st a) b.
Proof. unfold srv_batch_put. apply fold_left_app. Qed.
Lemma bput_rounds_plan kvs : forall sched st keys,
  bput_rounds st sched kvs keys =
  match bput_plan sched kvs keys with Some (ps, ok) => Some (srv_batch_put st ps, ok) | None => None end.
Proof.
  induction sched as [|r sched IH]; intros st keys; cbn [bput_rounds bput_plan].
  - destruct keys; reflexivity.
  - destruct keys as [|k0 keys0]; [reflexivity|]. rewrite IH.
    destruct (bput_plan sched kvs _) as [[ps ok]|]; [|reflexivity]. rewrite srv_batch_put_app. reflexivity.
Qed.
Lemma bput_plan_served kvs : forall sched keys,
  bput_plan sched kvs keys =
  match served (put_chunks kvs) sched keys with Some (ks, ok) => Some (round_pairs kvs ks, ok) | None => None end.
Proof.
  induction sched as [|r sched IH]; intros keys; cbn [bput_plan served].
  - destruct keys; reflexivity.
  - destruct keys as [|k0 keys0]; [reflexivity|]. rewrite IH.
    destruct (served (put_chunks kvs) sched _) as [[ks ok]|]; [|reflexivity].
    unfold round_pairs. rewrite flat_map_app. reflexivity.
Qed.
Lemma bput_rounds_served kvs sched st keys st' ok :
  bput_rounds st sched kvs keys = Some (st', ok) ->
  exists ks, served (put_chunks kvs) sched keys = Some (ks, ok) /\ st' = srv_batch_put st (round_pairs kvs ks).
Proof.
  rewrite bput_rounds_plan, bput_plan_served.
  destruct (served (put_chunks kvs) sched keys) as [[ks ok']|]; [|discriminate]. intros [= <- <-].
  exists ks. split; reflexivity.
Qed.

Lemma round_put_get kvs st ks k :
  st_get (srv_batch_put st (round_pairs kvs ks)) k =
  if existsb (bytes_eqb k) ks then match find_last kvs k with Some e => Some e | None => st_get st k end
  else st_get st k.
Proof.
  rewrite st_get_batch_put. unfold round_pairs. rewrite find_last_pairs.
  destruct (existsb (bytes_eqb k) ks); reflexivity.
Qed.

Theorem batch_put_plan st sched kvs : sorted st ->
  batch_put st sched kvs =
  match bput_plan sched kvs (map fst kvs) with
  | Some (_, true) => Some (srv_batch_put st kvs, true)
  | Some (ps, false) => Some (srv_batch_put st ps, false)
  | None => None
  end.
Proof.
  intros Hs. unfold batch_put. rewrite bput_rounds_plan, bput_plan_served.
  destruct (served (put_chunks kvs) sched (map fst kvs)) as [[ks [|]]|] eqn:Hsv; [|reflexivity|reflexivity].
  cbv beta iota. do 2 f_equal. apply srv_batch_put_ext; [exact Hs|]. intros k. unfold round_pairs. rewrite find_last_pairs.
  destruct (existsb (bytes_eqb k) ks) eqn:E; [reflexivity|]. symmetry. apply find_last_dom. intros Hin.
  apply (served_all _ (put_chunks_ok kvs) _ _ _ Hsv), existsb_In in Hin. congruence.
Qed.

Theorem batch_put_last_wins st sched kvs st' :
  sorted st -> batch_put st sched kvs = Some (st', true) -> st' = srv_batch_put st kvs.
Proof.
  intros Hs. rewrite (batch_put_plan _ _ _ Hs).
  destruct (bput_plan sched kvs (map fst kvs)) as [[ps [|]]|]; try discriminate. intros [= <-]. reflexivity.
Qed.

Theorem batch_put_partial_failure st sched kvs st' ok :
  batch_put st sched kvs = Some (st', ok) ->
  forall k, st_get st' k = st_get st k \/
            (In k (map fst kvs) /\ exists e, find_last kvs k = Some e /\ st_get st' k = Some e).
Proof.
  intros H k. apply bput_rounds_served in H. destruct H as [ks [Hsv ->]]. rewrite round_put_get.
  destruct (existsb (bytes_eqb k) ks) eqn:E; [|left; reflexivity].
  destruct (find_last kvs k) as [e|]; [|left; reflexivity]. right.
  split; [|exists e; split; reflexivity].
  apply existsb_In in E. exact (served_sub _ (put_chunks_ok kvs) _ _ _ _ Hsv k E).
Qed.

Lemma batch_put_sorted st sched kvs st' ok : sorted st -> batch_put st sched kvs = Some (st', ok) -> sorted st'.
Proof.
  intros Hs H. apply bput_rounds_served in H. destruct H as [ks [_ ->]]. apply sorted_batch_put; exact Hs.
Qed.

(* batch boundaries and batch order do not matter: ANY list of batches whose pairs are map
   values and that together mention every requested key gives the sequential result *)
Theorem batch_put_any_partition st kvs (bs : list (list (list N * entry))) :
  sorted st ->
  (forall p, In p (concat bs) -> find_last kvs (fst p) = Some (snd p)) ->
  (forall k, In k (map fst kvs) -> exists e, In (k, e) (concat bs)) ->
  fold_left srv_batch_put bs st = srv_batch_put st kvs.
Proof.
  intros Hs Hc Hcov. unfold srv_batch_put at 1. rewrite fold_left_concat.
  apply srv_batch_put_ext; [exact Hs|]. intros k. apply find_last_pfun.
  - intros k' v Hp. exact (Hc (k', v) Hp).
  - intros v Hv. assert (Hk : In k (map fst kvs)) by (apply find_last_In in Hv; exact (in_map fst _ _ Hv)).
    destruct (Hcov k Hk) as [e He]. specialize (Hc _ He). cbn in Hc. congruence.
Qed.

Lemma batch_put_final st sched L rest kvs : batch_put st (sched ++ (L, all_served) :: rest) kvs <> None.
Proof.
  unfold batch_put. rewrite bput_rounds_plan, bput_plan_served.
  destruct (served _ _ _) as [[ks ok]|] eqn:E; [discriminate|]. exfalso. exact (served_final _ _ _ _ _ E).
Qed.

(* bdel_plan is `served key_chunks`, by conversion *)
Fixpoint bdel_plan (sched : list round) (keys : list key) : option (list key * bool) :=
  match keys with
  | [] => Some ([], true)
  | _ =>
      match sched with
      | [] => None
      | r :: sched' =>
          match bdel_plan sched' (bounced_keys key_chunks r keys) with
          | None => None
          | Some (ks, ok) => Some (served_keys key_chunks r keys ++ ks, ok && negb (any_dropped key_chunks r keys))
          end
      end
  end.
Lemma bdel_rounds_plan : forall sched st keys,
  bdel_rounds st sched keys =
  match bdel_plan sched keys with Some (ks, ok) => Some (srv_batch_delete st ks, ok) | None => None end.
Proof.
  induction sched as [|r sched IH]; intros st keys; cbn [bdel_rounds bdel_plan].
  - destruct keys; reflexivity.
  - destruct keys as [|k0 keys0]; [reflexivity|]. rewrite IH.
    destruct (bdel_plan sched _) as [[ks ok]|]; [|reflexivity].
    unfold srv_batch_delete. rewrite fold_left_app. reflexivity.
Qed.
Lemma bdel_rounds_served sched st keys st' ok :
  bdel_rounds st sched keys = Some (st', ok) ->
  exists ks, served key_chunks sched keys = Some (ks, ok) /\ st' = srv_batch_delete st ks.
Proof.
  rewrite bdel_rounds_plan. change (bdel_plan sched keys) with (served key_chunks sched keys).
  destruct (served key_chunks sched keys) as [[ks ok']|]; [|discriminate]. intros [= <- <-].
  exists ks. split; reflexivity.
Qed.

Theorem batch_delete_plan st sched keys : sorted st ->
  bdel_rounds st sched keys =
  match bdel_plan sched keys with
  | Some (_, true) => Some (srv_batch_delete st keys, true)
  | Some (ks, false) => Some (srv_batch_delete st ks, false)
  | None => None
  end.
Proof.
  intros Hs. rewrite bdel_rounds_plan. change (bdel_plan sched keys) with (served key_chunks sched keys).
  destruct (served key_chunks sched keys) as [[ks [|]]|] eqn:Hsv; [|reflexivity|reflexivity].
  do 2 f_equal. apply srv_batch_delete_ext; [exact Hs|]. intros k.
  split; [apply (served_sub _ key_chunks_ok _ _ _ _ Hsv)|apply (served_all _ key_chunks_ok _ _ _ Hsv)].
Qed.

Theorem batch_delete_correct st sched keys st' :
  sorted st -> bdel_rounds st sched keys = Some (st', true) -> st' = srv_batch_delete st keys.
Proof.
  intros Hs. rewrite (batch_delete_plan _ _ _ Hs).
  destruct (bdel_plan sched keys) as [[ks [|]]|]; try discriminate. intros [= <-]. reflexivity.
Qed.
Theorem batch_delete_partial_failure st sched keys st' ok :
  bdel_rounds st sched keys = Some (st', ok) ->
  forall k, st_get st' k = st_get st k \/ (In k keys /\ st_get st' k = None).
Proof.
  intros H k. apply bdel_rounds_served in H. destruct H as [ks [Hsv ->]]. rewrite st_get_batch_delete.
  destruct (existsb (bytes_eqb k) ks) eqn:E; [|left; reflexivity]. right. split; [|reflexivity].
  apply existsb_In in E. exact (served_sub _ key_chunks_ok _ _ _ _ Hsv k E).
Qed.
Lemma batch_delete_sorted st sched keys st' ok : sorted st -> bdel_rounds st sched keys = Some (st', ok) -> sorted st'.
Proof.
  intros Hs H. apply bdel_rounds_served in H. destruct H as [ks [_ ->]]. apply sorted_batch_delete; exact Hs.
Qed.
Theorem batch_delete_any_partition st keys (bs : list (list key)) :
  sorted st -> (forall k, In k (concat bs) <-> In k keys) ->
  fold_left srv_batch_delete bs st = srv_batch_delete st keys.
Proof.
  intros Hs Hm. unfold srv_batch_delete at 1. rewrite fold_left_concat.
  apply srv_batch_delete_ext; assumption.
Qed.

(* only whether the call fails *)
Fixpoint bget_plan (sched : list round) (keys : list key) : option bool :=
  match keys with
  | [] => Some true
  | _ =>
      match sched with
      | [] => None
      | r :: sched' =>
          if any_dropped key_chunks r keys then Some false
          else bget_plan sched' (bounced_keys key_chunks r keys)
      end
  end.
Lemma bget_rounds_plan st : forall sched keys,
  option_map snd (bget_rounds st sched keys) = bget_plan sched keys.
Proof.
  induction sched as [|r sched IH]; intros keys; cbn [bget_rounds bget_plan].
  - destruct keys; reflexivity.
  - destruct keys as [|k0 keys0]; [reflexivity|].
    destruct (any_dropped key_chunks r (k0 :: keys0)); [reflexivity|].
    rewrite <- IH. destruct (bget_rounds st sched _) as [[ps ok]|]; reflexivity.
Qed.

Lemma bget_rounds_served st : forall sched keys ps,
  bget_rounds st sched keys = Some (ps, true) ->
  exists ks, served key_chunks sched keys = Some (ks, true) /\ ps = srv_batch_get st ks.
Proof.
  induction sched as [|r sched IH]; intros keys ps; cbn [bget_rounds served].
  - destruct keys; [|discriminate]. intros [= <-]. exists []. split; reflexivity.
  - destruct keys as [|k0 keys0]; [intros [= <-]; exists []; split; reflexivity|]. set (keys := k0 :: keys0).
    destruct (any_dropped key_chunks r keys); [discriminate|].
    destruct (bget_rounds st sched (bounced_keys key_chunks r keys)) as [[rest ok]|] eqn:E; [|discriminate].
    intros [= <- ->]. destruct (IH _ _ E) as [ks [-> ->]].
    exists (served_keys key_chunks r keys ++ ks). split; [reflexivity|].
    unfold srv_batch_get. rewrite flat_map_app. reflexivity.
Qed.

Theorem batch_get_plan st sched keys :
  batch_get st sched keys =
  match bget_plan sched keys with
  | Some true => Some (Some (map (srv_get st) keys))
  | Some false => Some None
  | None => None
  end.
Proof.
  unfold batch_get. rewrite <- (bget_rounds_plan st).
  destruct (bget_rounds st sched keys) as [[ps [|]]|] eqn:E; cbn [option_map snd]; [|reflexivity|reflexivity].
  destruct (bget_rounds_served _ _ _ _ E) as [ks [Hsv ->]].
  rewrite (assemble_covering st keys ks (served_all _ key_chunks_ok _ _ _ Hsv)). reflexivity.
Qed.

Theorem batch_get_aligned st sched keys res :
  batch_get st sched keys = Some (Some res) -> res = map (srv_get st) keys /\ length res = length keys.
Proof.
  rewrite batch_get_plan. destruct (bget_plan sched keys) as [[|]|]; try discriminate.
  intros [= <-]. split; [reflexivity|apply map_length].
Qed.

Theorem batch_get_any_partition st keys (bs : list (list key)) :
  (forall k, In k keys -> In k (concat bs)) ->
  assemble keys (flat_map (srv_batch_get st) bs) = map (srv_get st) keys.
Proof.
  intros Hcov. replace (flat_map (srv_batch_get st) bs) with (srv_batch_get st (concat bs)); [apply assemble_covering; exact Hcov|].
  clear. induction bs as [|b bs IH]; cbn [concat flat_map]; [reflexivity|].
  rewrite <- IH. unfold srv_batch_get. apply flat_map_app.
Qed.

Lemma batch_get_final st sched L rest keys : batch_get st (sched ++ (L, all_served) :: rest) keys <> None.
Proof.
  rewrite batch_get_plan. destruct (bget_plan (sched ++ (L, all_served) :: rest) keys) as [[|]|] eqn:E; try discriminate.
  exfalso. revert keys E. induction sched as [|r sched IH]; intros keys; cbn [app bget_plan]; (destruct keys; [discriminate|]).
  - rewrite dropped_all_served, bounced_all_served. destruct rest; discriminate.
  - destruct (any_dropped key_chunks r (l :: keys)); [discriminate|apply IH].
Qed.

(* None = out of layouts; Some None = completes; Some (Some c) = a request fails with the cursor at c *)
Fixpoint drange_plan (Ls : list (option layout)) (cur e : key) : option (option key) :=
  if below cur e then
    match Ls with
    | [] => None
    | None :: _ => Some (Some cur)
    | Some L :: Ls' =>
        let ae := cut_end (loc_hi L cur) e in
        if is_nil ae then Some None else drange_plan Ls' ae e
    end
  else Some None.

(* the plan is the run with the stores forgotten *)
Lemma drange_run_plan e : forall Ls st cur,
  drange_plan Ls cur e =
  match drange_run st Ls cur e with DrDone _ => Some None | DrFailed _ c => Some (Some c) | DrFuel => None end.
Proof.
  induction Ls as [|[L|] Ls IH]; intros st cur; cbn [drange_run drange_plan]; destruct (below cur e); try reflexivity.
  destruct (is_nil (cut_end (loc_hi L cur) e)); [reflexivity|apply IH].
Qed.

Theorem drange_run_by_plan st Ls s e :
  drange_run st Ls s e =
  match drange_plan Ls s e with
  | Some None => DrDone (srv_delete_range st s e)
  | Some (Some c) => DrFailed (filter (fun p => negb (in_co s c p)) st) c
  | None => DrFuel
  end.
Proof.
  pose proof (drange_run_spec e Ls st s) as R. rewrite (drange_run_plan e Ls st s).
  destruct (drange_run st Ls s e) as [s1|s1 c|]; [subst s1; reflexivity|destruct R as [-> _]; reflexivity|reflexivity].
Qed.
