(* RawKV/ProofsLoops.v — the per-call cursor loops (Scan, ReverseScan, Checksum, DeleteRange) compute the
   single-map result for ANY sequence of layouts. Each iteration serves the part of the range that lies in
   the region of the cursor and moves the cursor to the region's far bound: by range_cut the range is that
   part followed by the range from the new cursor on. Termination: the cursor moves strictly through a
   finite set of split keys. *)
From Verif Require Import RawKV.Model RawKV.ProofsStore.

Lemma loc_hi_spec L k : loc_hi L k = [] \/ (klt k (loc_hi L k) /\ In (loc_hi L k) L).
Proof.
  induction L as [|s r IH]; cbn [loc_hi]; [left; reflexivity|].
  destruct (lex_ltb k s) eqn:E.
  - destruct (is_nil (loc_hi r k)) eqn:En.
    + right. breflect. split; [exact E|left; reflexivity].
    + destruct (lex_ltb s (loc_hi r k)) eqn:E2.
      * right. breflect. split; [exact E|left; reflexivity].
      * destruct IH as [IH|[IH1 IH2]]; [breflect; congruence|]. right. split; [exact IH1|right; exact IH2].
  - destruct IH as [IH|[IH1 IH2]]; [left; exact IH|right; split; [exact IH1|right; exact IH2]].
Qed.

Lemma loc_end_lo_spec L k : k <> [] ->
  klt (loc_end_lo L k) k /\ (loc_end_lo L k = [] \/ In (loc_end_lo L k) L).
Proof.
  intros Hk. induction L as [|s r [IH1 IH2]]; cbn [loc_end_lo].
  - split; [apply nil_lt; exact Hk|left; reflexivity].
  - destruct (lex_ltb s k) eqn:E.
    + destruct (lex_ltb (loc_end_lo r k) s) eqn:E2.
      * breflect. split; [exact E|right; left; reflexivity].
      * split; [exact IH1|]. destruct IH2 as [IH2|IH2]; [left; exact IH2|right; right; exact IH2].
    + split; [exact IH1|]. destruct IH2 as [IH2|IH2]; [left; exact IH2|right; right; exact IH2].
Qed.

(* a loop over layouts that either finishes within an iteration or goes on from a cursor of smaller
   measure finishes when it is given more layouts than the measure of its first cursor *)
Lemma fuel_enough (m : key -> nat) (ok : layout -> Prop) (Q : list layout -> key -> Prop) :
  (forall L Ls cur, ok L -> Q (L :: Ls) cur \/ exists h, (m h < m cur)%nat /\ (Q Ls h -> Q (L :: Ls) cur)) ->
  forall Ls cur, (forall L, In L Ls -> ok L) -> (m cur < length Ls)%nat -> Q Ls cur.
Proof.
  intros Step. induction Ls as [|L Ls IH]; intros cur Hok Hlen; [cbn in Hlen; lia|].
  destruct (Step L Ls cur (Hok L (or_introl eq_refl))) as [H|[h [Hm H]]]; [exact H|].
  apply H, IH; [intros L' HL'; apply Hok; right; exact HL'|cbn [length] in Hlen; lia].
Qed.

Lemma filter_length_mono {A} (f g : A -> bool) l :
  (forall y, f y = true -> g y = true) -> (length (filter f l) <= length (filter g l))%nat.
Proof.
  intros Hfg. induction l as [|y l IH]; cbn [filter]; [lia|].
  destruct (f y) eqn:F; [rewrite (Hfg y F); cbn [length]; lia|]. destruct (g y); cbn [length]; lia.
Qed.
Lemma filter_length_lt {A} (f g : A -> bool) l x :
  (forall y, f y = true -> g y = true) -> In x l -> f x = false -> g x = true ->
  (length (filter f l) < length (filter g l))%nat.
Proof.
  intros Hfg Hin Hf Hg. induction l as [|y l IH]; [destruct Hin|]. cbn [filter]. destruct Hin as [->|Hin].
  - rewrite Hf, Hg. cbn [length]. pose proof (filter_length_mono f g l Hfg). lia.
  - specialize (IH Hin). destruct (f y) eqn:F; [rewrite (Hfg y F); cbn [length]; lia|].
    destruct (g y); cbn [length]; lia.
Qed.
Lemma filter_length_le {A} (f : A -> bool) l : (length (filter f l) <= length l)%nat.
Proof. induction l as [|x r IH]; cbn [filter length]; [lia|]. destruct (f x); cbn [length]; lia. Qed.

(* forward loops: Q holds at a cursor as soon as its region is the last one or Q holds at the region end *)
Lemma fwd_fuel S (Q : list layout -> key -> Prop) :
  (forall L Ls cur, loc_hi L cur = [] \/ Q Ls (loc_hi L cur) -> Q (L :: Ls) cur) ->
  forall Ls s, (forall L, In L Ls -> incl L S) -> (length S < length Ls)%nat -> Q Ls s.
Proof.
  intros Step Ls s Hin Hlen.
  (* the measure: the split keys of S still ahead of the cursor *)
  apply (fuel_enough (fun k => length (filter (fun x => lex_ltb k x) S)) (fun L => incl L S)); [|exact Hin|].
  - intros L Ls' cur HL. destruct (loc_hi_spec L cur) as [Hhi|[Hlt HinL]].
    + left. apply Step. left; exact Hhi.
    + right. exists (loc_hi L cur). split; [|intros H; apply Step; right; exact H].
      apply (filter_length_lt _ _ S (loc_hi L cur));
        [|apply HL; exact HinL|apply ltb_false; KF.order|apply lex_ltb_lt; exact Hlt].
      intros y Hy. apply lex_ltb_lt. breflect. KF.order.
  - eapply Nat.le_lt_trans; [apply filter_length_le|exact Hlen].
Qed.

(* the accumulator of Scan / ReverseScan: taking what is still missing from a, then from b, is taking it
   from a ++ b; nothing is taken once the limit is reached or from an empty list *)
Lemma take_more limit (acc : list (list N * list N)) (a b : store) :
  let acc' := acc ++ map kv (firstn (limit - length acc) a) in
  acc' ++ map kv (firstn (limit - length acc') b) = acc ++ map kv (firstn (limit - length acc) (a ++ b)).
Proof.
  cbv zeta. rewrite firstn_app, map_app, app_assoc. do 3 f_equal. rewrite app_length, map_length, firstn_length. lia.
Qed.
Lemma take_none limit (acc : list (list N * list N)) (x : store) :
  (length acc <? limit)%nat = false \/ x = [] -> acc = acc ++ map kv (firstn (limit - length acc) x).
Proof.
  intros H. rewrite <- (app_nil_r acc) at 1. f_equal. destruct H as [C| ->]; [|rewrite firstn_nil; reflexivity].
  apply Nat.ltb_ge in C. replace (limit - length acc)%nat with 0%nat by lia. reflexivity.
Qed.

Lemma scan_loop_correct st e limit : sorted st ->
  forall Ls cur acc res,
    scan_loop st Ls cur e limit acc = Some res ->
    res = acc ++ map kv (firstn (limit - length acc) (range st cur e)).
Proof.
  intros Hs.
  assert (Stop : forall cur acc, (length acc <? limit)%nat && below cur e = false ->
                   acc = acc ++ map kv (firstn (limit - length acc) (range st cur e))).
  { intros cur acc C. apply take_none. apply andb_false_iff in C. destruct C as [C|C]; [left; exact C|right].
    breflect. apply range_empty; assumption. }
  (* for both shapes of Ls a failed guard stops the loop; with the guard on, an empty Ls has run out *)
  induction Ls as [|L Ls IH]; intros cur acc res; cbn [scan_loop];
    (destruct ((length acc <? limit)%nat && below cur e) eqn:C; [|intros [= <-]; apply Stop; exact C]);
    [discriminate|].
  unfold srv_scan. set (hi := loc_hi L cur).
  destruct (loc_hi_spec L cur) as [Hhi|[Hhi _]]; fold hi in Hhi.
  - (* last region: unbounded *)
    rewrite Hhi, min_end_nil_l. intros [= <-]. reflexivity.
  - rewrite (klt_not_nil _ _ Hhi). intros Hrec. apply IH in Hrec. subst res.
    rewrite (range_cut st cur hi e Hs (klt_ne_nil _ _ Hhi)), max_start_l by KF.order. apply take_more.
Qed.

Theorem scan_correct st Ls s e limit res :
  sorted st -> scan st Ls s e limit = Some res -> res = map kv (firstn limit (range st s e)).
Proof.
  intros Hs H. apply (scan_loop_correct _ _ _ Hs) in H. cbn [app length] in H. rewrite Nat.sub_0_r in H. exact H.
Qed.

Theorem scan_terminates st S Ls s e limit :
  (forall L, In L Ls -> incl L S) -> (length S < length Ls)%nat -> scan st Ls s e limit <> None.
Proof.
  intros Hin Hlen. unfold scan. generalize (@nil (list N * list N)). revert Ls s Hin Hlen.
  apply (fwd_fuel S (fun Ls cur => forall acc, scan_loop st Ls cur e limit acc <> None)).
  intros L Ls cur H acc. cbn [scan_loop]. destruct ((length acc <? limit)%nat && below cur e); [|discriminate].
  destruct H as [->|H]; [discriminate|]. destruct (is_nil (loc_hi L cur)); [discriminate|apply H].
Qed.

Lemma rscan_loop_correct st e limit : sorted st ->
  forall Ls cur acc res,
    cur <> [] ->
    rscan_loop st Ls cur e limit acc = Some res ->
    res = acc ++ map kv (firstn (limit - length acc) (rev (range st e cur))).
Proof.
  intros Hs.
  assert (Stop : forall cur acc, cur <> [] -> (length acc <? limit)%nat && lex_ltb e cur = false ->
                   acc = acc ++ map kv (firstn (limit - length acc) (rev (range st e cur)))).
  { intros cur acc Hc C. apply take_none. apply andb_false_iff in C. destruct C as [C|C]; [left; exact C|right].
    breflect. rewrite range_empty by assumption. reflexivity. }
  induction Ls as [|L Ls IH]; intros cur acc res Hcur; cbn [rscan_loop];
    (destruct ((length acc <? limit)%nat && lex_ltb e cur) eqn:C; [|intros [= <-]; apply Stop; assumption]);
    [discriminate|].
  unfold srv_rscan. set (lo := loc_end_lo L cur).
  destruct (loc_end_lo_spec L cur Hcur) as [Hlo _]; fold lo in Hlo.
  destruct (is_nil lo) eqn:Hn; breflect.
  - (* first region: from the start of the key space *)
    rewrite Hn, max_start_nil_l. intros [= <-]. reflexivity.
  - intros Hrec. apply IH in Hrec; [|exact Hn]. subst res.
    rewrite (range_cut st e lo cur Hs Hn), (min_end_l lo cur) by first [exact Hn|right; KF.order].
    rewrite rev_app_distr. apply take_more.
Qed.

(* with the end key not below the start key no request is sent *)
Lemma rscan_stop st Ls s e limit : ~ klt e s -> rscan st Ls s e limit = Some [].
Proof.
  intros H. apply ltb_false in H. unfold rscan. destruct Ls; cbn [rscan_loop]; rewrite H, andb_false_r; reflexivity.
Qed.

(* the documented gap: ReverseScan from "" (= from the end of the key space) returns nothing *)
Lemma rscan_from_end_empty st Ls e limit : rscan st Ls [] e limit = Some [].
Proof. apply rscan_stop, nil_min. Qed.

Theorem rscan_total st Ls s e limit res :
  sorted st -> rscan st Ls s e limit = Some res ->
  res = if is_nil s then [] else map kv (firstn limit (rev (range st e s))).
Proof.
  intros Hs H. destruct (is_nil s) eqn:Hne; breflect.
  - subst s. rewrite rscan_from_end_empty in H. injection H as <-. reflexivity.
  - apply (rscan_loop_correct _ _ _ Hs) in H; [|exact Hne].
    cbn [app length] in H. rewrite Nat.sub_0_r in H. exact H.
Qed.

Theorem rscan_correct st Ls s e limit res :
  sorted st -> s <> [] -> rscan st Ls s e limit = Some res -> res = map kv (firstn limit (rev (range st e s))).
Proof.
  intros Hs Hne H. apply (rscan_total _ _ _ _ _ _ Hs) in H. rewrite (proj2 (is_nil_false s) Hne) in H. exact H.
Qed.

Theorem rscan_terminates st S Ls s e limit :
  (forall L, In L Ls -> incl L S) -> (length S < length Ls)%nat -> rscan st Ls s e limit <> None.
Proof.
  intros Hin Hlen. destruct (is_nil s) eqn:Hs; breflect; [subst s; rewrite rscan_from_end_empty; discriminate|].
  unfold rscan. generalize (@nil (list N * list N)). revert Hs.
  apply (fuel_enough (fun k => length (filter (fun x => lex_ltb x k) S)) (fun L => incl L S)
           (fun Ls cur => cur <> [] -> forall acc, rscan_loop st Ls cur e limit acc <> None)); [|exact Hin|].
  - intros L Ls' cur HL. destruct (is_nil cur) eqn:Hc; breflect; [left; intros Hne; contradiction|].
    destruct (loc_end_lo_spec L cur Hc) as [Hlt [Hlo|Hlo]].
    + left. intros _ acc. cbn [rscan_loop]. rewrite Hlo. destruct (_ && _); discriminate.
    + right. exists (loc_end_lo L cur). split.
      { apply (filter_length_lt _ _ S (loc_end_lo L cur));
          [|apply HL; exact Hlo|apply ltb_false; KF.order|apply lex_ltb_lt; exact Hlt].
        intros y Hy. apply lex_ltb_lt. breflect. KF.order. }
      intros H _ acc. cbn [rscan_loop]. destruct (_ && _); [|discriminate].
      destruct (is_nil (loc_end_lo L cur)) eqn:Hn; [discriminate|apply H, is_nil_false, Hn].
  - eapply Nat.le_lt_trans; [apply filter_length_le|exact Hlen].
Qed.

Definition cks_wf (c : cks) : Prop := c_kvs c < M64 /\ c_bytes c < M64.

Lemma M64_pos : M64 <> 0.
Proof. unfold M64. discriminate. Qed.

Lemma cks_add_wf a b : cks_wf (cks_add a b).
Proof. unfold cks_wf, cks_add; cbn. split; apply N.mod_lt; exact M64_pos. Qed.
Lemma cks_zero_wf : cks_wf cks_zero.
Proof. unfold cks_wf, cks_zero, M64; cbn. split; reflexivity. Qed.

Lemma cks_add_assoc a b c : cks_add (cks_add a b) c = cks_add a (cks_add b c).
Proof.
  unfold cks_add; cbn. f_equal.
  - apply N.lxor_assoc.
  - rewrite N.add_mod_idemp_l, N.add_mod_idemp_r by exact M64_pos. f_equal. lia.
  - rewrite N.add_mod_idemp_l, N.add_mod_idemp_r by exact M64_pos. f_equal. lia.
Qed.
Lemma cks_add_comm a b : cks_add a b = cks_add b a.
Proof. unfold cks_add. f_equal; [apply N.lxor_comm|f_equal; lia|f_equal; lia]. Qed.
Lemma cks_add_zero_r a : cks_wf a -> cks_add a cks_zero = a.
Proof.
  intros [H1 H2]. destruct a as [x n b]; unfold cks_add, cks_zero; cbn in *.
  rewrite N.lxor_0_r, !N.add_0_r, !N.mod_small by assumption. reflexivity.
Qed.

Section Checksum.
  Variable digest : list N -> list N -> N.
  Notation cks_list := (cks_list digest).
  Notation cks_one := (cks_one digest).

  Lemma cks_list_snoc l p : cks_list (l ++ [p]) = cks_add (cks_list l) (cks_one p).
  Proof. unfold Model.cks_list. rewrite fold_left_app. reflexivity. Qed.

  Lemma cks_list_wf l : cks_wf (cks_list l).
  Proof. destruct l as [|p l _] using rev_ind; [exact cks_zero_wf|]. rewrite cks_list_snoc. apply cks_add_wf. Qed.

  Lemma cks_list_app l1 l2 : cks_list (l1 ++ l2) = cks_add (cks_list l1) (cks_list l2).
  Proof.
    induction l2 as [|p l2 IH] using rev_ind.
    - rewrite app_nil_r. symmetry. apply cks_add_zero_r, cks_list_wf.
    - rewrite app_assoc, !cks_list_snoc, IH. apply cks_add_assoc.
  Qed.

  Lemma cksum_loop_correct st e : sorted st ->
    forall Ls cur acc res,
      cks_wf acc ->
      cksum_loop digest st Ls cur e acc = Some res ->
      res = cks_add acc (cks_list (range st cur e)).
  Proof.
    intros Hs.
    assert (Stop : forall cur acc, cks_wf acc -> below cur e = false -> acc = cks_add acc (cks_list (range st cur e))).
    { intros cur acc Hw C. breflect. rewrite range_empty by assumption. symmetry. apply cks_add_zero_r; exact Hw. }
    induction Ls as [|L Ls IH]; intros cur acc res Hw; cbn [cksum_loop];
      (destruct (below cur e) eqn:C; [|intros [= <-]; apply Stop; assumption]); [discriminate|].
    unfold srv_checksum. set (hi := loc_hi L cur).
    destruct (loc_hi_spec L cur) as [Hhi|[Hhi _]]; fold hi in Hhi.
    - rewrite Hhi, min_end_nil_l. intros [= <-]. reflexivity.
    - rewrite (klt_not_nil _ _ Hhi). intros Hrec. apply IH in Hrec; [|apply cks_add_wf]. subst res.
      rewrite (range_cut st cur hi e Hs (klt_ne_nil _ _ Hhi)), max_start_l by KF.order.
      rewrite cks_list_app. apply cks_add_assoc.
  Qed.

  Theorem cksum_correct st Ls s e res :
    sorted st -> cksum digest st Ls s e = Some res -> res = cks_list (range st s e).
  Proof.
    intros Hs H. unfold cksum in H. apply cksum_loop_correct in H; [|exact Hs|exact cks_zero_wf].
    subst res. rewrite cks_add_comm. apply cks_add_zero_r. apply cks_list_wf.
  Qed.

  Theorem cksum_terminates st S Ls s e :
    (forall L, In L Ls -> incl L S) -> (length S < length Ls)%nat -> cksum digest st Ls s e <> None.
  Proof.
    intros Hin Hlen. unfold cksum. generalize cks_zero. revert Ls s Hin Hlen.
    apply (fwd_fuel S (fun Ls cur => forall acc, cksum_loop digest st Ls cur e acc <> None)).
    intros L Ls cur H acc. cbn [cksum_loop]. destruct (below cur e); [|discriminate].
    destruct H as [->|H]; [discriminate|]. destruct (is_nil (loc_hi L cur)); [discriminate|apply H].
  Qed.
End Checksum.

Lemma cut_end_cases hi e :
  (cut_end hi e = hi /\ hi <> [] /\ (e = [] \/ klt hi e)) \/
  (cut_end hi e = e /\ (hi = [] \/ (e <> [] /\ ~ klt hi e))).
Proof.
  unfold cut_end. destruct (is_nil hi) eqn:E1; cbn [negb andb].
  - breflect. right. split; [reflexivity|left; exact E1].
  - destruct (is_nil e) eqn:E2; cbn [orb].
    + breflect. left. tauto.
    + destruct (lex_ltb hi e) eqn:E3; breflect; [left; tauto|right; tauto].
Qed.

(* the end of one DeleteRange request: unbounded only when the call is and the region is the last one;
   otherwise strictly beyond the cursor and not beyond the end of the call *)
Lemma cut_end_step L cur e : below cur e = true ->
  let ae := cut_end (loc_hi L cur) e in
  (ae = [] /\ e = []) \/ (klt cur ae /\ (e = [] \/ ~ klt e ae)).
Proof.
  intros C ae. apply below_true in C. subst ae.
  destruct (cut_end_cases (loc_hi L cur) e) as [[-> [Hn Hc]]|[-> _]].
  - (* cut at the region end, which is a real key beyond the cursor *)
    right. destruct (loc_hi_spec L cur) as [Hhi|[Hhi _]]; [contradiction|]. split; [exact Hhi|].
    destruct Hc as [Hc|Hc]; [left; exact Hc|right; KF.order].
  - (* the end of the call *)
    destruct C as [C|C]; [left; split; exact C|right; split; [exact C|right; KF.order]].
Qed.

Lemma drange_stop st cur e : below cur e = false -> srv_delete_range st cur e = st.
Proof.
  intros C. breflect. apply filter_all_true. intros [k v] _. unfold in_range, below; cbn [fst]. ksolve.
Qed.

(* deleting [a,b) and then the keys from b on that pass a test u which holds below b (u = "below the end of
   the call", or "below the cursor") deletes the keys from a on that pass u: a key below b is not in the
   second part, a key from b on is not in the first *)
Lemma delete_split (u : key -> bool) st a b : klt a b -> (forall k, klt k b -> u k = true) ->
  filter (fun p => negb (lex_leb b (fst p) && u (fst p))) (srv_delete_range st a b) =
  filter (fun p => negb (lex_leb a (fst p) && u (fst p))) st.
Proof.
  intros Hab Hu. unfold srv_delete_range. rewrite filter_filter. apply filter_ext. intros [k v].
  unfold in_range, below; cbn [fst]. rewrite (klt_not_nil _ _ Hab). cbn [orb].
  destruct (lex_ltb k b) eqn:Ekb; breflect.
  - rewrite (Hu k Ekb), (proj2 (lex_leb_false b k) Ekb), !andb_true_r. reflexivity.
  - rewrite (proj2 (leb_true b k) Ekb), (proj2 (leb_true a k)) by KF.order. rewrite andb_false_r. reflexivity.
Qed.

(* keys k with s <= k < c: what an interrupted DeleteRange has deleted when its cursor is at c *)
Definition in_co (s c : key) (p : list N * entry) : bool := lex_leb s (fst p) && lex_ltb (fst p) c.

(* what DeleteRange leaves behind, complete or interrupted: when a request fails, exactly the keys k with
   s <= k < cursor have been deleted (an empty cursor means nothing was), and the cursor does not pass e *)
Lemma drange_run_spec e : forall Ls st cur,
  match drange_run st Ls cur e with
  | DrDone s => s = srv_delete_range st cur e
  | DrFailed s c => s = filter (fun p => negb (in_co cur c p)) st /\ ~ klt c cur /\ (c = cur \/ e = [] \/ ~ klt e c)
  | DrFuel => True
  end.
Proof.
  induction Ls as [|[L|] Ls IH]; intros st cur; cbn [drange_run];
    (destruct (below cur e) eqn:C; [|symmetry; apply drange_stop; exact C]); [exact I| |].
  - destruct (cut_end_step L cur e C) as [[Ha He]|[Hlt Hle]].
    + rewrite Ha, He. reflexivity.
    + rewrite (klt_not_nil _ _ Hlt).
      specialize (IH (srv_delete_range st cur (cut_end (loc_hi L cur) e)) (cut_end (loc_hi L cur) e)).
      destruct (drange_run _ Ls _ e) as [s|s c|]; [| |exact I].
      * subst s. apply (delete_split (fun k => below k e)); [exact Hlt|].
        intros k Hk. apply below_true. destruct Hle as [->|Hle]; [left; reflexivity|right; KF.order].
      * destruct IH as [-> [H1 H2]]. split; [|split; [KF.order|]].
        -- apply (delete_split (fun k => lex_ltb k c)); [exact Hlt|]. intros k Hk. apply lex_ltb_lt. KF.order.
        -- right. destruct H2 as [->|[H2|H2]]; [exact Hle|left; exact H2|right; exact H2].
  - split; [|split; [KF.order|left; reflexivity]].
    symmetry. apply filter_all_true. intros [k v] _. unfold in_co; cbn [fst]. ksolve.
Qed.

Lemma drange_run_all_some e : forall Ls st cur,
  drange_run st (map Some Ls) cur e =
  match drange_loop st Ls cur e with Some s => DrDone s | None => DrFuel end.
Proof.
  induction Ls as [|L Ls IH]; intros st cur; cbn [map drange_run drange_loop].
  - destruct (below cur e); reflexivity.
  - destruct (below cur e); [|reflexivity].
    destruct (is_nil (cut_end (loc_hi L cur) e)); [reflexivity|apply IH].
Qed.

Theorem drange_loop_correct st Ls cur e st' :
  drange_loop st Ls cur e = Some st' -> st' = srv_delete_range st cur e.
Proof.
  intros H. pose proof (drange_run_spec e (map Some Ls) st cur) as P.
  rewrite drange_run_all_some, H in P. exact P.
Qed.

Lemma delete_range_get st s e k :
  st_get (srv_delete_range st s e) k = if lex_leb s k && below k e then None else st_get st k.
Proof.
  unfold srv_delete_range, in_range.
  rewrite (st_get_filter (fun x => negb (lex_leb s x && below x e))).
  destruct (lex_leb s k && below k e); reflexivity.
Qed.

Theorem drange_terminates st S Ls s e :
  (forall L, In L Ls -> incl L S) -> (length S < length Ls)%nat -> drange_loop st Ls s e <> None.
Proof.
  intros Hin Hlen. revert st. revert Ls s Hin Hlen.
  apply (fwd_fuel S (fun Ls cur => forall st, drange_loop st Ls cur e <> None)).
  intros L Ls cur H st. cbn [drange_loop]. destruct (below cur e); [|discriminate].
  destruct (is_nil (cut_end (loc_hi L cur) e)) eqn:En; [discriminate|].
  destruct (cut_end_cases (loc_hi L cur) e) as [[Hc _]|[Hc _]]; rewrite Hc in *.
  - destruct H as [H|H]; [breflect; contradiction|apply H].
  - (* the cursor is now e: the next iteration stops *)
    assert (B : below e e = false) by (apply below_false; breflect; split; [assumption|KF.order]).
    destruct Ls; cbn [drange_loop]; rewrite B; discriminate.
Qed.
