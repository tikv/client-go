(* RawKV/ProofsTop.v — the statements of Props.v that collect several facts about one call, each put
   together from the lemmas of the Proofs files. *)
From Verif Require Import RawKV.Model RawKV.ProofsStore RawKV.ProofsLoops RawKV.ProofsBatch RawKV.ProofsPlans.

Lemma c11_delete_range : forall st Ls s e st',
  sorted st -> drange_loop st Ls s e = Some st' ->
  sorted st' /\
  st' = filter (fun p => negb (in_range s e p)) st /\
  forall k, st_get st' k = if lex_leb s k && below k e then None else st_get st k.
Proof.
  intros st Ls s e st' Hs H. apply drange_loop_correct in H. subst st'.
  split; [apply sorted_filter; exact Hs|]. split; [reflexivity|]. intros k. apply delete_range_get.
Qed.

Lemma c11_batch_put_last_wins : forall st sched kvs st',
  sorted st -> batch_put st sched kvs = Some (st', true) ->
  sorted st' /\ st' = fold_left (fun s p => st_put s (fst p) (snd p)) kvs st /\
  forall k, st_get st' k = match find_last kvs k with Some e => Some e | None => st_get st k end.
Proof.
  intros st sched kvs st' Hs H. apply (batch_put_last_wins _ _ _ _ Hs) in H. subst st'.
  split; [apply sorted_batch_put; exact Hs|]. split; [reflexivity|]. intros k. apply st_get_batch_put.
Qed.

Lemma c11_batch_delete : forall st sched keys st',
  sorted st -> bdel_rounds st sched keys = Some (st', true) ->
  sorted st' /\ st' = fold_left st_del keys st /\
  forall k, st_get st' k = if existsb (bytes_eqb k) keys then None else st_get st k.
Proof.
  intros st sched keys st' Hs H. apply (batch_delete_correct _ _ _ _ Hs) in H. subst st'.
  split; [apply sorted_batch_delete; exact Hs|]. split; [reflexivity|]. intros k. apply st_get_batch_delete.
Qed.

Lemma c11_delete_range_interrupted : forall st Ls s e st' c,
  sorted st -> drange_run st Ls s e = DrFailed st' c ->
  sorted st' /\ ~ klt c s /\ (c = s \/ e = [] \/ ~ klt e c) /\
  st' = filter (fun p => negb (lex_leb s (fst p) && lex_ltb (fst p) c)) st /\
  forall k, st_get st' k = if lex_leb s k && lex_ltb k c then None else st_get st k.
Proof.
  intros st Ls s e st' c Hs H. pose proof (drange_run_spec e Ls st s) as P. rewrite H in P. destruct P as [-> [H1 H2]].
  split; [apply sorted_filter; exact Hs|]. split; [exact H1|]. split; [exact H2|]. split; [reflexivity|].
  intros k. unfold in_co. rewrite (st_get_filter (fun x => negb (lex_leb s x && lex_ltb x c))).
  destruct (lex_leb s k && lex_ltb k c); reflexivity.
Qed.

Lemma c11_delete_range_run_complete : forall st Ls s e,
  drange_run st (map Some Ls) s e = match drange_loop st Ls s e with Some x => DrDone x | None => DrFuel end.
Proof. intros. apply drange_run_all_some. Qed.

Lemma c11_scan_edge_cases :
  (forall st Ls s e limit, client_scan st Ls s e limit = None <-> max_raw_kv_scan_limit < N.of_nat limit) /\
  (forall st Ls s e limit, client_rscan st Ls s e limit = None <-> max_raw_kv_scan_limit < N.of_nat limit) /\
  (forall st Ls s e, scan st Ls s e 0 = Some [] /\ rscan st Ls s e 0 = Some []) /\
  (forall digest st Ls s e limit, e <> [] -> ~ klt s e ->
     scan st Ls s e limit = Some [] /\ drange_loop st Ls s e = Some st /\ cksum digest st Ls s e = Some cks_zero) /\
  (forall st Ls s e limit, ~ klt e s -> rscan st Ls s e limit = Some []).
Proof.
  assert (Refused : forall limit, scan_limit_ok limit = false <-> max_raw_kv_scan_limit < N.of_nat limit)
    by (intros limit; apply N.leb_gt).
  split; [|split; [|split; [|split]]].
  - intros. unfold client_scan. rewrite <- Refused. destruct (scan_limit_ok limit); split; congruence.
  - intros. unfold client_rscan. rewrite <- Refused. destruct (scan_limit_ok limit); split; congruence.
  - intros. unfold scan, rscan. destruct Ls; cbn; split; reflexivity.
  - intros digest st Ls s e limit He Hse.
    assert (B : below s e = false) by (apply below_false; split; assumption).
    unfold scan, cksum. destruct Ls; cbn [scan_loop drange_loop cksum_loop]; rewrite B, ?andb_false_r; repeat split; reflexivity.
  - exact rscan_stop.
Qed.
