(* RawKV/ProofsBatch.v — grouping and sub-batching keep the requested keys; the last-wins lookup; the
   store-side batch handlers. *)
From Coq Require Import Sorting.Permutation.
From Verif Require Import RawKV.Model RawKV.ProofsStore.

Lemma add_group_perm g k gs : Permutation (flat_map snd (add_group g k gs)) (k :: flat_map snd gs).
Proof.
  induction gs as [|[g' ks] r IH]; cbn [add_group flat_map snd app]; [apply Permutation_refl|].
  destruct (bytes_eqb g g'); cbn [flat_map snd].
  - apply Permutation_refl.
  - eapply Permutation_trans; [apply Permutation_app_head; exact IH|].
    apply Permutation_sym. apply (Permutation_middle ks (flat_map snd r) k).
Qed.
Lemma group_keys_perm L keys : Permutation (flat_map snd (group_keys L keys)) keys.
Proof.
  induction keys as [|k r IH]; cbn [group_keys]; [constructor|].
  eapply Permutation_trans; [apply add_group_perm|]. constructor. exact IH.
Qed.

Lemma chunk_aux_concat full w : forall ks cur acc, concat (chunk_aux full w ks cur acc) = rev cur ++ ks.
Proof.
  induction ks as [|k r IH]; intros cur acc; cbn [chunk_aux].
  - destruct cur as [|c cur]; cbn [is_nil concat]; [reflexivity|]. rewrite app_nil_r. reflexivity.
  - destruct (full acc); cbn [concat].
    + rewrite IH. reflexivity.
    + rewrite IH. cbn [rev]. rewrite <- app_assoc. reflexivity.
Qed.

Definition chunker_ok (ch : list key -> list (list key)) : Prop := forall ks, concat (ch ks) = ks.
Lemma chunk_ok full w : chunker_ok (chunk full w).
Proof. intros ks. unfold chunk. rewrite chunk_aux_concat. reflexivity. Qed.
Lemma key_chunks_ok : chunker_ok key_chunks.
Proof. apply chunk_ok. Qed.
Lemma put_chunks_ok kvs : chunker_ok (put_chunks kvs).
Proof. apply chunk_ok. Qed.

Lemma indexed_snd {A} (l : list A) : forall i, map snd (indexed i l) = l.
Proof. induction l as [|x r IH]; intros i; cbn [indexed map snd]; [reflexivity|]. rewrite IH. reflexivity. Qed.

Lemma sub_batches_flat ch L keys : chunker_ok ch ->
  flat_map snd (sub_batches ch L keys) = flat_map snd (group_keys L keys).
Proof.
  intros Hch. unfold sub_batches. induction (group_keys L keys) as [|g gs IH]; cbn [flat_map]; [reflexivity|].
  rewrite flat_map_app, IH. f_equal.
  rewrite <- (Hch (snd g)) at 2. rewrite <- (indexed_snd (ch (snd g)) 0) at 2.
  generalize (indexed 0 (ch (snd g))). intros l. induction l as [|x l IHl]; cbn [map flat_map concat snd]; [reflexivity|].
  rewrite IHl. reflexivity.
Qed.
Theorem sub_batches_perm ch L keys : chunker_ok ch -> Permutation (flat_map snd (sub_batches ch L keys)) keys.
Proof. intros Hch. rewrite (sub_batches_flat ch L keys Hch). apply group_keys_perm. Qed.

Lemma sub_batches_In ch L keys k : chunker_ok ch ->
  In k (flat_map snd (sub_batches ch L keys)) <-> In k keys.
Proof.
  intros Hch. pose proof (sub_batches_perm ch L keys Hch) as P.
  split; apply Permutation_in; [exact P|apply Permutation_sym; exact P].
Qed.

Lemma outcome_eqb_true a b : outcome_eqb a b = true <-> a = b.
Proof. destruct a, b; cbn [outcome_eqb]; split; congruence. Qed.

Lemma keys_of_In o ch r keys k :
  In k (keys_of o ch r keys) <->
  exists b, In b (sub_batches ch (fst r) keys) /\ batch_outcome r b = o /\ In k (snd b).
Proof.
  unfold keys_of. rewrite in_flat_map. split; intros [b [Hb H]]; exists b; (split; [exact Hb|]).
  - destruct (outcome_eqb (batch_outcome r b) o) eqn:E; [|destruct H]. apply outcome_eqb_true in E. split; assumption.
  - destruct H as [<- H]. rewrite (proj2 (outcome_eqb_true _ _) eq_refl). exact H.
Qed.
Lemma keys_of_sub o ch r keys k : chunker_ok ch -> In k (keys_of o ch r keys) -> In k keys.
Proof.
  intros Hch H. apply keys_of_In in H. destruct H as [b [Hb [_ Hk]]].
  apply (sub_batches_In ch (fst r) keys k Hch), in_flat_map. exists b. split; assumption.
Qed.
Lemma served_or_bounced ch r keys k : chunker_ok ch -> any_dropped ch r keys = false ->
  (In k keys <-> In k (served_keys ch r keys) \/ In k (bounced_keys ch r keys)).
Proof.
  intros Hch Hd. split; [|intros [H|H]; exact (keys_of_sub _ ch r keys k Hch H)].
  intros H. apply (sub_batches_In ch (fst r) keys k Hch), in_flat_map in H. destruct H as [b [Hb Hk]].
  destruct (batch_outcome r b) eqn:O; [left|right|]; try (apply keys_of_In; exists b; repeat split; assumption).
  exfalso. unfold any_dropped in Hd. rewrite <- not_true_iff_false, existsb_exists in Hd.
  apply Hd. exists b. rewrite O. split; [exact Hb|reflexivity].
Qed.

Lemma bounced_all_served ch L keys : bounced_keys ch (L, all_served) keys = [].
Proof.
  unfold keys_of. induction (sub_batches ch (fst (L, all_served)) keys) as [|g gs IH]; cbn [flat_map app]; [reflexivity|exact IH].
Qed.
Lemma dropped_all_served ch L keys : any_dropped ch (L, all_served) keys = false.
Proof.
  unfold any_dropped. induction (sub_batches ch (fst (L, all_served)) keys) as [|g gs IH]; cbn [existsb]; [reflexivity|exact IH].
Qed.

Lemma existsb_In ks k : existsb (bytes_eqb k) ks = true <-> In k ks.
Proof.
  rewrite existsb_exists. split.
  - intros [x [Hin E]]. breflect; subst. exact Hin.
  - intros H. exists k. split; [exact H|apply eqb_refl].
Qed.
Lemma existsb_same ks ks' k : (forall x, In x ks <-> In x ks') -> existsb (bytes_eqb k) ks = existsb (bytes_eqb k) ks'.
Proof.
  intros H. apply eq_true_iff_eq. rewrite !existsb_In. apply H.
Qed.

Lemma find_last_In {V} (ps : list (list N * V)) k x : find_last ps k = Some x -> In (k, x) ps.
Proof.
  induction ps as [|[k' v] r IH]; cbn [find_last]; [discriminate|].
  destruct (find_last r k) eqn:E.
  - intros [= <-]. right. apply IH. reflexivity.
  - destruct (bytes_eqb k k') eqn:Ek; [|discriminate]. intros [= <-]. breflect; subst. left; reflexivity.
Qed.
Lemma find_last_notin {V} (ps : list (list N * V)) k : find_last ps k = None -> forall v, ~ In (k, v) ps.
Proof.
  induction ps as [|[k' v'] r IH]; cbn [find_last]; [intros _ v []|].
  destruct (find_last r k) eqn:E'; [discriminate|].
  destruct (bytes_eqb k k') eqn:Ek; [discriminate|]. intros _ v [H|H].
  - breflect. congruence.
  - exact (IH eq_refl v H).
Qed.
Lemma find_last_pfun {V} (f : list N -> option V) (ps : list (list N * V)) k :
  (forall k' v, In (k', v) ps -> f k' = Some v) ->
  (forall v, f k = Some v -> In (k, v) ps) ->
  find_last ps k = f k.
Proof.
  intros Hc Hcov. destruct (find_last ps k) as [x|] eqn:E.
  - apply find_last_In in E. symmetry. apply Hc; exact E.
  - destruct (f k) as [v|] eqn:Ef; [|reflexivity].
    exfalso. exact (find_last_notin ps k E v (Hcov v eq_refl)).
Qed.
Lemma find_last_dom {V} (ps : list (list N * V)) k : ~ In k (map fst ps) -> find_last ps k = None.
Proof.
  intros H. destruct (find_last ps k) as [x|] eqn:E; [|reflexivity].
  exfalso. apply H. apply find_last_In in E. exact (in_map fst _ _ E).
Qed.

(* the pairs (k, g k) of the keys of ks on which g is defined: BatchGet answers, BatchPut requests *)
Lemma pairs_In {V} (g : list N -> option V) ks k v :
  In (k, v) (flat_map (fun x => match g x with Some y => [(x, y)] | None => [] end) ks) <-> In k ks /\ g k = Some v.
Proof.
  rewrite in_flat_map. split.
  - intros [x [Hx Hp]]. destruct (g x) eqn:E; [|destruct Hp]. destruct Hp as [[= <- <-]|[]]. tauto.
  - intros [Hk Hv]. exists k. split; [exact Hk|]. rewrite Hv. left; reflexivity.
Qed.
Lemma find_last_pairs {V} (g : list N -> option V) ks k :
  find_last (flat_map (fun x => match g x with Some y => [(x, y)] | None => [] end) ks) k =
  if existsb (bytes_eqb k) ks then g k else None.
Proof.
  apply (find_last_pfun (fun x => if existsb (bytes_eqb x) ks then g x else None)).
  - intros k' v Hin. apply pairs_In in Hin. destruct Hin as [Hk Hv].
    rewrite (proj2 (existsb_In ks k') Hk). exact Hv.
  - intros v Hv. apply pairs_In. destruct (existsb (bytes_eqb k) ks) eqn:E; [|discriminate].
    split; [apply existsb_In; exact E|exact Hv].
Qed.

Lemma fold_left_concat {A B} (f : A -> B -> A) bs : forall s,
  fold_left (fun x b => fold_left f b x) bs s = fold_left f (concat bs) s.
Proof. induction bs as [|b bs IH]; intros s; cbn [fold_left concat]; [reflexivity|]. rewrite IH, fold_left_app. reflexivity. Qed.

Lemma assemble_covering st keys ks : incl keys ks -> assemble keys (srv_batch_get st ks) = map (srv_get st) keys.
Proof.
  intros Hcov. unfold assemble. apply map_ext_in. intros k Hk.
  unfold srv_batch_get. rewrite (find_last_pairs (srv_get st)), (proj2 (existsb_In ks k) (Hcov k Hk)). reflexivity.
Qed.

Lemma st_get_batch_put kvs : forall st k,
  st_get (srv_batch_put st kvs) k = match find_last kvs k with Some e => Some e | None => st_get st k end.
Proof.
  unfold srv_batch_put. induction kvs as [|[k1 e1] r IH]; intros st k; cbn [fold_left find_last fst snd]; [reflexivity|].
  rewrite IH. destruct (find_last r k); [reflexivity|]. rewrite st_get_put.
  destruct (bytes_eqb k k1); reflexivity.
Qed.
Lemma sorted_batch_put kvs : forall st, sorted st -> sorted (srv_batch_put st kvs).
Proof.
  unfold srv_batch_put. induction kvs as [|p r IH]; intros st Hs; cbn [fold_left]; [exact Hs|].
  apply IH. apply sorted_put; exact Hs.
Qed.
Lemma srv_batch_put_ext st a b : sorted st ->
  (forall k, find_last a k = find_last b k) -> srv_batch_put st a = srv_batch_put st b.
Proof.
  intros Hs H. apply sorted_ext; [apply sorted_batch_put; exact Hs|apply sorted_batch_put; exact Hs|].
  intros k. rewrite !st_get_batch_put, H. reflexivity.
Qed.

Lemma st_get_batch_delete keys : forall st k,
  st_get (srv_batch_delete st keys) k = if existsb (bytes_eqb k) keys then None else st_get st k.
Proof.
  unfold srv_batch_delete. induction keys as [|k1 r IH]; intros st k; cbn [fold_left existsb]; [reflexivity|].
  rewrite IH, st_get_del. destruct (existsb (bytes_eqb k) r); [rewrite orb_true_r; reflexivity|].
  rewrite orb_false_r. reflexivity.
Qed.
Lemma sorted_batch_delete keys : forall st, sorted st -> sorted (srv_batch_delete st keys).
Proof.
  unfold srv_batch_delete. induction keys as [|p r IH]; intros st Hs; cbn [fold_left]; [exact Hs|].
  apply IH. apply sorted_del; exact Hs.
Qed.
Lemma srv_batch_delete_ext st a b : sorted st ->
  (forall k, In k a <-> In k b) -> srv_batch_delete st a = srv_batch_delete st b.
Proof.
  intros Hs H. apply sorted_ext; [apply sorted_batch_delete; exact Hs|apply sorted_batch_delete; exact Hs|].
  intros k. rewrite !st_get_batch_delete, (existsb_same a b k H). reflexivity.
Qed.
