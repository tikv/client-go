(* RawKV/Props.v — C11: raw KV operations behave as one ordered map regardless of region layout.
   Every client loop takes an ARBITRARY list of layouts (one per iteration / regrouping round):
   the layout may change between the partial requests of one call. `sorted st` is the store
   invariant (established by [] and preserved by every mutating operation, see the _sorted parts). *)
From Coq Require Import Sorting.Permutation.
From Verif Require Import RawKV.Model RawKV.ProofsStore RawKV.ProofsLoops RawKV.ProofsBatch RawKV.ProofsCas RawKV.ProofsWire RawKV.ProofsPlans RawKV.ProofsTop RawKV.Sequence RawKV.ProofsReg RawKV.ProofsLin RawKV.ProofsFam RawKV.Stream RawKV.ProofsStream RawKV.ProofsShape.

(* get / put (with ttl) / delete: the map laws; the ttl never influences what Get returns *)
Theorem C11_get_put_delete : forall st k v ttl k',
  sorted st ->
  sorted (srv_put st k v ttl) /\ sorted (st_del st k) /\
  srv_get (srv_put st k v ttl) k' = (if bytes_eqb k' k then Some v else srv_get st k') /\
  srv_get (st_del st k) k' = (if bytes_eqb k' k then None else srv_get st k').
Proof.
  exact (fun st k v ttl k' Hs =>
    conj (sorted_put st k _ Hs) (conj (sorted_del st k Hs) (conj (srv_get_put st k v ttl k') (srv_get_del st k k')))).
Qed.
Print Assumptions C11_get_put_delete.

(* Scan: first `limit` pairs of [s,e) in order, for any store, range, limit and layout sequence *)
Theorem C11_scan : forall st Ls s e limit res,
  sorted st -> scan st Ls s e limit = Some res ->
  res = map kv (firstn limit (range st s e)).
Proof. exact scan_correct. Qed.
Print Assumptions C11_scan.

(* ... and it finishes within |S|+1 iterations when all split keys ever seen lie in a finite set S
   (fuel = number of layouts supplied) *)
Theorem C11_scan_terminates : forall st S Ls s e limit,
  (forall L, In L Ls -> incl L S) -> (length S < length Ls)%nat ->
  scan st Ls s e limit <> None.
Proof. exact scan_terminates. Qed.
Print Assumptions C11_scan_terminates.

(* ReverseScan(s, e): first `limit` pairs of [e,s) in descending order; s must be a real key
   (the API documents that scanning from "" is not supported: C11_reverse_scan_from_end) *)
Theorem C11_reverse_scan : forall st Ls s e limit res,
  sorted st -> s <> [] -> rscan st Ls s e limit = Some res ->
  res = map kv (firstn limit (rev (range st e s))).
Proof. exact rscan_correct. Qed.
Print Assumptions C11_reverse_scan.

Theorem C11_reverse_scan_terminates : forall st S Ls s e limit,
  s <> [] -> (forall L, In L Ls -> incl L S) -> (length S < length Ls)%nat ->
  rscan st Ls s e limit <> None.
Proof. exact (fun st S Ls s e limit _ => rscan_terminates st S Ls s e limit). Qed.
Print Assumptions C11_reverse_scan_terminates.

Theorem C11_reverse_scan_from_end : forall st Ls e limit, rscan st Ls [] e limit = Some [].
Proof. exact rscan_from_end_empty. Qed.
Print Assumptions C11_reverse_scan_from_end.

(* DeleteRange: exactly the keys of [s,e) are removed, every other key keeps its entry *)
Theorem C11_delete_range : forall st Ls s e st',
  sorted st -> drange_loop st Ls s e = Some st' ->
  sorted st' /\
  st' = filter (fun p => negb (in_range s e p)) st /\
  forall k, st_get st' k = if lex_leb s k && below k e then None else st_get st k.
Proof. exact c11_delete_range. Qed.
Print Assumptions C11_delete_range.

Theorem C11_delete_range_terminates : forall st S Ls s e,
  (forall L, In L Ls -> incl L S) -> (length S < length Ls)%nat ->
  drange_loop st Ls s e <> None.
Proof. exact drange_terminates. Qed.
Print Assumptions C11_delete_range_terminates.

(* Checksum: the per-region fold equals the checksum of the whole range — independent of where
   the regions cut it; the digest (crc64 of key++value) is arbitrary *)
Theorem C11_checksum : forall digest st Ls s e res,
  sorted st -> cksum digest st Ls s e = Some res ->
  res = cks_list digest (range st s e).
Proof. exact cksum_correct. Qed.
Print Assumptions C11_checksum.

Theorem C11_checksum_cut_independent : forall digest st Ls1 Ls2 s e r1 r2,
  sorted st -> cksum digest st Ls1 s e = Some r1 -> cksum digest st Ls2 s e = Some r2 -> r1 = r2.
Proof.
  exact (fun digest st Ls1 Ls2 s e r1 r2 Hs H1 H2 =>
    eq_trans (cksum_correct digest st Ls1 s e r1 Hs H1) (eq_sym (cksum_correct digest st Ls2 s e r2 Hs H2))).
Qed.
Print Assumptions C11_checksum_cut_independent.

(* checksum of a union of adjacent ranges = xor / sums of the parts *)
Theorem C11_checksum_union : forall digest st a b c,
  sorted st -> b <> [] -> ~ klt b a -> (c = [] \/ ~ klt c b) ->
  cks_list digest (range st a c) = cks_add (cks_list digest (range st a b)) (cks_list digest (range st b c)).
Proof.
  exact (fun digest st a b c Hs Hb Hab Hbc =>
    eq_trans (f_equal (cks_list digest) (range_split st a b c Hs Hb Hab Hbc)) (cks_list_app digest _ _)).
Qed.
Print Assumptions C11_checksum_union.

Theorem C11_checksum_terminates : forall digest st S Ls s e,
  (forall L, In L Ls -> incl L S) -> (length S < length Ls)%nat ->
  cksum digest st Ls s e <> None.
Proof. exact cksum_terminates. Qed.
Print Assumptions C11_checksum_terminates.

(* BatchGet: values positionally aligned with the requested keys (duplicates allowed, absent
   keys -> nil), for any schedule of groupings / sub-batches / region errors / regroupings *)
Theorem C11_batch_get_aligned : forall st sched keys res,
  batch_get st sched keys = Some (Some res) ->
  res = map (srv_get st) keys /\ length res = length keys.
Proof. exact batch_get_aligned. Qed.
Print Assumptions C11_batch_get_aligned.

(* BatchPut that returned nil = the puts applied in request order (last value of a duplicated key wins) *)
Theorem C11_batch_put_last_wins : forall st sched kvs st',
  sorted st -> batch_put st sched kvs = Some (st', true) ->
  sorted st' /\ st' = fold_left (fun s p => st_put s (fst p) (snd p)) kvs st /\
  forall k, st_get st' k = match find_last kvs k with Some e => Some e | None => st_get st k end.
Proof. exact c11_batch_put_last_wins. Qed.
Print Assumptions C11_batch_put_last_wins.

(* BatchPut that may have returned an error (some batch failed for good or was cancelled after
   others succeeded): every key keeps its entry or carries ITS last value of this call; keys
   outside the request are untouched; nothing else is promised (no atomicity across keys) *)
Theorem C11_batch_put_partial_failure : forall st sched kvs st' ok,
  sorted st -> batch_put st sched kvs = Some (st', ok) ->
  sorted st' /\
  forall k, st_get st' k = st_get st k \/
            (In k (map fst kvs) /\ exists e, find_last kvs k = Some e /\ st_get st' k = Some e).
Proof.
  exact (fun st sched kvs st' ok Hs H =>
    conj (batch_put_sorted st sched kvs st' ok Hs H) (batch_put_partial_failure st sched kvs st' ok H)).
Qed.
Print Assumptions C11_batch_put_partial_failure.

Theorem C11_batch_delete : forall st sched keys st',
  sorted st -> bdel_rounds st sched keys = Some (st', true) ->
  sorted st' /\ st' = fold_left st_del keys st /\
  forall k, st_get st' k = if existsb (bytes_eqb k) keys then None else st_get st k.
Proof. exact c11_batch_delete. Qed.
Print Assumptions C11_batch_delete.

Theorem C11_batch_delete_partial_failure : forall st sched keys st' ok,
  sorted st -> bdel_rounds st sched keys = Some (st', ok) ->
  sorted st' /\ forall k, st_get st' k = st_get st k \/ (In k keys /\ st_get st' k = None).
Proof.
  exact (fun st sched keys st' ok Hs H =>
    conj (batch_delete_sorted st sched keys st' ok Hs H) (batch_delete_partial_failure st sched keys st' ok H)).
Qed.
Print Assumptions C11_batch_delete_partial_failure.

(* sub-batching (512 keys / 16 KB) cuts a region group into consecutive pieces, and the result of
   a batch call does not depend on where the batches are cut nor on the order they are applied:
   ANY list of batches covering the request gives the single-map result *)
Theorem C11_batch_boundaries_independent :
  (forall ks, concat (key_chunks ks) = ks) /\
  (forall kvs ks, concat (put_chunks kvs ks) = ks) /\
  (forall st keys bs, (forall k, In k keys -> In k (concat bs)) ->
     assemble keys (flat_map (srv_batch_get st) bs) = map (srv_get st) keys) /\
  (forall st kvs bs, sorted st ->
     (forall p, In p (concat bs) -> find_last kvs (fst p) = Some (snd p)) ->
     (forall k, In k (map fst kvs) -> exists e, In (k, e) (concat bs)) ->
     fold_left srv_batch_put bs st = fold_left (fun s p => st_put s (fst p) (snd p)) kvs st) /\
  (forall st keys bs, sorted st -> (forall k, In k (concat bs) <-> In k keys) ->
     fold_left srv_batch_delete bs st = fold_left st_del keys st).
Proof.
  exact (conj key_chunks_ok (conj put_chunks_ok
          (conj batch_get_any_partition (conj batch_put_any_partition batch_delete_any_partition)))).
Qed.
Print Assumptions C11_batch_boundaries_independent.

(* a batch call finishes as soon as one round serves every batch *)
Theorem C11_batch_terminates : forall st sched L keys kvs,
  batch_get st (sched ++ [(L, all_served)]) keys <> None /\
  batch_put st (sched ++ [(L, all_served)]) kvs <> None.
Proof. exact (fun st sched L keys kvs => conj (batch_get_final st sched L [] keys) (batch_put_final st sched L [] kvs)). Qed.
Print Assumptions C11_batch_terminates.

(* DeleteRange whose i-th request fails for good: exactly the keys k with s <= k < cursor are gone
   (a prefix of the range, cut at region ends), everything else is untouched *)
Theorem C11_delete_range_interrupted : forall st Ls s e st' c,
  sorted st -> drange_run st Ls s e = DrFailed st' c ->
  sorted st' /\ ~ klt c s /\ (c = s \/ e = [] \/ ~ klt e c) /\
  st' = filter (fun p => negb (lex_leb s (fst p) && lex_ltb (fst p) c)) st /\
  forall k, st_get st' k = if lex_leb s k && lex_ltb k c then None else st_get st k.
Proof. exact c11_delete_range_interrupted. Qed.
Print Assumptions C11_delete_range_interrupted.

(* CompareAndSwap = compare-and-swap on the map, including previous-not-exist and empty values *)
Theorem C11_cas : forall st k prev nv,
  srv_cas st k prev nv = spec_cas st k prev nv /\
  (sorted st -> sorted (snd (srv_cas st k prev nv))).
Proof. exact (fun st k prev nv => conj (cas_correct st k prev nv) (srv_cas_sorted st k prev nv)). Qed.
Print Assumptions C11_cas.

(* CompareAndSwap needs SetAtomicForCAS(true); without it the call fails and changes nothing *)
Theorem C11_atomic_mode : forall st k prev nv,
  client_cas false st k prev nv = None /\ client_cas true st k prev nv = Some (spec_cas st k prev nv).
Proof. exact (fun st k prev nv => conj eq_refl (f_equal Some (cas_correct st k prev nv))). Qed.
Print Assumptions C11_atomic_mode.

(* concurrent CAS callers = any interleaving of atomic steps = the same steps on the map *)
Theorem C11_cas_interleaving : forall steps st, run_cas st steps = spec_run_cas st steps.
Proof. exact run_cas_spec. Qed.
Print Assumptions C11_cas_interleaving.

(* ... and among the callers that expect pe on key k at most one succeeds, provided nobody writes pe
   back (vacuous for pe = None: create-if-absent is a lock in every interleaving) *)
Theorem C11_cas_at_most_one_winner : forall k pe steps st,
  never_writes k pe steps -> (wins k pe steps (fst (run_cas st steps)) <= 1)%nat.
Proof. exact cas_at_most_one_winner. Qed.
Print Assumptions C11_cas_at_most_one_winner.

(* whole sequences: ANY list of calls, each carrying ANY schedule — layouts per partial request, Served /
   Bounced / Dropped sub-batches, DeleteRange requests that fail, the limit and atomic-mode error paths —
   returns the results and leaves the map of spec_ops: complete calls act as on one ordered map (no
   layout appears), a call in which a request fails reports the error and leaves the fold of the effects
   of the requests its schedule serves (bput_plan / bdel_plan / drange_plan are store-free) *)
Theorem C11_sequence : forall digest ops st rs st',
  sorted st -> run_ops digest st ops = Some (rs, st') ->
  (rs, st') = spec_ops digest st ops /\ sorted st'.
Proof. exact run_ops_spec. Qed.
Print Assumptions C11_sequence.

(* the request stream of BatchPutWithTTL: the literal three-slice AppendBatches cuts where put_chunks cuts
   and every batch carries, position by position, the (key, last value, last ttl) triples of its keys;
   nothing is lost, duplicated or misaligned, for the code's chunker and for any partition *)
Theorem C11_batch_put_wire :
  (forall kvs ks, append_batches kvs ks = map (batch3_of kvs) (put_chunks kvs ks)) /\
  (forall kvs ks,
     flat_map triples (append_batches kvs ks) = map (fun k => (k, kv_of kvs k, ttl_of kvs k)) ks /\
     Forall (fun b => length (b_vals b) = length (b_keys b) /\ length (b_ttls b) = length (b_keys b)) (append_batches kvs ks)) /\
  (forall kvs bs,
     flat_map (fun ks => triples (batch3_of kvs ks)) bs = map (fun k => (k, kv_of kvs k, ttl_of kvs k)) (concat bs)).
Proof. exact (conj append_batches_spec (conj append_batches_triples triples_any_partition)). Qed.
Print Assumptions C11_batch_put_wire.

(* limit > MaxRawKVScanLimit is refused before any request; limit 0, start = end, start > end send nothing *)
Theorem C11_scan_edge_cases :
  (forall st Ls s e limit, client_scan st Ls s e limit = None <-> max_raw_kv_scan_limit < N.of_nat limit) /\
  (forall st Ls s e limit, client_rscan st Ls s e limit = None <-> max_raw_kv_scan_limit < N.of_nat limit) /\
  (forall st Ls s e, scan st Ls s e 0 = Some [] /\ rscan st Ls s e 0 = Some []) /\
  (forall digest st Ls s e limit, e <> [] -> ~ klt s e ->
     scan st Ls s e limit = Some [] /\ drange_loop st Ls s e = Some st /\ cksum digest st Ls s e = Some cks_zero) /\
  (forall st Ls s e limit, ~ klt e s -> rscan st Ls s e limit = Some []).
Proof. exact c11_scan_edge_cases. Qed.
Print Assumptions C11_scan_edge_cases.

(* concurrent single-key calls: in any commit order every key is ONE register with CAS, independent of the
   other keys (what the linearizability search of the check assumes as its sequential specification) *)
Theorem C11_register_per_key : forall k steps st,
  let '(rs, st') := store_run st steps in
  let calls := on_key k steps rs in
  map snd calls = fst (reg_run (srv_get st k) (map fst calls)) /\
  srv_get st' k = snd (reg_run (srv_get st k) (map fst calls)).
Proof. exact register_per_key. Qed.
Print Assumptions C11_register_per_key.

(* LINEARIZABILITY of concurrent get / put / delete / CAS callers: every call has an invocation and a return stamp
   and takes effect atomically at some instant in between (the store's mutex); listed by those instants the calls
   form ONE sequential order that never places a call before one that had returned before it was invoked, and in
   which every key is a register with CAS whose results are exactly what the callers saw. (C11_cas_interleaving and
   C11_register_per_key are the two model-shape halves of this; this is the statement check_history searches for.) *)
Theorem C11_linearizable : forall h st,
  Forall tc_wf h -> commit_order h ->
  respects_real_time h /\
  forall k,
    let '(rs, st') := store_run st (steps_of h) in
    let calls := on_key k (steps_of h) rs in
    map snd calls = fst (reg_run (srv_get st k) (map fst calls)) /\
    srv_get st' k = snd (reg_run (srv_get st k) (map fst calls)).
Proof.
  exact (fun h st Hwf Hc => conj (commit_order_real_time h Hwf Hc) (fun k => register_per_key k (steps_of h) st)).
Qed.
Print Assumptions C11_linearizable.

(* column families: what family c holds in the end is what the calls naming c produce on one map *)
Theorem C11_families_independent : forall digest tops f rs f',
  (forall c, sorted (f c)) -> run_tagged digest f tops = Some (rs, f') ->
  forall c, f' c = snd (spec_ops digest (f c) (calls_of c tops)) /\ sorted (f' c).
Proof. exact families_independent. Qed.
Print Assumptions C11_families_independent.

(* API v2: the store holds prefix ++ key; Checksum over [prefix++s, prefix++e) is the checksum of the PREFIXED
   pairs of [s,e): digest and byte count include the keyspace prefix, the pair count does not change *)
Theorem C11_checksum_v2 : forall digest pfx st Ls s e res,
  sorted st -> e <> [] ->
  cksum digest (prefix_store pfx st) Ls (pfx ++ s) (pfx ++ e) = Some res ->
  res = cks_list digest (prefix_store pfx (range st s e)).
Proof. exact cksum_v2. Qed.
Print Assumptions C11_checksum_v2.

(* REQUEST STREAMS (what the gate sees, predicted by the model and compared request by request).
   Scan: the result is exactly the concatenation of the answers to the stream (no post-processing); every
   request carries the caller's end key untouched and limit = what is still missing (>= 1); starts move
   strictly upwards, each one the end of the region that served the previous request *)
Theorem C11_scan_stream : forall st Ls s e limit res,
  scan st Ls s e limit = Some res ->
  res = scan_replay st Ls (scan_reqs st Ls s e limit 0) /\
  scan_stream_ok st Ls (scan_reqs st Ls s e limit 0) s e limit 0.
Proof.
  exact (fun st Ls s e limit res H =>
    conj (scan_loop_replay st e limit Ls s [] res H) (scan_reqs_ok st e limit Ls s 0)).
Qed.
Print Assumptions C11_scan_stream.

Theorem C11_reverse_scan_stream : forall st Ls s e limit res,
  rscan st Ls s e limit = Some res -> res = rscan_replay st Ls (rscan_reqs st Ls s e limit 0).
Proof. exact (fun st Ls s e limit res => rscan_loop_replay st e limit Ls s [] res). Qed.
Print Assumptions C11_reverse_scan_stream.

(* DeleteRange: the served requests tile a prefix of the range (contiguous from s, each non-empty, an unbounded
   one is the last) and the store left behind — complete or interrupted — is those requests applied in order *)
Theorem C11_delete_range_stream : forall st Ls s e,
  tiles (drange_reqs Ls s e) s /\
  let st' := fold_left (fun x r => srv_delete_range x (fst r) (snd r)) (drange_reqs Ls s e) st in
  match drange_run st Ls s e with DrDone x => x = st' | DrFailed x _ => x = st' | DrFuel => True end.
Proof. exact (fun st Ls s e => conj (drange_reqs_tile e Ls s) (drange_run_replay e Ls st s)). Qed.
Print Assumptions C11_delete_range_stream.

(* batches on the wire: all keys of a sub-batch lie in ONE region of the grouping layout; a key batch has at
   most 513 keys; a put batch was below 16 KB before its last pair *)
Theorem C11_batches_well_formed :
  (forall L keys, Forall (fun b => Forall (fun k => loc_lo L k = fst (fst b)) (snd b)) (sub_batches key_chunks L keys)) /\
  (forall kvs L keys, Forall (fun b => Forall (fun k => loc_lo L k = fst (fst b)) (snd b)) (sub_batches (put_chunks kvs) L keys)) /\
  (forall ks, Forall (fun b => (length b <= 513)%nat) (key_chunks ks)) /\
  (forall kvs ks, Forall (fun b => b <> [] -> weight (pair_size kvs) (removelast b) < raw_batch_put_size) (put_chunks kvs ks)).
Proof.
  exact (conj (fun L keys => sub_batches_one_region key_chunks L keys key_chunks_ok)
          (conj (fun kvs L keys => sub_batches_one_region (put_chunks kvs) L keys (put_chunks_ok kvs))
             (conj key_chunks_bound put_chunks_bound))).
Qed.
Print Assumptions C11_batches_well_formed.

(* the output-shape oracles of the check, as consequences: strictly ascending keys, at most `limit` pairs, every
   pair inside [s,e) and equal to what Get returns *)
Theorem C11_scan_result_shape : forall st Ls s e limit res,
  sorted st -> scan st Ls s e limit = Some res ->
  keys_asc res /\ (length res <= limit)%nat /\
  forall k v, In (k, v) res -> lex_leb s k = true /\ below k e = true /\ srv_get st k = Some v.
Proof. exact scan_result_shape. Qed.
Print Assumptions C11_scan_result_shape.

Theorem C11_reverse_scan_result_shape : forall st Ls s e limit res,
  sorted st -> s <> [] -> rscan st Ls s e limit = Some res ->
  keys_desc res /\ (length res <= limit)%nat /\
  forall k v, In (k, v) res -> lex_leb e k = true /\ lex_ltb k s = true.
Proof. exact (fun st Ls s e limit res Hs _ => rscan_result_shape st Ls s e limit res Hs). Qed.
Print Assumptions C11_reverse_scan_result_shape.

(* the sub-batches of a batch call are a permutation of the requested keys, duplicates included *)
Theorem C11_batches_partition_request : forall ch L keys,
  chunker_ok ch -> Permutation (flat_map snd (sub_batches ch L keys)) keys.
Proof. exact sub_batches_perm. Qed.
Print Assumptions C11_batches_partition_request.

(* ---------------------------------------------------------------- non-vacuity *)
Definition ex_store : store :=
  srv_batch_put [] [([97], mkEntry [1] 0); ([98], mkEntry [2] 5); ([98; 0], mkEntry [] 0);
                    ([99], mkEntry [3] 0); ([100], mkEntry [4] 0); ([97], mkEntry [9] 7)].
Example ex_sorted : sorted ex_store.
Proof. apply sorted_batch_put. apply sorted_nil. Qed.
(* scan [a, d) limit 3 across regions cut at b and c, then re-cut at "b\0" mid-call:
   the limit is reached exactly at the border c *)
Example ex_scan :
  scan ex_store [[[98]; [99]]; [[98; 0]; [99]]; [[99]]] [97] [100] 3
  = Some [([97], [9]); ([98], [2]); ([98; 0], [])].
Proof. vm_compute. reflexivity. Qed.
Example ex_rscan :
  rscan ex_store [[[98]; [99]]; [[98; 0]]; []] [100] [] 10
  = Some [([99], [3]); ([98; 0], []); ([98], [2]); ([97], [9])].
Proof. vm_compute. reflexivity. Qed.
Example ex_drange :
  option_map (map kv) (drange_loop ex_store [[[98]]; [[98; 0]; [99]]; [[99]]] [97; 0] [99])
  = Some [([97], [9]); ([99], [3]); ([100], [4])].
Proof. vm_compute. reflexivity. Qed.
Example ex_bget :
  batch_get ex_store [([[98; 0]], fun g _ => if bytes_eqb g [] then Served else Bounced); ([[99]], all_served)]
            [[99]; [101]; [97]; [99]; [98; 0]]
  = Some (Some [Some [3]; None; Some [9]; Some [3]; Some []]).
Proof. vm_compute. reflexivity. Qed.
Example ex_cas_absent : fst (srv_cas ex_store [101] None [7]) = (None, true).
Proof. vm_compute. reflexivity. Qed.
Example ex_cas_empty_vs_absent : fst (srv_cas ex_store [98; 0] None [7]) = (Some [], false).
Proof. vm_compute. reflexivity. Qed.
Example ex_cksum_cut :
  cksum (fun k v => N.of_nat (length k + length v)) ex_store [[[98]]; [[99]]; []] [] []
  = cksum (fun k v => N.of_nat (length k + length v)) ex_store [[]] [] [].
Proof. vm_compute. reflexivity. Qed.
Example ex_sequence :
  option_map fst (run_ops (fun _ _ => 0) []
    [OBatchPut [([97], mkEntry [1] 0); ([99], mkEntry [3] 0); ([97], mkEntry [2] 0)] [([[98]], all_served)];
     OCas true [98] None [7];
     ODeleteRange [97; 0] [] [Some [[98]]; Some [[99]]; Some []];
     OScan [] [] 5 [[]]])
  = Some [RUnit; RCas None true; RUnit; RPairs [([97], [2])]].
Proof. vm_compute. reflexivity. Qed.
(* a batch put whose second region batch is dropped: a is written, c keeps its old entry *)
Example ex_bput_partial_failure :
  option_map (fun r => (map kv (fst r), snd r))
    (batch_put ex_store [([[98]], fun g _ => if bytes_eqb g [] then Served else Dropped)]
               [([97], mkEntry [5] 0); ([99], mkEntry [6] 0)])
  = Some ([([97], [5]); ([98], [2]); ([98; 0], []); ([99], [3]); ([100], [4])], false).
Proof. vm_compute. reflexivity. Qed.
(* sub-batching: 3 keys with the count limit lowered to 1 are cut 2 + 1 (the Go test is count > limit) *)
Example ex_chunk : chunk (fun c => 1 <? c) (fun _ => 1) [[1]; [2]; [3]] = [[[1]; [2]]; [[3]]].
Proof. vm_compute. reflexivity. Qed.
Example ex_drange_interrupted :
  match drange_run ex_store [Some [[98]]; None] [97] [100] with
  | DrFailed st' c => (map kv st', c) = ([([98], [2]); ([98; 0], []); ([99], [3]); ([100], [4])], [98])
  | _ => False
  end.
Proof. vm_compute. reflexivity. Qed.
Example ex_cas_race :
  fst (run_cas ex_store [([101], None, [1]); ([101], None, [2]); ([101], Some [1], [3]); ([101], None, [4])])
  = [(None, true); (Some [1], false); (Some [1], true); (Some [3], false)].
Proof. vm_compute. reflexivity. Qed.
(* a sequence with a half-failed batch put, a refused scan and a CAS without atomic mode *)
Example ex_sequence_outcomes :
  option_map (fun r => (fst r, map kv (snd r))) (run_ops (fun _ _ => 0) ex_store
    [OBatchPut [([97], mkEntry [5] 0); ([99], mkEntry [6] 0)] [([[98]], fun g _ => if bytes_eqb g [] then Served else Dropped)];
     OScan [] [] 20000 [];
     OCas false [97] None [1];
     ODeleteRange [98] [] [Some [[99]]; None];
     OScan [] [] 9 [[]]])
  = Some ([RErr; RErr; RErr; RErr; RPairs [([97], [5]); ([99], [3]); ([100], [4])]],
          [([97], [5]); ([99], [3]); ([100], [4])]).
Proof. vm_compute. reflexivity. Qed.
Example ex_wire :
  map triples (append_batches [([1], mkEntry [7] 3); ([2], mkEntry [8] 4); ([1], mkEntry [9] 5)] [[1]; [2]; [1]])
  = [[([1], [9], 5); ([2], [8], 4); ([1], [9], 5)]].
Proof. vm_compute. reflexivity. Qed.
Example ex_register :
  fst (store_run ex_store [([101], RegCas None [1]); ([97], RegGet); ([101], RegCas None [2]); ([101], RegDel); ([101], RegGet)])
  = [ResCas None true; ResVal (Some [9]); ResCas (Some [1]) false; ResUnit; ResVal None].
Proof. vm_compute. reflexivity. Qed.
Example ex_scan_stream :
  scan_reqs ex_store [[[98]; [99]]; [[98; 0]; [99]]; [[99]]] [97] [100] 3 0
  = [([97], [100], 3%nat); ([98], [100], 2%nat); ([98; 0], [100], 1%nat)].
Proof. vm_compute. reflexivity. Qed.
Example ex_drange_stream :
  drange_reqs [Some [[98]]; Some [[98; 0]; [99]]; None] [97; 0] [] = [([97; 0], [98]); ([98], [98; 0])].
Proof. vm_compute. reflexivity. Qed.
Example ex_partition : Permutation (flat_map snd (sub_batches key_chunks [[98]] [[99]; [97]; [99]])) [[99]; [97]; [99]].
Proof. apply C11_batches_partition_request. exact key_chunks_ok. Qed.
(* two overlapping CAS callers and a later reader: commit order = w1, w2, reader *)
Example ex_linearizable :
  let h := [mkTcall 1 2 5 [101] (RegCas None [1]); mkTcall 2 3 4 [101] (RegCas None [2]); mkTcall 6 7 8 [101] RegGet] in
  Forall tc_wf h /\ commit_order h /\
  fst (store_run ex_store (steps_of h)) = [ResCas None true; ResCas (Some [1]) false; ResVal (Some [1])].
Proof.
  cbv zeta. split; [repeat constructor|]. split; [repeat constructor|vm_compute; reflexivity].
Qed.
