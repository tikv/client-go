(* RawKV/ProofsShape.v — the output-shape oracles of the check as theorems: a scan result is strictly ascending
   (descending for ReverseScan), inside the range and no longer than the limit. They are read off the
   single-map result: sortedness passes through filter, firstn, rev and map kv. *)
From Coq Require Import Sorting.Sorted.
From Verif Require Import RawKV.Model RawKV.ProofsStore RawKV.ProofsLoops.

Lemma firstn_In {A} n (l : list A) x : In x (firstn n l) -> In x l.
Proof. intros H. rewrite <- (firstn_skipn n l). apply in_or_app. left; exact H. Qed.

Lemma SSorted_firstn {A} (R : A -> A -> Prop) n : forall l, StronglySorted R l -> StronglySorted R (firstn n l).
Proof.
  induction n as [|n IH]; intros l Hs; [constructor|].
  destruct l as [|a l]; [constructor|]. apply StronglySorted_inv in Hs. destruct Hs as [H1 H2]. cbn [firstn].
  constructor; [apply IH; exact H1|].
  rewrite Forall_forall in *. intros x Hx. apply H2. exact (firstn_In n l x Hx).
Qed.
Lemma SSorted_map {A B} (f : A -> B) (R : B -> B -> Prop) l :
  StronglySorted (fun x y => R (f x) (f y)) l -> StronglySorted R (map f l).
Proof.
  induction 1 as [|a l Hs IH Hf]; cbn [map]; constructor; [exact IH|].
  rewrite Forall_forall in *. intros y Hy. apply in_map_iff in Hy. destruct Hy as [x [<- Hx]]. exact (Hf x Hx).
Qed.
Lemma SSorted_rev {A} (R : A -> A -> Prop) l : StronglySorted R l -> StronglySorted (fun x y => R y x) (rev l).
Proof.
  induction 1 as [|a l Hs IH Hf]; cbn [rev]; [constructor|].
  assert (Hr : Forall (R a) (rev l)) by (rewrite Forall_forall in *; intros x Hx; apply Hf, in_rev, Hx).
  (* a goes after a list whose elements all precede it in the reversed order *)
  revert IH Hr. generalize (rev l). clear. induction l as [|y l IHl]; intros Hs Hr; cbn [app]; [constructor; constructor|].
  apply StronglySorted_inv in Hs. destruct Hs as [H1 H2]. inversion Hr as [|? ? F1 F2]; subst.
  constructor; [apply IHl; assumption|]. apply Forall_app. split; [exact H2|constructor; [exact F1|constructor]].
Qed.

Definition keys_asc (ps : list (list N * list N)) : Prop := StronglySorted (fun p q => klt (fst p) (fst q)) ps.
Definition keys_desc (ps : list (list N * list N)) : Prop := StronglySorted (fun p q => klt (fst q) (fst p)) ps.

Theorem scan_result_shape st Ls s e limit res :
  sorted st -> scan st Ls s e limit = Some res ->
  keys_asc res /\ (length res <= limit)%nat /\
  forall k v, In (k, v) res -> lex_leb s k = true /\ below k e = true /\ srv_get st k = Some v.
Proof.
  intros Hs H. apply (scan_correct _ _ _ _ _ _ Hs) in H. subst res. split; [|split].
  - apply (SSorted_map kv), SSorted_firstn, sorted_filter, Hs.
  - rewrite map_length. apply firstn_le_length.
  - intros k v Hin. apply in_map_iff in Hin. destruct Hin as [[k0 e0] [Hkv Hin]]. injection Hkv as <- <-.
    apply firstn_In, filter_In in Hin. destruct Hin as [Hin Hr].
    unfold in_range in Hr; cbn [fst] in Hr. apply andb_true_iff in Hr. split; [tauto|]. split; [tauto|].
    unfold srv_get. rewrite (st_get_In st k0 e0 Hs Hin). reflexivity.
Qed.

Theorem rscan_result_shape st Ls s e limit res :
  sorted st -> rscan st Ls s e limit = Some res ->
  keys_desc res /\ (length res <= limit)%nat /\
  forall k v, In (k, v) res -> lex_leb e k = true /\ lex_ltb k s = true.
Proof.
  intros Hs H. apply (rscan_total _ _ _ _ _ _ Hs) in H. subst res. destruct (is_nil s) eqn:Hne.
  { split; [constructor|]. split; [apply Nat.le_0_l|intros k v []]. }
  split; [|split].
  - apply (SSorted_map kv), SSorted_firstn, (SSorted_rev keys_lt), sorted_filter, Hs.
  - rewrite map_length. apply firstn_le_length.
  - intros k v Hin. apply in_map_iff in Hin. destruct Hin as [[k0 e0] [Hkv Hin]]. injection Hkv as <- <-.
    apply firstn_In, in_rev, filter_In in Hin. destruct Hin as [_ Hr].
    unfold in_range, below in Hr; cbn [fst] in Hr. apply andb_true_iff in Hr. destruct Hr as [H1 H2]. split; [exact H1|].
    rewrite Hne in H2. exact H2.
Qed.
