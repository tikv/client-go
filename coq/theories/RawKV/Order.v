(* RawKV/Order.v — byte strings under lex_cmp as an OrderedType (gives the `order` tactic),
   reflection of the boolean comparisons, and the "empty end key = +infinity" convention. *)
From Coq Require Import Orders OrdersFacts.
From Verif Require Export Base.Lex.

Module KeyOT <: OrderedType.
  Definition t := list N.
  Definition eq := @Logic.eq t.
  Definition eq_equiv : Equivalence eq := eq_equivalence.
  Definition lt := lex_lt.
  Lemma lt_irrefl x : ~ lt x x.
  Proof. exact (lex_lt_irrefl x). Qed.
  #[global] Instance lt_strorder : StrictOrder lt.
  Proof.
    split.
    - intros x H. exact (lt_irrefl x H).
    - intros x y z. apply lex_cmp_lt_trans.
  Qed.
  #[global] Instance lt_compat : Proper (eq ==> eq ==> iff) lt.
  Proof. intros a b -> c d ->. reflexivity. Qed.
  Definition compare := lex_cmp.
  Lemma compare_spec x y : CompareSpec (x = y) (lt x y) (lt y x) (compare x y).
  Proof.
    unfold compare, lt, lex_lt. destruct (lex_cmp x y) eqn:E.
    - constructor. apply lex_cmp_eq; exact E.
    - constructor. reflexivity.
    - constructor. rewrite (lex_cmp_antisym x y), E. reflexivity.
  Qed.
  Definition eq_dec (x y : t) : {x = y} + {x <> y}.
  Proof.
    destruct (lex_cmp x y) eqn:E.
    - left. apply lex_cmp_eq; exact E.
    - right. intros ->. rewrite lex_cmp_refl in E. discriminate.
    - right. intros ->. rewrite lex_cmp_refl in E. discriminate.
  Defined.
End KeyOT.
Module KF := OrderedTypeFacts KeyOT.

Notation key := (list N) (only parsing).
Notation klt := KeyOT.lt.

Definition is_nil {A} (l : list A) : bool := match l with [] => true | _ => false end.

Lemma is_nil_true {A} (l : list A) : is_nil l = true <-> l = [].
Proof. destruct l; cbn; split; congruence. Qed.
Lemma is_nil_false {A} (l : list A) : is_nil l = false <-> l <> [].
Proof. destruct l; cbn; split; congruence. Qed.

Lemma ltb_false a b : lex_ltb a b = false <-> ~ klt a b.
Proof. rewrite <- lex_ltb_lt. destruct (lex_ltb a b); split; congruence. Qed.
Lemma leb_true a b : lex_leb a b = true <-> ~ klt b a.
Proof. rewrite <- lex_leb_false. destruct (lex_leb a b); split; congruence. Qed.
Lemma eqb_false a b : bytes_eqb a b = false <-> a <> b.
Proof. rewrite <- bytes_eqb_eq. destruct (bytes_eqb a b); split; congruence. Qed.
Lemma eqb_refl k : bytes_eqb k k = true.
Proof. apply bytes_eqb_eq. reflexivity. Qed.
Lemma eqb_sym a b : bytes_eqb a b = bytes_eqb b a.
Proof. unfold bytes_eqb. rewrite (lex_cmp_antisym b a). destruct (lex_cmp b a); reflexivity. Qed.
Lemma nil_min (k : key) : ~ klt k [].
Proof. unfold KeyOT.lt, lex_lt. destruct k; cbn; discriminate. Qed.
Lemma nil_lt (k : key) : k <> [] -> klt [] k.
Proof. unfold KeyOT.lt, lex_lt. destruct k; cbn; congruence. Qed.
Lemma klt_ne_nil a b : klt a b -> b <> [].
Proof. intros H ->. exact (nil_min a H). Qed.
Lemma klt_not_nil a b : klt a b -> is_nil b = false.
Proof. intros H. apply is_nil_false, (klt_ne_nil a b H). Qed.

(* k < e where an empty e means +infinity (the Go code's `len(endKey) == 0 ||` idiom) *)
Definition below (k e : key) : bool := is_nil e || lex_ltb k e.

Lemma below_true k e : below k e = true <-> e = [] \/ klt k e.
Proof. unfold below. rewrite orb_true_iff, is_nil_true, lex_ltb_lt. reflexivity. Qed.
Lemma below_false k e : below k e = false <-> e <> [] /\ ~ klt k e.
Proof. unfold below. rewrite orb_false_iff, is_nil_false, ltb_false. reflexivity. Qed.

(* Goals about keys are boolean combinations of comparisons. `breflect` turns the comparisons in the
   context into propositions, `bcase` splits on those in the goal, `korder` closes an inconsistent
   context with the `order` tactic of the OrderedType (after telling it that [] is the least key),
   and `ksolve` = split on the goal, then finish by computation or by `korder`. *)
Ltac breflect :=
  repeat match goal with
  | H : lex_ltb _ _ = true |- _ => apply lex_ltb_lt in H
  | H : lex_ltb _ _ = false |- _ => apply ltb_false in H
  | H : lex_leb _ _ = true |- _ => apply leb_true in H
  | H : lex_leb _ _ = false |- _ => apply lex_leb_false in H
  | H : bytes_eqb _ _ = true |- _ => apply bytes_eqb_eq in H
  | H : bytes_eqb _ _ = false |- _ => apply eqb_false in H
  | H : is_nil _ = true |- _ => apply is_nil_true in H
  | H : is_nil _ = false |- _ => apply is_nil_false in H
  | H : below _ _ = false |- _ => apply below_false in H; destruct H
  end.
Ltac bcase :=
  repeat match goal with
  | |- context [lex_ltb ?a ?b] => let E := fresh "E" in destruct (lex_ltb a b) eqn:E
  | |- context [lex_leb ?a ?b] => let E := fresh "E" in destruct (lex_leb a b) eqn:E
  | |- context [bytes_eqb ?a ?b] => let E := fresh "E" in destruct (bytes_eqb a b) eqn:E
  | |- context [is_nil ?a] => let E := fresh "E" in destruct (is_nil a) eqn:E
  end.
Ltac korder :=
  breflect; subst;
  try (exfalso;
       repeat match goal with
       | H : ?k <> [] |- _ => lazymatch goal with | _ : klt [] k |- _ => fail | _ => pose proof (nil_lt k H) end
       end;
       repeat match goal with
       | H : klt ?k [] |- _ => exact (nil_min k H)
       end;
       KF.order).
Ltac ksolve := cbn [andb orb negb]; bcase; cbn [andb orb negb]; try reflexivity; try congruence; korder.
